(* ListLaws2.v — unique keeps the first member of each .== class; zip; range. *)
From Coq Require Import String Ascii List ZArith Bool Lia Permutation.
Require Import Blots.Num Blots.gen.Builtins Blots.Ast Blots.Value Blots.Outcome Blots.Access Blots.BuiltinsList Blots.proofs.ValueInd Blots.proofs.Order.
Import ListNotations.
Open Scope list_scope.

(* ---------------------------------------------------------------- Part 1: unique *)

(* keep x iff no EARLIER element of the input (kept or not) is .== to it *)
Fixpoint firsts (seen : list value) (l : list value) : list value :=
  match l with
  | [] => []
  | x :: r => if existsb (fun e => equals x e) seen then firsts (x :: seen) r else x :: firsts (x :: seen) r
  end.

Lemma existsb_kept_seen x kept seen :
  data x = true -> forallb data seen = true -> forallb data kept = true ->
  (forall k, In k kept -> In k seen) ->
  (forall s, In s seen -> exists k, In k kept /\ equals s k = true) ->
  existsb (fun e => equals x e) kept = existsb (fun e => equals x e) seen.
Proof.
  intros Hx Hs Hk Hsub Hcov.
  rewrite forallb_forall in Hs, Hk.
  destruct (existsb (fun e => equals x e) seen) eqn:E.
  - apply existsb_exists in E. destruct E as [s [Hin Hxs]].
    destruct (Hcov s Hin) as [k [Hkin Hsk]].
    apply existsb_exists. exists k. split; [assumption|].
    apply (equals_trans x s k); auto.
  - destruct (existsb (fun e => equals x e) kept) eqn:E2; [|reflexivity].
    apply existsb_exists in E2. destruct E2 as [k [Hkin Hxk]].
    assert (existsb (fun e => equals x e) seen = true) as E3.
    { apply existsb_exists. exists k. split; auto. }
    congruence.
Qed.

Lemma unique_go_firsts l : forall seen kept,
  forallb data l = true -> forallb data seen = true -> forallb data kept = true ->
  (forall k, In k kept -> In k seen) ->
  (forall s, In s seen -> exists k, In k kept /\ equals s k = true) ->
  unique_go l kept = kept ++ firsts seen l.
Proof.
  induction l as [|x r IH]; intros seen kept Hl Hs Hk Hsub Hcov.
  - cbn [unique_go firsts]. now rewrite app_nil_r.
  - cbn [forallb] in Hl. apply andb_true_iff in Hl. destruct Hl as [Hx Hr].
    cbn [unique_go firsts].
    rewrite (existsb_kept_seen x kept seen Hx Hs Hk Hsub Hcov).
    destruct (existsb (fun e => equals x e) seen) eqn:E.
    + apply IH; auto.
      * cbn [forallb]. now rewrite Hx, Hs.
      * intros k Hin. right. auto.
      * intros s [<-|Hin]; [|auto].
        apply existsb_exists in E. destruct E as [s [Hin Hxs]].
        destruct (Hcov s Hin) as [k [Hkin Hsk]].
        exists k. split; [assumption|].
        rewrite forallb_forall in Hs, Hk.
        apply (equals_trans x s k); auto.
    + rewrite (IH (x :: seen) (kept ++ [x])); auto.
      * now rewrite <- app_assoc.
      * cbn [forallb]. now rewrite Hx, Hs.
      * rewrite forallb_app. cbn [forallb]. now rewrite Hk, Hx.
      * intros k Hin. apply in_app_or in Hin. destruct Hin as [Hin|[<-|[]]].
        -- right. auto.
        -- now left.
      * intros s [<-|Hin].
        -- exists x. split; [apply in_or_app; right; now left|now apply equals_refl].
        -- destruct (Hcov s Hin) as [k [Hkin Hsk]]. exists k. split; [|assumption].
           apply in_or_app. now left.
Qed.

Lemma unique_first_of_class l : forallb data l = true -> bi_unique [VList l] = Ok (VList (firsts [] l)).
Proof.
  intros Hl. unfold bi_unique, arg. cbn [nth_error obind as_list].
  rewrite (unique_go_firsts l [] []); auto.
  - intros s [].
Qed.

Lemma firsts_incl l : forall seen y, In y (firsts seen l) -> In y l.
Proof.
  induction l as [|x r IH]; intros seen y; cbn [firsts]; [tauto|].
  destruct (existsb (fun e => equals x e) seen).
  - intros H. right. eauto.
  - intros [<-|H]; [now left|right; eauto].
Qed.

Lemma firsts_covers_gen l : forall seen x,
  forallb data l = true -> forallb data seen = true -> In x l ->
  (exists y, In y (firsts seen l) /\ equals x y = true) \/
  (exists s, In s seen /\ equals x s = true).
Proof.
  induction l as [|a r IH]; intros seen x Hl Hs Hin; [destruct Hin|].
  cbn [forallb] in Hl. apply andb_true_iff in Hl. destruct Hl as [Ha Hr].
  assert (Hxd : data x = true).
  { destruct Hin as [<-|Hin]; [assumption|]. rewrite forallb_forall in Hr. auto. }
  cbn [firsts].
  destruct (existsb (fun e => equals a e) seen) eqn:E.
  - apply existsb_exists in E. destruct E as [s' [Hs'in Has']].
    destruct Hin as [<-|Hin].
    + right. exists s'. auto.
    + destruct (IH (a :: seen) x Hr) as [H|[s [[<-|Hsin] Hxs]]]; auto.
      * cbn [forallb]. now rewrite Ha, Hs.
      * right. exists s'. split; [assumption|].
        rewrite forallb_forall in Hs.
        apply (equals_trans x a s'); auto.
      * right. exists s. auto.
  - destruct Hin as [<-|Hin].
    + left. exists a. split; [now left|now apply equals_refl].
    + destruct (IH (a :: seen) x Hr) as [[y [Hy Hxy]]|[s [[<-|Hsin] Hxs]]]; auto.
      * cbn [forallb]. now rewrite Ha, Hs.
      * left. exists y. split; [now right|assumption].
      * left. exists a. split; [now left|assumption].
      * right. exists s. auto.
Qed.

Lemma firsts_covers l x : forallb data l = true -> In x l -> exists y, In y (firsts [] l) /\ equals x y = true.
Proof.
  intros Hl Hin.
  destruct (firsts_covers_gen l [] x Hl eq_refl Hin) as [H|[s [[] _]]]. exact H.
Qed.

Lemma firsts_distinct_gen l : forall seen,
  forallb data l = true ->
  ForallOrdPairs (fun a b => equals a b = false) (firsts seen l) /\
  (forall y s, In y (firsts seen l) -> In s seen -> equals y s = false).
Proof.
  induction l as [|a r IH]; intros seen Hl.
  - cbn [firsts]. split; [constructor|intros y s []].
  - cbn [forallb] in Hl. apply andb_true_iff in Hl. destruct Hl as [Ha Hr].
    destruct (IH (a :: seen) Hr) as [IH1 IH2].
    cbn [firsts].
    destruct (existsb (fun e => equals a e) seen) eqn:E.
    + split; [assumption|]. intros y s Hy Hsin. apply IH2; [assumption|now right].
    + split.
      * constructor; [|assumption].
        apply Forall_forall. intros y Hy.
        assert (Hyd : data y = true).
        { rewrite forallb_forall in Hr. apply Hr. eapply firsts_incl; eauto. }
        rewrite (equals_sym a y Ha Hyd). apply IH2; [assumption|now left].
      * intros y s [<-|Hy] Hsin.
        -- destruct (equals a s) eqn:E2; [|reflexivity].
           assert (existsb (fun e => equals a e) seen = true) as E3.
           { apply existsb_exists. exists s. auto. }
           congruence.
        -- apply IH2; [assumption|now right].
Qed.

Lemma firsts_distinct l : forallb data l = true -> ForallOrdPairs (fun a b => equals a b = false) (firsts [] l).
Proof. intros Hl. apply (firsts_distinct_gen l [] Hl). Qed.

(* ---------------------------------------------------------------- Part 2: zip *)

Lemma mapM_VList ls :
  mapM (fun a => match a with VList l => Ok l | _ => Err end) (map VList ls) = Ok ls.
Proof.
  induction ls as [|l r IH]; [reflexivity|].
  cbn [map mapM obind]. rewrite IH. reflexivity.
Qed.

Lemma nth_error_seq s n i : (i < n)%nat -> nth_error (seq s n) i = Some (s + i)%nat.
Proof.
  revert s i. induction n as [|n IH]; intros s i Hi; [lia|].
  destruct i as [|i]; cbn [seq nth_error].
  - f_equal. lia.
  - rewrite IH by lia. f_equal. lia.
Qed.

Lemma zip_spec ls :
  exists rows, bi_zip (map VList ls) = Ok (VList rows) /\
    length rows = fold_left (fun m l => Nat.max m (length l)) ls 0%nat /\
    forall i, (i < length rows)%nat -> nth_error rows i = Some (VList (map (fun l => nth i l VNull) ls)).
Proof.
  exists (map (zip_tuple ls) (seq 0 (fold_left (fun m l => Nat.max m (length l)) ls 0%nat))).
  split; [|split].
  - unfold bi_zip. rewrite mapM_VList. reflexivity.
  - now rewrite map_length, seq_length.
  - intros i Hi. rewrite map_length, seq_length in Hi.
    apply (map_nth_error (zip_tuple ls)) with (n := i) (d := i).
    now rewrite nth_error_seq by assumption.
Qed.

Lemma fold_max_gen (ls : list (list value)) : forall m0,
  let m := fold_left (fun m l => Nat.max m (length l)) ls m0 in
  (m0 <= m)%nat /\ (forall l, In l ls -> (length l <= m)%nat) /\
  (m = m0 \/ exists l, In l ls /\ length l = m).
Proof.
  induction ls as [|a r IH]; intros m0; cbn [fold_left].
  - split; [lia|]. split; [intros l []|now left].
  - destruct (IH (Nat.max m0 (length a))) as [H1 [H2 H3]].
    cbv zeta in *.
    set (m := fold_left (fun m l => Nat.max m (length l)) r (Nat.max m0 (length a))) in *.
    split; [lia|]. split.
    + intros l [<-|Hin]; [lia|auto].
    + destruct H3 as [H3|[l [Hin Hl]]].
      * destruct (Nat.max_spec m0 (length a)) as [[_ Hm]|[_ Hm]].
        -- right. exists a. split; [now left|lia].
        -- left. lia.
      * right. exists l. split; [now right|assumption].
Qed.

Lemma zip_max_len ls :
  let m := fold_left (fun m l => Nat.max m (length l)) ls 0%nat in
  (forall l : list value, In l ls -> (length l <= m)%nat) /\ (ls <> [] -> exists l, In l ls /\ length l = m).
Proof.
  destruct (fold_max_gen ls 0%nat) as [_ [H2 H3]]. cbv zeta in *.
  split; [exact H2|].
  intros Hne. destruct H3 as [H3|H3]; [|exact H3].
  destruct ls as [|a r]; [congruence|].
  exists a. split; [now left|].
  specialize (H2 a (or_introl eq_refl)). lia.
Qed.

Lemma zip_wrong_type args : (exists a, In a args /\ match a with VList _ => False | _ => True end) -> bi_zip args = Err.
Proof.
  intros [a [Hin Ha]]. unfold bi_zip.
  assert (mapM (fun a => match a with VList l => Ok l | _ => Err end) args = Err) as ->; [|reflexivity].
  induction args as [|b r IH]; [destruct Hin|].
  cbn [mapM].
  destruct Hin as [->|Hin].
  - destruct a; try reflexivity. destruct Ha.
  - rewrite (IH Hin). destruct b; reflexivity.
Qed.

(* ---------------------------------------------------------------- Part 3: range *)

Lemma zrange_length s n : length (zrange s n) = n.
Proof. revert s. induction n as [|n IH]; intros s; cbn [zrange length]; [reflexivity|now rewrite IH]. Qed.

Lemma zrange_nth s n i : (i < n)%nat -> nth_error (zrange s n) i = Some (s + Z.of_nat i)%Z.
Proof.
  revert s i. induction n as [|n IH]; intros s i Hi; [lia|].
  destruct i as [|i]; cbn [zrange nth_error].
  - f_equal. lia.
  - rewrite IH by lia. f_equal. lia.
Qed.

Lemma clamp_id lo hi z : (lo <= z <= hi)%Z -> clamp lo hi z = z.
Proof.
  intros H. unfold clamp. destruct (Z.ltb_spec z lo); [lia|]. destruct (Z.ltb_spec hi z); [lia|reflexivity].
Qed.

Lemma range_spec x y a b :
  is_finite x = true -> is_finite y = true -> ngtb x y = false ->
  as_i64 x = a -> as_i64 y = b -> (a <= b)%Z -> (b - a <= U32_MAX)%Z ->
  bi_range [VNum x; VNum y] =
  Ok (VList (map (fun e => VNum (num_of_Z e)) (zrange a (Z.to_nat (b - a))))).
Proof.
  intros Hfx Hfy Hgt Ha Hb Hab Hlen.
  cbn [bi_range]. unfold range_body.
  rewrite Hgt, Hfx, Hfy, Ha, Hb. cbn [negb orb].
  rewrite clamp_id by (unfold U32_MAX, I64_MIN, I64_MAX in *; lia).
  replace (U32_MAX <? b - a)%Z with false by (symmetry; apply Z.ltb_ge; lia).
  reflexivity.
Qed.

(* a difference that does not fit the u32 cap — in particular one that saturates — is an error *)
Lemma range_too_long x y :
  is_finite x = true -> is_finite y = true -> ngtb x y = false ->
  (U32_MAX < as_i64 y - as_i64 x)%Z -> bi_range [VNum x; VNum y] = Err.
Proof.
  intros Hfx Hfy Hgt Hlen.
  cbn [bi_range]. unfold range_body. rewrite Hgt, Hfx, Hfy. cbn [negb orb].
  assert ((U32_MAX <? clamp I64_MIN I64_MAX (as_i64 y - as_i64 x))%Z = true) as ->; [|reflexivity].
  apply Z.ltb_lt. unfold clamp, U32_MAX, I64_MIN, I64_MAX in *.
  destruct (Z.ltb_spec (as_i64 y - as_i64 x) (- 2 ^ 63)); [lia|].
  destruct (Z.ltb_spec (2 ^ 63 - 1) (as_i64 y - as_i64 x)); lia.
Qed.

Lemma range_body_no_panic s e : range_body s e <> Panic.
Proof.
  unfold range_body.
  destruct (ngtb s e); [discriminate|].
  destruct (negb (is_finite s) || negb (is_finite e)); [discriminate|].
  destruct (U32_MAX <? clamp I64_MIN I64_MAX (as_i64 e - as_i64 s))%Z; discriminate.
Qed.

(* range never panics, whatever it is given (was: C14-range-overflow, fixed by fb5b104) *)
Lemma range_no_panic args : bi_range args <> Panic.
Proof.
  destruct args as [|a1 [|a2 [|a3 r]]].
  - cbn [bi_range]. discriminate.
  - destruct a1; try (cbn [bi_range]; discriminate).
    cbn [bi_range]. apply range_body_no_panic.
  - destruct a1; try (cbn [bi_range]; discriminate).
    destruct a2; try (cbn [bi_range]; discriminate).
    cbn [bi_range]. apply range_body_no_panic.
  - destruct a1; try (cbn [bi_range]; discriminate).
    destruct a2; cbn [bi_range]; discriminate.
Qed.

Example range_old_witness :
  bi_range [VNum (num_of_Z (-(10^19))); VNum (num_of_Z (10^19))] = Err.
Proof. vm_compute. reflexivity. Qed.
