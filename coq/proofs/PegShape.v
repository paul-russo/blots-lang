(* proofs/PegShape.v — the shape of the pair trees Peg.parse returns (C09 parser half: the facts behind
   forest_shape_ok / forest_view_ok).
   1 (every grammar): [run_nodes] / [parse_nodes] — a per-rule postcondition `C r consumed kids`, established for the
     BODY of each rule in the mode `call_with` runs it, holds of EVERY node of EVERY tree any run produces
     (induction on the fuel; PegGeneric.run_good supplies the position bookkeeping).
   2 (every grammar): a body `"//" ~ skip_until [.. "\n" ..]` consumes "//" and no line feed.
   3 (gen/Grammar.v): hence the text of every `comment` / `eol_comment` pair.
   4 (every grammar): [run_tops] — the top-level rule names an expression appends to the pair list, in an
     emitting context, belong to the language [tops e] read off the expression (quiet rules contribute nothing,
     a non-silent rule exactly its own name); [tops_enum] / [tops_names] compute with it.
   5 (gen/Grammar.v): the rule names of the inner pairs of list_item, record_item, statement, do_statement,
     return_statement; those of a `do_block` are (comment | do_statement)* return_statement. *)
From Coq Require Import String Ascii List NArith Bool Arith Lia ZifyBool ZifyNat ZifyN.
Require Import Blots.Formatter Blots.gen.Grammar Blots.PegToItems Blots.PegComments Blots.proofs.PegComments
               Blots.proofs.PegCommentsCompose Blots.proofs.PegFuelBlots.
Require Import Blots.Peg Blots.proofs.PegGeneric Blots.proofs.PegQuiet.
Import ListNotations.

Section Nodes.
  Variable R : Type.
  Variable G : grammar R.
  Notation st := (st R).
  Notation res := (res R).
  Notation runner := (runner R).
  Variable text : string.

  (* the state sits at byte offset [pos] of [text] *)
  Definition at_text (s : st) : Prop :=
    exists k, k <= String.length text /\ pos s = N.of_nat k /\ rest s = sdrop k text.
  Definition tslice (s e : N) : string := stake (N.to_nat (e - s)) (sdrop (N.to_nat s) text).

  (* the per-node property: rule, text under the span, inner pairs *)
  Variable C : R -> string -> list (tree R) -> Prop.
  Fixpoint tree_ok (t : tree R) : Prop :=
    match t with
    | Node r s e kids =>
        C r (tslice s e) kids /\
        (fix go (l : list (tree R)) : Prop := match l with [] => True | k :: l' => tree_ok k /\ go l' end) kids
    end.
  Definition forest_all (l : list (tree R)) : Prop := Forall tree_ok l.
  Lemma tree_ok_node : forall r s e kids, tree_ok (Node r s e kids) <-> C r (tslice s e) kids /\ forest_all kids.
  Proof.
    intros r s e kids. cbn [tree_ok]. unfold forest_all.
    assert (E : forall l, (fix go (l : list (tree R)) : Prop :=
                             match l with [] => True | k :: l' => tree_ok k /\ go l' end) l <-> Forall tree_ok l).
    { induction l as [|k l IH]; split; intro H.
      - constructor.
      - exact I.
      - destruct H as [H1 H2]. constructor; [exact H1|apply IH; exact H2].
      - inversion H; subst. split; [assumption|apply IH; assumption]. }
    rewrite E. reflexivity.
  Qed.

  Lemma at_text_adv : forall s s', at_text s -> adv R s s' -> at_text s'.
  Proof.
    intros s s' (k & L & P & E) (j & Lj & Ej & Pj). rewrite E in Lj. rewrite sdrop_length in Lj by assumption.
    exists (k + j). split; [lia|]. split; [lia|]. rewrite Ej, E. apply sdrop_sdrop.
  Qed.
  Lemma at_text_same : forall s s', at_text s -> pos s' = pos s -> rest s' = rest s -> at_text s'.
  Proof. intros s s' (k & L & P & E) Hp Hr. exists k. rewrite Hp, Hr. auto. Qed.
  Lemma at_text_good_ok : forall la s s', at_text s -> good R la s (Ok s') -> at_text s'.
  Proof. intros la s s' H Hg. destruct Hg as (A & _). eapply at_text_adv; eassumption. Qed.
  Lemma at_text_good_fail : forall la s s', at_text s -> good R la s (Fail s') -> at_text s'.
  Proof. intros la s s' H (P & E & _). eapply at_text_same; eassumption. Qed.

  (* the text a successful run consumed is the slice of the text between the two positions *)
  Lemma consumed_slice : forall s s', at_text s -> adv R s s' ->
    stake (N.to_nat (pos s' - pos s)) (rest s) = tslice (pos s) (pos s').
  Proof.
    intros s s' (k & L & P & E) _. unfold tslice. rewrite E, P, Nat2N.id. reflexivity.
  Qed.

  (* ---------------------------------------------------------------- the invariant *)
  Definition outs_ok (r : res) : Prop :=
    match r with Ok s' => forest_all (out s') | Fail s' => forest_all (out s') | _ => True end.
  (* [g] keeps the invariant, and is [good] (positions) *)
  Definition ok_fun (la : bool) (g : st -> res) : Prop :=
    good_fun R la g /\ forall s, at_text s -> forest_all (out s) -> outs_ok (g s).

  Lemma ok_bind : forall la s r f, at_text s -> good R la s r -> outs_ok r -> ok_fun la f -> outs_ok (bind r f).
  Proof.
    intros la s r f Ht Hg Ho [_ Hf]. destruct r; simpl in *; auto.
    apply Hf; [eapply at_text_good_ok; eassumption|exact Ho].
  Qed.
  Lemma ok_sequence : forall s r, forest_all (out s) -> outs_ok r -> outs_ok (sequence s r).
  Proof. intros s r Hs H. destruct r; simpl in *; auto. Qed.
  Lemma ok_optional : forall r, outs_ok r -> outs_ok (optional r).
  Proof. intros r H. destruct r; simpl in *; auto. Qed.

  Lemma ok_repeat : forall la n f, ok_fun la f -> ok_fun la (repeat_loop n f).
  Proof.
    intros la n f [Hg Hf]. split; [apply good_repeat; exact Hg|].
    induction n as [|n IH]; intros s Ht Ho; simpl; [exact I|].
    pose proof (Hf s Ht Ho) as H. pose proof (Hg s) as Hgs. destruct (f s) eqn:E; simpl in *; auto.
    apply IH; [eapply at_text_good_ok; [exact Ht|exact Hgs]|exact H].
  Qed.

  Lemma ok_lookahead : forall p f, ok_fun true f -> forall la, ok_fun la (lookahead p f).
  Proof.
    intros p f [Hg Hf] la. split; [apply good_lookahead; exact Hg|]. intros s Ht Ho. unfold lookahead.
    assert (Ht' : at_text (set_stk s (stack_snapshot (stk s)))) by (eapply at_text_same; [exact Ht|reflexivity|reflexivity]).
    pose proof (Hf _ Ht' Ho) as H.
    destruct (f (set_stk s (stack_snapshot (stk s)))) eqn:E; simpl in *; auto; destruct p; simpl; auto.
  Qed.
  Lemma ok_restore : forall la f, ok_fun la f -> ok_fun la (restore_on_err f).
  Proof.
    intros la f [Hg Hf]. split; [apply good_restore; exact Hg|]. intros s Ht Ho. unfold restore_on_err.
    assert (Ht' : at_text (set_stk s (stack_snapshot (stk s)))) by (eapply at_text_same; [exact Ht|reflexivity|reflexivity]).
    pose proof (Hf _ Ht' Ho) as H.
    destruct (f (set_stk s (stack_snapshot (stk s)))) eqn:E; simpl in *; auto.
  Qed.
  Lemma ok_push : forall la f, ok_fun la f -> ok_fun la (do_push f).
  Proof.
    intros la f [Hg Hf]. split; [apply good_push; exact Hg|]. intros s Ht Ho. unfold do_push.
    pose proof (Hf _ Ht Ho) as H. destruct (f s) eqn:E; simpl in *; auto.
  Qed.

  (* the only place a node is made *)
  Lemma ok_rule_wrap : forall r a la f, ok_fun la f ->
    (emits a la = true -> forall s s1, at_text s -> out s = [] -> f s = Ok s1 -> forest_all (out s1) ->
        C r (stake (N.to_nat (pos s1 - pos s)) (rest s)) (rev (out s1))) ->
    ok_fun la (rule_wrap r a la f).
  Proof.
    intros r a la f [Hg Hf] Hc. split; [apply good_rule_wrap; exact Hg|]. intros s Ht Ho. unfold rule_wrap.
    destruct (emits a la) eqn:Em; [|apply Hf; assumption].
    assert (Ht' : at_text (set_out s [])) by (eapply at_text_same; [exact Ht|reflexivity|reflexivity]).
    pose proof (Hf _ Ht' (Forall_nil _)) as H. pose proof (Hg (set_out s [])) as Hgs.
    destruct (f (set_out s [])) as [s1|s1| |] eqn:E; simpl in *; auto.
    constructor; [|exact Ho]. apply tree_ok_node. split.
    - destruct Hgs as (A & _). pose proof (consumed_slice (set_out s []) s1 Ht' A) as Hcs.
      cbn [pos rest set_out] in Hcs. rewrite <- Hcs.
      exact (Hc eq_refl (set_out s []) s1 Ht' eq_refl E H).
    - unfold forest_all. apply Forall_rev. exact H.
  Qed.

  (* what call_with does with a rule: the mode, the atomicity of the body, the atomicity rule_wrap sees *)
  Definition r_mode (d : rdef R) : bool :=
    (match rd_mod d with MAtomic | MCompound => true | _ => false end) || rd_trivia d.
  Definition r_body_atom (d : rdef R) (a : atomicity) : atomicity :=
    let a' := match rd_mod d with MAtomic => Atomic | MCompound => CompoundAtomic | MNonAtomic => NonAtomic | _ => a end in
    if rd_trivia d && negb (match rd_mod d with MAtomic | MCompound => true | _ => false end) then Atomic else a'.
  Definition r_wrap_atom (d : rdef R) (a : atomicity) : atomicity :=
    match rd_mod d with MCompound => CompoundAtomic | MNonAtomic => NonAtomic | _ => a end.

  (* HYPOTHESIS per rule: running the body, in the mode call_with uses, from an empty pair list, gives C *)
  Definition body_gives (rf : runner) : Prop :=
    forall r a s s1,
      rd_mod (g_def G r) <> MSilent ->
      emits (r_wrap_atom (g_def G r) a) false = true ->
      at_text s -> out s = [] ->
      rf (r_mode (g_def G r)) (r_body_atom (g_def G r) a) false (rd_body (g_def G r)) s = Ok s1 ->
      forest_all (out s1) ->
      C r (stake (N.to_nat (pos s1 - pos s)) (rest s)) (rev (out s1)).

  Definition ok_runner (rf : runner) : Prop := forall m a la e, ok_fun la (rf m a la e).

  Lemma emits_la : forall a la, emits a la = true -> la = false.
  Proof. intros a la H. unfold emits in H. destruct la; [discriminate H|reflexivity]. Qed.

  Lemma ok_call : forall rf, ok_runner rf -> body_gives rf -> forall a la r, ok_fun la (call_with G rf a la r).
  Proof.
    intros rf H Hb a la r. unfold call_with.
    pose proof (Hb r a) as Hbr. unfold r_mode, r_body_atom, r_wrap_atom in Hbr.
    destruct (rd_mod (g_def G r)) eqn:Em; [|apply H| | |];
      (apply ok_rule_wrap; [apply H|]; intros He s s1 Ht Ho E Hf; pose proof (emits_la _ _ He) as ->;
       apply Hbr; auto; try discriminate;
       cbn [orb] in *; destruct (rd_trivia (g_def G r)); cbn [andb negb] in *; exact E).
  Qed.

  Lemma ok_fun_seq_bind : forall la (f g : st -> res), ok_fun la f -> ok_fun la g ->
    ok_fun la (fun s => sequence s (bind (f s) g)).
  Proof.
    intros la f g [Hgf Hf] [Hgg Hg]. split.
    - intro s. apply good_sequence_bind; [apply Hgf|exact Hgg].
    - intros s Ht Ho. apply ok_sequence; [exact Ho|].
      eapply ok_bind; [exact Ht|apply Hgf|apply Hf; assumption|split; assumption].
  Qed.

  Lemma ok_skip : forall n call, (forall a la r, ok_fun la (call a la r)) ->
    forall a la, ok_fun la (skip_with G n call a la).
  Proof.
    intros n call H a la.
    assert (Hgood : good_fun R la (skip_with G n call a la)) by (apply good_skip; intros; apply H).
    split; [exact Hgood|]. intros s Ht Ho. unfold skip_with.
    destruct a; try (simpl; exact Ho).
    destruct (g_ws G) as [w|], (g_comment G) as [c|]; try (simpl; exact Ho).
    - refine (proj2 (ok_fun_seq_bind la _ _ (ok_repeat la n _ (H _ _ w)) _) s Ht Ho).
      apply ok_repeat. apply ok_fun_seq_bind; [apply H|]. apply ok_repeat. apply H.
    - apply (ok_repeat la n _ (H _ _ w)); assumption.
    - apply (ok_repeat la n _ (H _ _ c)); assumption.
  Qed.

  Theorem run_nodes : forall f, (forall f', f' < f -> body_gives (run G f')) -> ok_runner (run G f).
  Proof.
    induction f as [|f IH]; intros Hb m a la e.
    { split; [apply run_good|]. intros s _ _. exact I. }
    assert (IHr : ok_runner (run G f)) by (apply IH; intros f' L; apply Hb; lia).
    assert (Hbf : body_gives (run G f)) by (apply Hb; lia).
    pose proof (ok_call _ IHr Hbf) as IHc.
    pose proof (fun a la => ok_skip f _ IHc a la) as IHs.
    split; [apply run_good|]. intros s Ht Ho.
    destruct (terminal R e) eqn:T.
    { pose proof (good_true_quiet R _ _ (terminal_good R G f m a la e T s)) as Hq.
      destruct (run G (S f) m a la e s); simpl in *; try rewrite Hq; auto. }
    rewrite run_S. cbv zeta.
    destruct e as [x|x|lo hi|r|b|x|x|x y|x y|x|x|ss|x|x]; try discriminate T.
    - apply IHc; assumption.
    - apply (ok_lookahead true _ (IHr m a true x)); assumption.
    - apply (ok_lookahead false _ (IHr m a true x)); assumption.
    - destruct m.
      + exact (proj2 (ok_fun_seq_bind la _ _ (IHr true a la x) (IHr true a la y)) s Ht Ho).
      + rewrite seq_nested.
        exact (proj2 (ok_fun_seq_bind la _ _ (ok_fun_seq_bind la _ _ (IHr false a la x) (IHs a la)) (IHr false a la y))
                     s Ht Ho).
    - pose proof (proj2 (IHr m a la x) s Ht Ho) as H1. pose proof (proj1 (IHr m a la x) s) as G1.
      destruct (run G f m a la x s) eqn:E1; auto.
      apply (proj2 (IHr m a la y)); [eapply at_text_good_fail; [exact Ht|exact G1]|exact H1].
    - apply ok_optional. apply (proj2 (IHr m a la x)); assumption.
    - destruct m.
      + apply (proj2 (ok_repeat la f _ (IHr true a la x))); assumption.
      + apply ok_sequence; [exact Ho|]. apply ok_optional.
        eapply ok_bind; [exact Ht|apply (proj1 (IHr false a la x))|apply (proj2 (IHr false a la x)); assumption|].
        apply ok_repeat. exact (ok_fun_seq_bind la _ _ (IHs a la) (IHr false a la x)).
    - apply (proj2 (ok_push la _ (IHr m a la x))); assumption.
    - apply (proj2 (ok_restore la _ (IHr m a la x))); assumption.
  Qed.

  (* for every text: all nodes of all trees of a parse satisfy C *)
  Theorem parse_nodes : (forall f, body_gives (run G f)) ->
    forall f r s', parse G f r text = Ok s' -> forest_all (out s').
  Proof.
    intros Hb f r s' H. unfold parse in H.
    assert (Hr : ok_runner (run G f)) by (apply run_nodes; intros; apply Hb).
    pose proof (proj2 (ok_call _ Hr (Hb f) NonAtomic false r) (init text)) as Hc.
    rewrite H in Hc. apply Hc.
    - exists 0. simpl. repeat split; lia.
    - constructor.
  Qed.
End Nodes.

(* ================================================================== 2: comment texts (any grammar) *)
Local Open Scope string_scope.

Definition LFs : string := String "010"%char EmptyString.

Lemma nl_free_cons : forall c t, nl_free (String c t) = negb (Ascii.eqb c NLc) && nl_free t.
Proof. intros c t. unfold nl_free. cbn [contains_nl]. destruct (Ascii.eqb c NLc); reflexivity. Qed.

(* skip_until over a set containing "\n" never steps over a line feed *)
Lemma skip_until_no_lf : forall ss, In LFs ss -> forall t p,
  exists k, k <= String.length t /\ skip_until_pos ss p t = ((p + N.of_nat k)%N, sdrop k t)
            /\ nl_free (stake k t) = true.
Proof.
  intros ss Hin. induction t as [|c t IH]; intro p.
  - exists 0. split; [simpl; lia|]. split; [|reflexivity]. cbn [skip_until_pos sdrop].
    destruct (existsb _ ss); f_equal; lia.
  - cbn [skip_until_pos].
    destruct (existsb (fun x => match drop_prefix x (String c t) with Some _ => true | None => false end) ss) eqn:Ex.
    + exists 0. split; [simpl; lia|]. split; [cbn [sdrop]; f_equal; lia|reflexivity].
    + destruct (IH (p + 1)%N) as (k & L & E & F). exists (S k). split; [simpl; lia|]. split.
      * rewrite E. cbn [sdrop]. f_equal. lia.
      * cbn [stake]. rewrite nl_free_cons, F, andb_true_r.
        destruct (Ascii.eqb c NLc) eqn:Ec; [|reflexivity]. exfalso.
        apply Ascii.eqb_eq in Ec. subst c.
        assert (Hx : existsb (fun x => match drop_prefix x (String NLc t) with Some _ => true | None => false end) ss = true).
        { apply existsb_exists. exists LFs. split; [exact Hin|]. unfold LFs, NLc. cbn [drop_prefix].
          rewrite Ascii.eqb_refl. reflexivity. }
        rewrite Hx in Ex. discriminate Ex.
Qed.

Definition comment_text_ok (t : string) : Prop :=
  exists r, t = String "/" (String "/" r) /\ nl_free r = true.

Lemma comment_text_ok_nl_free : forall t, comment_text_ok t -> nl_free t = true.
Proof. intros t (r & -> & H). rewrite !nl_free_cons, H. reflexivity. Qed.

Section CommentBody.
  Variable R : Type.
  Variable G : grammar R.
  (* the body of pest's optimized `"//" ~ (!NEWLINE-ish ~ ANY)*` = Seq (Str "//") (SkipUntil [.. "\n" ..]), atomic mode *)
  Lemma comment_body_inv : forall fu a la ss (s s1 : st R),
    run G fu true a la (Seq (Str "//") (SkipUntil ss)) s = Ok s1 ->
    exists t, rest s = "//" ++ t /\ (pos s1, rest s1) = skip_until_pos ss (pos s + 2) t.
  Proof.
    intros fu a la ss s s1 H. destruct fu as [|[|fu]]; [discriminate H|discriminate H|].
    rewrite run_S in H. cbv zeta in H. rewrite !run_S in H. cbv zeta in H.
    unfold match_string in H. destruct (drop_prefix "//" (rest s)) as [t|] eqn:Ed; [|discriminate H].
    cbn [bind] in H. rewrite run_S in H. cbv zeta in H. cbn [set_pos pos rest] in H.
    exists t. split; [exact (drop_prefix_app_inv _ _ _ Ed)|]. change (slen "//") with 2%N in H.
    destruct (skip_until_pos ss (pos s + 2) t) as [p r]. cbn [sequence] in H. inversion H. reflexivity.
  Qed.

  Lemma comment_body_consumes : forall fu a la ss (s s1 : st R), In LFs ss ->
    run G fu true a la (Seq (Str "//") (SkipUntil ss)) s = Ok s1 ->
    comment_text_ok (stake (N.to_nat (pos s1 - pos s)) (rest s)).
  Proof.
    intros fu a la ss s s1 Hin H. destruct (comment_body_inv _ _ _ _ _ _ H) as (t & Er & E).
    destruct (skip_until_no_lf ss Hin t (pos s + 2)%N) as (k & L & Ek & F).
    rewrite Ek in E. injection E as Ep _. rewrite Ep, Er.
    replace (N.to_nat (pos s + 2 + N.of_nat k - pos s)) with (S (S k)) by lia.
    exists (stake k t). split; [reflexivity|exact F].
  Qed.
End CommentBody.

(* ================================================================== 3: gen/Grammar.v — comment pairs *)
Definition C_comment (r : grule) (txt : string) (kids : list (tree grule)) : Prop :=
  is_comment_rule r = true -> comment_text_ok txt.

Lemma blots_comment_body_gives : forall text f, body_gives grule blots_grammar text C_comment (run blots_grammar f).
Proof.
  intros text f r a s s1 _ _ _ _ H _ Hc.
  destruct r; try discriminate Hc.
  - refine (comment_body_consumes grule blots_grammar f _ false _ s s1 _ H). right. left. reflexivity.
  - refine (comment_body_consumes grule blots_grammar f _ false _ s s1 _ H). right. left. reflexivity.
Qed.

Lemma tree_comments_ok : forall text t,
  tree_ok grule text C_comment t -> Forall comment_text_ok (tree_comments text t).
Proof.
  intro text. fix IH 1. intros [r s e kids] H. cbn [tree_ok] in H. destruct H as [Hc Hk]. cbn [tree_comments].
  apply Forall_app. split.
  - destruct (is_comment_rule r) eqn:Ec; [|constructor]. constructor; [exact (Hc Ec)|constructor].
  - clear Hc. induction kids as [|k kids IHk]; [constructor|]. destruct Hk as [H1 H2].
    apply Forall_app. split; [apply IH; exact H1|apply IHk; exact H2].
Qed.

Lemma forest_comments_ok : forall text l,
  forest_all grule text C_comment l -> Forall comment_text_ok (forest_comments text l).
Proof.
  intros text l H. unfold forest_comments. induction H as [|t l Ht _ IH]; [constructor|].
  cbn [flat_map]. apply Forall_app. split; [apply tree_comments_ok; exact Ht|exact IH].
Qed.

(* SHAPE, comment texts: for EVERY text the interpreter accepts, every `comment` / `eol_comment` pair of the tree,
   at any depth, has a text "//" ++ r with no line feed in r *)
Theorem shape_comment_texts : forall fuel text s',
  Peg.parse blots_grammar fuel PG_input text = Peg.Ok s' ->
  Forall comment_text_ok (forest_comments text (rev (out s'))).
Proof.
  intros fuel text s' H. apply forest_comments_ok. unfold forest_all. apply Forall_rev.
  exact (parse_nodes grule blots_grammar text C_comment (blots_comment_body_gives text) fuel PG_input s' H).
Qed.

Theorem shape_comment_texts_program : forall text forest p,
  parse_program_c text = PCOk forest p ->
  Forall comment_text_ok (forest_comments text forest).
Proof.
  intros text forest p H. destruct (parse_program_c_ok _ _ _ H) as (s & Hs & -> & _).
  exact (shape_comment_texts _ _ _ Hs).
Qed.

(* ================================================================== 4: top-level rule names (any grammar) *)
Local Open Scope list_scope.
Section Tops.
  Variable R : Type.
  Variable G : grammar R.
  Notation st := (st R).
  Notation res := (res R).

  Definition troot (t : tree R) : R := match t with Node r _ _ _ => r end.
  Definition silentb (r : R) : bool := match rd_mod (g_def G r) with MSilent => true | _ => false end.

  (* Q: a quiet set (PegQuiet) containing the implicit-skip rules and every silent trivia rule;
     S: a specification of the top-level pairs of the other silent rules, closed under unfolding *)
  Variable Q : R -> bool.
  Hypothesis Q_silent : forall r, Q r = true -> rd_mod (g_def G r) = MSilent.
  Hypothesis Q_closed : forall r, Q r = true -> forallb Q (idents R (rd_body (g_def G r))) = true.
  Hypothesis Q_ws : forall w, g_ws G = Some w -> Q w = true.
  Hypothesis Q_comment : forall c, g_comment G = Some c -> Q c = true.
  Hypothesis Q_trivia : forall r, silentb r = true -> rd_trivia (g_def G r) = true -> Q r = true.
  Variable S : R -> list R -> Prop.

  Definition star (P : list R -> Prop) (l : list R) : Prop := exists ls, l = concat ls /\ Forall P ls.

  Fixpoint tops (e : expr R) (l : list R) : Prop :=
    match e with
    | Ident r => if Q r then l = [] else if silentb r then S r l else l = [r]
    | Seq a b => exists l1 l2, l = l1 ++ l2 /\ tops a l1 /\ tops b l2
    | Choice a b => tops a l \/ tops b l
    | Opt x => l = [] \/ tops x l
    | Rep x => star (tops x) l
    | Push x | RestoreOnErr x => tops x l
    | _ => l = []
    end.

  Hypothesis S_sound : forall r, silentb r = true -> Q r = false ->
    forall l, tops (rd_body (g_def G r)) l -> S r l.

  Definition adds (P : list R -> Prop) (s : st) (r : res) : Prop :=
    match r with
    | Ok s' => exists new, out s' = new ++ out s /\ P (map troot (rev new))
    | Fail s' => out s' = out s
    | _ => True
    end.
  Definition adds_fun (P : list R -> Prop) (g : st -> res) : Prop := forall s, adds P s (g s).
  Definition nothing (l : list R) : Prop := l = [].

  Lemma adds_quiet : forall s r, quiet R s r -> adds nothing s r.
  Proof. intros s r H. destruct r; simpl in *; auto. exists []. split; [exact H|reflexivity]. Qed.
  Lemma adds_weaken : forall (P P' : list R -> Prop) s r, (forall l, P l -> P' l) -> adds P s r -> adds P' s r.
  Proof. intros P P' s r H Ha. destruct r; simpl in *; auto. destruct Ha as (n & O & Hp). exists n. auto. Qed.

  Definition cat (P1 P2 : list R -> Prop) (l : list R) : Prop := exists l1 l2, l = l1 ++ l2 /\ P1 l1 /\ P2 l2.

  (* x then y inside one `sequence`: the pairs of both, in order (a failure resets [out]) *)
  Lemma adds_seq : forall P1 P2 s r g, adds P1 s r -> adds_fun P2 g -> adds (cat P1 P2) s (sequence s (bind r g)).
  Proof.
    intros P1 P2 s r g Hr H2. destruct r as [s0|s0| |]; simpl in *; auto.
    pose proof (H2 s0) as H. destruct (g s0) as [s1|s1| |]; simpl in *; auto.
    destruct Hr as (n1 & O1 & L1). destruct H as (n2 & O2 & L2).
    exists (n2 ++ n1). rewrite O2, O1, app_assoc. split; [reflexivity|].
    rewrite rev_app_distr, map_app. exists (map troot (rev n1)), (map troot (rev n2)). auto.
  Qed.
  Lemma cat_nothing_r : forall (P : list R -> Prop) l, cat P nothing l -> P l.
  Proof. intros P l (l1 & l2 & -> & H1 & ->). rewrite app_nil_r. exact H1. Qed.
  Lemma cat_nothing_l : forall (P : list R -> Prop) l, cat nothing P l -> P l.
  Proof. intros P l (l1 & l2 & -> & -> & H2). exact H2. Qed.
  Lemma adds_optional : forall P s r, adds P s r -> adds (fun l => l = [] \/ P l) s (optional r).
  Proof.
    intros P s r H. destruct r; simpl in *; auto.
    - destruct H as (n & O & Hp). exists n. auto.
    - exists []. split; [exact H|left; reflexivity].
  Qed.

  Lemma star_nil : forall P, star P [].
  Proof. intro P. exists []. split; [reflexivity|constructor]. Qed.
  Lemma star_cons : forall (P : list R -> Prop) l1 l2, P l1 -> star P l2 -> star P (l1 ++ l2).
  Proof. intros P l1 l2 H (ls & E & F). exists (l1 :: ls). split; [simpl; rewrite E; reflexivity|constructor; assumption]. Qed.
  Lemma star_nothing : forall l, star nothing l -> l = [].
  Proof.
    intros l (ls & E & F). subst l. induction F as [|x ls Hx _ IH]; [reflexivity|].
    simpl. rewrite Hx, IH. reflexivity.
  Qed.

  Lemma adds_opt_bind : forall (P : list R -> Prop) s r h, adds P s r -> adds_fun (star P) h ->
    adds (star P) s (optional (bind r h)).
  Proof.
    intros P s r h H Hh. destruct r as [s0|s0| |]; simpl in *; auto.
    - destruct H as (n1 & O1 & H1). pose proof (Hh s0) as H2.
      destruct (h s0) as [s1|s1| |]; simpl in *; auto.
      + destruct H2 as (n2 & O2 & Hs). exists (n2 ++ n1). rewrite O2, O1, app_assoc. split; [reflexivity|].
        rewrite rev_app_distr, map_app. apply star_cons; assumption.
      + exists n1. rewrite H2. split; [exact O1|]. rewrite <- (app_nil_r (map troot (rev n1))).
        apply star_cons; [exact H1|apply star_nil].
    - exists []. split; [exact H|apply star_nil].
  Qed.
  Lemma adds_repeat : forall P n g, adds_fun P g -> adds_fun (star P) (repeat_loop n g).
  Proof.
    intros P n g Hg. induction n as [|n IH]; intro s; [exact I|].
    rewrite repeat_loop_S. apply adds_opt_bind; [apply Hg|exact IH].
  Qed.

  Definition tops_runner (rf : runner R) : Prop :=
    forall m a e, a <> Atomic -> adds_fun (tops e) (rf m a false e).

  Lemma emits_true : forall a, a <> Atomic -> emits a false = true.
  Proof. intros a H. unfold emits. destruct a; try reflexivity. congruence. Qed.

  Lemma adds_rule_wrap : forall r a f, a <> Atomic -> adds_fun (fun l => l = [r]) (rule_wrap r a false f).
  Proof.
    intros r a f Ha s. unfold rule_wrap. rewrite (emits_true a Ha).
    destruct (f (set_out s [])) as [s1|s1| |] eqn:E; simpl; auto.
    exists [Node r (pos s) (pos s1) (rev (out s1))]. split; reflexivity.
  Qed.

  Theorem run_tops : forall f, tops_runner (run G f).
  Proof.
    induction f as [|f IH]; intros m a e Ha s; [exact I|].
    assert (Hq : quiet_runner R Q (run G f)) by (apply run_quiet; assumption).
    assert (Hskip : adds_fun nothing (skip_with G f (call_with G (run G f)) a false)).
    { intro s0. apply adds_quiet. apply (quiet_skip R G Q Q_silent Q_closed Q_ws Q_comment f _ Hq). }
    assert (Hla : forall x, quiet_fun R (run G f m a true x)).
    { intros x s0. apply good_true_quiet, run_good. }
    destruct (terminal R e) eqn:T.
    { destruct e; try discriminate T; apply adds_quiet, good_true_quiet, terminal_good; exact T. }
    rewrite run_S. cbv zeta.
    destruct e as [x|x|lo hi|r|b|x|x|x y|x y|x|x|ss|x|x]; try discriminate T; cbn [tops].
    - (* Ident *)
      destruct (Q r) eqn:Eq.
      { apply adds_quiet. apply (quiet_call R G Q Q_silent Q_closed _ Hq). exact Eq. }
      unfold silentb, call_with.
      destruct (rd_mod (g_def G r)) eqn:Em; try (apply adds_rule_wrap; first [exact Ha|discriminate]).
      (* silent, not quiet: not a trivia rule; its body runs in the caller's atomicity *)
      destruct (rd_trivia (g_def G r)) eqn:Et.
      { assert (Hs : silentb r = true) by (unfold silentb; rewrite Em; reflexivity).
        rewrite (Q_trivia r Hs Et) in Eq. discriminate Eq. }
      cbn [orb andb]. eapply adds_weaken; [|apply (IH false a _ Ha)].
      apply S_sound; [unfold silentb; rewrite Em; reflexivity|exact Eq].
    - apply adds_quiet, quiet_lookahead, Hla.
    - apply adds_quiet, quiet_lookahead, Hla.
    - (* Seq *)
      destruct m.
      + apply (adds_seq (tops x) (tops y)); apply IH; exact Ha.
      + rewrite seq_nested. apply (adds_seq (tops x) (tops y)); [|apply IH; exact Ha].
        eapply adds_weaken; [apply cat_nothing_r|]. apply adds_seq; [apply IH; exact Ha|exact Hskip].
    - (* Choice *)
      pose proof (IH m a x Ha s) as H1. destruct (run G f m a false x s) as [s1|s1| |] eqn:E1; simpl in *; auto.
      + destruct H1 as (n & O & H1). exists n. auto.
      + pose proof (IH m a y Ha s1) as H2. destruct (run G f m a false y s1) as [s2|s2| |]; simpl in *; auto.
        * destruct H2 as (n & O & H2). exists n. rewrite <- H1. auto.
        * congruence.
    - (* Opt *) apply adds_optional. apply (IH m a x Ha).
    - (* Rep *)
      destruct m.
      + apply adds_repeat. apply (IH true a x Ha).
      + rewrite sequence_optional. apply adds_opt_bind; [apply (IH false a x Ha)|]. apply adds_repeat.
        intro s1. eapply adds_weaken; [apply cat_nothing_l|]. apply adds_seq; [apply Hskip|apply IH; exact Ha].
    - (* Push *) unfold do_push. pose proof (IH m a x Ha s) as H. destruct (run G f m a false x s); simpl in *; auto.
    - (* RestoreOnErr *)
      unfold restore_on_err. pose proof (IH m a x Ha (set_stk s (stack_snapshot (stk s)))) as H.
      destruct (run G f m a false x (set_stk s (stack_snapshot (stk s)))); simpl in *; auto.
  Qed.
End Tops.

(* ---------------------------------------------------------------- computing with [tops] *)
Section TopsEnum.
  Variable R : Type.
  Variable G : grammar R.
  Variable Q : R -> bool.
  (* finite specification of the silent, non-quiet rules: [Senum r = Some ls] = the top-level names are one of ls *)
  Variable Senum : R -> option (list (list R)).
  Variable all_rules : list R.
  Hypothesis all_rules_all : forall r, In r all_rules.
  Definition S_of (r : R) (l : list R) : Prop := match Senum r with Some ls => In l ls | None => True end.
  Definition Snames (r : R) : list R := match Senum r with Some ls => concat ls | None => all_rules end.
  Notation tops := (tops R G Q S_of).
  Notation silentb := (silentb R G).

  Definition is_nil (l : list R) : bool := match l with [] => true | _ => false end.
  Fixpoint enum (e : expr R) : option (list (list R)) :=
    match e with
    | Ident r => if Q r then Some [[]] else if silentb r then Senum r else Some [[r]]
    | Seq a b =>
        match enum a, enum b with
        | Some la, Some lb => Some (flat_map (fun x => map (app x) lb) la)
        | _, _ => None
        end
    | Choice a b => match enum a, enum b with Some la, Some lb => Some (la ++ lb) | _, _ => None end
    | Opt x => match enum x with Some lx => Some ([] :: lx) | None => None end
    | Rep x => match enum x with Some lx => if forallb is_nil lx then Some [[]] else None | None => None end
    | Push x | RestoreOnErr x => enum x
    | _ => Some [[]]
    end.

  Lemma star_all_nil : forall (P : list R -> Prop) l, (forall x, P x -> x = []) -> star R P l -> l = [].
  Proof.
    intros P l H (ls & E & F). subst l. induction F as [|x ls Hx _ IH]; [reflexivity|].
    simpl. rewrite (H x Hx), IH. reflexivity.
  Qed.

  Lemma tops_enum : forall e l ls, tops e l -> enum e = Some ls -> In l ls.
  Proof.
    induction e as [x|x|lo hi|r|b|x IHx|x IHx|e1 IHe1 e2 IHe2|e1 IHe1 e2 IHe2|e IHe|e IHe|ss|e IHe|e IHe]; intros l ls H E; cbn [PegShape.tops enum] in *;
      try (inversion E; subst ls; left; symmetry; exact H).
    - (* Ident *)
      destruct (Q r); [inversion E; subst ls; left; symmetry; exact H|].
      destruct (silentb r).
      + unfold S_of in H. rewrite E in H. exact H.
      + inversion E; subst ls. left. symmetry. exact H.
    - (* Seq *)
      destruct H as (l1 & l2 & -> & H1 & H2).
      destruct (enum e1) as [la|]; [|discriminate E]. destruct (enum e2) as [lb|]; [|discriminate E].
      inversion E; subst ls. apply in_flat_map. exists l1. split; [apply IHe1; auto|].
      apply in_map. apply IHe2; auto.
    - (* Choice *)
      destruct (enum e1) as [la|]; [|discriminate E]. destruct (enum e2) as [lb|]; [|discriminate E].
      inversion E; subst ls. apply in_or_app. destruct H as [H|H]; [left; apply IHe1|right; apply IHe2]; auto.
    - (* Opt *)
      destruct (enum e) as [lx|]; [|discriminate E]. inversion E; subst ls.
      destruct H as [->|H]; [left; reflexivity|right; apply IHe; auto].
    - (* Rep *)
      destruct (enum e) as [lx|]; [|discriminate E].
      destruct (forallb is_nil lx) eqn:Hn; [|discriminate E]. inversion E; subst ls. left. symmetry.
      apply (star_all_nil (tops e)); [|exact H]. intros x Hx.
      pose proof (IHe x lx Hx eq_refl) as Hin. rewrite forallb_forall in Hn. specialize (Hn x Hin).
      destruct x; [reflexivity|discriminate Hn].
    - apply IHe; assumption.
    - apply IHe; assumption.
  Qed.

  Lemma tops_enum_nil : forall e l ls, tops e l -> enum e = Some ls -> forallb is_nil ls = true -> l = [].
  Proof.
    intros e l ls H E Hn. pose proof (tops_enum e l ls H E) as Hin. rewrite forallb_forall in Hn.
    specialize (Hn l Hin). destruct l; [reflexivity|discriminate Hn].
  Qed.

  (* every top-level name comes from a rule reference of the expression *)
  Fixpoint names (e : expr R) : list R :=
    match e with
    | Ident r => if Q r then [] else if silentb r then Snames r else [r]
    | Seq a b | Choice a b => names a ++ names b
    | Opt x | Rep x | Push x | RestoreOnErr x => names x
    | _ => []
    end.
  Lemma tops_names : forall e l, tops e l -> Forall (fun r => In r (names e)) l.
  Proof.
    induction e as [x|x|lo hi|r|b|x IHx|x IHx|e1 IHe1 e2 IHe2|e1 IHe1 e2 IHe2|e IHe|e IHe|ss|e IHe|e IHe]; intros l H; cbn [PegShape.tops names] in *; try (subst l; constructor).
    - destruct (Q r); [subst l; constructor|]. destruct (silentb r).
      + unfold S_of, Snames in *. destruct (Senum r) as [ls|].
        * apply Forall_forall. intros x Hx. apply in_concat. exists l. auto.
        * apply Forall_forall. intros x _. apply all_rules_all.
      + subst l. constructor; [left; reflexivity|constructor].
    - destruct H as (l1 & l2 & -> & H1 & H2). apply Forall_app. split.
      + eapply Forall_impl; [|apply IHe1; exact H1]. intros x Hx. apply in_or_app. left. exact Hx.
      + eapply Forall_impl; [|apply IHe2; exact H2]. intros x Hx. apply in_or_app. right. exact Hx.
    - destruct H as [H|H].
      + eapply Forall_impl; [|apply IHe1; exact H]. intros x Hx. apply in_or_app. left. exact Hx.
      + eapply Forall_impl; [|apply IHe2; exact H]. intros x Hx. apply in_or_app. right. exact Hx.
    - destruct H as [->|H]; [constructor|apply IHe; exact H].
    - destruct H as (ls & -> & F). induction F as [|x ls Hx _ IH]; [constructor|].
      simpl. apply Forall_app. split; [apply IHe; exact Hx|exact IH].
    - apply IHe; exact H.
    - apply IHe; exact H.
  Qed.
End TopsEnum.

(* ================================================================== 5: gen/Grammar.v — inner pairs *)

Definition blots_Senum (r : grule) : option (list (list grule)) :=
  match r with
  | PG_spreadable_expression => Some [[PG_spread_expression]; [PG_expression]]
  | _ => None
  end.
Local Notation BQ := in_newline_quiet.
Local Notation BS := (S_of grule blots_Senum).
Local Notation btops := (tops grule blots_grammar BQ BS).
Local Notation benum := (enum grule blots_grammar BQ blots_Senum).
Local Notation bnames := (names grule blots_grammar BQ blots_Senum all_grules).

Lemma BQ_silent : forall r, BQ r = true -> rd_mod (g_def blots_grammar r) = MSilent.
Proof. intros r. destruct r; vm_compute; intro H; try discriminate H; reflexivity. Qed.
Lemma BQ_closed : forall r, BQ r = true -> forallb BQ (idents grule (rd_body (g_def blots_grammar r))) = true.
Proof. intros r. destruct r; vm_compute; intro H; try discriminate H; reflexivity. Qed.
Lemma BQ_ws : forall w, g_ws blots_grammar = Some w -> BQ w = true.
Proof. intros w H. vm_compute in H. inversion H. reflexivity. Qed.
Lemma BQ_comment : forall c, g_comment blots_grammar = Some c -> BQ c = true.
Proof. intros c H. vm_compute in H. discriminate H. Qed.
Lemma BQ_trivia : forall r, silentb grule blots_grammar r = true -> rd_trivia (g_def blots_grammar r) = true -> BQ r = true.
Proof. intros r. destruct r; vm_compute; intros H1 H2; try discriminate H1; try discriminate H2; reflexivity. Qed.

Lemma BS_sound : forall r, silentb grule blots_grammar r = true -> BQ r = false ->
  forall l, btops (rd_body (g_def blots_grammar r)) l -> BS r l.
Proof.
  intros r _ _ l H. unfold S_of. destruct (blots_Senum r) as [ls|] eqn:E; [|exact I].
  destruct r; try discriminate E. inversion E; subst ls.
  refine (tops_enum grule blots_grammar BQ blots_Senum _ l _ H _). vm_compute. reflexivity.
Qed.

Definition blots_run_tops := run_tops grule blots_grammar BQ BQ_silent BQ_closed BQ_ws BQ_comment BQ_trivia BS BS_sound.

(* the rule names of the inner pairs, per rule *)
Definition kids_spec (r : grule) (l : list grule) : Prop :=
  match r with
  | PG_do_block =>
      exists pre, l = pre ++ [PG_return_statement] /\ Forall (fun x => x = PG_comment \/ x = PG_do_statement) pre
  | PG_return_statement => l = [PG_expression]
  | PG_do_statement =>
      In l [[PG_expression]; [PG_expression; PG_comment]; [PG_comment]; [PG_comment; PG_comment]]
  | PG_list_item =>
      In l [[PG_spread_expression]; [PG_spread_expression; PG_eol_comment]; [PG_expression]; [PG_expression; PG_eol_comment]]
  | PG_record_item =>
      In l [[PG_record_pair]; [PG_record_pair; PG_eol_comment]; [PG_record_shorthand];
            [PG_record_shorthand; PG_eol_comment]; [PG_spread_expression]; [PG_spread_expression; PG_eol_comment]]
  | PG_statement =>
      In l [[PG_output_declaration]; [PG_output_declaration; PG_comment]; [PG_expression]; [PG_expression; PG_comment];
            [PG_comment]; [PG_comment; PG_comment]]
  | _ => True
  end.
Definition C_kids (r : grule) (txt : string) (kids : list (tree grule)) : Prop := kids_spec r (map trule kids).

Lemma emits_not_atomic : forall a, emits a false = true -> a <> Atomic.
Proof. intros a H E. subst a. discriminate H. Qed.

Lemma do_block_tops : forall l, btops (rd_body (grule_def PG_do_block)) l -> kids_spec PG_do_block l.
Proof.
  intros l H. cbn [grule_def rd_body] in H.
  destruct H as (l0 & l1 & -> & H0 & H). cbn [PegShape.tops] in H0. subst l0.
  destruct H as (lw & l2 & -> & Hw & H).
  pose proof (tops_enum_nil grule blots_grammar BQ blots_Senum _ _ _ Hw eq_refl eq_refl) as Ew.
  subst lw. clear Hw.
  destruct H as (l3 & l4 & -> & H3 & H). cbn [PegShape.tops] in H3. subst l3.
  destruct H as (r1 & l5 & -> & H1 & H).
  destruct H as (r2 & l6 & -> & H2 & H).
  destruct H as (r3 & l7 & -> & H3 & H).
  destruct H as (rt & l8 & -> & Ht & H).
  destruct H as (lw2 & l9 & -> & Hw2 & H9). cbn [PegShape.tops] in H9. subst l9.
  pose proof (tops_enum_nil grule blots_grammar BQ blots_Senum _ _ _ Hw2 eq_refl eq_refl) as Ew2.
  subst lw2. clear Hw2.
  assert (Ert : rt = [PG_return_statement]) by exact Ht. subst rt.
  apply (tops_names grule blots_grammar BQ blots_Senum all_grules all_grules_complete) in H1, H2, H3.
  exists (r1 ++ r2 ++ r3). split; [cbn [app]; rewrite ?app_nil_r, <- ?app_assoc; reflexivity|].
  assert (Hn : forall e l', Forall (fun r => In r (bnames e)) l' ->
                 forallb (fun x => orb (grule_eqb x PG_comment) (grule_eqb x PG_do_statement)) (bnames e) = true ->
                 Forall (fun x => x = PG_comment \/ x = PG_do_statement) l').
  { intros e l' F Hb. eapply Forall_impl; [|exact F]. intros x Hx. rewrite forallb_forall in Hb.
    specialize (Hb x Hx). destruct x; vm_compute in Hb; try discriminate Hb; auto. }
  rewrite !Forall_app. repeat split; (eapply Hn; [eassumption|vm_compute; reflexivity]).
Qed.

Lemma blots_kids_body_gives : forall text f, body_gives grule blots_grammar text C_kids (run blots_grammar f).
Proof.
  intros text f r a s s1 Hns Hem Ht Ho H Hf. unfold C_kids.
  assert (Hgen : r_body_atom grule (g_def blots_grammar r) a <> Atomic ->
                 btops (rd_body (g_def blots_grammar r)) (map trule (rev (out s1)))).
  { intro Ha. pose proof (blots_run_tops f (r_mode grule (g_def blots_grammar r)) _ (rd_body (g_def blots_grammar r)) Ha s) as Hr.
    rewrite H in Hr. destruct Hr as (new & O & Hr). rewrite Ho, app_nil_r in O. rewrite O. exact Hr. }
  destruct r; try exact I; cbn [kids_spec];
    (lapply Hgen; [clear Hgen; intro Hgen|first [discriminate|apply emits_not_atomic; exact Hem]]).
  - (* list_item *) refine (tops_enum grule blots_grammar BQ blots_Senum _ _ _ Hgen _). vm_compute. reflexivity.
  - (* record_item *) refine (tops_enum grule blots_grammar BQ blots_Senum _ _ _ Hgen _). vm_compute. reflexivity.
  - (* do_statement *) refine (tops_enum grule blots_grammar BQ blots_Senum _ _ _ Hgen _). vm_compute. reflexivity.
  - (* return_statement *)
    assert (E : In (map trule (rev (out s1))) [[PG_expression]]).
    { refine (tops_enum grule blots_grammar BQ blots_Senum _ _ _ Hgen _). vm_compute. reflexivity. }
    destruct E as [<-|[]]. reflexivity.
  - (* do_block *) apply do_block_tops. exact Hgen.
  - (* statement *) refine (tops_enum grule blots_grammar BQ blots_Senum _ _ _ Hgen _). vm_compute. reflexivity.
Qed.

(* SHAPE, inner pairs: for EVERY text the interpreter accepts, every node of every tree satisfies kids_spec *)
Theorem shape_kids : forall fuel text s',
  Peg.parse blots_grammar fuel PG_input text = Peg.Ok s' ->
  forest_all grule text C_kids (rev (out s')).
Proof.
  intros fuel text s' H. unfold forest_all. apply Forall_rev.
  exact (parse_nodes grule blots_grammar text C_kids (blots_kids_body_gives text) fuel PG_input s' H).
Qed.
