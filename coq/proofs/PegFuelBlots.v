(* PegFuelBlots.v — the termination theorem of PegFuel.v instantiated for the REGENERATED grammar gen/Grammar.v.
   The certificate (nullable set, per-rule depth budgets for C = 48 levels per byte) is COMPUTED here from the
   grammar on every build ([PegWf.nullable_rules], [PegTerm.dz_table]) and validated by [term_cert] under
   vm_compute: an edit of grammar.pest that introduces left recursion, a nullable repetition body, or a
   consuming cycle deeper than 48 levels per byte — or that pushes the start-up depth of a rule above 128 — breaks
   [blots_term_cert] / [blots_dz_le_128], i.e. the proof, not silently the model. *)
From Coq Require Import String Ascii List NArith Bool Arith Lia.
Require Import Blots.Peg Blots.PegWf Blots.PegTerm Blots.gen.Grammar Blots.proofs.PegGeneric Blots.proofs.PegFuel.
Import ListNotations.

Definition blots_nl : list grule := Eval vm_compute in nullable_rules blots_grammar all_grules grule_index.
(* levels of nesting paid for by one consumed byte: the 48 of [Peg.peg_fuel] *)
Definition blots_C : nat := 48.
Definition blots_dz_tab : list nat :=
  Eval vm_compute in dz_table blots_grammar all_grules grule_index blots_nl blots_C (List.length all_grules).
Definition blots_dz : grule -> nat := dz_of grule_index blots_dz_tab.

Lemma all_grules_complete : forall r : grule, In r all_grules.
Proof. intro r. apply (nth_error_In all_grules (N.to_nat (grule_index r))). destruct r; reflexivity. Qed.

Lemma blots_term_cert : term_cert blots_grammar all_grules grule_index blots_nl blots_C blots_dz = true.
Proof. vm_compute. reflexivity. Qed.

(* the start-up budget of every rule is within the constant part of peg_fuel *)
Lemma blots_dz_le_128 : forallb (fun r => Nat.leb (blots_dz r) 128) all_grules = true.
Proof. vm_compute. reflexivity. Qed.

(* the smallest C for which the computed table is a certificate is recorded for the notes (not used) *)
Example blots_cert_needs_more_than_28 :
  let tab := dz_table blots_grammar all_grules grule_index blots_nl 28 (List.length all_grules) in
  term_cert blots_grammar all_grules grule_index blots_nl 28 (dz_of grule_index tab) = false.
Proof. vm_compute. reflexivity. Qed.

Theorem blots_parse_total : forall fuel r text,
    term_fuel blots_C blots_dz r text <= fuel -> parse blots_grammar fuel r text <> OutOfFuel.
Proof.
  exact (parse_total grule blots_grammar all_grules grule_index blots_nl blots_C blots_dz
                     all_grules_complete blots_term_cert).
Qed.

Lemma peg_fuel_enough : forall r text, term_fuel blots_C blots_dz r text <= peg_fuel text.
Proof.
  intros r text. unfold term_fuel, peg_fuel, blots_C.
  pose proof blots_dz_le_128 as H. rewrite forallb_forall in H. specialize (H r (all_grules_complete r)).
  apply Nat.leb_le in H. lia.
Qed.

(* with the fuel the model and the correspondence streams use, parsing never runs out of fuel — for EVERY text
   and every start rule *)
Theorem blots_peg_total : forall r text, parse blots_grammar (peg_fuel text) r text <> OutOfFuel.
Proof. intros r text. apply blots_parse_total. apply peg_fuel_enough. Qed.

(* hence the result is the same for every larger fuel: acceptance is a total function of the text *)
Theorem blots_parse_fuel_independent : forall fuel r text,
    peg_fuel text <= fuel -> parse blots_grammar fuel r text = parse blots_grammar (peg_fuel text) r text.
Proof.
  intros fuel r text L. apply parse_fuel_mono; [exact L|apply blots_peg_total].
Qed.

(* the same for [run] on any expression of the grammar, in any state *)
Theorem blots_run_total : forall fuel m a la e (s : st grule),
    String.length (rest s) * blots_C + dl blots_grammar grule_index blots_nl blots_C blots_dz e <= fuel ->
    reps_progress grule grule_index blots_nl e = true ->
    run blots_grammar fuel m a la e s <> OutOfFuel.
Proof.
  exact (run_total grule blots_grammar all_grules grule_index blots_nl blots_C blots_dz
                   all_grules_complete blots_term_cert).
Qed.

(* the certificate check does refuse a left-recursive grammar (whatever budgets are offered) and a nullable
   repetition body *)
Lemma cert_refuses_left_recursion : forall C d,
  term_cert (mkgrammar (fun _ : unit => mkdef MNormal false (Seq (Ident tt) (Str "x"))) None None) [tt] (fun _ => 0%N)
            [] C (fun _ => d) = false.
Proof.
  intros C d. unfold term_cert. cbn. destruct C; [reflexivity|]. cbn.
  destruct d as [|[|m]]; [reflexivity|reflexivity|].
  replace (Nat.leb (S (S m)) m) with false; [reflexivity|]. symmetry. apply Nat.leb_gt. lia.
Qed.
Lemma cert_refuses_nullable_repetition : forall nl C dz,
  term_cert (mkgrammar (fun _ : unit => mkdef MNormal false (Rep (Opt (Str "x")))) None None) [tt] (fun _ => 0%N)
            nl C dz = false.
Proof. intros nl C dz. unfold term_cert. cbn. rewrite !andb_false_r. reflexivity. Qed.
