(* TextValidNoGlue.v — the Pratt half of "pairs_to_expr never panics" (C01; the PEG half — that the inner
   pairs of every `expression` the grammar produces alternate this way — is NOT proved, see notes/ext-pf2.md).

   An item is classified by the operator table: primary (not registered as an operator), prefix / infix (registered with that
   affix AND with an arm in map_prefix / map_infix), postfix (registered postfix AND one of the four shapes map_postfix
   handles).  A token stream ALTERNATES when it reads  OPERAND (infix OPERAND)..., OPERAND = prefix... primary postfix...,
   [alt_ok true]; it alternates DEEPLY [stream_ok] when every nested stream (list / record / do elements, lambda body,
   conditional parts, assignment value, access index, call arguments, parenthesised expression) does too.
   pratt_no_panic: for ANY table / maps and ANY fuel, pairs_to_expr_inner on a deeply alternating stream is never Panic:
   none of pest's "Expected prefix or primary expression" / "Expected operator" / "Expected postfix or infix expression"
   panics, none of the closures' unreachable!() arms, not the `expect` on an empty stream. *)
From Coq Require Import String List Bool Arith.
Require Import Blots.Num Blots.gen.Builtins Blots.Ast Blots.Outcome Blots.PrattTypes Blots.gen.PrecTable Blots.Pratt
               Blots.proofs.PrattSteps.
Import ListNotations.
Local Open Scope list_scope.

Definition np {A} (x : outcome A) : Prop := match x with Panic => False | _ => True end.
Lemma np_neq {A} (x : outcome A) : np x -> x <> Panic.
Proof. intros H E. subst x. exact H. Qed.
Lemma np_bind {A B} (o : outcome A) (k : A -> outcome B) : np o -> (forall a, np (k a)) -> np (obind o k).
Proof. intros H K. destruct o; cbn [obind]; try exact I; [apply K | contradiction]. Qed.

Inductive icls := CPrim | CPre | CInf | CPost | CBad.

Section Alt.
  Variable tbl : ops_map.
  Variable imap : list (oprule * binop).
  Variable pmap : list (oprule * prefix_ctor).

  Definition cls (i : item) : icls :=
    match item_op i with
    | None => CPrim
    | Some r =>
        match ops_get tbl r with
        | Some (Prefix, _) => match assoc_find r pmap with Some _ => CPre | None => CBad end
        | Some (Infix _, _) => match assoc_find r imap with Some _ => CInf | None => CBad end
        | Some (Postfix, _) =>
            match i with
            | IOp R_factorial | IAccess _ | IDot _ | ICall _ => CPost
            | _ => CBad
            end
        | None => CBad
        end
    end.

  (* need = true: an operand has to start here; need = false: an operand has just been completed *)
  Fixpoint alt_ok (need : bool) (l : list item) : bool :=
    match l with
    | [] => negb need
    | i :: r =>
        match cls i, need with
        | CPre, true => alt_ok true r
        | CPrim, true => alt_ok false r
        | CPost, false => alt_ok false r
        | CInf, false => alt_ok true r
        | _, _ => false
        end
    end.

  Fixpoint deep_itemb (i : item) : bool :=
    let vs := fix vs (l : list item) : bool := match l with [] => true | x :: r => deep_itemb x && vs r end in
    let st := fun g : list item => alt_ok true g && vs g in
    match i with
    | IExpr _ g => st g
    | IList els =>
        (fix go (l : list lelem) : bool :=
           match l with [] => true | LCom _ :: r => go r | LItem g _ :: r => st g && go r end) els
    | IRecord els =>
        (fix go (l : list relem) : bool :=
           match l with
           | [] => true
           | RCom _ :: r => go r
           | RPairI k v _ :: r => match k with RKDyn inner => st inner | _ => true end && st v && go r
           | RShortI _ _ :: r => go r
           | RSpreadI g _ :: r => st g && go r
           end) els
    | ILambda _ body => st body
    | ICond c t e => st c && st t && st e
    | IDo els =>
        (fix go (l : list delem) : bool :=
           match l with
           | [] => true
           | DStmt g _ :: r => st g && go r
           | DRet g :: r => st g && go r
           | DComStmt _ _ :: r => go r
           | DCom _ :: r => go r
           end) els
    | IAssign _ v => st v
    | IAccess inner => st inner
    | ICall args =>
        (fix go (l : list (list item)) : bool := match l with [] => true | g :: r => st g && go r end) args
    | INum _ | IBadNum | IStr _ | IBool _ | INull | IIdent _ | IInRef _ | IOp _ | IDot _ => true
    end.
  Fixpoint deep_itemsb (l : list item) : bool :=
    match l with [] => true | x :: r => deep_itemb x && deep_itemsb r end.
  Definition stream_ok (g : list item) : bool := alt_ok true g && deep_itemsb g.
  Fixpoint deep_lelsb (l : list lelem) : bool :=
    match l with [] => true | LCom _ :: r => deep_lelsb r | LItem g _ :: r => stream_ok g && deep_lelsb r end.
  Definition deep_rkeyb (k : rkeyi) : bool := match k with RKDyn inner => stream_ok inner | _ => true end.
  Fixpoint deep_relsb (l : list relem) : bool :=
    match l with
    | [] => true
    | RCom _ :: r => deep_relsb r
    | RPairI k v _ :: r => deep_rkeyb k && stream_ok v && deep_relsb r
    | RShortI _ _ :: r => deep_relsb r
    | RSpreadI g _ :: r => stream_ok g && deep_relsb r
    end.
  Fixpoint deep_delsb (l : list delem) : bool :=
    match l with
    | [] => true
    | DStmt g _ :: r => stream_ok g && deep_delsb r
    | DRet g :: r => stream_ok g && deep_delsb r
    | DComStmt _ _ :: r => deep_delsb r
    | DCom _ :: r => deep_delsb r
    end.
  Fixpoint deep_argsb (l : list (list item)) : bool :=
    match l with [] => true | g :: r => stream_ok g && deep_argsb r end.

  Lemma dI_IExpr : forall b g, deep_itemb (IExpr b g) = stream_ok g. Proof. reflexivity. Qed.
  Lemma dI_IList : forall els, deep_itemb (IList els) = deep_lelsb els. Proof. reflexivity. Qed.
  Lemma dI_IRecord : forall els, deep_itemb (IRecord els) = deep_relsb els. Proof. reflexivity. Qed.
  Lemma dI_ILambda : forall a g, deep_itemb (ILambda a g) = stream_ok g. Proof. reflexivity. Qed.
  Lemma dI_ICond : forall c t e, deep_itemb (ICond c t e) = stream_ok c && stream_ok t && stream_ok e.
  Proof. reflexivity. Qed.
  Lemma dI_IDo : forall els, deep_itemb (IDo els) = deep_delsb els. Proof. reflexivity. Qed.
  Lemma dI_IAssign : forall x v, deep_itemb (IAssign x v) = stream_ok v. Proof. reflexivity. Qed.
  Lemma dI_IAccess : forall g, deep_itemb (IAccess g) = stream_ok g. Proof. reflexivity. Qed.
  Lemma dI_ICall : forall args, deep_itemb (ICall args) = deep_argsb args. Proof. reflexivity. Qed.

  (* ---------------------------------------------------------------- the element loops *)
  Section Loops.
    Variable parse : list item -> outcome tres.
    Hypothesis parse_np : forall g, stream_ok g = true -> np (parse g).

    Lemma list_loop_np : forall els, deep_lelsb els = true -> np (list_loop parse els).
    Proof.
      induction els as [|[s|g eol] els IH]; intro V; cbn [list_loop deep_lelsb] in *; [exact I|exact (IH V)|].
      apply andb_true_iff in V as [Vg Vr]. apply np_bind; [exact (parse_np g Vg)|]. intros [e|]; [|exact I].
      apply np_bind; [exact (IH Vr) | intros; exact I].
    Qed.
    Lemma key_of_np : forall k, deep_rkeyb k = true -> np (key_of parse k).
    Proof.
      intros [s|s|inner] V; cbn [key_of deep_rkeyb] in *; try exact I.
      apply np_bind; [exact (parse_np inner V) | intros; exact I].
    Qed.
    Lemma rec_loop_np : forall els, deep_relsb els = true -> np (rec_loop parse els).
    Proof.
      induction els as [|[s|k v eol|s eol|g eol] els IH]; intro V; cbn [rec_loop deep_relsb] in *;
        [exact I|exact (IH V)| | |].
      - apply andb_true_iff in V as [V Vr]. apply andb_true_iff in V as [Vk Vv].
        apply np_bind; [exact (key_of_np k Vk)|]. intros [key|]; [|exact I].
        apply np_bind; [exact (parse_np v Vv)|]. intros [val|]; [|exact I].
        apply np_bind; [exact (IH Vr) | intros; exact I].
      - apply np_bind; [exact (IH V) | intros; exact I].
      - apply andb_true_iff in V as [Vg Vr]. apply np_bind; [exact (parse_np g Vg)|]. intros [e|]; [|exact I].
        apply np_bind; [exact (IH Vr) | intros; exact I].
    Qed.
    Lemma do_loop_np : forall els stmts ret, deep_delsb els = true -> np (do_loop parse els stmts ret).
    Proof.
      induction els as [|[g c|s c|g|s] els IH]; intros stmts ret V; cbn [do_loop deep_delsb] in *;
        [exact I| |exact (IH _ _ V)| |exact (IH _ _ V)].
      - apply andb_true_iff in V as [Vg Vr]. apply np_bind; [exact (parse_np g Vg)|]. intros [e|]; [|exact I]. apply IH; exact Vr.
      - apply andb_true_iff in V as [Vg Vr]. apply np_bind; [exact (parse_np g Vg)|]. intros [e|]; [|exact I]. apply IH; exact Vr.
    Qed.
    Lemma omapM_np : forall args, deep_argsb args = true -> np (omapM parse args).
    Proof.
      induction args as [|g args IH]; intro V; cbn [omapM deep_argsb] in *; [exact I|].
      apply andb_true_iff in V as [Vg Vr]. apply np_bind; [exact (parse_np g Vg)|]. intros [e|]; [|exact I].
      apply np_bind; [exact (IH Vr) | intros; exact I].
    Qed.
  End Loops.

  (* ---------------------------------------------------------------- the Pratt loop *)
  Notation pexpr' := (pexpr tbl imap pmap).
  Notation ploop' := (ploop tbl imap pmap).
  Notation map_postfix' := (map_postfix tbl imap pmap).
  Notation primary' := (primary tbl imap pmap).
  Notation parse_items' := (parse_items tbl imap pmap).

  (* a result that is not a Panic and, when Ok, leaves a stream in the "operand completed" state *)
  Definition fine (x : outcome (tres * list item)) : Prop :=
    match x with
    | Panic => False
    | Ok (_, rest) => alt_ok false rest = true /\ deep_itemsb rest = true
    | _ => True
    end.

  Definition Q_pexpr (fuel : nat) : Prop := forall rbp its,
    alt_ok true its = true -> deep_itemsb its = true -> fine (pexpr' fuel rbp its).
  Definition Q_ploop (fuel : nat) : Prop := forall rbp lhs its,
    alt_ok false its = true -> deep_itemsb its = true -> fine (ploop' fuel rbp lhs its).
  Definition Q_post (fuel : nat) : Prop := forall lhs pr0,
    cls pr0 = CPost -> deep_itemb pr0 = true -> np (map_postfix' fuel lhs pr0).
  Definition Q_prim (fuel : nat) : Prop := forall pr0,
    cls pr0 = CPrim -> deep_itemb pr0 = true -> np (primary' fuel pr0).
  Definition Q_items (fuel : nat) : Prop := forall its, stream_ok its = true -> np (parse_items' fuel its).

  (* what the classes say of the shape of an item *)
  Lemma cls_CPrim : forall i, cls i = CPrim -> item_op i = None.
  Proof.
    intros i C. unfold cls in C. destruct (item_op i) as [r|]; [|reflexivity].
    destruct (ops_get tbl r) as [[[| |a] p]|]; try discriminate C.
    - destruct (assoc_find r pmap); discriminate C.
    - destruct i; try discriminate C. destruct r0; discriminate C.
    - destruct (assoc_find r imap); discriminate C.
  Qed.
  Lemma cls_CPost : forall i, cls i = CPost ->
    match i with IOp R_factorial | IAccess _ | IDot _ | ICall _ => True | _ => False end.
  Proof.
    intros i C. unfold cls in C. destruct (item_op i) as [r|]; [|discriminate C].
    destruct (ops_get tbl r) as [[[| |a] p]|]; try discriminate C.
    - destruct (assoc_find r pmap); discriminate C.
    - destruct i; try discriminate C; try exact I. destruct r0; try discriminate C. exact I.
    - destruct (assoc_find r imap); discriminate C.
  Qed.

  Lemma pratt_all_np : forall fuel, Q_pexpr fuel /\ Q_ploop fuel /\ Q_post fuel /\ Q_prim fuel /\ Q_items fuel.
  Proof.
    induction fuel as [|f [IHe [IHl [IHpo [IHpr IHit]]]]].
    { unfold Q_pexpr, Q_ploop, Q_post, Q_prim, Q_items. repeat split; intros; exact I. }
    unfold Q_pexpr, Q_ploop, Q_post, Q_prim, Q_items in *.
    split; [|split; [|split; [|split]]].
    - (* pexpr *)
      intros rbp its A D. rewrite pexpr_S. destruct its as [|pr0 rest]; [discriminate A|].
      cbn [alt_ok deep_itemsb] in A, D. apply andb_true_iff in D as [D0 Dr].
      unfold cls in A. pose proof (IHpr pr0) as Hprim. unfold cls in Hprim.
      destruct (item_op pr0) as [r0|].
      + unfold map_prefix. destruct (ops_get tbl r0) as [[[| |a] p]|]; try discriminate A.
        * destruct (assoc_find r0 pmap) as [c|]; [|discriminate A].
          pose proof (IHe (p - 1) rest A Dr) as H1.
          destruct (pexpr' f (p - 1) rest) as [[t rest']| | | |]; cbn [obind fine fst snd] in *; try exact I; try contradiction.
          destruct H1 as [A1 D1]. destruct c; cbn [obind fst snd]; apply IHl; assumption.
        * destruct pr0; try discriminate A; destruct r; discriminate A.
        * destruct (assoc_find r0 imap); discriminate A.
      + specialize (Hprim eq_refl D0).
        destruct (primary' f pr0); cbn [obind np fst snd] in *; try exact I; try contradiction.
        apply IHl; assumption.
    - (* ploop *)
      intros rbp lhs its A D. rewrite ploop_S. unfold lbp.
      destruct its as [|pr0 rest]; [cbn [obind]; rewrite (proj2 (Nat.ltb_ge rbp 0) (Nat.le_0_l rbp)); cbn [fine]; split; reflexivity|].
      pose proof A as A'. pose proof D as D'.
      cbn [alt_ok deep_itemsb] in A, D. apply andb_true_iff in D as [D0 Dr].
      pose proof (IHpo lhs pr0) as Hpost. unfold cls in A, Hpost.
      destruct (item_op pr0) as [r0|]; [|discriminate A].
      unfold map_infix.
      destruct (ops_get tbl r0) as [[[| |a] p]|]; try discriminate A; cbn [obind].
      * destruct (assoc_find r0 pmap); discriminate A.
      * destruct (Nat.ltb rbp p); [|cbn [fine]; split; assumption].
        assert (Hc : match pr0 with IOp R_factorial | IAccess _ | IDot _ | ICall _ => CPost | _ => CBad end = CPost).
        { destruct pr0; try discriminate A; try reflexivity. destruct r; try discriminate A; reflexivity. }
        rewrite Hc in A. specialize (Hpost Hc D0).
        destruct (map_postfix' f lhs pr0); cbn [obind np] in *; try exact I; try contradiction.
        apply IHl; assumption.
      * destruct (Nat.ltb rbp p); [|cbn [fine]; split; assumption].
        destruct (assoc_find r0 imap) as [ob|]; [|discriminate A].
        pose proof (IHe (match a with ALeft => p | ARight => p - 1 end) rest A Dr) as H1.
        destruct (pexpr' f (match a with ALeft => p | ARight => p - 1 end) rest) as [[t rest']| | | |];
          cbn [obind fine fst snd] in *; try exact I; try contradiction.
        destruct H1 as [A1 D1]. apply IHl; assumption.
    - (* map_postfix *)
      intros lhs pr0 C D. apply cls_CPost in C. rewrite mpost_S.
      destruct pr0 as [x| |s|b| |s|s|b g|els|els|args body|c t e|els|x v|r|inner|fld|args]; try contradiction.
      + destruct r; try contradiction. exact I.
      + rewrite dI_IAccess in D. apply np_bind; [exact (IHit inner D) | intros; exact I].
      + exact I.
      + rewrite dI_ICall in D. apply np_bind; [exact (omapM_np _ IHit args D) | intros; exact I].
    - (* primary *)
      intros pr0 C D. apply cls_CPrim in C. rewrite primary_S.
      destruct pr0 as [x| |s|b| |s|s|b g|els|els|args body|c t e|els|x v|r|inner|fld|args];
        try exact I; try discriminate C.
      + rewrite dI_IExpr in D. exact (IHit g D).
      + rewrite dI_IList in D. apply np_bind; [exact (list_loop_np _ IHit els D) | intros; exact I].
      + rewrite dI_IRecord in D. apply np_bind; [exact (rec_loop_np _ IHit els D) | intros; exact I].
      + rewrite dI_ILambda in D. apply np_bind; [exact (IHit body D) | intros; exact I].
      + rewrite dI_ICond in D. apply andb_true_iff in D as [D De]. apply andb_true_iff in D as [Dc Dt].
        apply np_bind; [exact (IHit c Dc)|]. intros [c''|]; [|exact I].
        apply np_bind; [exact (IHit t Dt)|]. intros [t''|]; [|exact I].
        apply np_bind; [exact (IHit e De) | intros; exact I].
      + rewrite dI_IDo in D. exact (do_loop_np _ IHit els _ _ D).
      + rewrite dI_IAssign in D. apply np_bind; [exact (IHit v D) | intros; exact I].
    - (* parse_items *)
      intros its S. rewrite parse_S. unfold stream_ok in S. apply andb_true_iff in S as [A D].
      pose proof (IHe 0 its A D) as H1.
      destruct (pexpr' f 0 its) as [[t rest']| | | |]; cbn [obind fine np] in *; try exact I; contradiction.
  Qed.

  Theorem parse_items_no_panic : forall fuel its, stream_ok its = true -> parse_items' fuel its <> Panic.
  Proof. intros fuel its S. apply np_neq. exact (proj2 (proj2 (proj2 (proj2 (pratt_all_np fuel)))) its S). Qed.
End Alt.

(* the parser the crate uses, its own table and closure arms *)
Definition impl_stream_ok : list item -> bool := stream_ok impl_table infix_map prefix_map.
Theorem pratt_impl_no_panic : forall its, impl_stream_ok its = true -> pratt_impl its <> Panic.
Proof. intros its S. unfold pratt_impl, pratt. apply parse_items_no_panic. exact S. Qed.
