(* PegIdent.v — the name rules of the REGENERATED grammar (gen/Grammar.v = grammar.pest after pest's
   optimizer), run by the pest interpreter Peg.v, are exactly the specification functions of C10Ident.v:
     identifier_rest, reserved_word, identifier, bool, null.
   Hence C10's name theorems (C10_ident_rule ...), stated over C10Ident.v + gen/IdentRules.v (a second,
   independent translator), speak about the grammar text itself. *)
From Coq Require Import String Ascii List NArith Bool Arith Lia ZifyBool ZifyNat ZifyN.
Require Import Blots.Peg Blots.gen.Grammar Blots.proofs.PegGeneric Blots.proofs.PegPure.
Require Import Blots.PrattTypes Blots.C10Ident Blots.gen.IdentRules Blots.C10IdentImpl Blots.proofs.C10IdentProofs
               Blots.proofs.StringFacts.
Import ListNotations.
Local Open Scope string_scope.

Notation G := blots_grammar.

Definition pure_e (m : bool) (a : atomicity) (e : expr grule) (h : matcher) : Prop :=
  exists n, pure_run grule G n m a e h.

Lemma pure_e_ext : forall m a e h h', (forall t, h t = h' t) -> pure_e m a e h -> pure_e m a e h'.
Proof.
  intros m a e h h' E [n H]. exists n. intros f s la Hf. rewrite <- E. apply H. exact Hf.
Qed.

Section Rules.
  Variable a : atomicity.
  Hypothesis Ha : a <> NonAtomic.

  Lemma pe_str : forall m x, pure_e m a (Str x) (drop_prefix x).
  Proof. intros. exists 1. apply pure_str. Qed.
  Lemma pe_range : forall m lo hi, pure_e m a (Range lo hi) (class_matcher (in_range lo hi)).
  Proof. intros. exists 1. apply pure_range. Qed.
  Lemma pe_choice : forall m x y h1 h2, pure_e m a x h1 -> pure_e m a y h2 -> pure_e m a (Choice x y) (m_choice h1 h2).
  Proof. intros m x y h1 h2 [n1 H1] [n2 H2]. eexists. eapply pure_choice; eassumption. Qed.
  Lemma pe_seq : forall m x y h1 h2, pure_e m a x h1 -> pure_e m a y h2 -> shrinks h1 -> shrinks h2 ->
      pure_e m a (Seq x y) (m_seq h1 h2).
  Proof. intros m x y h1 h2 [n1 H1] [n2 H2] S1 S2. eexists. eapply pure_seq; eassumption. Qed.
  Lemma pe_not : forall m x h, pure_e m a x h -> pure_e m a (NegPred x) (m_not h).
  Proof. intros m x h [n H]. eexists. eapply pure_not; eassumption. Qed.
  Lemma pe_opt : forall m x h, pure_e m a x h -> pure_e m a (Opt x) (m_opt h).
  Proof. intros m x h [n H]. eexists. eapply pure_opt; eassumption. Qed.
  Lemma pe_rep : forall m x h, pure_e m a x h -> progresses h -> pure_e m a (Rep x) (m_star h).
  Proof. intros m x h [n H] P. eexists. eapply pure_rep; eassumption. Qed.
  Lemma pe_silent : forall m r body h, grule_def r = mkdef MSilent false body -> pure_e false a body h ->
      pure_e m a (Ident r) h.
  Proof. intros m r body h D [n H]. eexists. eapply (pure_silent grule G a); [exact D|eassumption]. Qed.

  (* ---------------------------------------------------------------- character classes *)
  Lemma class_or : forall c1 c2 t,
      m_choice (class_matcher c1) (class_matcher c2) t = class_matcher (fun ch => c1 ch || c2 ch) t.
  Proof.
    intros c1 c2 t. unfold m_choice, class_matcher. destruct t; [reflexivity|].
    destruct (c1 a0); simpl; [reflexivity|]. destruct (c2 a0); reflexivity.
  Qed.
  Lemma class_ext : forall c1 c2, (forall ch, c1 ch = c2 ch) -> forall t, class_matcher c1 t = class_matcher c2 t.
  Proof. intros c1 c2 E t. unfold class_matcher. destruct t; [reflexivity|]. rewrite E. reflexivity. Qed.
  Lemma str1_class : forall c t, drop_prefix (String c "") t = class_matcher (Ascii.eqb c) t.
  Proof. intros c t. unfold class_matcher. destruct t; simpl; [reflexivity|]. destruct (Ascii.eqb c a0); reflexivity. Qed.

  (* Peg.in_range compares codes in N, C10Ident's classes in nat *)
  Lemma in_range_nat : forall lo hi ch,
      in_range lo hi ch = Nat.leb (nat_of_ascii lo) (nat_of_ascii ch) && Nat.leb (nat_of_ascii ch) (nat_of_ascii hi).
  Proof.
    intros lo hi ch. unfold in_range, nat_of_ascii.
    assert (E : forall x y, N.leb x y = Nat.leb (N.to_nat x) (N.to_nat y))
      by (intros x y; apply Bool.eq_true_iff_eq; rewrite N.leb_le, Nat.leb_le; lia).
    rewrite !E. reflexivity.
  Qed.
  Lemma alpha_class : forall ch, in_range "a" "z" ch || in_range "A" "Z" ch = is_alpha ch.
  Proof. intro ch. rewrite !in_range_nat. apply orb_comm. Qed.
  Lemma digit_class : forall ch, in_range "0" "9" ch = is_digit ch.
  Proof. intro ch. apply in_range_nat. Qed.
  Lemma us_class : forall ch, Ascii.eqb "_" ch = is_us ch.
  Proof. intro ch. destruct ch as [[] [] [] [] [] [] [] []]; reflexivity. Qed.
  Lemma alpha_us_class : forall ch, (in_range "a" "z" ch || in_range "A" "Z" ch) || Ascii.eqb "_" ch = is_alpha_us ch.
  Proof. intro ch. unfold is_alpha_us. rewrite alpha_class, us_class. reflexivity. Qed.

  Definition e_alpha : expr grule := Choice (Range "a" "z") (Range "A" "Z").
  Definition e_digit : expr grule := Range "0" "9".
  Definition e_us : expr grule := Str "_".
  Definition e_alpha_us : expr grule := Choice e_alpha e_us.

  Lemma pe_alpha : forall m, pure_e m a e_alpha (class_matcher is_alpha).
  Proof.
    intro m. eapply pure_e_ext; [|apply pe_choice; apply pe_range].
    intro t. rewrite class_or. apply class_ext. apply alpha_class.
  Qed.
  Lemma pe_digit : forall m, pure_e m a e_digit (class_matcher is_digit).
  Proof. intro m. eapply pure_e_ext; [|apply pe_range]. apply class_ext. apply digit_class. Qed.
  Lemma pe_us : forall m, pure_e m a e_us (class_matcher is_us).
  Proof.
    intro m. eapply pure_e_ext; [|apply pe_str]. intro t. rewrite str1_class. apply class_ext. apply us_class.
  Qed.
  Lemma pe_alpha_us : forall m, pure_e m a e_alpha_us (class_matcher is_alpha_us).
  Proof.
    intro m. eapply pure_e_ext; [|apply pe_choice; [apply pe_choice; apply pe_range|apply pe_str]].
    intro t. unfold m_choice at 1. rewrite class_or, str1_class.
    change (m_choice (class_matcher (fun ch => in_range "a" "z" ch || in_range "A" "Z" ch)) (class_matcher (Ascii.eqb "_")) t
            = class_matcher is_alpha_us t).
    rewrite class_or. apply class_ext. apply alpha_us_class.
  Qed.

  (* c ~ c* = plus_class *)
  Lemma star_class_n : forall c t k, String.length t <= k -> m_star_n k (class_matcher c) t = star_class c t.
  Proof.
    intros c. induction t as [|ch t IH]; intros k L.
    - destruct k; reflexivity.
    - destruct k as [|k]; [simpl in L; lia|]. simpl. destruct (c ch); [|reflexivity]. apply IH. simpl in L. lia.
  Qed.
  Lemma plus_class_spec : forall c t, m_seq (class_matcher c) (m_star (class_matcher c)) t = plus_class c t.
  Proof.
    intros c t. unfold m_seq, m_star, plus_class, class_matcher. destruct t; [reflexivity|].
    destruct (c a0); [|reflexivity]. f_equal. apply star_class_n. lia.
  Qed.
  Lemma pe_plus : forall m e c, pure_e m a e (class_matcher c) -> pure_e m a (Seq e (Rep e)) (plus_class c).
  Proof.
    intros m e c H. eapply pure_e_ext; [apply plus_class_spec|].
    apply pe_seq; [exact H|apply pe_rep; [exact H|apply progresses_class]| |].
    - apply progresses_shrinks. apply progresses_class.
    - apply shrinks_star. apply progresses_class.
  Qed.
  Lemma progresses_plus : forall c, progresses (plus_class c).
  Proof.
    intros c t r E. rewrite <- plus_class_spec in E.
    eapply (progresses_seq_l (class_matcher c) (m_star (class_matcher c))); [apply progresses_class| |exact E].
    apply shrinks_star. apply progresses_class.
  Qed.

  (* ---------------------------------------------------------------- identifier_rest *)
  Lemma identifier_rest_spec : forall t,
      m_choice (plus_class is_alpha) (m_choice (plus_class is_digit) (plus_class is_us)) t = identifier_rest t.
  Proof. intro t. reflexivity. Qed.
  Lemma progresses_identifier_rest : progresses identifier_rest.
  Proof.
    change (progresses (m_choice (plus_class is_alpha) (m_choice (plus_class is_digit) (plus_class is_us)))).
    apply progresses_choice; [apply progresses_plus|]. apply progresses_choice; apply progresses_plus.
  Qed.

  Lemma pe_identifier_rest : forall m, pure_e m a (Ident PG_identifier_rest) identifier_rest.
  Proof.
    intro m. eapply pe_silent; [reflexivity|].
    eapply pure_e_ext; [apply identifier_rest_spec|].
    apply pe_choice; [apply (pe_plus false e_alpha); apply pe_alpha|].
    apply pe_choice; [apply (pe_plus false e_digit); apply pe_digit|apply (pe_plus false e_us); apply pe_us].
  Qed.

  (* ---------------------------------------------------------------- reserved_word *)
  Lemma lit_drop_prefix : forall p s, lit p s = drop_prefix p s.
  Proof. reflexivity. Qed.

  Fixpoint choice_strs (w : string) (ws : list string) : expr grule :=
    match ws with
    | [] => Str w
    | w' :: ws' => Choice (Str w) (choice_strs w' ws')
    end.
  Lemma pe_choice_strs : forall m ws w, pure_e m a (choice_strs w ws) (first_lit (w :: ws)).
  Proof.
    intros m. induction ws as [|w' ws IH]; intro w.
    - eapply pure_e_ext; [|apply pe_str]. intro t. cbn [first_lit]. change (lit w t) with (drop_prefix w t). unfold orelse.
      destruct (drop_prefix w t); reflexivity.
    - eapply pure_e_ext; [|apply pe_choice; [apply pe_str|apply IH]].
      intro t. unfold m_choice. cbn [first_lit]. change (lit w t) with (drop_prefix w t). unfold orelse.
      destruct (drop_prefix w t); reflexivity.
  Qed.
  Lemma shrinks_first_lit : forall ws, shrinks (first_lit ws).
  Proof.
    induction ws as [|w ws IH]; intros t r E; simpl in E; [discriminate|].
    unfold orelse in E. destruct (lit w t) eqn:E1.
    - inversion E; subst. exact (shrinks_str w _ _ E1).
    - exact (IH _ _ E).
  Qed.

  (* the `reserved_word` rule of Grammar.v is the ordered choice of the literals of gen/IdentRules.v *)
  Lemma reserved_word_body :
    rd_body (grule_def PG_reserved_word) =
    match reserved_words with w :: ws => choice_strs w ws | [] => Str "" end.
  Proof. reflexivity. Qed.

  Lemma pe_reserved_word : forall m, pure_e m a (Ident PG_reserved_word) (first_lit reserved_words).
  Proof.
    intro m. eapply pe_silent; [reflexivity|].
    change (pure_e false a (rd_body (grule_def PG_reserved_word)) (first_lit reserved_words)).
    rewrite reserved_word_body. apply (pe_choice_strs false (tl reserved_words) (hd "" reserved_words)).
  Qed.

  (* ---------------------------------------------------------------- bool / null bodies *)
  Lemma pe_bool_body : pure_e false a (rd_body (grule_def PG_bool)) (bool_rule bool_boundary).
  Proof.
    eapply pure_e_ext; [|apply pe_seq; [apply pe_choice; apply pe_str|apply pe_not; apply (pe_identifier_rest false)| |]].
    - intro t. unfold m_seq, m_choice, m_not, bool_rule, guard, orelse, fails.
      change (lit "true" t) with (drop_prefix "true" t). change (lit "false" t) with (drop_prefix "false" t).
      change bool_boundary with true.
      destruct (drop_prefix "true" t) as [r|]; [destruct (identifier_rest r); reflexivity|].
      destruct (drop_prefix "false" t) as [r|]; [destruct (identifier_rest r); reflexivity|reflexivity].
    - apply shrinks_choice; apply shrinks_str.
    - apply shrinks_not.
  Qed.
  Lemma pe_null_body : pure_e false a (rd_body (grule_def PG_null)) (null_rule null_boundary).
  Proof.
    eapply pure_e_ext; [|apply pe_seq; [apply pe_str|apply pe_not; apply (pe_identifier_rest false)| |]].
    - intro t. unfold m_seq, m_not, null_rule, guard, fails. change (lit "null" t) with (drop_prefix "null" t).
      change null_boundary with true.
      destruct (drop_prefix "null" t) as [r|]; [destruct (identifier_rest r); reflexivity|reflexivity].
    - apply shrinks_str.
    - apply shrinks_not.
  Qed.
End Rules.

(* ---------------------------------------------------------------- identifier (an @ rule: body runs Atomic) *)
Lemma atomic_not_nonatomic : Atomic <> NonAtomic.
Proof. discriminate. Qed.

Lemma star_rest_n : forall k t, m_star_n k identifier_rest t = star_rest k t.
Proof. induction k; intro t; simpl; [reflexivity|]. destruct (identifier_rest t); auto. Qed.

Lemma identifier_spec : forall t,
    m_seq (m_not (m_seq (first_lit reserved_words) (m_not identifier_rest)))
          (m_seq (plus_class is_alpha_us) (m_star identifier_rest)) t
    = identifier reserved_words t.
Proof.
  intro t. unfold m_seq, m_not, m_star, identifier, fails.
  destruct (first_lit reserved_words t) as [r|].
  - destruct (identifier_rest r).
    + destruct (plus_class is_alpha_us t); [rewrite star_rest_n|]; reflexivity.
    + reflexivity.
  - destruct (plus_class is_alpha_us t); [rewrite star_rest_n|]; reflexivity.
Qed.

Lemma pe_identifier_body : pure_e true Atomic (rd_body (grule_def PG_identifier)) (identifier reserved_words).
Proof.
  pose proof atomic_not_nonatomic as Ha.
  eapply pure_e_ext; [apply identifier_spec|].
  apply (pe_seq Atomic Ha).
  - apply pe_not. apply (pe_seq Atomic Ha).
    + apply pe_reserved_word.
    + apply pe_not. apply (pe_identifier_rest Atomic Ha).
    + apply shrinks_first_lit.
    + apply shrinks_not.
  - apply (pe_seq Atomic Ha).
    + apply (pe_plus Atomic Ha true e_alpha_us). apply pe_alpha_us.
    + apply (pe_rep Atomic Ha); [apply (pe_identifier_rest Atomic Ha)|apply progresses_identifier_rest].
    + apply progresses_shrinks. apply progresses_plus.
    + apply shrinks_star. apply progresses_identifier_rest.
  - apply shrinks_not.
  - apply shrinks_seq; [apply progresses_shrinks; apply progresses_plus|].
    apply shrinks_star. apply progresses_identifier_rest.
Qed.

(* ================================================================ the statements of Properties/C10.v *)
(* calling the rule `identifier` of the regenerated grammar in ANY context *)
Theorem peg_identifier_call : exists n, forall fuel a la s,
    n + String.length (rest s) <= fuel ->
    call_with G (run G fuel) a la PG_identifier s
    = rule_wrap PG_identifier a la (fun s' => pure_out grule s' (identifier reserved_words (rest s'))) s.
Proof.
  destruct pe_identifier_body as [n H]. exists n. intros fuel a la s Hf.
  unfold call_with. change (grule_def PG_identifier) with
      (mkdef MAtomic false (rd_body (grule_def PG_identifier))).
  cbn [g_def G blots_grammar rd_mod rd_trivia rd_body orb andb negb].
  unfold rule_wrap. destruct (emits a la).
  - rewrite H by (cbn [rest set_out]; exact Hf). reflexivity.
  - rewrite H by exact Hf. reflexivity.
Qed.

(* the language of the rule: parse from the rule `identifier` *)
Theorem peg_identifier_language : exists n, forall text fuel,
    n + String.length text <= fuel ->
    parse G fuel PG_identifier text =
    match identifier reserved_words text with
    | Some r => Ok (mkst (slen text - slen r) r stack_new [Node PG_identifier 0 (slen text - slen r) []])
    | None => Fail (init text)
    end.
Proof.
  destruct peg_identifier_call as [n H]. exists n. intros text fuel Hf.
  unfold parse. rewrite H by exact Hf. unfold rule_wrap. cbn [emits negb andb init rest set_out].
  destruct (identifier reserved_words text); reflexivity.
Qed.

(* identifier_rest / bool / null in a context without implicit whitespace (inside `expression`, a $ rule) *)
Theorem peg_word_rules : forall a, a <> NonAtomic -> exists n, forall fuel la s,
    n + String.length (rest s) <= fuel ->
    run G fuel false a la (rd_body (grule_def PG_bool)) s = pure_out grule s (bool_rule bool_boundary (rest s)) /\
    run G fuel false a la (rd_body (grule_def PG_null)) s = pure_out grule s (null_rule null_boundary (rest s)) /\
    run G fuel false a la (Ident PG_identifier_rest) s = pure_out grule s (identifier_rest (rest s)) /\
    run G fuel false a la (Ident PG_reserved_word) s = pure_out grule s (first_lit reserved_words (rest s)).
Proof.
  intros a Ha.
  destruct (pe_bool_body a Ha) as [n1 H1]. destruct (pe_null_body a Ha) as [n2 H2].
  destruct (pe_identifier_rest a Ha false) as [n3 H3]. destruct (pe_reserved_word a false) as [n4 H4].
  exists (n1 + n2 + n3 + n4). intros fuel la s Hf.
  repeat split; [apply H1|apply H2|apply H3|apply H4]; lia.
Qed.

(* C10_ident_rule now about the grammar text: a plain name that is not a reserved word, followed by a
   boundary, is rejected by the rules `bool` and `null` and read whole by the rule `identifier` *)
Theorem peg_plain_name_is_identifier : forall a, a <> NonAtomic -> exists n, forall name after fuel la s,
    valid_name name = true -> is_reserved reserved_words name = false -> boundary after = true ->
    rest s = name ++ after -> n + String.length (rest s) <= fuel ->
    run G fuel false a la (rd_body (grule_def PG_bool)) s = Fail s /\
    run G fuel false a la (rd_body (grule_def PG_null)) s = Fail s /\
    call_with G (run G fuel) a la PG_identifier s
    = rule_wrap PG_identifier a la (fun s' => Ok (set_pos s' (pos s' + slen name) after)) s.
Proof.
  intros a Ha. destruct (peg_word_rules a Ha) as [n1 H1]. destruct peg_identifier_call as [n2 H2].
  exists (n1 + n2). intros name after fuel la s V NR B E Hf.
  pose proof (ident_rule_impl name after V NR B (or_intror (conj eq_refl eq_refl))) as T.
  unfold term_word_impl in T. change term_order with [ABool; ANull; AIdent] in T.
  cbn [term_word alt_rule] in T.
  destruct (bool_rule bool_boundary (name ++ after)) eqn:EB; [discriminate|].
  destruct (null_rule null_boundary (name ++ after)) eqn:EN; [discriminate|].
  destruct (identifier reserved_words (name ++ after)) as [r|] eqn:EI; [|discriminate].
  inversion T; subst r.
  destruct (H1 fuel la s ltac:(lia)) as (Hb & Hn & _).
  rewrite Hb, Hn, E, EB, EN. split; [reflexivity|]. split; [reflexivity|].
  rewrite H2 by lia. unfold rule_wrap.
  assert (P : forall s' : st grule, rest s' = name ++ after ->
                pure_out grule s' (identifier reserved_words (rest s')) = Ok (set_pos s' (pos s' + slen name) after)).
  { intros s' E'. rewrite E', EI. cbn [pure_out]. rewrite E'. do 2 f_equal.
    unfold slen. rewrite length_append. lia. }
  destruct (emits a la).
  - rewrite P by (cbn [rest set_out]; exact E). reflexivity.
  - apply P. exact E.
Qed.
