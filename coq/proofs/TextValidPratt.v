(* TextValidPratt.v — validity of number literals through the Pratt stage (C01).

   valid_itemb i      every INum x inside the token stream item i (nested streams included) is a valid binary64
   parse_items_valid  for ANY operator table / infix map / prefix map and ANY fuel: if every number of the token
                      stream is valid then the expression pairs_to_expr_inner returns (when it returns Ok(e))
                      satisfies Valid.valid_expr — the closures only create ENum from INum (map_primary) and copy
                      sub-trees everywhere else (map_prefix / map_infix / map_postfix, list / record / do loops).
   Proof: induction on the derivation in the relational transcription of the five functions. *)
From Coq Require Import String List Bool Arith.
Require Import Blots.Num Blots.gen.Builtins Blots.Ast Blots.Outcome Blots.PrattTypes Blots.gen.PrecTable Blots.Pratt
               Blots.Valid Blots.proofs.PrattComplete.
Import ListNotations.
Local Open Scope list_scope.

(* ------------------------------------------------------------------ validity of token streams *)
Fixpoint valid_itemb (i : item) : bool :=
  let vs := fix vs (l : list item) : bool := match l with [] => true | x :: r => valid_itemb x && vs r end in
  match i with
  | INum x => valid_numb x
  | IExpr _ g => vs g
  | IList els =>
      (fix go (l : list lelem) : bool :=
         match l with [] => true | LCom _ :: r => go r | LItem g _ :: r => vs g && go r end) els
  | IRecord els =>
      (fix go (l : list relem) : bool :=
         match l with
         | [] => true
         | RCom _ :: r => go r
         | RPairI k v _ :: r => match k with RKDyn inner => vs inner | _ => true end && vs v && go r
         | RShortI _ _ :: r => go r
         | RSpreadI g _ :: r => vs g && go r
         end) els
  | ILambda _ body => vs body
  | ICond c t e => vs c && vs t && vs e
  | IDo els =>
      (fix go (l : list delem) : bool :=
         match l with
         | [] => true
         | DStmt g _ :: r => vs g && go r
         | DRet g :: r => vs g && go r
         | DComStmt _ _ :: r => go r
         | DCom _ :: r => go r
         end) els
  | IAssign _ v => vs v
  | IAccess inner => vs inner
  | ICall args =>
      (fix go (l : list (list item)) : bool := match l with [] => true | g :: r => vs g && go r end) args
  | IBadNum | IStr _ | IBool _ | INull | IIdent _ | IInRef _ | IOp _ | IDot _ => true
  end.
Fixpoint valid_itemsb (l : list item) : bool :=
  match l with [] => true | x :: r => valid_itemb x && valid_itemsb r end.
Fixpoint valid_lelsb (l : list lelem) : bool :=
  match l with [] => true | LCom _ :: r => valid_lelsb r | LItem g _ :: r => valid_itemsb g && valid_lelsb r end.
Definition valid_rkeyb (k : rkeyi) : bool := match k with RKDyn inner => valid_itemsb inner | _ => true end.
Fixpoint valid_relsb (l : list relem) : bool :=
  match l with
  | [] => true
  | RCom _ :: r => valid_relsb r
  | RPairI k v _ :: r => valid_rkeyb k && valid_itemsb v && valid_relsb r
  | RShortI _ _ :: r => valid_relsb r
  | RSpreadI g _ :: r => valid_itemsb g && valid_relsb r
  end.
Fixpoint valid_delsb (l : list delem) : bool :=
  match l with
  | [] => true
  | DStmt g _ :: r => valid_itemsb g && valid_delsb r
  | DRet g :: r => valid_itemsb g && valid_delsb r
  | DComStmt _ _ :: r => valid_delsb r
  | DCom _ :: r => valid_delsb r
  end.
Fixpoint valid_argsb (l : list (list item)) : bool :=
  match l with [] => true | g :: r => valid_itemsb g && valid_argsb r end.

Lemma vI_IExpr : forall b g, valid_itemb (IExpr b g) = valid_itemsb g. Proof. reflexivity. Qed.
Lemma vI_IList : forall els, valid_itemb (IList els) = valid_lelsb els. Proof. reflexivity. Qed.
Lemma vI_IRecord : forall els, valid_itemb (IRecord els) = valid_relsb els. Proof. reflexivity. Qed.
Lemma vI_ILambda : forall a g, valid_itemb (ILambda a g) = valid_itemsb g. Proof. reflexivity. Qed.
Lemma vI_ICond : forall c t e, valid_itemb (ICond c t e) = valid_itemsb c && valid_itemsb t && valid_itemsb e.
Proof. reflexivity. Qed.
Lemma vI_IDo : forall els, valid_itemb (IDo els) = valid_delsb els. Proof. reflexivity. Qed.
Lemma vI_IAssign : forall x v, valid_itemb (IAssign x v) = valid_itemsb v. Proof. reflexivity. Qed.
Lemma vI_IAccess : forall g, valid_itemb (IAccess g) = valid_itemsb g. Proof. reflexivity. Qed.
Lemma vI_ICall : forall args, valid_itemb (ICall args) = valid_argsb args. Proof. reflexivity. Qed.

Lemma valid_itemsb_app : forall a b, valid_itemsb (a ++ b) = valid_itemsb a && valid_itemsb b.
Proof. induction a as [|x a IH]; intro b; cbn [app valid_itemsb]; [reflexivity|]. rewrite IH, andb_assoc. reflexivity. Qed.
Lemma valid_itemsb_forall : forall l, valid_itemsb l = true <-> (forall i, In i l -> valid_itemb i = true).
Proof.
  induction l as [|x l IH]; cbn [valid_itemsb In]; [split; [intros _ i []|reflexivity]|].
  rewrite andb_true_iff, IH. split.
  - intros [Hx Hl] i [<-|Hi]; [exact Hx|apply Hl; exact Hi].
  - intro H. split; [apply H; left; reflexivity|intros i Hi; apply H; right; exact Hi].
Qed.

(* ------------------------------------------------------------------ validity of expressions, list forms *)
Fixpoint vcexprsb (l : list (commented expr)) : bool :=
  match l with [] => true | Cm _ a _ :: r => valid_exprb a && vcexprsb r end.
Fixpoint vrentriesb (l : list (commented rentry)) : bool :=
  match l with
  | [] => true
  | Cm _ (REntry k v) _ :: r =>
      (match k with KDyn a | KSpread a => valid_exprb a | KStatic _ | KShort _ => true end)
      && valid_exprb v && vrentriesb r
  end.
Fixpoint vexprsb (l : list expr) : bool :=
  match l with [] => true | a :: r => valid_exprb a && vexprsb r end.

Lemma vE_EList : forall l, valid_exprb (EList l) = vcexprsb l. Proof. reflexivity. Qed.
Lemma vE_ERec : forall l, valid_exprb (ERec l) = vrentriesb l. Proof. reflexivity. Qed.
Lemma vE_EDo : forall stmts ld a tr, valid_exprb (EDo stmts (Cm ld a tr)) = vcexprsb stmts && valid_exprb a.
Proof. reflexivity. Qed.
Lemma vE_ECall : forall f args, valid_exprb (ECall f args) = valid_exprb f && vexprsb args. Proof. reflexivity. Qed.
Lemma vcexprsb_app : forall a b, vcexprsb (a ++ b) = vcexprsb a && vcexprsb b.
Proof.
  induction a as [|[ld x tr] a IH]; intro b; cbn [app vcexprsb]; [reflexivity|]. rewrite IH, andb_assoc. reflexivity.
Qed.

(* ------------------------------------------------------------------ the Pratt loop and its closures *)
Section Parser.
  Variable tbl : ops_map.
  Variable imap : list (oprule * binop).
  Variable pmap : list (oprule * prefix_ctor).

  (* every derivation of the relational transcription keeps validity (a successful run of the function is one:
     PrattComplete.rel_complete) *)
  Theorem rel_valid :
    (forall rbp its t rest, Expr tbl imap pmap rbp its t rest ->
        valid_itemsb its = true -> valid_exprb t = true /\ valid_itemsb rest = true) /\
    (forall rbp lhs its t rest, Loop tbl imap pmap rbp lhs its t rest ->
        valid_exprb lhs = true -> valid_itemsb its = true -> valid_exprb t = true /\ valid_itemsb rest = true) /\
    (forall lhs i u, Post tbl imap pmap lhs i u -> valid_exprb lhs = true -> valid_itemb i = true -> valid_exprb u = true) /\
    (forall i x, Prim tbl imap pmap i x -> valid_itemb i = true -> valid_exprb x = true) /\
    (forall its t, Items tbl imap pmap its t -> valid_itemsb its = true -> valid_exprb t = true) /\
    (forall args es, Args tbl imap pmap args es -> valid_argsb args = true -> vexprsb es = true) /\
    (forall els es, LEls tbl imap pmap els es -> valid_lelsb els = true -> vcexprsb es = true) /\
    (forall els es, REls tbl imap pmap els es -> valid_relsb els = true -> vrentriesb es = true) /\
    (forall els stmts ret t, DEls tbl imap pmap els stmts ret t ->
        valid_delsb els = true -> vcexprsb stmts = true -> valid_exprb (cnode ret) = true -> valid_exprb t = true).
  Proof.
    apply parse_rel_mutind.
    - (* E_prefix *)
      intros rbp i r p its x mid u t rest _ _ _ IHx Hpre _ IHl V.
      cbn [valid_itemsb] in V. apply andb_true_iff in V as [_ V]. destruct (IHx V) as [Vx Vmid].
      apply IHl; [|exact Vmid].
      unfold map_prefix in Hpre. destruct (assoc_find r pmap) as [[uo|]|]; inversion Hpre; exact Vx.
    - (* E_primary *)
      intros rbp i its x t rest _ _ IHp _ IHl V.
      cbn [valid_itemsb] in V. apply andb_true_iff in V as [Vi V]. exact (IHl (IHp Vi) V).
    - (* L_stop *) intros rbp lhs its l _ _ Vl V. split; assumption.
    - (* L_infix *)
      intros rbp lhs i r a p its rhs mid u t rest _ _ _ _ IHe Hin _ IHl Vl V.
      cbn [valid_itemsb] in V. apply andb_true_iff in V as [_ V]. destruct (IHe V) as [Vr Vmid].
      apply IHl; [|exact Vmid].
      unfold map_infix in Hin. destruct (assoc_find r imap); inversion Hin. cbn [valid_exprb]. rewrite Vl, Vr. reflexivity.
    - (* L_postfix *)
      intros rbp lhs i r p its u t rest _ _ _ _ IHp _ IHl Vl V.
      cbn [valid_itemsb] in V. apply andb_true_iff in V as [Vi V]. exact (IHl (IHp Vl Vi) V).
    - (* Po_fact *) intros lhs Vl _. exact Vl.
    - (* Po_access *) intros lhs inner i _ IH Vl V. rewrite vI_IAccess in V. cbn [valid_exprb]. rewrite Vl, (IH V). reflexivity.
    - (* Po_dot *) intros lhs f Vl _. exact Vl.
    - (* Po_call *) intros lhs args es _ IH Vl V. rewrite vI_ICall in V. rewrite vE_ECall, Vl, (IH V). reflexivity.
    - (* P_num *) intros x V. exact V.
    - reflexivity.
    - reflexivity.
    - reflexivity.
    - reflexivity.
    - reflexivity.
    - reflexivity.
    - (* P_expr *) intros b g t _ IH V. rewrite vI_IExpr in V. exact (IH V).
    - (* P_list *) intros els es _ IH V. rewrite vI_IList in V. rewrite vE_EList. exact (IH V).
    - (* P_rec *) intros els es _ IH V. rewrite vI_IRecord in V. rewrite vE_ERec. exact (IH V).
    - (* P_lam *) intros args body b _ IH V. rewrite vI_ILambda in V. exact (IH V).
    - (* P_cond *)
      intros c t e c' t' e' _ IHc _ IHt _ IHe V. rewrite vI_ICond in V.
      apply andb_true_iff in V as [V Ve]. apply andb_true_iff in V as [Vc Vt].
      cbn [valid_exprb]. rewrite (IHc Vc), (IHt Vt), (IHe Ve). reflexivity.
    - (* P_do *) intros els t _ IH V. rewrite vI_IDo in V. apply IH; [exact V | reflexivity | reflexivity].
    - (* P_assign *) intros x v v' _ IH V. rewrite vI_IAssign in V. exact (IH V).
    - (* I_intro *) intros its t rest _ IH V. exact (proj1 (IH V)).
    - (* A_nil *) reflexivity.
    - (* A_cons *)
      intros g e gs es _ IH1 _ IH2 V. cbn [valid_argsb] in V. apply andb_true_iff in V as [Vg Vr].
      cbn [vexprsb]. rewrite (IH1 Vg), (IH2 Vr). reflexivity.
    - (* LE_nil *) reflexivity.
    - (* LE_com *) intros s els es _ IH V. exact (IH V).
    - (* LE_item *)
      intros g eol e els es _ IH1 _ IH2 V. cbn [valid_lelsb] in V. apply andb_true_iff in V as [Vg Vr].
      cbn [uncommented vcexprsb]. rewrite (IH1 Vg), (IH2 Vr). reflexivity.
    - (* RE_nil *) reflexivity.
    - (* RE_com *) intros s els es _ IH V. exact (IH V).
    - (* RE_pair_id *)
      intros s v eol v' els es _ IH1 _ IH2 V. cbn [valid_relsb valid_rkeyb] in V. apply andb_true_iff in V as [Vv Vr].
      cbn [uncommented vrentriesb]. rewrite (IH1 Vv), (IH2 Vr). reflexivity.
    - (* RE_pair_str *)
      intros s v eol v' els es _ IH1 _ IH2 V. cbn [valid_relsb valid_rkeyb] in V. apply andb_true_iff in V as [Vv Vr].
      cbn [uncommented vrentriesb]. rewrite (IH1 Vv), (IH2 Vr). reflexivity.
    - (* RE_pair_dyn *)
      intros inner k v eol v' els es _ IH0 _ IH1 _ IH2 V. cbn [valid_relsb valid_rkeyb] in V.
      apply andb_true_iff in V as [V Vr]. apply andb_true_iff in V as [Vk Vv].
      cbn [uncommented vrentriesb]. rewrite (IH0 Vk), (IH1 Vv), (IH2 Vr). reflexivity.
    - (* RE_short *) intros s eol els es _ IH V. cbn [uncommented vrentriesb valid_exprb]. rewrite (IH V). reflexivity.
    - (* RE_spread *)
      intros g eol e els es _ IH1 _ IH2 V. cbn [valid_relsb] in V. apply andb_true_iff in V as [Vg Vr].
      cbn [uncommented vrentriesb valid_exprb]. rewrite (IH1 Vg), (IH2 Vr). reflexivity.
    - (* DE_nil *) intros stmts [ld a tr] _ Vs Vret. cbn [cnode] in Vret. rewrite vE_EDo, Vs, Vret. reflexivity.
    - (* DE_stmt *)
      intros g c e els stmts ret t _ IH1 _ IH2 V Vs Vret. cbn [valid_delsb] in V. apply andb_true_iff in V as [Vg Vr].
      apply IH2; [exact Vr | | exact Vret].
      rewrite vcexprsb_app, Vs. cbn [uncommented vcexprsb]. rewrite (IH1 Vg). reflexivity.
    - (* DE_comstmt *) intros s c els stmts ret t _ IH V Vs Vret. exact (IH V Vs Vret).
    - (* DE_com *) intros s els stmts ret t _ IH V Vs Vret. exact (IH V Vs Vret).
    - (* DE_ret *)
      intros g e els stmts ret t _ IH1 _ IH2 V Vs Vret. cbn [valid_delsb] in V. apply andb_true_iff in V as [Vg Vr].
      exact (IH2 Vr Vs (IH1 Vg)).
  Qed.

  Theorem parse_items_valid : forall fuel its e,
    valid_itemsb its = true -> parse_items tbl imap pmap fuel its = Ok (Some e) -> valid_expr e.
  Proof.
    intros fuel its e V H.
    exact (proj1 (proj2 (proj2 (proj2 (proj2 rel_valid)))) its e (rel_complete tbl imap pmap fuel its e H) V).
  Qed.
End Parser.

(* the parser the crate uses *)
Theorem pratt_impl_valid : forall its e, valid_itemsb its = true -> pratt_impl its = Ok (Some e) -> valid_expr e.
Proof. intros its e V H. unfold pratt_impl, pratt in H. eapply parse_items_valid; eassumption. Qed.
