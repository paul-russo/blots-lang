(* C02LetProg.v — the TWO-STATEMENT LET LAW (C02, LET2 round).

     program A:   x = s        program B:   C[s]
                  C[x]
   from the same configuration (any configuration: after any program prefix), for a sequential context C
   ([sctx], C02LetGen.v), a FRESH name x and a cell-free value of s: whenever `x = s` succeeds, C[x] (evaluated
   in the configuration the assignment leaves) and C[s] have the same outcome up to cell renaming ([osame]:
   same outcome class — an error of C is an error on both sides — and Ok values equal up to cell indices).

   Fresh = x occurs nowhere in C[s] ([nocc]) and in no function value reachable from the scope chain
   ([frames_nm]); "x is unbound and not a keyword / built-in name" need not be assumed: it follows from the
   success of `x = s`.  Freshness with respect to the FUNCTIONS of the scope is necessary, because names in a
   function body are resolved in the caller's chain at call time: after `f = y => x + y`, `x = 1; f(1) + x` is
   3 while `f(1) + 1` fails with "unknown identifier x" ([let_program_nofresh_refuted], reproduced on the CLI).

   Proof = the three ingredients named in notes/C02.md (LET round):
     (1) the sequential-context theorem [let_abstraction_seq] in the configuration AFTER the assignment;
         its hypothesis "s evaluates to v in the scope that binds x" is obtained from the run of `x = s`
         itself by EVAL-TWICE (second evaluation of s, from the store the first one left: same value, v is
         cell-free) and WEAKENING (C02Weak.v: the binding of x, which s does not mention, changes nothing);
     (2) C[s] after the assignment versus C[s] before it: WEAKENING again (scope with / without x) and
         STORE-EXTENSION INVARIANCE (the cells allocated by the first evaluation of s: shift renaming). *)
From Coq Require Import String Ascii List ZArith Bool Lia.
Require Import Blots.Num Blots.gen.Builtins Blots.Ast Blots.Value Blots.Outcome Blots.Binop
               Blots.Env Blots.Eval Blots.BuiltinsHof Blots.Program Blots.EvalInst Blots.EvalFull
               Blots.proofs.ExprInd Blots.proofs.ValueInd Blots.proofs.Frames Blots.proofs.StoreMono
               Blots.proofs.Scoping Blots.proofs.InstMono
               Blots.proofs.C02Ren Blots.proofs.C02Sim Blots.proofs.C02Ops Blots.proofs.C02Keep Blots.proofs.C02Twice
               Blots.proofs.C02Let Blots.proofs.C02OpsFull Blots.proofs.C02Wf Blots.proofs.C02LetGen
               Blots.proofs.C02Weak.
Import ListNotations.
Open Scope string_scope.
Open Scope list_scope.
Open Scope nat_scope.

Lemma osame_sym : forall a b, osame a b -> osame b a.
Proof. intros [x| | | |] [y| | | |] H; cbn in *; try contradiction; try exact I. symmetry; exact H. Qed.
Lemma osame_trans : forall a b c, osame a b -> osame b c -> osame a c.
Proof.
  intros [x| | | |] [y| | | |] [z| | | |] H1 H2; cbn in *; try contradiction; try exact I.
  unfold same_up_to_cells in *. congruence.
Qed.

(* a cell-free value contains no function value at all: it mentions no name *)
Lemma cell_free_vnm : forall x v, cell_free v = true -> vnm x v = true.
Proof.
  intros x. unfold cell_free.
  induction v as [y|y| |y|l IH|r IH|id ar bd sc IH|bi|y IH] using value_ind'; intros H; cbn [ids_lt vnm] in *;
    try reflexivity.
  - rewrite forallb_forall in *. rewrite Forall_forall in IH. intros w Hw. apply IH; [exact Hw|apply H; exact Hw].
  - rewrite forallb_forall in *. rewrite Forall_forall in IH. intros [k w] Hw. apply (IH (k, w) Hw). apply (H (k, w) Hw).
  - discriminate H.
  - apply IH; exact H.
Qed.
Lemma cell_free_not_lambda : forall n0 st v x, cell_free v = true -> name_if_created n0 st v x = st.
Proof. intros n0 st v x H. destruct v; try reflexivity. discriminate H. Qed.

Lemma keyword_facts : forall x, mem x assign_keywords = false ->
  String.eqb "inputs" x = false /\ (String.eqb x "infinity" || String.eqb x "inf") = false /\ String.eqb x "constants" = false.
Proof.
  intros x H. unfold mem, assign_keywords in H. cbn [existsb] in H.
  repeat match type of H with (_ || _) = false => apply orb_false_iff in H; let H1 := fresh "K" in destruct H as [H1 H] end.
  split; [rewrite String.eqb_sym; assumption|]. split; [|assumption].
  apply orb_false_iff; split; assumption.
Qed.

(* the hypothesis [nocc x s] of the single-occurrence law is implied by [nocc x C_s]: s is a subterm of C[s] *)
Lemma sctx_nocc : forall x s a b, sctx x s a b -> nocc x b = true -> nocc x s = true.
Proof.
  intros x s a b H. induction H; intros Hn; cbn [nocc] in Hn.
  - exact Hn.
  - apply andb_true_iff in Hn. destruct Hn as [H1 _]. apply IHsctx; exact H1.
  - apply andb_true_iff in Hn. destruct Hn as [_ H2]. apply IHsctx; exact H2.
  - apply andb_true_iff in Hn. destruct Hn as [H1 _]. apply IHsctx; exact H1.
  - apply andb_true_iff in Hn. destruct Hn as [_ H2]. apply IHsctx; exact H2.
  - apply IHsctx; exact Hn.
  - apply IHsctx; exact Hn.
  - apply IHsctx; exact Hn.
  - apply andb_true_iff in Hn. destruct Hn as [Hn _]. apply andb_true_iff in Hn. destruct Hn as [H1 _]. apply IHsctx; exact H1.
  - apply andb_true_iff in Hn. destruct Hn as [Hn _]. apply andb_true_iff in Hn. destruct Hn as [_ H2]. apply IHsctx; exact H2.
  - apply andb_true_iff in Hn. destruct Hn as [_ H3]. apply IHsctx; exact H3.
  - apply andb_true_iff in Hn. destruct Hn as [H1 _]. apply IHsctx; exact H1.
  - apply andb_true_iff in Hn. destruct Hn as [_ H2]. apply nocc_args in H2. apply Forall_app in H2.
    destruct H2 as [_ H2]. inversion H2; subst. apply IHsctx; assumption.
  - apply nocc_items in Hn. apply Forall_app in Hn. destruct Hn as [_ H2]. inversion H2; subst.
    cbn [cnode] in *. apply IHsctx; assumption.
Qed.

(* ---- SEVERAL occurrences in sequential position: the reflexive-transitive closure of [sctx].
   C[x, x] -> C[s, x] -> C[s, s]: each step replaces ONE occurrence; the siblings evaluated before it may
   already contain s (assignment-free) and the ones after it may still contain x (arbitrary).  The outcomes of
   consecutive steps are related by the single-occurrence theorem, each with its own renaming (the second
   evaluation of s allocates a fresh block of cells: the renamings grow along the chain); "equal up to cell
   indices" composes, so the end points are related. ---- *)
Inductive sctxs (x : string) (s : expr) : expr -> expr -> Prop :=
| SS_refl : forall e, sctxs x s e e
| SS_step : forall a b c, sctx x s a b -> sctxs x s b c -> sctxs x s a c.
Lemma sctx_sctxs : forall x s a b, sctx x s a b -> sctxs x s a b.
Proof. intros x s a b H. eapply SS_step; [exact H|apply SS_refl]. Qed.
Lemma osame_refl : forall a, osame a a.
Proof. intros [x| | | |]; cbn; try exact I. reflexivity. Qed.

Section Multi.
  Variable release : bool.
  Variable bi : callback -> binop -> value -> value -> store -> outcome value * store.
  Variable bu : callback -> builtin -> list value -> store -> outcome value * store.
  Hypothesis Hops : ops_commute bi bu.
  Hypothesis Hwfo : ops_wf bi bu.
  Hypothesis Hkeep : forall d c e r c', evalD release bi bu d c e = (r, c') -> store_keep (fst c) (fst c').
  Variable d : nat.
  Theorem let_abstraction_seq_multi : forall x s fr v, cell_free v = true ->
    forall st eA eB, Inv release bi bu d x s fr v st -> sctxs x s eA eB ->
      osame (fst (evalD release bi bu d (st, fr) eA)) (fst (evalD release bi bu d (st, fr) eB)).
  Proof.
    intros x s fr v Hv st eA eB HI H. induction H as [e|a b c Hab _ IH]; [apply osame_refl|].
    eapply osame_trans; [|exact IH].
    exact (let_abstraction_seq release bi bu Hops Hwfo Hkeep d x s fr v Hv st a b _ _ _ _ HI Hab
             (surjective_pairing _) (surjective_pairing _)).
  Qed.
End Multi.

Section LetProg.
  Variable release : bool.
  Variable bi : callback -> binop -> value -> value -> store -> outcome value * store.
  Variable bu : callback -> builtin -> list value -> store -> outcome value * store.
  Hypothesis Hops : ops_commute bi bu.
  Hypothesis Hwfo : ops_wf bi bu.
  Hypothesis Hkeep : forall d c e r c', evalD release bi bu d c e = (r, c') -> store_keep (fst c) (fst c').
  Hypothesis Hnm : ops_nm bi bu.
  Variable d : nat.
  Notation evD := (evalD release bi bu d).

  (* what the success of the top-level statement `x = s` says *)
  Lemma assign_inv : forall x s st fr v c1,
    no_assign s = true -> cell_free v = true ->
    evD (st, fr) (EAssign x s) = (Ok v, c1) ->
    is_builtin_name x = false /\ mem x assign_keywords = false /\ contains fr x = false /\
    exists st1 k f rest, fr = (k, f) :: rest /\ evD (st, fr) s = (Ok v, (st1, fr)) /\
                         c1 = (st1, (k, (x, v) :: f) :: rest).
  Proof.
    intros x s st fr v c1 Hna Hv E. unfold evalD in *. cbn [evalE snd] in E.
    destruct (is_builtin_name x); [discriminate E|].
    destruct (mem x assign_keywords); [discriminate E|].
    destruct (contains fr x) eqn:Ec; [discriminate E|].
    split; [reflexivity|split; [reflexivity|split; [reflexivity|]]].
    unfold assign_checked in E.
    destruct (evalE release bi (AD release bi bu d) (st, fr) s) as [o [st1 fr1]] eqn:Es.
    pose proof (evalD_pure_frames release bi bu d s (st, fr) o (st1, fr1) Hna Es) as P. cbn [snd] in P. subst fr1.
    destruct o as [v'| | | |]; try discriminate E. cbn [snd] in E. rewrite Ec in E.
    unfold bind_value in E. cbn [fst snd] in E.
    destruct fr as [|[[|] f] rest]; cbn [insert_head] in E; try discriminate E.
    inversion E; subst. rewrite (cell_free_not_lambda _ _ _ _ Hv).
    exists st1, FOwned, f, rest. split; [reflexivity|split; reflexivity].
  Qed.

  Theorem let_program_multi : forall x s C_x C_s st fr v c1 rA cA rB cB,
    frames_lt (length st) fr = true -> no_assign s = true -> no_assign C_s = true ->
    sctxs x s C_x C_s ->
    (* x fresh *)
    nocc x s = true -> nocc x C_s = true -> frames_nm x fr = true ->
    (* program A:  x = s; C[x]      program B:  C[s] *)
    evD (st, fr) (EAssign x s) = (Ok v, c1) ->
    cell_free v = true ->
    evD c1 C_x = (rA, cA) ->
    evD (st, fr) C_s = (rB, cB) ->
    osame rA rB.
  Proof.
    intros x s C_x C_s st fr v c1 rA cA rB cB Hwf Hna HnaC Hctx Hns HnC Hfn EA Hv HA HB.
    destruct (assign_inv x s st fr v c1 Hna Hv EA) as (_ & Hkw & _ & st1 & k & f & rest & -> & Es & ->).
    destruct (keyword_facts x Hkw) as (Hinp & Hinf & Hconst).
    destruct (Hkeep d _ _ _ _ Es) as [Hlen Hk]. cbn [fst] in Hlen, Hk.
    set (fr := (k, f) :: rest) in *. set (frX := (k, (x, v) :: f) :: rest) in *.
    set (rho := shift (length st) (length st1 - length st)).
    assert (Hv1 : forall n, ids_lt n v = true) by (intros n; eapply ids_lt_mono; [|exact Hv]; lia).
    assert (Hvn : vnm x v = true) by (apply cell_free_vnm; exact Hv).
    (* well-formedness after the assignment *)
    assert (Hwf1 : frames_lt (length st1) fr = true).
    { apply frames_lt_iff. eapply frs_lt_mono; [exact Hlen|]. apply frames_lt_iff. exact Hwf. }
    assert (HwfX : frames_lt (length st1) frX = true).
    { apply frames_lt_iff. apply frames_lt_iff in Hwf1. unfold fr, frX in *. inversion Hwf1; subst.
      constructor; [|assumption]. cbn [snd] in *. constructor; [apply Hv1|assumption]. }
    (* s once more, from the store the assignment left: eval-twice *)
    destruct (eval_twice_shift release bi bu Hops d s st fr (Ok v) st1 fr Hna Hwf Es Hlen Hk) as (_ & st2 & Es2 & _).
    cbn [oren omap obind] in Es2. rewrite (ren_shift_fix _ _ v (Hv1 _)) in Es2.
    (* ... and in the scope that binds x: weakening *)
    destruct (weakening_pure release bi bu Hnm d x v s st1 k f rest (Ok v) st2 fr Hinp Hns Hna Hfn Hvn Es2) as [_ Es3].
    fold frX in Es3.
    assert (HI : Inv release bi bu d x s frX v st1).
    { split; [exact HwfX|]. split; [|exists st2; exact Es3].
      unfold evalD. cbn [evalE snd]. rewrite Hinf, Hconst. unfold frX. cbn [lookup lookup_frame].
      rewrite String.eqb_refl. reflexivity. }
    (* C[s] before the assignment -> after it (store extension) -> in the scope that binds x (weakening) *)
    destruct cB as [sB frB].
    pose proof (evalD_pure_frames release bi bu d C_s (st, fr) rB (sB, frB) HnaC HB) as P. cbn [snd] in P. subst frB.
    destruct (store_extension_invariance release bi bu Hops rho (shift_inj _ _) d C_s st st1 fr rB sB fr
                (sinv_shift st st1 Hlen Hk) HB) as (sB' & EB1 & _).
    unfold rho in EB1. rewrite (renFr_shift_fix _ _ fr Hwf) in EB1. fold rho in EB1.
    destruct (weakening_pure release bi bu Hnm d x v C_s st1 k f rest (oren rho rB) sB' fr Hinp HnC HnaC Hfn Hvn EB1)
      as [_ EB2].
    fold frX in EB2.
    (* the sequential-context theorem in the configuration after the assignment *)
    pose proof (let_abstraction_seq_multi release bi bu Hops Hwfo Hkeep d x s frX v Hv st1 C_x C_s HI Hctx) as Ho.
    assert (Ho' : osame rA (oren rho rB)).
    { change rA with (fst (rA, cA)). rewrite <- HA.
      change (oren rho rB) with (fst (oren rho rB, (sB', frX))). rewrite <- EB2. exact Ho. }
    eapply osame_trans; [exact Ho'|]. apply osame_sym. apply osame_oren.
  Qed.
  Corollary let_program : forall x s C_x C_s st fr v c1 rA cA rB cB,
    frames_lt (length st) fr = true -> no_assign s = true -> no_assign C_s = true ->
    sctx x s C_x C_s ->
    nocc x s = true -> nocc x C_s = true -> frames_nm x fr = true ->
    evD (st, fr) (EAssign x s) = (Ok v, c1) ->
    cell_free v = true ->
    evD c1 C_x = (rA, cA) ->
    evD (st, fr) C_s = (rB, cB) ->
    osame rA rB.
  Proof.
    intros x s C_x C_s st fr v c1 rA cA rB cB Hwf Hna HnaC Hctx.
    exact (let_program_multi x s C_x C_s st fr v c1 rA cA rB cB Hwf Hna HnaC (sctx_sctxs x s C_x C_s Hctx)).
  Qed.
  (* after ANY top-level program prefix (function-free inputs): the well-formedness hypothesis is discharged *)
  Theorem let_program_multi_after_prefix : forall d0 inputs prog x s C_x C_s v c1 rA cA rB cB,
    frame_lt 0 inputs = true ->
    let c := s_cfg (fst (run (evalD release bi bu d0) (init_session inputs) prog)) in
    no_assign s = true -> no_assign C_s = true -> sctxs x s C_x C_s ->
    nocc x s = true -> nocc x C_s = true -> frames_nm x (snd c) = true ->
    evD c (EAssign x s) = (Ok v, c1) ->
    cell_free v = true ->
    evD c1 C_x = (rA, cA) ->
    evD c C_s = (rB, cB) ->
    osame rA rB.
  Proof.
    intros d0 inputs prog x s C_x C_s v c1 rA cA rB cB Hin c Hna HnaC Hctx Hns HnC Hfn EA Hv HA HB.
    pose proof (program_cfg_wf release bi bu Hwfo d0 inputs prog Hin) as Hwf. fold c in Hwf.
    destruct c as [st fr]. cbn [snd] in Hfn. unfold cfg_wf in Hwf. cbn [fst snd] in Hwf.
    exact (let_program_multi x s C_x C_s st fr v c1 rA cA rB cB Hwf Hna HnaC Hctx Hns HnC Hfn EA Hv HA HB).
  Qed.
End LetProg.

(* ---- freshness in the FUNCTIONS of the scope is necessary ---- *)
(* the statement without [frames_nm x fr] *)
Definition let_program_nofresh_stmt : Prop :=
  forall release d x s C_x C_s st fr v c1 rA cA rB cB,
    frames_lt (length st) fr = true -> no_assign s = true -> no_assign C_s = true ->
    sctx x s C_x C_s ->
    nocc x s = true -> nocc x C_s = true ->
    evalD release binop_impl builtin_full d (st, fr) (EAssign x s) = (Ok v, c1) ->
    cell_free v = true ->
    evalD release binop_impl builtin_full d c1 C_x = (rA, cA) ->
    evalD release binop_impl builtin_full d (st, fr) C_s = (rB, cB) ->
    osame rA rB.
(* f = y => x + y   then   x = 1; f(1) + x   (3)   versus   f(1) + 1   (unknown identifier x) *)
Definition nf_f : value := VLam 0 [AReq "y"] (EBin Add (EId "x") (EId "y")) [].
Definition nf_st : store := [Some "f"].
Definition nf_fr : frames := [(FOwned, [("f", nf_f)])].
Definition nf_one : expr := ENum (num_of_Z 1).
Definition nf_C (h : expr) : expr := EBin Add (ECall (EId "f") [nf_one]) h.
Lemma let_program_nofresh_refuted : ~ let_program_nofresh_stmt.
Proof.
  intros H.
  pose (cA1 := evalD true binop_impl builtin_full 4 (nf_st, nf_fr) (EAssign "x" nf_one)).
  pose (rA := evalD true binop_impl builtin_full 4 (snd cA1) (nf_C (EId "x"))).
  pose (rB := evalD true binop_impl builtin_full 4 (nf_st, nf_fr) (nf_C nf_one)).
  assert (Hc : sctx "x" nf_one (nf_C (EId "x")) (nf_C nf_one)).
  { unfold nf_C. apply S_binr; [reflexivity|apply S_hole]. }
  specialize (H true 4 "x" nf_one (nf_C (EId "x")) (nf_C nf_one) nf_st nf_fr (VNum (num_of_Z 1)) (snd cA1)
                (fst rA) (snd rA) (fst rB) (snd rB)
                ltac:(vm_compute; reflexivity) ltac:(reflexivity) ltac:(reflexivity) Hc
                ltac:(vm_compute; reflexivity) ltac:(vm_compute; reflexivity)
                ltac:(vm_compute; reflexivity) ltac:(vm_compute; reflexivity)
                ltac:(vm_compute; reflexivity) ltac:(vm_compute; reflexivity)).
  vm_compute in H. exact H.
Qed.

(* ---- the Prop kept by the LET round, [weakening_stmt] (C02LetGen.v), is FALSE as it was stated: it
   asked only that x be not FREE in the function bodies of the scope.  A body that ASSIGNS x observes the
   binding without reading it (Expr::Assignment fails when the name is bound anywhere in the chain):
   g = () => (x = 5);  g()  is 5 when x is unbound and an error when x is bound.  [C02Weak.nocc] / [vnm]
   count assignment targets (and parameters) as occurrences. ---- *)
Definition wr_g : value := VLam 0 [] (EAssign "x" (ENum (num_of_Z 5))) [].
Lemma weakening_stmt_refuted : ~ weakening_stmt.
Proof.
  intros H.
  pose (r := evalD true binop_impl builtin_full 4 ([Some "g"], [(FOwned, [("g", wr_g)])]) (ECall (EId "g") [])).
  specialize (H true 4 "x" (VNum (num_of_Z 1)) (ECall (EId "g") []) [Some "g"] FOwned [("g", wr_g)] []
                (fst r) (fst (snd r)) (snd (snd r))
                ltac:(vm_compute; reflexivity) ltac:(reflexivity) ltac:(vm_compute; reflexivity) ltac:(reflexivity)
                ltac:(vm_compute; reflexivity)).
  vm_compute in H. discriminate H.
Qed.
