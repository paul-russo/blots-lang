(* proofs/PegQuiet.v — QUIET RULES EMIT NO PAIRS, for every grammar (C09 parser half, item (c) / F20).
   A set Q of rules is *quiet* when every rule in it is silent (`_{ .. }`) and its body references only rules
   of Q; if in addition the implicit-skip rules WHITESPACE / COMMENT of the grammar (when present) are in Q, then
   the interpreter coq/Peg.v, run on ANY expression whose rule references all lie in Q, from ANY state, with ANY
   fuel / mode / atomicity / lookahead flag, leaves the list of produced pairs [out] exactly as it found it —
   on success and on failure.  (Induction on the fuel, same skeleton as PegGeneric.run_good.)
   Instantiated on the regenerated grammar gen/Grammar.v with Q = {NEWLINE, inline_comment, plain_newline,
   WHITESPACE}: a "//" run read through NEWLINE never becomes a pair, for EVERY text (F20 as a theorem). *)
From Coq Require Import String Ascii List NArith Bool Arith Lia.
Require Import Blots.Peg Blots.proofs.PegGeneric.
Import ListNotations.

Section Quiet.
  Variable R : Type.
  Variable G : grammar R.
  Notation st := (st R).
  Notation res := (res R).
  Notation runner := (runner R).

  (* the rules an expression references *)
  Fixpoint idents (e : expr R) : list R :=
    match e with
    | Ident r => [r]
    | PosPred x | NegPred x | Opt x | Rep x | Push x | RestoreOnErr x => idents x
    | Seq a b | Choice a b => idents a ++ idents b
    | _ => []
    end.

  Variable Q : R -> bool.
  Hypothesis Q_silent : forall r, Q r = true -> rd_mod (g_def G r) = MSilent.
  Hypothesis Q_closed : forall r, Q r = true -> forallb Q (idents (rd_body (g_def G r))) = true.
  Hypothesis Q_ws : forall w, g_ws G = Some w -> Q w = true.
  Hypothesis Q_comment : forall c, g_comment G = Some c -> Q c = true.

  Definition quiet (s : st) (r : res) : Prop :=
    match r with
    | Ok s' => out s' = out s
    | Fail s' => out s' = out s
    | _ => True
    end.
  Definition quiet_fun (g : st -> res) : Prop := forall s, quiet s (g s).

  Lemma quiet_trans : forall s s1 r, out s1 = out s -> quiet s1 r -> quiet s r.
  Proof. intros s s1 r E H. destruct r; simpl in *; congruence. Qed.

  Lemma quiet_bind : forall s r f, quiet s r -> quiet_fun f -> quiet s (bind r f).
  Proof.
    intros s r f Hr Hf. destruct r; simpl in *; auto.
    eapply quiet_trans; [exact Hr|apply Hf].
  Qed.
  Lemma quiet_sequence : forall s r, quiet s r -> quiet s (sequence s r).
  Proof. intros s r H. destruct r; simpl in *; auto. Qed.
  Lemma quiet_optional : forall s r, quiet s r -> quiet s (optional r).
  Proof. intros s r H. destruct r; simpl in *; auto. Qed.
  Lemma quiet_repeat : forall n f, quiet_fun f -> quiet_fun (repeat_loop n f).
  Proof.
    intros n f Hf. induction n as [|n IH]; intro s; simpl; [exact I|].
    pose proof (Hf s) as H. destruct (f s) eqn:E; simpl in *; auto.
    eapply quiet_trans; [exact H|apply IH].
  Qed.
  Lemma quiet_lookahead : forall p f, quiet_fun f -> quiet_fun (lookahead p f).
  Proof.
    intros p f Hf s. unfold lookahead.
    pose proof (Hf (set_stk s (stack_snapshot (stk s)))) as H.
    destruct (f (set_stk s (stack_snapshot (stk s)))) eqn:E; simpl in *; auto; destruct p; simpl; auto.
  Qed.
  Lemma quiet_restore : forall f, quiet_fun f -> quiet_fun (restore_on_err f).
  Proof.
    intros f Hf s. unfold restore_on_err.
    pose proof (Hf (set_stk s (stack_snapshot (stk s)))) as H.
    destruct (f (set_stk s (stack_snapshot (stk s)))) eqn:E; simpl in *; auto.
  Qed.
  Lemma quiet_push : forall f, quiet_fun f -> quiet_fun (do_push f).
  Proof.
    intros f Hf s. unfold do_push. pose proof (Hf s) as H. destruct (f s) eqn:E; simpl in *; auto.
  Qed.

  Lemma good_true_quiet : forall s r, good R true s r -> quiet s r.
  Proof.
    intros s r H. destruct r; simpl in *; try apply H. destruct H as (_ & n & O & _ & L).
    rewrite (L eq_refl) in O. exact O.
  Qed.

  (* a runner is quiet when it is quiet on every expression that references only rules of Q *)
  Definition quiet_runner (rf : runner) : Prop :=
    forall m a la e, forallb Q (idents e) = true -> quiet_fun (rf m a la e).

  Lemma quiet_call : forall rf, quiet_runner rf -> forall a la r, Q r = true -> quiet_fun (call_with G rf a la r).
  Proof.
    intros rf H a la r Hr s. unfold call_with. rewrite (Q_silent r Hr). apply H. apply Q_closed. exact Hr.
  Qed.

  Lemma quiet_skip : forall n rf, quiet_runner rf -> forall a la, quiet_fun (skip_with G n (call_with G rf) a la).
  Proof.
    intros n rf H a la s. unfold skip_with.
    destruct a; try (simpl; reflexivity).
    destruct (g_ws G) as [w|] eqn:Ew, (g_comment G) as [c|] eqn:Ec; try (simpl; reflexivity).
    - pose proof (Q_ws w eq_refl) as Hw. pose proof (Q_comment c eq_refl) as Hc.
      apply quiet_sequence. apply quiet_bind.
      + apply quiet_repeat. apply quiet_call; assumption.
      + apply quiet_repeat. intro s1. apply quiet_sequence. apply quiet_bind.
        * apply quiet_call; assumption.
        * apply quiet_repeat. apply quiet_call; assumption.
    - apply quiet_repeat. apply quiet_call; [assumption|]. apply Q_ws. reflexivity.
    - apply quiet_repeat. apply quiet_call; [assumption|]. apply Q_comment. reflexivity.
  Qed.

  Theorem run_quiet : forall f, quiet_runner (run G f).
  Proof.
    induction f as [|f IH]; intros m a la e He s; [exact I|].
    pose proof (quiet_call _ IH) as IHc.
    pose proof (fun a la => quiet_skip f _ IH a la) as IHs.
    destruct (terminal R e) eqn:T; [apply good_true_quiet, terminal_good; exact T|].
    rewrite run_S. cbv zeta.
    destruct e as [x|x|lo hi|r|b|x|x|x y|x y|x|x|ss|x|x]; try discriminate T; cbn [idents] in He;
      try (rewrite forallb_app in He; apply andb_prop in He; destruct He as [Hx Hy]).
    - apply IHc. cbn [forallb] in He. rewrite andb_true_r in He. exact He.
    - apply quiet_lookahead. apply IH. exact He.
    - apply quiet_lookahead. apply IH. exact He.
    - destruct m.
      + apply quiet_sequence. apply quiet_bind; [apply IH; exact Hx|apply IH; exact Hy].
      + apply quiet_sequence. apply quiet_bind; [|apply IH; exact Hy].
        apply quiet_bind; [apply IH; exact Hx|apply IHs].
    - pose proof (IH m a la x Hx s) as H1. destruct (run G f m a la x s) eqn:E1; auto.
      simpl in H1. eapply quiet_trans; [exact H1|]. apply IH. exact Hy.
    - apply quiet_optional. apply IH. exact He.
    - destruct m.
      + apply quiet_repeat. apply IH. exact He.
      + apply quiet_sequence. apply quiet_optional. apply quiet_bind; [apply IH; exact He|].
        apply quiet_repeat. intro s1. apply quiet_sequence. apply quiet_bind; [apply IHs|apply IH; exact He].
    - apply quiet_push. apply IH. exact He.
    - apply quiet_restore. apply IH. exact He.
  Qed.

  (* the statement in the form used by Properties/C09.v *)
  Theorem quiet_rules_emit_no_pairs : forall fuel m a la e s s',
      forallb Q (idents e) = true ->
      (run G fuel m a la e s = Ok s' \/ run G fuel m a la e s = Fail s') ->
      out s' = out s.
  Proof.
    intros fuel m a la e s s' He H. pose proof (run_quiet fuel m a la e He s) as Hq.
    destruct H as [H|H]; rewrite H in Hq; exact Hq.
  Qed.
End Quiet.

(* ================================================================== the regenerated grammar *)
Require Import Blots.gen.Grammar Blots.PegComments Blots.proofs.PegCommentsCompose.

Lemma expr_idents_idents : forall e : expr grule, expr_idents e = idents grule e.
Proof. induction e; cbn [expr_idents idents]; congruence. Qed.

(* the statement PegCommentsCompose.quiet_rules_emit_no_pairs_full *)
Theorem quiet_rules_emit_no_pairs_blots : quiet_rules_emit_no_pairs_full.
Proof.
  intros Q HQ Hws Hc fuel m a la e s s' He H.
  refine (quiet_rules_emit_no_pairs grule blots_grammar Q _ _ Hws Hc fuel m a la e s s' _ H).
  - intros r Hr. destruct (HQ r Hr) as [Hs _]. unfold is_silent in Hs.
    change (g_def blots_grammar r) with (grule_def r). destruct (rd_mod (grule_def r)); try discriminate Hs. reflexivity.
  - intros r Hr. destruct (HQ r Hr) as [_ Hcl]. rewrite <- expr_idents_idents. exact Hcl.
  - rewrite <- expr_idents_idents. exact He.
Qed.

(* the rules a line break inside an expression is read through, plus the implicit-skip rule WHITESPACE *)
Definition newline_quiet_set : list grule := [PG_NEWLINE; PG_inline_comment; PG_plain_newline; PG_WHITESPACE].
Definition in_newline_quiet (r : grule) : bool := existsb (grule_eqb r) newline_quiet_set.

Lemma newline_quiet_set_ok : forall r, in_newline_quiet r = true ->
  is_silent r = true /\ forallb in_newline_quiet (expr_idents (rd_body (grule_def r))) = true.
Proof. intros r. destruct r; vm_compute; intro H; try discriminate H; split; reflexivity. Qed.

(* F20 at the grammar level, for EVERY text and every calling context: whatever NEWLINE (hence inline_comment)
   reads — in particular a "//" run up to the line break — produces no pair, whether it succeeds or fails *)
Theorem newline_never_yields_a_pair : forall fuel m a la s s',
  (run blots_grammar fuel m a la (Ident PG_NEWLINE) s = Peg.Ok s' \/
   run blots_grammar fuel m a la (Ident PG_NEWLINE) s = Peg.Fail s') ->
  out s' = out s.
Proof.
  intros fuel m a la s s' H.
  refine (quiet_rules_emit_no_pairs_blots in_newline_quiet newline_quiet_set_ok _ _ fuel m a la _ s s' _ H).
  - intros w Hw. vm_compute in Hw. inversion Hw. reflexivity.
  - intros w Hw. vm_compute in Hw. discriminate Hw.
  - reflexivity.
Qed.

(* the same for every expression built from the four rules and terminals only, e.g. (WHITESPACE | NEWLINE)* *)
Theorem newline_exprs_never_yield_a_pair : forall e fuel m a la s s',
  forallb in_newline_quiet (expr_idents e) = true ->
  (run blots_grammar fuel m a la e s = Peg.Ok s' \/ run blots_grammar fuel m a la e s = Peg.Fail s') ->
  out s' = out s.
Proof.
  intros e fuel m a la s s' He H.
  refine (quiet_rules_emit_no_pairs_blots in_newline_quiet newline_quiet_set_ok _ _ fuel m a la e s s' He H).
  - intros w Hw. vm_compute in Hw. inversion Hw. reflexivity.
  - intros w Hw. vm_compute in Hw. discriminate Hw.
Qed.
