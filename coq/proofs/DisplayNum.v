(* DisplayNum.v (proofs) — C20: the theorems about format_display_number, for ALL doubles
   and ALL library oracles satisfying the documented digit shapes. *)
From Coq Require Import ZArith Bool String Ascii List Lia QArith Qabs Qpower Floats.SpecFloat.
Require Import Blots.Num Blots.Outcome Blots.DisplayNum.
Require Import Blots.proofs.DisplayNumGroup Blots.proofs.DisplayNumSpec Blots.proofs.DisplayNumText
               Blots.proofs.DisplayNumInt.
Import ListNotations.
Open Scope char_scope.
Open Scope Z_scope.

Lemma prec_shape_plain : forall n s, prec_shape n s = true -> plain_shape s = true.
Proof.
  intros n s H. destruct (prec_shape_inv n s H) as (neg & ip & ofp & -> & Hi & Hf & _).
  now apply plain_shape_mk_plain.
Qed.

(* trimming and grouping what {:.n$} printed: a well-formed numeral of the same value *)
Lemma standard_text : forall n s, prec_shape n s = true ->
  wf_numeral (add_thousand_separators (trim_fraction s)) = true /\
  (denote (add_thousand_separators (trim_fraction s)) == denote_plain s)%Q.
Proof.
  intros n s H. destruct (trim_fraction_preserves_value _ (prec_shape_plain n s H)) as [P V].
  destruct (separators_preserve_value _ P) as [W V']. split; [exact W|now rewrite V', V].
Qed.

(* ---------- texts of the scientific notation ---------- *)
Lemma split_once_sci : forall neg ip ofp it,
  all_digits ip = true -> ok_frac ofp = true ->
  split_once "e" (mk_plain neg ip ofp ++ "e" :: it) = Some (mk_plain neg ip ofp, it).
Proof.
  intros. unfold split_once. rewrite break_at_app by now apply contains_e_mk_plain. reflexivity.
Qed.

Lemma sci_text_wf : forall neg ip ofp z,
  all_digits ip = true -> ok_frac ofp = true ->
  wf_numeral (mk_plain neg ip ofp ++ "e" :: int_to_text z) = true.
Proof.
  intros neg ip ofp z Hi Hf. apply wf_numeral_of_sci.
  rewrite strip_sign_mk_plain_app by assumption. unfold wf_sci_body.
  rewrite split_once_sci by assumption. rewrite wf_plain_body_mk_plain by assumption.
  destruct (int_to_text_spec z) as [W _]. now rewrite W.
Qed.

Lemma sci_text_value : forall neg ip ofp z,
  all_digits ip = true -> ok_frac ofp = true ->
  denote (mk_plain neg ip ofp ++ "e" :: int_to_text z) =
  (denote_plain (mk_plain neg ip ofp) * Qpower (10 # 1) z)%Q.
Proof.
  intros neg ip ofp z Hi Hf. unfold denote. rewrite contains_app. cbn [contains].
  change (Ascii.eqb "e" "e") with true. cbn [orb]. rewrite orb_true_r.
  unfold denote_sci. rewrite split_once_sci by assumption.
  destruct (int_to_text_spec z) as [_ V]. now rewrite V.
Qed.

(* ---------- i32 arithmetic ---------- *)
Lemma i32_ok_small : forall z, Z.abs z <= 2 ^ 30 -> i32_ok z = Ok z.
Proof.
  intros z H. unfold i32_ok, I32_MIN, I32_MAX.
  destruct (Z.leb_spec (- 2 ^ 31) z), (Z.leb_spec z (2 ^ 31 - 1)); try lia. reflexivity.
Qed.

(* a step of the display path returns a value or panics; closed under sequencing *)
Definition ok_or_panic {A} (o : outcome A) : Prop := (exists a, o = Ok a) \/ o = Panic.

Lemma ok_or_panic_Ok : forall A (a : A), ok_or_panic (Ok a).
Proof. left. eauto. Qed.
Lemma ok_or_panic_i32 : forall z, ok_or_panic (i32_ok z).
Proof. intros z. unfold i32_ok. destruct (_ && _); [apply ok_or_panic_Ok|now right]. Qed.
Lemma ok_or_panic_bind : forall A B (e : outcome A) (f : A -> outcome B),
  ok_or_panic e -> (forall a, ok_or_panic (f a)) -> ok_or_panic (obind e f).
Proof. intros A B e f [[a ->]| ->] F; [apply F|now right]. Qed.

Ltac inv_bind H :=
  match type of H with
  | obind ?e _ = Ok _ => let E := fresh "E" in destruct e eqn:E; cbn [obind] in H; try discriminate H
  end.

(* ---------- the branches of format_display_number ---------- *)
Lemma std_nonint_path_inv : forall x, std_nonint_path x = true ->
  is_finite x = true /\ neqb x nzero = false /\ scientific_range (nabs x) = false /\
  nfract_is_zero x && nltb (nabs x) c_2p53 = false.
Proof.
  intros x H. unfold std_nonint_path in H. rewrite !andb_true_iff, !negb_true_iff in H. tauto.
Qed.

(* 0.0001 <= a < 1e15 *)
Lemma std_range_inv : forall a, scientific_range a = false ->
  nleb c_1e_4 a = true /\ nltb a c_1e15 = true.
Proof. intros a H. unfold scientific_range in H. now apply negb_false_iff, andb_true_iff in H. Qed.

Lemma format_integer_text : forall z, z <> I64_MIN ->
  format_integer_with_separators z =
  Ok (sign_text (z <? 0) ++ group3 (nat_digits (Z.abs z)) ++ frac_text None).
Proof.
  intros z H. unfold format_integer_with_separators.
  destruct (z =? I64_MIN) eqn:E; [apply Z.eqb_eq in E; contradiction|].
  rewrite int_to_text_nonneg by lia. cbn [frac_text]. rewrite app_nil_r.
  destruct (z <? 0); reflexivity.
Qed.

(* the integer branch does not overflow i64::abs *)
Lemma format_integer_ok : forall s m e,
  bounded prec emax m e = true -> nltb (S754_finite false m e) c_2p53 = true ->
  exists t, format_integer_with_separators (as_i64 (S754_finite s m e)) = Ok t.
Proof.
  intros s m e Hv Hlt. destruct (split_int m e) as [[q r] d] eqn:Hsp.
  destruct (as_i64_small s m e q r d Hv Hlt Hsp) as [-> Hq].
  rewrite format_integer_text; [eauto|]. unfold I64_MIN. destruct s; cbn [cond_Zopp]; lia.
Qed.

Section Theorems.
  Variable log10 : num -> num.
  Variable powi : num -> Z -> num.
  Variable fmt_prec : num -> Z -> text.
  Variable fmt_exp14 : num -> text.
  Variable parse_f64 : text -> option num.
  Variable fx : bool.

  Notation fdn := (format_display_number log10 powi fmt_prec fmt_exp14 parse_f64 fx).
  Notation round_sig := (round_to_significant_figures log10 powi fx).
  Notation places_of := (decimal_places_of log10 powi fx).

  (* documented shapes of the library outputs, on finite arguments *)
  Hypothesis Hprec : forall x n, is_finite x = true -> 0 <= n -> prec_shape n (fmt_prec x n) = true.
  Hypothesis Hexp : forall x, is_finite x = true -> exp_shape (fmt_exp14 x) = true.
  Hypothesis Hparse : forall s m, mant_shape s = true -> parse_f64 s = Some m -> is_finite m = true.

  (* ---------- NaN, infinities and zeros by name ---------- *)
  Theorem display_names :
    fdn S754_nan = Ok (tx "NaN") /\
    fdn (S754_infinity false) = Ok (tx "Infinity") /\
    fdn (S754_infinity true) = Ok (tx "-Infinity") /\
    fdn (S754_zero false) = Ok (tx "0") /\
    fdn (S754_zero true) = Ok (tx "-0").
  Proof. repeat split; reflexivity. Qed.

  (* finite non-zero arguments: the choice of notation *)
  Lemma fdn_finite : forall x, is_finite x = true -> neqb x nzero = false ->
    fdn x = if scientific_range (nabs x) then Ok (format_scientific fmt_prec fmt_exp14 parse_f64 x)
            else format_standard log10 powi fmt_prec fx x.
  Proof.
    intros [s|s| |s m e] F Z; try discriminate F; [destruct s; discriminate Z|].
    unfold format_display_number. cbn [is_nan is_inf]. now rewrite Z.
  Qed.

  Lemma fdn_std_nonint : forall x, std_nonint_path x = true ->
    fdn x = (do rounded <- round_sig x;
             do formatted <- format_float_significant log10 powi fmt_prec fx rounded;
             Ok (add_thousand_separators formatted)).
  Proof.
    intros x Hp. destruct (std_nonint_path_inv x Hp) as (F & Z & S & I).
    rewrite (fdn_finite x F Z), S. unfold format_standard. now rewrite I.
  Qed.

  (* ---------- the i32 arithmetic of the standard path, given the decimal exponent ---------- *)
  Lemma round_sig_eq : forall x l,
    neqb x nzero = false -> flog10 log10 powi fx (nabs x) = Ok l -> Z.abs l <= 2 ^ 29 ->
    round_sig x = Ok (ndiv (nround (nmul x (powi c_ten (14 - l)))) (powi c_ten (14 - l))).
  Proof.
    intros x l Hz E B. unfold round_to_significant_figures. rewrite Hz, E. cbn [obind].
    change (i32_sub 15 1) with (@Ok Z 14). cbn [obind]. unfold i32_sub.
    now rewrite i32_ok_small by lia.
  Qed.

  Lemma places_of_eq : forall r l,
    flog10 log10 powi fx (nabs r) = Ok l -> Z.abs l <= 2 ^ 29 ->
    places_of r = Ok (Z.max (if ngeb (nabs r) c_one then 15 - (l + 1) else 15 + - l - 1) 0).
  Proof.
    intros r l E B. unfold decimal_places_of. rewrite E. cbn [obind].
    unfold i32_add, i32_sub, i32_neg.
    destruct (ngeb (nabs r) c_one); repeat (rewrite i32_ok_small by lia; cbn [obind]); reflexivity.
  Qed.

  Lemma decimal_places_nonneg : forall v dp, places_of v = Ok dp -> 0 <= dp.
  Proof.
    intros v dp H. unfold decimal_places_of in H. inv_bind H. inv_bind H.
    destruct (ngeb (nabs v) c_one).
    - inv_bind H. injection H as <-. lia.
    - inv_bind H. inv_bind H. injection H as <-. lia.
  Qed.

  Lemma format_float_significant_inv : forall r f,
    format_float_significant log10 powi fmt_prec fx r = Ok f ->
    exists dp, places_of r = Ok dp /\ 0 <= dp /\ f = trim_fraction (fmt_prec r dp).
  Proof.
    intros r f H. unfold format_float_significant in H. inv_bind H. injection H as <-.
    exists a. repeat split. now apply decimal_places_nonneg with r.
  Qed.

  (* ---------- the scientific path ---------- *)
  Definition sci_mantissa (x : num) (ms : text) : num :=
    match parse_f64 ms with Some m => m | None => x end.
  Definition sci_exponent (es : text) : Z :=
    match parse_i32 es with Some e => e | None => 0 end.

  (* the scientific text and its value, from the split of {:.14e} and the shape of the
     re-printed mantissa alone *)
  Lemma format_scientific_at : forall x ms es,
    split_once "e" (fmt_exp14 x) = Some (ms, es) ->
    prec_shape 14 (fmt_prec (sci_mantissa x ms) 14) = true ->
    wf_numeral (format_scientific fmt_prec fmt_exp14 parse_f64 x) = true /\
    (denote (format_scientific fmt_prec fmt_exp14 parse_f64 x) ==
     denote_plain (fmt_prec (sci_mantissa x ms) 14) * Qpower (10 # 1) (sci_exponent es))%Q.
  Proof.
    intros x ms es Esp S.
    destruct (prec_shape_inv _ _ S) as (neg & ip & ofp & Ep & Hi & Hof & Hpos & _).
    destruct (Hpos ltac:(lia)) as (fp & -> & _). cbn [ok_frac] in Hof.
    pose proof (ok_frac_trim (Some fp) Hof) as Hof'.
    assert (Et : format_scientific fmt_prec fmt_exp14 parse_f64 x =
                 mk_plain neg ip (trim_ofp (Some fp)) ++ "e" :: int_to_text (sci_exponent es)).
    { unfold format_scientific. rewrite Esp. fold (sci_mantissa x ms). fold (sci_exponent es).
      unfold format_mantissa. rewrite Ep. now rewrite trim_mantissa_mk_plain. }
    rewrite Et. split; [now apply sci_text_wf|].
    rewrite sci_text_value, Ep, !denote_plain_mk_plain by assumption. cbn zeta.
    pose proof (trim_ofp_value ip (Some fp)) as V. destruct neg; rewrite V; reflexivity.
  Qed.

  Lemma format_scientific_split : forall x, is_finite x = true -> exp_shape (fmt_exp14 x) = true ->
    exists ms es, split_once "e" (fmt_exp14 x) = Some (ms, es) /\
                  prec_shape 14 (fmt_prec (sci_mantissa x ms) 14) = true.
  Proof.
    intros x Hf E. unfold exp_shape in E.
    destruct (split_once "e" (fmt_exp14 x)) as [[ms es]|]; [|discriminate].
    apply andb_true_iff in E. destruct E as [Hm _].
    exists ms, es. split; [reflexivity|]. apply Hprec; [|lia].
    unfold sci_mantissa. destruct (parse_f64 ms) eqn:P; [now apply (Hparse ms)|exact Hf].
  Qed.

  (* the scientific text denotes exactly  (what {:.14} printed for the mantissa) * 10^exponent *)
  Theorem display_scientific_value : forall x,
    is_finite x = true -> neqb x nzero = false -> scientific_range (nabs x) = true ->
    exists ms es t,
      split_once "e" (fmt_exp14 x) = Some (ms, es) /\
      fdn x = Ok t /\ wf_numeral t = true /\
      (denote t == denote_plain (fmt_prec (sci_mantissa x ms) 14) * Qpower (10 # 1) (sci_exponent es))%Q.
  Proof.
    intros x Hf Hz Hs. destruct (format_scientific_split x Hf (Hexp x Hf)) as (ms & es & Esp & S).
    exists ms, es, (format_scientific fmt_prec fmt_exp14 parse_f64 x). split; [exact Esp|]. split.
    - now rewrite (fdn_finite x Hf Hz), Hs.
    - now apply format_scientific_at.
  Qed.

  (* ---------- well-formedness: ALL doubles, all oracles of the documented shape ---------- *)
  (* the shape of {:.14e} is used at the displayed number only *)
  Lemma display_wellformed_at : forall x t,
    (is_finite x = true -> exp_shape (fmt_exp14 x) = true) ->
    fdn x = Ok t ->
    wf_numeral t = true \/
    (std_nonint_path x = true /\ exists r, round_sig x = Ok r /\ is_finite r = false).
  Proof.
    intros x t Hex H. unfold format_display_number in H.
    destruct (is_nan x) eqn:Hn. { injection H as <-. left. reflexivity. }
    destruct (is_inf x) eqn:Hi. { left. destruct (negb (nsign x)); injection H as <-; reflexivity. }
    destruct (neqb x nzero) eqn:Hz. { left. destruct (nsign x); injection H as <-; reflexivity. }
    assert (Hf : is_finite x = true) by now destruct x.
    destruct (scientific_range (nabs x)) eqn:Hs.
    - injection H as <-. left. destruct (format_scientific_split x Hf (Hex Hf)) as (ms & es & Esp & S).
      now apply (format_scientific_at x ms es).
    - unfold format_standard in H.
      destruct (nfract_is_zero x && nltb (nabs x) c_2p53) eqn:Hint.
      + left. destruct (Z.eq_dec (as_i64 x) I64_MIN) as [E|NE].
        * unfold format_integer_with_separators in H. rewrite E in H. discriminate.
        * rewrite format_integer_text in H by exact NE. injection H as <-.
          apply (grouped_result_wf _ _ None); [|reflexivity]. apply nat_digits_spec. lia.
      + inv_bind H. inv_bind H. injection H as <-. rename a into r. rename a0 into f.
        destruct (is_finite r) eqn:Hr.
        * left. destruct (format_float_significant_inv r f E0) as (dp & _ & Hdp & ->).
          apply (standard_text dp), Hprec; assumption.
        * right. split.
          -- unfold std_nonint_path. now rewrite Hf, Hz, Hs, Hint.
          -- now exists r.
  Qed.

  Theorem display_wellformed : forall x t,
    fdn x = Ok t ->
    wf_numeral t = true \/
    (std_nonint_path x = true /\ exists r, round_sig x = Ok r /\ is_finite r = false).
  Proof. intros x t. apply display_wellformed_at, Hexp. Qed.

  (* the result is always Ok or Panic (never an error value) *)
  Lemma flog10_ok_or_panic : forall a, ok_or_panic (flog10 log10 powi fx a).
  Proof.
    intros a. unfold flog10. destruct fx; [destruct (nltb _ _)|]; try apply ok_or_panic_Ok.
    apply ok_or_panic_i32.
  Qed.

  Lemma places_ok_or_panic : forall r, ok_or_panic (places_of r).
  Proof.
    intros r. unfold decimal_places_of, i32_add, i32_sub, i32_neg.
    apply ok_or_panic_bind; [apply flog10_ok_or_panic|intros l].
    destruct (ngeb (nabs r) c_one);
      repeat (apply ok_or_panic_bind; [apply ok_or_panic_i32|intros ?]); apply ok_or_panic_Ok.
  Qed.

  Lemma round_sig_ok_or_panic : forall x, ok_or_panic (round_sig x).
  Proof.
    intros x. unfold round_to_significant_figures, i32_sub.
    destruct (neqb x nzero); [apply ok_or_panic_Ok|].
    apply ok_or_panic_bind; [apply flog10_ok_or_panic|intros l].
    repeat (apply ok_or_panic_bind; [apply ok_or_panic_i32|intros ?]). apply ok_or_panic_Ok.
  Qed.

  Theorem display_ok_or_panic : forall x, (exists t, fdn x = Ok t) \/ fdn x = Panic.
  Proof.
    intros x. change (ok_or_panic (fdn x)). unfold format_display_number.
    destruct (is_nan x); [apply ok_or_panic_Ok|]. destruct (is_inf x); [apply ok_or_panic_Ok|].
    destruct (neqb x nzero); [apply ok_or_panic_Ok|].
    destruct (scientific_range (nabs x)); [apply ok_or_panic_Ok|].
    unfold format_standard. destruct (_ && _).
    - unfold format_integer_with_separators. destruct (_ =? _); [now right|apply ok_or_panic_Ok].
    - apply ok_or_panic_bind; [apply round_sig_ok_or_panic|intros r].
      apply ok_or_panic_bind; [|intros f; apply ok_or_panic_Ok].
      apply ok_or_panic_bind; [apply places_ok_or_panic|intros dp; apply ok_or_panic_Ok].
  Qed.
End Theorems.

Section Theorems2.
  Variable log10 : num -> num.
  Variable powi : num -> Z -> num.
  Variable fmt_prec : num -> Z -> text.
  Variable fmt_exp14 : num -> text.
  Variable parse_f64 : text -> option num.
  Variable fx : bool.

  Notation fdn := (format_display_number log10 powi fmt_prec fmt_exp14 parse_f64 fx).
  Notation round_sig := (round_to_significant_figures log10 powi fx).
  Notation places_of := (decimal_places_of log10 powi fx).

  (* ---------- integers below 2^53 in standard notation are shown exactly (no oracle) ---------- *)
  Theorem display_integers_exact : forall s m e,
    let x := S754_finite s m e in
    valid_binary prec emax x = true ->
    scientific_range (nabs x) = false ->        (* 0.0001 <= |x| < 1e15: standard notation *)
    nfract_is_zero x = true ->                  (* x is an integer *)
    exists t, fdn x = Ok t /\ wf_numeral t = true /\ (denote t == num_to_Q x)%Q.
  Proof.
    intros s m e x Hv Hs Hi. subst x.
    assert (Hlt : nltb (S754_finite false m e) c_2p53 = true).
    { apply exp_lt_2p53, (lt_1e15_exp m). now apply (std_range_inv _ Hs). }
    cbn [nfract_is_zero] in Hi. destruct (split_int m e) as [[q r] d] eqn:Hsp.
    apply Z.eqb_eq in Hi. subst r.
    destruct (as_i64_small s m e q 0 d Hv Hlt Hsp) as [Has Hq].
    destruct (split_int_bounds m e q 0 d Hsp) as (_ & _ & Hpos). specialize (Hpos eq_refl).
    assert (Hne : cond_Zopp s q <> I64_MIN) by (unfold I64_MIN; destruct s; cbn [cond_Zopp]; lia).
    assert (Hneg : (cond_Zopp s q <? 0) = s).
    { destruct s; cbn [cond_Zopp]; [apply Z.ltb_lt|apply Z.ltb_ge]; lia. }
    assert (Habs : Z.abs (cond_Zopp s q) = q) by (destruct s; cbn [cond_Zopp]; lia).
    destruct (nat_digits_spec q ltac:(lia)) as [Hd Hval].
    exists (sign_text s ++ group3 (nat_digits q) ++ frac_text None). split; [|split].
    - rewrite fdn_finite, Hs by (destruct s; reflexivity).
      unfold format_standard. cbn [nfract_is_zero]. rewrite Hsp.
      change (0 =? 0) with true. cbn [nabs SFabs andb]. rewrite Hlt. rewrite Has.
      rewrite format_integer_text by exact Hne. now rewrite Hneg, Habs.
    - now apply grouped_result_wf.
    - rewrite grouped_result_value by auto. rewrite denote_plain_mk_plain by exact Hd. cbn zeta.
      rewrite (integral_value s m e q d Hsp).
      pose proof (dec_value_no_frac (nat_digits q)) as V. rewrite Hval in V.
      destruct s; cbn [cond_Zopp]; rewrite V; [now rewrite inject_Z_opp|reflexivity].
  Qed.

  (* ---------- the standard non-integer path: post-processing is value-exact ---------- *)
  Hypothesis Hprec : forall x n, is_finite x = true -> 0 <= n -> prec_shape n (fmt_prec x n) = true.

  Theorem display_standard_value : forall x t,
    std_nonint_path x = true -> fdn x = Ok t ->
    exists r dp, round_sig x = Ok r /\ places_of r = Ok dp /\ 0 <= dp /\
      (is_finite r = true ->
       wf_numeral t = true /\ (denote t == denote_plain (fmt_prec r dp))%Q).
  Proof.
    intros x t Hp H. rewrite (fdn_std_nonint _ _ _ _ _ _ x Hp) in H.
    inv_bind H. inv_bind H. injection H as <-. rename a into r. rename a0 into f.
    destruct (format_float_significant_inv log10 powi fmt_prec fx r f E0) as (dp & Edp & Hdp & ->).
    exists r, dp. repeat split; auto; apply (standard_text dp), Hprec; assumption.
  Qed.

  (* ---------- no overflow panic when log10 returns sane values ---------- *)
  Hypothesis Hlog : forall a, Z.abs (as_i32 (nfloor (log10 a))) <= 2000.

  Lemma flog10_ok : forall a, exists l, flog10 log10 powi fx a = Ok l /\ Z.abs l <= 2001.
  Proof.
    intros a. unfold flog10. pose proof (Hlog a) as B.
    destruct fx; [destruct (nltb _ _)|]; try (eexists; split; [reflexivity|lia]).
    unfold i32_sub. rewrite i32_ok_small by lia. eexists; split; [reflexivity|lia].
  Qed.

  Theorem display_no_panic : forall x, valid_binary prec emax x = true -> exists t, fdn x = Ok t.
  Proof.
    intros x Hv. unfold format_display_number.
    destruct (is_nan x) eqn:Hn; [eauto|]. destruct (is_inf x) eqn:Hi; [eauto|].
    destruct (neqb x nzero) eqn:Hz; [eauto|].
    destruct (scientific_range (nabs x)); [eauto|].
    unfold format_standard. destruct (nfract_is_zero x && nltb (nabs x) c_2p53) eqn:Hint.
    - apply andb_true_iff in Hint. destruct Hint as [_ Hlt].
      destruct x as [s|s| |s m e]; try discriminate Hz; try discriminate Hi; try discriminate Hn.
      now apply format_integer_ok.
    - destruct (flog10_ok (nabs x)) as (l & E & B).
      rewrite (round_sig_eq _ _ _ x l Hz E) by lia. cbn [obind]. unfold format_float_significant.
      destruct (flog10_ok (nabs (ndiv (nround (nmul x (powi c_ten (14 - l)))) (powi c_ten (14 - l)))))
        as (l' & E' & B').
      rewrite (places_of_eq _ _ _ _ l' E') by lia. cbn [obind]. eauto.
  Qed.
End Theorems2.

(* integers in the standard range: the display error is 0 *)
Lemma display_integers_error_zero : forall log10 powi fmt_prec fmt_exp14 parse_f64 fx s m e,
  let x := S754_finite s m e in
  valid_binary prec emax x = true ->
  scientific_range (nabs x) = false ->
  nfract_is_zero x = true ->
  exists t, format_display_number log10 powi fmt_prec fmt_exp14 parse_f64 fx x = Ok t /\
            (Qabs (denote t - num_to_Q x) == 0)%Q.
Proof.
  intros log10 powi fmt_prec fmt_exp14 parse_f64 fx s m e x Hv Hs Hi.
  destruct (display_integers_exact log10 powi fmt_prec fmt_exp14 parse_f64 fx s m e Hv Hs Hi)
    as (t & Ht & _ & V).
  exists t. split; [exact Ht|]. fold x in V. rewrite V.
  unfold Qminus. rewrite Qplus_opp_r. reflexivity.
Qed.

(* ---------- the oracle hypotheses are satisfiable: a trivial library ---------- *)
Definition toy_prec (x : num) (n : Z) : text := "0" :: (if n =? 0 then [] else "." :: repeat "0" (Z.to_nat n)).
Definition toy_exp (x : num) : text := tx "1.0e0".
Definition toy_parse (s : text) : option num := Some c_one.
Lemma toy_prec_shape : forall x n,
  is_finite x = true -> 0 <= n -> prec_shape n (toy_prec x n) = true.
Proof.
  intros x n _ Hn. unfold toy_prec, prec_shape, strip_sign. cbn [starts_with].
  change (Ascii.eqb "0" "-") with false. cbn iota.
  destruct (n =? 0) eqn:E.
  - apply Z.eqb_eq in E. subst. reflexivity.
  - apply Z.eqb_neq in E. unfold prec_body_shape. cbn [break_at].
    change (Ascii.eqb "0" ".") with false. cbn iota. cbn [break_at].
    change (Ascii.eqb "." ".") with true. cbn iota.
    assert (A : all_digits (repeat "0" (Z.to_nat n)) = true).
    { apply all_digits_intro.
      - destruct (Z.to_nat n) eqn:N; [lia|discriminate].
      - generalize (Z.to_nat n). intros k. induction k; [reflexivity|]. cbn. exact IHk. }
    rewrite A, repeat_length, Z2Nat.id by lia. rewrite Z.eqb_refl.
    destruct (0 <? n) eqn:P; [reflexivity|]. apply Z.ltb_ge in P. lia.
Qed.
Lemma toy_exp_shape : forall x, is_finite x = true -> exp_shape (toy_exp x) = true.
Proof. reflexivity. Qed.
Lemma toy_parse_finite : forall s m,
  mant_shape s = true -> toy_parse s = Some m -> is_finite m = true.
Proof. intros s m _ H. injection H as <-. reflexivity. Qed.
