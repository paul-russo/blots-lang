(* AllNoUnm.v — no evaluation over the complete dispatcher is Unmodelled: for every oracle, no arm of EvalAll.builtin_all and
   no operator of EvalAll.binop_all answers [Unmodelled] unless its callback does (AllNoPanic.builtin_all_nf /
   binop_all_nf at this failure, whose two side conditions hold outright), hence (Avoid.v, the evaluator
   induction) evalD / FunctionDef::call / whole programs over them never do.
   Contrast: EvalInst.builtin_impl answers Unmodelled for 50 built-ins, EvalFull.builtin_full for 15 and for
   to_string / join of function-containing values, binop_impl for `^`. *)
From Coq Require Import String Ascii List ZArith Bool Lia.
Require Import Blots.Num Blots.gen.Builtins Blots.Ast Blots.Value Blots.Outcome Blots.Binop
               Blots.Env Blots.Eval Blots.BuiltinsHof Blots.Program Blots.EvalInst Blots.EvalFull
               Blots.EvalAll Blots.BuiltinsList Blots.BuiltinsAgg Blots.BuiltinsText Blots.DisplayNum
               Blots.proofs.Avoid Blots.proofs.NoPanic Blots.proofs.AllNoPanic.
Import ListNotations.
Open Scope list_scope.
Open Scope nat_scope.

(* ---------------- percentile: args[i] is a value or a Panic, the sort and the index a value, an error or a
   Panic ---------------- *)
Lemma aarg_nu : forall args i, BuiltinsAgg.arg args i <> Unmodelled.
Proof. intros. unfold BuiltinsAgg.arg. destruct (nth_error args i); discriminate. Qed.
Lemma a_as_number_nu : forall v, BuiltinsAgg.as_number v <> Unmodelled.
Proof. destruct v; discriminate. Qed.
Lemma a_as_list_nu : forall v, BuiltinsAgg.as_list v <> Unmodelled.
Proof. destruct v; discriminate. Qed.
Lemma insert_pc_nu : forall x l, insert_pc x l <> Unmodelled.
Proof.
  intros x l. induction l as [|y r IH]; cbn [insert_pc]; [discriminate|].
  destruct (ncmp x y) as [[]|]; try discriminate; (apply (obind_nf FUnm); [exact IH|]; discriminate).
Qed.
Lemma sort_pc_nu : forall l, sort_pc l <> Unmodelled.
Proof.
  intros l. unfold sort_pc.
  assert (G : forall l acc, acc <> Unmodelled ->
            fold_left (fun acc x => do a <- acc; insert_pc x a) l acc <> Unmodelled).
  { induction l0 as [|x l0 IH]; intros acc Ha; cbn [fold_left]; [exact Ha|].
    apply IH. apply (obind_nf FUnm); [exact Ha|]. intros; apply insert_pc_nu. }
  apply G. discriminate.
Qed.
Lemma index_num_nu : forall l i, index_num l i <> Unmodelled.
Proof.
  intros. unfold index_num. destruct (_ || _); [discriminate|].
  destruct (nth_error l (Z.to_nat i)); discriminate.
Qed.
Lemma bi_percentile_nu : forall args, bi_percentile args <> Unmodelled.
Proof.
  intros. unfold bi_percentile, bi_percentile_gen.
  apply (obind_nf FUnm); [apply aarg_nu|]. intros a1 _. apply (obind_nf FUnm); [apply a_as_number_nu|]. intros p _.
  apply (obind_nf FUnm); [apply aarg_nu|]. intros a0 _. apply (obind_nf FUnm); [apply a_as_list_nu|]. intros l _.
  destruct (negb (in_0_100 p)); [discriminate|].
  apply (obind_nf FUnm); [apply (mapM_nf FUnm); intros; apply a_as_number_nu|]. intros n _.
  destruct (is_empty n); [discriminate|]. destruct (has_nan n); [discriminate|].
  apply (obind_nf FUnm); [apply sort_pc_nu|]. intros s _.
  apply (obind_nf FUnm); [unfold usize_sub; destruct (_ <? _)%Z; discriminate|]. intros len1 _.
  apply (obind_nf FUnm); [apply index_num_nu|]. discriminate.
Qed.

(* ---------------- the dispatcher ---------------- *)
Theorem builtin_all_no_unm : forall o cb b args st,
  cb_nf FUnm cb -> can_accept (builtin_arity b) (length args) = true ->
  fst (builtin_all o cb b args st) <> Unmodelled.
Proof.
  intros o cb b args st Hcb Ha. apply (builtin_all_nf FUnm); [exact Hcb|exact Ha| |].
  - intros _. apply bi_percentile_nu.
  - intros _. apply (mapM_nf FUnm). intros v _.
    unfold stringify_display_all. destruct (display_panics o v); discriminate.
Qed.

(* ---------------- the evaluator, FunctionDef::call and whole programs ---------------- *)
Theorem AD_all_no_unm : forall o release d fr this f args st,
  fst (AD release (binop_all o) (builtin_all o) d fr this f args st) <> Unmodelled.
Proof.
  intros o release d fr.
  apply (AD_nf FUnm (fun _ => True)); [exact (fun _ _ => I)|exact (fun _ _ _ _ _ _ => I)|discriminate|..].
  - apply (binop_all_nf FUnm).
  - apply builtin_all_no_unm.
  - apply (factorial_nf FUnm).
Qed.
Lemma evalD_all_nu : forall o release d c e,
  fst (evalD release (binop_all o) (builtin_all o) d c e) <> Unmodelled.
Proof.
  intros o release d c e.
  apply (evalD_nf FUnm (fun _ => True)); [exact (fun _ _ => I)|exact (fun _ _ _ _ _ _ => I)|discriminate|..|exact I].
  - apply (binop_all_nf FUnm).
  - apply builtin_all_no_unm.
  - apply (factorial_nf FUnm).
Qed.
(* the same with the frame hypothesis its users carry along *)
Theorem evalD_all_no_unm : forall o release d c e,
  wf c -> fst (evalD release (binop_all o) (builtin_all o) d c e) <> Unmodelled.
Proof. intros o release d c e _. apply evalD_all_nu. Qed.
Theorem program_all_no_unm : forall o release inputs prog,
  Forall (fun rs => fst rs <> RFail Unmodelled)
         (snd (run (eval_top release (binop_all o) (builtin_all o)) (init_session inputs) prog)).
Proof.
  intros o release inputs prog. apply (run_nf FUnm (fun _ => True)); auto.
  intros c e _. apply evalD_all_nu.
Qed.
