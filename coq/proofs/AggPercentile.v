(* AggPercentile.v — the nearest-rank index of percentile,
       index = (p / 100.0 * (len - 1) as f64).round() as usize,
   is in range, monotone in p, 0 at p = 0 and len-1 at p = 100.  Floating-point reasoning through
   Flocq (IEEE754.BinarySingleNaN): the SpecFloat operations of Num.v are Flocq's (SpecFlocq.v), so
   SFdiv / SFmul are correctly rounded, and rounding is monotone (round_le).  Flocq's real numbers
   bring the classical real-number axioms of the standard library. *)
From Coq Require Import ZArith String List Bool Lia Lra Reals Floats.SpecFloat Permutation Arith.
From Flocq Require Import Core.Core Core.Round_pred Core.Generic_fmt Core.FLT Core.Raux Core.Zaux
  Core.Defs Core.Float_prop IEEE754.BinarySingleNaN.
Require Import Blots.Num Blots.gen.Builtins Blots.Ast Blots.Value Blots.Show Blots.Outcome
  Blots.BuiltinsAgg Blots.proofs.Order Blots.proofs.Aggregates.
Require Export Blots.proofs.SpecFlocq.
Import ListNotations.
Open Scope Z_scope.

#[local] Existing Instance Hprec.
#[local] Existing Instance Hmax.

Notation fexp := (SpecFloat.fexp prec emax).
Notation rnd := (round radix2 fexp ZnearestE).
Notation R_of := (SF2R radix2).
Definition valid (x : num) : bool := valid_binary prec emax x.

(* ---------- correct rounding of the three operations percentile uses ---------- *)
Definition fin_nonneg (x : num) : Prop :=
  match x with S754_zero _ => True | S754_finite false _ _ => True | _ => False end.

(* x / y for finite non-zero x, y whose rounded quotient does not overflow *)
Lemma ndiv_correct sx mx ex sy my ey :
  let x := S754_finite sx mx ex in let y := S754_finite sy my ey in
  (Rabs (rnd (R_of x / R_of y)) < bpow radix2 emax)%R ->
  valid (ndiv x y) = true /\ R_of (ndiv x y) = rnd (R_of x / R_of y) /\
  is_finite_SF (ndiv x y) = true /\ sign_SF (ndiv x y) = xorb sx sy.
Proof.
  intros x y H.
  assert (C := Bdiv_correct_aux prec emax Hprec Hmax mode_NE sx mx ex sy my ey).
  cbv zeta in C. unfold ndiv, SFdiv, x, y.
  destruct (SFdiv_core_binary prec emax (Z.pos mx) ex (Z.pos my) ey) as [[mz ez] lz].
  rewrite binary_round_aux_equiv. destruct C as [V C]. cbn [round_mode] in C.
  unfold x, y in H. cbn [SF2R] in H. rewrite (Rlt_bool_true _ _ H) in C. tauto.
Qed.

(* x * y for valid finite x, y whose rounded product does not overflow *)
Lemma nmul_correct sx mx ex sy my ey :
  let x := S754_finite sx mx ex in let y := S754_finite sy my ey in
  valid x = true -> valid y = true ->
  (Rabs (rnd (R_of x * R_of y)) < bpow radix2 emax)%R ->
  valid (nmul x y) = true /\ R_of (nmul x y) = rnd (R_of x * R_of y) /\
  is_finite_SF (nmul x y) = true /\ sign_SF (nmul x y) = xorb sx sy.
Proof.
  intros x y Vx Vy H.
  assert (C := Bmult_correct_aux prec emax Hprec Hmax mode_NE sx mx ex Vx sy my ey Vy).
  cbv zeta in C. unfold nmul, SFmul, x, y. rewrite binary_round_aux_equiv.
  destruct C as [V C]. cbn [round_mode] in C.
  unfold x, y in H. cbn [SF2R] in H. rewrite (Rlt_bool_true _ _ H) in C. tauto.
Qed.

(* integers below 2^53 are representable *)
Lemma generic_format_int (z : Z) : Z.abs z <= 2^53 -> generic_format radix2 fexp (IZR z).
Proof.
  intros H. destruct (Z.eq_dec (Z.abs z) (2^53)) as [E|E].
  - (* +-2^53 = +-1 * 2^53 *)
    assert (IZR z = F2R (Float radix2 (Z.sgn z) 53)) as ->.
    { unfold F2R. cbn [Fnum Fexp]. rewrite <- (IZR_Zpower radix2) by lia.
      rewrite <- mult_IZR. f_equal. change (radix2 ^ 53) with (2^53). lia. }
    apply generic_format_FLT. apply FLT_spec with (Float radix2 (Z.sgn z) 53); cbn; try reflexivity; lia.
  - assert (IZR z = F2R (Float radix2 z 0)) as ->.
    { unfold F2R. cbn. now rewrite Rmult_1_r. }
    apply generic_format_FLT. apply FLT_spec with (Float radix2 z 0); cbn; try reflexivity; lia.
Qed.

Lemma rnd_int z : Z.abs z <= 2^53 -> rnd (IZR z) = IZR z.
Proof. intros H. apply round_generic; [apply valid_rnd_N|now apply generic_format_int]. Qed.

Lemma bpow_emax_big z : Z.abs z <= 2^53 -> (Rabs (IZR z) < bpow radix2 emax)%R.
Proof.
  intros H. rewrite <- abs_IZR. apply Rle_lt_trans with (IZR (2^53)); [now apply IZR_le|].
  change (2^53) with (radix2 ^ 53). rewrite IZR_Zpower by lia. apply bpow_lt. reflexivity.
Qed.

(* `n as f64` for 0 <= n <= 2^53 : exact *)
Lemma num_of_Z_correct n : 0 <= n <= 2^53 ->
  valid (num_of_Z n) = true /\ R_of (num_of_Z n) = IZR n /\ fin_nonneg (num_of_Z n).
Proof.
  intros H. unfold num_of_Z, SpecFloat.binary_normalize. destruct n as [|p|p]; [cbn; auto| |lia].
  rewrite binary_round_equiv.
  assert (C := binary_round_correct prec emax Hprec Hmax mode_NE false p 0). cbv zeta in C.
  destruct C as [V C]. cbn [round_mode cond_Zopp] in C.
  assert (E : F2R (Float radix2 (Z.pos p) 0) = IZR (Z.pos p)).
  { unfold F2R. cbn. now rewrite Rmult_1_r. }
  rewrite E, rnd_int in C by lia. rewrite (Rlt_bool_true _ _ (bpow_emax_big (Z.pos p) ltac:(lia))) in C.
  destruct C as (C1 & C2 & C3). split; [exact V|split; [exact C1|]].
  destruct (BinarySingleNaN.binary_round prec emax mode_NE false p 0) as [s|s| |s m e];
    try discriminate; cbn in C3; subst; exact I.
Qed.

(* ---------- .round() as usize ---------- *)
Lemma Zfloor_half_int k : Zfloor (IZR k + /2) = k.
Proof. apply Zfloor_imp. rewrite plus_IZR. lra. Qed.

(* f64::round (half away from zero) on a positive finite double, as an integer *)
Lemma split_round_sem m e :
  let '(q, r, d) := split_int m e in
  (if (2 * r >=? 2 ^ d) && negb (d =? 0) then q + 1 else q)
  = Zfloor (F2R (Float radix2 (Z.pos m) e) + /2).
Proof.
  unfold split_int. destruct (0 <=? e) eqn:He.
  - apply Z.leb_le in He. cbn [andb negb Z.eqb Z.geb Z.mul Z.pow Z.compare].
    replace (F2R (Float radix2 (Z.pos m) e)) with (IZR (Z.pos m * 2 ^ e)).
    + symmetry. apply Zfloor_half_int.
    + unfold F2R. cbn [Fnum Fexp]. rewrite mult_IZR. f_equal.
      change 2 with (radix_val radix2). now rewrite IZR_Zpower.
  - apply Z.leb_gt in He. set (d := - e).
    assert (Hd : 0 < d) by lia.
    assert (Hpos : 0 < 2 ^ d) by (apply Z.pow_pos_nonneg; lia).
    set (q := Z.pos m / 2 ^ d). set (r := Z.pos m mod 2 ^ d).
    assert (Hm : Z.pos m = 2 ^ d * q + r) by (apply Z.div_mod; lia).
    assert (Hr : 0 <= r < 2 ^ d) by (apply Z.mod_pos_bound; lia).
    set (B := IZR (2 ^ d)).
    assert (HB : (0 < B)%R) by (apply IZR_lt; exact Hpos).
    assert (Hx : F2R (Float radix2 (Z.pos m) e) = (IZR q + IZR r / B)%R).
    { unfold F2R. cbn [Fnum Fexp]. rewrite Hm, plus_IZR, mult_IZR. fold B.
      replace (bpow radix2 e) with (/ B)%R.
      - field. lra.
      - unfold B. change 2 with (radix_val radix2). rewrite IZR_Zpower by lia.
        rewrite <- bpow_opp. f_equal. lia. }
    rewrite Hx.
    assert (Hr1 : (0 <= IZR r / B)%R).
    { apply Rmult_le_pos; [apply IZR_le; lia|]. apply Rlt_le, Rinv_0_lt_compat, HB. }
    assert (Hr2 : (IZR r / B < 1)%R).
    { apply Rmult_lt_reg_r with B; [exact HB|]. unfold Rdiv. rewrite Rmult_assoc, Rinv_l by lra.
      rewrite Rmult_1_r, Rmult_1_l. apply IZR_lt. lia. }
    replace (d =? 0) with false by lia. cbn [negb]. rewrite andb_true_r.
    destruct (2 * r >=? 2 ^ d) eqn:Hc.
    + apply Z.geb_le in Hc. symmetry. apply Zfloor_imp. rewrite !plus_IZR.
      assert (/2 <= IZR r / B)%R.
      { apply Rmult_le_reg_r with B; [exact HB|]. unfold Rdiv. rewrite Rmult_assoc, Rinv_l by lra.
        rewrite Rmult_1_r. apply IZR_le in Hc. rewrite mult_IZR in Hc. fold B in Hc. lra. }
      lra.
    + assert (Hc' : 2 * r < 2 ^ d). { rewrite Z.geb_leb in Hc. apply Z.leb_gt in Hc. lia. }
      symmetry. apply Zfloor_imp. rewrite !plus_IZR.
      assert (IZR r / B < /2)%R.
      { apply Rmult_lt_reg_r with B; [exact HB|]. unfold Rdiv. rewrite Rmult_assoc, Rinv_l by lra.
        rewrite Rmult_1_r. apply IZR_lt in Hc'. rewrite mult_IZR in Hc'. fold B in Hc'. lra. }
      lra.
Qed.

(* the integer part of a double whose value is an integer *)
Lemma trunc_of_int m e k : F2R (Float radix2 (Z.pos m) e) = IZR k ->
  fst (fst (split_int m e)) = k.
Proof.
  unfold split_int, F2R. cbn [Fnum Fexp]. intros H. destruct (0 <=? e) eqn:He.
  - apply Z.leb_le in He. cbn [fst]. apply eq_IZR. rewrite <- H, mult_IZR. f_equal.
    change 2 with (radix_val radix2). now rewrite IZR_Zpower.
  - apply Z.leb_gt in He. cbn [fst].
    assert (Hpos : 0 < 2 ^ (- e)) by (apply Z.pow_pos_nonneg; lia).
    assert (E : Z.pos m = k * 2 ^ (- e)).
    { apply eq_IZR. rewrite mult_IZR. change 2 with (radix_val radix2).
      rewrite IZR_Zpower by lia. rewrite <- H, Rmult_assoc, <- bpow_plus.
      replace (e + - e) with 0 by lia. cbn. lra. }
    rewrite E. apply Z.div_mul. lia.
Qed.

Lemma cast_num_of_sm k : 0 <= k <= 2^53 -> as_usize (num_of_sm false k) = k.
Proof.
  intros H. replace (num_of_sm false k) with (num_of_Z k) by (destruct k; [reflexivity|reflexivity|lia]).
  destruct (num_of_Z_correct k H) as (_ & R & F).
  destruct (num_of_Z k) as [s|s| |s m e]; try contradiction.
  - cbn in R. apply eq_IZR in R. now subst k.
  - destruct s; [contradiction|]. cbn [SF2R cond_Zopp] in R.
    unfold as_usize, cast_int, Z_of_num_trunc.
    assert (T := trunc_of_int m e k R).
    destruct (split_int m e) as [[q r] d]. cbn in T. subst q.
    unfold clamp, U64_MAX. replace (k <? 0) with false by lia.
    replace (2 ^ 64 - 1 <? k) with false by lia. reflexivity.
Qed.

Lemma round_cast_sem u N : fin_nonneg u -> (R_of u <= IZR N)%R -> 0 <= N <= 2^53 ->
  as_usize (nround u) = Zfloor (R_of u + /2) /\ 0 <= Zfloor (R_of u + /2) <= N.
Proof.
  intros Hu Hle HN. destruct u as [s|s| |s m e]; try contradiction.
  - cbn [SF2R]. rewrite (Zfloor_half_int 0). split; [reflexivity|lia].
  - destruct s; [contradiction|]. cbn [SF2R cond_Zopp] in *.
    set (x := F2R (Float radix2 (Z.pos m) e)) in *.
    assert (Hx : (0 < x)%R) by (apply F2R_gt_0; reflexivity).
    assert (Hk : 0 <= Zfloor (x + /2) <= N).
    { split.
      - apply Zfloor_lub. cbn. lra.
      - apply Z.lt_succ_r. apply lt_IZR. eapply Rle_lt_trans; [apply Zfloor_lb|].
        unfold Z.succ. rewrite plus_IZR. lra. }
    split; [|exact Hk].
    assert (S := split_round_sem m e). unfold nround.
    destruct (split_int m e) as [[q r] d]. fold x in S. rewrite S.
    apply cast_num_of_sm. lia.
Qed.

(* ---------- the index as a function of the real value of p ---------- *)
Definition Fidx (x : R) (N : Z) : Z := Zfloor (rnd (rnd (x / 100) * IZR N) + /2).

Lemma rnd_0 : rnd 0 = 0%R.
Proof. apply round_0. apply valid_rnd_N. Qed.
Lemma Fidx_0 N : Fidx 0 N = 0.
Proof.
  unfold Fidx. replace (0 / 100)%R with 0%R by lra. rewrite rnd_0, Rmult_0_l, rnd_0.
  exact (Zfloor_half_int 0).
Qed.

Lemma n100_value : n100 = S754_finite false 7036874417766400 (-46).
Proof. vm_compute. reflexivity. Qed.
Lemma R_n100 : R_of n100 = 100%R.
Proof. destruct (num_of_Z_correct 100 ltac:(lia)) as (_ & H & _). exact H. Qed.
Lemma valid_n100 : valid n100 = true.
Proof. vm_compute. reflexivity. Qed.

Lemma rnd_le x y : (x <= y)%R -> (rnd x <= rnd y)%R.
Proof. apply round_le; [apply fexp_correct; reflexivity|apply valid_rnd_N]. Qed.
Lemma rnd_nonneg x : (0 <= x)%R -> (0 <= rnd x)%R.
Proof. intros H. rewrite <- rnd_0. now apply rnd_le. Qed.

Lemma fin_nonneg_R x : fin_nonneg x -> (0 <= R_of x)%R.
Proof.
  destruct x as [s|s| |[] m e]; try contradiction; intros _; cbn; [lra|].
  apply F2R_ge_0. cbn. lia.
Qed.

Lemma fin_nonneg_of_sign z : is_finite_SF z = true -> sign_SF z = false -> fin_nonneg z.
Proof. destruct z as [s|s| |s m e]; cbn; try discriminate; intros _ H; subst; exact I. Qed.

Lemma nmul_fin_nonneg a b : valid a = true -> valid b = true -> fin_nonneg a -> fin_nonneg b ->
  (R_of a * R_of b <= IZR (2^53))%R ->
  valid (nmul a b) = true /\ fin_nonneg (nmul a b) /\ R_of (nmul a b) = rnd (R_of a * R_of b).
Proof.
  intros Va Vb Ha Hb Hle.
  destruct a as [sa|sa| |sa ma ea]; try contradiction;
  destruct b as [sb|sb| |sb mb eb]; try contradiction.
  - cbn. rewrite Rmult_0_l, rnd_0. auto.
  - cbn [nmul SFmul SF2R]. rewrite Rmult_0_l, rnd_0. cbn. auto.
  - cbn [nmul SFmul SF2R]. rewrite Rmult_0_r, rnd_0. cbn. auto.
  - destruct sa, sb; try contradiction.
    assert (P := Rmult_le_pos _ _ (fin_nonneg_R _ Ha) (fin_nonneg_R _ Hb)).
    destruct (nmul_correct false ma ea false mb eb Va Vb) as (V & E & F & S).
    { rewrite Rabs_pos_eq by now apply rnd_nonneg.
      eapply Rle_lt_trans; [apply rnd_le, Hle|]. rewrite rnd_int by (cbn; lia).
      rewrite <- (Rabs_pos_eq (IZR (2^53))) by (apply IZR_le; lia). apply bpow_emax_big. cbn. lia. }
    split; [exact V|split; [|exact E]]. now apply fin_nonneg_of_sign.
Qed.

Lemma in_0_100_cases p : in_0_100 p = true ->
  (exists s, p = S754_zero s) \/ (exists m e, p = S754_finite false m e).
Proof.
  unfold in_0_100. rewrite n100_value. intros H. apply andb_true_iff in H. destruct H as [H1 H2].
  destruct p as [s|[]| |[] m e]; try discriminate; eauto.
Qed.

Lemma nleb_Rle a b : valid a = true -> valid b = true ->
  is_finite_SF a = true -> is_finite_SF b = true ->
  nleb a b = Rle_bool (R_of a) (R_of b).
Proof.
  intros Va Vb Fa Fb.
  assert (C := Bleb_correct prec emax (@SF2B prec emax a Va) (@SF2B prec emax b Vb)).
  rewrite !is_finite_SF2B in C. specialize (C Fa Fb).
  unfold Bleb in C. rewrite !B2SF_SF2B, !B2R_SF2B in C. exact C.
Qed.

Theorem percentile_index_sem p N : valid p = true -> in_0_100 p = true -> 0 <= N <= 2^53 ->
  (0 <= R_of p <= 100)%R /\ percentile_index p N = Fidx (R_of p) N /\ 0 <= Fidx (R_of p) N <= N.
Proof.
  intros Vp Hp HN.
  destruct (num_of_Z_correct N HN) as (VN & RN & FN).
  assert (HNR : (0 <= IZR N)%R) by (apply IZR_le; lia).
  destruct (in_0_100_cases p Hp) as [[s ->]|(m & e & ->)].
  - (* p = +-0 *)
    cbn [SF2R]. split; [lra|]. rewrite Fidx_0. split; [|lia].
    unfold percentile_index. rewrite n100_value. cbn [ndiv SFdiv].
    destruct (num_of_Z N) as [sn|sn| |[] mn en]; try contradiction; reflexivity.
  - set (p := S754_finite false m e) in *.
    assert (Fp : fin_nonneg p) by exact I.
    assert (Rp0 := fin_nonneg_R p Fp).
    assert (Rp100 : (R_of p <= 100)%R).
    { unfold in_0_100 in Hp. apply andb_true_iff in Hp. destruct Hp as [_ Hp].
      rewrite (nleb_Rle p n100 Vp valid_n100 eq_refl) in Hp by (rewrite n100_value; reflexivity).
      rewrite R_n100 in Hp. destruct (Rle_bool_spec (R_of p) 100); [assumption|discriminate]. }
    split; [lra|].
    (* t = p / 100.0 *)
    assert (Hq : (0 <= R_of p / 100 <= 1)%R) by lra.
    assert (Ht1 : (rnd (R_of p / 100) <= 1)%R).
    { rewrite <- (rnd_int 1) by (cbn; lia). apply rnd_le. lra. }
    assert (Ht0 : (0 <= rnd (R_of p / 100))%R) by (apply rnd_nonneg; lra).
    assert (T : valid (ndiv p n100) = true /\ fin_nonneg (ndiv p n100) /\
                R_of (ndiv p n100) = rnd (R_of p / 100)).
    { rewrite n100_value. unfold p.
      destruct (ndiv_correct false m e false 7036874417766400 (-46)) as (V & E & F & S).
      - fold p. rewrite <- n100_value, R_n100. rewrite Rabs_pos_eq by assumption.
        eapply Rle_lt_trans; [exact Ht1|]. change 1%R with (bpow radix2 0). apply bpow_lt. reflexivity.
      - fold p in V, E, F, S |- *. rewrite <- n100_value in V, E, F, S |- *. rewrite R_n100 in E.
        split; [exact V|split; [|exact E]]. now apply fin_nonneg_of_sign. }
    destruct T as (Vt & Ft & Rt).
    (* u = t * (N as f64) *)
    destruct (nmul_fin_nonneg (ndiv p n100) (num_of_Z N) Vt VN Ft FN) as (Vu & Fu & Ru).
    { rewrite Rt, RN. apply Rle_trans with (1 * IZR N)%R.
      - apply Rmult_le_compat_r; assumption.
      - rewrite Rmult_1_l. apply IZR_le. lia. }
    rewrite Rt, RN in Ru.
    assert (Hu : (R_of (nmul (ndiv p n100) (num_of_Z N)) <= IZR N)%R).
    { rewrite Ru. rewrite <- (rnd_int N) at 2 by lia. apply rnd_le.
      rewrite <- (Rmult_1_l (IZR N)) at 2. apply Rmult_le_compat_r; assumption. }
    destruct (round_cast_sem _ N Fu Hu HN) as [A B].
    unfold percentile_index, Fidx. rewrite A, Ru. split; [reflexivity|]. rewrite <- Ru. exact B.
Qed.

(* ---------- the four facts about the index ---------- *)
Theorem index_in_range p N : valid p = true -> in_0_100 p = true -> 0 <= N <= 2^53 ->
  0 <= percentile_index p N <= N.
Proof. intros V H HN. destruct (percentile_index_sem p N V H HN) as (_ & -> & B). exact B. Qed.

Lemma in_0_100_finite p : in_0_100 p = true -> is_finite_SF p = true.
Proof. intros H. destruct (in_0_100_cases p H) as [[s ->]|(m & e & ->)]; reflexivity. Qed.

Lemma Fidx_mono x y N : (x <= y)%R -> 0 <= N -> Fidx x N <= Fidx y N.
Proof.
  intros H HN. unfold Fidx. apply Zfloor_le. apply Rplus_le_compat_r. apply rnd_le.
  apply Rmult_le_compat_r; [apply IZR_le; lia|]. apply rnd_le. lra.
Qed.

Theorem index_mono p q N :
  valid p = true -> valid q = true -> in_0_100 p = true -> in_0_100 q = true ->
  nle p q -> 0 <= N <= 2^53 -> percentile_index p N <= percentile_index q N.
Proof.
  intros Vp Vq Hp Hq Hle HN.
  destruct (percentile_index_sem p N Vp Hp HN) as (_ & -> & _).
  destruct (percentile_index_sem q N Vq Hq HN) as (_ & -> & _).
  apply Fidx_mono; [|lia]. unfold nle in Hle.
  rewrite (nleb_Rle p q Vp Vq (in_0_100_finite p Hp) (in_0_100_finite q Hq)) in Hle.
  destruct (Rle_bool_spec (R_of p) (R_of q)); [assumption|discriminate].
Qed.

Theorem index_0 p N : is_zero p = true -> 0 <= N <= 2^53 -> percentile_index p N = 0.
Proof.
  intros Hz HN. destruct p as [s|?| |? ? ?]; try discriminate.
  destruct (percentile_index_sem (S754_zero s) N eq_refl) as (_ & -> & _); [now destruct s|exact HN|].
  apply Fidx_0.
Qed.

Theorem index_100 N : 0 <= N <= 2^53 -> percentile_index n100 N = N.
Proof.
  intros HN. destruct (percentile_index_sem n100 N valid_n100) as (_ & -> & _);
    [rewrite n100_value; reflexivity|exact HN|].
  unfold Fidx. rewrite R_n100. replace (100 / 100)%R with (IZR 1) by (cbn; lra).
  rewrite rnd_int by (cbn; lia). rewrite Rmult_1_l, rnd_int by lia. apply Zfloor_half_int.
Qed.

(* ---------- percentile on a non-empty NaN-free list ---------- *)
Lemma bi_percentile_unfold l p : in_0_100 p = true -> l <> [] -> nan_free l = true ->
  bi_percentile [VList (nums l); VNum p] =
  (do s <- sort_pc l; do len1 <- usize_sub false (len s) 1;
   do x <- index_num s (percentile_index p len1); Ok (VNum x)).
Proof.
  intros Hp Hne Hl. unfold bi_percentile, bi_percentile_gen. cbn [arg nth_error obind as_number as_list].
  rewrite Hp. cbn [negb]. fold (nums l). rewrite mapM_as_number_nums. cbn [obind].
  replace (has_nan l) with false by (rewrite has_nan_nan_free, Hl; reflexivity).
  destruct l; [contradiction|reflexivity].
Qed.

Lemma len_pos {A} (l : list A) : l <> [] -> 1 <= len l.
Proof. unfold len. destruct l; [contradiction|cbn; lia]. Qed.

Definition rank_of (p : num) (l : list num) : nat := Z.to_nat (percentile_index p (len l - 1)).

Theorem percentile_order_stat l p :
  l <> [] -> nan_free l = true -> len l <= 2^53 -> valid p = true -> in_0_100 p = true ->
  exists v, bi_percentile [VList (nums l); VNum p] = Ok (VNum v) /\
            is_order_stat l (rank_of p l) v /\ (rank_of p l < length l)%nat.
Proof.
  intros Hne Hl Hlen Vp Hp. rewrite bi_percentile_unfold by assumption.
  destruct (sort_pc_sorts l Hl) as (s & Hs & P & S). rewrite Hs. cbn [obind].
  assert (Ls : len s = len l) by (unfold len; now rewrite (Permutation_length P)).
  assert (L1 := len_pos l Hne).
  unfold usize_sub. rewrite Ls. replace (len l <? 1) with false by lia. cbn [obind].
  assert (R := index_in_range p (len l - 1) Vp Hp ltac:(lia)).
  destruct (index_num_nth s (percentile_index p (len l - 1))) as (v & A & B); [lia|].
  rewrite A. cbn [obind]. exists v. split; [reflexivity|]. unfold rank_of. split.
  - apply order_stat_perm with (l := s); [now apply Permutation_sym|].
    apply sorted_nth_order_stat; auto. eapply nan_free_perm; eauto.
  - unfold len in *. lia.
Qed.

(* percentile(l, p) is an element of l *)
Corollary percentile_elem l p :
  l <> [] -> nan_free l = true -> len l <= 2^53 -> valid p = true -> in_0_100 p = true ->
  exists v, bi_percentile [VList (nums l); VNum p] = Ok (VNum v) /\ In v l.
Proof.
  intros. destruct (percentile_order_stat l p) as (v & A & (B & _) & _); eauto.
Qed.

(* non-decreasing in p *)
Theorem percentile_mono l p q :
  l <> [] -> nan_free l = true -> len l <= 2^53 ->
  valid p = true -> in_0_100 p = true -> valid q = true -> in_0_100 q = true -> nle p q ->
  exists v w, bi_percentile [VList (nums l); VNum p] = Ok (VNum v) /\
              bi_percentile [VList (nums l); VNum q] = Ok (VNum w) /\ nle v w.
Proof.
  intros Hne Hl Hlen Vp Hp Vq Hq Hpq.
  destruct (percentile_order_stat l p Hne Hl Hlen Vp Hp) as (v & A & B & _).
  destruct (percentile_order_stat l q Hne Hl Hlen Vq Hq) as (w & A' & B' & _).
  exists v, w. split; [exact A|split; [exact A'|]].
  apply (order_stat_mono l (rank_of p l) (rank_of q l)); auto.
  assert (L1 := len_pos l Hne).
  assert (Rp := index_in_range p (len l - 1) Vp Hp ltac:(lia)).
  assert (Rq := index_in_range q (len l - 1) Vq Hq ltac:(lia)).
  unfold rank_of. apply Z2Nat.inj_le; [lia|lia|].
  apply index_mono; auto. lia.
Qed.

(* percentile(l, 0) = min, percentile(l, 100) = max  (as numbers) *)
Theorem percentile_0_min l p : is_zero p = true ->
  l <> [] -> nan_free l = true -> len l <= 2^53 ->
  exists v m, bi_percentile [VList (nums l); VNum p] = Ok (VNum v) /\
              bi_min (nums l) = Ok (VNum m) /\ neq v m.
Proof.
  intros Hz Hne Hl Hlen.
  assert (L1 := len_pos l Hne).
  assert (Vp : valid p = true) by (destruct p as [[]|?| |? ? ?]; try discriminate; reflexivity).
  assert (Hp : in_0_100 p = true).
  { destruct p as [[]|?| |? ? ?]; try discriminate; unfold in_0_100; rewrite n100_value; reflexivity. }
  destruct (percentile_order_stat l p Hne Hl Hlen Vp Hp) as (v & A & B & _).
  destruct (min_bound l Hne Hl) as (m & C & _ & D & E).
  exists v, m. split; [exact A|split; [exact C|]].
  unfold rank_of in B. rewrite index_0 in B by (auto; lia).
  eapply order_stat_unique; [exact Hl|exact B|now apply least_order_stat].
Qed.

Theorem percentile_100_max l :
  l <> [] -> nan_free l = true -> len l <= 2^53 ->
  exists v m, bi_percentile [VList (nums l); VNum n100] = Ok (VNum v) /\
              bi_max (nums l) = Ok (VNum m) /\ neq v m.
Proof.
  intros Hne Hl Hlen.
  assert (L1 := len_pos l Hne).
  assert (Hp : in_0_100 n100 = true) by (rewrite n100_value; reflexivity).
  destruct (percentile_order_stat l n100 Hne Hl Hlen valid_n100 Hp) as (v & A & B & _).
  destruct (max_bound l Hne Hl) as (m & C & _ & D & E).
  exists v, m. split; [exact A|split; [exact C|]].
  unfold rank_of in B. rewrite index_100 in B by lia.
  replace (Z.to_nat (len l - 1)) with (length l - 1)%nat in B by (unfold len; lia).
  eapply order_stat_unique; [exact Hl|exact B|now apply greatest_order_stat].
Qed.

(* exact permutation invariance *)
Theorem percentile_perm_invariant l l' p : Permutation l l' ->
  l <> [] -> nan_free l = true -> len l <= 2^53 -> valid p = true -> in_0_100 p = true ->
  exists v v', bi_percentile [VList (nums l); VNum p] = Ok (VNum v) /\
               bi_percentile [VList (nums l'); VNum p] = Ok (VNum v') /\ neq v v'.
Proof.
  intros P Hne Hl Hlen Vp Hp.
  assert (Hne' := perm_nonempty _ _ P Hne).
  assert (Hl' := nan_free_perm _ _ P Hl).
  assert (Hlen' : len l' = len l) by (unfold len; now rewrite (Permutation_length P)).
  destruct (percentile_order_stat l p Hne Hl Hlen Vp Hp) as (v & A & B & _).
  destruct (percentile_order_stat l' p Hne' Hl' ltac:(lia) Vp Hp) as (v' & A' & B' & _).
  exists v, v'. split; [exact A|split; [exact A'|]].
  unfold rank_of in B'. rewrite Hlen' in B'. fold (rank_of p l) in B'.
  eapply order_stat_unique; [exact Hl|exact B|].
  eapply order_stat_perm; [apply Permutation_sym|]; eauto.
Qed.
