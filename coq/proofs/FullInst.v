(* FullInst.v — the evaluator with EVERY transcribed built-in (EvalFull.builtin_full) meets the
   two hypotheses of the evaluator theorems:
     builtin_mono : a built-in moves the store only through its callback (StoreMono.v), and
     builtin_le   : a built-in is monotone in its callback w.r.t. "is the depth error, or equal"
                    (DepthMono.v) — it never swallows the depth error of its callback.
   For sort_by the second rests on the comparator ending the sort with the error of a failing key call
   (fix 3b066f5); one that reads a failing key call as Ordering::Equal does not satisfy it.  StoreRelOps.v at store_le and
   InstDepth.v at the depth error. *)
From Coq Require Import String List ZArith Bool Lia.
Require Import Blots.Num Blots.gen.Builtins Blots.Ast Blots.Value Blots.Outcome Blots.Binop
               Blots.Env Blots.Eval Blots.BuiltinsHof Blots.Program Blots.EvalInst Blots.EvalFull
               Blots.BuiltinsList
               Blots.proofs.StoreMono Blots.proofs.StoreRelOps Blots.proofs.DepthMono Blots.proofs.InstDepth.
Import ListNotations.

Lemma builtin_full_mono : builtin_mono builtin_full.
Proof. exact (builtin_full_R store_le store_le_refl store_le_trans). Qed.

(* a sub-computation related by rle, then the same continuation *)
Lemma rle_bind : forall A B (x y : outcome A * store) (k : outcome A * store -> outcome B * store),
  rle x y -> (fst x = ErrDepth -> fst (k x) = ErrDepth) -> rle (k x) (k y).
Proof. intros A B x y k [Hd|Heq] Hk; [left; auto|subst; apply rle_refl]. Qed.

Lemma builtin_full_le : builtin_le builtin_full.
Proof. exact (FailInst.builtin_full_le ErrDepth). Qed.
