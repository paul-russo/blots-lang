(* DisplayNumDischarge2.v — C20: the executable library models satisfy the real-valued
   specifications that C20_accuracy assumes of Rust's core::fmt / dec2flt:
     fmt_prec_exec_accurate    {:.N$}   prints the nearest multiple of 10^-N         (every N >= 0)
     fmt_exp14_exec_correct    {:.14e}  is x correctly rounded to 15 significant digits, in the
                                        documented shape  -?d.d{14}e-?d+             (valid doubles)
     parse_f64_exec_close      parse::<f64> of a 15-digit mantissa is the nearest double, hence
                                        within 2e-15
   Flocq real-number layer (the four allow-listed axioms). *)
From Coq Require Import ZArith Reals Bool String Ascii List Lia Lra QArith Qreals Qabs Qpower Floats.SpecFloat.
From Flocq Require Import Core.Core Calc.Bracket Calc.Div IEEE754.BinarySingleNaN IEEE754.PrimFloat.
Require Import Blots.Num Blots.Outcome Blots.DisplayNum.
Require Import Blots.proofs.DisplayNumGroup Blots.proofs.DisplayNumSpec Blots.proofs.DisplayNumText
               Blots.proofs.DisplayNumInt Blots.proofs.DisplayNum Blots.proofs.DisplayNumAcc
               Blots.proofs.DisplayNumFloat Blots.proofs.DisplayNumFinite Blots.proofs.DisplayNumAccStd
               Blots.proofs.DisplayNumAccAll Blots.proofs.DisplayNumDischarge1.
Import ListNotations.
Open Scope R_scope.

Local Existing Instance vexp.

(* ---------- small real-number facts ---------- *)
(* a/b <= c/d is the cross-multiplied inequality *)
Lemma frac_le_iff : forall a b c d, 0 < b -> 0 < d -> (a / b <= c / d <-> a * d <= c * b).
Proof.
  intros a b c d Hb Hd.
  replace (a / b) with (a * d * / (b * d)) by (field; lra).
  replace (c / d) with (c * b * / (b * d)) by (field; lra).
  assert (P : 0 < / (b * d)) by (apply Rinv_0_lt_compat; now apply Rmult_lt_0_compat).
  split; intros H; [now apply Rmult_le_reg_r in H|now apply Rmult_le_compat_r; [left|]].
Qed.

Lemma frac_le : forall a b c d, 0 < b -> 0 < d -> a * d <= c * b -> a / b <= c / d.
Proof. intros a b c d Hb Hd. apply frac_le_iff; assumption. Qed.

Lemma frac_lt : forall a b c d, 0 < b -> 0 < d -> a * d < c * b -> a / b < c / d.
Proof.
  intros a b c d Hb Hd H. apply Rnot_le_lt. intros C. apply (proj1 (frac_le_iff c d a b Hd Hb)) in C. lra.
Qed.

(* an integer q with |2(q*d - n)| <= d is within 1/2 of n/d *)
Lemma int_close : forall q n d : Z, (0 < d)%Z -> (Z.abs (2 * (q * d - n)) <= d)%Z ->
  Rabs (IZR q - IZR n / IZR d) <= / 2.
Proof.
  intros q n d Hd H.
  assert (D : 0 < IZR d) by now apply (IZR_lt 0).
  apply IZR_le in H. rewrite abs_IZR, mult_IZR, minus_IZR, mult_IZR in H.
  rewrite Rabs_mult, (Rabs_pos_eq 2) in H by lra.
  replace (IZR q - IZR n / IZR d) with ((IZR q * IZR d - IZR n) * / IZR d) by (field; lra).
  rewrite Rabs_mult, (Rabs_pos_eq (/ IZR d)) by (left; now apply Rinv_0_lt_compat).
  apply Rmult_le_reg_r with (IZR d); [exact D|].
  rewrite Rmult_assoc, Rinv_l, Rmult_1_r by lra. lra.
Qed.

(* an approximation of v * 10^j, scaled back *)
Lemma scaled_close : forall q v j, Rabs (q - v * p10 j) <= / 2 ->
  Rabs (q * p10 (- j) - v) <= / 2 * p10 (- j).
Proof.
  intros q v j H. pose proof (p10_pos (- j)) as P.
  replace (q * p10 (- j) - v) with ((q - v * p10 j) * p10 (- j)).
  - rewrite Rabs_mult, (Rabs_pos_eq (p10 (- j))) by lra. now apply Rmult_le_compat_r; [lra|].
  - rewrite Rmult_minus_distr_r, Rmult_assoc, <- bpow_plus, Z.add_opp_diag_r. cbn [bpow]. ring.
Qed.

(* ---------- the real value of a finite double through mag_frac ---------- *)
Lemma mag_frac_R : forall m e N D, mag_frac m e = (N, D) ->
  (0 < N)%Z /\ (0 < D)%Z /\ IZR (Zpos m) * bpow radix2 e = IZR N / IZR D.
Proof.
  intros m e N D H. destruct (mag_frac_pos _ _ _ _ H) as [HN HD]. split; [exact HN|]. split; [exact HD|].
  destruct (mag_frac_cases _ _ _ _ H) as [(E & -> & ->)|(E & -> & ->)].
  - rewrite mult_IZR, IZR_pow2 by exact E. field.
  - rewrite IZR_pow2 by lia. rewrite bpow_opp. field. apply Rgt_not_eq, bpow_gt_0.
Qed.

Lemma RV_mag_frac : forall s m e N D, mag_frac m e = (N, D) ->
  RV (S754_finite s m e) = cond_Ropp s (IZR N / IZR D) /\ Rabs (RV (S754_finite s m e)) = IZR N / IZR D.
Proof.
  intros s m e N D H. destruct (mag_frac_R _ _ _ _ H) as (HN & HD & E).
  rewrite RV_finite, E. split; [reflexivity|]. rewrite abs_cond_Ropp. apply Rabs_pos_eq.
  apply Rmult_le_pos; [apply IZR_le; lia|]. left. apply Rinv_0_lt_compat. now apply (IZR_lt 0).
Qed.

(* the value of a text  sign ip . fp *)
Lemma Q2R_mk_plain : forall s ip fp, all_digits ip = true ->
  Q2R (denote_plain (mk_plain s ip (Some fp))) =
  cond_Ropp s (IZR (digits_value (ip ++ fp)) / p10 (Z.of_nat (length fp))).
Proof.
  intros s ip fp Hi. rewrite denote_plain_mk_plain by exact Hi. cbv zeta. unfold dec_value, pow10.
  destruct s; cbn [cond_Ropp]; rewrite ?Q2R_opp, Q2R_Qmake_pow10 by lia; reflexivity.
Qed.

(* ====================================================================================
   N/D * 10^j rounded to an integer: scale_rhe
   ==================================================================================== *)
Lemma scale_rhe_spec : forall N D j, (0 < N)%Z -> (0 < D)%Z ->
  (0 <= scale_rhe N D j)%Z /\ Rabs (IZR (scale_rhe N D j) - IZR N / IZR D * p10 j) <= / 2.
Proof.
  intros N D j HN HD. unfold scale_rhe.
  assert (DD : 0 < IZR D) by now apply (IZR_lt 0).
  destruct (0 <=? j)%Z eqn:E.
  - apply Z.leb_le in E.
    assert (P : (0 < 10 ^ j)%Z) by (apply Z.pow_pos_nonneg; lia).
    destruct (div_rhe_spec (N * 10 ^ j) D ltac:(nia) HD) as [Q0 Q1]. split; [exact Q0|].
    pose proof (int_close _ _ _ HD Q1) as C. rewrite mult_IZR, IZR_pow10 in C by exact E.
    replace (IZR N / IZR D * p10 j) with (IZR N * p10 j / IZR D) by (field; lra). exact C.
  - apply Z.leb_gt in E.
    assert (P : (0 < 10 ^ (- j))%Z) by (apply Z.pow_pos_nonneg; lia).
    assert (HD' : (0 < D * 10 ^ (- j))%Z) by nia.
    destruct (div_rhe_spec N (D * 10 ^ (- j)) ltac:(lia) HD') as [Q0 Q1]. split; [exact Q0|].
    pose proof (int_close _ _ _ HD' Q1) as C. rewrite mult_IZR, IZR_pow10 in C by lia.
    assert (PP : 0 < p10 (- j)) by apply p10_pos.
    replace (p10 j) with (/ p10 (- j)).
    + replace (IZR N / IZR D * / p10 (- j)) with (IZR N / (IZR D * p10 (- j))) by (field; lra). exact C.
    + rewrite <- bpow_opp. f_equal. lia.
Qed.

(* ====================================================================================
   {:.N$} : the executable model prints the nearest multiple of 10^-N
   ==================================================================================== *)
Theorem fmt_prec_exec_accurate : forall m dp, Num.is_finite m = true -> (0 <= dp)%Z ->
  Rabs (Q2R (denote_plain (fmt_prec_exec m dp)) - RV m) <= / 2 * p10 (- dp).
Proof.
  intros x n F Hn. rewrite fmt_prec_exec_value by assumption.
  rewrite Q2R_Qmake_pow10 by exact Hn. unfold Rdiv. rewrite <- bpow_opp, IZR_cond_Zopp, <- cond_Ropp_mult_l.
  destruct x as [s|s| |s m e]; try discriminate F; cbn [prec_q nsign].
  - unfold RV. cbn [SF2R]. rewrite Rmult_0_l, Rminus_0_r, abs_cond_Ropp, Rabs_R0.
    pose proof (p10_pos (- n)). lra.
  - destruct (mag_frac m e) as [N D] eqn:E.
    destruct (RV_mag_frac s m e N D E) as [-> _]. destruct (mag_frac_R _ _ _ _ E) as (HN & HD & _).
    rewrite cond_Ropp_minus, abs_cond_Ropp.
    replace (div_rhe (N * 10 ^ n) D) with (scale_rhe N D n)
      by (unfold scale_rhe; now rewrite (proj2 (Z.leb_le 0 n) Hn)).
    now apply scaled_close, scale_rhe_spec.
Qed.

(* ====================================================================================
   the decade of a positive fraction: e10_frac
   ==================================================================================== *)
Lemma bpow_split : forall (r : radix) k, bpow r k = bpow r (Z.max k 0) / bpow r (Z.max (- k) 0).
Proof.
  intros r k. unfold Rdiv. rewrite <- bpow_opp, <- bpow_plus. f_equal. lia.
Qed.

Lemma ge_pow10_iff : forall N D k, (0 < N)%Z -> (0 < D)%Z ->
  (ge_pow10 N D k = true <-> p10 k <= IZR N / IZR D).
Proof.
  intros N D k HN HD.
  assert (E : ge_pow10 N D k = (D * 10 ^ Z.max k 0 <=? N * 10 ^ Z.max (- k) 0)%Z).
  { unfold ge_pow10. destruct (Z.leb_spec 0 k).
    - now rewrite Z.max_l, (Z.max_r (- k)), Z.mul_1_r by lia.
    - now rewrite Z.max_r, (Z.max_l (- k)), Z.mul_1_r by lia. }
  rewrite E, Z.leb_le, (bpow_split radix10 k), frac_le_iff by (apply bpow_gt_0 || now apply (IZR_lt 0)).
  split; intros H; [apply IZR_le in H|apply le_IZR]; rewrite !mult_IZR, !IZR_pow10 in * by lia; lra.
Qed.

Lemma ge_pow10_false : forall N D k, (0 < N)%Z -> (0 < D)%Z ->
  ge_pow10 N D k = false -> IZR N / IZR D < p10 k.
Proof.
  intros N D k HN HD H. apply Rnot_le_lt. intros C.
  apply (ge_pow10_iff N D k HN HD) in C. congruence.
Qed.

Lemma fix_k_spec : forall fuel N D k, (0 < N)%Z -> (0 < D)%Z ->
  p10 (k - Z.of_nat fuel) <= IZR N / IZR D < p10 (k + Z.of_nat fuel + 1) ->
  p10 (fix_k fuel N D k) <= IZR N / IZR D < p10 (fix_k fuel N D k + 1) /\
  (k - Z.of_nat fuel <= fix_k fuel N D k <= k + Z.of_nat fuel)%Z.
Proof.
  induction fuel as [|f IH]; intros N D k HN HD [L U].
  - cbn [fix_k]. change (Z.of_nat 0) with 0%Z in *.
    replace (k - 0)%Z with k in L by lia. replace (k + 0 + 1)%Z with (k + 1)%Z in U by lia.
    split; [split; assumption|lia].
  - cbn [fix_k]. rewrite Nat2Z.inj_succ in L, U.
    destruct (ge_pow10 N D k) eqn:G; cbn [negb].
    + destruct (ge_pow10 N D (k + 1)) eqn:G1.
      * apply (ge_pow10_iff N D (k + 1) HN HD) in G1.
        destruct (IH N D (k + 1)%Z HN HD) as [A B].
        { split.
          - eapply Rle_trans; [|exact G1]. apply bpow_le. lia.
          - replace (k + 1 + Z.of_nat f + 1)%Z with (k + Z.succ (Z.of_nat f) + 1)%Z by lia. exact U. }
        split; [exact A|lia].
      * apply (ge_pow10_iff N D k HN HD) in G. apply (ge_pow10_false N D (k + 1) HN HD) in G1.
        split; [split; assumption|lia].
    + apply (ge_pow10_false N D k HN HD) in G.
      destruct (IH N D (k - 1)%Z HN HD) as [A B].
      { split.
        - replace (k - 1 - Z.of_nat f)%Z with (k - Z.succ (Z.of_nat f))%Z by lia. exact L.
        - eapply Rlt_le_trans; [exact G|]. apply bpow_le. lia. }
      split; [exact A|lia].
Qed.

(* N/D between two powers of two, from the bit lengths *)
Lemma ratio_pow2_bounds : forall N D, (0 < N)%Z -> (0 < D)%Z ->
  let L := (Z.log2 N - Z.log2 D)%Z in
  bpow radix2 (L - 1) <= IZR N / IZR D < bpow radix2 (L + 1).
Proof.
  intros N D HN HD L.
  destruct (Z.log2_spec N HN) as [N1 N2]. destruct (Z.log2_spec D HD) as [D1 D2].
  pose proof (Z.log2_nonneg N) as An. pose proof (Z.log2_nonneg D) as Ad.
  apply IZR_le in N1. apply IZR_lt in N2. apply IZR_le in D1. apply IZR_lt in D2.
  rewrite IZR_pow2 in N1, N2, D1, D2 by lia.
  assert (DD : 0 < IZR D) by now apply (IZR_lt 0).
  assert (NN : 0 < IZR N) by now apply (IZR_lt 0).
  set (a := Z.log2 N) in *. set (b := Z.log2 D) in *.
  assert (Pb : 0 < bpow radix2 (Z.succ b)) by apply bpow_gt_0.
  assert (Pb0 : 0 < bpow radix2 b) by apply bpow_gt_0.
  split.
  - replace (bpow radix2 (L - 1)) with (bpow radix2 a / bpow radix2 (Z.succ b)).
    + apply frac_le; try assumption.
      apply Rle_trans with (IZR N * IZR D); [|apply Rmult_le_compat_l; lra].
      apply Rmult_le_compat_r; lra.
    + unfold Rdiv. rewrite <- bpow_opp, <- bpow_plus. f_equal. unfold L. lia.
  - replace (bpow radix2 (L + 1)) with (bpow radix2 (Z.succ a) / bpow radix2 b).
    + apply frac_lt; try assumption.
      apply Rle_lt_trans with (IZR N * IZR D); [apply Rmult_le_compat_l; lra|].
      apply Rmult_lt_compat_r; lra.
    + unfold Rdiv. rewrite <- bpow_opp, <- bpow_plus. f_equal. unfold L. lia.
Qed.

(* r1^j <= r2^i for integer exponents of either sign, decided on integers *)
Definition bpow_leb (r1 r2 : radix) (j i : Z) : bool :=
  (r1 ^ Z.max j 0 * r2 ^ Z.max (- i) 0 <=? r2 ^ Z.max i 0 * r1 ^ Z.max (- j) 0)%Z.

Lemma bpow_leb_correct : forall r1 r2 j i, bpow_leb r1 r2 j i = true -> bpow r1 j <= bpow r2 i.
Proof.
  intros r1 r2 j i H. unfold bpow_leb in H. apply Z.leb_le in H. apply IZR_le in H.
  rewrite !mult_IZR, !IZR_Zpower in H by lia.
  rewrite (bpow_split r1 j), (bpow_split r2 i).
  apply frac_le; try apply bpow_gt_0. lra.
Qed.

(* r1^c <= r2^d gives r1^j <= r2^i whenever j/i <= c/d: compare the c-th powers *)
Lemma Zpow_le_scaled : forall r1 r2 c d j i : Z,
  (0 < r1 -> 0 < r2 -> 0 < c -> 0 <= d -> r1 ^ c <= r2 ^ d -> 0 <= j -> d * j <= c * i -> r1 ^ j <= r2 ^ i)%Z.
Proof.
  intros r1 r2 c d j i H1 H2 Hc Hd Hb Hj Hs. assert (Hi : (0 <= i)%Z) by nia.
  apply (Z.pow_le_mono_l_iff (r1 ^ j) (r2 ^ i) c); [apply Z.pow_nonneg; lia|apply Z.pow_nonneg; lia|exact Hc|].
  rewrite <- !Z.pow_mul_r by lia. rewrite (Z.mul_comm j c), Z.pow_mul_r by lia.
  apply Z.le_trans with ((r2 ^ d) ^ j)%Z; [apply Z.pow_le_mono_l; split; [apply Z.pow_nonneg; lia|exact Hb]|].
  rewrite <- Z.pow_mul_r by lia. apply Z.pow_le_mono_r; lia.
Qed.

(* log_r2 r1 lies between d'/c' and d/c (r1^c <= r2^d, r2^c' <= r1^d'); an exponent pair on the right
   side of both slopes is decided without computing a power *)
Lemma bpow_leb_of_slopes : forall (r1 r2 : radix) c d c' d' j i,
  (0 < c -> 0 < d -> 0 < c' -> 0 < d' -> r1 ^ c <= r2 ^ d -> r2 ^ c' <= r1 ^ d' ->
   d * j <= c * i -> c' * j <= d' * i -> bpow_leb r1 r2 j i = true)%Z.
Proof.
  intros r1 r2 c d c' d' j i Hc Hd Hc' Hd' B1 B2 S1 S2. unfold bpow_leb. apply Z.leb_le.
  pose proof (radix_gt_0 r1) as P1. pose proof (radix_gt_0 r2) as P2.
  destruct (Z_le_gt_dec 0 j) as [Hj|Hj], (Z_le_gt_dec 0 i) as [Hi|Hi].
  - rewrite !Z.max_l, (Z.max_r (- i)), (Z.max_r (- j)), !Z.mul_1_r by lia.
    apply (Zpow_le_scaled r1 r2 c d); lia.
  - exfalso. assert (0 <= d * j)%Z by (apply Z.mul_nonneg_nonneg; lia).
    assert (c * i < 0)%Z by (apply Z.mul_pos_neg; lia). lia.
  - rewrite (Z.max_r j), (Z.max_r (- i)), (Z.max_l i), (Z.max_l (- j)), Z.mul_1_l by lia.
    assert (0 < r2 ^ i)%Z by (apply Z.pow_pos_nonneg; lia).
    assert (0 < r1 ^ (- j))%Z by (apply Z.pow_pos_nonneg; lia). nia.
  - rewrite (Z.max_r j), (Z.max_l (- i)), (Z.max_r i), (Z.max_l (- j)), !Z.mul_1_l by lia.
    apply (Zpow_le_scaled r2 r1 c' d'); lia.
Qed.

(* the starting estimate of e10_frac is within 8 decades: 1233/4096 approximates log10 2, which lies
   between 3/10 and 28/93 (10^3 <= 2^10, 2^93 <= 10^28), and over the exponent range of binary64 both
   slopes stay well inside the 8 decades *)
Definition est_k0 (L : Z) : Z := ((L * 1233) / 4096)%Z.
Lemma est_k0_decades : forall L, (-1080 <= L <= 1029)%Z ->
  p10 (est_k0 L - 8) <= bpow radix2 (L - 1) /\ bpow radix2 (L + 1) <= p10 (est_k0 L + 8 + 1) /\
  (-330 <= est_k0 L <= 310)%Z.
Proof.
  intros L HL. unfold est_k0.
  pose proof (Z.mul_div_le (L * 1233) 4096 eq_refl) as Hlo.
  pose proof (Z.mul_succ_div_gt (L * 1233) 4096 eq_refl) as Hhi.
  set (k := (L * 1233 / 4096)%Z) in *.
  split; [|split; [|lia]].
  - apply bpow_leb_correct, (bpow_leb_of_slopes radix10 radix2 3 10 93 28); try lia; now vm_compute.
  - apply bpow_leb_correct, (bpow_leb_of_slopes radix2 radix10 93 28 3 10); try lia; now vm_compute.
Qed.

(* sizes of a valid double *)
Lemma valid_finite_bounds : forall s m e, valid (S754_finite s m e) ->
  (Zpos m < 2 ^ 53)%Z /\ (-1074 <= e <= 971)%Z.
Proof.
  intros s m e V. unfold valid in V. cbn [valid_binary] in V.
  split; [exact (valid_mantissa_bound m e V)|].
  unfold bounded in V. apply andb_true_iff in V. destruct V as [C B].
  apply Zle_bool_imp_le in B. unfold canonical_mantissa in C. apply Zeq_bool_eq in C.
  unfold SpecFloat.fexp, SpecFloat.emin in C. lia.
Qed.

(* the bit-length difference is log2 m + e in both forms of the fraction *)
Lemma mag_frac_log2_range : forall s m e N D, valid (S754_finite s m e) -> mag_frac m e = (N, D) ->
  (-1080 <= Z.log2 N - Z.log2 D <= 1029)%Z.
Proof.
  intros s m e N D V H. destruct (valid_finite_bounds s m e V) as [Hm He].
  pose proof (Z.log2_nonneg (Z.pos m)) as L0.
  assert (L1 : (Z.log2 (Z.pos m) < 53)%Z) by (apply Z.log2_lt_pow2; lia).
  destruct (mag_frac_cases _ _ _ _ H) as [(E & -> & ->)|(E & -> & ->)].
  - rewrite Z.log2_mul_pow2 by lia. change (Z.log2 1) with 0%Z. lia.
  - rewrite Z.log2_pow2 by lia. lia.
Qed.

(* fix_k started within 8 decades of the answer finds it in 8 steps; the estimate lies in
   -330..310 and fix_k moves at most 8 from it, hence -340..320 (with slack) *)
Theorem e10_frac_spec : forall s m e N D, valid (S754_finite s m e) -> mag_frac m e = (N, D) ->
  p10 (e10_frac N D) <= IZR N / IZR D < p10 (e10_frac N D + 1) /\ (-340 <= e10_frac N D <= 320)%Z.
Proof.
  intros s m e N D V H. destruct (mag_frac_pos _ _ _ _ H) as [HN HD].
  pose proof (mag_frac_log2_range s m e N D V H) as R.
  pose proof (ratio_pow2_bounds N D HN HD) as B. cbv zeta in B.
  set (L := (Z.log2 N - Z.log2 D)%Z) in *.
  destruct (est_k0_decades L R) as (O1 & O2 & O3).
  unfold e10_frac. fold L. fold (est_k0 L).
  destruct (fix_k_spec 8 N D (est_k0 L) HN HD) as [A C].
  { change (Z.of_nat 8) with 8%Z. split; [lra|]. destruct B as [_ B]. lra. }
  change (Z.of_nat 8) with 8%Z in C. split; [exact A|lia].
Qed.

(* a double with a positive value has its sign bit clear *)
Lemma RV_pos_nsign : forall a, 0 < RV a -> nsign a = false.
Proof.
  intros [s|s| |s m e] H; unfold RV in H; cbn [SF2R] in H; try lra.
  destruct s; [|reflexivity]. exfalso.
  rewrite F2R_cond_Zopp in H. cbn [cond_Ropp] in H.
  assert (0 < F2R (Float radix2 (Z.pos m) e)) by (apply F2R_gt_0; reflexivity). lra.
Qed.

Lemma decade_unique : forall v a b, p10 a <= v < p10 (a + 1) -> p10 b <= v < p10 (b + 1) -> a = b.
Proof.
  intros v a b [A1 A2] [B1 B2].
  assert (a < b + 1)%Z by (apply (lt_bpow radix10); lra).
  assert (b < a + 1)%Z by (apply (lt_bpow radix10); lra). lia.
Qed.

(* ====================================================================================
   {:.14e} : 15 significant digits, correctly rounded
   ==================================================================================== *)
(* the text  sign d.d{14} e k'  for the 15-digit integer q': shape, read-back of the exponent, and value *)
Lemma exp14_text : forall s q' k' x k v,
  (10 ^ 14 <= q' < 10 ^ 15)%Z -> (I32_MIN <= k' <= I32_MAX)%Z -> RV x = cond_Ropp s v ->
  Rabs (IZR q' * p10 (k' - 14) - v) <= / 2 * p10 (k - 14) ->
  exists ms es kk,
    split_once "e"%char (sign_text s ++ fixed_digits q' 14 ++ "e"%char :: int_to_text k') = Some (ms, es) /\
    mant14_shape ms = true /\ parse_i32 es = Some kk /\
    (Qabs (denote_plain ms * Qpower (10 # 1) kk - num_to_Q x) <= (1 # 2) * Qpower (10 # 1) (k - 14)%Z)%Q /\
    wf_exponent es = true.
Proof.
  intros s q' k' x k v Hq Hk Hx Herr.
  destruct (fixed_digits_15 q' Hq) as (d & fp & Efd & Hd & Hf & Hl & Hv). rewrite Efd.
  pose proof (all_digits_single d Hd) as Hi.
  rewrite app_assoc.
  change (sign_text s ++ d :: "."%char :: fp) with (mk_plain s [d] (Some fp)).
  exists (mk_plain s [d] (Some fp)), (int_to_text k'), k'.
  split; [apply split_once_sci; [exact Hi|exact Hf]|].
  split.
  { unfold mant14_shape. rewrite strip_sign_mk_plain by exact Hi.
    change (mk_plain false [d] (Some fp)) with (d :: "."%char :: fp). cbv beta iota.
    rewrite Hd, Hf, Hl. reflexivity. }
  split; [now apply parse_i32_int_to_text|].
  split; [|apply int_to_text_spec].
  apply Rle_Qle. rewrite Q2R_Qabs, Q2R_minus, Q2R_mult, Q2R_num, Q2R_mult, !Q2R_p10.
  rewrite Q2R_mk_plain by exact Hi. change ([d] ++ fp) with (d :: fp). rewrite Hv, Hl, Hx.
  rewrite <- cond_Ropp_mult_l, cond_Ropp_minus, abs_cond_Ropp.
  replace (IZR q' / p10 (Z.of_nat 14) * p10 k') with (IZR q' * p10 (k' - 14)).
  - replace (Q2R (1 # 2)) with (/ 2) by (unfold Q2R; cbn [Qnum Qden]; lra). exact Herr.
  - unfold Rdiv. rewrite <- bpow_opp, Rmult_assoc, <- bpow_plus. do 2 f_equal. lia.
Qed.

Theorem fmt_exp14_exec_correct_strong : forall x k, valid x -> Num.is_finite x = true -> in_decade x k ->
  exists ms es kk, split_once "e"%char (fmt_exp14_exec x) = Some (ms, es) /\ mant14_shape ms = true /\
    parse_i32 es = Some kk /\
    (Qabs (denote_plain ms * Qpower (10 # 1) kk - num_to_Q x) <= (1 # 2) * Qpower (10 # 1) (k - 14)%Z)%Q /\
    wf_exponent es = true.
Proof.
  intros x k V F Hk. apply in_decade_R in Hk.
  destruct x as [s|s| |s m e]; try discriminate F.
  - exfalso. unfold RV in Hk. cbn [SF2R] in Hk. rewrite Rabs_R0 in Hk. pose proof (p10_pos k). lra.
  - unfold fmt_exp14_exec. destruct (mag_frac m e) as [N D] eqn:E.
    destruct (mag_frac_pos _ _ _ _ E) as [HN HD].
    destruct (RV_mag_frac s m e N D E) as [RVx RAx]. rewrite RAx in Hk.
    destruct (e10_frac_spec s m e N D V E) as [Dk Rk].
    assert (Ek : e10_frac N D = k) by (eapply decade_unique; eassumption).
    cbv zeta. rewrite Ek in *.
    destruct (scale_rhe_spec N D (14 - k) HN HD) as [Q0 Qc].
    set (q := scale_rhe N D (14 - k)) in *. set (v := IZR N / IZR D) in *.
    (* v * 10^(14-k) is in [10^14, 10^15), so q in [10^14, 10^15] *)
    assert (Qr : (10 ^ 14 <= q <= 10 ^ 15)%Z).
    { apply (int_near_range q _ _ (v * p10 (14 - k))); [lra|].
      pose proof (p10_pos (14 - k)) as Pj. rewrite !IZR_pow10 by lia.
      replace (p10 14) with (p10 k * p10 (14 - k)) by (rewrite <- bpow_plus; f_equal; lia).
      replace (p10 15) with (p10 (k + 1) * p10 (14 - k)) by (rewrite <- bpow_plus; f_equal; lia).
      split; [apply Rmult_le_compat_r; lra|apply Rmult_lt_compat_r; lra]. }
    (* q * 10^(k-14) is within half a unit of v *)
    pose proof (scaled_close _ _ _ Qc) as Cl. replace (- (14 - k))%Z with (k - 14)%Z in Cl by lia.
    assert (Rr : (I32_MIN <= k <= I32_MAX)%Z /\ (I32_MIN <= k + 1 <= I32_MAX)%Z).
    { unfold I32_MIN, I32_MAX. lia. }
    change (if s then ["-"%char] else []) with (sign_text s).
    destruct (q =? 10 ^ 15)%Z eqn:C; cbv beta iota.
    + apply Z.eqb_eq in C.
      apply (exp14_text s (10 ^ 14)%Z (k + 1)%Z (S754_finite s m e) k v); [lia|tauto|exact RVx|].
      rewrite C in Cl. rewrite !IZR_pow10, <- !bpow_plus in * by lia.
      now replace (14 + (k + 1 - 14))%Z with (15 + (k - 14))%Z by lia.
    + apply Z.eqb_neq in C.
      apply (exp14_text s q k (S754_finite s m e) k v); [lia|tauto|exact RVx|exact Cl].
Qed.

Theorem fmt_exp14_exec_correct : forall x k, valid x -> Num.is_finite x = true -> in_decade x k ->
  exists ms es kk, split_once "e"%char (fmt_exp14_exec x) = Some (ms, es) /\ mant14_shape ms = true /\
    parse_i32 es = Some kk /\
    (Qabs (denote_plain ms * Qpower (10 # 1) kk - num_to_Q x) <= (1 # 2) * Qpower (10 # 1) (k - 14)%Z)%Q.
Proof.
  intros x k V F Hk.
  destruct (fmt_exp14_exec_correct_strong x k V F Hk) as (ms & es & kk & A & B & C & D & _).
  now exists ms, es, kk.
Qed.

(* ====================================================================================
   parse::<f64> : rn_ratio is round-to-nearest-even of the fraction
   ==================================================================================== *)
Local Instance Hprec53d : Prec_gt_0 53 := PrimFloat.Hprec.
Local Instance Hmax1024d : Prec_lt_emax 53 1024 := PrimFloat.Hmax.

Lemma new_location_equiv : forall D r, (0 < D)%Z ->
  Bracket.new_location D r loc_Exact = SpecFloat.new_location D r.
Proof.
  intros D r HD. destruct D as [|p|p]; try lia.
  case p as [p|p|]; [reflexivity| |reflexivity].
  unfold Bracket.new_location, SpecFloat.new_location; simpl.
  unfold Bracket.new_location_even, SpecFloat.new_location_even; simpl.
  now case Zeq_bool; [|case r as [|rp|rp]; case Z.compare].
Qed.

Theorem rn_ratio_correct_full : forall s N D, (0 < N)%Z -> (0 < D)%Z ->
  let v := IZR N / IZR D in
  valid (rn_ratio s N D) /\
  (Rabs (rnd64 v) < bpow radix2 1024 ->
   RV (rn_ratio s N D) = cond_Ropp s (rnd64 v) /\ Num.is_finite (rn_ratio s N D) = true /\
   sign_SF (rn_ratio s N D) = s).
Proof.
  intros s N D HN HD v. unfold rn_ratio.
  destruct (N =? 0)%Z eqn:E0; [apply Z.eqb_eq in E0; lia|].
  set (sh := Z.max 0 (64 + Z.log2 D - Z.log2 N)).
  assert (Hsh : (0 <= sh)%Z) by (unfold sh; lia).
  pose proof (Fdiv_core_correct radix2 N 0 D 0 (- sh) HN HD) as B.
  unfold Fdiv_core in B.
  rewrite Zle_bool_true in B by lia.
  replace (0 - 0 - - sh)%Z with sh in B by lia.
  change (Zpower radix2 sh) with (2 ^ sh)%Z in B.
  destruct (Z.div_eucl (N * 2 ^ sh) D) as [q r].
  rewrite (new_location_equiv D r HD) in B.
  replace (F2R (Float radix2 N 0)) with (IZR N) in B by (unfold F2R; cbn [Fnum Fexp bpow]; ring).
  replace (F2R (Float radix2 D 0)) with (IZR D) in B by (unfold F2R; cbn [Fnum Fexp bpow]; ring).
  fold v in B.
  assert (DD : 0 < IZR D) by now apply (IZR_lt 0).
  assert (NN : 0 < IZR N) by now apply (IZR_lt 0).
  assert (Pv : 0 < v) by (unfold v; apply Rmult_lt_0_compat; [exact NN|now apply Rinv_0_lt_compat]).
  set (x := cond_Ropp s v).
  assert (Sx : Rlt_bool x 0 = s).
  { destruct s; unfold x; cbn [cond_Ropp]; [apply Rlt_bool_true; lra|apply Rlt_bool_false; lra]. }
  assert (Ax : Rabs x = v) by (unfold x; rewrite abs_cond_Ropp; apply Rabs_pos_eq; lra).
  assert (Nx : x <> 0) by (intros Z; rewrite Z, Rabs_R0 in Ax; lra).
  assert (Cx : (- sh <= cexp radix2 fexp64 x)%Z).
  { rewrite <- cexp_abs, Ax. unfold cexp.
    pose proof (ratio_pow2_bounds N D HN HD) as [Lb _]. fold v in Lb.
    assert (M : (Z.log2 N - Z.log2 D <= mag radix2 v)%Z).
    { apply mag_ge_bpow. rewrite Rabs_pos_eq by lra. exact Lb. }
    unfold SpecFloat.fexp, SpecFloat.emin. unfold sh. lia. }
  rewrite <- Ax in B.
  pose proof (binary_round_aux_correct' 53 1024 _ _ mode_NE x q (- sh) (SpecFloat.new_location D r) Nx B Cx) as C.
  cbv zeta in C. rewrite Sx in C. rewrite <- binary_round_aux_equiv in C.
  destruct C as [Vz C]. split; [exact Vz|]. intros Bd.
  change (round_mode mode_NE) with ZnearestE in C.
  unfold x in C. rewrite rnd_cond_Ropp, abs_cond_Ropp in C. rewrite Rlt_bool_true in C by exact Bd.
  destruct C as (Ev & Fz & Sz). split; [exact Ev|]. split; [now rewrite <- finite_SF|exact Sz].
Qed.

Theorem rn_ratio_correct : forall s N D, (0 < N)%Z -> (0 < D)%Z ->
  let v := IZR N / IZR D in
  valid (rn_ratio s N D) /\
  (Rabs (rnd64 v) < bpow radix2 1024 ->
   RV (rn_ratio s N D) = cond_Ropp s (rnd64 v) /\ Num.is_finite (rn_ratio s N D) = true).
Proof.
  intros s N D HN HD v. destruct (rn_ratio_correct_full s N D HN HD) as [V C]. split; [exact V|].
  intros B. destruct (C B) as (R1 & F1 & _). now split.
Qed.

(* parse::<f64> of a 15-digit mantissa text is within 2e-15 of it (it is the nearest double) *)
Theorem parse_f64_exec_close : forall t, mant14_shape t = true ->
  exists m, parse_f64_exec t = Some m /\ Num.is_finite m = true /\
    (Qabs (num_to_Q m - denote_plain t) <= 2 # 1000000000000000)%Q.
Proof.
  intros t H. destruct (mant14_inv1 t H) as (neg & d & fp & -> & Hd & Hf & Hl).
  rewrite (parse_f64_exec_mant14 neg d fp Hd Hf Hl).
  pose proof (mant_digits_bound d fp Hd Hf) as Bn. rewrite Hl in Bn.
  assert (Ev : Q2R (denote_plain (mk_plain neg [d] (Some fp))) =
               cond_Ropp neg (IZR (digits_value (d :: fp)) / p10 14)).
  { rewrite Q2R_mk_plain by now apply all_digits_single. now rewrite Hl. }
  set (Nn := digits_value (d :: fp)) in *.
  exists (rn_ratio neg Nn (10 ^ 14)). split; [reflexivity|].
  assert (P14 : p10 14 = 100000000000000) by (rewrite <- (IZR_pow10 14) by lia; reflexivity).
  destruct (Z.eq_dec Nn 0) as [Z0|NZ].
  - rewrite Z0 in *. split; [reflexivity|].
    apply Rle_Qle. rewrite Q2R_Qabs, Q2R_minus, Ev, Q2R_num. unfold rn_ratio, RV, Rdiv.
    cbn [Z.eqb SF2R]. rewrite Rmult_0_l, Rminus_0_l, Rabs_Ropp, abs_cond_Ropp, Rabs_R0.
    unfold Q2R. cbn [Qnum Qden]. lra.
  - assert (HN : (0 < Nn)%Z) by lia.
    destruct (rn_ratio_correct neg Nn (10 ^ 14) HN ltac:(lia)) as [Vz Cz]. cbv zeta in Cz.
    rewrite IZR_pow10 in Cz by lia.
    set (v := IZR Nn / p10 14) in *.
    assert (Bv : / p10 14 <= v < 10).
    { unfold v. rewrite P14. destruct Bn as [_ Bu]. apply IZR_lt in Bu.
      assert (HN1 : (1 <= Nn)%Z) by lia. apply IZR_le in HN1.
      change (IZR (10 * 10 ^ Z.of_nat 14)) with 1000000000000000 in Bu. split.
      - unfold Rdiv. apply Rmult_le_compat_r with (r := / 100000000000000) in HN1; lra.
      - apply Rmult_lt_reg_r with 100000000000000; [lra|]. unfold Rdiv.
        rewrite Rmult_assoc, Rinv_l by lra. lra. }
    assert (Av : Rabs v = v) by (apply Rabs_pos_eq; rewrite P14 in Bv; lra).
    destruct Cz as [Rz Fz].
    { apply (rnd_lt_emax v 4); [lia|]. rewrite Av. change (bpow radix2 4) with 16. lra. }
    split; [exact Fz|].
    apply Rle_Qle. rewrite Q2R_Qabs, Q2R_minus, Q2R_num, Ev, Rz. fold v.
    rewrite cond_Ropp_minus, abs_cond_Ropp.
    assert (Lv : bpow radix2 (-1022) <= Rabs v).
    { rewrite Av. apply Rle_trans with (/ p10 14); [|lra].
      rewrite P14. apply Rle_trans with (bpow radix2 (-47)); [apply bpow_le; lia|].
      change (bpow radix2 (-47)) with (/ 140737488355328). apply Rinv_le_contravar; lra. }
    eapply Rle_trans; [apply (rnd_rel v Lv)|]. rewrite Av.
    change (bpow radix2 (-53)) with (/ 9007199254740992).
    unfold Q2R. cbn [Qnum Qden]. lra.
Qed.
