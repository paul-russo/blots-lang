(* PrintText.v — items_render: the string expr_to_source returns is exactly the text of the token
   stream print_items emits (so the round-trip theorem about print_items is about the printed text,
   up to lexing).  For every version of the printer (fixes, policy) and every number-text oracle. *)
From Coq Require Import String Ascii List Bool Arith Lia.
Require Import Blots.Num Blots.gen.Builtins Blots.Ast Blots.Outcome Blots.PrattTypes Blots.gen.PrecTable
               Blots.Pratt Blots.PrattRender Blots.Printer Blots.proofs.PrattRT.
Require Export Blots.proofs.StringFacts.
Import ListNotations.
Local Open Scope string_scope.

Section Text.
  Variable fx : fixes.
  Variable pol : policy.
  Variable numtxt : num -> string.
  Notation pt := (print_text fx pol numtxt).
  Notation pi := (print_items fx pol numtxt).
  Notation it := (item_text7 fx numtxt).
  Notation its := (items_text7 fx numtxt).

  Lemma its_app : forall a b, its (a ++ b) = its a ++ its b.
  Proof.
    induction a as [|x a IH]; intro b; cbn [app items_text7]; [reflexivity|].
    rewrite IH, append_assoc. reflexivity.
  Qed.
  Lemma its_one : forall x, its [x] = it x.
  Proof. intro x. cbn [items_text7]. apply append_nil_r. Qed.
  Lemma it_expr_true : forall g, it (IExpr true g) = "(" ++ its g ++ ")".
  Proof. reflexivity. Qed.
  Lemma it_expr_false : forall g, it (IExpr false g) = its g.
  Proof. reflexivity. Qed.
  Lemma its_wrapb : forall b l, its (wrapb b l) = paren_s b (its l).
  Proof. intros [|] l; cbn [wrapb paren_s]; [rewrite its_one; reflexivity | reflexivity]. Qed.

  Lemma op_text_binop : forall o, op_text7 (binop_rule o) = " " ++ binop_text o ++ " ".
  Proof. destruct o; reflexivity. Qed.

  Definition TR (e : expr) : Prop := wf e = true -> pt e = its (pi e).

  Lemma list_text : forall items,
    Forall (Pcm TR) items ->
    wf_cms items = true ->
    (fix go (l : list (commented expr)) : list string :=
       match l with [] => [] | Cm _ x _ :: l' => pt x :: go l' end) items
    = (fix go (l : list lelem) : list string :=
         match l with
         | [] => []
         | LCom _ :: r => go r
         | LItem g _ :: r => its g :: go r
         end)
        ((fix go (l : list (commented expr)) : list lelem :=
            match l with [] => [] | Cm _ x _ :: l' => LItem (pi x) None :: go l' end) items).
  Proof.
    induction items as [|c items IH]; intros HF Hwf; [reflexivity|].
    destruct (wf_cms_inv (fun e => pt e = its (pi e)) _ _ HF Hwf) as (x & -> & _ & Hx & HF' & Hrest).
    cbn [uncommented]. rewrite Hx. f_equal. apply IH; assumption.
  Qed.

  Lemma args_text : forall args,
    Forall TR args ->
    wf_args args = true ->
    (fix go (l : list expr) : list string :=
       match l with [] => [] | a :: l' => pt a :: go l' end) args
    = (fix go (l : list (list item)) : list string :=
         match l with [] => [] | g :: r => its g :: go r end)
        ((fix go (l : list expr) : list (list item) :=
            match l with [] => [] | a :: l' => pi a :: go l' end) args).
  Proof.
    induction args as [|a args IH]; intros HF Hwf; [reflexivity|].
    apply andb_prop in Hwf. destruct Hwf as [Hw Hrest]. inversion HF as [|? ? Hc HF']; subst.
    rewrite (Hc Hw). f_equal. apply IH; assumption.
  Qed.

  Lemma rec_text : forall entries,
    Forall (Pentry TR) entries ->
    wf_ents entries = true ->
    (fix go (l : list (commented rentry)) : list string :=
       match l with
       | [] => []
       | Cm _ (REntry k v) _ :: l' =>
           match k with
           | KStatic s => format_record_key fx s ++ ": " ++ pt v
           | KDyn d => "[" ++ pt d ++ "]: " ++ pt v
           | KShort s => s
           | KSpread x => pt x
           end :: go l'
       end) entries
    = (fix go (l : list relem) : list string :=
         match l with
         | [] => []
         | RCom _ :: r => go r
         | RPairI k v _ :: r =>
             (match k with
              | RKId s => s
              | RKStr s => quote_string fx s
              | RKDyn inner => "[" ++ its inner ++ "]"
              end ++ ": " ++ its v) :: go r
         | RShortI s _ :: r => s :: go r
         | RSpreadI g _ :: r => its g :: go r
         end)
        ((fix go (l : list (commented rentry)) : list relem :=
            match l with
            | [] => []
            | Cm _ (REntry k v) _ :: l' =>
                match k with
                | KStatic s => RPairI (key_item s) (pi v) None
                | KDyn d => RPairI (RKDyn [IExpr false (pi d)]) (pi v) None
                | KShort s => RShortI s None
                | KSpread x => RSpreadI (pi x) None
                end :: go l'
            end) entries).
  Proof.
    induction entries as [|c entries IH]; intros HF Hwf; [reflexivity|].
    destruct (wf_ents_inv (fun e => pt e = its (pi e)) _ _ HF Hwf) as (k & v & -> & Hk & HF' & Hrest).
    specialize (IH HF' Hrest). cbn [uncommented].
    destruct k as [s|d|s|x].
    - rewrite Hk. unfold key_item, format_record_key.
      destruct (is_valid_identifier s); (f_equal; exact IH).
    - destruct Hk as [Hd Hv]. rewrite Hd, Hv. f_equal; [|exact IH].
      cbn [items_text7]. rewrite it_expr_false, append_nil_r.
      rewrite !append_assoc. reflexivity.
    - f_equal. exact IH.
    - destruct Hk as [Hx _]. rewrite Hx. f_equal. exact IH.
  Qed.

  (* rl: the comments before `return`; a variable (equal to []) because print_text (EDo ..) mentions them syntactically *)
  Lemma do_text : forall stmts i ret rl,
    Forall (Pcm TR) stmts ->
    wf_cms stmts = true ->
    pt ret = its (pi ret) ->
    rl = [] ->
    (fix go (i : nat) (l : list (commented expr)) : string :=
       match l with
       | [] => ""
       | Cm lead x trail :: l' =>
           sconcat (map (fun c => nl ++ "  " ++ c) lead) ++
           nl ++ "  " ++ (let s := pt x in paren_s (dominus_text fx i s) s) ++
           match trail with Some t => "  " ++ t | None => "" end ++
           go (S i) l'
       end) i stmts ++
    sconcat (map (fun c => nl ++ "  " ++ c) rl) ++ nl ++ "  return " ++ pt ret ++ nl ++ "}"
    = (fix go (l : list delem) : string :=
         match l with
         | [] => ""
         | DStmt g _ :: r => nl ++ "  " ++ its g ++ go r
         | DComStmt s _ :: r => nl ++ "  " ++ s ++ go r
         | DCom s :: r => nl ++ "  " ++ s ++ go r
         | DRet g :: r => nl ++ "  return " ++ its g ++ go r
         end)
        ((fix go (i : nat) (l : list (commented expr)) : list delem :=
            match l with
            | [] => [DRet (pi ret)]
            | Cm _ x _ :: l' => DStmt (wrapb (dominus_text fx i (pt x)) (pi x)) None :: go (S i) l'
            end) i stmts) ++ nl ++ "}".
  Proof.
    induction stmts as [|c stmts IH]; intros i ret rl HF Hwf Hret ->.
    - cbn -[append its]. rewrite Hret. repeat rewrite append_assoc. repeat rewrite append_nil_l. reflexivity.
    - destruct (wf_cms_inv (fun e => pt e = its (pi e)) _ _ HF Hwf) as (x & -> & _ & Hx & HF' & Hrest).
      specialize (IH (S i) ret [] HF' Hrest Hret eq_refl).
      cbn -[append its wrapb paren_s dominus_text] in IH |- *.
      rewrite its_wrapb, <- Hx.
      repeat rewrite append_assoc. repeat rewrite append_nil_l.
      repeat rewrite append_assoc in IH. repeat rewrite append_nil_l in IH.
      do 3 f_equal. exact IH.
  Qed.

  Theorem items_render : forall e, wf e = true -> pt e = its (pi e).
  Proof.
    change (forall e, TR e).
    induction e as [x|s|b| |x|x|b|items HF|entries HF|args body IHb|c t1 e IHc IHt IHe|stmts ret HF Hret
                   |x v IHv|e IHe|f args IHf HF|e i IHe IHi|e f IHe|o l r IHl IHr|uo e IHe|e IHe|e IHe]
      using expr_ind';
      intros Hwf; cbn [print_text print_items].
    - rewrite its_one. reflexivity.
    - rewrite its_one. reflexivity.
    - rewrite its_one. destruct b; reflexivity.
    - reflexivity.
    - rewrite its_one. reflexivity.
    - rewrite its_one. reflexivity.
    - rewrite its_one. reflexivity.
    - (* EList *)
      rewrite its_one. cbn [item_text7]. cbn [wf] in Hwf. rewrite (list_text items HF Hwf). reflexivity.
    - (* ERec *)
      rewrite its_one. cbn [item_text7]. cbn [wf] in Hwf. rewrite (rec_text entries HF Hwf). reflexivity.
    - (* ELam *)
      rewrite its_one. cbn [item_text7]. cbn [wf] in Hwf.
      change ((fix seq (l : list item) : string :=
                 match l with [] => "" | x :: r => it x ++ seq r end) (wrapb (pB pol body) (pi body)))
        with (its (wrapb (pB pol body) (pi body))).
      rewrite (its_wrapb (pB pol body) (pi body)), (IHb Hwf). reflexivity.
    - (* ECond *)
      cbn [wf] in Hwf. apply andb_prop in Hwf. destruct Hwf as [Hwf H3]. apply andb_prop in Hwf. destruct Hwf as [H1 H2].
      rewrite its_one. cbn [item_text7].
      change (fix seq (l : list item) : string :=
                 match l with [] => "" | x :: r => it x ++ seq r end) with its.
      rewrite (IHc H1), (IHt H2), (IHe H3). reflexivity.
    - (* EDo *)
      destruct (wf_EDo_inv _ _ Hwf) as (r' & -> & Hs & Hr). cbn [uncommented].
      rewrite its_one. cbn [item_text7].
      change (fix seq (l : list item) : string :=
                 match l with [] => "" | x :: r => it x ++ seq r end) with its.
      f_equal. cbn [Pcm] in Hret.
      exact (do_text stmts 0 r' [] HF Hs (Hret Hr) eq_refl).
    - (* EAssign *)
      rewrite its_one. cbn [item_text7]. cbn [wf] in Hwf.
      change (fix seq (l : list item) : string :=
                 match l with [] => "" | x :: r => it x ++ seq r end) with its.
      rewrite (IHv Hwf). reflexivity.
    - discriminate.
    - (* ECall *)
      cbn [wf] in Hwf. apply andb_prop in Hwf. destruct Hwf as [Hwf1 Hwf2].
      rewrite its_app, (its_wrapb (pC pol f) (pi f)), its_one. cbn [item_text7].
      change (fix seq (l : list item) : string :=
                 match l with [] => "" | x :: r => it x ++ seq r end) with its.
      rewrite (IHf Hwf1), (args_text args HF Hwf2). reflexivity.
    - (* EAccess *)
      cbn [wf] in Hwf. apply andb_prop in Hwf. destruct Hwf as [Hwf1 Hwf2].
      rewrite its_app, (its_wrapb (pP pol e) (pi e)), its_one. cbn [item_text7].
      change (fix seq (l : list item) : string :=
                 match l with [] => "" | x :: r => it x ++ seq r end) with its.
      rewrite (IHe Hwf1), (IHi Hwf2). cbn [items_text7]. rewrite ?it_expr_false, ?append_nil_r. reflexivity.
    - (* EDot *)
      cbn [wf] in Hwf. rewrite its_app, (its_wrapb (pP pol e) (pi e)), its_one. cbn [item_text7]. rewrite (IHe Hwf). reflexivity.
    - (* EBin *)
      cbn [wf] in Hwf. apply andb_prop in Hwf. destruct Hwf as [Hwl Hwr].
      rewrite its_app. cbn [items_text7]. fold (its (wrapb (pR pol o r) (pi r))).
      rewrite (its_wrapb (pL pol o l) (pi l)), (its_wrapb (pR pol o r) (pi r)). cbn [item_text7]. rewrite op_text_binop, (IHl Hwl), (IHr Hwr).
      rewrite !append_assoc. reflexivity.
    - (* EUn *)
      cbn [wf] in Hwf. apply andb_prop in Hwf. destruct Hwf as [Hu Hwe].
      cbn [items_text7]. fold (its (wrapb (pU pol e) (pi e))). rewrite (its_wrapb (pU pol e) (pi e)), (IHe Hwe).
      destruct uo; try discriminate; reflexivity.
    - (* EFact *)
      cbn [wf] in Hwf. rewrite its_app, (its_wrapb (pP pol e) (pi e)), its_one. rewrite (IHe Hwf). reflexivity.
    - (* ESpread *)
      cbn [wf] in Hwf. cbn [items_text7]. rewrite it_expr_false, append_nil_r. rewrite (IHe Hwf). reflexivity.
  Qed.

  (* a token stream that starts with the prefix minus prints a text that starts with `-` *)
  Lemma starts_neg_text : forall l, starts_neg l = true -> starts_minus (its l) = true.
  Proof.
    intros [|x l]; cbn [starts_neg]; [discriminate|].
    destruct x; try discriminate. destruct r; try discriminate. intros _. reflexivity.
  Qed.
End Text.
