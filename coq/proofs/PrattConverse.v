(* PrattConverse.v — soundness of the parser with respect to the table, for EVERY token stream:
   whenever the conversion of a stream succeeds with tree t, the stream is — at the operator layer —
   a rendering of t that carries at least the parentheses the level assignment requires.
   The declarative relation Rend m its t ("its renders t where an operand of level >= m is
   required") has primaries as atoms: any single non-operator pair whose own conversion gives t
   (a parenthesised group, a literal, a list ... — their nested streams are converted by the same
   parser, to which the same theorem applies). *)
From Coq Require Import String List Bool Arith Lia.
Require Import Blots.Num Blots.gen.Builtins Blots.Ast Blots.Outcome Blots.PrattTypes Blots.Pratt
               Blots.PrattRender Blots.proofs.PrattRend.
Require Import Blots.gen.PrecTable Blots.proofs.PrattTable.
Import ListNotations.
Local Open Scope nat_scope.
Local Open Scope list_scope.

Section Converse.
  Variable tbl : ops_map.
  Variable imap : list (oprule * binop).
  Variable pmap : list (oprule * prefix_ctor).
  Variable bprec : binop -> nat.
  Variable rassoc : binop -> bool.
  Variables Ppre Pfact Ppost : nat.

  (* the table, read backwards: what an entry of each affix can be *)
  Hypothesis T_infix : forall r a p, ops_get tbl r = Some (Infix a, p) ->
    forall o, assoc_find r imap = Some o -> a = (if rassoc o then ARight else ALeft) /\ p = bprec o.
  Hypothesis T_prefix : forall r p, ops_get tbl r = Some (Prefix, p) -> p = Ppre.
  Hypothesis T_postfix : forall r p, ops_get tbl r = Some (Postfix, p) -> p = Pfact \/ p = Ppost.
  Hypothesis prec_pos : forall o, 0 < bprec o.
  Hypothesis prec_lt_pre : forall o, bprec o < Ppre.
  Hypothesis pre_lt_fact : Ppre < Pfact.
  Hypothesis pre_lt_post : Ppre < Ppost.
  Hypothesis level_assoc : forall o1 o2, bprec o1 = bprec o2 -> rassoc o1 = rassoc o2.

  Notation needL := (needL bprec rassoc).
  Notation needR := (needR bprec rassoc).
  Notation ExprR := (Expr tbl imap pmap).
  Notation LoopR := (Loop tbl imap pmap).

  (* its renders t where an operand of level >= m is required *)
  Inductive Rend : nat -> list item -> expr -> Prop :=
  | Rd_prim m i x : item_op i = None -> Prim tbl imap pmap i x -> Rend m [i] x
  | Rd_bin m i r o l x il ir :
      item_op i = Some r -> assoc_find r imap = Some o -> m <= bprec o ->
      Rend (needL o) il l -> Rend (needR o) ir x ->
      Rend m (il ++ i :: ir) (EBin o l x)
  | Rd_pre m i r x u ix :
      item_op i = Some r ->
      ops_get tbl r = Some (Prefix, Ppre) -> map_prefix pmap r (Some x) = Ok (Some u) -> m <= Ppre ->
      Rend Ppre ix x -> Rend m (i :: ix) u
  | Rd_post m i r p lhs u il :
      item_op i = Some r -> ops_get tbl r = Some (Postfix, p) -> m <= p ->
      Post tbl imap pmap lhs i u -> Rend (S Ppre) il lhs -> Rend m (il ++ [i]) u.

  Lemma Rend_mono : forall m its t, Rend m its t -> forall m', m' <= m -> Rend m' its t.
  Proof.
    intros m its t H. induction H; intros m' Hm.
    - apply Rd_prim; assumption.
    - eapply Rd_bin; eauto. eapply Nat.le_trans; eassumption.
    - eapply Rd_pre; eauto. eapply Nat.le_trans; eassumption.
    - eapply Rd_post; eauto. eapply Nat.le_trans; eassumption.
  Qed.

  Notation lbp_le := (lbp_le tbl).
  Notation rbp_o := (rbp_o bprec rassoc).

  (* the operator that follows a left operand whose rendering stands at level E accepts it *)
  Definition Follow (its : list item) (E : nat) : Prop :=
    forall b, lbp tbl its = Ok b ->
      (forall o, bprec o = b -> needL o <= E) /\ ((b = Pfact \/ b = Ppost) -> S Ppre <= E).

  Lemma Follow_high : forall its E, S Ppre <= E -> Follow its E.
  Proof.
    intros its E H b _. split; [|intros _; exact H].
    intros o _. pose proof (prec_lt_pre o). unfold PrattRender.needL. destruct (rassoc o); lia.
  Qed.


  Lemma Follow_bin : forall its o, lbp_le its (rbp_o o) -> Follow its (bprec o).
  Proof.
    intros its o (b0 & Hb0 & Hle) b Hb. assert (b = b0) by congruence. subst b0. split.
    - intros o' H. subst b. unfold PrattRender.needL, rbp_o in *.
      destruct (rassoc o') eqn:A'; destruct (rassoc o) eqn:A; try lia.
      + pose proof (prec_pos o). lia.
      + destruct (Nat.eq_dec (bprec o') (bprec o)) as [E|E]; [|lia].
        pose proof (level_assoc _ _ E). congruence.
    - intros [H|H]; pose proof (prec_lt_pre o); unfold rbp_o in Hle; destruct (rassoc o); lia.
  Qed.

  Lemma Follow_pre : forall its, lbp_le its (Ppre - 1) -> Follow its Ppre.
  Proof.
    intros its (b0 & Hb0 & Hle) b Hb. assert (b = b0) by congruence. subst b0. split.
    - intros o H. pose proof (prec_lt_pre o). unfold PrattRender.needL. destruct (rassoc o); lia.
    - intros [H|H]; lia.
  Qed.

  Definition Sound_expr (rbp : nat) (its : list item) (t : expr) (rest : list item) : Prop :=
    rbp < Ppre ->
    exists cons, its = cons ++ rest /\ Rend (S rbp) cons t /\ lbp_le rest rbp.
  (* the loop entered with lhs, where what has been consumed (consL) renders lhs at a level E that the next operator
     accepts: it consumes consR, and consL ++ consR renders the result *)
  Definition Sound_loop (rbp : nat) (lhs : expr) (its : list item) (t : expr) (rest : list item) : Prop :=
    rbp < Ppre ->
    forall consL E, Rend E consL lhs -> S rbp <= E -> Follow its E ->
    exists consR, its = consR ++ rest /\ Rend (S rbp) (consL ++ consR) t /\ lbp_le rest rbp.

  Theorem parse_sound_op :
    (forall rbp its t rest, ExprR rbp its t rest -> Sound_expr rbp its t rest) /\
    (forall rbp lhs its t rest, LoopR rbp lhs its t rest -> Sound_loop rbp lhs its t rest).
  Proof.
    (* only the operator layer is looked at: the other seven relations carry the trivial predicate *)
    edestruct (parse_rel_mutind tbl imap pmap Sound_expr Sound_loop
                 (fun _ _ _ => True) (fun _ _ => True) (fun _ _ => True) (fun _ _ => True)
                 (fun _ _ => True) (fun _ _ => True) (fun _ _ _ _ => True)) as (G1 & G2 & _);
      [..|split; assumption]; try (intros; exact I).
    - (* E_prefix *)
      intros rbp i r p its x mid u t rest Hop Hops HE IHx Hpre HL IHl Hrbp.
      pose proof (T_prefix r p Hops) as Hp. subst p.
      assert (Hp1 : Ppre - 1 < Ppre) by lia.
      destruct (IHx Hp1) as (consX & Hits & HRx & Hlb).
      assert (HRu : Rend Ppre (i :: consX) u).
      { eapply Rd_pre; [exact Hop | exact Hops | exact Hpre | apply le_n |]. eapply Rend_mono; [exact HRx | lia]. }
      assert (HS : S rbp <= Ppre) by lia.
      destruct (IHl Hrbp (i :: consX) Ppre HRu HS (Follow_pre mid Hlb)) as (consR & Hmid & HRt & Hrest).
      exists ((i :: consX) ++ consR). split; [|split; assumption].
      subst its mid. cbn [app]. rewrite <- app_assoc. reflexivity.
    - (* E_primary *)
      intros rbp i its x t rest Hop HP _ HL IHl Hrbp.
      assert (HRx : Rend (S Ppre) [i] x) by (apply Rd_prim; assumption).
      assert (HS : S rbp <= S Ppre) by lia.
      destruct (IHl Hrbp [i] (S Ppre) HRx HS (Follow_high its (S Ppre) (le_n _))) as (consR & Hi & HRt & Hrest).
      exists ([i] ++ consR). split; [|split; assumption]. rewrite Hi. reflexivity.
    - (* L_stop *)
      intros rbp lhs its l Hl Hle Hrbp consL E HR HE _.
      exists []. split; [reflexivity|]. rewrite app_nil_r.
      split; [eapply Rend_mono; [exact HR | exact HE] | exists l; split; assumption].
    - (* L_infix *)
      intros rbp lhs i r a p its rhs mid u t rest Hop Hops Hlt HE IHe Hin HL IHl Hrbp consL E HR HEle HF.
      unfold map_infix in Hin. destruct (assoc_find r imap) as [o|] eqn:Eo; [|discriminate].
      inversion Hin; subst u. clear Hin.
      destruct (T_infix r a p Hops o Eo) as [Ha Hp]. subst a p.
      assert (Hr_lt : rbp_o o < Ppre).
      { pose proof (prec_lt_pre o). unfold rbp_o. destruct (rassoc o); lia. }
      assert (IHe' : Sound_expr (rbp_o o) its rhs mid).
      { unfold rbp_o. destruct (rassoc o); exact IHe. }
      destruct (IHe' Hr_lt) as (consX & Hits & HRx & Hlbm).
      (* the left operand stands at the level this operator requires *)
      assert (Hb : lbp tbl (i :: its) = Ok (bprec o)).
      { unfold lbp. rewrite Hop, Hops. reflexivity. }
      destruct (HF _ Hb) as [HK1 _]. specialize (HK1 o eq_refl).
      assert (HRl : Rend (needL o) consL lhs) by (eapply Rend_mono; [exact HR | exact HK1]).
      assert (HRr : Rend (needR o) consX rhs).
      { eapply Rend_mono; [exact HRx|]. unfold PrattRender.needR, rbp_o.
        pose proof (prec_pos o). destruct (rassoc o); lia. }
      assert (HRb : Rend (bprec o) (consL ++ i :: consX) (EBin o lhs rhs)).
      { eapply Rd_bin; [exact Hop | exact Eo | apply le_n | exact HRl | exact HRr]. }
      assert (HS : S rbp <= bprec o) by lia.
      destruct (IHl Hrbp (consL ++ i :: consX) (bprec o) HRb HS (Follow_bin mid o Hlbm))
        as (consR & Hmid & HRt & Hrest).
      exists ((i :: consX) ++ consR). split; [|split; [|exact Hrest]].
      + subst its mid. cbn [app]. rewrite <- app_assoc. reflexivity.
      + rewrite <- app_assoc in HRt. exact HRt.
    - (* L_postfix *)
      intros rbp lhs i r p its u t rest Hop Hops Hlt HP _ HL IHl Hrbp consL E HR HEle HF.
      assert (Hb : lbp tbl (i :: its) = Ok p).
      { unfold lbp. rewrite Hop, Hops. reflexivity. }
      destruct (HF _ Hb) as [_ HK2].
      pose proof (T_postfix r p Hops) as Hpp.
      assert (HE2 : S Ppre <= E) by (apply HK2; exact Hpp).
      assert (HRu : Rend p (consL ++ [i]) u).
      { eapply Rd_post; [exact Hop | exact Hops | apply le_n | exact HP |].
        eapply Rend_mono; [exact HR | exact HE2]. }
      assert (Hp_big : S Ppre <= p) by (destruct Hpp; subst; lia).
      assert (HS : S rbp <= p) by lia.
      destruct (IHl Hrbp (consL ++ [i]) p HRu HS (Follow_high its p Hp_big)) as (consR & Hi & HRt & Hrest).
      exists ([i] ++ consR). split; [rewrite Hi; reflexivity|]. split; [|exact Hrest].
      rewrite app_assoc. exact HRt.
  Qed.

  (* a whole stream *)
  Theorem items_sound_op : 0 < Ppre -> forall its t, Items tbl imap pmap its t ->
    exists cons rest, its = cons ++ rest /\ Rend 1 cons t /\ lbp_le rest 0.
  Proof.
    intros Hp its t H. inversion H as [its' t' rest HE]; subst.
    destruct (proj1 parse_sound_op 0 its t rest HE Hp) as (cons & Hi & HR & Hl).
    exists cons, rest. auto.
  Qed.
End Converse.

(* ------------------------------------------------------------------ the generated table *)

Definition RendSpec : nat -> list item -> expr -> Prop :=
  Rend impl_table infix_map prefix_map spec_bprec spec_rassoc spec_Ppre.

Lemma impl_T_infix : forall r a p, ops_get impl_table r = Some (Infix a, p) ->
  forall o, assoc_find r infix_map = Some o ->
  a = (if spec_rassoc o then ARight else ALeft) /\ p = spec_bprec o.
Proof.
  intros r a p H o Ho. destruct r; vm_compute in H, Ho; try discriminate;
    inversion H; inversion Ho; subst; vm_compute; split; reflexivity.
Qed.
Lemma impl_T_prefix : forall r p, ops_get impl_table r = Some (Prefix, p) -> p = spec_Ppre.
Proof. intros r p H. destruct r; vm_compute in H; try discriminate; inversion H; reflexivity. Qed.
Lemma impl_T_postfix : forall r p, ops_get impl_table r = Some (Postfix, p) -> p = spec_Pfact \/ p = spec_Ppost.
Proof.
  intros r p H. destruct r; vm_compute in H; try discriminate; inversion H;
    [left | right | right | right]; reflexivity.
Qed.

(* with the generated table nothing can be left over: every operator has binding power > 0 *)
Lemma impl_lbp_le_0 : forall rest, lbp_le impl_table rest 0 -> rest = [].
Proof.
  intros [|i rest] (b & Hb & Hle); [reflexivity|]. exfalso.
  unfold lbp in Hb. destruct (item_op i) as [r|]; [|discriminate].
  destruct r; vm_compute in Hb; inversion Hb; subst; lia.
Qed.

(* Soundness of the crate's parser with respect to the specification table, for EVERY token stream:
   if the conversion of `its` yields t then `its` renders t with at least the parentheses the
   specification table requires. *)
Theorem parse_sound_impl : forall its t,
  Items impl_table infix_map prefix_map its t -> RendSpec 1 its t.
Proof.
  intros its t H.
  destruct (items_sound_op impl_table infix_map prefix_map spec_bprec spec_rassoc
              spec_Ppre spec_Pfact spec_Ppost impl_T_infix impl_T_prefix impl_T_postfix) with (its := its) (t := t)
    as (cons & rest & Hi & HR & Hl); try exact H.
  - exact spec_prec_pos.
  - exact spec_prec_lt_pre.
  - exact spec_pre_lt_fact.
  - exact spec_pre_lt_post.
  - exact spec_level_assoc.
  - vm_compute. repeat constructor.
  - apply impl_lbp_le_0 in Hl. subst rest. rewrite app_nil_r in Hi. subst cons.
    exact HR.
Qed.
