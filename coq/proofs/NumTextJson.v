(* proofs/NumTextJson.v — the transcribed serde_json number parser in its float_roundtrip
   configuration (json_in true) reads every JSON number text  [-]int[.frac][e|E[+|-]exp]  as the
   correctly rounded value of its decimal (the reference ref_str_parse), or rejects it when that
   value overflows.  Bookkeeping of int_loop / frac_loop / parse_exponent only; axiom-free. *)
From Coq Require Import ZArith Floats.SpecFloat Bool List String Ascii Lia.
Require Import Blots.Num Blots.Outcome Blots.gen.Builtins Blots.Ast Blots.NumText.
Require Import Blots.proofs.NumText Blots.proofs.NumTextStr.
Open Scope string_scope.
Open Scope Z_scope.

(* rounding does not look at the sign *)
Lemma binary_round_aux_opp : forall m e l,
  SpecFloat.binary_round_aux prec emax true m e l = SFopp (SpecFloat.binary_round_aux prec emax false m e l).
Proof.
  intros m e l. unfold SpecFloat.binary_round_aux.
  destruct (shr_fexp prec emax m e l) as [mrs' e'].
  destruct (shr_fexp prec emax (round_nearest_even (shr_m mrs') (loc_of_shr_record mrs')) e' loc_Exact) as [mrs'' e''].
  destruct (shr_m mrs''); try reflexivity. destruct (Zle_bool e'' (emax - prec)); reflexivity.
Qed.
Lemma binary_round_opp : forall p e,
  SpecFloat.binary_round prec emax true p e = SFopp (SpecFloat.binary_round prec emax false p e).
Proof.
  intros p e. unfold SpecFloat.binary_round.
  destruct (shl_align p e (fexp prec emax (Z.pos (digits2_pos p) + e))) as [mz ez].
  apply binary_round_aux_opp.
Qed.

(* `n as f64` for an integer = the reference on (n, exponent 0) *)
Lemma num_of_Z_rn_decimal : forall v, 0 <= v -> num_of_Z v = rn_decimal false v 0.
Proof.
  intros [|p|p] H; [reflexivity | | lia]. unfold rn_decimal, with_sign. now rewrite rn_pos_exp0.
Qed.
Lemma num_of_Z_neg_rn_decimal : forall v, 0 < v -> num_of_Z (- v) = rn_decimal true v 0.
Proof.
  intros [|p|p] H; try lia.
  rewrite (rn_decimal_sign true (Zpos p) 0) by lia. rewrite <- num_of_Z_rn_decimal by lia.
  cbn [Z.opp num_of_Z SpecFloat.binary_normalize with_sign]. unfold num_of_Z. cbn [SpecFloat.binary_normalize].
  apply binary_round_opp.
Qed.

(* the loops accumulate every digit into a_all; a_sig = a_all while no overflow happened *)
Definition acc_ok (a : acc) : Prop := a_ovf a = false -> a_sig a = a_all a.

Lemma int_loop_all : forall ds a e,
  a_all (fst (int_loop ds a e)) = digits_val ds (a_all a).
Proof.
  induction ds as [|c ds IH]; intros a e; [reflexivity|].
  cbn [int_loop]. cbv zeta.
  destruct (a_ovf a || (U64_MAXZ <? a_sig a * 10 + digit_val c)); rewrite IH; reflexivity.
Qed.
Lemma int_loop_ok : forall ds a e, acc_ok a -> acc_ok (fst (int_loop ds a e)).
Proof.
  induction ds as [|c ds IH]; intros a e H; [exact H|].
  cbn [int_loop]. cbv zeta.
  destruct (a_ovf a || (U64_MAXZ <? a_sig a * 10 + digit_val c)) eqn:E; apply IH.
  - intros Hf. discriminate Hf.
  - intros _. cbn [a_sig a_all]. apply orb_false_elim in E. destruct E as [E _]. now rewrite (H E).
Qed.
Lemma int_loop_no_ovf_small : forall ds a e,
  a_ovf (fst (int_loop ds a e)) = false -> a_ovf a = false.
Proof.
  induction ds as [|c ds IH]; intros a e H; [exact H|].
  cbn [int_loop] in H. cbv zeta in H.
  destruct (a_ovf a || (U64_MAXZ <? a_sig a * 10 + digit_val c)) eqn:E.
  - apply IH in H. discriminate H.
  - apply orb_false_elim in E. tauto.
Qed.

Lemma frac_loop_all : forall ds a es ea,
  let '(a', _, ea') := frac_loop ds a es ea in
  a_all a' = digits_val ds (a_all a) /\ ea' = ea - slen ds.
Proof.
  induction ds as [|c ds IH]; intros a es ea.
  - cbn [frac_loop digits_val]. unfold slen. simpl. split; [reflexivity | lia].
  - (* every arm goes on with the digit added to a_all and the exponent of a_all lowered *)
    assert (Hstep : exists a1 es1, frac_loop (String c ds) a es ea = frac_loop ds a1 es1 (ea - 1) /\
                                   a_all a1 = a_all a * 10 + digit_val c).
    { cbn [frac_loop]. cbv zeta. destruct (a_ovf a); [|destruct (U64_MAXZ <? a_sig a * 10 + digit_val c)];
        eexists _, _; split; reflexivity. }
    destruct Hstep as (a1 & es1 & -> & Ha1). specialize (IH a1 es1 (ea - 1)).
    destruct (frac_loop ds a1 es1 (ea - 1)) as [[a' es'] ea']. cbn [digits_val]. rewrite <- Ha1.
    replace (slen (String c ds)) with (slen ds + 1) by (unfold slen; cbn [String.length]; lia).
    destruct IH; split; [assumption | lia].
Qed.

(* the value the exact parser returns for digits m and decimal exponent e *)
Definition exact_result (s : bool) (m e : Z) : outcome num :=
  let f := rn_decimal false m e in if is_inf f then Err else Ok (with_sign s f).

Lemma finish_exact : forall s a es ea,
  finish true (negb s) a es ea = exact_result s (a_all a) ea.
Proof. intros. unfold finish, exact_result. now rewrite negb_involutive. Qed.

(* JSON integer part: "0" or a digit string without a leading zero *)
Definition json_int (ip : string) : Prop :=
  all_digits ip = true /\ ip <> "" /\ (ip = "0" \/ match ip with String c _ => c <> "0"%char | _ => False end).

Lemma json_int_head : forall ip, json_int ip ->
  exists c ip', ip = String c ip' /\ is_digit c = true /\ (Ascii.eqb c "0" && negb (is_empty ip') = false).
Proof.
  intros ip (Hd & Hne & Hz). destruct ip as [|c ip']; [congruence|].
  exists c, ip'. simpl in Hd. apply andb_prop in Hd. repeat split; try tauto.
  destruct Hz as [Hz|Hz].
  - inversion Hz; subst. reflexivity.
  - destruct (Ascii.eqb c "0") eqn:E; [apply Ascii.eqb_eq in E; congruence | reflexivity].
Qed.

Lemma with_sign_zero : forall s, with_sign s (S754_zero false) = S754_zero s.
Proof. now intros [|]. Qed.

(* exponent part after the mantissa *)
Lemma parse_exponent_exact : forall s a es ea up sg ed,
  all_digits ed = true -> ed <> "" -> digits_val ed 0 <= I32_MAXZ ->
  parse_exponent true (negb s) a es ea (esign_text sg ++ ed)
  = exact_result s (a_all a) (ea + exp_val (Some (up, sg, ed))).
Proof.
  intros s a es ea up sg ed Hd Hne Hle. unfold parse_exponent.
  assert (Hs : match esign_text sg ++ ed with
               | String "+" r' => (true, r') | String "-" r' => (false, r') | _ => (true, esign_text sg ++ ed)
               end = (match sg with EMinus => false | _ => true end, ed)).
  { destruct sg; cbn [esign_text append]; try reflexivity.
    destruct ed as [|c ed']; [congruence|]. simpl in Hd. apply andb_prop in Hd. destruct Hd as [Hc _].
    clear -Hc. ascii_cases c; try discriminate Hc; reflexivity. }
  rewrite Hs, (span_digits_all ed Hd).
  destruct ed as [|c ed'] eqn:E; [congruence|]. cbn [is_empty orb negb]. rewrite <- E in *.
  replace (I32_MAXZ <? digits_val ed 0) with false by (symmetry; apply Z.ltb_ge; lia).
  rewrite finish_exact. f_equal. unfold exp_val. destruct sg; lia.
Qed.


Lemma exp_head_e : forall up : bool, Ascii.eqb (lower_c (if up then "E" else "e")%char) "e" = true.
Proof. now intros [|]. Qed.


(* every JSON number text with a fraction and/or an exponent — which is every text serde_json/ryu
   prints for a finite f64 — is read by the float_roundtrip configuration of the transcribed parser
   as the correctly rounded value of its decimal, with the sign applied afterwards *)
Theorem serde_exact_reads_dec_text : forall s ip fp ex,
  json_int ip -> all_digits fp = true -> exp_ok ex ->
  match ex with Some (_, _, ed) => digits_val ed 0 <= I32_MAXZ | None => True end ->
  (fp <> "" \/ ex <> None) ->
  serde_number true (sign_str s ++ dec_text ip fp ex)
  = exact_result s (digits_val (ip ++ fp) 0) (exp_val ex - slen fp).
Proof.
  intros s ip fp ex Hip Hf Hex Hexb Hfloat.
  destruct (json_int_head ip Hip) as (c0 & ip' & Eip & Hc0 & Hlead).
  destruct Hip as (Hi & Hne & _).
  unfold serde_number.
  assert (Hsign : match sign_str s ++ dec_text ip fp ex with
                  | String "-" r => (false, r) | _ => (true, sign_str s ++ dec_text ip fp ex)
                  end = (negb s, dec_text ip fp ex)).
  { destruct s; [reflexivity|]. cbn [sign_str append negb]. unfold dec_text. rewrite Eip.
    change (String c0 ip' ++ frac_text fp ++ exp_text ex) with (String c0 (ip' ++ frac_text fp ++ exp_text ex)).
    clear -Hc0. ascii_cases c0; try discriminate Hc0; reflexivity. }
  rewrite Hsign. unfold dec_text.
  assert (Hnd : no_digit_head (frac_text fp ++ exp_text ex)).
  { destruct fp as [|c fp']; [apply exp_text_no_digit | reflexivity]. }
  rewrite (span_digits_app ip _ Hi Hnd). cbv beta iota.
  pose proof (int_loop_all ip {| a_sig := 0; a_all := 0; a_ovf := false |} 0) as Hall.
  destruct (int_loop ip {| a_sig := 0; a_all := 0; a_ovf := false |} 0) as [a e_sig] eqn:EL.
  cbn [fst a_all] in Hall.
  rewrite digits_val_app, <- Hall.
  clear EL Hi Hne Hnd Hsign. subst ip. cbv beta iota. rewrite Hlead.
  destruct fp as [|cf fp'].
  - (* no fraction: there is an exponent *)
    cbn [frac_text is_empty append digits_val].
    replace (exp_val ex - slen "") with (0 + exp_val ex) by (unfold slen; simpl; lia).
    destruct ex as [[[up sg] ed]|]; [|destruct Hfloat; congruence].
    destruct Hex as [Hed Hedne].
    destruct up; exact (parse_exponent_exact s a e_sig 0 _ sg ed Hed Hedne Hexb).
  - (* a fraction, then maybe an exponent *)
    unfold frac_text. cbn [is_empty]. cbv iota.
    change (("." ++ String cf fp') ++ exp_text ex) with (String "." (String cf fp' ++ exp_text ex)).
    cbv beta iota.
    rewrite (span_digits_app (String cf fp') _ Hf (exp_text_no_digit ex)). cbn [is_empty]. cbv beta iota.
    pose proof (frac_loop_all (String cf fp') {| a_sig := a_sig a; a_all := a_all a; a_ovf := false |} e_sig 0) as HF.
    destruct (frac_loop (String cf fp') {| a_sig := a_sig a; a_all := a_all a; a_ovf := false |} e_sig 0)
      as [[a' es'] ea'].
    cbn [a_all] in HF. destruct HF as [HA HE]. rewrite <- HA.
    destruct ex as [[[up sg] ed]|].
    + destruct Hex as [Hed Hedne]. cbn [exp_text]. cbv beta iota. rewrite exp_head_e.
      rewrite (parse_exponent_exact s a' es' ea' up sg ed Hed Hedne Hexb). f_equal. rewrite HE. lia.
    + cbn [exp_text exp_val]. rewrite finish_exact. f_equal. lia.
Qed.

(* ---------------------------------------------------------------- JSON out -> JSON in, float_roundtrip build *)
(* serde_json's text for a finite f64 (ryu): [-]int[.frac][e[-]exp], always with a fraction or an
   exponent; the text denotes x when the reference reads x from it *)
Definition json_text_contract (t : string) (x : num) : Prop :=
  exists ip fp ex, t = sign_str (nsign x) ++ dec_text ip fp ex /\
    json_int ip /\ all_digits fp = true /\ exp_ok ex /\
    match ex with Some (_, _, ed) => digits_val ed 0 <= I32_MAXZ | None => True end /\
    (fp <> "" \/ ex <> None) /\
    rn_decimal (nsign x) (digits_val (ip ++ fp) 0) (exp_val ex - slen fp) = x.

Lemma is_inf_with_sign : forall s v, is_inf (with_sign s v) = is_inf v.
Proof. intros [|] [ | | | ]; reflexivity. Qed.

Theorem json_reads_back_exact_build : forall (json_print : num -> string) x,
  is_finite x = true -> json_text_contract (json_print x) x ->
  json_in true (json_out json_print x) = Ok x.
Proof.
  intros jp x Hf (ip & fp & ex & Ht & Hip & Hfp & Hex & Hexb & Hfl & Hval).
  unfold json_in, json_out. rewrite Hf, Ht.
  rewrite (serde_exact_reads_dec_text (nsign x) ip fp ex Hip Hfp Hex Hexb Hfl).
  unfold exact_result. cbv zeta.
  assert (Hm : 0 <= digits_val (ip ++ fp) 0).
  { destruct Hip as (Hi & _). apply digits_val_nonneg; [|lia]. now rewrite all_digits_app, Hi, Hfp. }
  rewrite (rn_decimal_sign (nsign x) _ _ Hm) in Hval.
  assert (Hinf : is_inf (rn_decimal false (digits_val (ip ++ fp) 0) (exp_val ex - slen fp)) = false).
  { rewrite <- (is_inf_with_sign (nsign x)), Hval. destruct x; try discriminate Hf; reflexivity. }
  now rewrite Hinf, Hval.
Qed.
