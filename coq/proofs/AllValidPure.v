(* AllValidPure.v — every PURE built-in arm of EvalFull.v (aggregates; list, string, record built-ins; convert round
   random to_number to_string join) returns a VALID value (Valid.v) on valid arguments.  The arms whose result is
   made of values of the arguments only are AllGenClosed.v's lemmas at valid_value; that development asks its
   predicate of EVERY atom, numbers included, so an arm that makes an atom of its own (null, a string, a number)
   is proved here: each arithmetic step is one of AllValidNum.v's lemmas (Flocq: the four standard-library
   real-number axioms), a parsed number is NumText.rn_decimal (correctly rounded = binary_round / Bdiv),
   a converted one is Units.convert's chain of * and /.  [closed_value] takes a store it ignores so that the
   statements have AllGenClosed.v's shape. *)
From Coq Require Import String Ascii List ZArith Bool Lia Permutation Floats.SpecFloat.
From Flocq Require Import Core.Core IEEE754.BinarySingleNaN.
Require Import Blots.Num Blots.gen.Builtins Blots.Ast Blots.Value Blots.Outcome Blots.Binop
               Blots.Env Blots.Eval Blots.BuiltinsHof Blots.Program Blots.EvalInst Blots.EvalFull
               Blots.BuiltinsList Blots.BuiltinsAgg Blots.BuiltinsText Blots.NumText Blots.DisplayNum
               Blots.UnitsBase Blots.Units Blots.Valid
               Blots.proofs.ValueInd Blots.proofs.SortLaws Blots.proofs.AggPercentile Blots.proofs.Aggregates
               Blots.proofs.Avoid Blots.proofs.AllValidNum Blots.proofs.AllValidEval Blots.proofs.AllValidOps.
Require Blots.proofs.AllGenClosed.
Import ListNotations.
Open Scope list_scope.
Open Scope nat_scope.

Definition closed_value (_ : store) (v : value) : Prop := valid_value v.
Definition closed_list (st : store) (l : list value) : Prop := Forall (closed_value st) l.
Definition closed_frame (st : store) (f : frame) : Prop := Forall (fun kv => closed_value st (snd kv)) f.
Definition atomic (v : value) : Prop :=
  match v with VBool _ | VStr _ | VNull => True | _ => False end.
Lemma closed_VList : forall st l, closed_value st (VList l) <-> closed_list st l.
Proof. intros st l. apply vv_list. Qed.
Lemma closed_VRec : forall st r, closed_value st (VRec r) <-> closed_frame st r.
Proof.
  intros st r. unfold closed_value, closed_frame, valid_value. cbn [valid_valueb].
  rewrite forallb_forall, Forall_forall. reflexivity.
Qed.
Lemma closed_VSpread : forall st w, closed_value st (VSpread w) <-> closed_value st w.
Proof. reflexivity. Qed.
Lemma atomic_closed : forall st v, atomic v -> closed_value st v.
Proof. intros st v H. destruct v; try contradiction; reflexivity. Qed.
Lemma closed_VNum : forall st x, valid_num x -> closed_value st (VNum x).
Proof. intros st x H. exact H. Qed.
Lemma closed_list_vvs : forall st l, closed_list st l <-> valid_values l.
Proof. intros st l. symmetry. apply vvs_Forall. Qed.

Lemma num_of_nat_valid : forall n, valid_num (num_of_nat n). Proof. intros n. apply num_of_Z_valid. Qed.
Lemma one_valid : valid_num BuiltinsList.one. Proof. apply num_of_Z_valid. Qed.
#[export] Hint Resolve num_of_nat_valid one_valid : vnum.

Ltac triv := first [exact I | apply atomic_closed; exact I
                   | apply closed_VNum; auto 6 with vnum].

Section Pure.
  Variable st : store.

(* the result is a number, a boolean, a string or null *)
Ltac atomic_result H :=
  repeat match type of H with
  | obind ?x _ = Ok _ => destruct x; cbn [obind] in H; try discriminate H
  | (if ?c then _ else _) = Ok _ => destruct c; try discriminate H
  | (match ?x with _ => _ end) = Ok _ => destruct x; try discriminate H
  end;
  try (inversion H; subst; triv).

  Lemma closed_incl : forall l l', closed_list st l -> (forall x, In x l' -> In x l) -> closed_list st l'.
  Proof. exact (AllGenClosed.closed_incl closed_value st). Qed.
  Lemma closed_atoms : forall {A} (f : A -> value) l, (forall a, closed_value st (f a)) -> closed_list st (map f l).
  Proof.
    intros A f l Hf. unfold closed_list. rewrite Forall_forall. intros x Hx. apply in_map_iff in Hx.
    destruct Hx as [a [<- _]]. apply Hf.
  Qed.
  Lemma barg_closed : forall args i v, closed_list st args -> BuiltinsList.arg args i = Ok v -> closed_value st v.
  Proof. exact (AllGenClosed.barg_closed closed_value st). Qed.
  Lemma aarg_closed : forall args i v, closed_list st args -> BuiltinsAgg.arg args i = Ok v -> closed_value st v.
  Proof. exact (AllGenClosed.aarg_closed closed_value st). Qed.

  (* ---- aggregates: a number computed from the (valid) arguments ---- *)
  Lemma mapM_as_number_valid : forall l ns, closed_list st l -> mapM BuiltinsAgg.as_number l = Ok ns -> Forall valid_num ns.
  Proof.
    induction l as [|x l IH]; intros ns Hc H; cbn [mapM] in H; [inversion H; constructor|].
    inversion Hc; subst.
    destruct x; cbn [BuiltinsAgg.as_number obind] in H; try discriminate H.
    destruct (mapM BuiltinsAgg.as_number l) as [ys| | | |] eqn:E; cbn [obind] in H; try discriminate H.
    inversion H; subst. constructor; [assumption|apply IH; auto].
  Qed.
  Lemma collect_valid : forall args ns, closed_list st args ->
    (if Nat.eqb (length args) 1 then
       do a0 <- BuiltinsAgg.arg args 0;
       match a0 with
       | VList l => mapM BuiltinsAgg.as_number l
       | _ => do x <- BuiltinsAgg.as_number a0; Ok [x]
       end
     else mapM BuiltinsAgg.as_number args) = Ok ns -> Forall valid_num ns.
  Proof.
    intros args ns Hc H. destruct (Nat.eqb (length args) 1); [|eapply mapM_as_number_valid; eauto].
    destruct (BuiltinsAgg.arg args 0) as [a0| | | |] eqn:E0; cbn [obind] in H; try discriminate H.
    pose proof (aarg_closed _ _ _ Hc E0) as Ha0.
    destruct a0; cbn [BuiltinsAgg.as_number obind] in H; try discriminate H.
    - inversion H; subst. constructor; [exact Ha0|constructor].
    - eapply mapM_as_number_valid; [|exact H]. apply closed_VList. exact Ha0.
  Qed.
  Lemma fold_left_valid : forall (f : num -> num -> num) ns acc,
    (forall a b, valid_num a -> valid_num b -> valid_num (f a b)) ->
    valid_num acc -> Forall valid_num ns -> valid_num (fold_left f ns acc).
  Proof.
    intros f ns. induction ns as [|x ns IH]; intros acc Hf Ha Hn; cbn [fold_left]; [exact Ha|].
    inversion Hn; subst. apply IH; auto.
  Qed.
  Lemma insert_pc_valid : forall x l s, valid_num x -> Forall valid_num l -> insert_pc x l = Ok s -> Forall valid_num s.
  Proof.
    intros x l. induction l as [|y r IH]; intros s Hx Hl H; cbn [insert_pc] in H.
    - inversion H; subst. constructor; [exact Hx|constructor].
    - inversion Hl; subst. destruct (ncmp x y) as [[| |]|]; try discriminate H.
      + destruct (insert_pc x r) as [r'| | | |] eqn:E; cbn [obind] in H; try discriminate H.
        inversion H; subst. constructor; [assumption|eapply IH; eauto].
      + inversion H; subst. constructor; [exact Hx|exact Hl].
      + destruct (insert_pc x r) as [r'| | | |] eqn:E; cbn [obind] in H; try discriminate H.
        inversion H; subst. constructor; [assumption|eapply IH; eauto].
  Qed.
  Lemma sort_pc_valid : forall l s, Forall valid_num l -> sort_pc l = Ok s -> Forall valid_num s.
  Proof.
    intros l. unfold sort_pc.
    assert (G : forall l acc s, Forall valid_num l -> (forall a, acc = Ok a -> Forall valid_num a) ->
                fold_left (fun acc x => do a <- acc; insert_pc x a) l acc = Ok s -> Forall valid_num s).
    { clear l. induction l as [|x l IH]; intros acc s Hl Hacc H; cbn [fold_left] in H; [apply Hacc; exact H|].
      inversion Hl; subst. eapply IH; [eassumption| |exact H].
      intros a Ea. destruct acc as [a0| | | |]; cbn [obind] in Ea; try discriminate Ea.
      eapply insert_pc_valid; [eassumption|apply Hacc; reflexivity|exact Ea]. }
    intros s Hl H. eapply G; [exact Hl| |exact H]. intros a Ea. inversion Ea; subst. constructor.
  Qed.
  Lemma index_num_valid : forall ns i x, Forall valid_num ns -> index_num ns i = Ok x -> valid_num x.
  Proof.
    intros ns i x Hn H. unfold index_num in H. destruct (_ || _); [discriminate H|].
    destruct (nth_error ns (Z.to_nat i)) eqn:E; [|discriminate H]. inversion H; subst.
    rewrite Forall_forall in Hn. apply Hn. eapply nth_error_In; eauto.
  Qed.
  Lemma n1_valid : valid_num n1. Proof. apply num_of_Z_valid. Qed.
  Lemma n2_valid : valid_num n2. Proof. apply num_of_Z_valid. Qed.
  Lemma n100_valid : valid_num n100. Proof. apply num_of_Z_valid. Qed.
  Hint Resolve n1_valid n2_valid n100_valid : vnum.

  (* min max avg sum prod median: "collect, reject the empty vector, reduce" (Aggregates.bi_agg_collect) *)
  Lemma bi_agg_closed : forall a args v, Aggregates.is_varargs a = true ->
    closed_list st args -> bi_agg a args = Ok v -> closed_value st v.
  Proof.
    intros a args v Ha Hc H. rewrite (Aggregates.bi_agg_collect a args Ha), <- Aggregates.collect_min_eq in H.
    destruct (collect_nums_min args) as [nums| | | |] eqn:Ec; cbn [obind] in H; try discriminate H.
    pose proof (collect_valid _ _ Hc Ec) as Hn.
    destruct (BuiltinsAgg.is_empty nums); [discriminate H|].
    destruct a; try discriminate Ha; cbn [Aggregates.reduce] in H;
      try (injection H as <-; apply closed_VNum; try (apply ndiv_valid; [|apply num_of_Z_valid]);
           apply fold_left_valid; auto with vnum; reflexivity).
    destruct (has_nan nums); [inversion H; subst; reflexivity|].
    destruct (sort_pc nums) as [s| | | |] eqn:Es; cbn [obind] in H; try discriminate H.
    pose proof (sort_pc_valid _ _ Hn Es) as Hs.
    destruct (_ =? _)%Z.
    - destruct (index_num s (BuiltinsAgg.len s / 2 - 1)) as [x| | | |] eqn:Ea; cbn [obind] in H; try discriminate H.
      destruct (index_num s (BuiltinsAgg.len s / 2)) as [y| | | |] eqn:Eb; cbn [obind] in H; try discriminate H.
      inversion H; subst. apply closed_VNum.
      apply ndiv_valid; [apply nadd_valid; eapply index_num_valid; eauto|apply n2_valid].
    - destruct (index_num s (BuiltinsAgg.len s / 2)) as [x| | | |] eqn:Ea; cbn [obind] in H; try discriminate H.
      inversion H; subst. apply closed_VNum. eapply index_num_valid; eauto.
  Qed.
  Lemma bi_percentile_closed : forall args v, closed_list st args -> bi_percentile args = Ok v -> closed_value st v.
  Proof.
    intros args v Hc H. unfold bi_percentile, bi_percentile_gen in H.
    destruct (BuiltinsAgg.arg args 1) as [a1| | | |] eqn:E1; cbn [obind] in H; try discriminate H.
    destruct (BuiltinsAgg.as_number a1) as [p| | | |]; cbn [obind] in H; try discriminate H.
    destruct (BuiltinsAgg.arg args 0) as [a0| | | |] eqn:E0; cbn [obind] in H; try discriminate H.
    pose proof (aarg_closed _ _ _ Hc E0) as Ha0.
    destruct a0; cbn [BuiltinsAgg.as_list obind] in H; try discriminate H.
    destruct (negb (in_0_100 p)); [discriminate H|].
    destruct (mapM BuiltinsAgg.as_number l) as [nums| | | |] eqn:Em; cbn [obind] in H; try discriminate H.
    pose proof (mapM_as_number_valid _ _ (proj1 (closed_VList st l) Ha0) Em) as Hn.
    destruct (BuiltinsAgg.is_empty nums); [discriminate H|].
    destruct (has_nan nums); [inversion H; subst; reflexivity|].
    destruct (sort_pc nums) as [s| | | |] eqn:Es; cbn [obind] in H; try discriminate H.
    pose proof (sort_pc_valid _ _ Hn Es) as Hs.
    destruct (usize_sub false (BuiltinsAgg.len s) 1) as [l1| | | |]; cbn [obind] in H; try discriminate H.
    destruct (index_num s (percentile_index p l1)) as [x| | | |] eqn:Ex; cbn [obind] in H; try discriminate H.
    inversion H; subst. apply closed_VNum. eapply index_num_valid; eauto.
  Qed.
  Lemma dot_loop_valid : forall a b sum s, closed_list st a -> closed_list st b -> valid_num sum ->
    dot_loop sum a b = Ok s -> valid_num s.
  Proof.
    induction a as [|x a IH]; intros b sum s Ha Hb Hs H; cbn [dot_loop] in H; [inversion H; subst; exact Hs|].
    destruct b as [|y b]; [inversion H; subst; exact Hs|].
    inversion Ha; subst. inversion Hb; subst.
    destruct x; cbn [BuiltinsAgg.as_number obind] in H; try discriminate H.
    destruct y; cbn [BuiltinsAgg.as_number obind] in H; try discriminate H.
    eapply IH; [eassumption|eassumption| |exact H]. apply nadd_valid; [exact Hs|apply nmul_valid; assumption].
  Qed.
  Lemma bi_dot_closed : forall args v, closed_list st args -> bi_dot args = Ok v -> closed_value st v.
  Proof.
    intros args v Hc H. unfold bi_dot in H.
    destruct (BuiltinsAgg.arg args 0) as [a0| | | |] eqn:E0; cbn [obind] in H; try discriminate H.
    pose proof (aarg_closed _ _ _ Hc E0) as Ha0.
    destruct a0; cbn [BuiltinsAgg.as_list obind] in H; try discriminate H.
    destruct (BuiltinsAgg.arg args 1) as [a1| | | |] eqn:E1; cbn [obind] in H; try discriminate H.
    pose proof (aarg_closed _ _ _ Hc E1) as Ha1.
    destruct a1; cbn [BuiltinsAgg.as_list obind] in H; try discriminate H.
    destruct (negb _); [discriminate H|].
    destruct (dot_loop n0 l l0) as [s| | | |] eqn:Ed; cbn [obind] in H; try discriminate H.
    inversion H; subst. apply closed_VNum.
    apply (dot_loop_valid l l0 n0 s); [apply closed_VList; exact Ha0|apply closed_VList; exact Ha1|reflexivity|exact Ed].
  Qed.

  (* ---- list built-ins ---- *)
  Lemma bi_range_closed : forall args v, bi_range args = Ok v -> closed_value st v.
  Proof.
    assert (Hb : forall a b v, range_body a b = Ok v -> closed_value st v).
    { intros a b v H. unfold range_body in H.
      destruct (ngtb a b); try discriminate. destruct (_ || _); try discriminate.
      destruct (_ <? _)%Z; try discriminate. inversion H; subst.
      apply closed_VList. apply closed_atoms. intros z; triv. }
    intros args v H. unfold bi_range in H.
    destruct args as [|[] [|[] [|? ?]]]; try discriminate; eapply Hb; exact H.
  Qed.

  Lemma bi_len_closed : forall args v, bi_len args = Ok v -> closed_value st v.
  Proof. intros args v H. unfold bi_len in H. atomic_result H. Qed.

  Lemma bi_head_closed : forall args v, closed_list st args -> bi_head args = Ok v -> closed_value st v.
  Proof.
    intros args v Hc H. unfold bi_head in H.
    destruct (BuiltinsList.arg args 0) as [a0| | | |] eqn:E0; try discriminate. cbn [obind] in H.
    pose proof (barg_closed _ _ _ Hc E0) as Ha0.
    destruct a0; try discriminate; inversion H; subst; try triv.
    apply closed_VList in Ha0. destruct l; [triv|]. inversion Ha0; assumption.
  Qed.

  Lemma bi_tail_closed : forall args v, closed_list st args -> bi_tail args = Ok v -> closed_value st v.
  Proof.
    intros args v Hc H. unfold bi_tail in H.
    destruct (BuiltinsList.arg args 0) as [a0| | | |] eqn:E0; try discriminate. cbn [obind] in H.
    pose proof (barg_closed _ _ _ Hc E0) as Ha0.
    destruct a0; try discriminate; inversion H; subst; try triv.
    apply closed_VList in Ha0. apply closed_VList.
    destruct (slice_get l 1 (Z.of_nat (Datatypes.length l))) eqn:E; [|constructor].
    eapply closed_incl; [exact Ha0|]. intros x Hx. eapply AllGenClosed.slice_get_in; eauto.
  Qed.

  Lemma bi_slice_closed : forall args v, closed_list st args -> bi_slice args = Ok v -> closed_value st v.
  Proof.
    intros args v Hc H. unfold bi_slice in H.
    destruct (BuiltinsList.arg args 1); try discriminate; cbn [obind] in H.
    destruct (BuiltinsList.as_number a); try discriminate; cbn [obind] in H.
    destruct (BuiltinsList.arg args 2); try discriminate; cbn [obind] in H.
    destruct (BuiltinsList.as_number a1); try discriminate; cbn [obind] in H.
    destruct (BuiltinsList.arg args 0) as [a0'| | | |] eqn:E0; try discriminate. cbn [obind] in H.
    pose proof (barg_closed _ _ _ Hc E0) as Ha0.
    destruct a0'; try discriminate.
    - match type of H with match ?x with _ => _ end = _ => destruct x end; inversion H; triv.
    - match type of H with match ?x with _ => _ end = _ => destruct x eqn:E end; inversion H; subst.
      apply closed_VList in Ha0. apply closed_VList.
      eapply closed_incl; [exact Ha0|]. intros x Hx. eapply AllGenClosed.slice_get_in; eauto.
  Qed.

  Lemma concat_args_closed : forall args, closed_list st args -> closed_list st (concat_args args).
  Proof.
    induction args as [|a rest IH]; intros Hc; cbn [concat_args]; [constructor|].
    inversion Hc as [|? ? Ha Hr]; subst. specialize (IH Hr).
    assert (Hdef : closed_list st (a :: concat_args rest)) by (constructor; assumption).
    destruct a; try exact Hdef.
    - apply closed_VList in Ha. apply Forall_app. split; assumption.
    - destruct a; try exact Hdef.
      + apply Forall_app. split; [apply closed_atoms; intros; triv|exact IH].
      + apply (proj1 (closed_VSpread _ _)) in Ha. apply closed_VList in Ha. apply Forall_app. split; assumption.
  Qed.
  Lemma bi_concat_closed : forall args v, closed_list st args -> bi_concat args = Ok v -> closed_value st v.
  Proof.
    intros args v Hc H. unfold bi_concat in H. inversion H; subst. apply closed_VList.
    apply concat_args_closed; exact Hc.
  Qed.

  (* unique sort reverse: a list made of the items of args[0] (AllGenClosed.v: any predicate that holds of a
     list exactly when it holds of the items) *)
  Lemma bi_unique_closed : forall args v, closed_list st args -> bi_unique args = Ok v -> closed_value st v.
  Proof. exact (AllGenClosed.bi_unique_closed closed_value closed_VList st). Qed.
  Lemma bi_sort_closed : forall args v, closed_list st args -> bi_sort args = Ok v -> closed_value st v.
  Proof. exact (AllGenClosed.bi_sort_closed closed_value closed_VList st). Qed.
  Lemma bi_reverse_closed : forall args v, closed_list st args -> bi_reverse args = Ok v -> closed_value st v.
  Proof. exact (AllGenClosed.bi_reverse_closed closed_value closed_VList st). Qed.

  Lemma bi_split_closed : forall args v, bi_split args = Ok v -> closed_value st v.
  Proof.
    intros args v H. unfold bi_split in H.
    destruct (BuiltinsList.arg args 0); try discriminate; cbn [obind] in H.
    destruct (BuiltinsList.as_string a); try discriminate; cbn [obind] in H.
    destruct (BuiltinsList.arg args 1); try discriminate; cbn [obind] in H.
    destruct (BuiltinsList.as_string a1); try discriminate; cbn [obind] in H.
    inversion H; subst. apply closed_VList. apply closed_atoms. intros; triv.
  Qed.
  Lemma bi_replace_closed : forall args v, bi_replace args = Ok v -> closed_value st v.
  Proof. intros args v H. unfold bi_replace in H. atomic_result H. Qed.
  Lemma bi_includes_closed : forall args v, bi_includes args = Ok v -> closed_value st v.
  Proof.
    intros args v H. unfold bi_includes in H.
    destruct (BuiltinsList.arg args 0) as [a0| | | |]; try discriminate. cbn [obind] in H.
    destruct a0; try discriminate.
    - atomic_result H.
    - induction l as [|item rest IH]; [inversion H; triv|].
      destruct (BuiltinsList.arg args 1); try discriminate. cbn [obind] in H.
      destruct (equals item a); [inversion H; triv|apply IH; exact H].
  Qed.

  (* ---- records ---- *)
  Lemma bi_keys_closed : forall args v, bi_keys args = Ok v -> closed_value st v.
  Proof.
    intros args v H. unfold bi_keys in H.
    destruct (BuiltinsList.arg args 0); try discriminate; cbn [obind] in H.
    destruct (as_record a); try discriminate; cbn [obind] in H.
    inversion H; subst. apply closed_VList. apply closed_atoms. intros; triv.
  Qed.
  Lemma bi_values_closed : forall args v, closed_list st args -> bi_values args = Ok v -> closed_value st v.
  Proof. exact (AllGenClosed.bi_values_closed closed_value closed_VList closed_VRec st). Qed.
  Lemma bi_entries_closed : forall args v, closed_list st args -> bi_entries args = Ok v -> closed_value st v.
  Proof.
    intros args v Hc H. unfold bi_entries in H. obk H a0 E0. obk H r Er. injection H as <-.
    pose proof (barg_closed _ _ _ Hc E0) as Ha0. destruct a0; try discriminate Er. injection Er as ->.
    apply closed_VRec in Ha0. apply closed_VList. unfold closed_list, closed_frame in *.
    rewrite Forall_forall in *. intros x Hx. apply in_map_iff in Hx. destruct Hx as [kv [<- Hkv]].
    apply closed_VList. constructor; [triv|]. constructor; [apply Ha0; exact Hkv|constructor].
  Qed.

  (* ---- flatten zip chunk ---- *)
  Lemma bi_flatten_closed : forall args v, closed_list st args -> bi_flatten args = Ok v -> closed_value st v.
  Proof. exact (AllGenClosed.bi_flatten_closed closed_value closed_VList st). Qed.

  Lemma bi_zip_closed : forall args v, closed_list st args -> bi_zip args = Ok v -> closed_value st v.
  Proof.
    intros args v Hc H. unfold bi_zip in H.
    destruct (mapM _ args) as [lists| | | |] eqn:E; try discriminate. cbn [obind] in H.
    inversion H; subst. pose proof (AllGenClosed.zip_lists_closed closed_value closed_VList st _ _ Hc E) as Hl.
    apply closed_VList. unfold closed_list. rewrite Forall_forall. intros x Hx.
    apply in_map_iff in Hx. destruct Hx as [i [<- _]]. unfold zip_tuple.
    apply closed_VList. unfold closed_list. rewrite Forall_forall. intros y Hy.
    apply in_map_iff in Hy. destruct Hy as [l [<- Hin]].
    rewrite Forall_forall in Hl. specialize (Hl l Hin). unfold GenOps.closed_list in Hl. rewrite Forall_forall in Hl.
    destruct (nth_in_or_default i l VNull) as [Hn|Hn]; [apply Hl; exact Hn|rewrite Hn; triv].
  Qed.

  Lemma bi_chunk_closed : forall args v, closed_list st args -> bi_chunk args = Ok v -> closed_value st v.
  Proof. exact (AllGenClosed.bi_chunk_closed closed_value closed_VList st). Qed.
  (* ---- convert round to_number to_string join: a number or a string ---- *)

  (* Units.convert over the binary64 arithmetic: a chain of + - * / on the value and table literals *)
  Lemma lit_valid : forall l, valid_num (a_lit fl l).
  Proof. intros l. cbn [a_lit fl]. apply num_of_bits_valid. Qed.
  Lemma tempfn_apply_valid : forall f x, valid_num x -> valid_num (tempfn_apply fl f x).
  Proof.
    intros f x Hx. pose proof lit_valid as L.
    destruct f; cbn [tempfn_apply].
    - exact (nadd_valid _ _ Hx (L _)).
    - exact (nsub_valid _ _ Hx (L _)).
    - exact (nadd_valid _ _ (ndiv_valid _ _ (nmul_valid _ _ (nsub_valid _ _ Hx (L _)) (L _)) (L _)) (L _)).
    - exact (nadd_valid _ _ (ndiv_valid _ _ (nmul_valid _ _ (nsub_valid _ _ Hx (L _)) (L _)) (L _)) (L _)).
    - exact Hx.
  Qed.
  Lemma convert_to_base_valid : forall u x, valid_num x -> valid_num (convert_to_base fl u x).
  Proof.
    intros u x Hx. pose proof lit_valid as L. unfold convert_to_base. destruct (u_conv u).
    - exact (nmul_valid _ _ Hx (L _)).
    - destruct (a_is_zero fl x); [exact (valid_inf false)|]. exact (ndiv_valid _ _ (L _) Hx).
    - apply tempfn_apply_valid. exact Hx.
  Qed.
  Lemma convert_from_base_valid : forall u x, valid_num x -> valid_num (convert_from_base fl u x).
  Proof.
    intros u x Hx. pose proof lit_valid as L. unfold convert_from_base. destruct (u_conv u).
    - exact (ndiv_valid _ _ Hx (L _)).
    - destruct (a_is_zero fl x); [exact (valid_inf false)|]. exact (ndiv_valid _ _ (L _) Hx).
    - apply tempfn_apply_valid. exact Hx.
  Qed.
  Lemma convert_with_valid : forall units lower x f t y, valid_num x ->
    convert_with fl units lower x f t = UOk y -> valid_num y.
  Proof.
    intros units lower x f t y Hx H. unfold convert_with in H.
    destruct (resolve_in units f (lower f)) as [uf|]; [|discriminate H].
    destruct (resolve_in units t (lower t)) as [ut|]; [|discriminate H].
    unfold convert_units in H. destruct (negb _); [discriminate H|].
    destruct (same_ids uf ut); inversion H; subst; [exact Hx|].
    unfold through_base. apply convert_from_base_valid, convert_to_base_valid. exact Hx.
  Qed.
  Lemma convert_valid : forall x f t y, valid_num x -> Units.convert fl x f t = UOk y -> valid_num y.
  Proof. intros x f t y. exact (convert_with_valid _ _ x f t y). Qed.
  Lemma bi_convert_closed : forall args v, closed_list st args -> bi_convert args = Ok v -> closed_value st v.
  Proof.
    intros args v Hc H. unfold bi_convert in H.
    destruct (BuiltinsList.arg args 0) as [a0| | | |] eqn:E0; cbn [obind] in H; try discriminate H.
    pose proof (barg_closed _ _ _ Hc E0) as Ha0.
    destruct a0; cbn [BuiltinsList.as_number obind] in H; try discriminate H.
    ob H a1. ob H x1. ob H a2. ob H x2.
    destruct (Units.convert fl x x1 x2) eqn:Ecv; [|discriminate H]. injection H as <-.
    apply closed_VNum. eapply convert_valid; [exact Ha0|exact Ecv].
  Qed.

  Lemma c_one_valid : valid_num c_one. Proof. reflexivity. Qed.
  Lemma powi_loop_valid : forall fuel a pow mul, valid_num a -> valid_num mul -> valid_num (powi_loop fuel a pow mul).
  Proof.
    induction fuel as [|f IH]; intros a pow mul Ha Hm; cbn [powi_loop]; [exact Hm|].
    assert (Hm' : valid_num (if Z.odd pow then nmul mul a else mul)) by (destruct (Z.odd pow); auto with vnum).
    destruct (_ =? _)%Z; [exact Hm'|]. apply IH; auto with vnum.
  Qed.
  Lemma powi_exec_valid : forall a b, valid_num a -> valid_num (powi_exec a b).
  Proof.
    intros a b Ha. unfold powi_exec.
    pose proof (powi_loop_valid 33 a (Z.abs b) c_one Ha c_one_valid) as Hl.
    destruct (b <? 0)%Z; [apply ndiv_valid; [exact c_one_valid|exact Hl]|exact Hl].
  Qed.
  Lemma bi_round_closed : forall args v, closed_list st args -> bi_round args = Ok v -> closed_value st v.
  Proof.
    intros args v Hc H. unfold bi_round in H.
    destruct (BuiltinsList.arg args 0) as [a0| | | |] eqn:E0; cbn [obind] in H; try discriminate H.
    pose proof (barg_closed _ _ _ Hc E0) as Ha0.
    destruct a0; cbn [BuiltinsList.as_number obind] in H; try discriminate H.
    assert (G : forall x1, Ok (VNum (ndiv (nround (nmul x (powi_exec (num_of_Z 10) (as_i32 x1))))
                                            (powi_exec (num_of_Z 10) (as_i32 x1)))) = Ok v -> closed_value st v).
    { intros x1 E. injection E as <-. apply closed_VNum.
      assert (Hp : valid_num (powi_exec (num_of_Z 10) (as_i32 x1))) by (apply powi_exec_valid, num_of_Z_valid).
      apply ndiv_valid; [apply nround_valid, nmul_valid; assumption|exact Hp]. }
    destruct args as [|y [|z rest]].
    - ob H a1. ob H x1. exact (G x1 H).
    - injection H as <-. apply closed_VNum. apply nround_valid. exact Ha0.
    - ob H a1. ob H x1. exact (G x1 H).
  Qed.
  Lemma bi_random_closed : forall args v, bi_random args = Ok v -> closed_value st v.
  Proof.
    intros args v H. unfold bi_random in H. ob H a0. ob H x0. injection H as <-.
    apply closed_VNum. unfold rng_f64. apply nsub_valid; [apply num_of_bits_valid|apply num_of_Z_valid].
  Qed.

  (* a parsed number: NumText.rn_decimal is valid (AllValidNum.rn_decimal_valid) *)
  Lemma ref_str_parse_valid : forall t x, ref_str_parse t = Some x -> valid_num x.
  Proof.
    intros t x H. unfold ref_str_parse in H. destruct (rust_float_syntax t) as [f|]; [|discriminate H].
    injection H as <-. destruct f; cbn [fnum_value]; try reflexivity. apply rn_decimal_valid.
  Qed.
  Lemma bi_to_number_closed : forall args v, closed_list st args -> bi_to_number args = Ok v -> closed_value st v.
  Proof.
    intros args v Hc H. unfold bi_to_number in H.
    destruct (BuiltinsList.arg args 0) as [a0| | | |] eqn:E0; cbn [obind] in H; try discriminate H.
    pose proof (barg_closed _ _ _ Hc E0) as Ha0.
    destruct a0; try (injection H as <-; first [exact Ha0|apply closed_VNum; apply num_of_Z_valid]);
      (ob H s0; cbv beta in H; unfold parse_result in H;
       destruct (NumText.ref_str_parse s0) eqn:Ep; [|discriminate H]; injection H as <-;
       apply closed_VNum; eapply ref_str_parse_valid; exact Ep).
  Qed.
  Lemma bi_to_string_closed : forall args v, bi_to_string args = Ok v -> closed_value st v.
  Proof.
    intros args v H. unfold bi_to_string in H.
    ob H a0.
    destruct a0; try (injection H as <-; triv); (ob H s0; injection H as <-; triv).
  Qed.
  Lemma bi_join_full_closed : forall args v, bi_join_full args = Ok v -> closed_value st v.
  Proof.
    intros args v H. unfold bi_join_full in H.
    ob H a1. ob H d. ob H a0. ob H l. ob H strs. injection H as <-. triv.
  Qed.
End Pure.
