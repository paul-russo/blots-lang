(* PegAtoms.v — LEXICAL round trip at character level (first step from the item-level C07 theorems to the
   character level): for every ATOM the printer can emit, the PEG model of the regenerated grammar, run on the
   text of the atom, yields exactly the pair of that atom with the full span.
     string literal  q ++ s ++ q  (q the quote Printer.quote_string chooses: one that does not occur in s):
                     rule `string` yields  string[p, p+|s|+2] ( string_value[p+1, p+1+|s|] ), whatever follows;
                     [s] must be a sequence of UTF-8-shaped chunks (every lead byte followed by as many bytes as
                     its width announces) — for other byte strings pest's ANY would step over the closing quote;
     identifier      a valid name that is not a reserved word: rule `identifier` yields identifier[0,|name|];
     true / false / null   rules `bool` / `null` yield the pair with the full span;
     number          any text t in the language of the rule `number` (gen/NumGrammar.v: NG.gen_number t = Some "";
                     which number texts the printers emit is C16's subject): number[0,|t|]. *)
From Coq Require Import String Ascii List NArith Bool Arith Lia ZifyBool ZifyNat ZifyN.
Require Import Blots.Peg Blots.gen.Grammar Blots.proofs.PegGeneric Blots.proofs.PegPure Blots.proofs.PegIdent
               Blots.proofs.PegString Blots.proofs.PegNumber Blots.proofs.StringFacts.
Require Import Blots.C10Ident Blots.gen.IdentRules Blots.C10IdentImpl Blots.proofs.C10IdentProofs.
Require Blots.Printer.
Import ListNotations.
Local Open Scope string_scope.

(* ------------------------------------------------------------------ strings *)
(* a byte string made of chunks shaped like UTF-8 characters: a lead byte and width-1 further bytes *)
Inductive chunks : string -> Prop :=
| ch_nil : chunks ""
| ch_cons : forall c k s, String.length (String c k) = utf8_width c -> chunks s -> chunks (String c k ++ s).

Lemma ascii_chunks : forall s, Printer.forall_chars (fun c => N.ltb (N_of_ascii c) 192) s = true -> chunks s.
Proof.
  induction s as [|c s IH]; intro H; [constructor|].
  simpl in H. apply andb_prop in H. destruct H as [Hc Hs].
  change (String c s) with (String c "" ++ s). constructor; [|apply IH; exact Hs].
  unfold utf8_width. rewrite Hc. reflexivity.
Qed.

Lemma sdrop_app_exact : forall a b, sdrop (String.length a) (a ++ b) = b.
Proof. induction a; intro b; simpl; auto. Qed.

Lemma contains_app : forall q a b, Printer.contains_char q (a ++ b) = Printer.contains_char q a || Printer.contains_char q b.
Proof. induction a; intro b; simpl; [reflexivity|]. rewrite IHa. apply orb_assoc. Qed.

(* (!PEEK ~ ANY)* with q on the stack stops exactly at the first q when q does not occur in s *)
Lemma scan_steps_to_quote : forall q after s, chunks s -> Printer.contains_char q s = false ->
    forall n, String.length s <= n -> m_star_n n (scan_step q) (s ++ String q after) = String q after.
Proof.
  intros q after s Hc. induction Hc as [|c k s Hw Hc IH]; intros Hq n Hn.
  - simpl. destruct n; simpl; [reflexivity|]. rewrite Ascii.eqb_refl. reflexivity.
  - rewrite contains_app in Hq. apply orb_false_iff in Hq. destruct Hq as [Hq1 Hq2].
    simpl in Hq1. apply orb_false_iff in Hq1. destruct Hq1 as [Hq0 _].
    rewrite length_append in Hn. destruct n as [|n]; [simpl in *; lia|].
    assert (E : scan_step q ((String c k ++ s) ++ String q after) = Some (s ++ String q after)).
    { change ((String c k ++ s) ++ String q after) with (String c ((k ++ s) ++ String q after)).
      unfold scan_step. rewrite Ascii.eqb_sym, Hq0.
      replace (Nat.min (utf8_width c) (String.length (String c ((k ++ s) ++ String q after))))
        with (String.length (String c k)).
      - change (String c ((k ++ s) ++ String q after)) with ((String c k ++ s) ++ String q after).
        rewrite append_assoc. rewrite sdrop_app_exact. reflexivity.
      - rewrite <- Hw. symmetry. apply Nat.min_l. simpl. rewrite !length_append. simpl. lia. }
    cbn [m_star_n]. rewrite E. apply IH; [exact Hq2|]. simpl in Hn. lia.
Qed.

Lemma scan_to_quote : forall q s after, chunks s -> Printer.contains_char q s = false ->
    scan q (s ++ String q after) = String q after.
Proof.
  intros q s after Hc Hq. unfold scan. apply scan_steps_to_quote; [exact Hc|exact Hq|].
  rewrite length_append. lia.
Qed.

(* the rule `string` on  q s q after : one pair string[p, p+|s|+2] with the inner string_value[p+1, p+1+|s|] *)
Theorem peg_string_atom : forall q s after fuel a (st0 : st grule),
    is_quote q = true -> chunks s -> Printer.contains_char q s = false ->
    rest st0 = String q (s ++ String q after) -> stack_ok (stk st0) ->
    12 + String.length (rest st0) <= fuel ->
    call_with G (run G fuel) a false PG_string st0
    = Ok (mkst (pos st0 + slen s + 2) after (stk st0)
               (Node PG_string (pos st0) (pos st0 + slen s + 2)
                     [Node PG_string_value (pos st0 + 1) (pos st0 + 1 + slen s) []] :: out st0)).
Proof.
  intros q s after fuel a st0 Q Hc Hq E Hok Hf.
  rewrite (peg_string_rule fuel a q (s ++ String q after) st0 E Hok Hf). rewrite Q.
  unfold string_result. rewrite (scan_to_quote q s after Hc Hq).
  cbn [drop_prefix]. rewrite Ascii.eqb_refl.
  assert (L : (slen (s ++ String q after) - slen (String q after) = slen s)%N).
  { unfold slen. rewrite length_append. lia. }
  rewrite L. replace (pos st0 + 1 + slen s + 1)%N with (pos st0 + slen s + 2)%N by lia. reflexivity.
Qed.

(* the text Printer.quote_string emits (repaired quoting): the quote that does not occur in s *)
Corollary peg_quoted_string_relexes : forall s after fuel a (st0 : st grule),
    Printer.string_relex_ok Printer.FX_ALL s = true -> chunks s ->
    rest st0 = Printer.quote_string Printer.FX_ALL s ++ after -> stack_ok (stk st0) ->
    12 + String.length (rest st0) <= fuel ->
    call_with G (run G fuel) a false PG_string st0
    = Ok (mkst (pos st0 + slen s + 2) after (stk st0)
               (Node PG_string (pos st0) (pos st0 + slen s + 2)
                     [Node PG_string_value (pos st0 + 1) (pos st0 + 1 + slen s) []] :: out st0)).
Proof.
  intros s after fuel a st0 Hr Hc E Hok Hf.
  unfold Printer.string_relex_ok, Printer.quote_string in *. cbn [Printer.fx_quote Printer.FX_ALL] in *.
  destruct (Printer.contains_char Printer.a_dq s) eqn:D.
  - cbn [andb negb] in Hr. apply negb_true_iff in Hr.
    apply (peg_string_atom Printer.a_sq s after fuel a st0); try assumption; try reflexivity.
    rewrite E. unfold Printer.str1. rewrite !append_assoc. reflexivity.
  - apply (peg_string_atom Printer.a_dq s after fuel a st0); try assumption; try reflexivity.
    rewrite E. unfold Printer.str1. rewrite !append_assoc. reflexivity.
Qed.

(* ------------------------------------------------------------------ identifiers *)
Lemma identifier_whole : forall name, valid_name name = true -> is_reserved reserved_words name = false ->
    identifier reserved_words name = Some "".
Proof.
  intros name V NR.
  pose proof (ident_rule_impl name "" V NR eq_refl (or_intror (conj eq_refl eq_refl))) as T.
  unfold term_word_impl in T. change term_order with [ABool; ANull; AIdent] in T.
  cbn [term_word alt_rule] in T.
  assert (E : name ++ "" = name) by (clear; induction name; simpl; [reflexivity|rewrite IHname; reflexivity]).
  rewrite E in T.
  destruct (bool_rule bool_boundary name); [discriminate|].
  destruct (null_rule null_boundary name); [discriminate|].
  destruct (identifier reserved_words name) as [r|]; [|discriminate].
  inversion T; subst r. reflexivity.
Qed.

Theorem peg_identifier_atom : exists n, forall name fuel,
    valid_name name = true -> is_reserved reserved_words name = false ->
    n + String.length name <= fuel ->
    parse G fuel PG_identifier name
    = Ok (mkst (slen name) "" stack_new [Node PG_identifier 0 (slen name) []]).
Proof.
  destruct peg_identifier_language as [n H]. exists n. intros name fuel V NR Hf.
  rewrite (H name fuel Hf). rewrite (identifier_whole name V NR).
  unfold slen at 2 4. simpl String.length. rewrite N.sub_0_r. reflexivity.
Qed.

(* ------------------------------------------------------------------ true / false / null *)
Lemma parse_by_computation : forall f r text res,
    parse G f r text = res -> res <> OutOfFuel -> forall fuel, f <= fuel -> parse G fuel r text = res.
Proof.
  intros f r text res E N fuel L. rewrite <- E. apply parse_fuel_mono; [exact L|]. rewrite E. exact N.
Qed.

Theorem peg_word_atoms : forall fuel, 40 <= fuel ->
    parse G fuel PG_bool "true" = Ok (mkst 4 "" stack_new [Node PG_bool 0 4 []]) /\
    parse G fuel PG_bool "false" = Ok (mkst 5 "" stack_new [Node PG_bool 0 5 []]) /\
    parse G fuel PG_null "null" = Ok (mkst 4 "" stack_new [Node PG_null 0 4 []]).
Proof.
  intros fuel L. repeat split.
  - apply (parse_by_computation 40); [vm_compute; reflexivity|discriminate|exact L].
  - apply (parse_by_computation 40); [vm_compute; reflexivity|discriminate|exact L].
  - apply (parse_by_computation 40); [vm_compute; reflexivity|discriminate|exact L].
Qed.

(* ------------------------------------------------------------------ numbers *)
Theorem peg_number_atom : exists n, forall t fuel,
    NG.gen_number t = Some "" -> n + String.length t <= fuel ->
    parse G fuel PG_number t = Ok (mkst (slen t) "" stack_new [Node PG_number 0 (slen t) []]).
Proof.
  destruct peg_number_language as [n H]. exists n. intros t fuel E Hf.
  rewrite (H t fuel Hf), E. unfold slen at 2 4. simpl String.length. rewrite N.sub_0_r. reflexivity.
Qed.
