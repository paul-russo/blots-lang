(* PrattStripProofs.v — comments never change the parsed program (token level): for every table,
   every fuel and every token stream, the conversion of the stream with all comment pairs and
   comment annotations removed equals the conversion of the stream itself (same Ok / Err / Panic /
   out-of-fuel outcome, same tree). *)
From Coq Require Import String List Bool Arith Lia.
Require Import Blots.Num Blots.gen.Builtins Blots.Ast Blots.Outcome Blots.PrattTypes Blots.Pratt
               Blots.PrattStrip Blots.proofs.PrattSteps.
Import ListNotations.
Local Open Scope nat_scope.
Local Open Scope list_scope.

Lemma strip_IExpr : forall b g, strip_item (IExpr b g) = IExpr b (strip_items g).
Proof. reflexivity. Qed.
Lemma strip_IList : forall els, strip_item (IList els) = IList (strip_lels els).
Proof. reflexivity. Qed.
Lemma strip_IRecord : forall els, strip_item (IRecord els) = IRecord (strip_rels els).
Proof. reflexivity. Qed.
Lemma strip_ILambda : forall a g, strip_item (ILambda a g) = ILambda a (strip_items g).
Proof. reflexivity. Qed.
Lemma strip_ICond : forall c t e, strip_item (ICond c t e) = ICond (strip_items c) (strip_items t) (strip_items e).
Proof. reflexivity. Qed.
Lemma strip_IDo : forall els, strip_item (IDo els) = IDo (strip_dels els).
Proof. reflexivity. Qed.
Lemma strip_IAssign : forall x v, strip_item (IAssign x v) = IAssign x (strip_items v).
Proof. reflexivity. Qed.
Lemma strip_IAccess : forall g, strip_item (IAccess g) = IAccess (strip_items g).
Proof. reflexivity. Qed.
Lemma strip_ICall : forall args, strip_item (ICall args) = ICall (strip_args args).
Proof. reflexivity. Qed.

Lemma item_op_strip : forall i, item_op (strip_item i) = item_op i.
Proof. destruct i; reflexivity. Qed.

Definition srest (x : tres * list item) : tres * list item := (fst x, strip_items (snd x)).

Section Strip.
  Variable tbl : ops_map.
  Variable imap : list (oprule * binop).
  Variable pmap : list (oprule * prefix_ctor).
  Notation pexpr' := (pexpr tbl imap pmap).
  Notation ploop' := (ploop tbl imap pmap).
  Notation mpost' := (map_postfix tbl imap pmap).
  Notation primary' := (primary tbl imap pmap).
  Notation parse' := (parse_items tbl imap pmap).

  Lemma lbp_strip : forall its, lbp tbl (strip_items its) = lbp tbl its.
  Proof. destruct its as [|i its]; [reflexivity|]. cbn [strip_items lbp]. rewrite item_op_strip. reflexivity. Qed.

  (* element loops, given that the converter of nested streams is insensitive *)
  Section LoopsStrip.
    Variable parse : list item -> outcome tres.
    Hypothesis Hp : forall g, parse (strip_items g) = parse g.

    Lemma omapM_strip : forall args, omapM parse (strip_args args) = omapM parse args.
    Proof.
      induction args as [|g args IH]; [reflexivity|].
      cbn [strip_args omapM]. rewrite Hp. destruct (parse g) as [[e|]| | | |]; cbn; try reflexivity.
      rewrite IH. reflexivity.
    Qed.
    Lemma list_loop_strip : forall els, list_loop parse (strip_lels els) = list_loop parse els.
    Proof.
      induction els as [|[s|g eol] els IH]; [reflexivity | exact IH |].
      cbn [strip_lels list_loop]. rewrite Hp. destruct (parse g) as [[e|]| | | |]; cbn; try reflexivity.
      rewrite IH. reflexivity.
    Qed.
    Lemma key_of_strip : forall k, key_of parse (strip_key k) = key_of parse k.
    Proof. destruct k; try reflexivity. cbn [strip_key key_of]. rewrite Hp. reflexivity. Qed.
    Lemma rec_loop_strip : forall els, rec_loop parse (strip_rels els) = rec_loop parse els.
    Proof.
      induction els as [|[s|k v eol|s eol|g eol] els IH]; [reflexivity | exact IH | | |].
      - cbn [strip_rels rec_loop]. rewrite key_of_strip.
        destruct (key_of parse k) as [[key|]| | | |]; cbn; try reflexivity.
        rewrite Hp. destruct (parse v) as [[val|]| | | |]; cbn; try reflexivity. rewrite IH. reflexivity.
      - cbn [strip_rels rec_loop]. rewrite IH. reflexivity.
      - cbn [strip_rels rec_loop]. rewrite Hp. destruct (parse g) as [[e|]| | | |]; cbn; try reflexivity.
        rewrite IH. reflexivity.
    Qed.
    Lemma do_loop_strip : forall els stmts ret,
      do_loop parse (strip_dels els) stmts ret = do_loop parse els stmts ret.
    Proof.
      induction els as [|[g c|s c|g|s] els IH]; intros stmts ret; [reflexivity | | apply IH | | apply IH].
      - cbn [strip_dels do_loop]. rewrite Hp. destruct (parse g) as [[e|]| | | |]; cbn; try reflexivity. apply IH.
      - cbn [strip_dels do_loop]. rewrite Hp. destruct (parse g) as [[e|]| | | |]; cbn; try reflexivity. apply IH.
    Qed.
  End LoopsStrip.

  Definition P_pexpr (f : nat) := forall rbp its, pexpr' f rbp (strip_items its) = omap srest (pexpr' f rbp its).
  Definition P_ploop (f : nat) := forall rbp lhs its, ploop' f rbp lhs (strip_items its) = omap srest (ploop' f rbp lhs its).
  Definition P_post (f : nat) := forall lhs i, mpost' f lhs (strip_item i) = mpost' f lhs i.
  Definition P_prim (f : nat) := forall i, primary' f (strip_item i) = primary' f i.
  Definition P_parse (f : nat) := forall its, parse' f (strip_items its) = parse' f its.

  Lemma strip_all : forall f, P_pexpr f /\ P_ploop f /\ P_post f /\ P_prim f /\ P_parse f.
  Proof.
    induction f as [|f (IHe & IHl & IHpo & IHpr & IHpa)].
    - repeat split; intro; intros; reflexivity.
    - assert (He : P_pexpr (S f)).
      { intros rbp its. rewrite !pexpr_S. destruct its as [|i rest]; [reflexivity|].
        cbn [strip_items]. rewrite item_op_strip.
        destruct (item_op i) as [r|] eqn:Eop.
        - destruct (ops_get tbl r) as [[[| |a] p]|]; try reflexivity.
          rewrite IHe. destruct (pexpr' f (p - 1) rest) as [[r1 rest1]| | | |]; try reflexivity.
          cbn [omap obind srest fst snd].
          destruct (map_prefix pmap r r1) as [e| | | |]; try reflexivity.
          cbn [obind fst snd]. apply IHl.
        - rewrite IHpr. destruct (primary' f i) as [e| | | |]; try reflexivity.
          cbn [obind fst snd]. apply IHl. }
      assert (Hl : P_ploop (S f)).
      { intros rbp lhs its. rewrite !ploop_S, lbp_strip.
        destruct (lbp tbl its) as [l| | | |]; try reflexivity. cbn [obind].
        destruct (Nat.ltb rbp l); [|reflexivity].
        destruct its as [|i rest]; [reflexivity|]. cbn [strip_items]. rewrite item_op_strip.
        destruct (item_op i) as [r|]; [|reflexivity].
        destruct (ops_get tbl r) as [[[| |a] p]|]; try reflexivity.
        - rewrite IHpo. destruct (mpost' f lhs i) as [e| | | |]; try reflexivity. cbn [obind]. apply IHl.
        - rewrite IHe. destruct (pexpr' f (match a with ALeft => p | ARight => p - 1 end) rest) as [[r1 rest1]| | | |];
            try reflexivity.
          cbn [omap obind srest fst snd].
          destruct (map_infix imap lhs r r1) as [e| | | |]; try reflexivity. cbn [obind]. apply IHl. }
      assert (Hpa : P_parse (S f)).
      { intros its. rewrite !parse_S, IHe. destruct (pexpr' f 0 its) as [[r rest]| | | |]; reflexivity. }
      assert (Hpo : P_post (S f)).
      { intros lhs i. destruct i; try reflexivity.
        - rewrite strip_IAccess. cbn [map_postfix]. rewrite IHpa. reflexivity.
        - rewrite strip_ICall. cbn [map_postfix]. rewrite (omapM_strip (parse' f) IHpa). reflexivity. }
      assert (Hpr : P_prim (S f)).
      { intros i. destruct i; try reflexivity.
        - rewrite strip_IExpr. cbn [primary]. apply IHpa.
        - rewrite strip_IList. cbn [primary]. rewrite (list_loop_strip (parse' f) IHpa). reflexivity.
        - rewrite strip_IRecord. cbn [primary]. rewrite (rec_loop_strip (parse' f) IHpa). reflexivity.
        - rewrite strip_ILambda. cbn [primary]. rewrite IHpa. reflexivity.
        - rewrite strip_ICond. cbn [primary]. rewrite !IHpa. reflexivity.
        - rewrite strip_IDo. cbn [primary]. apply (do_loop_strip (parse' f) IHpa).
        - rewrite strip_IAssign. cbn [primary]. rewrite IHpa. reflexivity. }
      repeat split; assumption.
  Qed.

  Theorem comments_irrelevant : forall fuel its,
    parse' fuel (strip_items its) = parse' fuel its.
  Proof. intros fuel its. exact (proj2 (proj2 (proj2 (proj2 (strip_all fuel)))) its). Qed.
End Strip.
