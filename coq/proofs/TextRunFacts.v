(* TextRunFacts.v — facts about coq/TextRun.v (program TEXT -> outputs as one model) that follow by composition
   from the theorems about its stages:
     - the PEG stage never runs out of fuel (PegFuelBlots.blots_peg_total) and its result does not depend on the
       fuel above [peg_fuel text]               => [run_text_res] is never TParseFuel, is fuel-independent;
     - the evaluator over the complete dispatcher never answers Unmodelled (AllNoUnm)
                                                => the only Unmodelled in a text run is the Pratt MODEL's own fuel
                                                   ([TGlueFuel], counted by the TEXT-EVAL stream: 0);
     - every pair lies inside the text (PegGeneric.parse_spans_inside_text)
                                                => the span of every statement the loop executes, hence every slice
                                                   `as_str()` the glue reads, lies inside the text. *)
From Coq Require Import String Ascii List NArith ZArith Bool Lia.
Require Import Blots.Peg Blots.gen.Grammar Blots.PegToItems Blots.proofs.PegGeneric Blots.proofs.PegFuelBlots.
Require Import Blots.Num Blots.gen.Builtins Blots.Ast Blots.Value Blots.Outcome Blots.Env Blots.Eval
               Blots.Program Blots.EvalInst Blots.EvalFull Blots.EvalAll Blots.AllRun Blots.TextRun.
Require Import Blots.proofs.NoPanic Blots.proofs.AllNoUnmEval Blots.proofs.AllNoUnm.
Import ListNotations.

(* ------------------------------------------------------------------ the parse stage is total *)
(* one-step unfoldings as equations: rewriting with them keeps Coq's conversion away from [Peg.parse] applied to
   the concrete grammar (comparing the folded and unfolded forms by conversion does not terminate in practice) *)
Lemma parse_text_stmts_unfold : forall text, parse_text_stmts text = parse_text_stmts_fuel (peg_fuel text) text.
Proof. intro text. unfold parse_text_stmts. reflexivity. Qed.
Lemma parse_text_ast_unfold : forall text, parse_text_ast text = parse_text_ast_fuel (peg_fuel text) text.
Proof. intro text. unfold parse_text_ast. reflexivity. Qed.
Lemma run_text_res_unfold : forall eval inputs text,
    run_text_res eval inputs text = run_text_res_fuel eval (peg_fuel text) inputs text.
Proof. intros. unfold run_text_res. reflexivity. Qed.

Lemma parse_text_stmts_fuel_not_fuel : forall fuel text,
    Peg.parse blots_grammar fuel PG_input text <> Peg.OutOfFuel -> parse_text_stmts_fuel fuel text <> TIFuel.
Proof.
  intros fuel text H. unfold parse_text_stmts_fuel.
  destruct (Peg.parse blots_grammar fuel PG_input text); try discriminate. exfalso; apply H; reflexivity.
Qed.
Theorem parse_text_stmts_total : forall text, parse_text_stmts text <> TIFuel.
Proof.
  intro text. rewrite parse_text_stmts_unfold. apply parse_text_stmts_fuel_not_fuel. apply blots_peg_total.
Qed.

Lemma parse_text_stmts_fuel_eq : forall f f' text,
    Peg.parse blots_grammar f PG_input text = Peg.parse blots_grammar f' PG_input text ->
    parse_text_stmts_fuel f text = parse_text_stmts_fuel f' text.
Proof. intros f f' text H. unfold parse_text_stmts_fuel. rewrite H. reflexivity. Qed.
Theorem parse_text_stmts_fuel_independent : forall fuel text,
    peg_fuel text <= fuel -> parse_text_stmts_fuel fuel text = parse_text_stmts text.
Proof.
  intros fuel text L. rewrite parse_text_stmts_unfold. apply parse_text_stmts_fuel_eq.
  apply blots_parse_fuel_independent. exact L.
Qed.

Lemma parse_text_ast_fuel_eq : forall f f' text,
    parse_text_stmts_fuel f text = parse_text_stmts_fuel f' text ->
    parse_text_ast_fuel f text = parse_text_ast_fuel f' text.
Proof. intros f f' text H. unfold parse_text_ast_fuel. rewrite H. reflexivity. Qed.
Theorem parse_text_ast_fuel_independent : forall fuel text,
    peg_fuel text <= fuel -> parse_text_ast_fuel fuel text = parse_text_ast text.
Proof.
  intros fuel text L. rewrite parse_text_ast_unfold. apply parse_text_ast_fuel_eq.
  rewrite (parse_text_stmts_fuel_independent fuel text L). apply parse_text_stmts_unfold.
Qed.

Lemma run_text_res_fuel_not_fuel : forall eval fuel inputs text,
    parse_text_stmts_fuel fuel text <> TIFuel -> run_text_res_fuel eval fuel inputs text <> TParseFuel.
Proof.
  intros eval fuel inputs text H. unfold run_text_res_fuel.
  destruct (parse_text_stmts_fuel fuel text); try discriminate. exfalso; apply H; reflexivity.
Qed.
Theorem run_text_never_parse_fuel : forall eval inputs text, run_text_res eval inputs text <> TParseFuel.
Proof.
  intros eval inputs text. rewrite run_text_res_unfold. apply run_text_res_fuel_not_fuel.
  rewrite <- parse_text_stmts_unfold. apply parse_text_stmts_total.
Qed.

Lemma run_text_res_fuel_eq : forall eval f f' inputs text,
    parse_text_stmts_fuel f text = parse_text_stmts_fuel f' text ->
    run_text_res_fuel eval f inputs text = run_text_res_fuel eval f' inputs text.
Proof. intros eval f f' inputs text H. unfold run_text_res_fuel. rewrite H. reflexivity. Qed.
Theorem run_text_fuel_independent : forall eval fuel inputs text,
    peg_fuel text <= fuel -> run_text_res_fuel eval fuel inputs text = run_text_res eval inputs text.
Proof.
  intros eval fuel inputs text L. rewrite run_text_res_unfold. apply run_text_res_fuel_eq.
  rewrite (parse_text_stmts_fuel_independent fuel text L). apply parse_text_stmts_unfold.
Qed.

(* ------------------------------------------------------------------ a property of every statement of a text *)
Section StmtsForall.
  Variable text : string.
  Variable P : text_stmt -> Prop.

  (* Q: what is asked of a `statement` pair for its text statement to satisfy P *)
  Lemma stmts_of_forest_Forall : forall (Q : nat -> tree grule -> Prop),
    (forall cf t r, Q cf t -> text_stmt_of text cf t = Some r -> P r) ->
    forall forest,
    Forall (fun t => is_rule PG_statement t = true -> Q (forest_conv_fuel forest) t) forest ->
    Forall P (stmts_of_forest text forest).
  Proof.
    intros Q HP forest. unfold stmts_of_forest. generalize (forest_conv_fuel forest) as cf. intro cf.
    induction 1 as [|t l Ht _ IH]; cbn [flat_map]; [constructor|].
    apply Forall_app. split; [|exact IH].
    destruct (is_rule PG_statement t); [|constructor].
    destruct (text_stmt_of text cf t) as [r|] eqn:E; [|constructor].
    constructor; [|constructor]. exact (HP cf t r (Ht eq_refl) E).
  Qed.

  Lemma parse_text_stmts_fuel_Forall :
    (forall cf t r, text_stmt_of text cf t = Some r -> P r) ->
    forall fuel l, parse_text_stmts_fuel fuel text = TIOk l -> Forall P l.
  Proof.
    intros HP fuel l H. unfold parse_text_stmts_fuel in H.
    destruct (Peg.parse blots_grammar fuel PG_input text); try discriminate H.
    injection H as <-. apply (stmts_of_forest_Forall (fun _ _ => True)); [intros cf t r _; apply HP|].
    apply Forall_forall. intros; exact I.
  Qed.
End StmtsForall.

(* ------------------------------------------------------------------ never Unmodelled *)
Section TextNoUnm.
  Variable eval : cfg -> Ast.expr -> result.
  Hypothesis eval_nu : forall c e, wf c -> fst (eval c e) <> Unmodelled.
  Hypothesis eval_keeps : forall c e r c', eval c e = (r, c') -> wf c -> wf c'.

  Lemma run_tstmts_nu : forall l s, wf (s_cfg s) -> Forall (fun t => t <> TGlueFuel) l ->
      Forall (fun rs => fst rs <> RFail Unmodelled) (snd (run_tstmts eval s l)).
  Proof.
    induction l as [|t rest IH]; intros s Hw Hl; cbn [run_tstmts]; [constructor|].
    inversion Hl as [|? ? Ht Hrest]; subst.
    destruct t as [t| | |]; try (cbn [snd]; constructor; [discriminate|constructor]).
    - destruct (exec_stmt eval s t) as [s' r] eqn:E.
      destruct (exec_stmt_nu eval eval_nu eval_keeps _ _ _ _ E Hw) as [Hw' Hr].
      destruct r.
      + specialize (IH s' Hw' Hrest). destruct (run_tstmts eval s' rest) as [s'' rs]. cbn [snd] in *.
        constructor; [discriminate|exact IH].
      + cbn [snd]. constructor; [exact Hr|constructor].
      + cbn [snd]. constructor; [discriminate|constructor].
      + apply IH; assumption.
    - congruence.
  Qed.
End TextNoUnm.

(* on statement lists without glue trouble the text loop IS Program.run *)
Lemma run_tstmts_is_run : forall eval p s, run_tstmts eval s (map TStmt p) = Program.run eval s p.
Proof.
  intros eval. induction p as [|t rest IH]; intro s; cbn [map run_tstmts Program.run]; [reflexivity|].
  destruct (exec_stmt eval s t) as [s' r]. destruct r; rewrite ?IH; reflexivity.
Qed.

Theorem run_text_never_unmodelled : forall o inputs text l,
    parse_text_stmts text = TIOk l -> Forall (fun t => t <> TGlueFuel) l ->
    exists sr, run_text_res (eval_all o) inputs text = TRun sr
               /\ Forall (fun rs => fst rs <> RFail Unmodelled) (snd sr).
Proof.
  intros o inputs text l H Hl. rewrite run_text_res_unfold. unfold run_text_res_fuel.
  rewrite parse_text_stmts_unfold in H. rewrite H.
  eexists. split; [reflexivity|].
  apply run_tstmts_nu; [| |apply init_session_wf|exact Hl].
  - intros c e Hw. apply evalD_all_no_unm. exact Hw.
  - intros c e r c' E Hw. unfold eval_all, eval_top in E. eapply evalD_keeps_wf; eauto.
Qed.

(* ------------------------------------------------------------------ spans inside the text *)
Definition span_inside (hi : N) (t : tree grule) : Prop :=
  match t with Node _ s e _ => (s <= e)%N /\ (e <= hi)%N end.

Lemma forest_ok_inside : forall lo hi l, forest_ok grule lo hi l -> Forall (span_inside hi) l.
Proof.
  induction 1; constructor.
  - simpl. split; [eapply forest_ok_le; eassumption|].
    pose proof (forest_ok_le _ _ _ _ H1). lia.
  - exact IHforest_ok2.
Qed.

(* every top-level pair (statement / EOI) the loop walks over lies inside the text, for every accepted text *)
Theorem text_statement_spans_inside : forall fuel text s',
    Peg.parse blots_grammar fuel PG_input text = Peg.Ok s' ->
    Forall (span_inside (slen text)) (rev (out s')) /\ forest_ok grule 0 (slen text) (rev (out s')).
Proof.
  intros fuel text s' H. destruct (parse_spans_inside_text grule blots_grammar fuel PG_input text s' H) as [F _].
  split; [eapply forest_ok_inside; exact F|exact F].
Qed.
