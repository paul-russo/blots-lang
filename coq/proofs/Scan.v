(* Scan.v — C09 render_scan: scanning the rendered text of a well-formed document for comments
   (outside string literals) yields exactly the comments the document shows, in order. *)
From Coq Require Import String Ascii List ZArith Bool Lia.
Require Import Blots.Num Blots.gen.Builtins Blots.Ast Blots.Formatter Blots.proofs.StringFacts.
Import ListNotations.
Open Scope list_scope.

Lemma srun_app : forall a b st,
  srun st (a +++ b) = let (o1, st1) := srun st a in let (o2, st2) := srun st1 b in (o1 ++ o2, st2).
Proof.
  induction a as [|c a IH]; intros b st; cbn [String.append srun].
  - destruct (srun st b); reflexivity.
  - destruct (sstep st c) as [o st']. rewrite IH.
    destruct (srun st' a) as [o1 st1]. destruct (srun st1 b) as [o2 st2].
    now rewrite app_assoc.
Qed.

Lemma scan_from_neutral : forall s rest, neutral s -> scan_from SCode (s +++ rest) = scan_from SCode rest.
Proof.
  intros s rest H. unfold scan_from. rewrite srun_app. unfold neutral in H. rewrite H.
  destruct (srun SCode rest); reflexivity.
Qed.

Lemma scan_from_nl : forall rest, scan_from SCode (nl +++ rest) = scan_from SCode rest.
Proof. intros. unfold scan_from, nl. cbn. destruct (srun SCode rest); reflexivity. Qed.

Lemma scan_from_comment_nl : forall c rest, is_comment_text c ->
  scan_from SCode (c +++ nl +++ rest) = c :: scan_from SCode rest.
Proof.
  intros c rest H. unfold scan_from. rewrite srun_app. unfold is_comment_text in H. rewrite H.
  unfold nl. cbn. destruct (srun SCode rest); reflexivity.
Qed.

Lemma scan_from_comment_end : forall c, is_comment_text c -> scan_from SCode c = [c].
Proof. intros c H. unfold scan_from. unfold is_comment_text in H. now rewrite H. Qed.

Theorem render_scan : forall d, wf_doc d -> scan_comments (render d) = doc_comments d.
Proof.
  unfold scan_comments.
  (* a comment is checked together with the line break after it: two pieces at once, so the
     recursion is on the tail of the tail *)
  fix IH 1. intros d H. destruct d as [|p r]; [reflexivity|].
  destruct p as [s|e s|c| |e s].
  - destruct H as [Hn Hr]. cbn [render render_piece]. rewrite (scan_from_neutral _ _ Hn). exact (IH r Hr).
  - destruct H as [Hn Hr]. cbn [render render_piece]. rewrite (scan_from_neutral _ _ Hn). exact (IH r Hr).
  - destruct H as [Hc Hr]. destruct r as [|q r'].
    + cbn. rewrite append_nil_r. now apply scan_from_comment_end.
    + destruct q; try contradiction.
      change (render (Comment c :: Nl :: r')) with (c +++ nl +++ render r').
      rewrite (scan_from_comment_nl _ _ Hc).
      change (doc_comments (Comment c :: Nl :: r')) with (c :: doc_comments r').
      f_equal. apply IH. exact Hr.
  - cbn [render render_piece]. rewrite scan_from_nl. exact (IH r H).
  - destruct H as [Hn Hr]. cbn [render render_piece]. rewrite (scan_from_neutral _ _ Hn). exact (IH r Hr).
Qed.

(* the hypothesis is not vacuous and the scanner sees through string literals *)
Example render_scan_example :
  let d := [Code "x = "; Opaque (EStr "a//b") """a//b"""; Code "  "; Comment "// c ""q"; Nl;
            Comment "// d"] in
  wf_doc d /\ scan_comments (render d) = ["// c ""q"; "// d"].
Proof. cbn. repeat split. Qed.

