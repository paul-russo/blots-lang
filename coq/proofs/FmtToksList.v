(* FmtToksList.v — the list family at the VIEW level (property C07).

   format_list_multiline prints `,` after EVERY element, expr_to_source between elements: with
   chunk-equal elements the two chunk lists differ exactly by one `,` before the final `]`, which
   `canon` drops (FmtToksCanon.canon_trailing).  Family theorem with the elements' equalities as
   hypotheses (`lchild_ok`), any printer version and policy, every width and indentation. *)
From Coq Require Import String Ascii List Bool Arith Lia.
Require Import Blots.Num Blots.Ast Blots.PrattRender Blots.Printer Blots.Formatter Blots.FmtTokens
               Blots.proofs.FmtdInd Blots.proofs.StringFacts Blots.proofs.FmtToks Blots.proofs.FmtToksDoc Blots.proofs.FmtToksAll Blots.proofs.FmtToksBin
               Blots.proofs.FmtToksCanon.
Import ListNotations.
Local Open Scope list_scope.

Fixpoint joinc (l : list (list string)) : list string :=
  match l with
  | [] => []
  | [x] => x
  | x :: r => x ++ [","%string] ++ joinc r
  end.

Lemma sjoin_same : forall sep l, Formatter.sjoin sep l = PrattRender.sjoin sep l.
Proof.
  intros sep l. induction l as [|x l IH]; [reflexivity|]. destruct l as [|y r]; [reflexivity|].
  change (Formatter.sjoin sep (x :: y :: r)) with (x +++ sep +++ Formatter.sjoin sep (y :: r)).
  change (PrattRender.sjoin sep (x :: y :: r)) with (x +++ sep +++ PrattRender.sjoin sep (y :: r)).
  now rewrite IH.
Qed.

(* every element followed by a comma = the elements joined by commas, and one more comma *)
Lemma trailing_join : forall {X} (f : X -> list string) r x,
  flat_map (fun a => f a ++ [","%string]) (x :: r) = joinc (map f (x :: r)) ++ [","%string].
Proof.
  induction r as [|y r IH]; intro x.
  - cbn [flat_map map joinc]. now rewrite app_nil_r.
  - change (flat_map (fun a => f a ++ [","%string]) (x :: y :: r))
      with ((f x ++ [","%string]) ++ flat_map (fun a => f a ++ [","%string]) (y :: r)).
    rewrite (IH y). change (joinc (map f (x :: y :: r))) with (f x ++ [","%string] ++ joinc (map f (y :: r))).
    now rewrite <- !app_assoc.
Qed.

(* the chunks of texts joined by ", " after an opening part A and before a closing bracket *)
Lemma toks_sjoin : forall l A closer, l <> [] -> ends_closed A = true ->
  Forall (fun s => ends_code s = true) l -> starts_break closer = true ->
  toks (A +++ PrattRender.sjoin ", " l +++ closer) = toks A ++ joinc (map toks l) ++ toks closer.
Proof.
  intros l A closer Hl. destruct l as [|t ts]; [contradiction|]. clear Hl. revert t A.
  induction ts as [|y ts IH]; intros t A HA HF Hb; inversion HF as [|? ? Et HF']; subst.
  - cbn [PrattRender.sjoin map joinc].
    rewrite (toks_app_closed A _ HA), (toks_app_break t closer Et Hb). reflexivity.
  - change (PrattRender.sjoin ", " (t :: y :: ts)) with (t +++ ", " +++ PrattRender.sjoin ", " (y :: ts)).
    change (joinc (map toks (t :: y :: ts))) with (toks t ++ [","%string] ++ joinc (map toks (y :: ts))).
    set (S' := PrattRender.sjoin ", " (y :: ts)).
    set (A' := A +++ t +++ ", ").
    assert (EQ : A +++ (t +++ ", " +++ S') +++ closer = A' +++ S' +++ closer)
      by (unfold A'; rewrite !append_assoc; reflexivity).
    destruct (kw_suffix t ", " Et eq_refl eq_refl) as [K1 [K2 K3]].
    assert (Bd : boundary A (t +++ ", ") = true).
    { unfold boundary. unfold ends_closed in HA. apply andb_prop in HA. destruct HA as [H1 H2].
      rewrite H1. unfold ends_closed. rewrite H1, H2. reflexivity. }
    assert (TA : toks A' = toks A ++ toks t ++ [","%string]).
    { unfold A'. rewrite (toks_app_boundary _ _ Bd), (toks_app_break t ", " Et eq_refl). reflexivity. }
    assert (CA : ends_closed A' = true).
    { unfold A'. rewrite (ends_closed_tst _ (t +++ ", ")); [rewrite K2; reflexivity|].
      apply tst_boundary; [exact Bd|]. destruct t; discriminate. }
    rewrite EQ. unfold S'. rewrite (IH y A' CA HF' Hb), TA. now rewrite <- !app_assoc.
Qed.

Section ListFam.
  Variable fx : fixes.
  Variable pol : policy.
  Variable numtxt : num -> string.
  Variable keepc : bool.
  Variable w : nat.
  Notation O := (printer_oracles fx pol numtxt keepc).
  Notation pt := (print_text fx pol numtxt).
  Notation fd := (fmtd O w).

  Definition Tc (c : commented expr) : list string := toks (pt (cnode c)).
  Definition lchild_ok (x : expr) : Prop :=
    tok_ok O x = true /\ fsl O x = pt x /\ forall j, toks (render (fd x j)) = toks (pt x).
  Definition go_texts (items : list (commented expr)) : list string :=
    (fix go (l : list (commented expr)) : list string :=
       match l with [] => [] | Cm _ x _ :: l' => pt x :: go l' end) items.

  Lemma go_texts_map : forall items, go_texts items = map (fun c => pt (cnode c)) items.
  Proof. induction items as [|[lead x tr] items IH]; [reflexivity|]. cbn [map cnode]. now rewrite <- IH. Qed.

  Ltac norm := repeat (progress (repeat rewrite <- app_assoc; cbn [app])).

  Lemma L_items : forall items inner, plain_items items = true ->
    Forall (fun c => lchild_ok (cnode c)) items ->
    flat_map piece_toks (list_items_doc fd items inner) = flat_map (fun c => Tc c ++ [","%string]) items.
  Proof.
    induction items as [|[lead x tr] items IH]; intros inner Hp HF; [reflexivity|].
    inversion HF as [|? ? Hx HF']; subst. cbn [cnode] in Hx. destruct Hx as [Hk [_ HS]].
    cbn [plain_items] in Hp. destruct lead; [|discriminate]. destruct tr; [discriminate|].
    cbn [list_items_doc leading_doc trailing_doc flat_map]. norm.
    rewrite fm_nl, fm_ind, flat_map_app, (pieces_toks fx pol numtxt keepc w x inner Hk), HS, fm_code.
    rewrite (IH inner Hp HF'). reflexivity.
  Qed.

  Lemma fsl_list : forall items, plain_items items = true ->
    Forall (fun c => lchild_ok (cnode c)) items -> fsl O (EList items) = pt (EList items).
  Proof.
    intros items Hp HF. cbn [fsl print_text].
    assert (Hc : existsb has_comments items = false).
    { clear HF. induction items as [|[lead x tr] items IH]; [reflexivity|].
      cbn [plain_items] in Hp. destruct lead; [|discriminate]. destruct tr; [discriminate|].
      cbn [existsb]. rewrite (IH Hp). reflexivity. }
    rewrite Hc, sjoin_same.
    assert (EL : map (fun c : commented expr => fsl O (cnode c)) items = go_texts items).
    { clear Hc Hp. induction items as [|[lead x tr] items IH]; [reflexivity|].
      inversion HF as [|? ? Hx HF']; subst. cbn [cnode] in Hx. destruct Hx as [_ [E _]].
      change (go_texts (Cm lead x tr :: items)) with (pt x :: go_texts items).
      cbn [map cnode]. rewrite E, (IH HF'). reflexivity. }
    rewrite EL. reflexivity.
  Qed.

  Theorem list_family : forall items i, plain_items items = true ->
    tok_ok O (EList items) = true ->
    Forall (fun c => lchild_ok (cnode c)) items ->
    last ("["%string :: joinc (map Tc items)) ""%string <> ","%string ->
    lview (render (fd (EList items) i)) = lview (pt (EList items)).
  Proof.
    intros items i Hp Hk HF Hlast.
    rewrite fmtd_eq. unfold impl_doc.
    match goal with |- context [if ?b then _ else _] => destruct b end.
    { rewrite opaque_toks, (fsl_list items Hp HF). reflexivity. }
    unfold multiline_doc, lview.
    assert (Hd : dok true (list_doc fd items i) = true).
    { destruct items as [|c items]; [reflexivity|].
      apply dok_list_doc; [exact Hp|].
      clear - HF. induction HF as [|c' l [Hk' _] _ IH]; constructor; [|exact IH].
      exact (dok_fmtd_all O w (cnode c') Hk'). }
    rewrite (proj1 (doc_toks _ Hd)).
    destruct items as [|c items].
    - reflexivity.
    - unfold list_doc. norm. rewrite fm_code, flat_map_app, (L_items _ _ Hp HF), trailing_join.
      rewrite fm_nl, fm_ind, fm_code. cbn [flat_map app].
      change (pt (EList (c :: items))) with ("[" +++ PrattRender.sjoin ", " (go_texts (c :: items)) +++ "]").
      assert (HE : Forall (fun s => ends_code s = true) (map (fun c => pt (cnode c)) (c :: items))).
      { apply Forall_map. eapply Forall_impl; [|exact HF]. intros x [Hx _].
        exact (proj1 (proj2 (node_of fx pol numtxt keepc _ Hx))). }
      assert (NE : map (fun c => pt (cnode c)) (c :: items) <> []) by discriminate.
      rewrite go_texts_map, (toks_sjoin _ "[" "]" NE eq_refl HE eq_refl), map_map.
      change (map (fun c => toks (pt (cnode c))) (c :: items)) with (map Tc (c :: items)).
      change (toks "[") with ["["%string]. change (toks "]") with ["]"%string].
      cbn [app]. rewrite <- app_assoc. cbn [app].
      exact (canon_trailing ("["%string :: joinc (map Tc (c :: items))) "]" eq_refl (or_intror Hlast)).
  Qed.
End ListFam.
