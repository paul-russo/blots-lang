(* EmitHOTop.v — C05: the higher-order portability theorems for the evaluator.
   Instances of EmitHOSim.ho_simulation with the transcribed operators / built-ins (EmitHOOps.v),
   and the corollaries: emission equivalence for closures capturing closures to any depth,
   re-emission chains, first-order results are EQUAL, function results are RELATED; and the
   refutation of the statement without the function-equality exclusion (finding F53). *)
From Coq Require Import String Ascii List ZArith Bool Lia.
Require Import Blots.Num Blots.gen.Builtins Blots.Ast Blots.Value Blots.Outcome Blots.Binop
               Blots.Env Blots.Eval Blots.Emit Blots.BuiltinsHof Blots.Program Blots.EvalInst Blots.EvalFull
               Blots.proofs.ValueInd Blots.proofs.EmitLit Blots.proofs.EmitSubst Blots.proofs.EmitSound
               Blots.proofs.EmitHO Blots.proofs.EmitHOSim Blots.proofs.EmitHOOps Blots.proofs.RelPure.
Import ListNotations.
Open Scope string_scope.
Open Scope list_scope.

Lemma lf_no_function : forall v, lf v = true -> BuiltinsText.has_function v = false.
Proof.
  induction v using value_ind'; cbn; intros Hlf; try reflexivity; try discriminate; auto.
  - induction H as [|x l Hx _ IH]; [reflexivity|]. cbn in *. apply andb_prop in Hlf as [A B]. now rewrite Hx, IH.
  - induction H as [|[k x] l Hx _ IH]; [reflexivity|]. cbn in *. apply andb_prop in Hlf as [A B]. now rewrite Hx, IH.
Qed.

(* ---- [vrelG] is a structural value relation in the sense of RelPure.v ---- *)
Section Structural.
  Variable opok : binop -> bool.
  Variable biok : builtin -> bool.
  Variable nanfix : bool.
  Variable numok : num -> bool.
  Variable strok : string -> bool.
  Notation vrel := (vrelG opok biok nanfix numok strok).

  Lemma vrel_inv : forall v v', vrel v v' ->
    match v with
    | VNum x => v' = VNum x
    | VBool b => v' = VBool b
    | VNull => v' = VNull
    | VStr s => v' = VStr s
    | VList l => exists l', v' = VList l' /\ Forall2 vrel l l'
    | VRec r => exists r', v' = VRec r' /\ Forall2 (RRf vrel) r r'
    | VLam _ _ _ _ => exists id' ps' b' sc', v' = VLam id' ps' b' sc'
    | VBuiltin b => v' = VBuiltin b
    | VSpread w => exists w', v' = VSpread w' /\ vrel w w'
    end.
  Proof.
    intros v v' H. destruct H; try reflexivity.
    - eexists; split; [reflexivity|assumption].
    - eexists; split; [reflexivity|assumption].
    - eexists; split; [reflexivity|assumption].
    - repeat eexists.
  Qed.
  Lemma vrel_list : forall l l', Forall2 vrel l l' -> vrel (VList l) (VList l').
  Proof. intros. constructor. assumption. Qed.
  Lemma vrel_rec : forall r r', Forall2 (RRf vrel) r r' -> vrel (VRec r) (VRec r').
  Proof. intros. constructor. assumption. Qed.

  (* the shortcut of RelPure.v: a value with no function inside is related to itself only *)
  Theorem vrel_nofun_eq : forall v v', vrel v v' -> BuiltinsText.has_function v = false -> v = v'.
  Proof. exact (R_nofun_eq vrel vrel_inv). Qed.
  (* data is related to itself only: a lambda-free left value determines the right value *)
  Lemma vrel_lf_eq : forall v v', vrel v v' -> lf v = true -> v = v'.
  Proof. intros v v' H Hlf. exact (vrel_nofun_eq v v' H (lf_no_function v Hlf)). Qed.
End Structural.

(* ---- the operators: every one that does not apply Value::equals, whatever bodies may mention ---- *)
Lemma binop_impl_rel opok biok nanfix numok strok cb cb' op l l' r r' st st' : eqfree op = true ->
  cb_rel_on (vrelG opok biok nanfix numok strok) cb cb' ->
  vrelG opok biok nanfix numok strok l l' -> vrelG opok biok nanfix numok strok r r' ->
  orelG opok biok nanfix numok strok (fst (binop_impl cb op l r st)) (fst (binop_impl cb' op l' r' st')).
Proof.
  intros Hop Hcb Hl Hr. unfold binop_impl.
  destruct op; try discriminate; try exact I; apply eval_binop_rel; auto.
Qed.

(* ---- the instance: transcribed operators without Value::equals, built-ins of biok_inst ---- *)
Definition opok_inst : binop -> bool := eqfree.

Lemma impl_rel_instG nanfix numok strok :
  impl_rel_on opok_inst biok_inst (vrelG opok_inst biok_inst nanfix numok strok) binop_impl builtin_impl.
Proof.
  split.
  - intros. apply binop_impl_rel; assumption.
  - intros. apply builtin_impl_rel; assumption.
Qed.
Lemma impl_rel_fullG nanfix numok strok :
  impl_rel_on opok_inst biok_inst (vrelG opok_inst biok_inst nanfix numok strok) binop_impl builtin_full.
Proof.
  split.
  - intros. apply binop_impl_rel; assumption.
  - intros. apply builtin_full_rel; assumption.
Qed.

(* ---- emission equivalence, for any relation [R] that coincides with an instance of [vrelG]:
   results are equal when first-order, related when functions; same error class; same depth verdict ---- *)
Theorem emit_equiv_same_args_via (R : value -> value -> Prop) opok biok nanfix numok strok release
    binop_impl builtin_impl :
  (forall v v', R v v' <-> vrelG opok biok nanfix numok strok v v') ->
  leaves_eval nanfix numok strok release binop_impl ->
  impl_rel_on opok biok R binop_impl builtin_impl ->
  forall d fr fr' this this' id id' ps b sc args st st' r,
    emit_okG opok biok numok strok (VLam id ps b sc) = true ->
    forallb (emit_okG opok biok numok strok) args = true ->
    fst (AD release binop_impl builtin_impl d fr this (VLam id ps b sc) args st) = r ->
    exists r', fst (AD release binop_impl builtin_impl d fr' this'
                       (VLam id' ps (subst true (scope_map nanfix true sc) b) []) args st') = r' /\
      orel_gen R r r' /\ (forall v, r = Ok v -> lf v = true -> r' = Ok v) /\ (r = ErrDepth <-> r' = ErrDepth).
Proof.
  intros HR Hleaves Himpl d fr fr' this this' id id' ps b sc args st st' r Hok Hargs Hr.
  eexists. split; [reflexivity|].
  assert (Ha : Forall2 R args args).
  { clear - Hargs HR. induction args as [|x l IH]; [constructor|]. cbn in Hargs. apply andb_prop in Hargs as [A B].
    constructor; [apply HR, emit_ok_refl; exact A|apply IH; exact B]. }
  pose proof (ho_simulation_via R _ _ _ _ _ _ _ _ HR Hleaves Himpl d fr fr' this this' _ _ args args st st'
                (proj2 (HR _ _) (reload_rel opok biok nanfix numok strok id id' ps b sc Hok)) Ha) as H.
  rewrite Hr in H. split; [exact H|]. split.
  - intros v -> Hlf. destruct (fst (AD _ _ _ d fr' this' _ args st')); cbn in H; try contradiction.
    f_equal. symmetry. apply HR in H. eapply vrel_lf_eq; eauto.
  - destruct r, (fst (AD _ _ _ d fr' this' _ args st')); cbn in H; try contradiction; split; intros; try discriminate; reflexivity.
Qed.

(* ---------------------------------------------------------------- [vrel]: no NaN, no string with both quote kinds *)
Notation vrelI := (vrel opok_inst biok_inst).
Notation orelI := (orel opok_inst biok_inst).
Notation lrelI := (lrel opok_inst biok_inst).
Notation emit_okI := (emit_ok opok_inst biok_inst).

Lemma reload_rel opok biok nanfix id id' ps b sc : emit_ok opok biok (VLam id ps b sc) = true ->
  vrel opok biok nanfix (VLam id ps b sc) (VLam id' ps (subst true (scope_map nanfix true sc) b) []).
Proof. intros Hok. apply vrel_G. apply EmitHO.reload_rel. exact Hok. Qed.

Theorem impl_rel_inst nanfix : impl_rel_respecting opok_inst biok_inst nanfix binop_impl builtin_impl.
Proof. exact (impl_rel_on_iff _ _ _ _ _ _ (fun v v' => iff_sym (vrel_G _ _ _ v v')) (impl_rel_instG _ _ _)). Qed.
Theorem impl_rel_full nanfix : impl_rel_respecting opok_inst biok_inst nanfix binop_impl builtin_full.
Proof. exact (impl_rel_on_iff _ _ _ _ _ _ (fun v v' => iff_sym (vrel_G _ _ _ v v')) (impl_rel_fullG _ _ _)). Qed.

(* the simulation for the evaluator with every transcribed built-in *)
Theorem ho_simulation_full : forall release nanfix d fr fr' this this' f f' args args' st st',
  vrelI nanfix f f' -> lrelI nanfix args args' ->
  orelI nanfix (fst (AD release binop_impl builtin_full d fr this f args st))
               (fst (AD release binop_impl builtin_full d fr' this' f' args' st')).
Proof. intros release nanfix. apply ho_simulation. apply impl_rel_full. Qed.

Theorem emit_equiv_ho_same_args : forall release nanfix d fr fr' this this' id id' ps b sc args st st' r,
  emit_okI (VLam id ps b sc) = true -> forallb emit_okI args = true ->
  fst (AD release binop_impl builtin_full d fr this (VLam id ps b sc) args st) = r ->
  exists r', fst (AD release binop_impl builtin_full d fr' this'
                     (VLam id' ps (subst true (scope_map nanfix true sc) b) []) args st') = r' /\
    orelI nanfix r r' /\ (forall v, r = Ok v -> lf v = true -> r' = Ok v) /\ (r = ErrDepth <-> r' = ErrDepth).
Proof.
  intros release nanfix.
  exact (emit_equiv_same_args_via _ _ _ _ _ _ _ _ _ (vrel_G _ _ nanfix) (leaves_eval_plain _ _ _) (impl_rel_full nanfix)).
Qed.

(* re-emission: emitting the reloaded function again and reloading that gives a function related to
   the ORIGINAL (so chains of any length stay equivalent to the original) *)
Theorem reemit_related : forall nanfix id id1 id2 ps b sc e1 f1 e2 f2,
  emit_okI (VLam id ps b sc) = true ->
  emit_ast nanfix true (VLam id ps b sc) = Some e1 -> reload_ast id1 e1 = Some f1 ->
  emit_ast nanfix true f1 = Some e2 -> reload_ast id2 e2 = Some f2 ->
  e2 = e1 /\ vrelI nanfix (VLam id ps b sc) f1 /\ vrelI nanfix (VLam id ps b sc) f2.
Proof.
  intros nanfix id id1 id2 ps b sc e1 f1 e2 f2 Hok E1 R1 E2 R2.
  destruct (reemit_twice _ _ _ _ _ _ _ _ _ _ _ E1 R1 E2 R2) as (-> & -> & ->).
  split; [reflexivity|]. split; apply reload_rel; assumption.
Qed.

(* ---- finding F53 (the witness is named f52): Value::equals on functions ignores captured values and looks at the body text ----
   mk = a => (y => y + a); k1 = mk(1); k2 = mk(2); f = x => k1 == k2
   f(0) is true (same parameter list, same body AST `y + a`); the emission is
   (x) => ((y) => y + 1) == ((y) => y + 2), whose reloaded form returns false. *)
Definition f52_k (a : Z) : value :=
  VLam 1%nat [AReq "y"] (EBin Add (EId "y") (EId "a")) [("a", VNum (num_of_Z a))].
Definition f52_fun : value :=
  VLam 0%nat [AReq "x"] (EBin Equal (EId "k1") (EId "k2")) [("k1", f52_k 1%Z); ("k2", f52_k 2%Z)].
Lemma f52_refuted :
  closed_after_capture f52_fun = true /\
  call_on f52_fun (VNum nzero) = Ok (VBool true) /\
  call_on (reloaded true true f52_fun) (VNum nzero) = Ok (VBool false).
Proof. vm_compute. repeat split; reflexivity. Qed.
