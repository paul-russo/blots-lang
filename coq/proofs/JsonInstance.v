(* JsonInstance.v — property C06, closing "Partial (iii)": the two library hypotheses of the
   text-level theorems hold GLOBALLY for the instance of coq/JsonExact.v
       fmt_pieces   := exact_pieces      (the exact decimal expansion of the double)
       float_of_tok := rn_float_of_tok   (the correctly rounded reading, C16's rn_decimal)
   for every finite double (every valid binary64 datum that is not NaN / infinite):
       H_print_wf :  tok_wf (exact_pieces x) /\ tok_is_float (exact_pieces x)
       H_roundtrip:  rn_float_of_tok (exact_pieces x) = Some x
   and the parser half never returns anything but a finite valid double.  The text-level theorems
   are then restated for this instance WITHOUT any hypothesis on the library.
   serde_json prints ryu's SHORTEST round-tripping decimal, not the exact expansion: that ryu's
   text is read back by the correctly rounded parser is tied by the XNUM stream, not proved.
   The value part rests on NumTextRef.rn_decimal_correct (Flocq; the four allow-listed axioms). *)
From Coq Require Import String Ascii List ZArith Bool Lia Reals Lra Floats.SpecFloat.
Require Import ZifyBool ZifyNat.
From Flocq Require Import Core.Core IEEE754.BinarySingleNaN.
Require Import Blots.Num Blots.gen.Builtins Blots.Ast Blots.Value Blots.Outcome Blots.NumText.
Require Import Blots.Json Blots.JsonText Blots.JsonWf Blots.JsonExact.
Require Import Blots.proofs.NumText Blots.proofs.NumTextDigits Blots.proofs.NumTextFloat Blots.proofs.NumTextRef Blots.proofs.NumTextJson.
Require Import Blots.proofs.ValueInd Blots.proofs.JsonMaps Blots.proofs.JsonRT Blots.proofs.JsonEcho.
Require Import Blots.proofs.StringFacts Blots.proofs.JsonTextRT Blots.proofs.JsonTextDoc Blots.proofs.JsonTextCli.
Require Import Blots.proofs.JsonNumsOk Blots.proofs.JsonTextEcho.
Import ListNotations.
Open Scope Z_scope.

Local Existing Instance Hprec.
Local Existing Instance Hmax.
Local Instance fexp64_valid'' : Valid_exp fexp64 := fexp_correct 53 1024 Hprec.

Notation jdigits_val := JsonText.digits_val.

(* ------------------------------------------------------------------ digits *)
Lemma jdigits_val_app l1 : forall l2 a, jdigits_val a (l1 ++ l2) = jdigits_val (jdigits_val a l1) l2.
Proof. induction l1 as [|d l1 IH]; intros l2 a; cbn; [reflexivity|apply IH]. Qed.

Lemma big_digits_spec z : 0 <= z ->
  jdigits_val 0 (big_digits z) = z /\ digits_ok (big_digits z) = true /\
  match big_digits z with [] => false | [_] => true | d0 :: _ => negb (d0 =? 0) end = true.
Proof.
  intros Hz. unfold big_digits. set (fuel := S (Z.to_nat (Z.log2 z))).
  pose proof (pow10_fuel z Hz) as Hlt. fold fuel in Hlt.
  destruct (dec_list_spec fuel z [] ltac:(lia) ltac:(unfold fuel; lia)) as [Hv Hok].
  split; [exact Hv|]. split; [now apply Hok|].
  apply dec_list_lead; [exact Hz|unfold fuel; lia|exact Hlt].
Qed.

Lemma pad_digits_spec k : forall z acc a,
  jdigits_val a (pad_digits k z acc) = jdigits_val (a * 10 ^ Z.of_nat k + z mod 10 ^ Z.of_nat k) acc.
Proof.
  induction k as [|k IH]; intros z acc a.
  - cbn [pad_digits Z.of_nat]. rewrite Z.pow_0_r, Z.mod_1_r. f_equal. lia.
  - cbn [pad_digits]. rewrite IH. cbn [JsonText.digits_val]. f_equal.
    rewrite Nat2Z.inj_succ, Z.pow_succ_r by lia.
    assert (Hp : 0 < 10 ^ Z.of_nat k) by (apply Z.pow_pos_nonneg; lia).
    rewrite (Z.rem_mul_r z 10 (10 ^ Z.of_nat k)) by lia. ring.
Qed.
Lemma pad_digits_ok k : forall z acc, digits_ok acc = true -> digits_ok (pad_digits k z acc) = true.
Proof.
  induction k as [|k IH]; intros z acc Ha; cbn [pad_digits]; [exact Ha|].
  apply IH. change (digit_ok (z mod 10) && digits_ok acc = true). rewrite Ha. unfold digit_ok. pose proof (Z.mod_pos_bound z 10). lia.
Qed.
Lemma pad_digits_length k : forall z acc, length (pad_digits k z acc) = (k + length acc)%nat.
Proof. induction k as [|k IH]; intros z acc; cbn [pad_digits]; [reflexivity|]. rewrite IH. cbn. lia. Qed.

(* ------------------------------------------------------------------ H_print_wf *)
Lemma exact_tok_wf s m e : tok_wf (exact_tok s m e) = true /\ tok_is_float (exact_tok s m e) = true.
Proof.
  unfold exact_tok. destruct (0 <=? e) eqn:He.
  - assert (Hn : 0 <= Z.pos m * 2 ^ e) by (apply Z.mul_nonneg_nonneg; [lia|apply Z.pow_nonneg; lia]).
    destruct (big_digits_spec _ Hn) as (_ & Hok & Hh).
    split; [|reflexivity]. unfold tok_wf. cbn [t_int t_frac t_exp]. now rewrite Hok, Hh.
  - cbv zeta.
    assert (Hk : 0 < - e) by lia.
    assert (H10 : 0 < 10 ^ (- e)) by (apply Z.pow_pos_nonneg; lia).
    assert (Hn : 0 <= Z.pos m * 5 ^ (- e) / 10 ^ (- e)).
    { apply Z.div_pos; [|lia]. apply Z.mul_nonneg_nonneg; [lia|apply Z.pow_nonneg; lia]. }
    destruct (big_digits_spec _ Hn) as (_ & Hok & Hh).
    split; [|reflexivity]. unfold tok_wf. cbn [t_int t_frac t_exp]. rewrite Hok, Hh.
    rewrite pad_digits_ok by reflexivity.
    pose proof (pad_digits_length (Z.to_nat (- e)) (Z.pos m * 5 ^ (- e) mod 10 ^ (- e)) []) as HL.
    destruct (pad_digits (Z.to_nat (- e)) (Z.pos m * 5 ^ (- e) mod 10 ^ (- e)) []); [cbn in HL; lia|reflexivity].
Qed.

(* H_print_wf for the instance — for every datum, in fact *)
Theorem exact_print_wf : forall x, tok_wf (exact_pieces x) = true /\ tok_is_float (exact_pieces x) = true.
Proof.
  intros [s|s| |s m e]; try (split; reflexivity).
  cbn [exact_pieces]. destruct (strip_twos m e) as [m' e']. apply exact_tok_wf.
Qed.

(* ------------------------------------------------------------------ the value of the token *)
Lemma strip_twos_value : forall m e,
  F2R (Float radix2 (Zpos (fst (strip_twos m e))) (snd (strip_twos m e))) = F2R (Float radix2 (Zpos m) e).
Proof.
  induction m as [p IH|p IH|]; intros e; cbn [strip_twos]; try reflexivity.
  destruct (e <? 0); [|reflexivity]. rewrite IH. unfold F2R. cbn [Fnum Fexp].
  rewrite bpow_plus. change (bpow radix2 1) with 2%R.
  change (Z.pos p~0) with (2 * Z.pos p). rewrite mult_IZR. ring.
Qed.

Lemma exact_tok_mantissa s m e :
  tok_mantissa (exact_tok s m e) = if 0 <=? e then Zpos m * 2 ^ e * 10 else Zpos m * 5 ^ (- e).
Proof.
  unfold exact_tok, tok_mantissa, tok_frac_digits. destruct (0 <=? e) eqn:He; cbn [t_int t_frac].
  - assert (Hn : 0 <= Z.pos m * 2 ^ e) by (apply Z.mul_nonneg_nonneg; [lia|apply Z.pow_nonneg; lia]).
    destruct (big_digits_spec _ Hn) as (Hv & _). rewrite jdigits_val_app, Hv. cbn. lia.
  - assert (H10 : 0 < 10 ^ (- e)) by (apply Z.pow_pos_nonneg; lia).
    assert (Hn : 0 <= Z.pos m * 5 ^ (- e) / 10 ^ (- e)).
    { apply Z.div_pos; [|lia]. apply Z.mul_nonneg_nonneg; [lia|apply Z.pow_nonneg; lia]. }
    destruct (big_digits_spec _ Hn) as (Hv & _). rewrite jdigits_val_app, Hv, pad_digits_spec.
    cbn [JsonText.digits_val]. rewrite Z2Nat.id by lia.
    rewrite Z.mod_mod by lia. set (n := Z.pos m * 5 ^ (- e)).
    rewrite (Z.div_mod n (10 ^ (- e))) at 3 by lia. ring.
Qed.
Lemma exact_tok_exp10 s m e :
  tok_exp10 (exact_tok s m e) = if 0 <=? e then -1 else e.
Proof.
  unfold exact_tok, tok_exp10, tok_frac_digits. destruct (0 <=? e) eqn:He; cbn [t_exp t_frac]; [reflexivity|].
  rewrite pad_digits_length. cbn [length]. lia.
Qed.

(* the decimal written denotes exactly m * 2^e *)
Lemma exact_tok_value s m e :
  exists M, tok_mantissa (exact_tok s m e) = Zpos M /\
            dec_R (Zpos M) (tok_exp10 (exact_tok s m e)) = F2R (Float radix2 (Zpos m) e).
Proof.
  rewrite exact_tok_mantissa, exact_tok_exp10. destruct (0 <=? e) eqn:He.
  - assert (Hp : 0 < 2 ^ e) by (apply Z.pow_pos_nonneg; lia).
    destruct (Z.pos m * 2 ^ e * 10) as [|M|M] eqn:EM; try lia. exists M. split; [reflexivity|].
    unfold dec_R. change (0 <=? -1) with false. cbv iota. rewrite <- EM.
    change (10 ^ (- -1)) with 10. rewrite !mult_IZR. unfold F2R. cbn [Fnum Fexp].
    rewrite <- IZR_Zpower by lia. change (Z.pow radix2 e) with (2 ^ e). field.
  - assert (Hk : 0 < - e) by lia.
    assert (Hp : 0 < 5 ^ (- e)) by (apply Z.pow_pos_nonneg; lia).
    destruct (Z.pos m * 5 ^ (- e)) as [|M|M] eqn:EM; try lia. exists M. split; [reflexivity|].
    unfold dec_R. replace (0 <=? e) with false by lia. rewrite <- EM.
    replace (10 ^ (- e)) with (2 ^ (- e) * 5 ^ (- e)) by (rewrite <- Z.pow_mul_l; reflexivity).
    rewrite !mult_IZR. unfold F2R. cbn [Fnum Fexp].
    assert (Hb : bpow radix2 e = (/ IZR (2 ^ (- e)))%R).
    { rewrite <- (Z.opp_involutive e) at 1. rewrite bpow_opp, <- IZR_Zpower by lia. reflexivity. }
    rewrite Hb.
    assert (IZR (2 ^ (- e)) <> 0%R) by (apply IZR_neq; pose proof (Z.pow_pos_nonneg 2 (- e)); lia).
    assert (IZR (5 ^ (- e)) <> 0%R) by (apply IZR_neq; lia).
    field. split; assumption.
Qed.

(* a decimal whose value is that of a valid double is read as that double *)
Lemma rn_decimal_exact M E m e :
  vb (S754_finite false m e) = true ->
  dec_R (Zpos M) E = F2R (Float radix2 (Zpos m) e) ->
  rn_decimal false (Zpos M) E = S754_finite false m e.
Proof.
  intros Hv HR.
  destruct (rn_decimal_correct false M E) as [Hvz H]. cbv zeta in H.
  destruct (valid_finite_format false m e Hv) as [Hg Hlt]. cbn [cond_Zopp] in Hg, Hlt.
  rewrite HR in H. unfold rne in H. rewrite round_generic in H by (auto with typeclass_instances).
  rewrite Rlt_bool_true in H by exact Hlt. destruct H as (HS & HF & Hs).
  apply SF_eq; auto.
Qed.

(* ------------------------------------------------------------------ H_roundtrip *)
Theorem exact_roundtrip : forall x,
  is_finite x = true -> is_double x = true -> rn_float_of_tok (exact_pieces x) = Some x.
Proof.
  intros [s|s| |s m e] Hf Hv; try discriminate.
  - destruct s; reflexivity.
  - cbn [exact_pieces]. pose proof (strip_twos_value m e) as HV.
    destruct (strip_twos m e) as [m' e']. cbn [fst snd] in HV.
    destruct (exact_tok_value s m' e') as (M & HM & HR).
    unfold rn_float_of_tok. rewrite HM.
    rewrite (rn_decimal_exact M _ m e); [| |now rewrite HR, HV].
    + cbn [is_finite]. f_equal.
      assert (Hs : t_neg (exact_tok s m' e') = s) by (unfold exact_tok; now destruct (0 <=? e')).
      rewrite Hs. apply with_sign_finite.
    + unfold is_double in Hv. destruct s; exact Hv.
Qed.

(* ------------------------------------------------------------------ the parser half *)
Lemma vb_with_sign s f : vb (with_sign s f) = vb f.
Proof. destruct s, f; reflexivity. Qed.
Lemma is_finite_with_sign s f : is_finite (with_sign s f) = is_finite f.
Proof. destruct s, f; reflexivity. Qed.

Theorem rn_float_of_tok_finite : fot_finite rn_float_of_tok.
Proof.
  intros t x. unfold rn_float_of_tok.
  destruct (is_finite (rn_decimal false (tok_mantissa t) (tok_exp10 t))) eqn:E; [|discriminate].
  intros H; inversion H; subst. now rewrite is_finite_with_sign.
Qed.
Theorem rn_float_of_tok_doubles : fot_doubles rn_float_of_tok.
Proof.
  intros t x. unfold rn_float_of_tok.
  destruct (is_finite (rn_decimal false (tok_mantissa t) (tok_exp10 t))) eqn:E; [|discriminate].
  intros H; inversion H; subst. unfold is_double. change (valid_binary prec emax) with vb.
  rewrite vb_with_sign.
  destruct (tok_mantissa t) as [|M|M]; [reflexivity| |discriminate E].
  exact (proj1 (rn_decimal_correct false M (tok_exp10 t))).
Qed.

(* ------------------------------------------------------------------ the class of doubles *)
Definition okf_double (x : num) : bool := is_finite x && is_double x.

Lemma okf_double_finite x : okf_double x = true -> is_finite x = true.
Proof. unfold okf_double. intros H. now apply andb_prop in H. Qed.
Lemma okf_double_print x : okf_double x = true ->
  tok_wf (exact_pieces x) = true /\ tok_is_float (exact_pieces x) = true.
Proof. intros _. apply exact_print_wf. Qed.
Lemma okf_double_roundtrip x : okf_double x = true -> rn_float_of_tok (exact_pieces x) = Some x.
Proof. unfold okf_double. intros H. apply andb_prop in H as [Hf Hv]. now apply exact_roundtrip. Qed.
Lemma okf_double_fot t x : rn_float_of_tok t = Some x -> okf_double x = true.
Proof.
  intros H. unfold okf_double. now rewrite (rn_float_of_tok_finite t x H), (rn_float_of_tok_doubles t x H).
Qed.
Lemma okf_double_int z : I64_MIN <= z <= U64_MAX -> okf_double (num_of_Z z) = true.
Proof.
  intros Hz. unfold okf_double, is_double. change (valid_binary prec emax) with vb.
  rewrite num_of_Z_valid, num_of_Z_finite; [reflexivity|]. unfold I64_MIN, U64_MAX in Hz. lia.
Qed.
Lemma okn_double_split j : json_all (okn_of okf_double) j = true <-> json_wf j = true /\ json_doubles j = true.
Proof.
  unfold json_wf, json_doubles.
  induction j as [| |n|s|l IH|m IH] using json_ind'; try (cbn; tauto).
  - destruct n as [z|z|x]; cbn; unfold okf_double; try tauto. rewrite andb_true_iff. tauto.
  - rewrite !json_all_arr, !forallb_forall. rewrite Forall_forall in IH. split.
    + intros H. split; intros x Hx; apply (IH x Hx); auto.
    + intros [H1 H2] x Hx. apply (IH x Hx). auto.
  - rewrite !json_all_obj, !forallb_forall. rewrite Forall_forall in IH. split.
    + intros H. split; intros x Hx; apply (IH x Hx); auto.
    + intros [H1 H2] x Hx. apply (IH x Hx). auto.
Qed.

(* ------------------------------------------------------------------ the text theorems, instantiated *)
Notation xprint := (jprint exact_pieces).
Notation xparse := (json_from_str rn_float_of_tok).

(* serde_json::from_str (to_string j) = j, no library hypothesis left *)
Theorem json_text_roundtrip_exact j :
  json_wf j = true -> json_doubles j = true -> (jdepth j <= 127)%nat -> xparse (xprint j) = Some j.
Proof.
  intros Hw Hd. apply (json_text_roundtrip_g exact_pieces rn_float_of_tok okf_double
                         okf_double_print okf_double_roundtrip).
  apply okn_double_split. now split.
Qed.

Theorem parse_print_parse_exact s d : xparse s = Some d -> xparse (xprint d) = Some d.
Proof.
  exact (parse_print_parse exact_pieces rn_float_of_tok okf_double okf_double_print okf_double_roundtrip
           okf_double_fot s d).
Qed.

Section InstanceCli.
  Variable pfs : string -> option (list lamarg * string).
  Variable pbody : string -> outcome expr.
  Variable emit : expr -> list (string * svalue) -> string.
  Variable nameof : lam_id -> option string.

  Theorem cli_text_echo_object_exact s m key name x :
    xparse s = Some (JObj m) ->
    forallb (fun kv => json_no_reserved pfs (sj_build (snd kv))) m = true ->
    jlookup m key = Some x ->
    cli_text_echo pfs pbody emit nameof exact_pieces rn_float_of_tok s key name
      = Ok (xprint (JObj [(name, jcanon x)]))
    /\ xparse (xprint (JObj [(name, jcanon x)])) = Some (JObj [(name, jcanon x)])
    /\ json_equiv (jcanon x) x.
  Proof.
    exact (cli_text_echo_object pfs pbody emit nameof exact_pieces rn_float_of_tok okf_double
             okf_double_print okf_double_roundtrip okf_double_finite okf_double_fot okf_double_int
             s m key name x).
  Qed.

  Theorem cli_text_echo_non_object_exact s d name :
    xparse s = Some d -> (forall m, d <> JObj m) ->
    json_no_reserved pfs (sj_build d) = true -> (jdepth d <= 126)%nat ->
    cli_text_echo pfs pbody emit nameof exact_pieces rn_float_of_tok s "value_1" name
      = Ok (xprint (JObj [(name, jcanon d)]))
    /\ xparse (xprint (JObj [(name, jcanon d)])) = Some (JObj [(name, jcanon d)])
    /\ json_equiv (jcanon d) d.
  Proof.
    exact (cli_text_echo_non_object pfs pbody emit nameof exact_pieces rn_float_of_tok okf_double
             okf_double_print okf_double_roundtrip okf_double_finite okf_double_fot okf_double_int
             s d name).
  Qed.

  Theorem cli_text_echo_fixed_point_exact s m key name x :
    xparse s = Some (JObj m) ->
    forallb (fun kv => json_no_reserved pfs (sj_build (snd kv))) m = true ->
    jlookup m key = Some x ->
    let out := xprint (JObj [(name, jcanon x)]) in
    cli_text_echo pfs pbody emit nameof exact_pieces rn_float_of_tok s key name = Ok out /\
    cli_text_echo pfs pbody emit nameof exact_pieces rn_float_of_tok out name name = Ok out.
  Proof.
    exact (cli_text_echo_fixed_point pfs pbody emit nameof exact_pieces rn_float_of_tok okf_double
             okf_double_print okf_double_roundtrip okf_double_finite okf_double_fot okf_double_int
             s m key name x).
  Qed.

  (* sentence one of the property through text, for values whose numbers are binary64 data *)
  Theorem cli_text_out_in_exact v name :
    json_data v = true -> value_doubles v = true -> value_no_reserved pfs v = true ->
    (jdepth (write_outputs [(name, sv_of v)]) <= 127)%nat ->
    cli_text_out_in pfs pbody emit nameof exact_pieces rn_float_of_tok v name = Ok (vsort v)
    /\ equals (vsort v) v = true /\ same_data (vsort v) v = true.
  Proof.
    intros Hd Hv Hr Hdepth.
    apply (cli_text_out_in_roundtrip_g pfs pbody emit nameof exact_pieces rn_float_of_tok okf_double
             okf_double_print okf_double_roundtrip); auto.
    apply okn_double_split. split; [apply json_wf_to_json|].
    apply json_doubles_to_json. now apply svalue_doubles_sv_of.
  Qed.

  (* ... and at the level of the bytes: the second run writes what the first run wrote *)
  Theorem cli_text_out_echo_fixed_point_exact v name :
    json_data v = true -> value_doubles v = true -> value_no_reserved pfs v = true ->
    (jdepth (write_outputs [(name, sv_of v)]) <= 127)%nat ->
    let out := xprint (write_outputs [(name, sv_of v)]) in
    cli_text_echo pfs pbody emit nameof exact_pieces rn_float_of_tok out name name = Ok out.
  Proof.
    intros Hd Hv Hr Hdepth.
    apply (cli_text_out_echo_fixed_point pfs pbody emit nameof exact_pieces rn_float_of_tok okf_double
             okf_double_print okf_double_roundtrip okf_double_finite okf_double_fot okf_double_int); auto.
    apply okn_double_split. split; [apply json_wf_to_json|].
    apply json_doubles_to_json. now apply svalue_doubles_sv_of.
  Qed.
End InstanceCli.

(* a double below 1 is written "0." and exactly -e fraction digits *)
Lemma digits_str_length l : String.length (JsonText.digits_str l) = length l.
Proof. induction l as [|d l IH]; cbn; [reflexivity|now rewrite IH]. Qed.
Lemma exact_tok_length_small m e : e < 0 -> Zpos m * 5 ^ (- e) < 10 ^ (- e) ->
  String.length (render_tok (exact_tok false m e)) = (2 + Z.to_nat (- e))%nat.
Proof.
  intros He Hlt. unfold exact_tok. replace (0 <=? e) with false by lia. cbv zeta.
  rewrite Z.div_small by (split; [apply Z.mul_nonneg_nonneg; [lia|apply Z.pow_nonneg; lia]|exact Hlt]).
  unfold render_tok. cbn [t_neg t_int t_frac t_exp]. change (big_digits 0) with [0].
  rewrite !length_append, !digits_str_length, pad_digits_length. cbn. lia.
Qed.

(* ------------------------------------------------------------------ examples *)
Open Scope string_scope.
Example exact_text_of_0_1 :
  render_tok (exact_pieces (num_of_bits 0x3fb999999999999a))
  = "0.1000000000000000055511151231257827021181583404541015625".
Proof. vm_compute. reflexivity. Qed.
Example exact_text_misc :
  render_tok (exact_pieces (num_of_bits 0x8000000000000000)) = "-0.0" /\
  render_tok (exact_pieces (num_of_bits 0xc000000000000000)) = "-2.0" /\
  render_tok (exact_pieces (num_of_bits 0x3ff8000000000000)) = "1.5" /\
  render_tok (exact_pieces (num_of_bits 0x4340000000000000)) = "9007199254740992.0" /\
  String.length (render_tok (exact_pieces (num_of_bits 0x0000000000000001))) = 1076%nat.
Proof.
  do 4 (split; [vm_compute; reflexivity|]).
  apply (exact_tok_length_small 1 (-1074)); [reflexivity|].
  rewrite Z.mul_1_l. apply Z.pow_lt_mono_l; [reflexivity|split; [discriminate|reflexivity]].
Qed.
(* the reading the shipped parser got wrong before the repair of F17 *)
Example rn_reads_2p53m1 :
  rn_float_of_tok tok_2p53m1 = Some (num_of_bits 0x433fffffffffffff).
Proof. vm_compute. reflexivity. Qed.
