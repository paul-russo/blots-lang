(* Closed.v — "closed after capture", hereditarily: the notion under which C04's call-site
   independence holds, with its closure properties under the value-level operations of the
   evaluator. *)
From Coq Require Import String Ascii List ZArith Bool Lia.
Require Import Blots.Num Blots.gen.Builtins Blots.Ast Blots.Value Blots.Outcome Blots.Binop
               Blots.Env Blots.Eval Blots.BuiltinsHof Blots.proofs.ValueInd Blots.proofs.GenOps
               Blots.proofs.ValuePred Blots.proofs.StoreMono.
Import ListNotations.
Open Scope string_scope.
Open Scope list_scope.
Open Scope nat_scope.

(* nca e ("no checked assignment"): assignments whose immutability check would inspect the caller's
   chain are excluded: an assignment may only be a direct statement (or the return expression) of a
   do-block, where no check is made (known finding F32 is exactly the excluded class) *)
Fixpoint nca (e : expr) {struct e} : bool :=
  match e with
  | EAssign _ _ => false
  | EId x => negb (is_builtin_name x)    (* the parser turns built-in names into Expr::BuiltIn *)
  | ELam _ body => nca body
  | EDo stmts (Cm _ ret _) =>
      (fix go (l : list (commented expr)) : bool :=
         match l with
         | [] => true
         | Cm _ s _ :: r => (match s with EAssign _ v => nca v | _ => nca s end) && go r
         end) stmts
      && (match ret with EAssign _ v => nca v | _ => nca ret end)
  | EList items =>
      (fix go (l : list (commented expr)) : bool :=
         match l with [] => true | Cm _ a _ :: r => nca a && go r end) items
  | ERec entries =>
      (fix go (l : list (commented rentry)) : bool :=
         match l with
         | [] => true
         | Cm _ (REntry k v) _ :: r =>
             (match k with
              | KDyn a => nca a && nca v
              | KSpread a => nca a
              | KStatic _ => nca v
              | KShort x => negb (is_builtin_name x)
              end) && go r
         end) entries
  | ECond c t f => nca c && nca t && nca f
  | EOutput _ => false                   (* never built by the parser; its free variables are not collected *)
  | EUn _ a | EFact a | ESpread a | EDot a _ => nca a
  | ECall f args =>
      nca f && (fix go (l : list expr) : bool :=
                  match l with [] => true | a :: r => nca a && go r end) args
  | EAccess a i => nca a && nca i
  | EBin _ l r => nca l && nca r
  | _ => true
  end.
Lemma nca_output_false : forall e, nca (EOutput e) = true -> False.
Proof. intros e H; discriminate H. Qed.

(* Hereditarily closed values, relative to the current function-cell names.  A free name of a lambda
   body is either captured in its scope or is the name the cell `id` was given (lam_name st id): that
   one is not captured, FunctionDef::call binds it to the function itself at every call. *)
Fixpoint closed_value (st : store) (v : value) {struct v} : Prop :=
  match v with
  | VLam id args body scope =>
      nca body = true /\
      (forall x, In x (free_vars body (map arg_name args)) ->
                 lookup_frame scope x <> None \/ lam_name st id = Some x) /\
      (fix go (l : list (string * value)) : Prop :=
         match l with [] => True | kv :: r => closed_value st (snd kv) /\ go r end) scope
  | VList l =>
      (fix go (l : list value) : Prop :=
         match l with [] => True | w :: r => closed_value st w /\ go r end) l
  | VRec r =>
      (fix go (l : list (string * value)) : Prop :=
         match l with [] => True | kv :: r => closed_value st (snd kv) /\ go r end) r
  | VSpread w => closed_value st w
  | _ => True
  end.

(* ValuePred's Forall P / Pframe P at P := closed_value st (and GenOps.closed_list, AllGenClosed.closed_frame
   at this predicate) *)
Definition closed_list (st : store) (l : list value) : Prop := Forall (closed_value st) l.
Definition closed_frame (st : store) (f : frame) : Prop := Forall (fun kv => closed_value st (snd kv)) f.

(* the nested fixpoints of closed_value are Forall *)
Lemma Forall_fix : forall {A} (P : A -> Prop) l,
  (fix go (l : list A) : Prop := match l with [] => True | x :: r => P x /\ go r end) l <-> Forall P l.
Proof.
  intros A P l. induction l as [|x r IH]; [split; auto|]. split.
  - intros [Hx Hr]. constructor; [exact Hx|apply IH; exact Hr].
  - intros H. inversion H; subst. split; [assumption|apply IH; assumption].
Qed.
Lemma closed_VList : forall st l, closed_value st (VList l) <-> closed_list st l.
Proof. intros st l. exact (Forall_fix (closed_value st) l). Qed.
Lemma closed_VRec : forall st r, closed_value st (VRec r) <-> closed_frame st r.
Proof. intros st r. exact (Forall_fix (fun kv => closed_value st (snd kv)) r). Qed.
Lemma closed_VLam : forall st id args body scope,
  closed_value st (VLam id args body scope) <->
  (nca body = true /\
   (forall x, In x (free_vars body (map arg_name args)) ->
              lookup_frame scope x <> None \/ lam_name st id = Some x) /\
   closed_frame st scope).
Proof.
  intros st id args body scope.
  pose proof (Forall_fix (fun kv => closed_value st (snd kv)) scope) as HH.
  unfold closed_frame. cbn [closed_value]. tauto.
Qed.

(* names are write-once, so closedness survives every later store *)
Lemma closed_mono : forall v st st', store_le st st' -> closed_value st v -> closed_value st' v.
Proof.
  intros v st st' Hle. induction v using value_ind'; intros Hc; try exact I.
  - (* list *) apply closed_VList. apply closed_VList in Hc. unfold closed_list in *.
    rewrite Forall_forall in *. intros w Hw. apply (H w Hw). apply Hc; exact Hw.
  - (* record *) apply closed_VRec. apply closed_VRec in Hc. unfold closed_frame in *.
    rewrite Forall_forall in *. intros kv Hkv. apply (H kv Hkv). apply Hc; exact Hkv.
  - (* lambda *) apply closed_VLam. apply closed_VLam in Hc. destruct Hc as (Hn & Hf & Hs).
    split; [exact Hn|split].
    + intros x Hx. destruct (Hf x Hx) as [Hl|Hl]; [left; exact Hl|right].
      destruct Hle as [_ Hnm]. apply Hnm. exact Hl.
    + unfold closed_frame in *. rewrite Forall_forall in *. intros kv Hkv. apply (H kv Hkv). apply Hs; exact Hkv.
  - (* spread *) cbn [closed_value] in *. apply IHv. exact Hc.
Qed.

Lemma closed_list_mono : forall l st st', store_le st st' -> closed_list st l -> closed_list st' l.
Proof. exact (GenOps.closed_list_mono store_le closed_value closed_mono). Qed.
Lemma closed_frame_mono : forall f st st', store_le st st' -> closed_frame st f -> closed_frame st' f.
Proof. intros f st st' Hle H. unfold closed_frame in *. eapply Forall_impl; [|exact H]. intros a. apply closed_mono; exact Hle. Qed.

(* ---- frames ---- *)
Definition closed_frames (st : store) (fr : frames) : Prop := Forall (fun kf => closed_frame st (snd kf)) fr.
Lemma closed_frames_mono : forall fr st st', store_le st st' -> closed_frames st fr -> closed_frames st' fr.
Proof. intros fr st st' Hle H. unfold closed_frames in *. eapply Forall_impl; [|exact H]. intros a. apply closed_frame_mono; exact Hle. Qed.

(* every atomic value is closed; closed_value st is hereditary (ValuePred.v), so the value-level
   operations of the evaluator keep it *)
Lemma atomic_closed : forall st v, atomic v -> closed_value st v.
Proof. intros st v H. destruct v; try contradiction; exact I. Qed.
Lemma closed_hereditary : forall st, hereditary (closed_value st).
Proof.
  intros st. split; [exact (closed_VList st)|exact (closed_VRec st)|reflexivity|exact (atomic_closed st)].
Qed.
