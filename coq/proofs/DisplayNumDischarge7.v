(* DisplayNumDischarge7.v — C20: the display of the executable model is TOTAL (no i32 / i64 overflow
   panic) for every valid double under log10_sane alone, for fx = true (the code of /repo).
   display_no_panic (proofs/DisplayNum.v) needs a bound on floor(log10 a) for every a; here the
   two arguments on which log10 is actually called (|x| and the rounded value) are shown to be
   valid non-zero doubles in a known decade (round_sig_places of DisplayNumAccStd.v, instantiated
   with the proved facts about powi_exec), so log10_sane applies.
   The summary theorem display_exec_complete: total, well-formed, accurate. *)
From Coq Require Import ZArith Reals Bool String Ascii List Lia Lra QArith Qreals Qabs Qpower Floats.SpecFloat.
From Flocq Require Import Core.Core IEEE754.BinarySingleNaN.
Require Import Blots.Num Blots.Outcome Blots.DisplayNum.
Require Import Blots.proofs.DisplayNumGroup Blots.proofs.DisplayNumSpec Blots.proofs.DisplayNumText
               Blots.proofs.DisplayNumInt Blots.proofs.DisplayNum Blots.proofs.DisplayNumAcc
               Blots.proofs.DisplayNumFloat Blots.proofs.DisplayNumFinite Blots.proofs.DisplayNumAccStd
               Blots.proofs.DisplayNumAccAll Blots.proofs.DisplayNumExec
               Blots.proofs.DisplayNumDischarge1 Blots.proofs.DisplayNumDischarge2
               Blots.proofs.DisplayNumDischarge4 Blots.proofs.DisplayNumDischarge6.
Import ListNotations.
Open Scope R_scope.

Theorem display_total_exec_pos : forall log10,
  (forall a k, valid_binary prec emax a = true -> nsign a = false -> in_decade a k ->
               (k <= as_i32 (nfloor (log10 a)) <= k + 1)%Z) ->
  forall x, valid_binary prec emax x = true ->
  exists t, format_display_number log10 powi_exec fmt_prec_exec fmt_exp14_exec parse_f64_exec true x = Ok t.
Proof.
  intros log10 HLs x Hv. pose proof (log10_sane_to_R log10 HLs) as HL.
  unfold format_display_number.
  destruct (is_nan x) eqn:Hn; [eauto|]. destruct (is_inf x) eqn:Hi; [eauto|].
  destruct (neqb x nzero) eqn:Hz; [eauto|].
  destruct (scientific_range (nabs x)) eqn:Hs; [eauto|].
  destruct x as [s|s| |s m e]; try discriminate.
  unfold format_standard. destruct (nfract_is_zero _ && nltb _ c_2p53) eqn:Hint.
  - apply andb_true_iff in Hint. now apply format_integer_ok.
  - assert (Hp : std_nonint_path (S754_finite s m e) = true).
    { unfold std_nonint_path. rewrite Hz, Hs, Hint. reflexivity. }
    destruct (valid_decade s m e Hv) as (K & HK & _).
    destruct (round_sig_places log10 powi_exec HL powi_exec_exact powi_exec_neg _ K Hv Hp
                (std_decade_range _ K Hv Hp HK) HK) as (r & s' & n & Er & _ & _ & _ & _ & Epl).
    rewrite Er. cbn [obind]. unfold format_float_significant. rewrite Epl. cbn [obind]. eauto.
Qed.

(* ---- summary: under log10_sane the executable model displays EVERY valid double, as a well-formed
        numeral, which for finite non-zero x is less than one unit of the 15th digit away from x ---- *)
Theorem display_exec_complete_pos : forall log10,
  (forall a k, valid_binary prec emax a = true -> nsign a = false -> in_decade a k ->
               (k <= as_i32 (nfloor (log10 a)) <= k + 1)%Z) ->
  forall x, valid_binary prec emax x = true ->
  exists t,
    format_display_number log10 powi_exec fmt_prec_exec fmt_exp14_exec parse_f64_exec true x = Ok t /\
    wf_numeral t = true /\
    (Num.is_finite x = true -> neqb x nzero = false ->
     forall k, in_decade x k -> (Qabs (denote t - num_to_Q x) < Qpower (10 # 1) (k - 14)%Z)%Q).
Proof.
  intros log10 HL x V. destruct (display_total_exec_pos log10 HL x V) as (t & Et).
  exists t. split; [exact Et|]. split.
  - exact (display_wellformed_exec_pos log10 true HL x t V Et).
  - intros F NZ. exact (display_accurate_exec_pos log10 HL x t V F NZ Et).
Qed.

Theorem display_total_exec : forall log10,
  (forall a k, valid_binary prec emax a = true -> in_decade a k ->
               (k <= as_i32 (nfloor (log10 a)) <= k + 1)%Z) ->
  forall x, valid_binary prec emax x = true ->
  exists t, format_display_number log10 powi_exec fmt_prec_exec fmt_exp14_exec parse_f64_exec true x = Ok t.
Proof. intros log10 HL. apply display_total_exec_pos. intros a k V _ D. exact (HL a k V D). Qed.

Theorem display_exec_complete : forall log10,
  (forall a k, valid_binary prec emax a = true -> in_decade a k ->
               (k <= as_i32 (nfloor (log10 a)) <= k + 1)%Z) ->
  forall x, valid_binary prec emax x = true ->
  exists t,
    format_display_number log10 powi_exec fmt_prec_exec fmt_exp14_exec parse_f64_exec true x = Ok t /\
    wf_numeral t = true /\
    (Num.is_finite x = true -> neqb x nzero = false ->
     forall k, in_decade x k -> (Qabs (denote t - num_to_Q x) < Qpower (10 # 1) (k - 14)%Z)%Q).
Proof. intros log10 HL. apply display_exec_complete_pos. intros a k V _ D. exact (HL a k V D). Qed.
