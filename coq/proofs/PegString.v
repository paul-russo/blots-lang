(* PegString.v — the string literal of the REGENERATED grammar, through pest's stack:
     string       = ${ PUSH(<double quote> | <single quote>) ~ string_value ~ POP }
     string_value = @{ (!PEEK ~ ANY)* }
   [peg_string_rule]: called where the text starts with a quote character q, the rule scans character by
   character to the first q ([scan]; there are NO escape sequences), and succeeds iff that q exists: the pair
   `string` spans both quotes, its only inner pair `string_value` the text between them; the stack is left as it
   was found (PUSH then POP).  If no closing q exists the rule fails and the stack is ALSO as it was found
   (POP pops before it compares).  Any other first character: failure, nothing touched. *)
From Coq Require Import String Ascii List NArith Bool Arith Lia ZifyBool ZifyNat ZifyN.
Require Import Blots.Peg Blots.gen.Grammar Blots.proofs.PegGeneric Blots.proofs.PegPure Blots.proofs.PegIdent.
Import ListNotations.
Local Open Scope string_scope.

Definition is_quote (c : ascii) : bool := Ascii.eqb c """" || Ascii.eqb c "'".

(* one step of (!PEEK ~ ANY) with q on top of the stack: stop at q or at the end, else skip one character *)
Definition scan_step (q : ascii) (t : string) : option string :=
  match t with
  | EmptyString => None
  | String c _ => if Ascii.eqb q c then None else Some (sdrop (Nat.min (utf8_width c) (String.length t)) t)
  end.
Definition scan (q : ascii) (t : string) : string := m_star_n (String.length t) (scan_step q) t.

Lemma scan_step_progresses : forall q, progresses (scan_step q).
Proof.
  intros q t r E. unfold scan_step in E. destruct t; [discriminate|].
  destruct (Ascii.eqb q a); [discriminate|]. inversion E; subst. clear E.
  pose proof (any_width a t) as [H1 H2]. rewrite sdrop_length by exact H2. lia.
Qed.

(* the stack discipline needed for PUSH-then-POP to give the stack back: the innermost snapshot does not
   claim more elements than the stack holds (true of every stack pest builds) *)
Definition stack_ok (k : pstack) : Prop :=
  match lengths k with (_, remained) :: _ => remained <= List.length (cache k) | [] => True end.

Lemma pop_push : forall x k, stack_ok k -> stack_pop (stack_push x k) = (Some x, k).
Proof.
  intros x [c p ls] H. unfold stack_pop, stack_push, stack_ok in *. cbn [cache popped lengths] in *.
  destruct ls as [|[l remained] ls]; [reflexivity|].
  cbn [List.length]. destruct (Nat.eqb (S (List.length c)) remained) eqn:E; [|reflexivity].
  apply Nat.eqb_eq in E. lia.
Qed.

Section Str.
  Notation st := (st grule).

  (* (!PEEK ~ ANY) in an @ rule, q on top of the stack *)
  Lemma peek_step : forall f m a la q (s : st),
      stack_peek (stk s) = Some (String q "") ->
      run G (S (S f)) m a la (NegPred (Builtin BPeek)) s
      = match drop_prefix (String q "") (rest s) with Some _ => Fail s | None => Ok s end.
  Proof.
    intros f m a la q s Hk. rewrite run_S. cbv zeta. unfold lookahead. rewrite run_S. cbv zeta.
    cbn [run_builtin set_stk stk].
    assert (Hp : stack_peek (stack_snapshot (stk s)) = Some (String q "")).
    { unfold stack_peek, stack_snapshot in *. simpl. exact Hk. }
    rewrite Hp. unfold match_string. cbn [rest set_stk pos stk out].
    destruct (drop_prefix (String q "") (rest s)); cbn [set_pos set_stk stk out pos rest];
      rewrite restore_snapshot, st_eta; reflexivity.
  Qed.

  Lemma body_step : forall f la q (s : st),
      stack_peek (stk s) = Some (String q "") ->
      run G (S (S (S f))) true Atomic la (Seq (NegPred (Builtin BPeek)) (Builtin BAny)) s
      = pure_out grule s (scan_step q (rest s)).
  Proof.
    intros f la q s Hk. rewrite run_S. cbv zeta. rewrite (peek_step f true Atomic la q s Hk).
    unfold scan_step. destruct (rest s) as [|c r] eqn:E.
    - cbn [drop_prefix bind]. rewrite run_S. cbv zeta. cbn [run_builtin]. rewrite E.
      cbn [sequence pure_out]. f_equal. first [apply st_eta | rewrite <- E; apply st_eta].
    - cbn [drop_prefix]. destruct (Ascii.eqb q c) eqn:Q.
      + cbn [bind sequence pure_out]. f_equal. first [apply st_eta | rewrite <- E; apply st_eta].
      + cbn [bind]. rewrite run_S. cbv zeta. cbn [run_builtin]. rewrite E. cbn [sequence pure_out].
        do 2 f_equal. unfold slen.
        pose proof (any_width c r) as [H1 H2]. rewrite sdrop_length by exact H2. rewrite ?E. lia.
  Qed.

  (* string_value: scan to the first q *)
  Lemma string_value_call : forall fuel a la q (s : st),
      stack_peek (stk s) = Some (String q "") -> 6 + String.length (rest s) <= fuel ->
      call_with G (run G fuel) a la PG_string_value s
      = rule_wrap PG_string_value a la (fun s' => pure_out grule s' (Some (scan q (rest s')))) s.
  Proof.
    intros fuel a la q s Hk Hf. unfold call_with.
    cbn [g_def G blots_grammar grule_def rd_mod rd_trivia rd_body orb andb negb].
    assert (H : forall s' : st, stk s' = stk s -> String.length (rest s') <= String.length (rest s) ->
                  run G fuel true Atomic la (Rep (Seq (NegPred (Builtin BPeek)) (Builtin BAny))) s'
                  = pure_out grule s' (Some (scan q (rest s')))).
    { intros s' K L. destruct fuel as [|f]; [lia|]. rewrite run_S. cbv zeta.
      unfold scan. apply (repeat_pure_stk grule _ (scan_step q) (scan_step_progresses q)); [lia|lia|].
      intros s2 K2 O2 L2. destruct f as [|[|[|f]]]; try lia. apply body_step. rewrite K2, K. exact Hk. }
    unfold rule_wrap. destruct (emits a la).
    - rewrite H by (cbn [stk rest set_out]; try reflexivity; lia). reflexivity.
    - apply H; [reflexivity|lia].
  Qed.

  Lemma scan_shrinks : forall q t, String.length (scan q t) <= String.length t.
  Proof. intros q t. unfold scan. apply m_star_n_shrinks. apply scan_step_progresses. Qed.

  (* the loop stops only at q or at the end of the text *)
  Lemma star_stops : forall h, progresses h -> forall k t, String.length t <= k -> h (m_star_n k h t) = None.
  Proof.
    intros h P. induction k as [|k IH]; intros t L; simpl.
    - destruct (h t) eqn:E; [apply P in E; lia|reflexivity].
    - destruct (h t) eqn:E; [|exact E]. apply IH. apply P in E. lia.
  Qed.
  Lemma scan_stops : forall q t, scan q t = EmptyString \/ exists r', scan q t = String q r'.
  Proof.
    intros q t. pose proof (star_stops (scan_step q) (scan_step_progresses q) (String.length t) t (le_n _)) as H.
    fold (scan q t) in H. unfold scan_step in H. destruct (scan q t) as [|c r']; [left; reflexivity|].
    destruct (Ascii.eqb q c) eqn:Q; [|discriminate]. right. exists r'.
    apply Ascii.eqb_eq in Q. subst. reflexivity.
  Qed.

  (* the result of the rule `string` at a text q :: r, in a context that produces pairs *)
  Definition string_result (s : st) (q : ascii) (r : string) : res grule :=
    match drop_prefix (String q "") (scan q r) with
    | Some r' =>
        let e1 := (pos s + 1 + (slen r - slen (scan q r)))%N in
        Ok (mkst (e1 + 1) r' (stk s)
                 (Node PG_string (pos s) (e1 + 1) [Node PG_string_value (pos s + 1) e1 []] :: out s))
    | None => Fail s
    end.

  Lemma push_step : forall f la q r (s : st), rest s = String q r ->
      run G (S (S (S f))) true CompoundAtomic la (Push (Choice (Str """") (Str "'"))) s
      = if is_quote q then Ok (mkst (pos s + 1) r (stack_push (String q "") (stk s)) (out s)) else Fail s.
  Proof.
    intros f la q r s E. rewrite run_S. cbv zeta. unfold do_push. rewrite run_S. cbv zeta.
    rewrite !run_S. cbv zeta. unfold match_string. rewrite E. cbn [drop_prefix].
    unfold is_quote. rewrite (Ascii.eqb_sym q """"), (Ascii.eqb_sym q "'").
    destruct (Ascii.eqb """" q) eqn:Q1.
    - cbn [orb set_pos set_stk pos rest stk out]. rewrite ?E.
      replace (N.to_nat (pos s + slen (String """" "") - pos s)) with 1 by (unfold slen; simpl; lia).
      apply Ascii.eqb_eq in Q1. subst q. reflexivity.
    - cbn [orb]. rewrite run_S. cbv zeta. unfold match_string. rewrite E. cbn [drop_prefix].
      destruct (Ascii.eqb "'" q) eqn:Q2.
      + cbn [set_pos set_stk pos rest stk out]. rewrite ?E.
        replace (N.to_nat (pos s + slen (String "'" "") - pos s)) with 1 by (unfold slen; simpl; lia).
        apply Ascii.eqb_eq in Q2. subst q. reflexivity.
      + reflexivity.
  Qed.

  Theorem peg_string_rule : forall fuel a q r (s : st),
      rest s = String q r -> stack_ok (stk s) -> 12 + String.length (rest s) <= fuel ->
      call_with G (run G fuel) a false PG_string s
      = if is_quote q then string_result s q r else Fail s.
  Proof.
    intros fuel a q r s E Hok Hf. unfold call_with.
    cbn [g_def G blots_grammar grule_def rd_mod rd_trivia rd_body orb andb negb].
    unfold rule_wrap. cbn [emits negb andb].
    destruct fuel as [|[|[|[|[|f]]]]]; try lia.
    rewrite run_S. cbv zeta.
    rewrite (push_step (S f) false q r (set_out s []) E).
    destruct (is_quote q) eqn:IQ.
    - cbn [bind set_out pos rest stk out].
      rewrite run_S. cbv zeta. rewrite (run_S _ G (S (S f)) true CompoundAtomic false (Ident _)). cbv zeta.
      rewrite (string_value_call (S (S f)) CompoundAtomic false q); [|reflexivity|cbn [rest]; rewrite E in Hf; cbn [String.length] in Hf; lia].
      unfold rule_wrap. cbn [emits negb andb set_out pos rest stk out pure_out set_pos bind].
      rewrite run_S. cbv zeta. cbn [run_builtin stk set_out set_pos set_stk pos rest out rev app]. rewrite (pop_push _ _ Hok).
      unfold match_string, string_result. cbn [set_stk set_out set_pos rest pos stk out].
      destruct (drop_prefix (String q "") (scan q r)) as [r'|] eqn:D.
      + reflexivity.
      + cbn. unfold set_out. cbn [pos rest stk out]. f_equal. apply st_eta.
    - cbn. unfold set_out. cbn [pos rest stk out]. f_equal. apply st_eta.
  Qed.
End Str.
