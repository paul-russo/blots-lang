(* FmtToksCanon.v — `canon` and the trailing comma (property C07).

   canon is a one-pass rewriting with a look-ahead of three chunks.  A `,` directly before a
   closer at the END of a chunk list is invisible to it, whatever precedes (unless that is
   another `,`):   canon (X ++ [","; c]) = canon (X ++ [c]).
   This is the step from "same chunks up to the layout's final trailing comma" to "same view"
   for a list / record / call whose elements have chunk-equal layouts. *)
From Coq Require Import String Ascii List Bool Arith Lia.
Require Import Blots.Formatter Blots.FmtTokens.
Import ListNotations.
Local Open Scope list_scope.
Local Open Scope string_scope.

Lemma canon_cons : forall t r,
  canon (t :: r) =
  if (t =? ",") && match r with c :: _ => is_closer c | [] => false end then canon r
  else match r with
       | x :: p :: a :: r' =>
           if (t =? "(") && is_name x && (p =? ")") && (a =? "=>") then x :: a :: canon r'
           else t :: canon r
       | _ => t :: canon r
       end.
Proof. reflexivity. Qed.

Lemma closer_cases : forall c, is_closer c = true -> c = ")" \/ c = "]" \/ c = "}".
Proof.
  intros c H. unfold is_closer in H. apply orb_prop in H. destruct H as [H|H].
  - apply orb_prop in H. destruct H as [H|H]; apply String.eqb_eq in H; auto.
  - apply String.eqb_eq in H. auto.
Qed.

Lemma canon_trailing_len : forall n X c, List.length X <= n -> is_closer c = true ->
  (X = [] \/ last X "" <> ",") ->
  canon (X ++ [","; c]) = canon (X ++ [c]).
Proof.
  induction n as [|n IH]; intros X c Hn Hc Hl.
  - destruct X as [|t0 X0]; [|exfalso; cbn [List.length] in Hn; inversion Hn]. cbn [app]. rewrite canon_cons. rewrite Hc. reflexivity.
  - destruct X as [|t X']; [cbn [app]; rewrite canon_cons, Hc; reflexivity|].
    cbn [List.length] in Hn. assert (Hn' : List.length X' <= n) by (apply le_S_n; exact Hn).
    assert (Hc3 := closer_cases c Hc).
    destruct X' as [|x [|p [|a X'']]].
    + (* [t] *)
      destruct Hl as [Hl|Hl]; [discriminate|]. cbn [last] in Hl. apply String.eqb_neq in Hl.
      cbn [app]. rewrite (canon_cons t [","; c]), (canon_cons t [c]), Hl. cbn [andb].
      rewrite (canon_cons "," [c]), Hc. reflexivity.
    + (* [t; x] *)
      assert (Hx : canon ([x] ++ [","; c]) = canon ([x] ++ [c])).
      { apply IH; [exact Hn'|exact Hc|]. right. destruct Hl as [Hl|Hl]; [discriminate|exact Hl]. }
      cbn [app] in Hx |- *. rewrite (canon_cons t [x; ","; c]), (canon_cons t [x; c]).
      destruct ((t =? ",") && is_closer x); [exact Hx|].
      destruct (t =? "("), (is_name x); cbn [andb]; rewrite Hx; reflexivity.
    + (* [t; x; p] *)
      assert (Hx : canon ([x; p] ++ [","; c]) = canon ([x; p] ++ [c])).
      { apply IH; [exact Hn'|exact Hc|]. right. destruct Hl as [Hl|Hl]; [discriminate|exact Hl]. }
      cbn [app] in Hx |- *. rewrite (canon_cons t [x; p; ","; c]), (canon_cons t [x; p; c]).
      destruct ((t =? ",") && is_closer x); [exact Hx|].
      assert (Ec : (c =? "=>") = false) by (destruct Hc3 as [E|[E|E]]; subst c; reflexivity).
      rewrite Ec. change ("," =? "=>") with false. rewrite !andb_false_r, Hx. reflexivity.
    + (* t :: x :: p :: a :: X'' *)
      assert (Hx : canon ((x :: p :: a :: X'') ++ [","; c]) = canon ((x :: p :: a :: X'') ++ [c])).
      { apply IH; [exact Hn'|exact Hc|]. right. destruct Hl as [Hl|Hl]; [discriminate|exact Hl]. }
      assert (Hy : canon (X'' ++ [","; c]) = canon (X'' ++ [c])).
      { apply IH; [cbn [List.length] in Hn'; lia|exact Hc|].
        destruct X'' as [|y Y]; [left; reflexivity|right].
        destruct Hl as [Hl|Hl]; [discriminate|exact Hl]. }
      cbn [app] in Hx |- *.
      rewrite (canon_cons t (x :: p :: a :: X'' ++ [","; c])), (canon_cons t (x :: p :: a :: X'' ++ [c])).
      destruct ((t =? ",") && is_closer x); [exact Hx|].
      destruct ((t =? "(") && is_name x && (p =? ")") && (a =? "=>")); [rewrite Hy|rewrite Hx]; reflexivity.
Qed.

Theorem canon_trailing : forall X c, is_closer c = true -> (X = [] \/ last X "" <> ",") ->
  canon (X ++ [","; c]) = canon (X ++ [c]).
Proof. intros X c. exact (canon_trailing_len (List.length X) X c (le_n _)). Qed.

(* the condition on X is needed *)
Example canon_trailing_needs_condition :
  canon ([","] ++ [","; "]"]) <> canon ([","] ++ ["]"]).
Proof. vm_compute. discriminate. Qed.
