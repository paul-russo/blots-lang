(* C02LetGen.v — LET-ABSTRACTION for sequential contexts (C02).

   Setting: a scope chain fr in which x holds the cell-free value v and the assignment-free expression s
   evaluates to v (the state after `x = s`); then osame (C[x]) (C[s]).  The HEAD contexts of C02Let.v (the
   occurrence is the first thing C evaluates apart from atoms) are a special case ([hctx_sctx]):
   the occurrence may sit ANYWHERE that is evaluated at most once, in the scope of the binding, outside
   lambdas and do-blocks ([sctx], "sequential contexts"): after arbitrary assignment-free siblings that are
   evaluated BEFORE it (left operands, the accessed value, the callee, earlier call arguments, earlier list
   items, the condition of a conditional whose branch holds the occurrence) — siblings that may allocate
   function cells, call functions and built-ins, or fail — and inside a conditional branch that is taken
   or NOT taken (then C[x] and C[s] are the same evaluation).

   What makes it work, and was named as missing in notes/C02.md:
     (a) the renaming is not fixed in advance: the induction over the context carries "for every store st'
         reachable from st by evaluating assignment-free expressions" ([Inv]), and the renaming
         shift |st'| k is chosen AT the occurrence (existential in [srel2]); everything older than the store at
         which the context was entered is fixed by it ([fixes_below]);
     (b) "every intermediate value mentions existing cells only" — C02Wf.v (evaluation preserves cfg_wf and
         returns such values): a sibling's value w evaluated before the occurrence satisfies ren rho w = w;
     (c) s evaluated later gives the same value: store-extension invariance (C02Sim.v) moves the hypothesis on
         s from st to st'.
   Still excluded (kept in the Prop [let_abstraction_full_stmt] of C02Let.v): several occurrences (each one
   inserts a block of cells: the renaming must grow DURING the run — here it is chosen once); occurrences
   under a lambda / do-block; siblings with assignments before the occurrence; function-valued s.  And the
   step from the two-statement program `x = s; C[x]` to the hypotheses used here ("s evaluates to v in the
   scope that already binds x") needs WEAKENING: evaluation does not depend on a binding of a name that no
   expression and no function body reachable from the scope mentions — [weakening_stmt] below, not proved. *)
From Coq Require Import String Ascii List ZArith Bool Lia.
Require Import Blots.Num Blots.gen.Builtins Blots.Ast Blots.Value Blots.Outcome Blots.Binop
               Blots.Env Blots.Eval Blots.BuiltinsHof Blots.Program Blots.EvalInst Blots.EvalFull
               Blots.proofs.ExprInd Blots.proofs.ValueInd Blots.proofs.Frames Blots.proofs.StoreMono
               Blots.proofs.Scoping Blots.proofs.InstMono
               Blots.proofs.C02Ren Blots.proofs.C02Sim Blots.proofs.C02Ops Blots.proofs.C02Keep Blots.proofs.C02Twice
               Blots.proofs.C02Let Blots.proofs.C02OpsFull Blots.proofs.C02Wf.
Import ListNotations.
Open Scope string_scope.
Open Scope list_scope.
Open Scope nat_scope.

(* eA = C[x], eB = C[s] for a sequential context C *)
Inductive sctx (x : string) (s : expr) : expr -> expr -> Prop :=
| S_hole : sctx x s (EId x) s
| S_binl : forall op a b e, sctx x s a b -> sctx x s (EBin op a e) (EBin op b e)
| S_binr : forall op t a b, no_assign t = true -> sctx x s a b -> sctx x s (EBin op t a) (EBin op t b)
| S_accl : forall a b e, sctx x s a b -> sctx x s (EAccess a e) (EAccess b e)
| S_accr : forall t a b, no_assign t = true -> sctx x s a b -> sctx x s (EAccess t a) (EAccess t b)
| S_dot : forall a b f, sctx x s a b -> sctx x s (EDot a f) (EDot b f)
| S_un : forall op a b, sctx x s a b -> sctx x s (EUn op a) (EUn op b)
| S_out : forall a b, sctx x s a b -> sctx x s (EOutput a) (EOutput b)
| S_cond : forall a b t f, sctx x s a b -> sctx x s (ECond a t f) (ECond b t f)
| S_then : forall t a b f, no_assign t = true -> sctx x s a b -> sctx x s (ECond t a f) (ECond t b f)
| S_else : forall t e a b, no_assign t = true -> sctx x s a b -> sctx x s (ECond t e a) (ECond t e b)
| S_callf : forall a b args, sctx x s a b -> sctx x s (ECall a args) (ECall b args)
| S_calla : forall t pre a b rest, no_assign t = true -> Forall (fun e => no_assign e = true) pre ->
    sctx x s a b -> sctx x s (ECall t (pre ++ a :: rest)) (ECall t (pre ++ b :: rest))
| S_list : forall pre l tr a b rest, Forall (fun c => no_assign (cnode c) = true) pre ->
    sctx x s a b -> sctx x s (EList (pre ++ Cm l a tr :: rest)) (EList (pre ++ Cm l b tr :: rest)).

(* every head context is a sequential context *)
Lemma atom_no_assign : forall t, atom t -> no_assign t = true.
Proof. intros t H. destruct t; try contradiction; reflexivity. Qed.
Lemma hctx_sctx : forall x s a b, hctx x s a b -> sctx x s a b.
Proof.
  intros x s a b H. induction H.
  - apply S_hole. - apply S_binl; assumption. - apply S_binr; [apply atom_no_assign|]; assumption.
  - apply S_accl; assumption. - apply S_dot; assumption. - apply S_un; assumption. - apply S_out; assumption.
  - apply S_cond; assumption.
  - apply (S_calla x s t [] a b rest); [apply atom_no_assign; assumption|constructor|assumption].
  - apply (S_list x s [] l tr a b rest); [constructor|assumption].
Qed.

(* a renaming that fixes every index below n fixes every value that mentions such indices only *)
Definition fixes_below (n : nat) (rho : nat -> nat) : Prop := forall id, id < n -> rho id = id.
Lemma ren_fix_below : forall n rho, fixes_below n rho -> forall v, ids_lt n v = true -> ren rho v = v.
Proof.
  intros n rho Hfix. induction v as [y|y| |y|l IH|r IH|id ar bd sc IH|bi|y IH] using value_ind';
    intros H; cbn [ren ids_lt] in *; try reflexivity.
  - f_equal. apply map_fix. rewrite forallb_forall in H. rewrite Forall_forall in *.
    intros y Hy. apply IH; [exact Hy|apply H; exact Hy].
  - f_equal. apply map_fix. rewrite forallb_forall in H. rewrite Forall_forall in *.
    intros [k y] Hy. f_equal. apply (IH (k, y) Hy). apply (H (k, y) Hy).
  - apply andb_true_iff in H. destruct H as [Hid H]. apply Nat.ltb_lt in Hid.
    rewrite (Hfix id Hid). f_equal. apply map_fix. rewrite forallb_forall in H. rewrite Forall_forall in *.
    intros [k y] Hy. f_equal. apply (IH (k, y) Hy). apply (H (k, y) Hy).
  - f_equal. apply IH. exact H.
Qed.
Lemma shift_fixes_below : forall n k, fixes_below n (shift n k).
Proof. intros n k id Hid. unfold shift. apply Nat.ltb_lt in Hid. rewrite Hid. reflexivity. Qed.

Section LetGen.
  Variable release : bool.
  Variable bi : callback -> binop -> value -> value -> store -> outcome value * store.
  Variable bu : callback -> builtin -> list value -> store -> outcome value * store.
  Hypothesis Hops : ops_commute bi bu.
  Hypothesis Hwfo : ops_wf bi bu.
  Hypothesis Hkeep : forall d c e r c', evalD release bi bu d c e = (r, c') -> store_keep (fst c) (fst c').
  Variable d : nat.
  Notation evD := (evalD release bi bu d).
  Notation evE := (evalE release bi (AD release bi bu d)).

  Variable x : string.
  Variable s : expr.
  Variable fr : frames.
  Variable v : value.
  Hypothesis Hv : cell_free v = true.

  (* what holds at every store from which a part of the context is entered *)
  Definition Inv (st : store) : Prop :=
    frames_lt (length st) fr = true /\
    evD (st, fr) (EId x) = (Ok v, (st, fr)) /\
    exists st1, evD (st, fr) s = (Ok v, (st1, fr)).

  Lemma eid_any_store : forall st st', evD (st, fr) (EId x) = (Ok v, (st, fr)) -> evD (st', fr) (EId x) = (Ok v, (st', fr)).
  Proof.
    intros st st'. unfold evalD. cbn [evalE snd].
    destruct (String.eqb x "infinity" || String.eqb x "inf"); [intros H; inversion H; reflexivity|].
    destruct (String.eqb x "constants"); intros H; inversion H; reflexivity.
  Qed.

  Lemma v_fix : forall n rho, fixes_below n rho -> ren rho v = v.
  Proof. intros n rho H. apply (ren_fix_below n rho H). eapply ids_lt_mono; [|exact Hv]. lia. Qed.

  (* evaluating an assignment-free sibling keeps the invariant (the renaming used at the occurrence is chosen later) *)
  Lemma Inv_step : forall st t o st' fr', Inv st -> no_assign t = true ->
    evD (st, fr) t = (o, (st', fr')) ->
    fr' = fr /\ Inv st' /\ length st <= length st' /\ (forall w, o = Ok w -> ids_lt (length st') w = true).
  Proof.
    intros st t o st' fr' (Hfr & Hx & st1 & Hs) Hna Et.
    pose proof (evalD_pure_frames release bi bu d t (st, fr) o (st', fr') Hna Et) as E. cbn [snd] in E. subst fr'.
    split; [reflexivity|].
    destruct Hwfo as [Hw1 Hw2].
    pose proof (evalD_wf release bi bu Hw1 Hw2 d t (st, fr) (proj1 (cfg_wf_iff (st, fr)) Hfr)) as (L & W & V).
    rewrite Et in L, W, V. cbn [fst snd] in L, W, V.
    destruct (Hkeep d _ _ _ _ Et) as [Hlen Hk]. cbn [fst] in Hlen, Hk.
    assert (Hfr' : frames_lt (length st') fr = true) by (apply (cfg_wf_iff (st', fr)); exact W).
    split; [|split; [exact L|exact V]].
    split; [exact Hfr'|split; [eapply eid_any_store; exact Hx|]].
    destruct (store_extension_invariance release bi bu Hops _ (shift_inj (length st) (length st' - length st))
                d s st st' fr (Ok v) st1 fr (sinv_shift st st' Hlen Hk) Hs) as (sB' & E & _).
    rewrite (renFr_shift_fix _ _ fr Hfr) in E. cbn [oren omap obind] in E.
    rewrite (v_fix _ _ (shift_fixes_below (length st) (length st' - length st))) in E.
    exists sB'. exact E.
  Qed.

  (* ---- the relation between C[x] and C[s], both started from (st, fr) ---- *)
  Definition srelG {A} (f : (nat -> nat) -> A -> A) (st : store) (rA rB : outcome A * cfg) : Prop :=
    (exists rho, (forall a b : nat, rho a = rho b -> a = b) /\ fixes_below (length st) rho /\
                 C02Sim.simG rho (f rho) rA rB)
    \/ rB = rA.
  Definition srel2 := srelG ren.
  Definition srelL := srelG (fun rho => map (ren rho)).

  Lemma Hbi' : forall rho, (forall a b : nat, rho a = rho b -> a = b) -> forall cbA cbB, cb_eqv rho cbA cbB ->
    forall op l r, Mfun rho (ren rho) (bi cbA op l r) (bi cbB op (ren rho l) (ren rho r)).
  Proof. intros rho Hinj. exact (proj1 (Hops rho Hinj)). Qed.
  Lemma Hbu' : forall rho, (forall a b : nat, rho a = rho b -> a = b) -> forall cbA cbB, cb_eqv rho cbA cbB ->
    forall b args, Mfun rho (ren rho) (bu cbA b args) (bu cbB b (map (ren rho) args)).
  Proof. intros rho Hinj. exact (proj2 (Hops rho Hinj)). Qed.
  Lemma Hap' : forall rho, (forall a b : nat, rho a = rho b -> a = b) ->
    forall fr0, cb_eqv rho (AD release bi bu d fr0) (AD release bi bu d (renFr rho fr0)).
  Proof. intros rho Hinj fr0. apply (AD_sim rho Hinj release bi bu (Hbi' rho Hinj) (Hbu' rho Hinj)). Qed.
  Lemma sub_sim' : forall rho, (forall a b : nat, rho a = rho b -> a = b) -> forall e sA sB fr0, sinv rho sA sB ->
    C02Sim.simG rho (ren rho) (evD (sA, fr0) e) (evD (sB, renFr rho fr0) e).
  Proof. intros rho Hinj e sA sB fr0 H. apply (evalD_sim rho Hinj release bi bu (Hbi' rho Hinj) (Hbu' rho Hinj)); exact H. Qed.
  Lemma subs_simR : forall rho, (forall a b : nat, rho a = rho b -> a = b) -> forall (l : list expr),
    Forall (simR rho evE evE) l.
  Proof. intros rho Hinj l. apply Forall_forall. intros e _ sA sB fr0 Hs. exact (sub_sim' rho Hinj e sA sB fr0 Hs). Qed.

  Ltac step H :=
    match type of H with C02Sim.simG _ _ ?XA ?XB =>
      revert H; destruct XA as [?rA [?sA ?frA]]; destruct XB as [?rB [?sB ?frB]];
      intros (?E & ?E & ?Hs); cbn [fst snd] in *; subst end.
  Ltac stepM H :=
    match type of H with _ = omap _ (fst ?XA) /\ sinv _ (snd ?XA) (snd ?XB) =>
      revert H; destruct XA as [?rA ?sA]; destruct XB as [?rB ?sB];
      intros (?E & ?Hs); cbn [fst snd] in *; subst end.
  Ltac done := split; [reflexivity|split; [reflexivity|assumption]].
  Ltac same E := right; unfold evalD in *; cbn [evalE]; rewrite E; reflexivity.

  (* the occurrence inside a list of call arguments / list items, after assignment-free ones *)
  Lemma evalL_hole : forall a b rest,
    (forall st, Inv st -> srel2 st (evD (st, fr) a) (evD (st, fr) b)) ->
    forall pre, Forall (fun e => no_assign e = true) pre -> forall st, Inv st ->
      srelL st (evalL evE (st, fr) (pre ++ a :: rest)) (evalL evE (st, fr) (pre ++ b :: rest)).
  Proof.
    intros a b rest Hab pre HF. induction HF as [|t pre Ht _ IH]; intros st HI; cbn [app evalL].
    - destruct (Hab st HI) as [(rho & Hinj & Hfix & H)|E]; [|right; unfold evalD in E; rewrite E; reflexivity].
      left. exists rho. split; [exact Hinj|split; [exact Hfix|]]. unfold evalD in H. step H.
      destruct rA; cbn [omap obind cast_fail]; try done.
      pose proof (evalL_sim rho _ _ rest (subs_simR rho Hinj rest) sA sB frA Hs) as H2. step H2.
      destruct rA; cbn [omap obind map]; done.
    - destruct (evE (st, fr) t) as [o [st' fr']] eqn:Et.
      destruct (Inv_step st t o st' fr' HI Ht Et) as (-> & HI' & Hlen & Hw).
      destruct o as [w| | | |]; try (right; reflexivity).
      destruct (IH st' HI') as [(rho & Hinj & Hfix & H)|E]; [|right; rewrite E; reflexivity].
      left. exists rho. split; [exact Hinj|split; [intros id Hid; apply Hfix; lia|]]. step H.
      destruct rA; cbn [omap obind map]; try done.
      split; [cbn [fst omap obind map]; rewrite (ren_fix_below _ rho Hfix w (Hw w eq_refl)); reflexivity|].
      split; [reflexivity|assumption].
  Qed.
  Theorem sctx_sim : forall eA eB, sctx x s eA eB ->
    forall st, Inv st -> srel2 st (evD (st, fr) eA) (evD (st, fr) eB).
  Proof.
    intros eA eB H. induction H; intros st HI.
    - (* the occurrence *)
      destruct HI as (Hfr & Hx & st1 & Hs). left.
      destruct (Hkeep d _ _ _ _ Hs) as [Hlen Hk]. cbn [fst] in Hlen, Hk.
      exists (shift (length st) (length st1 - length st)).
      split; [apply shift_inj|split; [apply shift_fixes_below|]].
      rewrite Hx, Hs. split; [cbn [fst omap obind]; rewrite (v_fix _ _ (shift_fixes_below _ _)); reflexivity|].
      split; [cbn [fst snd]; symmetry; apply renFr_shift_fix; exact Hfr|]. cbn [fst snd]. apply sinv_shift; assumption.
    - (* EBin, occurrence on the left *)
      destruct (IHsctx st HI) as [(rho & Hinj & Hfix & IH)|E]; [|same E]. left. exists rho. split; [exact Hinj|split; [exact Hfix|]].
      unfold evalD in *. cbn [evalE]. step IH. destruct rA; cbn [omap obind]; try done.
      pose proof (sub_sim' rho Hinj e sA sB frA Hs) as H2. unfold evalD in H2. step H2.
      destruct rA; cbn [omap obind]; try done.
      pose proof (Hbi' rho Hinj _ _ (Hap' rho Hinj frA0) op a0 a1 sA0 sB0 Hs0) as H3. stepM H3. done.
    - (* EBin, sibling first *)
      unfold evalD in *. cbn [evalE]. destruct (evE (st, fr) t) as [o [st' fr']] eqn:Et.
      destruct (Inv_step st t o st' fr' HI H Et) as (-> & HI' & Hlen & Hw).
      destruct o as [w| | | |]; try (right; reflexivity).
      destruct (IHsctx st' HI') as [(rho & Hinj & Hfix & IH)|E]; [|right; rewrite E; reflexivity].
      left. exists rho. split; [exact Hinj|split; [intros id Hid; apply Hfix; lia|]]. step IH.
      destruct rA; cbn [omap obind]; try done.
      pose proof (Hbi' rho Hinj _ _ (Hap' rho Hinj frA) op w a0 sA sB Hs) as H3.
      rewrite (ren_fix_below _ rho Hfix w (Hw w eq_refl)) in H3. stepM H3. done.
    - (* EAccess, occurrence on the left *)
      destruct (IHsctx st HI) as [(rho & Hinj & Hfix & IH)|E]; [|same E]. left. exists rho. split; [exact Hinj|split; [exact Hfix|]].
      unfold evalD in *. cbn [evalE]. step IH. destruct rA; cbn [omap obind]; try done.
      pose proof (sub_sim' rho Hinj e sA sB frA Hs) as H2. unfold evalD in H2. step H2.
      destruct rA; cbn [omap obind]; try done. rewrite (access_val_ren rho). done.
    - (* EAccess, sibling first *)
      unfold evalD in *. cbn [evalE]. destruct (evE (st, fr) t) as [o [st' fr']] eqn:Et.
      destruct (Inv_step st t o st' fr' HI H Et) as (-> & HI' & Hlen & Hw).
      destruct o as [w| | | |]; try (right; reflexivity).
      destruct (IHsctx st' HI') as [(rho & Hinj & Hfix & IH)|E]; [|right; rewrite E; reflexivity].
      left. exists rho. split; [exact Hinj|split; [intros id Hid; apply Hfix; lia|]]. step IH.
      destruct rA; cbn [omap obind]; try done.
      rewrite <- (ren_fix_below _ rho Hfix w (Hw w eq_refl)) at 2. rewrite (access_val_ren rho). done.
    - (* EDot *)
      destruct (IHsctx st HI) as [(rho & Hinj & Hfix & IH)|E]; [|same E]. left. exists rho. split; [exact Hinj|split; [exact Hfix|]].
      unfold evalD in *. cbn [evalE]. step IH. destruct rA; cbn [omap obind]; try done.
      rewrite (dot_val_ren rho). done.
    - (* EUn *)
      destruct (IHsctx st HI) as [(rho & Hinj & Hfix & IH)|E]; [|same E]. left. exists rho. split; [exact Hinj|split; [exact Hfix|]].
      unfold evalD in *. cbn [evalE]. step IH. destruct rA; cbn [omap obind]; try done.
      destruct op; rewrite ?as_number_ren, ?as_bool_ren;
        [destruct (as_number a0)|destruct (as_bool a0)|destruct (as_bool a0)]; done.
    - (* EOutput *)
      destruct (IHsctx st HI) as [IH|E]; [left; exact IH|right; exact E].
    - (* ECond, occurrence in the condition *)
      destruct (IHsctx st HI) as [(rho & Hinj & Hfix & IH)|E]; [|same E]. left. exists rho. split; [exact Hinj|split; [exact Hfix|]].
      unfold evalD in *. cbn [evalE]. step IH. destruct rA; cbn [omap obind]; try done.
      rewrite as_bool_ren. destruct (as_bool a0) as [[|]| | | |]; cbn [cast_fail]; try done.
      + exact (sub_sim' rho Hinj t sA sB frA Hs).
      + exact (sub_sim' rho Hinj f sA sB frA Hs).
    - (* ECond, occurrence in the then-branch: taken or not *)
      unfold evalD in *. cbn [evalE]. destruct (evE (st, fr) t) as [o [st' fr']] eqn:Et.
      destruct (Inv_step st t o st' fr' HI H Et) as (-> & HI' & Hlen & Hw).
      destruct o as [w| | | |]; try (right; reflexivity).
      destruct (as_bool w) as [[|]| | | |]; try (right; reflexivity).
      destruct (IHsctx st' HI') as [(rho & Hinj & Hfix & IH)|E]; [|right; exact E].
      left. exists rho. split; [exact Hinj|split; [intros id Hid; apply Hfix; lia|exact IH]].
    - (* ECond, occurrence in the else-branch *)
      unfold evalD in *. cbn [evalE]. destruct (evE (st, fr) t) as [o [st' fr']] eqn:Et.
      destruct (Inv_step st t o st' fr' HI H Et) as (-> & HI' & Hlen & Hw).
      destruct o as [w| | | |]; try (right; reflexivity).
      destruct (as_bool w) as [[|]| | | |]; try (right; reflexivity).
      destruct (IHsctx st' HI') as [(rho & Hinj & Hfix & IH)|E]; [|right; exact E].
      left. exists rho. split; [exact Hinj|split; [intros id Hid; apply Hfix; lia|exact IH]].
    - (* ECall, occurrence in the callee *)
      destruct (IHsctx st HI) as [(rho & Hinj & Hfix & IH)|E]; [|same E]. left. exists rho. split; [exact Hinj|split; [exact Hfix|]].
      unfold evalD in *. cbn [evalE]. step IH. destruct rA; cbn [omap obind]; try done.
      pose proof (evalL_sim rho _ _ args (subs_simR rho Hinj args) sA sB frA Hs) as H2. step H2.
      destruct rA; cbn [omap obind cast_fail]; try done.
      rewrite is_function_ren. destruct (negb (is_function a0)); [done|].
      pose proof (Hap' rho Hinj frA0 a0 a0 (flatten_spreads a1) sA0 sB0 Hs0) as H3.
      rewrite <- (flatten_spreads_ren rho) in H3. stepM H3. done.
    - (* ECall, occurrence in an argument *)
      unfold evalD in *. cbn [evalE]. destruct (evE (st, fr) t) as [o [st' fr']] eqn:Et.
      destruct (Inv_step st t o st' fr' HI H Et) as (-> & HI' & Hlen & Hw).
      destruct o as [w| | | |]; try (right; reflexivity).
      destruct (evalL_hole a b rest IHsctx pre H0 st' HI') as [(rho & Hinj & Hfix & IH)|E]; [|right; rewrite E; reflexivity].
      left. exists rho. split; [exact Hinj|split; [intros id Hid; apply Hfix; lia|]]. step IH.
      destruct rA; cbn [omap obind cast_fail]; try done.
      destruct (negb (is_function w)); [done|].
      pose proof (Hap' rho Hinj frA w w (flatten_spreads a0) sA sB Hs) as H3.
      rewrite (ren_fix_below _ rho Hfix w (Hw w eq_refl)) in H3.
      rewrite <- (flatten_spreads_ren rho) in H3. stepM H3. done.
    - (* EList *)
      unfold evalD in *. cbn [evalE]. rewrite !evalCL_evalL, !map_app. cbn [map cnode].
      destruct (evalL_hole a b (map cnode rest) IHsctx (map cnode pre) (proj2 (Forall_map _ _ _) H) st HI)
        as [(rho & Hinj & Hfix & IH)|E]; [|right; rewrite E; reflexivity].
      left. exists rho. split; [exact Hinj|split; [exact Hfix|]]. step IH.
      destruct rA; cbn [omap obind fst snd]; try done.
      rewrite flatten_spreads_ren. done.
  Qed.

  (* LET-ABSTRACTION for sequential contexts and cell-free values *)
  Theorem let_abstraction_seq : forall st eA eB rA cA rB cB,
    Inv st -> sctx x s eA eB ->
    evD (st, fr) eA = (rA, cA) -> evD (st, fr) eB = (rB, cB) ->
    osame rA rB.
  Proof.
    intros st eA eB rA cA rB cB HI H HA HB.
    destruct (sctx_sim eA eB H st HI) as [(rho & _ & _ & E1 & _)|E].
    - rewrite HA, HB in E1. cbn [fst] in E1. subst rB. apply osame_oren.
    - rewrite HA, HB in E. inversion E; subst. destruct rA; cbn; try exact I. reflexivity.
  Qed.
  (* if C[s] succeeds then C[x] succeeds (and conversely): in this setting both directions hold, because s is
     known to succeed from every store the context can reach; an error of s pre-empting an earlier error of C
     belongs to the two-statement formulation, see [let_program_stmt] *)
  Corollary let_abstraction_seq_success : forall st eA eB,
    Inv st -> sctx x s eA eB ->
    is_ok (fst (evD (st, fr) eA)) = is_ok (fst (evD (st, fr) eB)).
  Proof.
    intros st eA eB HI H.
    destruct (evD (st, fr) eA) as [rA cA] eqn:HA. destruct (evD (st, fr) eB) as [rB cB] eqn:HB.
    pose proof (let_abstraction_seq st eA eB rA cA rB cB HI H HA HB) as Ho.
    cbn [fst]. destruct rA, rB; cbn in Ho; try contradiction; reflexivity.
  Qed.
End LetGen.

(* ---- kept, not proved ---- *)
(* WEAKENING: a binding of a name that nothing mentions does not influence evaluation.  "Nothing mentions x":
   x is not free in the expression, and no function value reachable from the scope chain has x free in its body
   ([val_mentions], hereditarily through captured scopes) — an invariant of the evaluation of expressions that
   do not mention x.  With it the hypotheses of [let_abstraction_seq] follow from the run of `x = s` itself,
   giving the two-statement law [let_program_stmt].  Without the freshness of x in the FUNCTIONS of the scope the
   law is false:  f = y => x + y; then  x = 1; f(1)  versus  f(1). *)
Fixpoint val_mentions (x : string) (v : value) : bool :=
  match v with
  | VLam _ _ body sc => mem x (free_vars body []) || existsb (fun kv => match kv with (_, w) => val_mentions x w end) sc
  | VList l => existsb (val_mentions x) l
  | VRec r => existsb (fun kv => match kv with (_, w) => val_mentions x w end) r
  | VSpread w => val_mentions x w
  | _ => false
  end.
Definition frames_mention (x : string) (fr : frames) : bool :=
  existsb (fun kf => existsb (fun kv => val_mentions x (snd kv)) (snd kf)) fr.
Definition weakening_stmt : Prop :=
  forall release d x w e st k f fr r st' fr',
    mem x (free_vars e []) = false -> no_assign e = true -> frames_mention x ((k, f) :: fr) = false ->
    val_mentions x w = false ->
    evalD release binop_impl builtin_full d (st, (k, f) :: fr) e = (r, (st', fr')) ->
    evalD release binop_impl builtin_full d (st, (k, (x, w) :: f) :: fr) e = (r, (st', (k, (x, w) :: f) :: fr)).
Definition let_program_stmt : Prop :=
  forall release d x s C_x C_s st fr v c1 rA cA rB cB,
    frames_lt (length st) fr = true -> no_assign s = true -> no_assign C_s = true ->
    sctx x s C_x C_s ->
    (* x fresh *)
    mem x (free_vars C_s []) = false -> frames_mention x fr = false ->
    (* program A:  x = s; C[x]      program B:  C[s]      both succeed *)
    evalD release binop_impl builtin_full d (st, fr) (EAssign x s) = (Ok v, c1) ->
    cell_free v = true ->
    evalD release binop_impl builtin_full d c1 C_x = (Ok rA, cA) ->
    evalD release binop_impl builtin_full d (st, fr) C_s = (Ok rB, cB) ->
    same_up_to_cells rA rB.
