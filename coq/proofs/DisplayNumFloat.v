(* DisplayNumFloat.v — C20: real-number semantics of the f64 operations on the standard
   path (value * scale, .round(), / scale, comparisons), obtained from Flocq's
   BinarySingleNaN correctness lemmas through the SpecFloat equivalences of
   Flocq.IEEE754.PrimFloat (binary_round_aux_equiv: axiom-free).
   Uses the real-number layer: the four standard-library axioms named in DESIGN.md 8. *)
From Coq Require Import ZArith Reals Bool Lia Lra Floats.SpecFloat.
From Flocq Require Import Core.Core IEEE754.BinarySingleNaN IEEE754.PrimFloat.
Require Import Blots.Num.
Open Scope R_scope.

Definition RV (x : num) : R := SF2R radix2 x.
Notation fexp64 := (fexp 53 1024).
Notation rnd64 := (round radix2 fexp64 ZnearestE).
Definition valid (x : num) : Prop := valid_binary 53 1024 x = true.

Local Instance Hprec53 : Prec_gt_0 53 := PrimFloat.Hprec.
Local Instance Hmax1024 : Prec_lt_emax 53 1024 := PrimFloat.Hmax.

Lemma RV_SF2B : forall x (H : valid_binary 53 1024 x = true), B2R (SF2B x H) = RV x.
Proof. intros. apply B2R_SF2B. Qed.

Lemma valid_format : forall x, valid x -> generic_format radix2 fexp64 (RV x).
Proof. intros x H. rewrite <- (RV_SF2B x H). apply generic_format_B2R. Qed.

Lemma finite_SF : forall x, is_finite_SF x = Num.is_finite x.
Proof. now intros [| | |]. Qed.

Lemma IZR_pow2 : forall n, (0 <= n)%Z -> IZR (2 ^ n) = bpow radix2 n.
Proof. intros n H. exact (IZR_Zpower radix2 n H). Qed.

Lemma cond_Ropp_minus : forall s a b, cond_Ropp s a - cond_Ropp s b = cond_Ropp s (a - b).
Proof. intros [|] a b; cbn [cond_Ropp]; ring. Qed.

Lemma RV_finite : forall s m e,
  RV (S754_finite s m e) = cond_Ropp s (IZR (Zpos m) * bpow radix2 e).
Proof. intros. unfold RV. cbn [SF2R]. now rewrite F2R_cond_Zopp. Qed.

(* ---------- comparison ---------- *)
Lemma ncompare_correct : forall x y, valid x -> valid y ->
  Num.is_finite x = true -> Num.is_finite y = true ->
  SFcompare x y = Some (Rcompare (RV x) (RV y)).
Proof.
  intros x y Hx Hy Fx Fy.
  pose proof (Bcompare_correct 53 1024 (SF2B x Hx) (SF2B y Hy)) as C.
  unfold Bcompare in C. rewrite !B2SF_SF2B, !RV_SF2B in C. apply C.
  - rewrite is_finite_SF2B. now rewrite finite_SF.
  - rewrite is_finite_SF2B. now rewrite finite_SF.
Qed.

Lemma nltb_correct : forall x y, valid x -> valid y ->
  Num.is_finite x = true -> Num.is_finite y = true ->
  (nltb x y = true <-> RV x < RV y).
Proof.
  intros x y Hx Hy Fx Fy. unfold nltb, SFltb. rewrite (ncompare_correct x y Hx Hy Fx Fy).
  destruct (Rcompare_spec (RV x) (RV y)); split; intros; try discriminate; try lra; reflexivity.
Qed.

Lemma nleb_correct : forall x y, valid x -> valid y ->
  Num.is_finite x = true -> Num.is_finite y = true ->
  (nleb x y = true <-> RV x <= RV y).
Proof.
  intros x y Hx Hy Fx Fy. unfold nleb, SFleb. rewrite (ncompare_correct x y Hx Hy Fx Fy).
  destruct (Rcompare_spec (RV x) (RV y)); split; intros; try discriminate; try lra; reflexivity.
Qed.

(* ---------- multiplication ---------- *)
Lemma nmul_correct : forall x y, valid x -> valid y ->
  Num.is_finite x = true -> Num.is_finite y = true ->
  Rabs (rnd64 (RV x * RV y)) < bpow radix2 1024 ->
  valid (nmul x y) /\ Num.is_finite (nmul x y) = true /\ RV (nmul x y) = rnd64 (RV x * RV y).
Proof.
  intros [sx|sx| |sx mx ex] [sy|sy| |sy my ey] Hx Hy Fx Fy B; try discriminate;
    try (unfold nmul, SFmul, RV; cbn [SF2R]; rewrite ?Rmult_0_l, ?Rmult_0_r, round_0 by apply valid_rnd_N;
         repeat split; reflexivity).
  unfold nmul, SFmul.
  pose proof (Bmult_correct_aux 53 1024 _ _ mode_NE sx mx ex Hx sy my ey Hy) as C.
  cbv zeta in C. rewrite <- binary_round_aux_equiv in C.
  destruct C as [V C]. unfold RV in B. cbn [SF2R] in B.
  change (round_mode mode_NE) with ZnearestE in C.
  rewrite Rlt_bool_true in C by exact B. destruct C as (E & F & _).
  repeat split; [exact V|now rewrite <- finite_SF|exact E].
Qed.

(* ---------- division ---------- *)
Lemma ndiv_correct : forall x sy my ey, valid x ->
  Num.is_finite x = true ->
  let y := S754_finite sy my ey in
  Rabs (rnd64 (RV x / RV y)) < bpow radix2 1024 ->
  valid (ndiv x y) /\ Num.is_finite (ndiv x y) = true /\ RV (ndiv x y) = rnd64 (RV x / RV y).
Proof.
  intros [sx|sx| |sx mx ex] sy my ey Hx Fx y B; try discriminate.
  - unfold ndiv, SFdiv, RV, y. cbn [SF2R]. unfold Rdiv. rewrite Rmult_0_l, round_0 by apply valid_rnd_N.
    repeat split; reflexivity.
  - unfold ndiv, SFdiv, y, Num.prec, Num.emax.
    pose proof (Bdiv_correct_aux 53 1024 _ _ mode_NE sx mx ex sy my ey) as C.
    cbv zeta in C.
    destruct (SFdiv_core_binary 53 1024 (Z.pos mx) ex (Z.pos my) ey) as [[mz ez] lz].
    rewrite <- binary_round_aux_equiv in C.
    destruct C as [V C]. unfold RV, y in B. cbn [SF2R] in B.
    change (round_mode mode_NE) with ZnearestE in C.
    rewrite Rlt_bool_true in C by exact B. destruct C as (E & F & _).
    repeat split; [exact V|now rewrite <- finite_SF|exact E].
Qed.

(* ---------- integers as doubles ---------- *)
Lemma num_of_sm_correct : forall s n, (0 <= n)%Z ->
  Rabs (rnd64 (IZR (cond_Zopp s n))) < bpow radix2 1024 ->
  valid (num_of_sm s n) /\ Num.is_finite (num_of_sm s n) = true /\
  RV (num_of_sm s n) = rnd64 (IZR (cond_Zopp s n)).
Proof.
  intros s n Hn B. unfold num_of_sm. destruct n as [|p|p]; [| |lia].
  - unfold RV. cbn [SF2R]. replace (cond_Zopp s 0) with 0%Z by now destruct s.
    rewrite round_0 by apply valid_rnd_N. repeat split; reflexivity.
  - pose proof (binary_round_correct 53 1024 _ _ mode_NE s p 0) as C. cbv zeta in C.
    rewrite <- binary_round_equiv in C. destruct C as [V C].
    change (round_mode mode_NE) with ZnearestE in C.
    assert (E0 : @F2R radix2 {| Fnum := cond_Zopp s (Z.pos p); Fexp := 0 |} = IZR (cond_Zopp s (Z.pos p))).
    { unfold F2R. cbn [Fnum Fexp bpow]. ring. }
    rewrite E0 in C. rewrite Rlt_bool_true in C by exact B. destruct C as (E & F & _).
    repeat split; [exact V|now rewrite <- finite_SF|exact E].
Qed.

(* integers below 2^53 are doubles *)
Lemma int_format : forall z, (Z.abs z < 2 ^ 53)%Z -> generic_format radix2 fexp64 (IZR z).
Proof.
  intros z H. apply generic_format_FLT.
  apply (FLT_spec radix2 (3 - 1024 - 53) 53 (IZR z) (Float radix2 z 0)).
  - unfold F2R. cbn [Fnum Fexp bpow]. ring.
  - exact H.
  - cbn [Fexp]. lia.
Qed.

(* an integer less than one away from a real in [lo, hi) lies in [lo, hi] *)
Lemma int_near_range : forall n lo hi v,
  Rabs (IZR n - v) < 1 -> IZR lo <= v < IZR hi -> (lo <= n <= hi)%Z.
Proof.
  intros n lo hi v H [L U]. apply Rabs_def2 in H.
  assert (A : (lo - 1 < n)%Z) by (apply lt_IZR; rewrite minus_IZR; lra).
  assert (B : (n < hi + 1)%Z) by (apply lt_IZR; rewrite plus_IZR; lra).
  lia.
Qed.

(* ---------- f64::round (half away from zero) ---------- *)
(* q or q + 1, whichever is nearer to q + r / 2^d (q + 1 on a tie) *)
Lemma round_half_up_close : forall q r d : Z, (0 <= r < 2 ^ d)%Z -> (0 <= d)%Z ->
  Rabs (IZR (if (2 * r >=? 2 ^ d)%Z then q + 1 else q) - (IZR q + IZR r / bpow radix2 d)) <= / 2.
Proof.
  intros q r d Hr Hd. set (B := bpow radix2 d). assert (HB : 0 < B) by apply bpow_gt_0.
  assert (EB : IZR (2 ^ d) = B) by now apply IZR_pow2.
  assert (Er : IZR r = IZR r / B * B) by (field; lra).
  assert (Hr' : 0 <= IZR r < B) by (rewrite <- EB; split; [apply IZR_le|apply IZR_lt]; lia).
  set (t := IZR r / B) in *.
  destruct (2 * r >=? 2 ^ d)%Z eqn:C.
  - apply Z.geb_le, IZR_le in C. rewrite mult_IZR, EB in C.
    rewrite plus_IZR. apply Rabs_le. nra.
  - rewrite Z.geb_leb in C. apply Z.leb_gt, IZR_lt in C. rewrite mult_IZR, EB in C.
    apply Rabs_le. nra.
Qed.

Lemma nround_value : forall x, Num.is_finite x = true ->
  exists n : Z, (0 <= n)%Z /\
    nround x = num_of_sm (nsign x) n /\
    Rabs (IZR (cond_Zopp (nsign x) n) - RV x) <= / 2.
Proof.
  intros [s|s| |s m e] F; try discriminate F.
  - exists 0%Z. split; [lia|]. split; [reflexivity|]. unfold RV. cbn [SF2R nsign].
    rewrite IZR_cond_Zopp, Rminus_0_r, abs_cond_Ropp, Rabs_R0. lra.
  - cbn [nsign].
    assert (SG : forall n : Z, Rabs (IZR (cond_Zopp s n) - RV (S754_finite s m e)) =
                               Rabs (IZR n - IZR (Z.pos m) * bpow radix2 e)).
    { intros n. now rewrite RV_finite, IZR_cond_Zopp, cond_Ropp_minus, abs_cond_Ropp. }
    unfold nround, split_int. destruct (0 <=? e)%Z eqn:E.
    + apply Z.leb_le in E. exists (Z.pos m * 2 ^ e)%Z. split; [apply Z.mul_nonneg_nonneg; lia|].
      split; [cbn [Z.eqb andb]; reflexivity|].
      rewrite SG, mult_IZR, IZR_pow2, Rminus_diag_eq, Rabs_R0 by (reflexivity || exact E). lra.
    + apply Z.leb_gt in E. set (d := (- e)%Z). assert (Hd : (0 < d)%Z) by (unfold d; lia).
      set (q := (Z.pos m / 2 ^ d)%Z). set (r := (Z.pos m mod 2 ^ d)%Z).
      assert (P : (0 < 2 ^ d)%Z) by (apply Z.pow_pos_nonneg; lia).
      pose proof (Z.div_mod (Z.pos m) (2 ^ d) ltac:(lia)) as DM. fold q r in DM.
      pose proof (Z.mod_pos_bound (Z.pos m) (2 ^ d) P) as RB. fold r in RB.
      assert (Hq : (0 <= q)%Z) by (unfold q; apply Z.div_pos; lia).
      assert (Ed : (d =? 0)%Z = false) by (apply Z.eqb_neq; lia). rewrite Ed, andb_true_r.
      exists (if (2 * r >=? 2 ^ d)%Z then q + 1 else q)%Z.
      split; [destruct (2 * r >=? 2 ^ d)%Z; lia|]. split; [reflexivity|].
      rewrite SG. replace (IZR (Z.pos m) * bpow radix2 e) with (IZR q + IZR r / bpow radix2 d).
      * apply round_half_up_close; lia.
      * rewrite DM at 1. rewrite plus_IZR, mult_IZR, IZR_pow2 by lia.
        replace e with (- d)%Z by (unfold d; lia). rewrite bpow_opp. field.
        apply Rgt_not_eq, bpow_gt_0.
Qed.
