(* proofs/NumTextRef.v — the executable reference rn_decimal IS IEEE-754 round-to-nearest-even
   of the decimal's rational value (Flocq's [round radix2 (FLT_exp -1074 53) ZnearestE]),
   with overflow to infinity at 2^1024. *)
From Coq Require Import ZArith Reals Floats.SpecFloat Bool Lia Lra.
From Flocq Require Import Core.Core IEEE754.BinarySingleNaN.
Require Import Blots.Num Blots.NumText Blots.proofs.SpecFlocq Blots.proofs.NumTextFloat.
Open Scope Z_scope.

Local Existing Instance Hprec.
Local Existing Instance Hmax.
Local Instance fexp64_valid : Valid_exp fexp64 := fexp_correct 53 1024 Hprec.

(* the rational m * 10^e as a real *)
Definition dec_R (m e : Z) : R :=
  if 0 <=? e then IZR (m * 10 ^ e) else (IZR m / IZR (10 ^ (- e)))%R.

Definition rne (v : R) : R := round radix2 fexp64 ZnearestE v.

(* what it means for a spec_float to be the rounding of v (overflow -> +infinity) *)
Definition is_rounding_pos (z : spec_float) (v : R) : Prop :=
  vb z = true /\
  if Rlt_bool (Rabs (rne v)) (bpow radix2 1024)
  then SF2R radix2 z = rne v /\ is_finite_SF z = true /\ sign_SF z = false
  else z = S754_infinity false.

Lemma rn_pos_main_nonneg : forall m e p, 0 <= e -> Zpos m * 10 ^ e = Zpos p ->
  is_rounding_pos (SpecFloat.binary_round 53 1024 false p 0) (dec_R (Zpos m) e).
Proof.
  intros m e p He Hp. unfold is_rounding_pos, dec_R, rne.
  replace (0 <=? e) with true by (symmetry; now apply Z.leb_le).
  rewrite Hp, binary_round_equiv.
  generalize (binary_round_correct 53 1024 Hprec Hmax mode_NE false p 0). cbv zeta.
  cbn [cond_Zopp]. rewrite F2R_int.
  intros [Hv H]. split; [exact Hv|]. exact H.
Qed.

Lemma rn_pos_main_neg : forall m e d, e < 0 -> 10 ^ (- e) = Zpos d ->
  is_rounding_pos (rn_ratio m d) (dec_R (Zpos m) e).
Proof.
  intros m e d He Hd. unfold is_rounding_pos, dec_R, rne, rn_ratio, Num.prec, Num.emax.
  replace (0 <=? e) with false by (symmetry; now apply Z.leb_gt).
  rewrite Hd.
  generalize (Bdiv_correct_aux 53 1024 Hprec Hmax mode_NE false m 0 false d 0). cbv zeta.
  cbn [cond_Zopp]. rewrite !F2R_int.
  destruct (SFdiv_core_binary 53 1024 (Zpos m) 0 (Zpos d) 0) as [[q e'] l].
  rewrite binary_round_aux_equiv. cbn [xorb].
  intros [Hv H]. split; [exact Hv|]. exact H.
Qed.

(* ---------------------------------------------------------------- the two guards of rn_pos *)
(* 8 <= 10 *)
Lemma pow10_ge_pow2 : forall k n, 0 <= n <= 3 * k -> 2 ^ n <= 10 ^ k.
Proof.
  intros k n Hn. apply Z.le_trans with (2 ^ (3 * k)).
  - apply Z.pow_le_mono_r; lia.
  - rewrite Z.pow_mul_r by lia. apply Z.pow_le_mono_l. split; discriminate.
Qed.

Lemma rne_bpow_1024 : rne (bpow radix2 1024) = bpow radix2 1024.
Proof.
  unfold rne. apply round_generic; auto with typeclass_instances.
  apply generic_format_bpow. vm_compute. discriminate.
Qed.

Lemma rn_pos_overflow_guard : forall m e, 400 < e ->
  is_rounding_pos (S754_infinity false) (dec_R (Zpos m) e).
Proof.
  intros m e He. unfold is_rounding_pos, dec_R.
  replace (0 <=? e) with true by (symmetry; apply Z.leb_le; lia).
  split; [reflexivity|].
  rewrite Rlt_bool_false; [reflexivity|].
  assert (Hle : (bpow radix2 1024 <= IZR (Zpos m * 10 ^ e))%R).
  { rewrite <- IZR_Zpower by lia. apply IZR_le. change (radix2 ^ 1024) with (2 ^ 1024).
    apply Z.le_trans with (1 * 10 ^ e); [rewrite Z.mul_1_l; apply pow10_ge_pow2; lia|].
    apply Z.mul_le_mono_nonneg_r; [apply Z.pow_nonneg|]; lia. }
  apply Rle_trans with (rne (IZR (Zpos m * 10 ^ e))).
  - rewrite <- rne_bpow_1024. unfold rne. apply round_le; auto with typeclass_instances.
  - apply Rle_abs.
Qed.

(* m < 2^(log2 m + 1), so m * 2^p is below 10^k as soon as p + log2 m < 3 k *)
Lemma small_ratio : forall m k p, 0 <= p -> p + Z.log2 (Zpos m) < 3 * k -> Zpos m * 2 ^ p <= 10 ^ k.
Proof.
  intros m k p Hp Hk. set (L := Z.log2 (Zpos m)) in *.
  assert (HL : 0 <= L) by apply Z.log2_nonneg.
  destruct (Z.log2_spec (Zpos m) ltac:(lia)) as [_ Hm]. fold L in Hm.
  apply Z.le_trans with (2 ^ (Z.succ L + p)); [|apply pow10_ge_pow2; lia].
  rewrite Z.pow_add_r by lia. apply Z.mul_le_mono_nonneg_r; [apply Z.pow_nonneg|]; lia.
Qed.
Lemma ratio_le_bpow_neg : forall m d p, 0 < d -> 0 <= p -> m * 2 ^ p <= d ->
  (IZR m / IZR d <= bpow radix2 (- p))%R.
Proof.
  intros m d p Hd Hp H.
  assert (HD : (0 < IZR d)%R) by (apply IZR_lt; exact Hd).
  rewrite bpow_opp.
  apply Rmult_le_reg_r with (IZR d); [exact HD|].
  unfold Rdiv. rewrite Rmult_assoc, Rinv_l, Rmult_1_r by (apply Rgt_not_eq; exact HD).
  apply Rmult_le_reg_l with (bpow radix2 p); [apply bpow_gt_0|].
  rewrite <- Rmult_assoc, Rinv_r, Rmult_1_l by (apply Rgt_not_eq, bpow_gt_0).
  rewrite <- IZR_Zpower by exact Hp. rewrite <- mult_IZR. apply IZR_le.
  change (radix2 ^ p) with (2 ^ p). now rewrite Z.mul_comm.
Qed.

Lemma rne_tiny : forall v, (0 <= v <= bpow radix2 (-1076))%R -> rne v = 0%R.
Proof.
  intros v [H0 H1]. apply Rle_antisym.
  - replace 0%R with (rne (bpow radix2 (-1076))).
    + unfold rne. apply round_le; auto with typeclass_instances.
    + unfold rne. apply (round_N_small_pos radix2 fexp64 _ _ (-1075)).
      * split; [apply Rle_refl | apply bpow_lt; lia].
      * vm_compute. reflexivity.
  - replace 0%R with (rne 0) by (unfold rne; apply round_0; auto with typeclass_instances).
    unfold rne. apply round_le; auto with typeclass_instances.
Qed.

Lemma rn_pos_underflow_guard : forall m e, e < - (400 + Z.log2 (Zpos m)) ->
  is_rounding_pos (S754_zero false) (dec_R (Zpos m) e).
Proof.
  intros m e He. unfold is_rounding_pos, dec_R.
  assert (HL : 0 <= Z.log2 (Zpos m)) by apply Z.log2_nonneg.
  replace (0 <=? e) with false by (symmetry; apply Z.leb_gt; lia).
  split; [reflexivity|].
  assert (HD : 0 < 10 ^ (- e)) by (apply Z.pow_pos_nonneg; lia).
  assert (Hz : rne (IZR (Zpos m) / IZR (10 ^ (- e))) = 0%R).
  { apply rne_tiny. split.
    - apply Rmult_le_pos; [apply IZR_le; lia | left; apply Rinv_0_lt_compat, IZR_lt, HD].
    - apply (ratio_le_bpow_neg _ _ 1076 HD); [lia|]. apply small_ratio; lia. }
  rewrite Hz, Rabs_R0. rewrite Rlt_bool_true by apply bpow_gt_0.
  repeat split; reflexivity.
Qed.

(* ---------------------------------------------------------------- rn_pos, rn_decimal *)
Theorem rn_pos_correct : forall m e, is_rounding_pos (rn_pos m e) (dec_R (Zpos m) e).
Proof.
  intros m e. unfold rn_pos.
  destruct (400 <? e) eqn:E1; [apply rn_pos_overflow_guard; now apply Z.ltb_lt|].
  destruct (e <? - (400 + Z.log2 (Zpos m))) eqn:E2; [apply rn_pos_underflow_guard; now apply Z.ltb_lt|].
  destruct (0 <=? e) eqn:E3.
  - apply Z.leb_le in E3.
    assert (Hp : exists p, Zpos m * 10 ^ e = Zpos p).
    { assert (0 < 10 ^ e) by (apply Z.pow_pos_nonneg; lia).
      destruct (Zpos m * 10 ^ e) eqn:E; try (exists p; reflexivity); nia. }
    destruct Hp as [p Hp]. rewrite Hp. unfold Num.prec, Num.emax. now apply rn_pos_main_nonneg.
  - apply Z.leb_gt in E3.
    assert (Hd : exists d, 10 ^ (- e) = Zpos d).
    { assert (0 < 10 ^ (- e)) by (apply Z.pow_pos_nonneg; lia).
      destruct (10 ^ (- e)) eqn:E; try (exists p; reflexivity); lia. }
    destruct Hd as [d Hd]. rewrite Hd. now apply rn_pos_main_neg.
Qed.

(* the signed statement: for m > 0, rn_decimal s m e is a valid double; when the rounded
   magnitude is below 2^1024 its real value is (-1)^s * RNE(m * 10^e) and its sign bit is s;
   otherwise it is the infinity of sign s *)
Theorem rn_decimal_correct : forall s m e,
  let v := dec_R (Zpos m) e in
  let z := rn_decimal s (Zpos m) e in
  vb z = true /\
  if Rlt_bool (Rabs (rne v)) (bpow radix2 1024)
  then SF2R radix2 z = (if s then - rne v else rne v)%R /\ is_finite_SF z = true /\ sign_SF z = s
  else z = S754_infinity s.
Proof.
  intros s m e v z. unfold z, rn_decimal.
  destruct (rn_pos_correct m e) as [Hv H]. fold v in H.
  destruct (Rlt_bool (Rabs (rne v)) (bpow radix2 1024)).
  - destruct H as (HR & HF & HS).
    destruct (rn_pos m e) as [sz|sz| |sz mz ez]; try discriminate HF; simpl in HS; subst sz.
    + destruct s; simpl in *; repeat split; auto. rewrite <- HR. lra.
    + destruct s; cbn [with_sign SFopp negb].
      * repeat split; auto. cbn [SF2R]. cbn [SF2R] in HR. rewrite <- HR.
        rewrite <- F2R_Zopp. reflexivity.
      * repeat split; auto.
  - rewrite H. destruct s; split; reflexivity.
Qed.

(* `n as f64` for a positive integer (num_of_Z, used by the radix literals) is RNE of the integer *)
Theorem num_of_Z_correct : forall p, is_rounding_pos (num_of_Z (Zpos p)) (IZR (Zpos p)).
Proof.
  intros p. generalize (rn_pos_main_nonneg p 0 p ltac:(lia) ltac:(rewrite Z.pow_0_r; lia)).
  unfold dec_R. change (0 <=? 0) with true. cbv iota. rewrite Z.pow_0_r, Z.mul_1_r. exact (fun H => H).
Qed.
