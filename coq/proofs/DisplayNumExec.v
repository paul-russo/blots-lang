(* DisplayNumExec.v — C20: the executable powi model (compiler-builtins __powidf2 over SFmul /
   SFdiv) satisfies the powi hypotheses of the accuracy theorems:
     powi_exec 10 j = 10^j exactly for 0 <= j <= 22,
     powi_exec 10 j = rnd64 (10^j) and >= 10^j for -4 <= j <= -1.
   (powi_exec itself is compared with Rust's f64::powi by the ORACLE-powi stream.) *)
From Coq Require Import ZArith Reals Bool List Lia Lra QArith Qreals Qabs Qpower Floats.SpecFloat.
From Flocq Require Import Core.Core IEEE754.BinarySingleNaN.
Require Import Blots.Num Blots.Outcome Blots.DisplayNum.
Require Import Blots.proofs.DisplayNumGroup Blots.proofs.DisplayNumSpec Blots.proofs.DisplayNumText
               Blots.proofs.DisplayNumInt Blots.proofs.DisplayNum Blots.proofs.DisplayNumAcc
               Blots.proofs.DisplayNumFloat Blots.proofs.DisplayNumFinite Blots.proofs.DisplayNumAccStd
               Blots.proofs.DisplayNumAccAll.
Import ListNotations.
Open Scope R_scope.

(* a boolean test on every integer of lo, lo + 1, ..., lo + n - 1 *)
Fixpoint forall_range (n : nat) (lo : Z) (P : Z -> bool) : bool :=
  match n with O => true | S n' => P lo && forall_range n' (lo + 1)%Z P end.

Lemma forall_range_spec : forall n lo P, forall_range n lo P = true ->
  forall z, (lo <= z < lo + Z.of_nat n)%Z -> P z = true.
Proof.
  induction n as [|n IH]; intros lo P H z Hz; [lia|].
  cbn [forall_range] in H. apply andb_true_iff in H. destruct H as [H0 H1].
  destruct (Z.eq_dec z lo) as [->|Ne]; [exact H0|].
  apply (IH (lo + 1)%Z P H1). lia.
Qed.

(* value of a double through the rationals (so that concrete facts are decided by vm_compute) *)
Lemma RV_of_Q : forall x (z : Z), Qeq_bool (num_to_Q x) (inject_Z z) = true -> RV x = IZR z.
Proof.
  intros x z H. apply Qeq_bool_eq in H. apply Qeq_eqR in H.
  now rewrite Q2R_num, Q2R_inject_Z in H.
Qed.

Definition pos_pow_ok (j : Z) : bool :=
  match powi_exec c_ten j with
  | S754_finite _ _ _ => valid_binary 53 1024 (powi_exec c_ten j) &&
                         Qeq_bool (num_to_Q (powi_exec c_ten j)) (inject_Z (10 ^ j))
  | _ => false
  end.

Lemma pos_pow_all : forall_range 23 0 pos_pow_ok = true.
Proof. vm_compute. reflexivity. Qed.

Theorem powi_exec_exact : forall j, (0 <= j <= 22)%Z ->
  valid (powi_exec c_ten j) /\ (exists s m e, powi_exec c_ten j = S754_finite s m e) /\
  RV (powi_exec c_ten j) = p10 j.
Proof.
  intros j Hj.
  pose proof (forall_range_spec _ _ _ pos_pow_all j ltac:(lia)) as P. unfold pos_pow_ok in P.
  destruct (powi_exec c_ten j) as [| | |s m e] eqn:E; try discriminate P.
  apply andb_true_iff in P. destruct P as [V Q].
  repeat split.
  - exact V.
  - now exists s, m, e.
  - rewrite (RV_of_Q _ _ Q). now apply IZR_pow10.
Qed.

(* negative exponents: 1 / 10^k, correctly rounded by SFdiv *)
Definition neg_pow_ok (k : Z) : bool :=
  valid_binary 53 1024 (powi_exec c_ten (- k)) &&
  match powi_exec c_ten (- k) with S754_finite _ _ _ => true | _ => false end &&
  Qle_bool (Qpower (10 # 1) (- k)) (num_to_Q (powi_exec c_ten (- k))).

Lemma neg_pow_all : forall_range 4 1 neg_pow_ok = true.
Proof. vm_compute. reflexivity. Qed.

Lemma powi_exec_neg_unfold : forall k, (0 < k)%Z ->
  powi_exec c_ten (- k) = ndiv c_one (powi_exec c_ten k).
Proof.
  intros k Hk. unfold powi_exec. rewrite Z.abs_opp.
  destruct (- k <? 0)%Z eqn:A; [|apply Z.ltb_ge in A; lia].
  destruct (k <? 0)%Z eqn:B; [apply Z.ltb_lt in B; lia|]. reflexivity.
Qed.

Theorem powi_exec_neg : forall j, (-4 <= j <= -1)%Z ->
  valid (powi_exec c_ten j) /\ (exists s m e, powi_exec c_ten j = S754_finite s m e) /\
  RV (powi_exec c_ten j) = rnd64 (p10 j) /\ p10 j <= RV (powi_exec c_ten j).
Proof.
  intros j Hj. set (k := (- j)%Z). assert (Hk : (1 <= k <= 4)%Z) by (unfold k; lia).
  replace j with (- k)%Z by (unfold k; lia).
  pose proof (forall_range_spec _ _ _ neg_pow_all k ltac:(lia)) as P. unfold neg_pow_ok in P.
  apply andb_true_iff in P. destruct P as [P L]. apply andb_true_iff in P. destruct P as [V F].
  repeat split.
  - exact V.
  - destruct (powi_exec c_ten (- k)) as [| | |s m e]; try discriminate F. now exists s, m, e.
  - rewrite powi_exec_neg_unfold by lia.
    destruct (powi_exec_exact k ltac:(lia)) as (Vk & (s & m & e & Ek) & Rk).
    rewrite Ek in *.
    assert (B : Rabs (rnd64 (RV c_one / RV (S754_finite s m e))) < bpow radix2 1024).
    { rewrite RV_c_one, Rk. apply (rnd_lt_emax _ 0); [lia|].
      unfold Rdiv. rewrite Rmult_1_l, <- bpow_opp. rewrite Rabs_pos_eq by apply bpow_ge_0.
      change (bpow radix2 0) with (p10 0). apply bpow_le. lia. }
    destruct (ndiv_correct c_one s m e ltac:(reflexivity) ltac:(reflexivity) B) as (_ & _ & E).
    rewrite E, RV_c_one, Rk. unfold Rdiv. rewrite Rmult_1_l, <- bpow_opp. reflexivity.
  - apply Qle_bool_iff in L. apply Qle_Rle in L. now rewrite Q2R_p10, Q2R_num in L.
Qed.
