(* AggPanics.v — no arity-respecting call of an aggregate built-in aborts (the C01 side of C15).
   Before /repo commit 710ac9a two input classes did abort (DESIGN section 7, F1 and F2): a NaN
   among >= 2 numbers reaching the sort of median / percentile, and percentile of an empty list.
   The guards added by that commit are transcribed in BuiltinsAgg.v; this file proves that with
   them every partial operation on the modelled paths is guarded, and what the guards return. *)
From Coq Require Import ZArith String List Bool Lia Floats.SpecFloat Permutation Arith.
Require Import Blots.Num Blots.gen.Builtins Blots.Ast Blots.Value Blots.Show Blots.Outcome
  Blots.BuiltinsAgg Blots.proofs.Order Blots.proofs.Aggregates Blots.proofs.AggPercentile.
Import ListNotations.
Open Scope Z_scope.

(* side conditions on a percentile call: p is a genuine double, the list fits in memory *)
Definition args_ok (args : list value) : Prop :=
  forall vs p, args = [VList vs; VNum p] -> valid p = true /\ len vs <= 2^53.

Definition ok_or_err {A} (o : outcome A) : Prop := (exists v, o = Ok v) \/ o = Err.

Lemma mapM_as_number_cases l :
  (exists ns, mapM as_number l = Ok ns /\ length ns = length l) \/ mapM as_number l = Err.
Proof.
  induction l as [|v l IH]; [left; exists []; auto|]. cbn [mapM].
  destruct v; cbn; auto. destruct IH as [(ns & -> & E)| ->]; cbn; [|auto].
  left. eexists; split; [reflexivity|]. cbn. now rewrite E.
Qed.

Lemma collect_nums_cases args : ok_or_err (collect_nums args).
Proof.
  unfold ok_or_err.
  assert (M : forall l, (exists v, mapM as_number l = Ok v) \/ mapM as_number l = Err).
  { intros l. destruct (mapM_as_number_cases l) as [(ns & -> & _)| ->]; eauto. }
  destruct args as [|a [|b r]]; [apply M| |]; destruct a; cbn [collect_nums]; try apply M; cbn; eauto.
Qed.

Lemma insert_pc_length x : forall l s, insert_pc x l = Ok s -> length s = S (length l).
Proof.
  induction l as [|y r IH]; intros s H; cbn in H.
  - now injection H as <-.
  - destruct (ncmp x y) as [[]|]; try discriminate.
    + destruct (insert_pc x r) eqn:E; try discriminate. injection H as <-. cbn. now rewrite (IH _ eq_refl).
    + now injection H as <-.
    + destruct (insert_pc x r) eqn:E; try discriminate. injection H as <-. cbn. now rewrite (IH _ eq_refl).
Qed.
Lemma sort_from_length l : forall acc s,
  sort_from (Ok acc) l = Ok s -> length s = (length acc + length l)%nat.
Proof.
  induction l as [|x l IH]; intros acc s H.
  - cbn in H. injection H as <-. cbn. lia.
  - rewrite sort_from_cons in H. destruct (insert_pc x acc) eqn:E.
    + apply insert_pc_length in E. rewrite (IH _ _ H), E. cbn. lia.
    + clear - H. exfalso. induction l; cbn in H; auto; discriminate.
    + clear - H. exfalso. induction l; cbn in H; auto; discriminate.
    + rewrite sort_from_panic in H. discriminate.
    + clear - H. exfalso. induction l; cbn in H; auto; discriminate.
Qed.
Lemma sort_pc_length l s : sort_pc l = Ok s -> length s = length l.
Proof. intros H. now rewrite (sort_from_length l [] s H). Qed.

(* the tail of median after a successful sort never aborts *)
Lemma median_tail_ok s : s <> [] ->
  exists v, (let n := len s in
             if n mod 2 =? 0
             then do x <- index_num s (n / 2 - 1); do y <- index_num s (n / 2); Ok (VNum (ndiv (nadd x y) n2))
             else do x <- index_num s (n / 2); Ok (VNum x)) = Ok v.
Proof.
  intros Hne. cbv zeta.
  assert (L : 1 <= len s) by (unfold len; destruct s; [contradiction|cbn; lia]).
  destruct (len s mod 2 =? 0) eqn:E.
  - apply Z.eqb_eq in E.
    assert (2 <= len s) by (destruct (Z.eq_dec (len s) 1) as [X|X]; [rewrite X in E; discriminate|lia]).
    destruct (index_num_nth s (len s / 2 - 1)) as (x & -> & _).
    { split; [assert (1 <= len s / 2) by (apply Z.div_le_lower_bound; lia); lia|].
      assert (len s / 2 < len s) by (apply Z.div_lt; lia). lia. }
    destruct (index_num_nth s (len s / 2)) as (y & -> & _).
    { split; [apply Z.div_pos; lia|apply Z.div_lt; lia]. }
    cbn. eauto.
  - destruct (index_num_nth s (len s / 2)) as (y & -> & _).
    { split; [apply Z.div_pos; lia|apply Z.div_lt; lia]. }
    cbn. eauto.
Qed.

Lemma nan_free_of_has_nan ns : has_nan ns = false -> nan_free ns = true.
Proof. intros H. rewrite has_nan_nan_free in H. now apply negb_false_iff in H. Qed.

Lemma index_num_nil i : index_num [] i = Panic.
Proof.
  unfold index_num, len. cbn [length Z.of_nat].
  destruct (i <? 0) eqn:E; [reflexivity|]. replace (0 <=? i) with true by lia. reflexivity.
Qed.

Lemma dot_loop_cases b : forall a s, ok_or_err (dot_loop s a b).
Proof.
  unfold ok_or_err. induction b as [|y b IH]; intros a s; destruct a as [|x a]; cbn; eauto.
  destruct x; cbn; auto. destruct y; cbn; auto.
Qed.

(* what median returns, case by case *)
Lemma bi_median_outcome args :
  match collect_nums args with
  | Ok ns => if is_empty ns then bi_median args = Err
             else if has_nan ns then bi_median args = Ok (VNum nnan)
             else exists v, bi_median args = Ok v
  | _ => bi_median args = Err
  end.
Proof.
  assert (E := bi_agg_collect AMedian args eq_refl). cbn [bi_agg] in E. rewrite E. clear E.
  destruct (collect_nums_cases args) as [(ns & ->)| ->]; [|reflexivity]. cbn [obind].
  destruct ns as [|x ns]; [reflexivity|]. cbn [is_empty reduce].
  destruct (has_nan (x :: ns)) eqn:C; [reflexivity|].
  destruct (sort_pc_sorts (x :: ns) (nan_free_of_has_nan _ C)) as (s & Hs & P & _).
  rewrite Hs. cbn [obind]. apply median_tail_ok.
  intros ->. apply Permutation_sym, Permutation_nil in P. discriminate.
Qed.

(* what percentile returns, case by case *)
Lemma percentile_outcome vs p : valid p = true -> len vs <= 2^53 ->
  let args := [VList vs; VNum p] in
  if in_0_100 p then
    match mapM as_number vs with
    | Ok ns => if is_empty ns then bi_percentile args = Err
               else if has_nan ns then bi_percentile args = Ok (VNum nnan)
               else exists v, bi_percentile args = Ok v
    | _ => bi_percentile args = Err
    end
  else bi_percentile args = Err.
Proof.
  intros Vp Hlen args. unfold args, bi_percentile, bi_percentile_gen.
  cbn [arg nth_error obind as_number as_list].
  destruct (in_0_100 p) eqn:Hp; [|reflexivity]. cbn [negb].
  destruct (mapM_as_number_cases vs) as [(ns & -> & L)| ->]; [|reflexivity]. cbn [obind].
  destruct ns as [|x ns]; [reflexivity|]. cbn [is_empty].
  destruct (has_nan (x :: ns)) eqn:C; [reflexivity|].
  destruct (sort_pc_sorts (x :: ns) (nan_free_of_has_nan _ C)) as (s & Hs & P & _).
  rewrite Hs. cbn [obind]. assert (Ls := Permutation_length P). cbn [length] in Ls.
  assert (L1 : 1 <= len s) by (unfold len; lia).
  unfold usize_sub. replace (len s <? 1) with false by lia. cbn [obind].
  assert (LS : len s <= 2^53) by (unfold len in *; cbn [length] in L; lia).
  assert (R := index_in_range p (len s - 1) Vp Hp ltac:(lia)).
  destruct (index_num_nth s (percentile_index p (len s - 1))) as (v & -> & _); [lia|].
  cbn. eauto.
Qed.

(* ---------- the theorem: an arity-respecting call returns a value or an error ---------- *)
(* all but percentile, whose bound on the rounded index is proved over the reals *)
Lemma bi_agg_total a args : a <> APercentile ->
  arity_ok (builtin_arity (agg_builtin a)) (length args) = true -> ok_or_err (bi_agg a args).
Proof.
  intros Hne Ar. unfold ok_or_err.
  assert (V : forall f, is_varargs f = true -> f <> AMedian ->
              (exists v, bi_agg f args = Ok v) \/ bi_agg f args = Err).
  { intros f Hf Hm. rewrite (bi_agg_collect f args Hf).
    destruct (collect_nums_cases args) as [(ns & ->)| ->]; [|now right]. cbn [obind].
    destruct ns; [now right|]. cbn [is_empty]. destruct f; try discriminate; try congruence; cbn; eauto. }
  destruct a; cbn [bi_agg]; try congruence.
  1-5: (apply (V AMin) || apply (V AMax) || apply (V AAvg) || apply (V ASum) || apply (V AProd));
       [reflexivity|discriminate].
  - (* median *)
    assert (O := bi_median_outcome args).
    destruct (collect_nums args) as [ns| | | |]; try (rewrite O; now right).
    destruct ns as [|x ns]; [rewrite O; now right|]. cbn [is_empty] in O.
    destruct (has_nan (x :: ns)); [rewrite O; eauto|]. destruct O as (v & ->). eauto.
  - (* any *)
    cbn in Ar. destruct args as [|a0 [|? ?]]; try discriminate.
    unfold bi_any. cbn. destruct a0; cbn; eauto.
  - cbn in Ar. destruct args as [|a0 [|? ?]]; try discriminate.
    unfold bi_all. cbn. destruct a0; cbn; eauto.
  - (* dot *)
    cbn in Ar. destruct args as [|a0 [|a1 [|? ?]]]; try discriminate.
    unfold bi_dot. cbn. destruct a0; cbn; eauto. destruct a1; cbn; eauto.
    destruct (negb (length l =? length l0)%nat); [now right|].
    destruct (dot_loop_cases l0 l n0) as [(v & ->)| ->]; cbn; eauto.
Qed.

Theorem checked_call_total a args : args_ok args -> ok_or_err (checked_call a args).
Proof.
  intros Hok. unfold checked_call.
  destruct (arity_ok (builtin_arity (agg_builtin a)) (length args)) eqn:Ar; [|now right].
  destruct a; try (apply bi_agg_total; [discriminate|exact Ar]).
  unfold ok_or_err. cbn [bi_agg].
  cbn in Ar. destruct args as [|a0 [|a1 [|? ?]]]; try discriminate.
  destruct a1; try (right; unfold bi_percentile, bi_percentile_gen; reflexivity).
  destruct a0; try (right; unfold bi_percentile, bi_percentile_gen; reflexivity).
  destruct (Hok l x eq_refl) as [Vp Hl].
  assert (O := percentile_outcome l x Vp Hl). cbv zeta in O.
  destruct (in_0_100 x); [|rewrite O; now right].
  destruct (mapM as_number l) as [ns| | | |]; try (rewrite O; now right).
  destruct ns as [|y ns]; [rewrite O; now right|]. cbn [is_empty] in O.
  destruct (has_nan (y :: ns)); [rewrite O; eauto|]. destruct O as (v & ->). eauto.
Qed.

Corollary no_panic a args : args_ok args -> checked_call a args <> Panic.
Proof.
  intros H. destruct (checked_call_total a args H) as [(v & ->)| ->]; discriminate.
Qed.

(* ---------- what the guards return ---------- *)
Theorem median_nan args ns : collect_nums args = Ok ns -> ns <> [] -> has_nan ns = true ->
  bi_median args = Ok (VNum nnan).
Proof.
  intros C Hne Hn. assert (O := bi_median_outcome args). rewrite C in O.
  destruct ns; [contradiction|]. cbn [is_empty] in O. now rewrite Hn in O.
Qed.

Theorem percentile_nan vs p ns : valid p = true -> len vs <= 2^53 -> in_0_100 p = true ->
  mapM as_number vs = Ok ns -> ns <> [] -> has_nan ns = true ->
  bi_percentile [VList vs; VNum p] = Ok (VNum nnan).
Proof.
  intros Vp Hl Hp M Hne Hn. assert (O := percentile_outcome vs p Vp Hl). cbv zeta in O.
  rewrite Hp, M in O. destruct ns; [contradiction|]. cbn [is_empty] in O. now rewrite Hn in O.
Qed.

Theorem percentile_empty p : in_0_100 p = true -> bi_percentile [VList []; VNum p] = Err.
Proof.
  intros Hp. unfold bi_percentile, bi_percentile_gen. cbn [arg nth_error obind as_number as_list].
  rewrite Hp. reflexivity.
Qed.

(* ---------- debug and release builds agree on percentile ---------- *)
Theorem percentile_build_independent args :
  bi_percentile_gen true args = bi_percentile_gen false args.
Proof.
  unfold bi_percentile_gen.
  destruct (arg args 1) as [a1| | | |]; cbn [obind]; try reflexivity.
  destruct (as_number a1) as [p| | | |]; cbn [obind]; try reflexivity.
  destruct (arg args 0) as [a0| | | |]; cbn [obind]; try reflexivity.
  destruct (as_list a0) as [vs| | | |]; cbn [obind]; try reflexivity.
  destruct (negb (in_0_100 p)); [reflexivity|].
  destruct (mapM as_number vs) as [ns| | | |]; cbn [obind]; try reflexivity.
  destruct ns as [|x ns]; [reflexivity|]. cbn [is_empty].
  destruct (has_nan (x :: ns)); [reflexivity|].
  destruct (sort_pc (x :: ns)) as [s| | | |] eqn:Hs; cbn [obind]; try reflexivity.
  assert (Ls := sort_pc_length _ _ Hs). cbn [length] in Ls.
  unfold usize_sub. replace (len s <? 1) with false; [reflexivity|].
  symmetry. apply Z.ltb_ge. unfold len. lia.
Qed.
