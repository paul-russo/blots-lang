(* RelPure.v — the PURE arms of EvalFull.builtin_full (aggregates, list / string / record built-ins,
   convert round random to_number to_string join) are PARAMETRIC in the function values of their
   arguments: for ANY structural value relation R (same tree shape, equal data, function values
   related to function values, Value::compare blind to it) related argument vectors give related
   outcomes.  One lemma per arm, proved once, used twice:

     - C02 (proofs/C02OpsFull.v):     R v v' := v' = ren rho v       (renaming of function cells)
     - C05 (proofs/EmitHOOpsFull.v):  R := vrel opok biok nanfix      (emit / reload)

   Families: (1) arms that read numbers / strings only (aggregates, range, split, replace, convert,
   round, random, to_number): related arguments give EQUAL results, and the result holds no function;
   (2) arms that only rearrange / select argument elements (len head tail slice concat reverse keys
   values entries flatten zip chunk); (3) sort: rearranges by Value::compare, which is blind to R;
   (4) to_string / join: Unmodelled on both sides when a function is inside, equal texts otherwise
   (the shortcut  R v v' -> no function inside v -> v = v');  (5) unique / includes: Value::equals —
   parametric only for relations that equals is blind to (section hypothesis [R_equals]: true for
   renamings, FALSE for emit/reload: finding F53). *)
From Coq Require Import String Ascii List ZArith Bool Lia.
Require Import Blots.Num Blots.gen.Builtins Blots.Ast Blots.Value Blots.Outcome Blots.Binop
               Blots.Env Blots.Eval Blots.BuiltinsHof Blots.Program Blots.EvalInst Blots.EvalFull
               Blots.proofs.ValueInd Blots.proofs.EmitHO.
Require Import Blots.Access Blots.BuiltinsList Blots.BuiltinsText.
Require Export Blots.RelTable.
Require Blots.BuiltinsAgg.
Import ListNotations.
Open Scope list_scope.

(* ---- outcome-level combinators (no relation involved) ---- *)
Lemma orel_bind {A A' B B'} (Q : A -> A' -> Prop) (Q' : B -> B' -> Prop) o o' k k' :
  orel_gen Q o o' -> (forall a a', Q a a' -> orel_gen Q' (k a) (k' a')) ->
  orel_gen Q' (obind o k) (obind o' k').
Proof. intros H Hk. destruct o, o'; cbn in *; try contradiction; try exact I. apply Hk. exact H. Qed.
Lemma orel_eq_refl {A} (o : outcome A) : orel_gen eq o o.
Proof. destruct o; cbn; auto. Qed.
Lemma orel_of_eq {A} (o o' : outcome A) : o = o' -> orel_gen eq o o'.
Proof. intros ->. apply orel_eq_refl. Qed.
Lemma orel_eq_inv {A} (o o' : outcome A) : orel_gen eq o o' -> o = o'.
Proof. destruct o, o'; cbn; intros H; try contradiction; congruence. Qed.
Lemma orel_omap {A A' B B'} (Q : A -> A' -> Prop) (Q' : B -> B' -> Prop) f f' o o' :
  orel_gen Q o o' -> (forall a a', Q a a' -> Q' (f a) (f' a')) -> orel_gen Q' (omap f o) (omap f' o').
Proof. intros H Hf. unfold omap. eapply orel_bind; [exact H|]. intros a a' Ha. cbn. auto. Qed.
Lemma orel_mapM {A A' B B'} (Q : A -> A' -> Prop) (S : B -> B' -> Prop) f f' l l' :
  Forall2 Q l l' -> (forall x x', Q x x' -> orel_gen S (f x) (f' x')) ->
  orel_gen (Forall2 S) (mapM f l) (mapM f' l').
Proof.
  intros HL Hf. induction HL as [|x x' l l' Hx _ IH]; cbn [mapM]; [constructor|].
  eapply orel_bind; [apply Hf; exact Hx|]. intros y y' Hy.
  eapply orel_bind; [exact IH|]. intros ys ys' Hys. cbn. constructor; assumption.
Qed.
Lemma Forall2_eq {A} (l l' : list A) : Forall2 eq l l' -> l = l'.
Proof. induction 1; congruence. Qed.
Lemma Forall2_refl {A} (Q : A -> A -> Prop) l : (forall x, Q x x) -> Forall2 Q l l.
Proof. intros H. induction l; constructor; auto. Qed.
Lemma Forall2_rev' {A B} (Q : A -> B -> Prop) l l' : Forall2 Q l l' -> Forall2 Q (rev l) (rev l').
Proof.
  induction 1 as [|x x' l l' Hx _ IH]; cbn; [constructor|]. apply Forall2_app; [exact IH|]. constructor; [exact Hx|constructor].
Qed.
Lemma Forall2_firstn {A B} (Q : A -> B -> Prop) n l l' : Forall2 Q l l' -> Forall2 Q (firstn n l) (firstn n l').
Proof. intros H. revert n. induction H; intros [|n]; cbn; constructor; auto. Qed.
Lemma Forall2_skipn {A B} (Q : A -> B -> Prop) n l l' : Forall2 Q l l' -> Forall2 Q (skipn n l) (skipn n l').
Proof. intros H. revert n. induction H; intros [|n]; cbn; try constructor; auto. Qed.
Lemma Forall2_len {A B} (Q : A -> B -> Prop) l l' : Forall2 Q l l' -> length l = length l'.
Proof. induction 1; cbn; congruence. Qed.
Lemma Forall2_map_same {A B} (Q : B -> B -> Prop) (f : A -> B) l : (forall a, Q (f a) (f a)) -> Forall2 Q (map f l) (map f l).
Proof. intros H. induction l; cbn; constructor; auto. Qed.

Lemma builtin_full_pure : forall cb b f, pure_arm_of b = Some f -> builtin_full cb b = pure_bi f.
Proof. intros cb b f E. destruct b; cbn in E; try discriminate E; inversion E; reflexivity. Qed.
Lemma builtin_full_other : forall cb b, pure_arm_of b = None -> callback_arm b = false ->
  builtin_full cb b = builtin_impl cb b.
Proof. intros cb b E C. destruct b; cbn in E, C; try discriminate; reflexivity. Qed.

Section RelPure.
  Variable R : value -> value -> Prop.
  Notation RL := (Forall2 R).
  Definition RRf (kv kv' : string * value) : Prop := fst kv = fst kv' /\ R (snd kv) (snd kv').
  Notation RR := (Forall2 RRf).
  Notation OR := (orel_gen R).

  (* the interface: R is structural *)
  Hypothesis R_inv : forall v v', R v v' ->
    match v with
    | VNum x => v' = VNum x
    | VBool b => v' = VBool b
    | VNull => v' = VNull
    | VStr s => v' = VStr s
    | VList l => exists l', v' = VList l' /\ RL l l'
    | VRec r => exists r', v' = VRec r' /\ RR r r'
    | VLam _ _ _ _ => exists id' ps' b' sc', v' = VLam id' ps' b' sc'
    | VBuiltin b => v' = VBuiltin b
    | VSpread w => exists w', v' = VSpread w' /\ R w w'
    end.
  Hypothesis R_num : forall x, R (VNum x) (VNum x).
  Hypothesis R_bool : forall b, R (VBool b) (VBool b).
  Hypothesis R_null : R VNull VNull.
  Hypothesis R_str : forall s, R (VStr s) (VStr s).
  Hypothesis R_list : forall l l', RL l l' -> R (VList l) (VList l').
  Hypothesis R_rec : forall r r', RR r r' -> R (VRec r) (VRec r').
  (* Value::compare looks at data only *)
  Hypothesis R_compare : forall a a' b b', R a a' -> R b b' -> compare a b = compare a' b'.

  Lemma R_inv_num x v' : R (VNum x) v' -> v' = VNum x. Proof. exact (R_inv (VNum x) v'). Qed.
  Lemma R_inv_bool b v' : R (VBool b) v' -> v' = VBool b. Proof. exact (R_inv (VBool b) v'). Qed.
  Lemma R_inv_null v' : R VNull v' -> v' = VNull. Proof. exact (R_inv VNull v'). Qed.
  Lemma R_inv_str s v' : R (VStr s) v' -> v' = VStr s. Proof. exact (R_inv (VStr s) v'). Qed.
  Lemma R_inv_list l v' : R (VList l) v' -> exists l', v' = VList l' /\ RL l l'. Proof. exact (R_inv (VList l) v'). Qed.
  Lemma R_inv_rec r v' : R (VRec r) v' -> exists r', v' = VRec r' /\ RR r r'. Proof. exact (R_inv (VRec r) v'). Qed.
  Lemma R_inv_lam id ps b sc v' : R (VLam id ps b sc) v' -> exists id' ps' b' sc', v' = VLam id' ps' b' sc'.
  Proof. exact (R_inv (VLam id ps b sc) v'). Qed.
  Lemma R_inv_builtin b v' : R (VBuiltin b) v' -> v' = VBuiltin b. Proof. exact (R_inv (VBuiltin b) v'). Qed.
  Lemma R_inv_spread w v' : R (VSpread w) v' -> exists w', v' = VSpread w' /\ R w w'. Proof. exact (R_inv (VSpread w) v'). Qed.

  (* case analysis on the left value of a related pair [H : R a a'] (a, a' variables) *)
  Ltac rcase a H :=
    let K := fresh "K" in pose proof H as K;
    destruct a;
    [ apply R_inv_num in H | apply R_inv_bool in H | apply R_inv_null in H | apply R_inv_str in H
    | apply R_inv_list in H; destruct H as (?l' & H & ?HL)
    | apply R_inv_rec in H; destruct H as (?r' & H & ?HR)
    | apply R_inv_lam in H; destruct H as (?id' & ?ps' & ?b' & ?sc' & H)
    | apply R_inv_builtin in H
    | apply R_inv_spread in H; destruct H as (?w' & H & ?HW) ]; subst.

  (* ---- the shortcut: a value without a function inside is related to itself only ---- *)
  Lemma R_has_function : forall v v', R v v' -> has_function v = has_function v'.
  Proof.
    induction v as [x|x| |s|l IH|r IH|id ar bd sc IH|bi|x IH] using value_ind'; intros v' H.
    - apply R_inv_num in H; subst; reflexivity.
    - apply R_inv_bool in H; subst; reflexivity.
    - apply R_inv_null in H; subst; reflexivity.
    - apply R_inv_str in H; subst; reflexivity.
    - apply R_inv_list in H. destruct H as (l' & -> & HL). cbn [has_function].
      induction HL as [|y y' l l' Hy _ IHl]; [reflexivity|]. inversion IH; subst. cbn [existsb].
      f_equal; [auto|apply IHl; assumption].
    - apply R_inv_rec in H. destruct H as (r' & -> & HL). cbn [has_function].
      induction HL as [|y y' r r' [_ Hy] _ IHl]; [reflexivity|]. inversion IH; subst. cbn [existsb].
      f_equal; [auto|apply IHl; assumption].
    - apply R_inv_lam in H. destruct H as (? & ? & ? & ? & ->). reflexivity.
    - apply R_inv_builtin in H; subst; reflexivity.
    - apply R_inv_spread in H. destruct H as (w' & -> & HW). cbn [has_function]. auto.
  Qed.

  Theorem R_nofun_eq : forall v v', R v v' -> has_function v = false -> v = v'.
  Proof.
    induction v as [x|x| |s|l IH|r IH|id ar bd sc IH|bi|x IH] using value_ind'; intros v' H Hf.
    - apply R_inv_num in H; subst; reflexivity.
    - apply R_inv_bool in H; subst; reflexivity.
    - apply R_inv_null in H; subst; reflexivity.
    - apply R_inv_str in H; subst; reflexivity.
    - apply R_inv_list in H. destruct H as (l' & -> & HL). f_equal. cbn [has_function] in Hf.
      induction HL as [|y y' l l' Hy _ IHl]; [reflexivity|]. inversion IH; subst. cbn [existsb] in Hf.
      apply orb_false_iff in Hf as [F1 F2]. f_equal; [auto|apply IHl; assumption].
    - apply R_inv_rec in H. destruct H as (r' & -> & HL). f_equal. cbn [has_function] in Hf.
      induction HL as [|[k y] [k' y'] r r' [Ek Hy] _ IHl]; [reflexivity|]. inversion IH; subst. cbn [existsb] in Hf.
      cbn [fst snd] in *. subst k'.
      apply orb_false_iff in Hf as [F1 F2]. f_equal; [f_equal; auto|apply IHl; assumption].
    - discriminate.
    - apply R_inv_builtin in H; subst; reflexivity.
    - apply R_inv_spread in H. destruct H as (w' & -> & HW). f_equal. cbn [has_function] in Hf. auto.
  Qed.

  (* values built from data only are related to themselves *)
  Fixpoint plain (v : value) : bool :=
    match v with
    | VNum _ | VBool _ | VNull | VStr _ => true
    | VList l => forallb plain l
    | VRec r => forallb (fun kv => plain (snd kv)) r
    | _ => false
    end.
  Lemma R_plain : forall v, plain v = true -> R v v.
  Proof.
    induction v as [x|x| |s|l IH|r IH|id ar bd sc IH|bi|x IH] using value_ind'; intros Hp; try discriminate; auto.
    - apply R_list. cbn [plain] in Hp. induction IH as [|y l Hy _ IHl]; [constructor|].
      cbn in Hp. apply andb_prop in Hp as [A B]. constructor; auto.
    - apply R_rec. cbn [plain] in Hp. induction IH as [|y l Hy _ IHl]; [constructor|].
      cbn in Hp. apply andb_prop in Hp as [A B]. constructor; [split; auto|auto].
  Qed.
  Lemma RL_strs (l : list string) : RL (map VStr l) (map VStr l).
  Proof. apply Forall2_map_same. exact R_str. Qed.
  Lemma RL_nums {A} (f : A -> num) (l : list A) : RL (map (fun a => VNum (f a)) l) (map (fun a => VNum (f a)) l).
  Proof. apply (Forall2_map_same R (fun a => VNum (f a))). intros a. apply R_num. Qed.

  (* ---- argument access and the as_* helpers ---- *)
  Lemma RL_nth_error l l' i : RL l l' ->
    match nth_error l i, nth_error l' i with
    | Some v, Some v' => R v v' | None, None => True | _, _ => False end.
  Proof. intros H. revert i. induction H as [|x x' l l' Hx _ IH]; intros [|i]; cbn; [exact I|exact I|exact Hx|apply IH]. Qed.
  Lemma arg_R args args' i : RL args args' -> OR (arg args i) (arg args' i).
  Proof.
    intros H. unfold arg. pose proof (RL_nth_error args args' i H) as G.
    destruct (nth_error args i), (nth_error args' i); try contradiction; cbn; auto.
  Qed.
  Lemma as_number_R a a' : R a a' -> as_number a = as_number a'.
  Proof. intros H. rcase a H; reflexivity. Qed.
  Lemma as_string_R a a' : R a a' -> as_string a = as_string a'.
  Proof. intros H. rcase a H; reflexivity. Qed.
  Lemma as_list_R a a' : R a a' -> orel_gen RL (as_list a) (as_list a').
  Proof. intros H. rcase a H; cbn; auto. Qed.
  Lemma as_record_R a a' : R a a' -> orel_gen RR (as_record a) (as_record a').
  Proof. intros H. rcase a H; cbn; auto. Qed.
  Lemma is_function_R a a' : R a a' -> is_function a = is_function a'.
  Proof. intros H. rcase a H; reflexivity. Qed.
  Lemma mapM_as_number_R l l' : RL l l' -> mapM as_number l = mapM as_number l'.
  Proof.
    induction 1 as [|x x' l l' Hx _ IH]; [reflexivity|]. cbn [mapM]. rewrite (as_number_R _ _ Hx), IH. reflexivity.
  Qed.

  (* steps of an arm written in the outcome monad *)
  Ltac barg i a a' Ha :=
    eapply orel_bind; [apply (arg_R _ _ i); eassumption|]; intros a a' Ha.
  Ltac bnum H n :=
    eapply (orel_bind eq); [apply orel_of_eq; apply (as_number_R _ _ H)|]; intros n ? <-.
  Ltac bstr H s :=
    eapply (orel_bind eq); [apply orel_of_eq; apply (as_string_R _ _ H)|]; intros s ? <-.
  Ltac blist H l l' Hl :=
    eapply orel_bind; [apply (as_list_R _ _ H)|]; intros l l' Hl.
  Ltac brec H r r' Hr :=
    eapply orel_bind; [apply (as_record_R _ _ H)|]; intros r r' Hr.

  (* family (1): equal outcomes that hold data only *)
  Lemma OR_eq_plain (o o' : outcome value) : o = o' -> (forall v, o = Ok v -> plain v = true) -> OR o o'.
  Proof. intros <- Hp. destruct o; cbn; auto. apply R_plain. apply Hp. reflexivity. Qed.
  Lemma OR_num_same (o : outcome num) : OR (do x <- o; Ok (VNum x)) (do x <- o; Ok (VNum x)).
  Proof. destruct o; cbn; auto. Qed.

  (* ================= aggregates (BuiltinsAgg.v): numbers only ================= *)
  Lemma collect_R args args' : RL args args' ->
    BuiltinsAgg.collect_nums_min args = BuiltinsAgg.collect_nums_min args'.
  Proof.
    intros H. unfold BuiltinsAgg.collect_nums_min. rewrite <- (Forall2_len _ _ _ H).
    destruct (Nat.eqb (length args) 1); [|apply (mapM_as_number_R _ _ H)].
    pose proof (arg_R args args' 0 H) as H0. unfold arg in H0. unfold BuiltinsAgg.arg.
    destruct (nth_error args 0), (nth_error args' 0); cbn in H0; try contradiction; try reflexivity. cbn [obind].
    rcase v H0; try reflexivity. apply (mapM_as_number_R _ _ HL).
  Qed.
  (* min max avg sum prod: the numbers are collected the same way, then folded to a number *)
  Lemma fold_nums_R (g : list num -> num) args args' : RL args args' ->
    OR (do nums <- BuiltinsAgg.collect_nums_min args; if BuiltinsAgg.is_empty nums then Err else Ok (VNum (g nums)))
       (do nums <- BuiltinsAgg.collect_nums_min args'; if BuiltinsAgg.is_empty nums then Err else Ok (VNum (g nums))).
  Proof.
    intros H. rewrite <- (collect_R _ _ H).
    destruct (BuiltinsAgg.collect_nums_min args); cbn; auto. destruct (BuiltinsAgg.is_empty a); cbn; auto.
  Qed.
  Lemma bi_min_R args args' : RL args args' -> OR (BuiltinsAgg.bi_min args) (BuiltinsAgg.bi_min args').
  Proof. apply fold_nums_R. Qed.
  Lemma bi_max_R args args' : RL args args' -> OR (BuiltinsAgg.bi_max args) (BuiltinsAgg.bi_max args').
  Proof. apply fold_nums_R. Qed.
  Lemma bi_avg_R args args' : RL args args' -> OR (BuiltinsAgg.bi_avg args) (BuiltinsAgg.bi_avg args').
  Proof. apply (fold_nums_R (fun nums => ndiv (BuiltinsAgg.fold_sum nums) (num_of_Z (BuiltinsAgg.len nums)))). Qed.
  Lemma bi_sum_R args args' : RL args args' -> OR (BuiltinsAgg.bi_sum args) (BuiltinsAgg.bi_sum args').
  Proof. apply fold_nums_R. Qed.
  Lemma bi_prod_R args args' : RL args args' -> OR (BuiltinsAgg.bi_prod args) (BuiltinsAgg.bi_prod args').
  Proof. apply fold_nums_R. Qed.
  Lemma bi_median_R args args' : RL args args' -> OR (BuiltinsAgg.bi_median args) (BuiltinsAgg.bi_median args').
  Proof.
    intros H. unfold BuiltinsAgg.bi_median. rewrite <- (collect_R _ _ H : BuiltinsAgg.collect_nums_median args = BuiltinsAgg.collect_nums_median args').
    destruct (BuiltinsAgg.collect_nums_median args) as [nums| | | |]; cbn [obind]; try exact I.
    destruct (BuiltinsAgg.is_empty nums); [exact I|]. destruct (BuiltinsAgg.has_nan nums); [apply R_num|].
    destruct (BuiltinsAgg.sort_pc nums) as [s| | | |]; cbn [obind]; try exact I.
    destruct (BuiltinsAgg.len s mod 2 =? 0)%Z.
    - destruct (BuiltinsAgg.index_num s _); cbn [obind]; try exact I.
      destruct (BuiltinsAgg.index_num s _); cbn [obind]; try exact I. apply R_num.
    - destruct (BuiltinsAgg.index_num s _); cbn [obind]; try exact I. apply R_num.
  Qed.
  Lemma bi_percentile_R args args' : RL args args' -> OR (BuiltinsAgg.bi_percentile args) (BuiltinsAgg.bi_percentile args').
  Proof.
    intros H. unfold BuiltinsAgg.bi_percentile, BuiltinsAgg.bi_percentile_gen.
    barg 1%nat a a' Ha. bnum Ha n. barg 0%nat b b' Hb. blist Hb l l' Hl.
    destruct (negb (BuiltinsAgg.in_0_100 n)); [exact I|].
    change BuiltinsAgg.as_number with as_number. rewrite <- (mapM_as_number_R _ _ Hl).
    destruct (mapM as_number l) as [nums| | | |]; cbn [obind]; try exact I.
    destruct (BuiltinsAgg.is_empty nums); [exact I|]. destruct (BuiltinsAgg.has_nan nums); [apply R_num|].
    destruct (BuiltinsAgg.sort_pc nums) as [s| | | |]; cbn [obind]; try exact I.
    destruct (BuiltinsAgg.usize_sub false (BuiltinsAgg.len s) 1); cbn [obind]; try exact I.
    destruct (BuiltinsAgg.index_num s _); cbn [obind]; try exact I. apply R_num.
  Qed.
  Lemma dot_loop_R a a' : RL a a' -> forall b b', RL b b' -> forall s,
    BuiltinsAgg.dot_loop s a b = BuiltinsAgg.dot_loop s a' b'.
  Proof.
    induction 1 as [|x x' a a' Hx _ IH]; intros b b' Hb s; [destruct Hb; reflexivity|].
    destruct Hb as [|y y' b b' Hy Hb]; [reflexivity|]. cbn [BuiltinsAgg.dot_loop].
    change BuiltinsAgg.as_number with as_number.
    rewrite <- (as_number_R _ _ Hx), <- (as_number_R _ _ Hy).
    destruct (as_number x); cbn [obind]; try reflexivity. destruct (as_number y); cbn [obind]; try reflexivity.
    apply IH. exact Hb.
  Qed.
  Lemma bi_dot_R args args' : RL args args' -> OR (BuiltinsAgg.bi_dot args) (BuiltinsAgg.bi_dot args').
  Proof.
    intros H. unfold BuiltinsAgg.bi_dot. barg 0%nat a a' Ha. blist Ha l l' Hl. barg 1%nat b b' Hb. blist Hb m m' Hm.
    rewrite <- (Forall2_len _ _ _ Hl), <- (Forall2_len _ _ _ Hm).
    destruct (negb (Nat.eqb (length l) (length m))); [exact I|].
    rewrite <- (dot_loop_R _ _ Hl _ _ Hm). apply OR_num_same.
  Qed.

  (* ================= list / string / record built-ins (BuiltinsList.v) ================= *)
  Lemma range_body_R s e : OR (range_body s e) (range_body s e).
  Proof.
    unfold range_body. destruct (ngtb s e); [exact I|]. destruct (_ || _); [exact I|].
    destruct (_ <? _)%Z; [exact I|]. apply R_list. apply RL_nums.
  Qed.
  Lemma bi_range_R args args' : RL args args' -> OR (bi_range args) (bi_range args').
  Proof.
    intros H. unfold bi_range. destruct H as [|a a' l l' Ha Hl]; [exact I|].
    rcase a Ha; try exact I. destruct Hl as [|b b' l l' Hb Hl]; [apply range_body_R|].
    rcase b Hb; try exact I. destruct Hl; [apply range_body_R|exact I].
  Qed.

  Lemma bi_len_R args args' : RL args args' -> OR (bi_len args) (bi_len args').
  Proof.
    intros H. unfold bi_len. barg 0%nat a a' Ha. rcase a Ha; try exact I.
    - exact (R_num _).
    - rewrite (Forall2_len _ _ _ HL). exact (R_num _).
  Qed.
  Lemma bi_head_R args args' : RL args args' -> OR (bi_head args) (bi_head args').
  Proof.
    intros H. unfold bi_head. barg 0%nat a a' Ha. rcase a Ha; try exact I.
    - exact (R_str _).
    - destruct HL; [exact R_null|assumption].
  Qed.
  Lemma slice_get_R l l' : RL l l' -> forall a b,
    match slice_get l a b, slice_get l' a b with
    | Some x, Some x' => RL x x' | None, None => True | _, _ => False end.
  Proof.
    intros H a b. unfold slice_get. rewrite <- (Forall2_len _ _ _ H). destruct (_ && _); [|exact I].
    apply Forall2_firstn, Forall2_skipn, H.
  Qed.
  Lemma bi_tail_R args args' : RL args args' -> OR (bi_tail args) (bi_tail args').
  Proof.
    intros H. unfold bi_tail. barg 0%nat a a' Ha. rcase a Ha; try exact I.
    - exact (R_str _).
    - apply R_list. rewrite <- (Forall2_len _ _ _ HL).
      pose proof (slice_get_R _ _ HL 1%Z (Z.of_nat (length l))) as G.
      destruct (slice_get l _ _), (slice_get l' _ _); try contradiction; [exact G|constructor].
  Qed.
  Lemma bi_slice_R args args' : RL args args' -> OR (bi_slice args) (bi_slice args').
  Proof.
    intros H. unfold bi_slice. barg 1%nat a1 a1' H1. bnum H1 sf. barg 2%nat a2 a2' H2. bnum H2 ef.
    barg 0%nat a a' Ha. rcase a Ha; try exact I.
    - destruct (slice_get (chars s) _ _); [exact (R_str _)|exact I].
    - pose proof (slice_get_R _ _ HL (as_usize sf) (as_usize ef)) as G.
      destruct (slice_get l _ _), (slice_get l' _ _); try contradiction; [exact (R_list _ _ G)|exact I].
  Qed.

  Lemma concat_args_R args args' : RL args args' -> RL (concat_args args) (concat_args args').
  Proof.
    induction 1 as [|a a' l l' Ha _ IH]; [constructor|].
    rcase a Ha; cbn [concat_args]; try (constructor; [assumption|exact IH]).
    - apply Forall2_app; assumption.
    - rcase a HW; cbn [concat_args]; try (constructor; [assumption|exact IH]).
      + apply Forall2_app; [apply RL_strs|exact IH].
      + apply Forall2_app; assumption.
  Qed.
  Lemma bi_concat_R args args' : RL args args' -> OR (bi_concat args) (bi_concat args').
  Proof. intros H. exact (R_list _ _ (concat_args_R _ _ H)). Qed.

  (* ---- sort: a stable merge sort by a comparator that is blind to R ---- *)
  Section MergeSort.
    Variable lt lt' : value -> value -> bool.
    Hypothesis Hlt : forall a a' b b', R a a' -> R b b' -> lt a b = lt' a' b'.
    Lemma merge_R : forall l l', RL l l' -> forall r r', RL r r' -> RL (merge lt l r) (merge lt' l' r').
    Proof.
      induction 1 as [|a a' l l' Ha Hl IHl]; intros r r' Hr.
      - destruct Hr; cbn; [constructor|constructor; assumption].
      - induction Hr as [|b b' r r' Hb Hr IHr]; [cbn; constructor; assumption|].
        cbn [merge]. rewrite <- (Hlt _ _ _ _ Hb Ha). destruct (lt b a).
        + constructor; [exact Hb|exact IHr].
        + constructor; [exact Ha|]. apply IHl. constructor; assumption.
    Qed.
    Lemma merge_sort_fuel_R : forall fuel l l', RL l l' -> RL (merge_sort_fuel lt fuel l) (merge_sort_fuel lt' fuel l').
    Proof.
      induction fuel as [|f IH]; intros l l' H; cbn [merge_sort_fuel]; [exact H|].
      rewrite <- (Forall2_len _ _ _ H). destruct (length l <? 2)%nat; [exact H|].
      apply merge_R; apply IH; [apply Forall2_firstn|apply Forall2_skipn]; exact H.
    Qed.
    Lemma merge_sort_R l l' : RL l l' -> RL (merge_sort lt l) (merge_sort lt' l').
    Proof. intros H. unfold merge_sort. rewrite <- (Forall2_len _ _ _ H). apply merge_sort_fuel_R. exact H. Qed.
  End MergeSort.
  Lemma cmp_or_eq_R a a' b b' : R a a' -> R b b' -> cmp_or_eq a b = cmp_or_eq a' b'.
  Proof. intros Ha Hb. unfold cmp_or_eq. rewrite (R_compare _ _ _ _ Ha Hb). reflexivity. Qed.
  Lemma value_less_R a a' b b' : R a a' -> R b b' -> value_less a b = value_less a' b'.
  Proof. intros Ha Hb. unfold value_less. rewrite (cmp_or_eq_R _ _ _ _ Ha Hb). reflexivity. Qed.
  Lemma bi_sort_R args args' : RL args args' -> OR (bi_sort args) (bi_sort args').
  Proof.
    intros H. unfold bi_sort. barg 0%nat a a' Ha. blist Ha l l' Hl.
    apply R_list. apply merge_sort_R; [exact value_less_R|exact Hl].
  Qed.
  Lemma bi_reverse_R args args' : RL args args' -> OR (bi_reverse args) (bi_reverse args').
  Proof.
    intros H. unfold bi_reverse. barg 0%nat a a' Ha. blist Ha l l' Hl. apply R_list. apply Forall2_rev'. exact Hl.
  Qed.

  Lemma bi_split_R args args' : RL args args' -> OR (bi_split args) (bi_split args').
  Proof.
    intros H. unfold bi_split. barg 0%nat a a' Ha. bstr Ha s. barg 1%nat b b' Hb. bstr Hb d.
    apply R_list. apply RL_strs.
  Qed.
  Lemma bi_replace_R args args' : RL args args' -> OR (bi_replace args) (bi_replace args').
  Proof.
    intros H. unfold bi_replace. barg 1%nat a a' Ha. bstr Ha o. barg 2%nat b b' Hb. bstr Hb n. barg 0%nat c c' Hc. bstr Hc s.
    exact (R_str _).
  Qed.

  (* ---- records ---- *)
  Lemma bi_keys_R args args' : RL args args' -> OR (bi_keys args) (bi_keys args').
  Proof.
    intros H. unfold bi_keys. barg 0%nat a a' Ha. brec Ha r r' Hr. apply R_list.
    induction Hr as [|kv kv' r r' [E _] _ IH]; cbn [map]; constructor; [rewrite E; apply R_str|exact IH].
  Qed.
  Lemma bi_values_R args args' : RL args args' -> OR (bi_values args) (bi_values args').
  Proof.
    intros H. unfold bi_values. barg 0%nat a a' Ha. brec Ha r r' Hr. apply R_list.
    induction Hr as [|kv kv' r r' [_ V] _ IH]; cbn [map]; constructor; [exact V|exact IH].
  Qed.
  Lemma bi_entries_R args args' : RL args args' -> OR (bi_entries args) (bi_entries args').
  Proof.
    intros H. unfold bi_entries. barg 0%nat a a' Ha. brec Ha r r' Hr. apply R_list.
    induction Hr as [|kv kv' r r' [E V] _ IH]; cbn [map]; constructor; [|exact IH].
    apply R_list. constructor; [rewrite E; apply R_str|]. constructor; [exact V|constructor].
  Qed.

  (* ---- flatten zip chunk ---- *)
  Lemma flatten_items_R l l' : RL l l' -> RL (flatten_items l) (flatten_items l').
  Proof.
    induction 1 as [|a a' l l' Ha _ IH]; [constructor|].
    rcase a Ha; cbn [flatten_items]; try (constructor; [assumption|exact IH]).
    apply Forall2_app; assumption.
  Qed.
  Lemma bi_flatten_R args args' : RL args args' -> OR (bi_flatten args) (bi_flatten args').
  Proof.
    intros H. unfold bi_flatten. barg 0%nat a a' Ha. blist Ha l l' Hl. apply R_list. apply flatten_items_R. exact Hl.
  Qed.

  Lemma RL_nth l l' k : RL l l' -> R (nth k l VNull) (nth k l' VNull).
  Proof. intros H. revert k. induction H; intros [|k]; cbn; auto. Qed.
  Lemma max_len_R (ls ls' : list (list value)) : Forall2 RL ls ls' -> forall m,
    fold_left (fun m l => Nat.max m (length l)) ls m = fold_left (fun m l => Nat.max m (length l)) ls' m.
  Proof.
    induction 1 as [|l l' ls ls' Hl _ IH]; intros m; [reflexivity|]. cbn [fold_left].
    rewrite (Forall2_len _ _ _ Hl). apply IH.
  Qed.
  Lemma zip_tuple_R ls ls' i : Forall2 RL ls ls' -> R (zip_tuple ls i) (zip_tuple ls' i).
  Proof.
    intros H. unfold zip_tuple. apply R_list.
    induction H as [|l l' ls ls' Hl _ IH]; cbn [map]; constructor; [apply RL_nth; exact Hl|exact IH].
  Qed.
  Lemma bi_zip_R args args' : RL args args' -> OR (bi_zip args) (bi_zip args').
  Proof.
    intros H. unfold bi_zip.
    eapply orel_bind.
    - apply (orel_mapM R RL); [exact H|]. intros x x' Hx. rcase x Hx; cbn; auto.
    - intros ls ls' Hls. cbv beta zeta. rewrite <- (max_len_R _ _ Hls 0%nat). apply R_list.
      induction (seq 0 _) as [|i t IH]; cbn [map]; constructor; [apply zip_tuple_R; exact Hls|exact IH].
  Qed.

  Lemma chunk_acc_R l l' : RL l l' -> forall n room cur cur', RL cur cur' ->
    Forall2 RL (chunk_acc l n room cur) (chunk_acc l' n room cur').
  Proof.
    induction 1 as [|x x' l l' Hx _ IH]; intros n room cur cur' Hc; cbn [chunk_acc].
    - destruct Hc; [constructor|]. constructor; [constructor; assumption|constructor].
    - destruct room.
      + constructor; [exact Hc|]. apply IH. constructor; [exact Hx|constructor].
      + apply IH. apply Forall2_app; [exact Hc|]. constructor; [exact Hx|constructor].
  Qed.
  Lemma bi_chunk_R args args' : RL args args' -> OR (bi_chunk args) (bi_chunk args').
  Proof.
    intros H. unfold bi_chunk. barg 1%nat a a' Ha. bnum Ha nf. destruct (_ =? 0)%Z; [exact I|].
    barg 0%nat b b' Hb. blist Hb l l' Hl. rewrite <- (Forall2_len _ _ _ Hl). apply R_list. unfold chunks.
    generalize (Z.to_nat (Z.min (as_usize nf) (Z.max 1 (Z.of_nat (length l))))). intros k.
    pose proof (chunk_acc_R _ _ Hl k k [] [] (Forall2_nil _)) as G.
    induction G as [|c c' cs cs' Hc _ IHc]; cbn [map]; constructor; [apply R_list; exact Hc|exact IHc].
  Qed.

  (* ================= BuiltinsText.v ================= *)
  Lemma bi_convert_R args args' : RL args args' -> OR (bi_convert args) (bi_convert args').
  Proof.
    intros H. unfold bi_convert. barg 0%nat a a' Ha. bnum Ha v. barg 1%nat b b' Hb. bstr Hb f. barg 2%nat c c' Hc. bstr Hc t.
    unfold convert_result. destruct (Units.convert _ _ _ _); [exact (R_num _)|exact I].
  Qed.
  Lemma bi_round_R args args' : RL args args' -> OR (bi_round args) (bi_round args').
  Proof.
    intros H. unfold bi_round. barg 0%nat a a' Ha. bnum Ha n.
    destruct H as [|x x' t t' Hx [|y y' t2 t2' Hy Ht]]; [exact I|exact (R_num _)|].
    cbn [arg nth_error obind]. bnum Hy p. exact (R_num _).
  Qed.
  Lemma bi_random_R args args' : RL args args' -> OR (bi_random args) (bi_random args').
  Proof. intros H. unfold bi_random. barg 0%nat a a' Ha. bnum Ha n. exact (R_num _). Qed.
  Lemma bi_to_number_R args args' : RL args args' -> OR (bi_to_number args) (bi_to_number args').
  Proof.
    intros H. unfold bi_to_number. barg 0%nat a a' Ha. rcase a Ha; try exact I; try exact (R_num _).
    cbn [as_string obind]. unfold parse_result. destruct (NumText.ref_str_parse s); [exact (R_num _)|exact I].
  Qed.

  Lemma stringify_internal_R v v' : R v v' -> stringify_internal v = stringify_internal v'.
  Proof.
    intros H. unfold stringify_internal. rewrite <- (R_has_function _ _ H).
    destruct (has_function v) eqn:E; [reflexivity|]. rewrite (R_nofun_eq _ _ H E). reflexivity.
  Qed.
  Lemma bi_to_string_R args args' : RL args args' -> OR (bi_to_string args) (bi_to_string args').
  Proof.
    intros H. unfold bi_to_string. barg 0%nat a a' Ha. pose proof (stringify_internal_R _ _ Ha) as E.
    rcase a Ha; try exact (R_str _);
      cbv beta iota; rewrite <- E; (destruct (stringify_internal _); [exact (R_str _)|exact I..]).
  Qed.
  Lemma mapM_stringify_R l l' : RL l l' -> mapM stringify_internal l = mapM stringify_internal l'.
  Proof.
    induction 1 as [|x x' l l' Hx _ IH]; [reflexivity|]. cbn [mapM]. rewrite (stringify_internal_R _ _ Hx), IH. reflexivity.
  Qed.
  Lemma bi_join_full_R args args' : RL args args' -> OR (bi_join_full args) (bi_join_full args').
  Proof.
    intros H. unfold bi_join_full. barg 1%nat a a' Ha. bstr Ha d. barg 0%nat b b' Hb. blist Hb l l' Hl.
    rewrite <- (mapM_stringify_R _ _ Hl). destruct (mapM stringify_internal l); [exact (R_str _)|exact I..].
  Qed.


  (* every pure arm that does not apply Value::equals *)
  Ltac arms :=
    first [ apply bi_min_R | apply bi_max_R | apply bi_avg_R | apply bi_sum_R | apply bi_prod_R
          | apply bi_median_R | apply bi_percentile_R | apply bi_dot_R | apply bi_range_R | apply bi_len_R
          | apply bi_head_R | apply bi_tail_R | apply bi_slice_R | apply bi_concat_R | apply bi_sort_R
          | apply bi_reverse_R | apply bi_split_R | apply bi_replace_R | apply bi_keys_R | apply bi_values_R
          | apply bi_entries_R | apply bi_flatten_R | apply bi_zip_R | apply bi_chunk_R | apply bi_convert_R
          | apply bi_round_R | apply bi_random_R | apply bi_to_number_R | apply bi_to_string_R
          | apply bi_join_full_R ].
  Theorem pure_arms_R : forall b f, pure_arm_of b = Some f -> equals_based b = false ->
    forall args args', RL args args' -> OR (f args) (f args').
  Proof.
    intros b f E Hq args args' H.
    destruct b; cbn in E, Hq; try discriminate; inversion E; subst f; arms; exact H.
  Qed.

  (* ================= unique / includes: Value::equals =================
     parametric exactly when equals is blind to R *)
  Section WithEquals.
    Hypothesis R_equals : forall a a' b b', R a a' -> R b b' -> equals a b = equals a' b'.
    Lemma existsb_equals_R item item' u u' : R item item' -> RL u u' ->
      existsb (fun existing => equals item existing) u = existsb (fun existing => equals item' existing) u'.
    Proof.
      intros Hi Hu. induction Hu as [|x x' u u' Hx _ IH]; [reflexivity|]. cbn [existsb].
      rewrite (R_equals _ _ _ _ Hi Hx), IH. reflexivity.
    Qed.
    Lemma unique_go_R items items' : RL items items' -> forall u u', RL u u' ->
      RL (unique_go items u) (unique_go items' u').
    Proof.
      induction 1 as [|x x' l l' Hx _ IH]; intros u u' Hu; cbn [unique_go]; [exact Hu|].
      rewrite <- (existsb_equals_R _ _ _ _ Hx Hu). destruct (existsb _ u); apply IH; [exact Hu|].
      apply Forall2_app; [exact Hu|]. constructor; [exact Hx|constructor].
    Qed.
    Lemma bi_unique_R args args' : RL args args' -> OR (bi_unique args) (bi_unique args').
    Proof.
      intros H. unfold bi_unique. barg 0%nat a a' Ha. blist Ha l l' Hl. apply R_list. apply unique_go_R; [exact Hl|constructor].
    Qed.
    Lemma bi_includes_R args args' : RL args args' -> OR (bi_includes args) (bi_includes args').
    Proof.
      intros H. unfold bi_includes. barg 0%nat a a' Ha. rcase a Ha; try exact I.
      - barg 1%nat b b' Hb. bstr Hb n. exact (R_bool _).
      - clear K. induction HL as [|x x' l l' Hx _ IH]; [exact (R_bool _)|].
        barg 1%nat b b' Hb. rewrite <- (R_equals _ _ _ _ Hx Hb). destruct (equals x b); [exact (R_bool _)|exact IH].
    Qed.
    Theorem pure_arms_R_eq : forall b f, pure_arm_of b = Some f ->
      forall args args', RL args args' -> OR (f args) (f args').
    Proof.
      intros b f E args args' H. destruct (equals_based b) eqn:Hq; [|exact (pure_arms_R b f E Hq args args' H)].
      destruct b; cbn in E, Hq; try discriminate; inversion E; subst f; [apply bi_unique_R|apply bi_includes_R]; exact H.
    Qed.
  End WithEquals.

  (* ================= the callback-taking three: sort_by group_by count_by =================
     [S] relates the two evaluator states (C02: the store invariant; C05: nothing); the callbacks
     take related functions and arguments to related outcomes and related states. *)
  Section WithCall.
    Variable St : Type.
    Variable S : St -> St -> Prop.
    Definition MRS {A B} (Q : A -> B -> Prop) (m : St -> outcome A * St) (m' : St -> outcome B * St) : Prop :=
      forall st st', S st st' -> orel_gen Q (fst (m st)) (fst (m' st')) /\ S (snd (m st)) (snd (m' st')).
    Variable call call' : value -> value -> list value -> St -> outcome value * St.
    Hypothesis Hcall : forall f f' args args', R f f' -> RL args args' ->
      MRS R (call f f args) (call' f' f' args').

    (* one callback step on both sides: related results, related states *)
    Ltac cstep f f' xs xs' st st' Hf Hxs Hs o o' s1 s1' Ho Hs1 :=
      destruct (Hcall f f' xs xs' Hf Hxs st st' Hs) as [Ho Hs1];
      destruct (call f f xs st) as [o s1]; destruct (call' f' f' xs' st') as [o' s1']; cbn [fst snd] in Ho, Hs1;
      destruct o, o'; cbn in Ho; try contradiction; try (split; [exact I|exact Hs1]).

    Lemma sort_by_cmp_R f f' a a' b b' : R f f' -> R a a' -> R b b' ->
      MRS eq (sort_by_cmp St call f a b) (sort_by_cmp St call' f' a' b').
    Proof.
      intros Hf Ha Hb st st' Hs. unfold sort_by_cmp. rewrite <- (is_function_R _ _ Hf).
      destruct (is_function f); [|split; [reflexivity|exact Hs]].
      cstep f f' [a] [a'] st st' Hf (Forall2_cons _ _ Ha (Forall2_nil R)) Hs o o' s1 s1' Ho Hs1.
      cstep f f' [b] [b'] s1 s1' Hf (Forall2_cons _ _ Hb (Forall2_nil R)) Hs1 o2 o2' s2 s2' Ho2 Hs2.
      split; [|exact Hs2]. cbn. apply cmp_or_eq_R; assumption.
    Qed.

    Lemma merge_by_R f f' : R f f' -> forall l l', RL l l' -> forall r r', RL r r' ->
      MRS RL (merge_by St call f l r) (merge_by St call' f' l' r').
    Proof.
      intros Hf. induction 1 as [|a a' l l' Ha Hl IHl]; intros r r' Hr.
      - intros st st' Hs. destruct Hr; cbn; (split; [|exact Hs]); [constructor|constructor; assumption].
      - induction Hr as [|b b' r r' Hb Hr IHr]; intros st st' Hs.
        + cbn. split; [constructor; assumption|exact Hs].
        + cbn [merge_by].
          destruct (sort_by_cmp_R f f' b b' a a' Hf Hb Ha st st' Hs) as [Hc Hs1].
          destruct (sort_by_cmp St call f b a st) as [c s1]; destruct (sort_by_cmp St call' f' b' a' st') as [c' s1'].
          cbn [fst snd] in Hc, Hs1.
          destruct c as [c| | | |], c' as [c'| | | |]; cbn in Hc; try contradiction; try (split; [exact I|exact Hs1]).
          subst c'. destruct c.
          * destruct (IHl (b :: r) (b' :: r') (Forall2_cons _ _ Hb Hr) s1 s1' Hs1) as [Hm Hs2].
            destruct (merge_by St call f l (b :: r) s1) as [res s2]; destruct (merge_by St call' f' l' (b' :: r') s1') as [res' s2'].
            cbn [fst snd] in *. split; [|exact Hs2]. eapply orel_omap; [exact Hm|]. intros x x' Hx. constructor; assumption.
          * destruct (IHr s1 s1' Hs1) as [Hm Hs2]. cbn [merge_by] in Hm, Hs2.
            match type of Hm with orel_gen _ (fst ?X) (fst ?Y) =>
              destruct X as [res s2]; destruct Y as [res' s2'] end.
            cbn [fst snd] in *. split; [|exact Hs2]. eapply orel_omap; [exact Hm|]. intros x x' Hx. constructor; assumption.
          * destruct (IHl (b :: r) (b' :: r') (Forall2_cons _ _ Hb Hr) s1 s1' Hs1) as [Hm Hs2].
            destruct (merge_by St call f l (b :: r) s1) as [res s2]; destruct (merge_by St call' f' l' (b' :: r') s1') as [res' s2'].
            cbn [fst snd] in *. split; [|exact Hs2]. eapply orel_omap; [exact Hm|]. intros x x' Hx. constructor; assumption.
    Qed.

    Lemma merge_sort_by_fuel_R f f' : R f f' -> forall fuel l l', RL l l' ->
      MRS RL (merge_sort_by_fuel St call fuel f l) (merge_sort_by_fuel St call' fuel f' l').
    Proof.
      intros Hf. induction fuel as [|n IH]; intros l l' Hl st st' Hs; cbn [merge_sort_by_fuel]; [split; assumption|].
      rewrite <- (Forall2_len _ _ _ Hl). destruct (length l <? 2)%nat; [split; assumption|].
      destruct (IH _ _ (Forall2_firstn R (length l / 2) _ _ Hl) st st' Hs) as [H1 Hs1].
      destruct (merge_sort_by_fuel St call n f (firstn (length l / 2) l) st) as [o1 s1];
        destruct (merge_sort_by_fuel St call' n f' (firstn (length l / 2) l') st') as [o1' s1']. cbn [fst snd] in H1, Hs1.
      destruct o1, o1'; cbn in H1; try contradiction; try (split; [exact I|exact Hs1]).
      destruct (IH _ _ (Forall2_skipn R (length l / 2) _ _ Hl) s1 s1' Hs1) as [H2 Hs2].
      destruct (merge_sort_by_fuel St call n f (skipn (length l / 2) l) s1) as [o2 s2];
        destruct (merge_sort_by_fuel St call' n f' (skipn (length l / 2) l') s1') as [o2' s2']. cbn [fst snd] in H2, Hs2.
      destruct o2, o2'; cbn in H2; try contradiction; try (split; [exact I|exact Hs2]).
      apply merge_by_R; assumption.
    Qed.

    Lemma bi_sort_by_R args args' : RL args args' -> MRS R (bi_sort_by St call args) (bi_sort_by St call' args').
    Proof.
      intros H st st' Hs. unfold bi_sort_by.
      pose proof (arg_R args args' 1 H) as H1.
      destruct (arg args 1) as [f| | | |], (arg args' 1) as [f'| | | |]; cbn in H1; try contradiction; try (split; [exact I|exact Hs]).
      assert (H0 : orel_gen RL (obind (arg args 0) as_list) (obind (arg args' 0) as_list)).
      { eapply orel_bind; [apply (arg_R _ _ 0%nat H)|]. intros a a' Ha. apply as_list_R. exact Ha. }
      destruct (obind (arg args 0) as_list) as [l| | | |], (obind (arg args' 0) as_list) as [l'| | | |];
        cbn in H0; try contradiction; try (split; [exact I|exact Hs]).
      unfold sort_by_list. rewrite <- (Forall2_len _ _ _ H0).
      destruct (merge_sort_by_fuel_R f f' H1 (length l) l l' H0 st st' Hs) as [Hm Hs1].
      destruct (merge_sort_by_fuel St call (length l) f l st) as [res s1];
        destruct (merge_sort_by_fuel St call' (length l) f' l' st') as [res' s1']. cbn [fst snd] in *.
      split; [|exact Hs1]. eapply orel_omap; [exact Hm|]. intros x x' Hx. apply R_list. exact Hx.
    Qed.

    (* group_by / count_by *)
    Lemma keyed_items_R f f' : R f f' -> forall l l', RL l l' ->
      MRS RR (keyed_items St call f l) (keyed_items St call' f' l').
    Proof.
      intros Hf. induction 1 as [|x x' l l' Hx _ IH]; intros st st' Hs; cbn [keyed_items]; [split; [constructor|exact Hs]|].
      cstep f f' [x] [x'] st st' Hf (Forall2_cons _ _ Hx (Forall2_nil R)) Hs o o' s1 s1' Ho Hs1.
      rcase a Ho; try (split; [exact I|exact Hs1]).
      destruct (IH s1 s1' Hs1) as [Hm Hs2].
      destruct (keyed_items St call f l s1) as [more s2]; destruct (keyed_items St call' f' l' s1') as [more' s2'].
      cbn [fst snd] in *. split; [|exact Hs2]. eapply orel_omap; [exact Hm|]. intros k k' Hk.
      constructor; [split; [reflexivity|exact Hx]|exact Hk].
    Qed.

    Definition GRf (g g' : string * list value) : Prop := fst g = fst g' /\ RL (snd g) (snd g').
    Lemma group_push_R g g' key item item' : Forall2 GRf g g' -> R item item' ->
      Forall2 GRf (group_push g key item) (group_push g' key item').
    Proof.
      intros Hg Hi. induction Hg as [|[k items] [k' items'] g g' [E V] Hg IH]; cbn [group_push].
      - constructor; [split; [reflexivity|constructor; [exact Hi|constructor]]|constructor].
      - cbn [fst snd] in E, V. subst k'. destruct (String.eqb key k).
        + constructor; [split; [reflexivity|apply Forall2_app; [exact V|constructor; [exact Hi|constructor]]]|exact Hg].
        + constructor; [split; [reflexivity|exact V]|exact IH].
    Qed.
    Lemma groups_of_R k k' : RR k k' -> Forall2 GRf (groups_of k) (groups_of k').
    Proof.
      intros H. unfold groups_of. generalize (Forall2_nil GRf). generalize (@nil (string * list value)) at 1 3.
      generalize (@nil (string * list value)).
      induction H as [|kv kv' k k' [E V] _ IH]; intros g' g Hg; cbn [fold_left]; [exact Hg|].
      apply IH. rewrite E. apply group_push_R; assumption.
    Qed.
    Lemma counts_of_R k k' : RR k k' -> counts_of k = counts_of k'.
    Proof.
      intros H. unfold counts_of. generalize (@nil (string * num)).
      induction H as [|kv kv' k k' [E V] _ IH]; intros c; cbn [fold_left]; [reflexivity|]. rewrite E. apply IH.
    Qed.
    Lemma by_prologue_R args args' : RL args args' ->
      orel_gen (fun p p' => R (fst p) (fst p') /\ RL (snd p) (snd p')) (by_prologue args) (by_prologue args').
    Proof.
      intros H. unfold by_prologue. barg 1%nat f f' Hf. barg 0%nat a a' Ha. blist Ha l l' Hl.
      rewrite <- (is_function_R _ _ Hf). destruct (is_function f); [|exact I]. split; assumption.
    Qed.
    Lemma bi_group_by_R args args' : RL args args' -> MRS R (bi_group_by St call args) (bi_group_by St call' args').
    Proof.
      intros H st st' Hs. unfold bi_group_by. pose proof (by_prologue_R _ _ H) as HP.
      destruct (by_prologue args) as [[f l]| | | |], (by_prologue args') as [[f' l']| | | |]; cbn in HP;
        try contradiction; try (split; [exact I|exact Hs]).
      destruct HP as [Hf Hl]. destruct (keyed_items_R f f' Hf l l' Hl st st' Hs) as [Hk Hs1].
      destruct (keyed_items St call f l st) as [keyed s1]; destruct (keyed_items St call' f' l' st') as [keyed' s1'].
      cbn [fst snd] in *. split; [|exact Hs1]. eapply orel_omap; [exact Hk|]. intros k k' Hkk. apply R_rec.
      pose proof (groups_of_R _ _ Hkk) as G.
      induction G as [|g g' gs gs' [E V] _ IHg]; cbn [map]; constructor; [|exact IHg].
      split; [exact E|]. cbn [snd]. apply R_list. exact V.
    Qed.
    Lemma bi_count_by_R args args' : RL args args' -> MRS R (bi_count_by St call args) (bi_count_by St call' args').
    Proof.
      intros H st st' Hs. unfold bi_count_by. pose proof (by_prologue_R _ _ H) as HP.
      destruct (by_prologue args) as [[f l]| | | |], (by_prologue args') as [[f' l']| | | |]; cbn in HP;
        try contradiction; try (split; [exact I|exact Hs]).
      destruct HP as [Hf Hl]. destruct (keyed_items_R f f' Hf l l' Hl st st' Hs) as [Hk Hs1].
      destruct (keyed_items St call f l st) as [keyed s1]; destruct (keyed_items St call' f' l' st') as [keyed' s1'].
      cbn [fst snd] in *. split; [|exact Hs1]. eapply orel_omap; [exact Hk|]. intros k k' Hkk. apply R_rec.
      rewrite <- (counts_of_R _ _ Hkk).
      induction (counts_of k) as [|c cs IHc]; cbn [map]; constructor; [|exact IHc]. split; [reflexivity|apply R_num].
    Qed.
  End WithCall.
End RelPure.
