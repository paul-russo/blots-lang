(* LfInst.v — C05: the transcribed operators and built-ins of EvalInst.v satisfy the hypothesis of
   EmitSound.emit_equiv_first_order (impl_lf_respecting): on function-free values they treat their
   callback parametrically and return function-free results.  Obtained by instantiating GenOps.v with
   the full relation on stores and the predicate "contains no function value". *)
From Coq Require Import String Ascii List ZArith Bool Lia.
Require Import Blots.Num Blots.gen.Builtins Blots.Ast Blots.Value Blots.Outcome Blots.Binop
               Blots.Env Blots.Eval Blots.BuiltinsHof Blots.Program Blots.EvalInst Blots.Emit
               Blots.proofs.ValueInd Blots.proofs.GenOps Blots.proofs.EmitSound.
Import ListNotations.
Open Scope list_scope.

Definition anyst (_ _ : store) : Prop := True.
Definition lfp (_ : store) (v : value) : Prop := lf v = true.

Lemma anyst_refl : forall s, anyst s s.
Proof. intros; exact I. Qed.
Lemma anyst_trans : forall a b c, anyst a b -> anyst b c -> anyst a c.
Proof. intros; exact I. Qed.
Lemma lfp_mono : forall v st st', anyst st st' -> lfp st v -> lfp st' v.
Proof. intros v st st' _ H; exact H. Qed.
Lemma lfp_list_iff : forall st l, closed_list lfp st l <-> lfs l = true.
Proof.
  intros st l. unfold closed_list, lfp, lfs. rewrite forallb_forall, Forall_forall. reflexivity.
Qed.
Lemma lfp_VList : forall st l, lfp st (VList l) <-> closed_list lfp st l.
Proof. intros st l. rewrite lfp_list_iff. unfold lfp. rewrite lf_list. reflexivity. Qed.
Lemma lfp_atomic : forall st v, atomic v -> lfp st v.
Proof. intros st v H. destruct v; try contradiction; reflexivity. Qed.

Lemma equiv_agree : forall cb cb' s0, cb_lf_equiv cb cb' -> cb_agree anyst lfp s0 cb cb'.
Proof.
  intros cb cb' s0 H this f args st _ Hthis Hf Hargs. apply H; [exact Hthis|exact Hf|].
  apply (lfp_list_iff st). exact Hargs.
Qed.
Lemma closed_closed : forall cb s0, cb_lf_closed cb -> cb_closed anyst lfp s0 cb.
Proof.
  intros cb s0 H this f args st r st' _ Hthis Hf Hargs E. split; [exact I|].
  intros v ->. eapply H; [exact Hthis|exact Hf| |exact E]. apply (lfp_list_iff st). exact Hargs.
Qed.

(* parametric on function-free values, in GenOps.v's terms, is EmitSound's hypothesis *)
Lemma lf_respecting_of_agree : forall bi bu,
  binop_agrees anyst lfp bi -> builtin_agrees anyst lfp bu -> impl_lf_respecting bi bu.
Proof.
  intros bi bu Hbi Hbu.
  assert (HB : forall cb cb' op l r st, cb_lf_equiv cb cb' -> cb_lf_closed cb -> lf l = true -> lf r = true ->
            bi cb op l r st = bi cb' op l r st /\
            (forall v st', bi cb op l r st = (Ok v, st') -> lf v = true)).
  { intros cb cb' op l r st He Hc Hl Hr.
    destruct (Hbi cb cb' st (equiv_agree _ _ _ He) (closed_closed _ _ Hc) op l r st I Hl Hr) as [Heq Hpost].
    split; [exact Heq|intros v st' E; destruct (Hpost _ _ E) as [_ Hv]; exact (Hv v eq_refl)]. }
  assert (HU : forall cb cb' b args st, cb_lf_equiv cb cb' -> cb_lf_closed cb -> lfs args = true ->
            bu cb b args st = bu cb' b args st /\
            (forall v st', bu cb b args st = (Ok v, st') -> lf v = true)).
  { intros cb cb' b args st He Hc Ha.
    destruct (Hbu cb cb' st (equiv_agree _ _ _ He) (closed_closed _ _ Hc) b args st I
                (proj2 (lfp_list_iff st args) Ha)) as [Heq [_ Hpost]].
    split; [exact Heq|]. intros v st' E. rewrite E in Hpost. cbn [fst snd] in Hpost. exact (Hpost v eq_refl). }
  repeat split.
  - intros cb cb' op l r st He Hc Hl Hr. exact (proj1 (HB cb cb' op l r st He Hc Hl Hr)).
  - intros cb op l r st v st' Hc Hl Hr E.
    exact (proj2 (HB cb cb op l r st (fun _ _ _ _ _ _ _ => eq_refl) Hc Hl Hr) v st' E).
  - intros cb cb' b args st He Hc Ha. exact (proj1 (HU cb cb' b args st He Hc Ha)).
  - intros cb b args st v st' Hc Ha E.
    exact (proj2 (HU cb cb b args st (fun _ _ _ _ _ _ _ => eq_refl) Hc Ha) v st' E).
Qed.

Theorem impl_lf_respecting_inst : impl_lf_respecting binop_impl builtin_impl.
Proof.
  apply lf_respecting_of_agree.
  - exact (binop_impl_agree anyst anyst_refl anyst_trans lfp lfp_mono lfp_VList lfp_atomic).
  - exact (builtin_impl_agree anyst anyst_refl anyst_trans lfp lfp_mono lfp_VList lfp_atomic).
Qed.
