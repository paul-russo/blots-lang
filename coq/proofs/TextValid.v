(* TextValid.v — VALIDITY OF PARSED PROGRAMS and the end-to-end never-Panic statement from bytes (C01).

   1. conv_valid           every token-stream item PegToItems.conv builds (any text, any fuel, ANY pair tree) carries valid
                           binary64 numbers only: a number enters through number_item (AllValidLit.number_item_valid), every
                           other arm copies slices of the text or converted sub-trees.
   2. parsed_stmts_valid   every statement of  parse_text_stmts text = TIOk l  that is a TStmt satisfies valid_stmtb
                           (conv_valid + TextValidPratt.pratt_impl_valid);  parsed_program_valid: parse_text_ast text = TPOk p
                           -> valid_prog p.
   3. run_tstmts_no_panic  the statement loop over valid text statements, none of which is a glue panic (pairs_to_expr's own
                           `unreachable!`, a parse-side event), from an invariant-satisfying session: no result is a Panic,
                           every value valid (AllValidEval.exec_stmt_ok per statement).
   4. text_run_no_panic    for every oracle with oracle_valid / oracle_display_safe, valid inputs, EVERY text the parser
                           accepts: the run of  eval_top release (binop_all o) (builtin_all_fit o)  over it contains no Panic
                           that comes from the evaluator: a Panic result implies a TGluePanic statement in the parse.
   The grammar stays opaque: only the *_unfold equations of TextRunFacts.v are used on parse_text_stmts. *)
From Coq Require Import String Ascii List NArith ZArith Bool Arith Lia.
Require Import Blots.Peg Blots.gen.Grammar Blots.PrattTypes Blots.Pratt Blots.PegToItems.
Require Import Blots.Num Blots.gen.Builtins Blots.Ast Blots.Value Blots.Outcome Blots.Env Blots.Eval
               Blots.Program Blots.EvalAll Blots.TextRun Blots.Valid.
Require Import Blots.proofs.AllValidLit Blots.proofs.AllValidEval Blots.proofs.AllValidOps Blots.proofs.AllValidBuiltins Blots.proofs.AllValid
               Blots.proofs.TextRunFacts Blots.proofs.TextValidPratt.
Import ListNotations.
Local Open Scope list_scope.

(* ------------------------------------------------------------------ 1. conv *)
(* the element lists of conv's list / record / do_block arms are a map / flat_map over the inner pairs: it is enough
   to look at what one inner pair contributes (F is read off the goal) *)
Lemma valid_lelsb_map : forall {A} (F : A -> lelem) l,
  (forall k, valid_lelsb [F k] = true) -> valid_lelsb (map F l) = true.
Proof.
  intros A F l H. induction l as [|k l IH]; [reflexivity|]. specialize (H k).
  cbn [map]. destruct (F k); cbn [valid_lelsb] in *; [exact IH|].
  rewrite andb_true_r in H. rewrite H, IH. reflexivity.
Qed.
Lemma valid_relsb_app : forall a b, valid_relsb (a ++ b) = valid_relsb a && valid_relsb b.
Proof.
  induction a as [|x a IH]; intro b; [reflexivity|].
  destruct x; cbn [app valid_relsb]; rewrite IH; try reflexivity; apply andb_assoc.
Qed.
Lemma valid_delsb_app : forall a b, valid_delsb (a ++ b) = valid_delsb a && valid_delsb b.
Proof.
  induction a as [|x a IH]; intro b; [reflexivity|].
  destruct x; cbn [app valid_delsb]; rewrite IH; try reflexivity; apply andb_assoc.
Qed.
Lemma valid_relsb_flat_map : forall {A} (F : A -> list relem) l,
  (forall k, valid_relsb (F k) = true) -> valid_relsb (flat_map F l) = true.
Proof.
  intros A F l H. induction l as [|k l IH]; [reflexivity|].
  cbn [flat_map]. rewrite valid_relsb_app, H, IH. reflexivity.
Qed.
Lemma valid_delsb_flat_map : forall {A} (F : A -> list delem) l,
  (forall k, valid_delsb (F k) = true) -> valid_delsb (flat_map F l) = true.
Proof.
  intros A F l H. induction l as [|k l IH]; [reflexivity|].
  cbn [flat_map]. rewrite valid_delsb_app, H, IH. reflexivity.
Qed.

Section ConvValid.
  Variable text : string.

  Lemma number_item_validb : forall tok, valid_itemb (number_item tok) = true.
  Proof.
    intro tok. unfold number_item. destruct (NumText.literal_value_rf true NumText.ref_str_parse tok) eqn:E; [|reflexivity].
    cbn [valid_itemb]. exact (literal_value_valid _ _ E).
  Qed.

  Lemma convs_valid : forall f, (forall t, valid_itemb (conv text f t) = true) ->
    forall l, valid_itemsb (map (conv text f) l) = true.
  Proof.
    intros f IH l. induction l as [|t l IHl]; [reflexivity|]. cbn [map valid_itemsb]. rewrite IH, IHl. reflexivity.
  Qed.

  Theorem conv_valid : forall f t, valid_itemb (conv text f t) = true.
  Proof.
    induction f as [|f IH]; intro t; [reflexivity|].
    destruct t as [r s e kids].
    pose proof (convs_valid f IH) as Hcv.
    destruct r; try reflexivity.
    - (* number *) cbn [conv]. apply number_item_validb.
    - (* lambda *)
      destruct kids as [|al [|body rest]]; try reflexivity. cbn [conv]. rewrite vI_ILambda. apply Hcv.
    - (* lambda_expression *) cbn [conv]. rewrite vI_IExpr. apply Hcv.
    - (* access *) cbn [conv]. rewrite vI_IAccess. apply Hcv.
    - (* call_list *)
      cbn [conv]. rewrite vI_ICall. induction kids as [|k l IHl]; [reflexivity|].
      cbn [map valid_argsb]. rewrite Hcv, IHl. reflexivity.
    - (* list *)
      cbn [conv]. rewrite vI_IList. apply valid_lelsb_map. intro k. cbv beta.
      destruct (trule k); try (cbn [valid_lelsb]; rewrite Hcv; reflexivity); [reflexivity|].
      destruct (tkids k); cbn [valid_lelsb]; rewrite ?Hcv; reflexivity.
    - (* record *)
      cbn [conv]. rewrite vI_IRecord. apply valid_relsb_flat_map. intro k. cbv beta.
      destruct (trule k); try reflexivity.
      destruct (tkids k) as [|entry more]; [reflexivity|]. cbv zeta.
      destruct (trule entry); try (cbn [valid_relsb]; rewrite ?Hcv; reflexivity).
      destruct (tkids entry) as [|key [|value rest]]; try reflexivity.
      cbn [valid_relsb]. rewrite Hcv, !andb_true_r.
      destruct (trule key); try (cbn [valid_rkeyb]; apply Hcv).
      destruct (tkids key) as [|ik ?]; [reflexivity|]. destruct (trule ik); reflexivity.
    - (* conditional *)
      destruct kids as [|c [|t1 [|e1 rest]]]; try reflexivity. cbn [conv]. rewrite vI_ICond, !Hcv. reflexivity.
    - (* expression *) cbn [conv]. rewrite vI_IExpr. apply Hcv.
    - (* assignment *)
      destruct kids as [|x [|v rest]]; try reflexivity. cbn [conv]. rewrite vI_IAssign. apply Hcv.
    - (* do_block *)
      cbn [conv]. rewrite vI_IDo. apply valid_delsb_flat_map. intro k. cbv beta.
      destruct (trule k); try reflexivity.
      + destruct (tkids k) as [|first more]; [reflexivity|]. cbv zeta.
        destruct (trule first); try reflexivity. cbn [valid_delsb]. rewrite Hcv. reflexivity.
      + destruct (tkids k) as [|ex rest]; [reflexivity|]. cbn [valid_delsb]. rewrite Hcv. reflexivity.
  Qed.

  Lemma conv_kids_valid : forall f l, valid_itemsb (map (conv text f) l) = true.
  Proof. intros f l. apply convs_valid. apply conv_valid. Qed.
End ConvValid.

(* ------------------------------------------------------------------ 2. parsed statements *)
Definition valid_tstmt (t : text_stmt) : Prop := match t with TStmt s => valid_stmtb s = true | _ => True end.

Lemma glue_stmt_valid : forall mk r,
  (forall e, valid_stmtb (mk e) = valid_exprb e) ->
  (forall e, r = Outcome.Ok (Some e) -> valid_expr e) -> valid_tstmt (glue_stmt mk r).
Proof.
  intros mk r Hmk H. destruct r as [[e|]| | | |]; cbn [glue_stmt valid_tstmt]; try exact I.
  rewrite Hmk. apply H. reflexivity.
Qed.

Lemma text_stmt_of_valid : forall text fuel t r, text_stmt_of text fuel t = Some r -> valid_tstmt r.
Proof.
  intros text fuel t r H. unfold text_stmt_of in H.
  destruct (tkids t) as [|first rest]; [discriminate H|].
  destruct (trule first); injection H as <-; try exact I; try (cbn [valid_tstmt]; reflexivity).
  - apply glue_stmt_valid; [reflexivity|]. intros e He.
    eapply pratt_impl_valid; [|exact He]. apply conv_kids_valid.
  - apply glue_stmt_valid; [reflexivity|]. intros e He.
    eapply pratt_impl_valid; [|exact He]. apply conv_kids_valid.
Qed.

Theorem parsed_stmts_fuel_valid : forall fuel text l, parse_text_stmts_fuel fuel text = TIOk l -> Forall valid_tstmt l.
Proof. intros fuel text. apply parse_text_stmts_fuel_Forall. apply text_stmt_of_valid. Qed.
Theorem parsed_stmts_valid : forall text l, parse_text_stmts text = TIOk l -> Forall valid_tstmt l.
Proof. intros text l H. rewrite parse_text_stmts_unfold in H. eapply parsed_stmts_fuel_valid; exact H. Qed.

Lemma stmts_all_ok_valid : forall l p, Forall valid_tstmt l -> stmts_all_ok l = Some p -> valid_prog p.
Proof.
  induction l as [|t l IH]; intros p V H; cbn [stmts_all_ok] in H.
  - injection H as <-. reflexivity.
  - destruct t as [s| | |]; try discriminate H.
    destruct (stmts_all_ok l) as [p'|] eqn:E; [|discriminate H]. injection H as <-.
    inversion V as [|? ? Vs Vl]; subst. unfold valid_prog. cbn [valid_progb forallb].
    cbn [valid_tstmt] in Vs. rewrite Vs. exact (IH _ Vl eq_refl).
Qed.
Theorem parsed_program_fuel_valid : forall fuel text p, parse_text_ast_fuel fuel text = TPOk p -> valid_prog p.
Proof.
  intros fuel text p H. unfold parse_text_ast_fuel in H.
  destruct (parse_text_stmts_fuel fuel text) as [l| | |] eqn:E; try discriminate H.
  destruct (existsb is_glue_panic l); [discriminate H|]. destruct (existsb is_glue_fuel l); [discriminate H|].
  destruct (stmts_all_ok l) as [p'|] eqn:Ea; [|discriminate H]. injection H as <-.
  eapply stmts_all_ok_valid; [|exact Ea]. eapply parsed_stmts_fuel_valid; exact E.
Qed.
Theorem parsed_program_valid : forall text p, parse_text_ast text = TPOk p -> valid_prog p.
Proof. intros text p H. rewrite parse_text_ast_unfold in H. eapply parsed_program_fuel_valid; exact H. Qed.

(* ------------------------------------------------------------------ 3. the statement loop *)
Definition result_fine (rs : stmt_result * store) : Prop := fst rs <> RFail Panic /\ valid_resultb (fst rs) = true.

Section Loop.
  Variable o : oracle.
  Hypothesis Ho : oracle_valid o.
  Hypothesis Hd : oracle_display_safe o.
  Variable release : bool.
  Notation eval := (eval_top release (binop_all o) (builtin_all_fit o)).

  Lemma exec_stmt_all_ok : forall s t s' r, valid_stmtb t = true ->
    exec_stmt eval s t = (s', r) -> Inv (s_cfg s) ->
    Inv (s_cfg s') /\ r <> RFail Panic /\ valid_resultb r = true.
  Proof.
    exact (exec_stmt_ok release (binop_all o) (builtin_all_fit o) (binop_all_valid o Ho)
                        (builtin_all_fit_valid o Ho Hd) (factorial_valid release)).
  Qed.

  (* a Panic result of the loop is the glue panic of a statement (pairs_to_expr's `unreachable!`), never the evaluator's *)
  Lemma run_tstmts_panic_is_glue : forall l s, Forall valid_tstmt l -> Inv (s_cfg s) ->
    Forall (fun rs => (fst rs = RFail Panic -> existsb is_glue_panic l = true)
                      /\ valid_resultb (fst rs) = true) (snd (run_tstmts eval s l)).
  Proof.
    induction l as [|t rest IH]; intros s Vl Hi; cbn [run_tstmts]; [constructor|].
    inversion Vl as [|? ? Vt Vrest]; subst.
    destruct t as [t| | |]; cbn [snd existsb is_glue_panic orb].
    - cbn [valid_tstmt] in Vt. destruct (exec_stmt eval s t) as [s' r] eqn:E.
      destruct (exec_stmt_all_ok _ _ _ _ Vt E Hi) as (Hi' & Hr & Hvr).
      destruct r.
      + specialize (IH s' Vrest Hi'). destruct (run_tstmts eval s' rest) as [s'' rs]. cbn [snd] in *.
        constructor; [split; [discriminate|exact Hvr]|exact IH].
      + cbn [snd]. constructor; [split; [intro C; contradiction|reflexivity]|constructor].
      + cbn [snd]. constructor; [split; [discriminate|reflexivity]|constructor].
      + apply IH; assumption.
    - constructor; [split; [discriminate|reflexivity]|constructor].
    - constructor; [split; [reflexivity|reflexivity]|constructor].
    - constructor; [split; [discriminate|reflexivity]|constructor].
  Qed.

  Lemma run_tstmts_no_panic : forall l s, Forall valid_tstmt l -> Forall (fun t => t <> TGluePanic) l ->
    Inv (s_cfg s) -> Forall result_fine (snd (run_tstmts eval s l)).
  Proof.
    intros l s Vl Hg Hi. pose proof (run_tstmts_panic_is_glue l s Vl Hi) as H.
    assert (Hn : existsb is_glue_panic l = false).
    { clear - Hg. induction Hg as [|t l Ht _ IH]; [reflexivity|]. cbn [existsb]. rewrite IH.
      destruct t; try reflexivity. exfalso; apply Ht; reflexivity. }
    rewrite Hn in H. eapply Forall_impl; [|exact H]. intros rs [H1 H2]. split; [|exact H2].
    intro C. specialize (H1 C). discriminate H1.
  Qed.

  (* ---------------------------------------------------------------- 4. from bytes *)
  Theorem text_run_panic_is_glue : forall inputs text l, valid_inputs inputs ->
    parse_text_stmts text = TIOk l ->
    exists sr, run_text_res eval inputs text = TRun sr
               /\ Forall (fun rs => (fst rs = RFail Panic -> existsb is_glue_panic l = true)
                                    /\ valid_resultb (fst rs) = true) (snd sr).
  Proof.
    intros inputs text l Hin H. rewrite run_text_res_unfold. unfold run_text_res_fuel.
    pose proof (parsed_stmts_valid text l H) as Vl.
    rewrite parse_text_stmts_unfold in H. rewrite H.
    eexists. split; [reflexivity|].
    apply run_tstmts_panic_is_glue; [exact Vl|].
    apply init_session_Inv. exact Hin.
  Qed.

  Theorem text_run_no_panic : forall inputs text l, valid_inputs inputs ->
    parse_text_stmts text = TIOk l -> Forall (fun t => t <> TGluePanic) l ->
    exists sr, run_text_res eval inputs text = TRun sr /\ Forall result_fine (snd sr).
  Proof.
    intros inputs text l Hin H Hg. rewrite run_text_res_unfold. unfold run_text_res_fuel.
    pose proof (parsed_stmts_valid text l H) as Vl.
    rewrite parse_text_stmts_unfold in H. rewrite H.
    eexists. split; [reflexivity|].
    apply run_tstmts_no_panic; [exact Vl|exact Hg|].
    apply init_session_Inv. exact Hin.
  Qed.
End Loop.
