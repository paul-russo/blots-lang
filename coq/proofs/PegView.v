(* proofs/PegView.v — grammar-level half of C09_view_items (forest_view_ok of every Peg.parse result): a UNIFORM
   per-rule postcondition [C_view], computed from gen/Grammar.v, proved of every node of every tree Peg.parse produces
   by the generic machinery of PegShape.v (run_nodes / run_tops / tops_enum / tops_names):
     - [vnames r]: every inner pair of a pair of rule r has its rule name in this list (silent rules unfolded through
       the table [VS], itself COMPUTED from the grammar by iterating PegShape.enum);
     - [venum r]: where the body of r has no repetition that yields pairs, the finite list of possible sequences of
       inner-pair rule names;
     - atomic rules (@): their bodies reach only pair-less silent rules, hence NO inner pair (PegQuiet on the set atomic_reach_set).
   Nothing here unfolds Peg.run on the concrete grammar: per-rule facts are vm_compute checks on the rule bodies. *)
From Coq Require Import String Ascii List NArith Bool Arith Lia.
Require Import Blots.Peg Blots.proofs.PegGeneric Blots.proofs.PegQuiet Blots.proofs.PegShape Blots.proofs.PegFuelBlots.
Require Import Blots.gen.Grammar Blots.PegToItems Blots.PegComments Blots.proofs.PegCommentsCompose.
Import ListNotations.
Local Open Scope list_scope.

Local Notation BQ := in_newline_quiet.
Definition vbody (r : grule) : expr grule := rd_body (grule_def r).
Definition nonquiet_silent (r : grule) : bool := silentb grule blots_grammar r && negb (BQ r).

(* the top-level pair names of the silent rules, computed: iterate [enum] from the empty table *)
Fixpoint senum_iter (n : nat) (r : grule) : option (list (list grule)) :=
  match n with
  | O => None
  | S n' => if nonquiet_silent r then enum grule blots_grammar BQ (senum_iter n') (vbody r) else None
  end.
(* any number of rounds after which the table no longer changes will do ([VS_fix] checks that 4 is one; the
   table of this grammar is stable from the second round on) *)
Definition VS : grule -> option (list (list grule)) := senum_iter 4.

Local Notation VSs := (S_of grule VS).
Local Notation vtops := (tops grule blots_grammar BQ VSs).
Local Notation venum_e := (enum grule blots_grammar BQ VS).
Local Notation vnames_e := (names grule blots_grammar BQ VS all_grules).

(* the table is a fixed point of the unfolding (checked by computation, rule by rule) *)
Lemma VS_fix : forall r, VS r = None \/ VS r = venum_e (vbody r).
Proof. intro r. destruct r; vm_compute; auto. Qed.

Lemma VS_sound : forall r, silentb grule blots_grammar r = true -> BQ r = false ->
  forall l, vtops (rd_body (g_def blots_grammar r)) l -> VSs r l.
Proof.
  intros r _ _ l H. unfold S_of. destruct (VS r) as [ls|] eqn:E; [|exact I].
  destruct (VS_fix r) as [F|F]; [congruence|].
  refine (tops_enum grule blots_grammar BQ VS _ l ls H _). rewrite <- E. symmetry. exact F.
Qed.

Definition view_run_tops :=
  run_tops grule blots_grammar BQ BQ_silent BQ_closed BQ_ws BQ_comment BQ_trivia VSs VS_sound.

(* ---------------------------------------------------------------- atomic rules have no inner pairs *)
Definition atomicb (r : grule) : bool := match rd_mod (grule_def r) with MAtomic => true | _ => false end.
Definition atomic_reach_set : list grule :=
  [PG_WHITESPACE; PG_plain_newline; PG_NEWLINE; PG_inline_comment; PG_binary_number; PG_hex_number; PG_decimal_number;
   PG_binary_digits; PG_hex_digits; PG_integer; PG_reserved_word; PG_identifier_rest].
Definition atomic_reach (r : grule) : bool := existsb (grule_eqb r) atomic_reach_set.
Lemma atomic_reach_ok : forall r, atomic_reach r = true ->
  is_silent r = true /\ forallb atomic_reach (expr_idents (rd_body (grule_def r))) = true.
Proof. intros r. destruct r; vm_compute; intro H; try discriminate H; split; reflexivity. Qed.
Lemma atomic_bodies_quiet : forall r, atomicb r = true -> forallb atomic_reach (expr_idents (vbody r)) = true.
Proof. intros r. destruct r; vm_compute; intro H; try discriminate H; reflexivity. Qed.

(* ---------------------------------------------------------------- the per-rule postcondition *)
Definition vnames (r : grule) : list grule := if atomicb r then [] else vnames_e (vbody r).
Definition venum (r : grule) : option (list (list grule)) := if atomicb r then Some [[]] else venum_e (vbody r).
Definition vspec (r : grule) (l : list grule) : Prop :=
  Forall (fun x => In x (vnames r)) l /\ match venum r with Some ls => In l ls | None => True end.
Definition C_view (r : grule) (txt : string) (kids : list (tree grule)) : Prop := vspec r (map trule kids).

Lemma view_body_gives : forall text f, body_gives grule blots_grammar text C_view (run blots_grammar f).
Proof.
  intros text f r a s s1 Hns Hem Ht Ho H Hf. unfold C_view, vspec, vnames, venum.
  destruct (atomicb r) eqn:Ea.
  - assert (E : out s1 = out s).
    { refine (quiet_rules_emit_no_pairs_blots atomic_reach atomic_reach_ok _ _ f _ _ false _ s s1 (atomic_bodies_quiet r Ea) (or_introl H)).
      - intros w Hw. vm_compute in Hw. inversion Hw. reflexivity.
      - intros w Hw. vm_compute in Hw. discriminate Hw. }
    rewrite E, Ho. cbn [rev map]. split; [constructor|left; reflexivity].
  - assert (Ha : r_body_atom grule (g_def blots_grammar r) a <> Atomic).
    { destruct r; try discriminate Ea;
        first [ discriminate | (apply emits_not_atomic; exact Hem) | (exfalso; apply Hns; reflexivity) ]. }
    pose proof (view_run_tops f (r_mode grule (g_def blots_grammar r)) _ (rd_body (g_def blots_grammar r)) Ha s) as Hr.
    rewrite H in Hr. destruct Hr as (new & O & Hr). rewrite Ho, app_nil_r in O. rewrite O.
    split.
    + exact (tops_names grule blots_grammar BQ VS all_grules all_grules_complete _ _ Hr).
    + destruct (venum_e (vbody r)) as [ls|] eqn:E; [|exact I].
      exact (tops_enum grule blots_grammar BQ VS _ _ ls Hr E).
Qed.

(* every node of every tree of every parse satisfies C_view *)
Theorem view_nodes : forall fuel text s',
  Peg.parse blots_grammar fuel PG_input text = Peg.Ok s' ->
  forest_all grule text C_view (rev (out s')).
Proof.
  intros fuel text s' H. unfold forest_all. apply Forall_rev.
  exact (parse_nodes grule blots_grammar text C_view (view_body_gives text) fuel PG_input s' H).
Qed.

(* the top-level pairs of a parse are `statement` pairs and the EOI pair *)
Theorem view_top_names : forall fuel text s',
  Peg.parse blots_grammar fuel PG_input text = Peg.Ok s' ->
  Forall (fun t => trule t = PG_statement \/ trule t = PG_EOI) (rev (out s')).
Proof.
  intros fuel text s' H. unfold Peg.parse in H.
  change (run blots_grammar fuel false NonAtomic false (vbody PG_input) (init text) = Peg.Ok s') in H.
  assert (Ha : NonAtomic <> Atomic) by discriminate.
  pose proof (view_run_tops fuel false NonAtomic (vbody PG_input) Ha (init text)) as Hr.
  rewrite H in Hr. destruct Hr as (new & O & Hr). cbn [init out] in O. rewrite app_nil_r in O. rewrite O.
  apply (tops_names grule blots_grammar BQ VS all_grules all_grules_complete) in Hr.
  assert (E : forall t : tree grule, troot grule t = trule t) by (intros [? ? ? ?]; reflexivity).
  revert Hr. generalize (rev new). intros l Hr. induction l as [|t l IH]; [constructor|].
  cbn [map] in Hr. inversion Hr as [|? ? H1 H2]; subst. constructor; [|apply IH; exact H2].
  clear E. destruct t as [r0 ? ? ?]. cbn [troot trule] in *. vm_compute in H1.
  repeat (destruct H1 as [H1|H1]; [rewrite <- H1; auto|]). destruct H1.
Qed.
