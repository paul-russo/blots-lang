(* proofs/Cli.v — lemmas about the CLI driver model (coq/Cli.v) for C19. *)
From Coq Require Import String Ascii List ZArith Bool Lia.
Require Import Blots.Num Blots.gen.Builtins Blots.Ast Blots.Value Blots.Outcome Blots.Binop
               Blots.Env Blots.Eval Blots.Show Blots.Program Blots.Cli
               Blots.proofs.ValueInd Blots.proofs.AccessLaws
               Blots.proofs.Frames Blots.proofs.StoreMono Blots.proofs.Scoping.
Import ListNotations.
Open Scope list_scope.
Local Open Scope nat_scope.
Open Scope string_scope.

(* ====================================================================================== *)
(* 1.  #name = inputs.name                                                                  *)
(* ====================================================================================== *)
Section Hash.
  Variable release : bool.
  Variable binop_impl : callback -> binop -> value -> value -> store -> outcome value * store.
  Variable apply : frames -> callback.
  Notation ev := (evalE release binop_impl apply).

  (* in EVERY configuration (any frame chain, any store), for any FunctionDef::call *)
  Lemma hash_is_inputs_field : forall c n,
    ev c (EInRef n) = ev c (EDot (EId "inputs") n).
  Proof.
    intros c n. cbn [evalE]. cbn.
    destruct (lookup (snd c) "inputs") as [v|]; [|reflexivity].
    destruct v; reflexivity.
  Qed.

  Lemma hash_value : forall c n r,
    lookup (snd c) "inputs" = Some (VRec r) ->
    ev c (EInRef n) = (Ok (match rec_get r n with Some v => v | None => VNull end), c).
  Proof. intros c n r H. cbn [evalE]. rewrite H. reflexivity. Qed.

  Lemma hash_null_when_absent : forall c n r,
    lookup (snd c) "inputs" = Some (VRec r) -> rec_get r n = None ->
    ev c (EInRef n) = (Ok VNull, c) /\ ev c (EDot (EId "inputs") n) = (Ok VNull, c).
  Proof.
    intros c n r H Hn. rewrite <- hash_is_inputs_field. rewrite (hash_value c n r H), Hn. auto.
  Qed.
End Hash.

(* FunctionDef::call re-reads `inputs` from the CALLER's chain (functions.rs:1779): the body of
   a lambda whose parameters are not called `inputs` sees exactly the caller's `inputs`. *)
Lemma bind_params_other : forall ps idx args acc local x,
  bind_params ps idx args acc = Some local ->
  existsb (fun p => String.eqb x (arg_name p)) ps = false ->
  lookup_frame local x = lookup_frame acc x.
Proof.
  induction ps as [|p ps IH]; intros idx args acc local x H Hx; cbn [bind_params] in H.
  - inversion H; reflexivity.
  - cbn [existsb] in Hx. apply orb_false_iff in Hx. destruct Hx as [Hp Hps].
    destruct p as [y|y|y]; cbn [arg_name] in Hp; [destruct (nth_error args idx); [|discriminate]| |];
      rewrite (IH _ _ _ _ _ H Hps); cbn [lookup_frame]; now rewrite Hp.
Qed.

Lemma callee_sees_callers_inputs : forall ps args fr i self local parent,
  lookup fr "inputs" = Some i ->
  bind_params ps 0 args (("inputs", i) :: self) = Some local ->
  existsb (fun p => String.eqb "inputs" (arg_name p)) ps = false ->
  lookup ((FOwned, local) :: parent) "inputs" = Some i.
Proof.
  intros ps args fr i self local parent _ Hb Hp. cbn [lookup].
  rewrite (bind_params_other _ _ _ _ _ _ Hb Hp). reflexivity.
Qed.

(* ====================================================================================== *)
(* 2.  exit status                                                                          *)
(* ====================================================================================== *)
Section Exit.
  Variable eval : cfg -> expr -> result.

  (* every statement, executed in order, succeeds (comments are skipped) *)
  Fixpoint all_succeed (s : session) (p : list stmt) : Prop :=
    match p with
    | [] => True
    | t :: rest =>
        is_rok (snd (exec_stmt eval s t)) = true /\ all_succeed (fst (exec_stmt eval s t)) rest
    end.

  Lemma first_stop_not_ok : forall rs r, first_stop rs = Some r -> is_rok r = false.
  Proof.
    induction rs as [|[r0 st0] rs IH]; intros r H; cbn [first_stop] in H; [discriminate|].
    destruct (is_rok r0) eqn:E; [apply IH; exact H|]. inversion H; subst; exact E.
  Qed.

  Lemma run_first_stop : forall p s,
    first_stop (snd (run eval s p)) = None <-> all_succeed s p.
  Proof.
    induction p as [|t rest IH]; intros s; cbn [run all_succeed].
    - cbn. tauto.
    - destruct (exec_stmt eval s t) as [s' r] eqn:E. cbn [fst snd].
      destruct r as [v|o| |].
      + destruct (run eval s' rest) as [s'' rs] eqn:E2. cbn [snd first_stop is_rok].
        specialize (IH s'). rewrite E2 in IH. cbn [snd] in IH. tauto.
      + cbn [snd first_stop is_rok]. split; [discriminate|intros [H _]; discriminate].
      + cbn [snd first_stop is_rok]. split; [discriminate|intros [H _]; discriminate].
      + cbn [is_rok]. specialize (IH s'). tauto.
  Qed.

  Lemma stop_exit_nonzero : forall r, is_rok r = false -> stop_exit r <> Some 0.
  Proof. intros [v|[a| | | |]| |]; cbn; intros H; try discriminate. Qed.

  Lemma run_script_exit0 : forall of s0 p,
    cr_exit (run_script eval of s0 p) = Some 0 <-> all_succeed s0 p.
  Proof.
    intros of s0 p. unfold run_script. rewrite <- run_first_stop.
    destruct (run eval s0 p) as [s rs]. cbn [snd].
    destruct (first_stop rs) as [r|] eqn:E.
    - split; [|discriminate]. intros H. exfalso.
      pose proof (stop_exit_nonzero r (first_stop_not_ok _ _ E)) as Hn.
      destruct (stop_exit r) as [code|]; cbn in H; [|discriminate]. congruence.
    - split; [reflexivity|]. intros _. unfold cli_emit. destruct of; reflexivity.
  Qed.

  (* the shape of what is emitted *)
  Definition one_object (of : bool) (r : cli_result) (o : list (string * value)) : Prop :=
    if of then cr_stdout r = None /\ cr_file r = Some o
    else cr_stdout r = Some o /\ cr_file r = None.
  Definition no_object (r : cli_result) : Prop := cr_stdout r = None /\ cr_file r = None.

  Lemma run_script_shape : forall of s0 p,
    (cr_exit (run_script eval of s0 p) = Some 0 /\
     one_object of (run_script eval of s0 p) (s_outputs (fst (run eval s0 p)))) \/
    (cr_exit (run_script eval of s0 p) <> Some 0 /\ no_object (run_script eval of s0 p)).
  Proof.
    intros of s0 p. unfold run_script. destruct (run eval s0 p) as [s rs]. cbn [fst].
    destruct (first_stop rs) as [r|] eqn:E.
    - right. pose proof (stop_exit_nonzero r (first_stop_not_ok _ _ E)) as Hn.
      destruct (stop_exit r) as [code|]; cbn; split; try congruence; split; reflexivity.
    - left. unfold cli_emit, one_object. destruct of; cbn; auto.
  Qed.

  (* which stdin the mode consults *)
  Definition stdin_for (m : mode) (stdin : option input_src) : option input_src :=
    match m with MEvalStdin => None | _ => stdin end.

  (* the success condition of the whole invocation, stated without the driver *)
  Definition invocation_ok (m : mode) (stdin : option input_src) (flags : list input_src)
             (prog : option (list stmt)) : Prop :=
    m <> MNoScript /\
    exists inputs st p,
      read_inputs (stdin_for m stdin) flags = (Some inputs, st) /\
      prog = Some p /\
      all_succeed (cli_session st inputs) p.

  (* a script mode whose inputs were read runs the script, if it parses *)
  Lemma cli_run_script : forall m of stdin flags prog inputs st,
    m <> MNoScript -> read_inputs (stdin_for m stdin) flags = (Some inputs, st) ->
    cli_run eval m of stdin flags prog =
    match prog with Some p => run_script eval of (cli_session st inputs) p | None => cli_fail 1 end.
  Proof.
    intros m of stdin flags prog inputs st Hm R. unfold cli_run. fold (stdin_for m stdin). rewrite R.
    destruct m; try reflexivity. congruence.
  Qed.
  (* without a script, or with an input that cannot be read, nothing runs *)
  Lemma cli_run_no_script : forall m of stdin flags prog,
    m = MNoScript \/ fst (read_inputs (stdin_for m stdin) flags) = None ->
    cli_run eval m of stdin flags prog = cli_fail 1.
  Proof.
    intros m of stdin flags prog H. unfold cli_run. fold (stdin_for m stdin).
    destruct (read_inputs (stdin_for m stdin) flags) as [[inputs|] st]; [|reflexivity].
    destruct H as [-> | H]; [reflexivity|discriminate].
  Qed.
  Lemma mode_script_dec : forall m, m = MNoScript \/ m <> MNoScript.
  Proof. intros []; (now left) || (right; discriminate). Qed.

  Theorem exit0_iff_all_ok : forall m of stdin flags prog,
    cr_exit (cli_run eval m of stdin flags prog) = Some 0 <-> invocation_ok m stdin flags prog.
  Proof.
    intros m of stdin flags prog. unfold invocation_ok.
    destruct (read_inputs (stdin_for m stdin) flags) as [[inputs|] st] eqn:R.
    2:{ rewrite cli_run_no_script by (right; now rewrite R).
        split; [discriminate|]. intros [_ [i [s [q [H1 _]]]]]. discriminate. }
    destruct (mode_script_dec m) as [Hm|Hm].
    { rewrite cli_run_no_script by now left. split; [discriminate|tauto]. }
    rewrite (cli_run_script m of stdin flags prog inputs st Hm R). destruct prog as [p|].
    - rewrite run_script_exit0. split.
      + intros H. split; [exact Hm|]. exists inputs, st, p. auto.
      + intros [_ [i [s [q [H1 [H2 H3]]]]]]. inversion H1; inversion H2; subst. exact H3.
    - split; [discriminate|]. intros [_ [i [s [q [_ [H2 _]]]]]]. discriminate.
  Qed.

  (* exit 0 => exactly one object, in the place -o selects; any other exit => no object at all *)
  Theorem exit0_one_object_else_none : forall m of stdin flags prog,
    let r := cli_run eval m of stdin flags prog in
    (cr_exit r = Some 0 /\ exists o, one_object of r o) \/
    (cr_exit r <> Some 0 /\ no_object r).
  Proof.
    intros m of stdin flags prog. cbv zeta.
    assert (Hfail : cr_exit (cli_fail 1) <> Some 0 /\ no_object (cli_fail 1))
      by (split; [discriminate|split; reflexivity]).
    destruct (read_inputs (stdin_for m stdin) flags) as [[inputs|] st] eqn:R.
    2:{ right. now rewrite cli_run_no_script by (right; now rewrite R). }
    destruct (mode_script_dec m) as [Hm|Hm].
    { right. now rewrite cli_run_no_script by now left. }
    rewrite (cli_run_script m of stdin flags prog inputs st Hm R). destruct prog as [p|]; [|now right].
    destruct (run_script_shape of (cli_session st inputs) p) as [[H1 H2]|H]; [left|right; exact H].
    split; [exact H1|eexists; exact H2].
  Qed.

  (* an invocation that exits 0 ran the whole script and emitted the outputs of the final session *)
  Lemma cli_exit0_emits : forall m of stdin flags p,
    cr_exit (cli_run eval m of stdin flags (Some p)) = Some 0 ->
    exists inputs st,
      read_inputs (stdin_for m stdin) flags = (Some inputs, st) /\
      all_succeed (cli_session st inputs) p /\
      one_object of (cli_run eval m of stdin flags (Some p))
                 (s_outputs (fst (run eval (cli_session st inputs) p))).
  Proof.
    intros m of stdin flags p H0.
    destruct (proj1 (exit0_iff_all_ok m of stdin flags (Some p)) H0) as (Hm & inputs & st & q & R & Hq & Hall).
    inversion Hq; subst q. exists inputs, st. split; [exact R|]. split; [exact Hall|].
    rewrite (cli_run_script m of stdin flags (Some p) inputs st Hm R). unfold run_script.
    pose proof (proj2 (run_first_stop p _) Hall) as F.
    destruct (run eval (cli_session st inputs) p) as [s rs]. cbn [fst snd] in *. rewrite F.
    unfold cli_emit, one_object. destruct of; cbn; auto.
  Qed.
End Exit.

(* ====================================================================================== *)
(* 3.  the outputs object                                                                   *)
(* ====================================================================================== *)
(* IndexMap::insert on association lists *)
Definition add_key (ks : list string) (x : string) : list string :=
  if mem x ks then ks else (ks ++ [x])%list.

Lemma keys_insert : forall (r : list (string * value)) k v,
  map fst (rec_insert r k v) = add_key (map fst r) k.
Proof.
  unfold add_key, mem.
  induction r as [|[k0 v0] r IH]; intros k v; cbn [rec_insert map fst existsb].
  - reflexivity.
  - destruct (String.eqb k k0) eqn:E; cbn [orb map fst].
    + apply String.eqb_eq in E; subst k0. reflexivity.
    + rewrite IH. destruct (existsb (String.eqb k) (map fst r)); reflexivity.
Qed.

Lemma mem_In : forall x l, mem x l = true <-> In x l.
Proof.
  intros x l. unfold mem. rewrite existsb_exists. split.
  - intros (y & Hy & E). apply String.eqb_eq in E. now subst y.
  - intros H. exists x. split; [exact H|apply String.eqb_refl].
Qed.
Lemma mem_false_not_In : forall x l, mem x l = false -> ~ In x l.
Proof. intros x l H Hin. apply mem_In in Hin. congruence. Qed.

Lemma NoDup_add_key : forall ks x, NoDup ks -> NoDup (add_key ks x).
Proof.
  intros ks x H. unfold add_key. destruct (mem x ks) eqn:E; [exact H|].
  apply mem_false_not_In in E. rename E into Hn. induction H as [|a l Ha Hl IH]; cbn.
  - constructor; [intros []|constructor].
  - constructor.
    + intros Hin. apply in_app_or in Hin. destruct Hin as [Hin|[Hin|[]]]; [contradiction|].
      subst. apply Hn. left; reflexivity.
    + apply IH. intros Hin. apply Hn. right; exact Hin.
Qed.

(* names that read as a value without being bindings (Expr::Identifier arm) *)
Definition special (x : string) : bool :=
  String.eqb x "infinity" || String.eqb x "inf" || String.eqb x "constants".

(* the name an output declaration declares *)
Definition decl_name (t : stmt) : option string :=
  match t with
  | SOut (EId x) | SOut (EOutput (EId x)) => Some x
  | SOut (EAssign x _) | SOut (EOutput (EAssign x _)) => Some x
  | SOut (EBuiltin b) | SOut (EOutput (EBuiltin b)) => Some (builtin_name b)   (* `output sum` *)
  | _ => None
  end.
(* ... and whether that name is a BINDING when the statement succeeds: `inf`, `infinity`,
   `constants` and the built-in function names are values but not bindings (they are recorded
   all the same since repo fix 91678e3; before it they were silently skipped: F33) *)
Definition binding_decl (t : stmt) : bool :=
  match t with
  | SOut (EId x) | SOut (EOutput (EId x)) => negb (special x)
  | SOut (EAssign _ _) | SOut (EOutput (EAssign _ _)) => true
  | SOut _ => false
  | _ => true
  end.
Definition decl_names (p : list stmt) : list string :=
  flat_map (fun t => match decl_name t with Some x => [x] | None => [] end) p.

Section Outputs.
  Variable eval : cfg -> expr -> result.
  Hypothesis eval_ext : forall c e r c', eval c e = (r, c') -> ext (snd c) (snd c').
  Hypothesis eval_output : forall c e, eval c (EOutput e) = eval c e.
  Hypothesis eval_assign : forall c x ve v c',
    eval c (EAssign x ve) = (Ok v, c') -> lookup (snd c') x = Some v.
  Hypothesis eval_id : forall c x v c',
    eval c (EId x) = (Ok v, c') -> special x = false -> lookup (snd c') x = Some v.

  (* every recorded output is the current value of the binding of that name *)
  Definition outs_bound (s : session) : Prop :=
    forall x v, rec_get (s_outputs s) x = Some v -> lookup (snd (s_cfg s)) x = Some v.

  Definition frames_of (s : session) : frames := snd (s_cfg s).

  Lemma insert_bound : forall (outs : list (string * value)) fr fr' x v,
    (forall y w, rec_get outs y = Some w -> lookup fr y = Some w) ->
    ext fr fr' -> lookup fr' x = Some v ->
    forall y w, rec_get (rec_insert outs x v) y = Some w -> lookup fr' y = Some w.
  Proof.
    intros outs fr fr' x v Hb He Hx y w Hy. rewrite rec_get_insert in Hy.
    destruct (String.eqb y x) eqn:E.
    - apply String.eqb_eq in E; subst y. inversion Hy; subst. exact Hx.
    - eapply ext_lookup; eauto.
  Qed.

  (* a successful output declaration: the declared name receives the value the statement
     evaluated to (repo fix 91678e3: also for the `output x` form) *)
  Lemma exec_stmt_SOut_ok : forall s e w st1 fr1,
    eval (s_cfg s) e = (Ok w, (st1, fr1)) ->
    exec_stmt eval s (SOut e) =
      match decl_name (SOut e) with
      | Some x =>
          if validate_portable st1 fr1 w
          then ({| s_cfg := (st1, fr1); s_outputs := out_insert (s_outputs s) x w |}, ROk w)
          else ({| s_cfg := (st1, fr1); s_outputs := s_outputs s |}, ROutErr)
      | None => ({| s_cfg := (st1, fr1); s_outputs := s_outputs s |}, ROk w)
      end.
  Proof.
    intros s e w st1 fr1 E. cbn [exec_stmt]. rewrite E.
    destruct e; try reflexivity.
    all: match goal with |- context [EOutput ?x] => destruct x end; reflexivity.
  Qed.

  Lemma exec_stmt_SOut_fail : forall s e o c1,
    eval (s_cfg s) e = (o, c1) -> is_ok o = false ->
    is_rok (snd (exec_stmt eval s (SOut e))) = false.
  Proof.
    intros s e o [st1 fr1] E Ho. cbn [exec_stmt]. rewrite E.
    destruct o; cbn in Ho; try discriminate;
      repeat match goal with
             | |- context [match ?x with _ => _ end] => destruct x
             end; reflexivity.
  Qed.

  (* for a declaration of a binding the recorded value is the binding *)
  Lemma decl_binding_lookup : forall c e w st1 fr1 x,
    eval c e = (Ok w, (st1, fr1)) -> binding_decl (SOut e) = true ->
    decl_name (SOut e) = Some x -> lookup fr1 x = Some w.
  Proof.
    intros c e w st1 fr1 x E Hb Hn.
    destruct e; cbn [binding_decl] in Hb; try discriminate; cbn [decl_name] in Hn.
    - apply negb_true_iff in Hb. inversion Hn; subst. exact (eval_id _ _ _ _ E Hb).
    - inversion Hn; subst. exact (eval_assign _ _ _ _ _ E).
    - rewrite eval_output in E.
      destruct e; cbn [binding_decl] in Hb; try discriminate; cbn [decl_name] in Hn.
      + apply negb_true_iff in Hb. inversion Hn; subst. exact (eval_id _ _ _ _ E Hb).
      + inversion Hn; subst. exact (eval_assign _ _ _ _ _ E).
  Qed.

  (* one successful statement: a declaration records the value the statement evaluated to under
     the declared name, anything else leaves the outputs alone *)
  Lemma exec_stmt_ok : forall s t,
    is_rok (snd (exec_stmt eval s t)) = true ->
    let s' := fst (exec_stmt eval s t) in
    match decl_name t with
    | Some x => exists e w, t = SOut e /\ eval (s_cfg s) e = (Ok w, s_cfg s') /\
                            s_outputs s' = rec_insert (s_outputs s) x w
    | None => s_outputs s' = s_outputs s
    end.
  Proof.
    intros s t Hok. cbv zeta. destruct t as [e|e|]; [|destruct (eval (s_cfg s) e) as [o [st1 fr1]] eqn:E|reflexivity].
    - cbn [exec_stmt decl_name]. now destruct (eval (s_cfg s) e).
    - destruct o as [w| | | |].
      2-5: rewrite (exec_stmt_SOut_fail _ _ _ _ E eq_refl) in Hok; discriminate.
      rewrite (exec_stmt_SOut_ok _ _ _ _ _ E) in *.
      destruct (decl_name (SOut e)) as [x|]; [|reflexivity].
      destruct (validate_portable st1 fr1 w); cbn [fst snd is_rok] in Hok; [|discriminate].
      exists e, w. auto.
  Qed.

  (* ... the keys (no side condition) *)
  Lemma exec_stmt_keys : forall s t,
    is_rok (snd (exec_stmt eval s t)) = true ->
    map fst (s_outputs (fst (exec_stmt eval s t))) =
      match decl_name t with Some x => add_key (map fst (s_outputs s)) x | None => map fst (s_outputs s) end.
  Proof.
    intros s t Hok. pose proof (exec_stmt_ok s t Hok) as H. cbv zeta in H.
    destruct (decl_name t) as [x|]; [|now rewrite H].
    destruct H as (e & w & _ & _ & ->). apply keys_insert.
  Qed.

  (* ... when the declaration (if any) is of a binding *)
  Lemma exec_stmt_outputs : forall s t,
    is_rok (snd (exec_stmt eval s t)) = true -> binding_decl t = true -> outs_bound s ->
    let s' := fst (exec_stmt eval s t) in
    outs_bound s' /\
    (map fst (s_outputs s') =
      match decl_name t with Some x => add_key (map fst (s_outputs s)) x | None => map fst (s_outputs s) end) /\
    (forall x, decl_name t = Some x ->
       exists v, rec_get (s_outputs s') x = Some v /\ lookup (frames_of s') x = Some v).
  Proof.
    intros s t Hok Hb Hinv. cbv zeta. split; [|split; [apply exec_stmt_keys; exact Hok|]];
      pose proof (exec_stmt_ok s t Hok) as H; cbv zeta in H;
      pose proof (exec_stmt_rel eval (fun c c' => ext (snd c) (snd c')) (fun c => ext_refl _) eval_ext s t _ _ (surjective_pairing _)) as Hext;
      unfold outs_bound, frames_of in *; destruct (decl_name t) as [x|] eqn:Hn.
    - destruct H as (e & w & -> & E & ->). destruct (s_cfg (fst (exec_stmt eval s (SOut e)))) as [st1 fr1].
      eapply insert_bound; eauto. eapply decl_binding_lookup; eauto.
    - rewrite H. intros y u Hy. eapply ext_lookup; eauto.
    - intros x' [= <-]. destruct H as (e & w & -> & E & ->). exists w.
      rewrite rec_get_insert, String.eqb_refl. split; [reflexivity|].
      destruct (s_cfg (fst (exec_stmt eval s (SOut e)))) as [st1 fr1]. eapply decl_binding_lookup; eauto.
    - discriminate.
  Qed.

  Lemma run_cons_ok : forall s t rest,
    is_rok (snd (exec_stmt eval s t)) = true ->
    fst (run eval s (t :: rest)) = fst (run eval (fst (exec_stmt eval s t)) rest).
  Proof.
    intros s t rest H. cbn [run]. destruct (exec_stmt eval s t) as [s' r]. cbn [fst snd] in *.
    destruct r; cbn in H; try discriminate.
    - destruct (run eval s' rest); reflexivity.
    - reflexivity.
  Qed.

  Lemma run_app_ok : forall p1 p2 s,
    all_succeed eval s (p1 ++ p2) ->
    fst (run eval s (p1 ++ p2)) = fst (run eval (fst (run eval s p1)) p2) /\
    all_succeed eval s p1 /\ all_succeed eval (fst (run eval s p1)) p2.
  Proof.
    induction p1 as [|t p1 IH]; intros p2 s H.
    - cbn. auto.
    - rewrite <- app_comm_cons in *. cbn [all_succeed] in H. destruct H as [Hok Hrest].
      rewrite !run_cons_ok by exact Hok. destruct (IH p2 _ Hrest) as (E & A1 & A2).
      cbn [all_succeed]. auto.
  Qed.

  Lemma all_succeed_snoc : forall p1 t s,
    all_succeed eval s p1 ->
    is_rok (snd (exec_stmt eval (fst (run eval s p1)) t)) = true ->
    all_succeed eval s (p1 ++ [t]).
  Proof.
    induction p1 as [|a p1 IH]; intros t s A1 Hok.
    - cbn in *. auto.
    - rewrite <- app_comm_cons. cbn [all_succeed] in *. destruct A1 as [A B].
      split; [exact A|]. apply IH; [exact B|].
      rewrite run_cons_ok in Hok by exact A. exact Hok.
  Qed.

  Lemma fold_add_key_In : forall l ks x, In x ks -> In x (fold_left add_key l ks).
  Proof.
    induction l as [|y l IH]; intros ks x H; cbn [fold_left]; [exact H|].
    apply IH. unfold add_key. destruct (mem y ks); [exact H|]. apply in_or_app. left; exact H.
  Qed.

  (* keys of the outputs object = ALL declared names, in first-declaration order (re-declaring
     a name keeps its position) — no side condition *)
  Theorem outputs_keys_in_declaration_order : forall p s,
    all_succeed eval s p ->
    map fst (s_outputs (fst (run eval s p))) =
      fold_left add_key (decl_names p) (map fst (s_outputs s)).
  Proof.
    induction p as [|t rest IH]; intros s Hall.
    - reflexivity.
    - cbn [all_succeed] in Hall. destruct Hall as [Hok Hrest].
      rewrite run_cons_ok by exact Hok. rewrite (IH _ Hrest), (exec_stmt_keys s t Hok).
      unfold decl_names. cbn [flat_map]. fold (decl_names rest).
      destruct (decl_name t); reflexivity.
  Qed.

  (* when every declaration is of a binding (not inf / infinity / constants), every recorded
     value is the current binding of its name *)
  Theorem outputs_in_declaration_order : forall p s,
    all_succeed eval s p -> forallb binding_decl p = true -> outs_bound s ->
    outs_bound (fst (run eval s p)) /\
    map fst (s_outputs (fst (run eval s p))) =
      fold_left add_key (decl_names p) (map fst (s_outputs s)).
  Proof.
    induction p as [|t rest IH]; intros s Hall Hb Hinv.
    - cbn. auto.
    - cbn [all_succeed] in Hall. destruct Hall as [Hok Hrest].
      cbn [forallb] in Hb. apply andb_true_iff in Hb. destruct Hb as [Hb1 Hb2].
      rewrite run_cons_ok by exact Hok.
      destruct (exec_stmt_outputs s t Hok Hb1 Hinv) as (Hinv' & Hkeys & _).
      destruct (IH _ Hrest Hb2 Hinv') as (H1 & H2). split; [exact H1|].
      rewrite H2, Hkeys. unfold decl_names. cbn [flat_map]. fold (decl_names rest).
      destruct (decl_name t); reflexivity.
  Qed.

  (* each key holds the value the name had right after its declaration *)
  Theorem output_value_at_declaration : forall p1 t p2 s x,
    all_succeed eval s (p1 ++ t :: p2) -> forallb binding_decl (p1 ++ t :: p2) = true ->
    outs_bound s -> decl_name t = Some x ->
    exists v,
      lookup (frames_of (fst (run eval s (p1 ++ [t])))) x = Some v /\
      rec_get (s_outputs (fst (run eval s (p1 ++ t :: p2)))) x = Some v.
  Proof.
    intros p1 t p2 s x Hall Hb Hinv Hn.
    rewrite forallb_app in Hb. apply andb_true_iff in Hb. destruct Hb as [Hb1 Hb2].
    cbn [forallb] in Hb2. apply andb_true_iff in Hb2. destruct Hb2 as [Hbt Hb2].
    destruct (run_app_ok _ _ _ Hall) as (E & A1 & A2). rewrite E.
    cbn [all_succeed] in A2. destruct A2 as [Hok Hrest].
    destruct (outputs_in_declaration_order p1 s A1 Hb1 Hinv) as (Hinv1 & _).
    set (s1 := fst (run eval s p1)) in *.
    destruct (exec_stmt_outputs s1 t Hok Hbt Hinv1) as (Hinv2 & Hk2 & Hd).
    destruct (Hd x Hn) as (v & Hg & Hl). exists v.
    assert (fst (run eval s (p1 ++ [t])) = fst (exec_stmt eval s1 t)) as E1.
    { pose proof (all_succeed_snoc p1 t s A1 Hok) as A.
      destruct (run_app_ok _ _ _ A) as (E1 & _ & _). rewrite E1. fold s1.
      rewrite run_cons_ok by exact Hok. reflexivity. }
    rewrite E1. split; [exact Hl|].
    rewrite run_cons_ok by exact Hok.
    set (s2 := fst (exec_stmt eval s1 t)) in *.
    destruct (outputs_in_declaration_order p2 s2 Hrest Hb2 Hinv2) as (Hinv3 & Hk3).
    assert (rec_get (s_outputs (fst (run eval s2 p2))) x <> None) as Hne.
    { intros Hnone. apply rec_get_None_notin in Hnone. apply Hnone. rewrite Hk3. apply fold_add_key_In.
      apply (in_map fst _ (x, v)). now apply rec_get_In. }
    destruct (rec_get (s_outputs (fst (run eval s2 p2))) x) as [v'|] eqn:G; [|congruence].
    pose proof (Hinv3 _ _ G) as L3.
    pose proof (session_bindings_stable eval eval_ext p2 s2 x v Hl) as L2.
    unfold frames_of in *. congruence.
  Qed.
End Outputs.


Lemma fold_add_key_NoDup : forall l ks, NoDup ks -> NoDup (fold_left add_key l ks).
Proof.
  induction l as [|x l IH]; intros ks H; cbn [fold_left]; [exact H|].
  apply IH. apply NoDup_add_key. exact H.
Qed.

(* ---- the hypotheses of Section Outputs hold for the evaluator model, at every depth ---- *)
Section ForEvalD.
  Variable release : bool.
  Variable bi : callback -> binop -> value -> value -> store -> outcome value * store.
  Variable bu : callback -> builtin -> list value -> store -> outcome value * store.
  Variable d : nat.
  Notation ev := (evalD release bi bu d).

  Lemma evalD_output : forall c e, ev c (EOutput e) = ev c e.
  Proof. reflexivity. Qed.

  Lemma evalD_id : forall c x v c',
    ev c (EId x) = (Ok v, c') -> special x = false -> lookup (snd c') x = Some v.
  Proof.
    intros c x v c' H Hs. unfold special in Hs.
    apply orb_false_iff in Hs. destruct Hs as [Hs Hc].
    unfold evalD in H. cbn [evalE] in H. rewrite Hs, Hc in H.
    destruct (lookup (snd c) x) as [w|] eqn:L; cbn in H; inversion H; subst. exact L.
  Qed.

  Lemma evalD_assign : forall c x ve v c',
    ev c (EAssign x ve) = (Ok v, c') -> lookup (snd c') x = Some v.
  Proof.
    intros c x ve v c' H. unfold evalD in H. cbn [evalE] in H.
    destruct (is_builtin_name x); [discriminate|].
    destruct (mem x assign_keywords); [discriminate|].
    destruct (contains (snd c) x); [discriminate|].
    unfold assign_checked in H.
    destruct (evalE release bi (AD release bi bu d) c ve) as [o c1].
    destruct o as [w| | | |]; try discriminate.
    destruct (contains (snd c1) x); [discriminate|].
    unfold bind_value in H.
    destruct (insert_head (snd c1) x w) as [fr2|] eqn:I; [|discriminate].
    inversion H; subst. cbn [snd].
    destruct (insert_head_shape _ _ _ _ I) as (f & rest & _ & E2). subst fr2.
    cbn [lookup lookup_frame]. rewrite String.eqb_refl. reflexivity.
  Qed.

  Definition evalD_outputs_in_declaration_order :=
    outputs_in_declaration_order ev (evalD_ext release bi bu d) evalD_output evalD_assign evalD_id.
  Definition evalD_output_value_at_declaration :=
    output_value_at_declaration ev (evalD_ext release bi bu d) evalD_output evalD_assign evalD_id.

  Lemma cli_session_outs_bound : forall st inputs, outs_bound (cli_session st inputs).
  Proof. intros st inputs x v H. cbn in H. discriminate. Qed.

  (* the CLI-level statement *)
  Theorem cli_outputs_in_declaration_order : forall m of stdin flags p,
    cr_exit (cli_run ev m of stdin flags (Some p)) = Some 0 ->
    forallb binding_decl p = true ->
    exists inputs st,
      read_inputs (stdin_for m stdin) flags = (Some inputs, st) /\
      let final := fst (run ev (cli_session st inputs) p) in
      one_object of (cli_run ev m of stdin flags (Some p)) (s_outputs final) /\
      map fst (s_outputs final) = fold_left add_key (decl_names p) [] /\
      NoDup (map fst (s_outputs final)) /\
      (forall x v, rec_get (s_outputs final) x = Some v ->
                   lookup (snd (s_cfg final)) x = Some v).
  Proof.
    intros m of stdin flags p H0 Hb.
    destruct (cli_exit0_emits ev m of stdin flags p H0) as (inputs & st & R & Hall & Hone).
    exists inputs, st. split; [exact R|]. cbv zeta.
    destruct (evalD_outputs_in_declaration_order p _ Hall Hb (cli_session_outs_bound st inputs))
      as (Hinv & Hkeys).
    cbn [cli_session s_outputs map] in Hkeys.
    repeat split; [exact Hone|exact Hkeys| |exact Hinv].
    rewrite Hkeys. apply fold_add_key_NoDup. constructor.
  Qed.

  Theorem cli_output_value_at_declaration : forall m of stdin flags p1 t p2 x,
    cr_exit (cli_run ev m of stdin flags (Some (p1 ++ t :: p2)%list)) = Some 0 ->
    forallb binding_decl (p1 ++ t :: p2)%list = true -> decl_name t = Some x ->
    exists inputs st v,
      read_inputs (stdin_for m stdin) flags = (Some inputs, st) /\
      lookup (snd (s_cfg (fst (run ev (cli_session st inputs) (p1 ++ [t])%list)))) x = Some v /\
      rec_get (s_outputs (fst (run ev (cli_session st inputs) (p1 ++ t :: p2)%list))) x = Some v.
  Proof.
    intros m of stdin flags p1 t p2 x H0 Hb Hn.
    destruct (cli_exit0_emits ev m of stdin flags _ H0) as (inputs & st & R & Hall & _).
    destruct (evalD_output_value_at_declaration p1 t p2 _ x Hall Hb (cli_session_outs_bound st inputs) Hn)
      as (v & H1 & H2).
    exists inputs, st, v. auto.
  Qed.

  (* `inputs` stays the merged record for the whole run *)
  Lemma cli_inputs_constant : forall st inputs p,
    lookup (snd (s_cfg (fst (run ev (cli_session st inputs) p)))) "inputs" = Some (VRec inputs).
  Proof. intros. apply evalD_session_stable. reflexivity. Qed.
End ForEvalD.

(* ====================================================================================== *)
(* 4.  input merging                                                                        *)
(* ====================================================================================== *)
Definition keys_nodup (m : list (string * value)) : Prop := NoDup (map fst m).

Lemma rec_insert_nodup : forall (m : list (string * value)) k v,
  keys_nodup m -> keys_nodup (rec_insert m k v).
Proof. intros m k v H. unfold keys_nodup. rewrite keys_insert. apply NoDup_add_key. exact H. Qed.

(* later keys override earlier ones, within one merge step *)
Lemma rec_get_merge_into : forall m acc k,
  keys_nodup m ->
  rec_get (merge_into acc m) k =
  match rec_get m k with Some v => Some v | None => rec_get acc k end.
Proof.
  unfold merge_into, rec_insert_all.
  induction m as [|[k0 v0] m IH]; intros acc k Hnd; cbn [fold_left fst snd].
  - reflexivity.
  - inversion Hnd as [|? ? Hnotin Hnd']; subst. rewrite IH by exact Hnd'.
    cbn [rec_get]. rewrite rec_get_insert.
    destruct (String.eqb k k0) eqn:E.
    + apply String.eqb_eq in E; subst k0.
      assert (rec_get m k = None) as Hn.
      { apply rec_get_notin_None. exact Hnotin. }
      rewrite Hn. reflexivity.
    + reflexivity.
Qed.

Lemma keys_merge_into : forall m acc,
  map fst (merge_into acc m) = fold_left add_key (map fst m) (map fst acc).
Proof.
  unfold merge_into, rec_insert_all.
  induction m as [|[k0 v0] m IH]; intros acc; cbn [fold_left map fst snd]; [reflexivity|].
  rewrite IH, keys_insert. reflexivity.
Qed.

Lemma merge_into_nodup : forall m acc, keys_nodup acc -> keys_nodup (merge_into acc m).
Proof.
  intros m acc H. unfold keys_nodup. rewrite keys_merge_into. apply fold_add_key_NoDup. exact H.
Qed.

(* `inputs_map = map` (stdin) is the same as merging into the empty map *)
Lemma merge_into_disjoint : forall m acc,
  keys_nodup m -> (forall k, In k (map fst m) -> ~ In k (map fst acc)) ->
  merge_into acc m = (acc ++ m)%list.
Proof.
  unfold merge_into, rec_insert_all.
  induction m as [|[k0 v0] m IH]; intros acc Hnd Hdis; cbn [fold_left fst snd].
  - rewrite app_nil_r. reflexivity.
  - inversion Hnd as [|? ? Hnotin Hnd']; subst.
    rewrite rec_insert_fresh by (apply Hdis; left; reflexivity).
    rewrite IH; [rewrite <- app_assoc; reflexivity|exact Hnd'|].
    intros k Hk Hin. rewrite map_app in Hin. apply in_app_or in Hin. destruct Hin as [Hin|[Hin|[]]].
    + apply (Hdis k); [right; exact Hk|exact Hin].
    + cbn in Hin. subst k. contradiction.
Qed.

Lemma merge_into_empty : forall m, keys_nodup m -> merge_into [] m = m.
Proof. intros m H. rewrite merge_into_disjoint; auto. Qed.

(* every map produced by parse_json_inputs has unique keys *)
Lemma load_entries_nodup : forall es st acc,
  keys_nodup acc -> keys_nodup (fst (load_entries st acc es)).
Proof.
  induction es as [|[k sv] es IH]; intros st acc H; cbn [load_entries]; [exact H|].
  destruct (to_value st sv) as [[v|] st1]; apply IH; [apply rec_insert_nodup|]; exact H.
Qed.

Lemma parse_json_inputs_nodup : forall st n s m st1 n1,
  parse_json_inputs st n s = (Some m, st1, n1) -> keys_nodup m.
Proof.
  intros st n s m st1 n1 H. destruct s as [|es|sv]; cbn [parse_json_inputs] in H.
  - discriminate.
  - pose proof (load_entries_nodup es st [] (NoDup_nil _)) as Hn.
    destruct (load_entries st [] es) as [m0 st0]. inversion H; subst. exact Hn.
  - destruct (to_value st sv) as [[v|] st0]; injection H as <- _ _; unfold keys_nodup; cbn [map fst].
    + constructor; [intros []|constructor].
    + constructor.
Qed.

(* what each source contributes, in order (the store and the value_k counter are threaded) *)
Fixpoint contributions (st : store) (n : nat) (srcs : list input_src)
  : option (list (list (string * value))) :=
  match srcs with
  | [] => Some []
  | s :: rest =>
      match parse_json_inputs st n s with
      | (None, _, _) => None
      | (Some m, st1, n1) => option_map (cons m) (contributions st1 n1 rest)
      end
  end.

Definition sources (stdin : option input_src) (flags : list input_src) : list input_src :=
  match stdin with Some s => s :: flags | None => flags end.

Lemma collect_flags_contributions : forall srcs st n acc,
  fst (collect_flags st n acc srcs) =
  option_map (fun maps => fold_left merge_into maps acc) (contributions st n srcs).
Proof.
  induction srcs as [|s rest IH]; intros st n acc; cbn [collect_flags contributions].
  - reflexivity.
  - destruct (parse_json_inputs st n s) as [[[m|] st1] n1]; [|reflexivity].
    rewrite IH. destruct (contributions st1 n1 rest); reflexivity.
Qed.

Lemma read_inputs_contributions : forall stdin flags,
  fst (read_inputs stdin flags) =
  option_map (fun maps => fold_left merge_into maps []) (contributions [] 0 (sources stdin flags)).
Proof.
  intros [s|] flags; cbn [read_inputs sources].
  - cbn [contributions].
    destruct (parse_json_inputs [] 0 s) as [[[m|] st1] n1] eqn:P; [|reflexivity].
    rewrite collect_flags_contributions.
    destruct (contributions st1 n1 flags) as [maps|]; [|reflexivity].
    cbn [option_map fold_left]. rewrite merge_into_empty; [reflexivity|].
    eapply parse_json_inputs_nodup; eauto.
  - apply collect_flags_contributions.
Qed.

Lemma contributions_nodup : forall srcs st n maps,
  contributions st n srcs = Some maps -> Forall keys_nodup maps.
Proof.
  induction srcs as [|s rest IH]; intros st n maps H; cbn [contributions] in H.
  - inversion H; constructor.
  - destruct (parse_json_inputs st n s) as [[[m|] st1] n1] eqn:P; [|discriminate].
    destruct (contributions st1 n1 rest) as [ms|] eqn:C; [|discriminate].
    inversion H; subst. constructor; [eapply parse_json_inputs_nodup; eauto|eapply IH; eauto].
Qed.

(* the value of key k after merging: the LAST source that defines k wins *)
Definition last_def (maps : list (list (string * value))) (k : string) (init : option value)
  : option value :=
  fold_left (fun acc m => match rec_get m k with Some v => Some v | None => acc end) maps init.

Lemma rec_get_fold_merge : forall maps acc k,
  Forall keys_nodup maps ->
  rec_get (fold_left merge_into maps acc) k = last_def maps k (rec_get acc k).
Proof.
  unfold last_def. induction maps as [|m maps IH]; intros acc k H; cbn [fold_left]; [reflexivity|].
  inversion H; subst. rewrite IH by assumption. rewrite rec_get_merge_into by assumption. reflexivity.
Qed.

Lemma keys_fold_merge : forall maps acc,
  map fst (fold_left merge_into maps acc) =
  fold_left add_key (concat (map (map fst) maps)) (map fst acc).
Proof.
  induction maps as [|m maps IH]; intros acc; cbn [fold_left map concat]; [reflexivity|].
  rewrite IH, keys_merge_into, fold_left_app. reflexivity.
Qed.

(* MERGE LEFT TO RIGHT: the merged record is the left fold of the per-source maps (stdin's
   first); key k holds the value of the last source that defines it; keys appear in the order
   of their first appearance; reading fails exactly when some source is invalid JSON *)
Theorem merge_left_to_right : forall stdin flags,
  match contributions [] 0 (sources stdin flags) with
  | None => fst (read_inputs stdin flags) = None
  | Some maps =>
      exists M, fst (read_inputs stdin flags) = Some M /\
        M = fold_left merge_into maps [] /\
        (forall k, rec_get M k = last_def maps k None) /\
        map fst M = fold_left add_key (concat (map (map fst) maps)) [] /\
        NoDup (map fst M)
  end.
Proof.
  intros stdin flags. rewrite read_inputs_contributions.
  destruct (contributions [] 0 (sources stdin flags)) as [maps|] eqn:C; [|reflexivity].
  eexists. split; [reflexivity|]. split; [reflexivity|].
  pose proof (contributions_nodup _ _ _ _ C) as Hnd. repeat split.
  - intros k. rewrite rec_get_fold_merge by exact Hnd. reflexivity.
  - rewrite keys_fold_merge. reflexivity.
  - rewrite keys_fold_merge. apply fold_add_key_NoDup. constructor.
Qed.

Definition is_bad (s : input_src) : bool := match s with IBad => true | _ => false end.

Lemma option_map_none : forall A B (f : A -> B) o, option_map f o = None <-> o = None.
Proof. intros A B f [a|]; cbn; split; congruence. Qed.

Lemma contributions_none_iff_bad : forall srcs st n,
  contributions st n srcs = None <-> existsb is_bad srcs = true.
Proof.
  induction srcs as [|s rest IH]; intros st n; cbn [contributions existsb].
  - split; discriminate.
  - destruct s as [|es|sv]; cbn [parse_json_inputs is_bad orb].
    + tauto.
    + destruct (load_entries st [] es) as [m st1]. rewrite option_map_none. apply IH.
    + destruct (to_value st sv) as [[v|] st1]; rewrite option_map_none; apply IH.
Qed.

(* value_k numbering: the names given to the non-object sources, in order of appearance, are
   value_(n+1), value_(n+2), ... without gaps (a non-object source that does not load gets no
   name and does not consume a number) *)
Fixpoint unnamed_names (srcs : list input_src) (maps : list (list (string * value)))
  : list string :=
  match srcs, maps with
  | IVal _ :: srcs', m :: maps' => (map fst m ++ unnamed_names srcs' maps')%list
  | _ :: srcs', _ :: maps' => unnamed_names srcs' maps'
  | _, _ => []
  end.

Theorem value_k_numbering : forall srcs st n maps,
  contributions st n srcs = Some maps ->
  unnamed_names srcs maps = map value_key (seq (S n) (length (unnamed_names srcs maps))).
Proof.
  induction srcs as [|s rest IH]; intros st n maps H; cbn [contributions] in H.
  - inversion H; subst. reflexivity.
  - destruct s as [|es|sv]; cbn [parse_json_inputs] in H.
    + discriminate.
    + destruct (load_entries st [] es) as [m st1].
      destruct (contributions st1 n rest) as [ms|] eqn:C; [|discriminate].
      inversion H; subst. cbn [unnamed_names]. eapply IH; eauto.
    + destruct (to_value st sv) as [[v|] st1].
      * destruct (contributions st1 (S n) rest) as [ms|] eqn:C; [|discriminate].
        inversion H; subst. cbn [unnamed_names map fst app length seq].
        f_equal. eapply IH; eauto.
      * destruct (contributions st1 n rest) as [ms|] eqn:C; [|discriminate].
        inversion H; subst. cbn [unnamed_names map app]. eapply IH; eauto.
Qed.

Lemma read_inputs_fails_iff_bad : forall stdin flags,
  fst (read_inputs stdin flags) = None <-> existsb is_bad (sources stdin flags) = true.
Proof.
  intros stdin flags. rewrite read_inputs_contributions, option_map_none.
  apply contributions_none_iff_bad.
Qed.

(* `#n` at top level, after any part of the script has run: the field of the merged record *)
Section HashTop.
  Variable release : bool.
  Variable bi : callback -> binop -> value -> value -> store -> outcome value * store.
  Variable bu : callback -> builtin -> list value -> store -> outcome value * store.
  Variable d : nat.
  Notation ev := (evalD release bi bu d).

  Lemma hash_reads_merged_inputs : forall st inputs p n,
    let c := s_cfg (fst (run ev (cli_session st inputs) p)) in
    ev c (EInRef n) = (Ok (match rec_get inputs n with Some v => v | None => VNull end), c).
  Proof.
    intros st inputs p n. cbv zeta. apply hash_value. apply cli_inputs_constant.
  Qed.
End HashTop.

(* inputs are read before the script is looked at: an invalid source decides the outcome alone *)
Lemma bad_input_exits_1 : forall eval m of stdin flags prog,
  existsb is_bad (sources (stdin_for m stdin) flags) = true ->
  cli_run eval m of stdin flags prog = cli_fail 1.
Proof.
  intros eval m of stdin flags prog H. apply cli_run_no_script. right.
  now apply read_inputs_fails_iff_bad.
Qed.

(* ---- loading does not depend on the heap: [loadable] decides to_value's success ---- *)
Fixpoint loadable (s : sval) : bool :=
  match s with
  | SList l => forallb loadable l
  | SRec r => forallb (fun kv => loadable (snd kv)) r
  | SLam _ None => false
  | SBuiltin None => false
  | _ => true
  end.

Section SvalInd.
  Variable P : sval -> Prop.
  Hypothesis Hnum : forall x, P (SNum x).
  Hypothesis Hbool : forall b, P (SBool b).
  Hypothesis Hnull : P SNull.
  Hypothesis Hstr : forall s, P (SStr s).
  Hypothesis Hlist : forall l, Forall P l -> P (SList l).
  Hypothesis Hrec : forall r, Forall (fun kv => P (snd kv)) r -> P (SRec r).
  Hypothesis Hlam : forall a b, P (SLam a b).
  Hypothesis Hbi : forall b, P (SBuiltin b).
  Fixpoint sval_ind' (s : sval) : P s :=
    match s with
    | SNum x => Hnum x
    | SBool b => Hbool b
    | SNull => Hnull
    | SStr x => Hstr x
    | SList l =>
        Hlist l ((fix go (l : list sval) : Forall P l :=
                    match l with
                    | [] => Forall_nil _
                    | x :: r => Forall_cons x (sval_ind' x) (go r)
                    end) l)
    | SRec r =>
        Hrec r ((fix go (r : list (string * sval)) : Forall (fun kv => P (snd kv)) r :=
                   match r with
                   | [] => Forall_nil _
                   | kv :: r' => Forall_cons kv (sval_ind' (snd kv)) (go r')
                   end) r)
    | SLam a b => Hlam a b
    | SBuiltin b => Hbi b
    end.
End SvalInd.

(* the two inner loops of to_value, named *)
Fixpoint tv_list (st : store) (l : list sval) {struct l} : option (list value) * store :=
  match l with
  | [] => (Some [], st)
  | x :: rest =>
      match to_value st x with
      | (Some v, st1) =>
          match tv_list st1 rest with
          | (Some vs, st2) => (Some (v :: vs), st2)
          | (None, st2) => (None, st2)
          end
      | (None, st1) => (None, st1)
      end
  end.
Fixpoint tv_rec (st : store) (acc : list (string * value)) (l : list (string * sval)) {struct l}
  : option (list (string * value)) * store :=
  match l with
  | [] => (Some acc, st)
  | (k, x) :: rest =>
      match to_value st x with
      | (Some v, st1) => tv_rec st1 (rec_insert acc k v) rest
      | (None, st1) => (None, st1)
      end
  end.
Lemma to_value_SList : forall st l,
  to_value st (SList l) = (option_map VList (fst (tv_list st l)), snd (tv_list st l)).
Proof. reflexivity. Qed.
Lemma to_value_SRec : forall st r,
  to_value st (SRec r) = (option_map VRec (fst (tv_rec st [] r)), snd (tv_rec st [] r)).
Proof. reflexivity. Qed.

Definition loads {A} (o : option A) : bool := match o with Some _ => true | None => false end.

Lemma to_value_loadable : forall s st, loads (fst (to_value st s)) = loadable s.
Proof.
  induction s as [x|b| |x|l IH|r IH|a b|b] using sval_ind'; intros st; try reflexivity.
  - rewrite to_value_SList. cbn [loadable fst].
    assert (Hgo : forall st, loads (fst (tv_list st l)) = forallb loadable l).
    { clear st. induction IH as [|x l Hx _ IHl]; intros st; [reflexivity|]. cbn [tv_list forallb].
      rewrite <- (Hx st). destruct (to_value st x) as [[v|] st1]; [|reflexivity].
      rewrite <- (IHl st1). now destruct (tv_list st1 l) as [[vs|] st2]. }
    rewrite <- (Hgo st). now destruct (fst (tv_list st l)).
  - rewrite to_value_SRec. cbn [loadable fst].
    assert (Hgo : forall st acc, loads (fst (tv_rec st acc r)) = forallb (fun kv => loadable (snd kv)) r).
    { clear st. induction IH as [|[k x] r Hx _ IHr]; intros st acc; [reflexivity|].
      cbn [tv_rec forallb snd] in *.
      rewrite <- (Hx st). destruct (to_value st x) as [[v|] st1]; [|reflexivity]. apply IHr. }
    rewrite <- (Hgo st []). now destruct (fst (tv_rec st [] r)).
  - destruct b as [body|]; [|reflexivity]. cbn [to_value]. now destruct (fresh_lambda st a body []).
  - now destruct b.
Qed.

(* an object contributes exactly its loadable entries: the others are dropped silently *)
Lemma load_entries_keys : forall es st acc,
  map fst (fst (load_entries st acc es)) =
  fold_left add_key (map fst (filter (fun kv => loadable (snd kv)) es)) (map fst acc).
Proof.
  induction es as [|[k sv] es IH]; intros st acc; cbn [load_entries filter snd]; [reflexivity|].
  rewrite <- (to_value_loadable sv st). destruct (to_value st sv) as [[v|] st1]; cbn [fst loads].
  - rewrite IH, keys_insert. reflexivity.
  - apply IH.
Qed.

(* a non-object value is named iff it loads *)
Lemma parse_json_inputs_IVal : forall st n sv,
  fst (fst (parse_json_inputs st n (IVal sv))) <> None /\
  snd (parse_json_inputs st n (IVal sv)) = (if loadable sv then S n else n) /\
  option_map (map fst) (fst (fst (parse_json_inputs st n (IVal sv)))) =
    Some (if loadable sv then [value_key (S n)] else []).
Proof.
  intros st n sv. cbn [parse_json_inputs]. rewrite <- (to_value_loadable sv st).
  destruct (to_value st sv) as [[v|] st1]; cbn [fst snd loads option_map map]; repeat split; discriminate.
Qed.

(* ---- statements instantiated for the evaluator model (used verbatim by Properties/C19.v) ---- *)
Lemma evalD_hash_is_inputs_field : forall release bi bu d c n,
  evalD release bi bu d c (EInRef n) = evalD release bi bu d c (EDot (EId "inputs") n).
Proof. intros. apply hash_is_inputs_field. Qed.

Lemma evalD_hash_null_when_absent : forall release bi bu d c n r,
  lookup (snd c) "inputs" = Some (VRec r) -> rec_get r n = None ->
  evalD release bi bu d c (EInRef n) = (Ok VNull, c) /\
  evalD release bi bu d c (EDot (EId "inputs") n) = (Ok VNull, c).
Proof. intros. eapply hash_null_when_absent; eauto. Qed.

Lemma value_k_numbering_top : forall stdin flags maps,
  contributions [] 0 (sources stdin flags) = Some maps ->
  unnamed_names (sources stdin flags) maps =
  map value_key (seq 1 (length (unnamed_names (sources stdin flags) maps))).
Proof. intros stdin flags maps. exact (value_k_numbering _ [] 0 maps). Qed.

(* the keys statement at CLI level, for every evaluator and without side conditions *)
Theorem cli_outputs_keys : forall eval m of stdin flags p,
  cr_exit (cli_run eval m of stdin flags (Some p)) = Some 0 ->
  exists inputs st,
    read_inputs (stdin_for m stdin) flags = (Some inputs, st) /\
    let final := fst (run eval (cli_session st inputs) p) in
    one_object of (cli_run eval m of stdin flags (Some p)) (s_outputs final) /\
    map fst (s_outputs final) = fold_left add_key (decl_names p) [] /\
    NoDup (map fst (s_outputs final)).
Proof.
  intros eval m of stdin flags p H0.
  destruct (cli_exit0_emits eval m of stdin flags p H0) as (inputs & st & R & Hall & Hone).
  exists inputs, st. split; [exact R|]. cbv zeta.
  pose proof (outputs_keys_in_declaration_order eval p _ Hall) as Hkeys.
  cbn [cli_session s_outputs map] in Hkeys.
  repeat split; [exact Hone|exact Hkeys|].
  rewrite Hkeys. apply fold_add_key_NoDup. constructor.
Qed.
