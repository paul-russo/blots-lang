(* DisplayNumAccAll.v — C20: the accuracy clause as ONE theorem over every valid finite non-zero
   double (fx = true, the code of /repo), relative to explicit specifications of the library calls:
   it combines display_integers_exact (error 0), display_scientific_accurate_at (rational
   statement, converted to reals here) and display_standard_accurate'.  The {:.14e} specification
   is asked of VALID doubles only: the executable model fmt_exp14_exec finds the decimal exponent
   from a bit-length estimate corrected by at most 8 steps, which is enough exactly for the
   exponent range of binary64, not for arbitrary (m, e) pairs. *)
From Coq Require Import ZArith Reals Bool String Ascii List Lia Lra QArith Qreals Qabs Qpower Floats.SpecFloat.
From Flocq Require Import Core.Core IEEE754.BinarySingleNaN.
Require Import Blots.Num Blots.Outcome Blots.DisplayNum.
Require Import Blots.proofs.DisplayNumGroup Blots.proofs.DisplayNumSpec Blots.proofs.DisplayNumText
               Blots.proofs.DisplayNumInt Blots.proofs.DisplayNum Blots.proofs.DisplayNumAcc
               Blots.proofs.DisplayNumFloat Blots.proofs.DisplayNumFinite Blots.proofs.DisplayNumAccStd.
Import ListNotations.
Open Scope R_scope.

(* ---------- rationals to reals ---------- *)
Lemma Q2R_inject_Z : forall z, Q2R (inject_Z z) = IZR z.
Proof. intros. unfold Q2R, inject_Z. cbn [Qnum Qden]. rewrite Rinv_1. ring. Qed.

Lemma Q2R_Qabs : forall q, Q2R (Qabs q) = Rabs (Q2R q).
Proof.
  intros q. destruct (Qlt_le_dec q 0) as [N|P].
  - rewrite (Qeq_eqR _ _ (Qabs_neg q (Qlt_le_weak _ _ N))), Q2R_opp. symmetry. apply Rabs_left.
    rewrite <- RMicromega.Q2R_0. now apply Qlt_Rlt.
  - rewrite (Qeq_eqR _ _ (Qabs_pos q P)). symmetry. apply Rabs_pos_eq.
    rewrite <- RMicromega.Q2R_0. now apply Qle_Rle.
Qed.

Lemma Q2R_pow_nonneg : forall (r : radix) k, (0 <= k)%Z ->
  Q2R (Qpower (inject_Z (radix_val r)) k) = bpow r k.
Proof.
  intros r k Hk. rewrite <- (Qeq_eqR _ _ (Zpower_Qpower (radix_val r) k Hk)).
  rewrite Q2R_inject_Z. apply (IZR_Zpower r k Hk).
Qed.

Lemma Q2R_pow : forall (r : radix) k, Q2R (Qpower (inject_Z (radix_val r)) k) = bpow r k.
Proof.
  intros r k. destruct (Z_le_gt_dec 0 k) as [P|N]; [apply Q2R_pow_nonneg; exact P|].
  rewrite <- (Z.opp_involutive k). set (p := (- k)%Z). assert (Hp : (0 <= p)%Z) by (unfold p; lia).
  rewrite (Qeq_eqR _ _ (Qpower_opp (inject_Z (radix_val r)) p)), Q2R_inv.
  - rewrite Q2R_pow_nonneg by exact Hp. now rewrite bpow_opp.
  - intros E. apply Qeq_eqR in E. rewrite Q2R_pow_nonneg, RMicromega.Q2R_0 in E by exact Hp.
    pose proof (bpow_gt_0 r p). lra.
Qed.

Lemma Q2R_p10 : forall k, Q2R (Qpower (10 # 1) k) = p10 k.
Proof. intros. apply (Q2R_pow radix10). Qed.

Lemma Q2R_num : forall x, Q2R (num_to_Q x) = RV x.
Proof.
  intros [s|s| |s m e]; unfold num_to_Q, RV; cbn [SF2R]; try apply RMicromega.Q2R_0.
  now rewrite Q2R_mult, Q2R_inject_Z, (Q2R_pow radix2).
Qed.

Lemma in_decade_of_R : forall x K, p10 K <= Rabs (RV x) < p10 (K + 1) -> in_decade x K.
Proof.
  intros x K [L U]. split.
  - apply Rle_Qle. now rewrite Q2R_p10, Q2R_Qabs, Q2R_num.
  - apply Rlt_Qlt. now rewrite Q2R_p10, Q2R_Qabs, Q2R_num.
Qed.

Lemma in_decade_R : forall x k, in_decade x k -> p10 k <= Rabs (RV x) < p10 (k + 1).
Proof.
  intros x k [L U]. apply Qle_Rle in L. apply Qlt_Rlt in U.
  rewrite Q2R_p10, Q2R_Qabs, Q2R_num in L, U. now split.
Qed.

(* the error bound of the accuracy clause, on the rationals and on the reals *)
Lemma accurate_Q_R : forall q x k,
  (Qabs (q - num_to_Q x) < Qpower (10 # 1) k)%Q <-> Rabs (Q2R q - RV x) < p10 k.
Proof.
  intros q x k. rewrite <- Q2R_num, <- Q2R_minus, <- Q2R_Qabs, <- Q2R_p10.
  split; [apply Qlt_Rlt|apply Rlt_Qlt].
Qed.

Section All.
  Variable log10 : num -> num.
  Variable powi : num -> Z -> num.
  Variable fmt_prec : num -> Z -> text.
  Variable fmt_exp14 : num -> text.
  Variable parse_f64 : text -> option num.
  Notation est a := (as_i32 (nfloor (log10 a))).

  (* library specifications: scientific path (rational form) *)
  Hypothesis HE : forall x k, valid x -> Num.is_finite x = true -> in_decade x k ->
    exists ms es kk, split_once "e"%char (fmt_exp14 x) = Some (ms, es) /\ mant14_shape ms = true /\
      parse_i32 es = Some kk /\
      (Qabs (denote_plain ms * Qpower (10 # 1) kk - num_to_Q x) <= (1 # 2) * Qpower (10 # 1) (k - 14)%Z)%Q.
  Hypothesis HP : forall s, mant14_shape s = true ->
    exists m, parse_f64 s = Some m /\ Num.is_finite m = true /\
      (Qabs (num_to_Q m - denote_plain s) <= 2 # 1000000000000000)%Q.
  (* library specifications: standard path (real form) *)
  Hypothesis HL : forall a K, valid a -> Num.is_finite a = true ->
    p10 K <= RV a < p10 (K + 1) -> (K <= est a <= K + 1)%Z.
  Hypothesis HW0 : forall j, (0 <= j <= 22)%Z ->
    valid (powi c_ten j) /\ (exists s m e, powi c_ten j = S754_finite s m e) /\ RV (powi c_ten j) = p10 j.
  Hypothesis HWn : forall j, (-4 <= j <= -1)%Z ->
    valid (powi c_ten j) /\ (exists s m e, powi c_ten j = S754_finite s m e) /\
    RV (powi c_ten j) = rnd64 (p10 j) /\ p10 j <= RV (powi c_ten j).
  (* {:.N$}: documented shape; nearest multiple of 10^-N for N <= 18 *)
  Hypothesis Hprec : forall x n, Num.is_finite x = true -> (0 <= n)%Z -> prec_shape n (fmt_prec x n) = true.
  Hypothesis HF : forall m dp, Num.is_finite m = true -> (0 <= dp <= 18)%Z ->
    Rabs (Q2R (denote_plain (fmt_prec m dp)) - RV m) <= / 2 * p10 (- dp).

  Lemma fmt_prec_14_close : forall m, Num.is_finite m = true ->
    prec_shape 14 (fmt_prec m 14) = true /\
    (Qabs (denote_plain (fmt_prec m 14) - num_to_Q m) <= 1 # 200000000000000)%Q.
  Proof.
    intros m Fm. split; [apply Hprec; [exact Fm|lia]|].
    apply Rle_Qle. rewrite Q2R_Qabs, Q2R_minus, Q2R_num.
    eapply Rle_trans; [apply (HF m 14 Fm); lia|].
    unfold Q2R. cbn [Qnum Qden]. change (p10 (- (14))) with (/ 100000000000000). lra.
  Qed.

  Theorem display_accurate : forall x K t,
    valid x -> Num.is_finite x = true -> neqb x nzero = false ->
    p10 K <= Rabs (RV x) < p10 (K + 1) ->
    format_display_number log10 powi fmt_prec fmt_exp14 parse_f64 true x = Ok t ->
    Rabs (Q2R (denote t) - RV x) < p10 (K - 14).
  Proof.
    intros x K t Vx Fx Hz HA Ht.
    destruct (scientific_range (nabs x)) eqn:Hs.
    - (* scientific notation *)
      destruct (display_scientific_accurate_at log10 powi fmt_prec fmt_exp14 parse_f64 true HP fmt_prec_14_close
                  x K (HE x K Vx Fx (in_decade_of_R x K HA)) Fx Hz Hs) as (t' & Et & _ & Lt).
      rewrite Ht in Et. injection Et as <-. now apply accurate_Q_R.
    - destruct (nfract_is_zero x) eqn:Hi.
      + (* integer: exact *)
        destruct x as [s|s| |s m e]; try discriminate Fx; try discriminate Hz.
        destruct (display_integers_exact log10 powi fmt_prec fmt_exp14 parse_f64 true s m e Vx Hs Hi)
          as (t' & Et & _ & V).
        rewrite Ht in Et. injection Et as <-.
        apply Qeq_eqR in V. rewrite V, Q2R_num, Rminus_diag_eq, Rabs_R0 by reflexivity. apply p10_pos.
      + (* standard notation, non-integer *)
        assert (Hp : std_nonint_path x = true).
        { unfold std_nonint_path. rewrite Fx, Hz, Hs, Hi. reflexivity. }
        now destruct (display_standard_accurate' log10 powi fmt_prec fmt_exp14 parse_f64
                        HL HW0 HWn Hprec HF x K t Vx Hp HA Ht).
  Qed.
End All.
