(* PrattTable.v — finite facts about the GENERATED table (re-checked whenever gen/PrecTable.v
   changes): each is an exhaustive vm_compute over the 34 operator rules / 26 binary operators. *)
From Coq Require Import String List Bool Arith.
Require Import Blots.Num Blots.gen.Builtins Blots.Ast Blots.Outcome Blots.PrattTypes Blots.gen.PrecTable
               Blots.Pratt Blots.PrattRender.
Import ListNotations.
Local Open Scope nat_scope.

Lemma all_oprules_complete : forall r, In r all_oprules.
Proof. destruct r; vm_compute; tauto. Qed.
Lemma all_binops_complete : forall o, In o all_binops.
Proof. destruct o; vm_compute; tauto. Qed.

(* the implementation's Pratt table, rule by rule, is the specification table with pest's
   numbering (level n of the spec <-> binding power 10 * n + 10), same affix and associativity *)
Definition refines_at (r : oprule) : bool :=
  match assoc_find r impl_table, spec_level r with
  | Some (a, p), Some (a', n) => affix_eqb a a' && Nat.eqb p (10 * n + 10)
  | _, _ => false
  end.
Lemma table_refines_spec_all : forallb refines_at all_oprules = true.
Proof. vm_compute. reflexivity. Qed.

Lemma affix_eqb_eq : forall a b, affix_eqb a b = true -> a = b.
Proof. destruct a as [| |[|]], b as [| |[|]]; simpl; congruence. Qed.

Lemma table_refines_spec :
  forall r, exists a n, spec_level r = Some (a, n) /\ assoc_find r impl_table = Some (a, 10 * n + 10).
Proof.
  intro r. generalize (proj1 (forallb_forall _ _) table_refines_spec_all r (all_oprules_complete r)).
  (* the two lookups are generalised before the case analysis, so that Qed never unfolds the table *)
  unfold refines_at. generalize (assoc_find r impl_table) (spec_level r).
  intros [[a p]|] [[a' n]|] H; try discriminate.
  apply andb_prop in H. destruct H as [Ha Hp].
  apply affix_eqb_eq in Ha. apply Nat.eqb_eq in Hp. subst. eauto.
Qed.

(* the printer's copy of the levels (operator_info): what the built crate reports equals what the
   translator read from the source text *)
Definition opinfo_agrees (o : binop) : bool :=
  match operator_info_of prec_rows o,
        find (fun x => binop_eqb (fst (fst x)) o) operator_info_dump with
  | Some (p, a), Some (_, p', a') => Nat.eqb p p' && assoc_eqb a a'
  | _, _ => false
  end.
Lemma operator_info_consistent : forallb opinfo_agrees all_binops = true.
Proof. vm_compute. reflexivity. Qed.

(* operator_info orders the binary operators as the specification does, except that it puts ^ and ??
   on one level (the Pratt table does not: see table_refines_spec).  Stated for the record; the
   printer is property C07's subject. *)
Definition opinfo_level (o : binop) : nat :=
  match operator_info_of prec_rows o with Some (p, _) => p | None => 0 end.
Lemma operator_info_monotone :
  forallb (fun o1 => forallb (fun o2 =>
     implb (Nat.ltb (spec_bprec o1) (spec_bprec o2)) (Nat.leb (opinfo_level o1) (opinfo_level o2)))
     all_binops) all_binops = true.
Proof. vm_compute. reflexivity. Qed.

(* the .map_infix arms invert the spelling map; .map_prefix arms *)
Lemma infix_map_binop_rule : forall o, assoc_find (binop_rule o) infix_map = Some o.
Proof. destruct o; vm_compute; reflexivity. Qed.
Lemma prefix_map_arms :
  assoc_find R_negation prefix_map = Some (PUn Negate) /\
  assoc_find R_invert prefix_map = Some (PUn Not) /\
  assoc_find R_natural_not prefix_map = Some (PUn Not) /\
  assoc_find R_spread_operator prefix_map = Some PSpread.
Proof. vm_compute. repeat split. Qed.

(* from_ident on the crate's own names *)
Lemma builtin_names_roundtrip : forall b, builtin_of_name (builtin_name b) = Some b.
Proof. destruct b; vm_compute; reflexivity. Qed.

(* ---- word and symbol spellings ---- *)
(* the spelling pairs of the property text *)
Definition same_spelling (r1 r2 : oprule) : bool :=
  oprule_eqb r1 r2 ||
  match r1, r2 with
  | R_and, R_natural_and | R_natural_and, R_and
  | R_or, R_natural_or | R_natural_or, R_or
  | R_invert, R_natural_not | R_natural_not, R_invert => true
  | _, _ => false
  end.
(* the evaluator's view of a constructor: evaluate_ast / evaluate_binary_op_ast match
   `And | NaturalAnd`, `Or | NaturalOr`, `Not | Invert` in shared arms (checked on the source text
   by checks/c10.py:spelling_arms_shared and by the EVAL-spelling stream) *)
Definition sem_binop (o : binop) : binop :=
  match o with NaturalAnd => And | NaturalOr => Or | o' => o' end.
Definition sem_unop (u : unop) : unop := match u with Invert => Not | u' => u' end.
Inductive token_sem := TSBin (o : binop) | TSUn (u : unop) | TSSpread | TSNone.
Definition token_sem_eqb (a b : token_sem) : bool :=
  match a, b with
  | TSBin x, TSBin y => binop_eqb x y
  | TSUn x, TSUn y => unop_eqb x y
  | TSSpread, TSSpread | TSNone, TSNone => true
  | _, _ => false
  end.
Definition token_sem_of (r : oprule) : token_sem :=
  match assoc_find r infix_map, assoc_find r prefix_map with
  | Some o, _ => TSBin (sem_binop o)
  | None, Some (PUn u) => TSUn (sem_unop u)
  | None, Some PSpread => TSSpread
  | None, None => TSNone
  end.
Definition opt_entry_eqb (a b : option (affix * nat)) : bool :=
  match a, b with
  | Some (x, p), Some (y, q) => affix_eqb x y && Nat.eqb p q
  | None, None => true
  | _, _ => false
  end.
Definition spelling_ok (r1 r2 : oprule) : bool :=
  implb (same_spelling r1 r2)
        (opt_entry_eqb (assoc_find r1 impl_table) (assoc_find r2 impl_table) &&
         token_sem_eqb (token_sem_of r1) (token_sem_of r2)).
Lemma word_symbol_same_all :
  forallb (fun r1 => forallb (spelling_ok r1) all_oprules) all_oprules = true.
Proof. vm_compute. reflexivity. Qed.

Lemma word_symbol_same : forall r1 r2, same_spelling r1 r2 = true ->
  opt_entry_eqb (assoc_find r1 impl_table) (assoc_find r2 impl_table) = true /\
  token_sem_eqb (token_sem_of r1) (token_sem_of r2) = true.
Proof.
  intros r1 r2 H.
  pose proof (proj1 (forallb_forall _ _) word_symbol_same_all r1 (all_oprules_complete r1)) as H1.
  generalize (proj1 (forallb_forall _ _) H1 r2 (all_oprules_complete r2)).
  unfold spelling_ok. rewrite H.
  generalize (assoc_find r1 impl_table) (assoc_find r2 impl_table) (token_sem_of r1) (token_sem_of r2).
  intros e1 e2 t1 t2 H2. apply andb_prop in H2. exact H2.
Qed.
