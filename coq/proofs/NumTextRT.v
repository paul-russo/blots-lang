(* proofs/NumTextRT.v — C16 round trips: every finite double reads back identically through
   source emission / formatter / function emission (print_num -> grammar -> literal conversion ->
   prefix negation), under the library contracts stated below, in the tree as it is and after the
   repair of the radix arms (read_source_rf at both values of radixfix); radix literal values. *)
From Coq Require Import ZArith Floats.SpecFloat Bool List String Ascii Lia.
Require Import Blots.Num Blots.Outcome Blots.gen.Builtins Blots.Ast Blots.NumText.
Require Import Blots.proofs.StringFacts Blots.proofs.NumText Blots.proofs.NumTextStr Blots.proofs.NumTextFloat.
Import ListNotations.
Open Scope string_scope.
Open Scope Z_scope.

(* ---------------------------------------------------------------- library contracts (pointwise) *)
(* Rust Display for f64: optional '-', digits, optional '.digits', never an exponent; the text
   denotes x exactly enough to round back to x ("Display round-trips") *)
Definition display_contract (t : string) (x : num) : Prop :=
  exists ip fp, t = sign_str (nsign x) ++ plain ip fp /\
    all_digits ip = true /\ ip <> "" /\ all_digits fp = true /\
    rn_decimal (nsign x) (digits_val (ip ++ fp) 0) (0 - slen fp) = x.
(* format!("{:.0}", x) of an integral value: optional '-', then the exact integer in decimal *)
Definition prec0_contract (t : string) (x : num) : Prop :=
  exists ip, t = sign_str (nsign x) ++ ip /\ all_digits ip = true /\ ip <> "" /\
    digits_val ip 0 = int_abs x.
(* str::parse::<f64> is correctly rounded on plain decimal texts *)
Definition parse_contract (sp : string -> option num) : Prop :=
  forall ip fp, all_digits ip = true -> ip <> "" -> all_digits fp = true ->
    sp (plain ip fp) = ref_str_parse (plain ip fp).

(* ---------------------------------------------------------------- the parser on plain texts *)
(* Everything below is for the model of the tree at hand, `read_source_rf radixfix` (NumText.v 3b'),
   at BOTH values of radixfix: the printed texts ([-]ddd[.ddd], possibly parenthesised) never reach
   the 0x / 0b arms, so the repair of F25 (fixes/C16-radix-literal-range.diff) leaves every round
   trip intact.  `read_source sp` is `read_source_rf false sp`. *)
Lemma parse_numexpr_rf_no_paren : forall rf sp src k c r,
  count_neg src = (k, String c r) -> is_digit c = true ->
  parse_numexpr_rf rf sp src = parse_numexpr_flat_rf rf sp src.
Proof.
  intros rf sp src k c r H Hc. unfold parse_numexpr_rf. rewrite H.
  ascii_cases c; try discriminate Hc; reflexivity.
Qed.
Lemma split_last_snoc : forall t c, split_last (t ++ String c "") = Some (t, c).
Proof.
  induction t as [|a t IH]; intros c; [reflexivity|].
  cbn [append split_last]. rewrite IH. destruct (t ++ String c "") eqn:E; [|reflexivity].
  destruct t; discriminate E.
Qed.
Lemma read_source_rf_paren : forall rf sp t,
  parse_numexpr_rf rf sp t = parse_numexpr_flat_rf rf sp t ->
  read_source_rf rf sp ("(" ++ t ++ ")") = read_source_rf rf sp t.
Proof.
  intros rf sp t H. unfold read_source_rf. rewrite H. unfold parse_numexpr_rf.
  change (count_neg ("(" ++ t ++ ")")) with (O, String "(" (t ++ ")")). cbv beta iota.
  rewrite (split_last_snoc t ")"). cbv beta iota.
  destruct (parse_numexpr_flat_rf rf sp t); reflexivity.
Qed.

(* the prefix negations before a plain text *)
Lemma count_neg_plain : forall s ip fp, all_digits ip = true -> ip <> "" ->
  exists c r, plain ip fp = String c r /\ is_digit c = true /\
              count_neg (sign_str s ++ plain ip fp) = ((if s then 1 else 0)%nat, String c r).
Proof.
  intros s ip fp Hi Hne.
  destruct (plain_head ip fp Hi Hne) as (c & r & E & Hc & _).
  exists c, r. split; [exact E|]. split; [exact Hc|]. rewrite E.
  destruct s; cbn [sign_str append]; [|apply (count_neg_digit c r Hc)].
  change (count_neg (String "-" (String c r))) with (let '(n, t) := count_neg (String c r) in (S n, t)).
  now rewrite (count_neg_digit c r Hc).
Qed.

Lemma read_source_rf_plain : forall rf sp s ip fp,
  parse_contract sp -> all_digits ip = true -> ip <> "" -> all_digits fp = true ->
  read_source_rf rf sp (sign_str s ++ plain ip fp)
  = Ok (rn_decimal s (digits_val (ip ++ fp) 0) (0 - slen fp)).
Proof.
  intros rf sp s ip fp Hsp Hi Hne Hf.
  destruct (count_neg_plain s ip fp Hi Hne) as (c & r & Hpl & Hc & Hcn).
  unfold read_source_rf. rewrite (parse_numexpr_rf_no_paren rf sp _ _ c r Hcn Hc).
  unfold parse_numexpr_flat_rf. rewrite Hcn, Hc. cbn [orb]. rewrite <- Hpl.
  rewrite (lex_number_plain ip fp Hi Hne Hf).
  rewrite (literal_value_rf_plain rf sp ip fp Hi Hne Hf), (Hsp ip fp Hi Hne Hf).
  unfold ref_str_parse. change (plain ip fp) with (sign_str false ++ plain ip fp).
  rewrite (rust_float_syntax_plain false ip fp Hi Hne Hf). cbn [option_map fnum_value].
  assert (Hm : 0 <= digits_val (ip ++ fp) 0).
  { apply digits_val_nonneg; [|lia]. now rewrite all_digits_app, Hi, Hf. }
  rewrite (rn_decimal_sign s _ _ Hm).
  destruct s; reflexivity.
Qed.

(* ---------------------------------------------------------------- print_num -> parser *)
Section RoundTrip.
  Variable radixfix : bool.
  Variable fmt_prec0 : num -> string.
  Variable display : num -> string.
  Variable str_parse : string -> option num.

  (* what print_num prints, under the two printing contracts: [-]ddd[.ddd] denoting x *)
  Lemma print_num_shape : forall x,
    valid_binary 53 1024 x = true -> is_finite x = true ->
    (nfract_is_zero x && nltb (nabs x) c1e15 = true -> prec0_contract (fmt_prec0 x) x) ->
    (nfract_is_zero x && nltb (nabs x) c1e15 = false -> display_contract (display x) x) ->
    display_contract (print_num fmt_prec0 display x) x.
  Proof.
    intros x Hv Hf Hp0 Hd. unfold print_num.
    destruct (nfract_is_zero x && nltb (nabs x) c1e15) eqn:Hb.
    - destruct (Hp0 eq_refl) as (ip & Ht & Hi & Hne & Hval).
      apply andb_prop in Hb. destruct Hb as [Hz _].
      exists ip, "". unfold plain, frac_text. cbn [is_empty]. rewrite !append_nil_r.
      repeat split; auto. rewrite Hval. change (0 - slen "") with 0.
      apply rn_decimal_integral; auto.
    - exact (Hd eq_refl).
  Qed.

  Theorem source_reads_back_rf : forall x,
    valid_binary 53 1024 x = true -> is_finite x = true ->
    parse_contract str_parse ->
    (nfract_is_zero x && nltb (nabs x) c1e15 = true -> prec0_contract (fmt_prec0 x) x) ->
    (nfract_is_zero x && nltb (nabs x) c1e15 = false -> display_contract (display x) x) ->
    read_source_rf radixfix str_parse (print_num fmt_prec0 display x) = Ok x.
  Proof.
    intros x Hv Hf Hsp Hp0 Hd.
    destruct (print_num_shape x Hv Hf Hp0 Hd) as (ip & fp & Ht & Hi & Hne & Hfp & Hval).
    rewrite Ht, (read_source_rf_plain radixfix str_parse (nsign x) ip fp Hsp Hi Hne Hfp). now f_equal.
  Qed.

  (* function-source emission (serializable_value_to_source): negative numbers are parenthesised *)
  Theorem emission_reads_back_rf : forall x,
    valid_binary 53 1024 x = true -> is_finite x = true ->
    parse_contract str_parse ->
    (nfract_is_zero x && nltb (nabs x) c1e15 = true -> prec0_contract (fmt_prec0 x) x) ->
    (nfract_is_zero x && nltb (nabs x) c1e15 = false -> display_contract (display x) x) ->
    read_source_rf radixfix str_parse (emit_num fmt_prec0 display x) = Ok x.
  Proof.
    intros x Hv Hf Hsp Hp0 Hd. unfold emit_num. cbv zeta.
    assert (Hn : is_nan x = false) by (destruct x; try discriminate Hf; reflexivity).
    rewrite Hn.
    destruct (nsign x) eqn:Hs; [|now apply source_reads_back_rf].
    destruct (print_num_shape x Hv Hf Hp0 Hd) as (ip & fp & Ht & Hi & Hne & Hfp & Hval).
    rewrite read_source_rf_paren; [now apply source_reads_back_rf|].
    rewrite Ht, Hs. destruct (count_neg_plain true ip fp Hi Hne) as (c & r & _ & Hc & Hcn).
    exact (parse_numexpr_rf_no_paren radixfix str_parse _ _ c r Hcn Hc).
  Qed.

  (* the formatter prints a number exactly as expr_to_source does, at every width *)
  Theorem formatter_reads_back_rf : forall x w,
    valid_binary 53 1024 x = true -> is_finite x = true ->
    parse_contract str_parse ->
    (nfract_is_zero x && nltb (nabs x) c1e15 = true -> prec0_contract (fmt_prec0 x) x) ->
    (nfract_is_zero x && nltb (nabs x) c1e15 = false -> display_contract (display x) x) ->
    read_source_rf radixfix str_parse (format_num fmt_prec0 display x w) = Ok x.
  Proof. intros x w. unfold format_num. apply source_reads_back_rf. Qed.
End RoundTrip.

(* the tree as it is *)
Lemma read_source_plain : forall sp s ip fp,
  parse_contract sp -> all_digits ip = true -> ip <> "" -> all_digits fp = true ->
  read_source sp (sign_str s ++ plain ip fp)
  = Ok (rn_decimal s (digits_val (ip ++ fp) 0) (0 - slen fp)).
Proof. exact (read_source_rf_plain false). Qed.

Section RoundTripPinned.
  Variable fmt_prec0 : num -> string.
  Variable display : num -> string.
  Variable str_parse : string -> option num.

  Theorem source_reads_back : forall x,
    valid_binary 53 1024 x = true -> is_finite x = true ->
    parse_contract str_parse ->
    (nfract_is_zero x && nltb (nabs x) c1e15 = true -> prec0_contract (fmt_prec0 x) x) ->
    (nfract_is_zero x && nltb (nabs x) c1e15 = false -> display_contract (display x) x) ->
    read_source str_parse (print_num fmt_prec0 display x) = Ok x.
  Proof. exact (source_reads_back_rf false fmt_prec0 display str_parse). Qed.

  Theorem emission_reads_back : forall x,
    valid_binary 53 1024 x = true -> is_finite x = true ->
    parse_contract str_parse ->
    (nfract_is_zero x && nltb (nabs x) c1e15 = true -> prec0_contract (fmt_prec0 x) x) ->
    (nfract_is_zero x && nltb (nabs x) c1e15 = false -> display_contract (display x) x) ->
    read_source str_parse (emit_num fmt_prec0 display x) = Ok x.
  Proof. exact (emission_reads_back_rf false fmt_prec0 display str_parse). Qed.

  (* the formatter prints a number exactly as expr_to_source does, at every width *)
  Theorem formatter_reads_back : forall x w,
    valid_binary 53 1024 x = true -> is_finite x = true ->
    parse_contract str_parse ->
    (nfract_is_zero x && nltb (nabs x) c1e15 = true -> prec0_contract (fmt_prec0 x) x) ->
    (nfract_is_zero x && nltb (nabs x) c1e15 = false -> display_contract (display x) x) ->
    read_source str_parse (format_num fmt_prec0 display x w) = Ok x.
  Proof. exact (formatter_reads_back_rf false fmt_prec0 display str_parse). Qed.
End RoundTripPinned.

(* ---------------------------------------------------------------- JSON *)
Section Json.
  Variable json_print : num -> string.
  Variable json_parse : string -> outcome num.
  Theorem json_reads_back : forall x,
    is_finite x = true ->
    json_parse (json_print x) = of_option (ref_str_parse (json_print x)) ->  (* input correctly rounded *)
    ref_str_parse (json_print x) = Some x ->                                  (* output text denotes x *)
    json_parse (json_out json_print x) = Ok x.
  Proof. intros x Hf Hp Hd. unfold json_out. rewrite Hf, Hp, Hd. reflexivity. Qed.
End Json.

(* ---------------------------------------------------------------- radix literals *)
Lemma radix_val_nonneg : forall radix s acc v,
  0 <= radix -> 0 <= acc -> radix_val radix s acc = Some v -> 0 <= v.
Proof.
  induction s as [|c s IH]; intros acc v Hr Ha H; simpl in H.
  - inversion H; subst; assumption.
  - destruct (radix_digit radix c) as [d|] eqn:E; [|discriminate].
    apply (IH (acc * radix + d) v Hr); auto. pose proof (radix_digit_range radix c d E). nia.
Qed.

Lemma hexbit_not_sign : forall c, is_hex c = true ->
  forall r, match String c r with
            | String "-" r' => (true, r') | String "+" r' => (false, r') | _ => (false, String c r)
            end = (false, String c r).
Proof. intros c H r. ascii_cases c; try discriminate H; reflexivity. Qed.
Lemma bit_is_hex : forall c, is_bit c = true -> is_hex c = true.
Proof. intros c H. ascii_cases c; try discriminate H; reflexivity. Qed.

Lemma i64_from_str_radix_unsigned : forall radix c cl v,
  is_hex c = true -> 0 <= radix -> radix_val radix (String c cl) 0 = Some v ->
  i64_from_str_radix (String c cl) radix = if v <? 2 ^ 63 then Some v else None.
Proof.
  intros radix c cl v Hc Hr Hv. unfold i64_from_str_radix.
  rewrite (hexbit_not_sign c Hc cl). cbn [is_empty]. rewrite Hv.
  pose proof (radix_val_nonneg radix _ 0 v Hr (Z.le_refl 0) Hv) as Hn.
  unfold I64_MIN, I64_MAX.
  destruct (v <? 2 ^ 63) eqn:E.
  - apply Z.ltb_lt in E. replace (- 2 ^ 63 <=? v) with true by (symmetry; apply Z.leb_le; lia).
    replace (v <=? 2 ^ 63 - 1) with true by (symmetry; apply Z.leb_le; lia). reflexivity.
  - apply Z.ltb_ge in E. replace (v <=? 2 ^ 63 - 1) with false by (symmetry; apply Z.leb_gt; lia).
    now rewrite andb_false_r.
Qed.

(* an unsigned radix literal: `_` erased, value below 2^63 -> nearest double of the integer,
   otherwise rejected *)
Lemma radix_literal_unsigned : forall radix cleaned c cl v,
  cleaned = String c cl -> is_hex c = true -> 0 <= radix -> radix_val radix (String c cl) 0 = Some v ->
  match i64_from_str_radix cleaned radix with
  | None => None
  | Some parsed => Some (nmul n_one (num_of_Z parsed))
  end = if v <? 2 ^ 63 then Some (num_of_Z v) else None.
Proof.
  intros radix cleaned c cl v -> Hc Hr Hv. rewrite (i64_from_str_radix_unsigned radix c cl v Hc Hr Hv).
  destruct (v <? 2 ^ 63); [|reflexivity]. now rewrite (nmul_one_l _ (num_of_Z_valid v)).
Qed.

(* 0x literals *)
Theorem hex_literal_value : forall sp body c cl v,
  remove_char "_" body = String c cl -> is_hex c = true ->
  radix_val 16 (String c cl) 0 = Some v ->
  literal_value sp ("0x" ++ body) = if v <? 2 ^ 63 then Some (num_of_Z v) else None.
Proof.
  intros sp body c cl v Hcl Hc Hv.
  exact (radix_literal_unsigned 16 (remove_char "_" body) c cl v Hcl Hc ltac:(discriminate) Hv).
Qed.

(* 0b literals *)
Theorem bin_literal_value : forall sp body c cl v,
  remove_char "_" body = String c cl -> is_bit c = true ->
  radix_val 2 (String c cl) 0 = Some v ->
  literal_value sp ("0b" ++ body) = if v <? 2 ^ 63 then Some (num_of_Z v) else None.
Proof.
  intros sp body c cl v Hcl Hc Hv.
  exact (radix_literal_unsigned 2 (remove_char "_" body) c cl v Hcl (bit_is_hex c Hc) ltac:(discriminate) Hv).
Qed.

(* decimal literals: `_` is erased and the rest is handed to str::parse::<f64> *)
Theorem decimal_literal_erasure : forall sp c r,
  is_digit c = true \/ c = "."%char ->
  (c = "0"%char -> match r with String c2 _ => c2 <> "b"%char /\ c2 <> "x"%char | EmptyString => True end) ->
  literal_value sp (String c r) = sp (remove_char "_" (String c r)).
Proof. exact (literal_value_rf_erasure false). Qed.

(* decimal / scientific / leading-dot literals denote the obvious rational, correctly rounded:
   if the token, with `_` erased, is  ip[.fp][e|E[+|-]ed]  (or .fp[...]) and str::parse::<f64> is
   correctly rounded on that text, the literal is RNE of  (ip fp as an integer) * 10^(exp - |fp|) *)
Theorem decimal_literal_value : forall sp c r ip fp ex,
  is_digit c = true \/ c = "."%char ->
  (c = "0"%char -> match r with String c2 _ => c2 <> "b"%char /\ c2 <> "x"%char | EmptyString => True end) ->
  remove_char "_" (String c r) = dec_text ip fp ex ->
  all_digits ip = true -> all_digits fp = true -> (ip <> "" \/ fp <> "") -> exp_ok ex ->
  sp (dec_text ip fp ex) = ref_str_parse (dec_text ip fp ex) ->
  literal_value sp (String c r)
  = Some (rn_decimal false (digits_val (ip ++ fp) 0) (exp_val ex - slen fp)).
Proof.
  intros sp c r ip fp ex Hc H0 Hcl Hi Hf Hne Hex Hsp.
  rewrite (decimal_literal_erasure sp c r Hc H0), Hcl, Hsp.
  unfold ref_str_parse. now rewrite (rust_float_syntax_dec_text ip fp ex Hi Hf Hne Hex).
Qed.

(* ---------------------------------------------------------------- to_string -> to_number, from the
   same Display contract (here str::parse sees the sign itself) *)
Definition parse_contract_signed (sp : string -> option num) : Prop :=
  forall s ip fp, all_digits ip = true -> ip <> "" -> all_digits fp = true ->
    sp (sign_str s ++ plain ip fp) = ref_str_parse (sign_str s ++ plain ip fp).

Theorem to_string_to_number_contract : forall (display : num -> string) sp x,
  parse_contract_signed sp -> display_contract (display x) x ->
  to_number_str sp (to_string_num display x) = Ok x.
Proof.
  intros display sp x Hsp (ip & fp & Ht & Hi & Hne & Hf & Hval).
  unfold to_number_str, to_string_num. rewrite Ht, (Hsp _ ip fp Hi Hne Hf).
  unfold ref_str_parse. rewrite (rust_float_syntax_plain _ ip fp Hi Hne Hf).
  cbn [option_map fnum_value of_option]. now rewrite Hval.
Qed.
