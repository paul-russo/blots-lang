(* Aggregates.v — lemmas about the aggregate built-ins of BuiltinsAgg.v (property C15). *)
From Coq Require Import ZArith String List Bool Lia Floats.SpecFloat Permutation Sorted Arith.
Require Import Blots.Num Blots.gen.Builtins Blots.Ast Blots.Value Blots.Show Blots.Outcome
  Blots.BuiltinsAgg Blots.proofs.Order.
Import ListNotations.
Open Scope Z_scope.

(* ------------------------------------------------------------------ argument collection *)
Definition nums (l : list num) : list value := map VNum l.

(* the one function the six copies are copies of *)
Definition collect_nums (args : list value) : outcome (list num) :=
  match args with
  | [VList l] => mapM as_number l
  | [a] => do x <- as_number a; Ok [x]
  | _ => mapM as_number args
  end.

Lemma collect_min_eq args : collect_nums_min args = collect_nums args.
Proof. destruct args as [|a [|b r]]; try reflexivity. now destruct a. Qed.

Lemma collect_copies_agree args :
  collect_nums_max args = collect_nums_min args /\ collect_nums_avg args = collect_nums_min args /\
  collect_nums_prod args = collect_nums_min args /\ collect_nums_sum args = collect_nums_min args /\
  collect_nums_median args = collect_nums_min args.
Proof. repeat split; reflexivity. Qed.

Lemma mapM_as_number_nums l : mapM as_number (nums l) = Ok l.
Proof. induction l as [|x l IH]; cbn; [reflexivity|]. unfold nums in IH. now rewrite IH. Qed.

Lemma mapM_single (a : value) : mapM as_number [a] = (do x <- as_number a; Ok [x]).
Proof. cbn. now destruct (as_number a). Qed.

(* a value that is not itself a list *)
Definition not_list (v : value) : bool := match v with VList _ => false | _ => true end.
(* the argument vector is not "exactly one list": the only shape on which the two calling
   conventions are read differently *)
Definition not_single_list (vs : list value) : bool :=
  match vs with [VList _] => false | _ => true end.

(* one list argument is read exactly as the same values passed separately / spread *)
Lemma collect_conventions vs :
  not_single_list vs = true -> collect_nums [VList vs] = collect_nums vs.
Proof.
  intros H. destruct vs as [|a [|b r]]; [reflexivity| |];
    destruct a; cbn in H; try discriminate; reflexivity.
Qed.

Lemma collect_nums_list l : collect_nums [VList (nums l)] = Ok l.
Proof. cbn. apply mapM_as_number_nums. Qed.

Lemma collect_nums_sep l : collect_nums (nums l) = Ok l.
Proof.
  rewrite <- (collect_conventions (nums l)); [apply collect_nums_list|].
  now destruct l as [|x [|y r]].
Qed.

(* the six list-or-varargs aggregates *)
Definition is_varargs (a : agg) : bool :=
  match a with AMin | AMax | AAvg | ASum | AProd | AMedian => true | _ => false end.

(* each of the six is "collect, reject the empty vector, reduce" *)
Definition reduce (a : agg) (ns : list num) : outcome value :=
  match a with
  | AMin => Ok (VNum (fold_min ns))
  | AMax => Ok (VNum (fold_max ns))
  | AAvg => Ok (VNum (ndiv (fold_sum ns) (num_of_Z (len ns))))
  | ASum => Ok (VNum (fold_sum ns))
  | AProd => Ok (VNum (fold_prod ns))
  | AMedian =>
      if has_nan ns then Ok (VNum nnan) else
      do s <- sort_pc ns;
      let n := len s in
      if n mod 2 =? 0 then
        do x <- index_num s (n / 2 - 1); do y <- index_num s (n / 2); Ok (VNum (ndiv (nadd x y) n2))
      else do x <- index_num s (n / 2); Ok (VNum x)
  | _ => Unmodelled
  end.

Lemma bi_agg_collect a args :
  is_varargs a = true ->
  bi_agg a args = (do ns <- collect_nums args; if is_empty ns then Err else reduce a ns).
Proof.
  intros H. destruct a; try discriminate; cbn [bi_agg];
    unfold bi_min, bi_max, bi_avg, bi_sum, bi_prod, bi_median;
    change collect_nums_max with collect_nums_min; change collect_nums_avg with collect_nums_min;
    change collect_nums_sum with collect_nums_min; change collect_nums_prod with collect_nums_min;
    change collect_nums_median with collect_nums_min;
    rewrite collect_min_eq; reflexivity.
Qed.

(* for any argument values, not only numbers *)
Lemma conventions_agree a vs :
  is_varargs a = true -> not_single_list vs = true -> bi_agg a [VList vs] = bi_agg a vs.
Proof.
  intros Ha H. rewrite !(bi_agg_collect a) by assumption. now rewrite collect_conventions.
Qed.

Lemma not_single_list_nums l : not_single_list (nums l) = true.
Proof. now destruct l as [|x [|y r]]. Qed.

Lemma conventions_agree_nums a l :
  is_varargs a = true -> bi_agg a [VList (nums l)] = bi_agg a (nums l).
Proof. intros Ha. apply conventions_agree; [assumption|apply not_single_list_nums]. Qed.

(* the length-1 disambiguation: a single argument that is a list is always "the list of numbers",
   so a list whose only element is a list is a type error while the bare inner list is aggregated *)
Lemma single_list_is_the_list a l :
  is_varargs a = true ->
  bi_agg a [VList l] = (do ns <- mapM as_number l; if is_empty ns then Err else reduce a ns).
Proof. intros Ha. now rewrite bi_agg_collect. Qed.

Lemma nested_single_list_rejected a l :
  is_varargs a = true -> bi_agg a [VList [VList l]] = Err.
Proof. intros Ha. now rewrite bi_agg_collect. Qed.

(* on a non-empty list of numbers, in either convention *)
Lemma bi_agg_nums a l :
  is_varargs a = true -> l <> [] ->
  bi_agg a [VList (nums l)] = reduce a l /\ bi_agg a (nums l) = reduce a l.
Proof.
  intros Ha Hl. rewrite <- conventions_agree_nums by assumption.
  rewrite bi_agg_collect, collect_nums_list by assumption. cbn.
  destruct l; [contradiction|]. now split.
Qed.

Lemma bi_agg_empty a : is_varargs a = true -> bi_agg a [VList []] = Err /\ bi_agg a [] = Err.
Proof. intros Ha. rewrite !bi_agg_collect by assumption. now split. Qed.

(* ------------------------------------------------------------------ sum prod avg *)
Lemma sum_is_fold l : l <> [] ->
  bi_sum [VList (nums l)] = Ok (VNum (fold_left nadd l nnzero)) /\
  bi_sum (nums l) = Ok (VNum (fold_left nadd l nnzero)).
Proof. intros H. exact (bi_agg_nums ASum l eq_refl H). Qed.

Lemma prod_is_fold l : l <> [] ->
  bi_prod [VList (nums l)] = Ok (VNum (fold_left nmul l n1)) /\
  bi_prod (nums l) = Ok (VNum (fold_left nmul l n1)).
Proof. intros H. exact (bi_agg_nums AProd l eq_refl H). Qed.

Lemma avg_is_sum_div_count l : l <> [] ->
  exists s, bi_sum (nums l) = Ok (VNum s) /\
            bi_avg (nums l) = Ok (VNum (ndiv s (num_of_Z (Z.of_nat (length l))))) /\
            bi_avg [VList (nums l)] = Ok (VNum (ndiv s (num_of_Z (Z.of_nat (length l))))).
Proof.
  intros H. exists (fold_sum l). split; [apply (sum_is_fold l H)|].
  destruct (bi_agg_nums AAvg l eq_refl H) as [A B]. now split.
Qed.

(* ------------------------------------------------------------------ the order on numbers *)
Definition nle (a b : num) : Prop := nleb a b = true.
Definition nlt (a b : num) : Prop := nltb a b = true.
Definition neq (a b : num) : Prop := ncmp a b = Some Eq.     (* Numerically EQual, f64 == : +0 and -0 identified *)
Definition nan_free (l : list num) : bool := forallb (fun x => negb (is_nan x)) l.

Lemma nleb_spec a b : nleb a b = true <-> ncmp a b = Some Lt \/ ncmp a b = Some Eq.
Proof.
  unfold nleb, SFleb, ncmp. destruct (SFcompare a b) as [[]|]; split; intros H; auto;
    try discriminate; destruct H; discriminate.
Qed.
Lemma nltb_spec a b : nltb a b = true <-> ncmp a b = Some Lt.
Proof. unfold nltb, SFltb, ncmp. destruct (SFcompare a b) as [[]|]; split; congruence. Qed.

Lemma ncmp_none a b : ncmp a b = None <-> is_nan a = true \/ is_nan b = true.
Proof.
  rewrite ncmp_key.
  assert (K : forall x, key x = None <-> is_nan x = true).
  { intros x. destruct x as [[]|[]| |[] ? ?]; cbn; split; congruence. }
  destruct (key a) eqn:Ea, (key b) eqn:Eb; split; intros H; try discriminate; try tauto.
  - destruct H as [H|H]; apply K in H; congruence.
  - right. now apply K.
  - left. now apply K.
  - left. now apply K.
Qed.

Lemma ncmp_some a b : is_nan a = false -> is_nan b = false -> exists o, ncmp a b = Some o.
Proof.
  intros Ha Hb. destruct (ncmp a b) eqn:E; [eauto|].
  apply ncmp_none in E. destruct E; congruence.
Qed.

Lemma nle_not_nan a b : nle a b -> is_nan a = false /\ is_nan b = false.
Proof.
  intros H. apply nleb_spec in H.
  destruct (is_nan a) eqn:Ea, (is_nan b) eqn:Eb; auto;
    assert (N : ncmp a b = None) by (apply ncmp_none; auto); destruct H; congruence.
Qed.

Lemma nle_refl a : is_nan a = false -> nle a a.
Proof. intros H. apply nleb_spec. right. now apply ncmp_refl. Qed.

Lemma nle_trans a b c : nle a b -> nle b c -> nle a c.
Proof.
  intros H1 H2. apply nleb_spec in H1. apply nleb_spec in H2. apply nleb_spec.
  destruct H1 as [H1|H1], H2 as [H2|H2];
    rewrite (ncmp_trans _ _ _ _ _ H1 H2) by discriminate; cbn; auto.
Qed.

Lemma nle_total a b : is_nan a = false -> is_nan b = false -> nle a b \/ nle b a.
Proof.
  intros Ha Hb. destruct (ncmp_some a b Ha Hb) as [o E].
  destruct o; [left|left|right]; apply nleb_spec; auto.
  rewrite ncmp_antisym, E. cbn. auto.
Qed.

Lemma nlt_nle a b : nlt a b -> nle a b.
Proof. intros H. apply nltb_spec in H. apply nleb_spec. auto. Qed.

Lemma nleb_nltb a b : is_nan a = false -> is_nan b = false -> nleb a b = negb (nltb b a).
Proof.
  intros Ha Hb. destruct (ncmp_some a b Ha Hb) as [o E].
  unfold nleb, nltb, SFleb, SFltb. change SFcompare with ncmp. rewrite (ncmp_antisym a b), E. now destruct o.
Qed.

Lemma not_nlt_nle a b : is_nan a = false -> is_nan b = false -> nltb b a = false -> nle a b.
Proof. intros Ha Hb H. unfold nle. now rewrite nleb_nltb, H. Qed.

Lemma nle_antisym a b : nle a b -> nle b a -> neq a b.
Proof.
  intros H1 H2. apply nleb_spec in H1. apply nleb_spec in H2. unfold neq.
  rewrite ncmp_antisym in H2. destruct (ncmp a b) as [[]|]; cbn in *; auto;
    destruct H1, H2; congruence.
Qed.

Lemma neq_nle a b : neq a b -> nle a b /\ nle b a.
Proof.
  unfold neq. intros H. split; apply nleb_spec; right; auto. now rewrite ncmp_antisym, H.
Qed.

Lemma nlt_not_nle a b : nlt a b -> nle b a -> False.
Proof.
  intros H1 H2. apply nltb_spec in H1. apply nleb_spec in H2. rewrite ncmp_antisym, H1 in H2.
  cbn in H2. destruct H2; discriminate.
Qed.

Lemma nle_nlt_trans a b c : nle a b -> nlt b c -> nlt a c.
Proof.
  intros H1 H2. apply nleb_spec in H1. apply nltb_spec in H2. apply nltb_spec.
  destruct H1 as [H1|H1]; rewrite (ncmp_trans _ _ _ _ _ H1 H2) by discriminate; reflexivity.
Qed.

Lemma nleb_false_nlt a b : is_nan a = false -> is_nan b = false -> nleb a b = false -> nlt b a.
Proof. intros Ha Hb H. unfold nlt. rewrite nleb_nltb in H by assumption. now apply negb_false_iff in H. Qed.

(* numeric equality is Leibniz equality except for the two zeros *)
Definition is_zero (x : num) : bool := match x with S754_zero _ => true | _ => false end.
Lemma neq_cases a b : neq a b -> a = b \/ (is_zero a = true /\ is_zero b = true).
Proof.
  unfold neq. rewrite ncmp_key.
  destruct (key a) as [ka|] eqn:Ea, (key b) as [kb|] eqn:Eb; try discriminate.
  intros H. injection H as H. apply lexcmp_eq in H. subst kb.
  destruct a as [[]|[]| |[] ma ea], b as [[]|[]| |[] mb eb]; cbn in Ea, Eb; auto;
    try congruence; left; injection Ea as <-; injection Eb as E1 E2;
    f_equal; try lia; try congruence.
Qed.

Lemma nan_free_forall l : nan_free l = true <-> forall x, In x l -> is_nan x = false.
Proof.
  unfold nan_free. rewrite forallb_forall. split; intros H x Hx; specialize (H x Hx);
    now destruct (is_nan x).
Qed.
Lemma nan_free_cons x l : nan_free (x :: l) = true <-> is_nan x = false /\ nan_free l = true.
Proof. cbn. rewrite andb_true_iff, negb_true_iff. tauto. Qed.
Lemma has_nan_nan_free l : has_nan l = negb (nan_free l).
Proof.
  unfold has_nan, nan_free. induction l as [|x l IH]; [reflexivity|]. cbn. rewrite IH.
  now destruct (is_nan x).
Qed.
Lemma nan_free_perm l l' : Permutation l l' -> nan_free l = true -> nan_free l' = true.
Proof.
  intros P H. apply nan_free_forall. intros x Hx. apply (proj1 (nan_free_forall l) H).
  now apply (Permutation_in _ (Permutation_sym P)).
Qed.

(* ------------------------------------------------------------------ min / max *)
Lemma nmin_spec a b : is_nan a = false -> is_nan b = false ->
  (nmin a b = a \/ nmin a b = b) /\ nle (nmin a b) a /\ nle (nmin a b) b.
Proof.
  intros Ha Hb. unfold nmin. rewrite Ha, Hb. destruct (nltb b a) eqn:E.
  - split; [auto|split]; [now apply nlt_nle|now apply nle_refl].
  - split; [auto|split]; [now apply nle_refl|now apply not_nlt_nle].
Qed.
Lemma nmax_spec a b : is_nan a = false -> is_nan b = false ->
  (nmax a b = a \/ nmax a b = b) /\ nle a (nmax a b) /\ nle b (nmax a b).
Proof.
  intros Ha Hb. unfold nmax. rewrite Ha, Hb. destruct (nltb a b) eqn:E.
  - split; [auto|split]; [now apply nlt_nle|now apply nle_refl].
  - split; [auto|split]; [now apply nle_refl|now apply not_nlt_nle].
Qed.

Lemma nle_pinf_eq x : nle npinf x -> x = npinf.
Proof.
  intros H. apply nleb_spec in H. unfold ncmp, npinf in H.
  destruct x as [[]|[]| |[] ? ?]; cbn in H; destruct H; try discriminate; reflexivity.
Qed.
Lemma nle_ninf_eq x : nle x nninf -> x = nninf.
Proof.
  intros H. apply nleb_spec in H. unfold ncmp, nninf in H.
  destruct x as [[]|[]| |[] ? ?]; cbn in H; destruct H; try discriminate; reflexivity.
Qed.

(* min and max are the same fold, for the order and for its converse: [sel] picks the le-smaller of
   two numbers, the fold starts from the le-greatest number [top] *)
Section Extremum.
  Variable le : num -> num -> Prop.
  Variable sel : num -> num -> num.
  Variable top : num.
  Hypothesis le_refl : forall a, is_nan a = false -> le a a.
  Hypothesis le_trans : forall a b c, le a b -> le b c -> le a c.
  Hypothesis sel_spec : forall a b, is_nan a = false -> is_nan b = false ->
    (sel a b = a \/ sel a b = b) /\ le (sel a b) a /\ le (sel a b) b.
  Hypothesis top_num : is_nan top = false.
  Hypothesis top_only : forall x, le top x -> x = top.

  Lemma fold_sel_spec l : forall acc, is_nan acc = false -> nan_free l = true ->
    let r := fold_left sel l acc in
    (r = acc \/ In r l) /\ le r acc /\ (forall x, In x l -> le r x).
  Proof.
    induction l as [|y l IH]; intros acc Ha Hl; cbn.
    - split; [auto|split]; [now apply le_refl|tauto].
    - apply nan_free_cons in Hl. destruct Hl as [Hy Hl].
      destruct (sel_spec acc y Ha Hy) as (Hc & H1 & H2).
      assert (Hm : is_nan (sel acc y) = false) by (destruct Hc as [->| ->]; assumption).
      destruct (IH (sel acc y) Hm Hl) as (A & B & C).
      split; [|split].
      + destruct A as [A|A]; [|auto]. rewrite A. destruct Hc as [->| ->]; auto.
      + eapply le_trans; eauto.
      + intros x [<-|Hx]; [eapply le_trans; eauto|auto].
  Qed.

  Lemma fold_sel_bound l : l <> [] -> nan_free l = true ->
    In (fold_left sel l top) l /\ forall x, In x l -> le (fold_left sel l top) x.
  Proof.
    intros Hne Hl. destruct (fold_sel_spec l top top_num Hl) as (C & _ & E). split; [|exact E].
    destruct C as [C|C]; [|exact C].
    destruct l as [|x l]; [contradiction|].
    assert (X : x = top). { apply top_only. rewrite <- C. apply E. now left. }
    rewrite C, <- X. now left.
  Qed.
End Extremum.

(* min / max are elements of the list bounding all others *)
Lemma min_bound l : l <> [] -> nan_free l = true ->
  exists m, bi_min (nums l) = Ok (VNum m) /\ bi_min [VList (nums l)] = Ok (VNum m) /\
            In m l /\ forall x, In x l -> nle m x.
Proof.
  intros Hne Hl. exists (fold_min l).
  destruct (bi_agg_nums AMin l eq_refl Hne) as [A B].
  destruct (fold_sel_bound nle nmin npinf nle_refl nle_trans nmin_spec eq_refl nle_pinf_eq l Hne Hl).
  auto.
Qed.
Lemma max_bound l : l <> [] -> nan_free l = true ->
  exists m, bi_max (nums l) = Ok (VNum m) /\ bi_max [VList (nums l)] = Ok (VNum m) /\
            In m l /\ forall x, In x l -> nle x m.
Proof.
  intros Hne Hl. exists (fold_max l).
  destruct (bi_agg_nums AMax l eq_refl Hne) as [A B].
  destruct (fold_sel_bound (fun a b => nle b a) nmax nninf nle_refl
              (fun a b c H1 H2 => nle_trans c b a H2 H1) nmax_spec eq_refl nle_ninf_eq l Hne Hl).
  auto.
Qed.

(* ------------------------------------------------------------------ sort_by(partial_cmp.unwrap) *)
Definition sort_step (acc : outcome (list num)) (x : num) : outcome (list num) :=
  do a <- acc; insert_pc x a.
Definition sort_from (acc : outcome (list num)) (l : list num) := fold_left sort_step l acc.
Lemma sort_pc_from l : sort_pc l = sort_from (Ok []) l.
Proof. reflexivity. Qed.

Lemma sort_from_panic l : sort_from Panic l = Panic.
Proof. induction l; cbn; auto. Qed.
Lemma sort_from_cons acc x l : sort_from (Ok acc) (x :: l) = sort_from (insert_pc x acc) l.
Proof. reflexivity. Qed.

Lemma HdRel_insert a x : forall l s,
  insert_pc x l = Ok s -> nle a x -> HdRel nle a l -> HdRel nle a s.
Proof.
  intros l s H Hax Hl. destruct l as [|y r]; cbn in H.
  - injection H as <-. now constructor.
  - destruct (ncmp x y) as [[]|]; try discriminate.
    2:{ injection H as <-. now constructor. }
    all: destruct (insert_pc x r); try discriminate; injection H as <-; constructor; now inversion Hl.
Qed.

(* inserting a non-NaN into a sorted NaN-free list: succeeds, permutes, stays sorted *)
Lemma insert_pc_ok x : is_nan x = false -> forall l, nan_free l = true -> Sorted nle l ->
  exists s, insert_pc x l = Ok s /\ Permutation (x :: l) s /\ Sorted nle s.
Proof.
  intros Hx. induction l as [|y r IH]; intros Hl Hs.
  - exists [x]. cbn. repeat split; auto.
  - apply nan_free_cons in Hl. destruct Hl as [Hy Hr]. cbn [insert_pc].
    destruct (ncmp_some x y Hx Hy) as [o E]. rewrite E.
    assert (Hs' : Sorted nle r) by now inversion Hs.
    destruct (IH Hr Hs') as (s & A & B & C).
    assert (Hyx : o <> Lt -> nle y x).
    { intros Ho. apply nleb_spec. rewrite ncmp_antisym, E. destruct o; cbn; auto. congruence. }
    destruct o.
    2:{ exists (x :: y :: r). repeat split; auto. constructor; [assumption|].
        constructor. apply nleb_spec. auto. }
    (* Eq, Gt: x goes after y *)
    all: rewrite A; cbn; exists (y :: s); repeat split; [rewrite perm_swap; now constructor|];
      constructor; [assumption|]; eapply HdRel_insert; eauto; [apply Hyx; discriminate|now inversion Hs].
Qed.

(* the first comparison of an insertion into a non-empty list aborts on a NaN *)
Lemma insert_pc_nan x y r : is_nan x = true \/ is_nan y = true -> insert_pc x (y :: r) = Panic.
Proof. intros H. cbn. now rewrite (proj2 (ncmp_none x y) H). Qed.

Lemma sort_from_ok l : forall acc, nan_free acc = true -> Sorted nle acc -> nan_free l = true ->
  exists s, sort_from (Ok acc) l = Ok s /\ Permutation (acc ++ l) s /\ Sorted nle s.
Proof.
  induction l as [|x l IH]; intros acc Ha Hs Hl.
  - exists acc. cbn. rewrite app_nil_r. auto.
  - apply nan_free_cons in Hl. destruct Hl as [Hx Hl].
    destruct (insert_pc_ok x Hx acc Ha Hs) as (s1 & A & B & C).
    cbn. rewrite A.
    assert (H1 : nan_free s1 = true).
    { apply (nan_free_perm _ _ B). apply nan_free_cons. auto. }
    destruct (IH s1 H1 C Hl) as (s & D & E & F).
    exists s. repeat split; auto.
    rewrite <- E, <- B. cbn. now rewrite <- Permutation_middle.
Qed.

Lemma sort_from_nan l : forall y r, nan_free (y :: r) = true -> Sorted nle (y :: r) ->
  has_nan l = true -> sort_from (Ok (y :: r)) l = Panic.
Proof.
  induction l as [|x l IH]; intros y r Ha Hs Hl; [discriminate|].
  rewrite sort_from_cons.
  destruct (is_nan x) eqn:Hx.
  - rewrite insert_pc_nan by auto. apply sort_from_panic.
  - cbn in Hl. rewrite Hx in Hl. cbn in Hl.
    destruct (insert_pc_ok x Hx (y :: r) Ha Hs) as (s1 & A & B & C). rewrite A.
    assert (H1 : nan_free s1 = true).
    { apply (nan_free_perm _ _ B). apply nan_free_cons. auto. }
    destruct s1 as [|y1 r1].
    + apply Permutation_sym, Permutation_nil in B. discriminate.
    + now apply IH.
Qed.

(* the behaviour of the sort in three cases that cover every input: fewer than two elements (returned as
   they are), a NaN among two or more (abort), no NaN (sorted permutation) *)
Theorem sort_pc_spec l :
  (length l < 2)%nat -> sort_pc l = Ok l.
Proof. destruct l as [|x [|y r]]; cbn; intros; try reflexivity; lia. Qed.

Theorem sort_pc_nan_panics l :
  (2 <= length l)%nat -> has_nan l = true -> sort_pc l = Panic.
Proof.
  destruct l as [|x [|y r]]; cbn [length]; intros Hlen Hn; try lia.
  rewrite sort_pc_from, sort_from_cons. change (insert_pc x []) with (Ok [x]).
  destruct (is_nan x) eqn:Hx.
  - rewrite sort_from_cons, insert_pc_nan by auto. apply sort_from_panic.
  - apply sort_from_nan; [cbn; now rewrite Hx|repeat constructor|].
    cbn [has_nan existsb] in Hn. now rewrite Hx in Hn.
Qed.

Theorem sort_pc_sorts l : nan_free l = true ->
  exists s, sort_pc l = Ok s /\ Permutation l s /\ Sorted nle s.
Proof. intros H. exact (sort_from_ok l [] eq_refl (Sorted_nil _) H). Qed.

(* sort_pc never returns Err / ErrDepth / Unmodelled *)
Lemma sort_pc_ok_or_panic l : (exists s, sort_pc l = Ok s) \/ sort_pc l = Panic.
Proof.
  destruct (has_nan l) eqn:Hn.
  - destruct (le_lt_dec 2 (length l)) as [H|H].
    + right. now apply sort_pc_nan_panics.
    + left. exists l. now apply sort_pc_spec.
  - left. rewrite has_nan_nan_free in Hn. apply negb_false_iff in Hn.
    destruct (sort_pc_sorts l Hn) as (s & A & _). eauto.
Qed.

Theorem sort_pc_panic_iff l :
  sort_pc l = Panic <-> ((2 <= length l)%nat /\ has_nan l = true).
Proof.
  split.
  - intros H. destruct (has_nan l) eqn:Hn.
    + destruct (le_lt_dec 2 (length l)) as [L|L]; [auto|].
      rewrite sort_pc_spec in H by assumption. discriminate.
    + rewrite has_nan_nan_free in Hn. apply negb_false_iff in Hn.
      destruct (sort_pc_sorts l Hn) as (s & A & _). congruence.
  - intros [A B]. now apply sort_pc_nan_panics.
Qed.

(* ------------------------------------------------------------------ order statistics by rank *)
(* The k-th order statistic (k = 0 is the smallest) of a list, defined by counting and therefore
   manifestly invariant under permutation: v occurs in l, at most k elements are strictly
   smaller, and more than k elements are smaller or equal. *)
Definition count_lt (v : num) (l : list num) : nat := length (filter (fun x => nltb x v) l).
Definition count_le (v : num) (l : list num) : nat := length (filter (fun x => nleb x v) l).
Definition is_order_stat (l : list num) (k : nat) (v : num) : Prop :=
  In v l /\ (count_lt v l <= k)%nat /\ (k < count_le v l)%nat.

Lemma filter_length_perm {A} (f : A -> bool) l l' :
  Permutation l l' -> length (filter f l) = length (filter f l').
Proof.
  induction 1; cbn; auto.
  - destruct (f x); cbn; auto.
  - destruct (f x), (f y); cbn; auto.
  - congruence.
Qed.

Lemma filter_length_le {A} (f g : A -> bool) l :
  (forall x, In x l -> f x = true -> g x = true) ->
  (length (filter f l) <= length (filter g l))%nat.
Proof.
  induction l as [|x l IH]; intros H; cbn; [lia|].
  assert (IH' := IH (fun y Hy => H y (or_intror Hy))).
  destruct (f x) eqn:Ef.
  - rewrite (H x (or_introl eq_refl) Ef). cbn. lia.
  - destruct (g x); cbn; lia.
Qed.

Lemma filter_length_all {A} (f : A -> bool) l :
  (forall x, In x l -> f x = true) -> length (filter f l) = length l.
Proof.
  induction l as [|x l IH]; intros H; cbn; [reflexivity|].
  rewrite (H x (or_introl eq_refl)). cbn. f_equal. apply IH. intros; apply H; now right.
Qed.
Lemma filter_length_none {A} (f : A -> bool) l :
  (forall x, In x l -> f x = false) -> length (filter f l) = 0%nat.
Proof.
  induction l as [|x l IH]; intros H; cbn; [reflexivity|].
  rewrite (H x (or_introl eq_refl)). apply IH. intros; apply H; now right.
Qed.

Lemma filter_length_bound {A} (f : A -> bool) l : (length (filter f l) <= length l)%nat.
Proof. induction l as [|y l IH]; cbn; [lia|]. destruct (f y); cbn; lia. Qed.
Lemma filter_length_pos {A} (f : A -> bool) l x :
  In x l -> f x = true -> (0 < length (filter f l))%nat.
Proof.
  intros Hx Hf. assert (H : In x (filter f l)) by (apply filter_In; auto).
  destruct (filter f l); [contradiction|cbn; lia].
Qed.
Lemma filter_length_lt {A} (f : A -> bool) l x :
  In x l -> f x = false -> (length (filter f l) < length l)%nat.
Proof.
  induction l as [|y l IH]; intros Hx Hf; [contradiction|]. cbn. destruct Hx as [->|Hx].
  - rewrite Hf. assert (G := filter_length_bound f l). lia.
  - specialize (IH Hx Hf). destruct (f y); cbn; lia.
Qed.

Lemma order_stat_perm l l' k v : Permutation l l' -> is_order_stat l k v -> is_order_stat l' k v.
Proof.
  intros P (A & B & C). unfold is_order_stat, count_lt, count_le in *.
  rewrite <- !(filter_length_perm _ _ _ P). split; [|auto]. eapply Permutation_in; eauto.
Qed.

(* monotone in the rank *)
Lemma order_stat_mono l j k v w : nan_free l = true -> (j <= k)%nat ->
  is_order_stat l j v -> is_order_stat l k w -> nle v w.
Proof.
  intros Hl Hjk (Av & Bv & Cv) (Aw & Bw & Cw).
  assert (Nv := proj1 (nan_free_forall l) Hl v Av). assert (Nw := proj1 (nan_free_forall l) Hl w Aw).
  destruct (nleb v w) eqn:E; [exact E|]. exfalso.
  assert (Hlt : nlt w v) by now apply nleb_false_nlt.
  assert (count_le w l <= count_lt v l)%nat; [|lia].
  apply filter_length_le. intros x Hx Hxa. eapply nle_nlt_trans; eauto.
Qed.

(* two values of the same rank are numerically equal *)
Lemma order_stat_unique l k v w :
  nan_free l = true -> is_order_stat l k v -> is_order_stat l k w -> neq v w.
Proof. intros Hl Hv Hw. apply nle_antisym; eapply order_stat_mono; eauto. Qed.

Lemma Sorted_nle_strong s : Sorted nle s -> StronglySorted nle s.
Proof. apply Sorted_StronglySorted. intros a b c. apply nle_trans. Qed.

(* in a sorted list the element at index k has rank k *)
Lemma sorted_nth_order_stat s k v :
  nan_free s = true -> Sorted nle s -> nth_error s k = Some v -> is_order_stat s k v.
Proof.
  unfold num in *. intros Hn Hs Hk. apply Sorted_nle_strong in Hs.
  destruct (nth_error_split s k Hk) as (s1 & s2 & -> & Hlen).
  assert (Nv : is_nan v = false).
  { apply (proj1 (nan_free_forall _) Hn). apply in_or_app. right. now left. }
  assert (H1 : forall x, In x s1 -> nle x v).
  { clear Hk Hn Hlen. induction s1 as [|y s1 IH]; intros x Hx; [contradiction|].
    cbn in Hs. inversion Hs as [|? ? Hs' Hall]; subst. destruct Hx as [<-|Hx].
    - rewrite Forall_forall in Hall. apply Hall. apply in_or_app. right. now left.
    - now apply IH. }
  assert (H2 : forall x, In x s2 -> nle v x).
  { clear Hk Hn H1 Hlen. induction s1 as [|y s1 IH]; cbn in Hs.
    - inversion Hs as [|? ? Hs' Hall]; subst. now rewrite Forall_forall in Hall.
    - inversion Hs; subst. now apply IH. }
  unfold is_order_stat, count_lt, count_le.
  set (flt := fun x => nltb x v). set (fle := fun x => nleb x v).
  rewrite !filter_app, !app_length. cbn [filter].
  assert (E1 : fle v = true) by now apply nle_refl.
  assert (E2 : flt v = false).
  { destruct (flt v) eqn:E; [|reflexivity]. exfalso. eapply nlt_not_nle; [exact E|exact E1]. }
  rewrite E1, E2. cbn [length].
  rewrite (filter_length_none flt s2), (filter_length_all fle s1 H1).
  2:{ intros x Hx. destruct (flt x) eqn:F; [|reflexivity]. exfalso.
      eapply nlt_not_nle; [exact F|]. now apply H2. }
  assert (G := filter_length_bound flt s1).
  split; [apply in_or_app; right; now left|lia].
Qed.

(* the minimum has rank 0, the maximum rank n-1 *)
Lemma least_order_stat l m : nan_free l = true ->
  In m l -> (forall x, In x l -> nle m x) -> is_order_stat l 0 m.
Proof.
  intros Hl Hm Hb. assert (Nm := proj1 (nan_free_forall l) Hl m Hm).
  split; [exact Hm|]. unfold count_lt, count_le. split.
  - rewrite filter_length_none; [lia|]. intros x Hx. destruct (nltb x m) eqn:F; [|reflexivity].
    exfalso. eapply nlt_not_nle; [exact F|]. now apply Hb.
  - apply (filter_length_pos _ l m Hm). now apply nle_refl.
Qed.
Lemma greatest_order_stat l m : nan_free l = true ->
  In m l -> (forall x, In x l -> nle x m) -> is_order_stat l (length l - 1) m.
Proof.
  intros Hl Hm Hb. assert (Nm := proj1 (nan_free_forall l) Hl m Hm).
  split; [exact Hm|]. unfold count_lt, count_le. split.
  - assert (length (filter (fun x => nltb x m) l) < length l)%nat; [|lia].
    apply (filter_length_lt _ l m Hm). destruct (nltb m m) eqn:F; [|reflexivity].
    exfalso. eapply nlt_not_nle; [exact F|]. now apply nle_refl.
  - rewrite filter_length_all by exact Hb. unfold num in *. destruct l; [contradiction|cbn [length]; lia].
Qed.

(* ------------------------------------------------------------------ median *)
Lemma index_num_nth s i : 0 <= i < len s ->
  exists v, index_num s i = Ok v /\ nth_error s (Z.to_nat i) = Some v.
Proof.
  intros H. unfold index_num, len in *.
  replace (i <? 0) with false by lia. replace (Z.of_nat (length s) <=? i) with false by lia. cbn.
  destruct (nth_error s (Z.to_nat i)) eqn:E; [eauto|].
  apply nth_error_None in E. lia.
Qed.

(* median of a non-empty NaN-free list: the middle order statistic, or the mean (x + y) / 2.0 of
   the two middle ones *)
Lemma median_order_stat l : l <> [] -> nan_free l = true ->
  let n := length l in
  exists m, bi_median (nums l) = Ok (VNum m) /\ bi_median [VList (nums l)] = Ok (VNum m) /\
    if Nat.even n
    then exists x y, is_order_stat l (n / 2 - 1) x /\ is_order_stat l (n / 2) y /\
                     m = ndiv (nadd x y) n2
    else is_order_stat l (n / 2) m.
Proof.
  intros Hne Hl n.
  destruct (bi_agg_nums AMedian l eq_refl Hne) as [A B]. cbn [bi_agg] in A, B. rewrite A, B.
  cbn [reduce]. replace (has_nan l) with false by (rewrite has_nan_nan_free, Hl; reflexivity).
  destruct (sort_pc_sorts l Hl) as (s & Hs & P & S). rewrite Hs. cbn [obind].
  assert (Hlen : length s = n) by (symmetry; now apply Permutation_length).
  assert (Hns : nan_free s = true) by (eapply nan_free_perm; eauto).
  assert (Hn0 : (0 < n)%nat) by (subst n; destruct l; [contradiction|cbn; lia]).
  unfold len. rewrite Hlen.
  assert (Hev : (Z.of_nat n mod 2 =? 0) = Nat.even n).
  { rewrite <- Nat2Z.inj_mod with (m := 2%nat). change 0 with (Z.of_nat 0).
    destruct (Nat.even n) eqn:E.
    - apply Nat.even_spec in E. destruct E as [q ->].
      rewrite Nat.mul_comm, Nat.mod_mul by lia. reflexivity.
    - rewrite <- Nat.negb_odd in E. apply negb_false_iff, Nat.odd_spec in E. destruct E as [q ->].
      replace ((2 * q + 1) mod 2)%nat with 1%nat; [reflexivity|].
      rewrite Nat.add_comm, Nat.mul_comm, Nat.mod_add by lia. reflexivity. }
  rewrite Hev.
  assert (Hdiv : Z.of_nat n / 2 = Z.of_nat (n / 2)) by (now rewrite (Nat2Z.inj_div n 2)).
  assert (Hhalf : (n / 2 < n)%nat) by (apply Nat.div_lt; lia).
  destruct (Nat.even n) eqn:E.
  - assert (H2 : (1 <= n / 2)%nat).
    { apply Nat.even_spec in E. destruct E as [q Eq]. rewrite Eq, Nat.mul_comm, Nat.div_mul by lia. lia. }
    destruct (index_num_nth s (Z.of_nat n / 2 - 1)) as (x & X1 & X2); [unfold len; lia|].
    destruct (index_num_nth s (Z.of_nat n / 2)) as (y & Y1 & Y2); [unfold len; lia|].
    rewrite X1, Y1. cbn [obind]. eexists; split; [reflexivity|split; [reflexivity|]].
    exists x, y. split; [|split; [|reflexivity]].
    + apply order_stat_perm with (l := s); [now apply Permutation_sym|].
      apply sorted_nth_order_stat; auto. rewrite <- X2. f_equal. lia.
    + apply order_stat_perm with (l := s); [now apply Permutation_sym|].
      apply sorted_nth_order_stat; auto. rewrite <- Y2. f_equal. lia.
  - destruct (index_num_nth s (Z.of_nat n / 2)) as (y & Y1 & Y2); [unfold len; lia|].
    rewrite Y1. cbn [obind]. eexists; split; [reflexivity|split; [reflexivity|]].
    apply order_stat_perm with (l := s); [now apply Permutation_sym|].
    apply sorted_nth_order_stat; auto. rewrite <- Y2. f_equal. lia.
Qed.

(* ------------------------------------------------------------------ permutation invariance *)
(* equal as numbers: the same value (this covers NaN = NaN, the model has one NaN), or == *)
Definition same_num (a b : num) : Prop := a = b \/ neq a b.

Lemma n2_value : n2 = S754_finite false 4503599627370496 (-51).
Proof. vm_compute. reflexivity. Qed.

Lemma neq_refl_or_nan x : same_num x x.
Proof. now left. Qed.

Lemma nadd_compat a a' b b' : neq a a' -> neq b b' -> same_num (nadd a b) (nadd a' b').
Proof.
  intros Ha Hb. destruct (neq_cases _ _ Ha) as [<-|[Za Za']], (neq_cases _ _ Hb) as [<-|[Zb Zb']].
  - now left.
  - destruct b as [sb|?| |? ? ?]; try discriminate. destruct b' as [sb'|?| |? ? ?]; try discriminate.
    destruct a as [sa|sa| |sa ma ea]; try destruct sa; destruct sb, sb'; cbn;
      try (now left); try (right; reflexivity); right; exact Ha.
  - destruct a as [sa|?| |? ? ?]; try discriminate. destruct a' as [sa'|?| |? ? ?]; try discriminate.
    destruct b as [sb|sb| |sb mb eb]; try destruct sb; destruct sa, sa'; cbn;
      try (now left); try (right; reflexivity); right; exact Hb.
  - destruct a as [sa|?| |? ? ?]; try discriminate. destruct a' as [sa'|?| |? ? ?]; try discriminate.
    destruct b as [sb|?| |? ? ?]; try discriminate. destruct b' as [sb'|?| |? ? ?]; try discriminate.
    destruct sa, sa', sb, sb'; cbn; try (now left); right; reflexivity.
Qed.

Lemma ndiv2_compat x x' : same_num x x' -> same_num (ndiv x n2) (ndiv x' n2).
Proof.
  intros [<-|H]; [now left|]. destruct (neq_cases _ _ H) as [<-|[Z Z']]; [now left|].
  destruct x as [s|?| |? ? ?]; try discriminate. destruct x' as [s'|?| |? ? ?]; try discriminate.
  rewrite n2_value. destruct s, s'; cbn; try (now left); right; reflexivity.
Qed.

Lemma least_perm (le : num -> num -> Prop) l l' m m' : Permutation l l' ->
  In m l -> (forall x, In x l -> le m x) -> In m' l' -> (forall x, In x l' -> le m' x) ->
  le m m' /\ le m' m.
Proof.
  intros P B C B' C'. split; [apply C; eapply Permutation_in; [apply Permutation_sym|]|apply C'; eapply Permutation_in]; eauto.
Qed.

Lemma perm_nonempty {A} (l l' : list A) : Permutation l l' -> l <> [] -> l' <> [].
Proof. intros P Hne ->. apply Permutation_sym, Permutation_nil in P. auto. Qed.

Lemma min_perm_invariant l l' : Permutation l l' -> l <> [] -> nan_free l = true ->
  exists m m', bi_min (nums l) = Ok (VNum m) /\ bi_min (nums l') = Ok (VNum m') /\ neq m m'.
Proof.
  intros P Hne Hl.
  destruct (min_bound l Hne Hl) as (m & A & _ & B & C).
  destruct (min_bound l' (perm_nonempty _ _ P Hne) (nan_free_perm _ _ P Hl)) as (m' & A' & _ & B' & C').
  exists m, m'. repeat split; auto.
  destruct (least_perm nle l l' m m' P B C B' C'). now apply nle_antisym.
Qed.
Lemma max_perm_invariant l l' : Permutation l l' -> l <> [] -> nan_free l = true ->
  exists m m', bi_max (nums l) = Ok (VNum m) /\ bi_max (nums l') = Ok (VNum m') /\ neq m m'.
Proof.
  intros P Hne Hl.
  destruct (max_bound l Hne Hl) as (m & A & _ & B & C).
  destruct (max_bound l' (perm_nonempty _ _ P Hne) (nan_free_perm _ _ P Hl)) as (m' & A' & _ & B' & C').
  exists m, m'. repeat split; auto.
  destruct (least_perm (fun a b => nle b a) l l' m m' P B C B' C'). now apply nle_antisym.
Qed.

Lemma median_perm_invariant l l' : Permutation l l' -> l <> [] -> nan_free l = true ->
  exists m m', bi_median (nums l) = Ok (VNum m) /\ bi_median (nums l') = Ok (VNum m') /\
               same_num m m'.
Proof.
  intros P Hne Hl.
  assert (Hne' := perm_nonempty _ _ P Hne).
  assert (Hl' := nan_free_perm _ _ P Hl).
  destruct (median_order_stat l Hne Hl) as (m & A & _ & B).
  destruct (median_order_stat l' Hne' Hl') as (m' & A' & _ & B').
  exists m, m'. split; [exact A|split; [exact A'|]].
  rewrite <- (Permutation_length P) in B'. cbv zeta in B, B'.
  destruct (Nat.even (length l)).
  - destruct B as (x & y & X & Y & ->). destruct B' as (x' & y' & X' & Y' & ->).
    apply ndiv2_compat. apply nadd_compat.
    + eapply order_stat_unique; [exact Hl|exact X|]. eapply order_stat_perm; [apply Permutation_sym|]; eauto.
    + eapply order_stat_unique; [exact Hl|exact Y|]. eapply order_stat_perm; [apply Permutation_sym|]; eauto.
  - right. eapply order_stat_unique; [exact Hl|exact B|].
    eapply order_stat_perm; [apply Permutation_sym|]; eauto.
Qed.
