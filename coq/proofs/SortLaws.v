(* SortLaws.v — laws of the stable merge sort behind sort / sort_by (BuiltinsList.v):
   permutation, sortedness, stability, uniqueness among stable sorts, panic freedom. *)
From Coq Require Import String Ascii List ZArith Bool Lia Permutation Sorted.
Require Import Blots.Num Blots.gen.Builtins Blots.Ast Blots.Value Blots.Outcome Blots.Access Blots.BuiltinsList Blots.proofs.ValueInd Blots.proofs.Order Blots.proofs.ListLaws.
Import ListNotations.
Open Scope list_scope.
Local Open Scope nat_scope.

(* ====================================================================== arithmetic of halves *)
Lemma half_bounds n : 2 <= n -> 1 <= n / 2 /\ n / 2 < n.
Proof.
  intros H. split.
  - apply Nat.div_le_lower_bound; lia.
  - apply Nat.div_lt; lia.
Qed.

Lemma ltb2_false {A} (l : list A) : (length l <? 2) = false -> 2 <= length l.
Proof. intros H. apply Nat.ltb_ge in H. exact H. Qed.

Lemma firstn_half_length {A} (l : list A) f :
  2 <= length l -> length l <= S f -> length (firstn (length l / 2) l) <= f.
Proof.
  intros H2 Hf. rewrite firstn_length. destruct (half_bounds _ H2). lia.
Qed.

Lemma skipn_half_length {A} (l : list A) f :
  2 <= length l -> length l <= S f -> length (skipn (length l / 2) l) <= f.
Proof.
  intros H2 Hf. rewrite skipn_length. destruct (half_bounds _ H2). lia.
Qed.

Lemma filter_commute {A} (f : A -> bool) (b : A) X Y :
  (forall x, In x X -> f x && f b = false) ->
  filter f (X ++ b :: Y) = filter f (b :: X ++ Y).
Proof.
  induction X as [|x X IH]; intros H; [reflexivity|].
  cbn [app filter]. rewrite IH by (intros; apply H; now right).
  cbn [filter]. assert (Hx := H x (or_introl eq_refl)).
  destruct (f x), (f b); cbn in Hx; try reflexivity; discriminate.
Qed.

(* ====================================================================== the generic merge sort *)
Section MergeGeneric.
  Context {A : Type}.
  Variable lt : A -> A -> bool.

  Lemma merge_nil_l r : merge lt [] r = r.
  Proof. destruct r; reflexivity. Qed.

  Lemma merge_nil_r l : merge lt l [] = l.
  Proof. destruct l; reflexivity. Qed.

  Lemma merge_cons a l b r :
    merge lt (a :: l) (b :: r) =
    if lt b a then b :: merge lt (a :: l) r else a :: merge lt l (b :: r).
  Proof. reflexivity. Qed.

  Lemma merge_perm l r : Permutation (l ++ r) (merge lt l r).
  Proof.
    revert r. induction l as [|a l IHl]; intros r.
    - rewrite merge_nil_l. reflexivity.
    - induction r as [|b r IHr].
      + rewrite merge_nil_r, app_nil_r. reflexivity.
      + rewrite merge_cons. destruct (lt b a).
        * etransitivity; [|apply perm_skip, IHr].
          symmetry. apply (Permutation_middle (a :: l) r b).
        * cbn [app]. apply perm_skip. apply IHl.
  Qed.

  Lemma merge_sort_fuel_perm fuel l : Permutation l (merge_sort_fuel lt fuel l).
  Proof.
    revert l. induction fuel as [|f IH]; intros l; cbn [merge_sort_fuel]; [reflexivity|].
    destruct (length l <? 2); [reflexivity|].
    etransitivity; [|apply merge_perm].
    rewrite <- (firstn_skipn (length l / 2) l) at 1.
    apply Permutation_app; apply IH.
  Qed.

  Lemma merge_sort_perm l : Permutation l (merge_sort lt l).
  Proof. apply merge_sort_fuel_perm. Qed.

  Variable P : A -> Prop.
  Hypothesis asym : forall x y, P x -> P y -> lt x y = true -> lt y x = false.
  Hypothesis negtrans : forall x y z, P x -> P y -> P z ->
    lt x y = false -> lt y z = false -> lt x z = false.

  Definition asc (l : list A) := StronglySorted (fun a b => lt b a = false) l.

  Lemma lt_irrefl x : P x -> lt x x = false.
  Proof. intros Hx. destruct (lt x x) eqn:E; [|reflexivity]. now rewrite (asym x x Hx Hx E) in E. Qed.

  (* b < a and not x < a: then b < x *)
  Lemma lt_below b a x : P b -> P a -> P x -> lt b a = true -> lt x a = false -> lt b x = true.
  Proof.
    intros Hb Ha Hx H1 H2. destruct (lt b x) eqn:E; [reflexivity|].
    rewrite (negtrans b x a Hb Hx Ha E H2) in H1. discriminate.
  Qed.

  Lemma asc_small l : length l < 2 -> asc l.
  Proof.
    destruct l as [|x [|y l]]; cbn; intros H; [constructor|repeat constructor|lia].
  Qed.

  Lemma asc_inv a l : asc (a :: l) -> asc l /\ Forall (fun x => lt x a = false) l.
  Proof. intros H. inversion H; subst. split; assumption. Qed.

  Lemma Forall_merge (Q : A -> Prop) l r : Forall Q l -> Forall Q r -> Forall Q (merge lt l r).
  Proof.
    intros Hl Hr. eapply Permutation_Forall; [apply merge_perm|].
    apply Forall_app. split; assumption.
  Qed.

  Lemma merge_sorted l r : Forall P l -> Forall P r -> asc l -> asc r -> asc (merge lt l r).
  Proof.
    revert r. induction l as [|a l IHl]; intros r Pl Pr Sl Sr.
    - now rewrite merge_nil_l.
    - induction r as [|b r IHr].
      + now rewrite merge_nil_r.
      + rewrite merge_cons.
        inversion Pl as [|? ? Pa Pl']; subst. inversion Pr as [|? ? Pb Pr']; subst.
        destruct (asc_inv _ _ Sl) as [Sl' Fl]. destruct (asc_inv _ _ Sr) as [Sr' Fr].
        destruct (lt b a) eqn:E.
        * constructor; [now apply IHr|].
          apply Forall_merge; [|exact Fr].
          assert (Fa : Forall (fun x => P x /\ lt x a = false) (a :: l)).
          { constructor; [split; [assumption|now apply lt_irrefl]|].
            rewrite Forall_forall in *. intros x Hx. split; auto. }
          eapply Forall_impl; [|exact Fa]. cbn beta. intros x [Px Hx].
          apply (asym b x Pb Px). now apply (lt_below b a x).
        * constructor; [now apply IHl|].
          apply Forall_merge; [exact Fl|].
          constructor; [exact E|].
          rewrite Forall_forall in *. intros x Hx.
          apply (negtrans x b a); auto.
  Qed.

  Lemma merge_stable k l r : P k -> Forall P l -> Forall P r -> asc l ->
    filter (equiv lt k) (merge lt l r) = filter (equiv lt k) (l ++ r).
  Proof.
    intros Pk. revert r. induction l as [|a l IHl]; intros r Pl Pr Sl.
    - now rewrite merge_nil_l.
    - induction r as [|b r IHr].
      + now rewrite merge_nil_r, app_nil_r.
      + rewrite merge_cons.
        inversion Pl as [|? ? Pa Pl']; subst. inversion Pr as [|? ? Pb Pr']; subst.
        destruct (asc_inv _ _ Sl) as [Sl' Fl].
        destruct (lt b a) eqn:E.
        * rewrite filter_commute.
          -- cbn [filter]. rewrite (IHr Pr'). reflexivity.
          -- intros x Hx.
             assert (Px : P x) by (rewrite Forall_forall in Pl; now apply Pl).
             assert (Hxa : lt x a = false).
             { destruct Hx as [<-|Hx]; [now apply lt_irrefl|].
               rewrite Forall_forall in Fl. now apply Fl. }
             assert (Hbx := lt_below b a x Pb Pa Px E Hxa).
             unfold equiv.
             destruct (lt k x) eqn:E1; [reflexivity|].
             destruct (lt b k) eqn:E2; [cbn; now rewrite !andb_false_r|].
             rewrite (negtrans b k x Pb Pk Px E2 E1) in Hbx. discriminate.
        * cbn [app filter]. rewrite (IHl (b :: r) Pl' Pr Sl'). reflexivity.
  Qed.

  Lemma Forall_merge_sort_fuel (Q : A -> Prop) fuel l : Forall Q l -> Forall Q (merge_sort_fuel lt fuel l).
  Proof. intros H. eapply Permutation_Forall; [apply merge_sort_fuel_perm|exact H]. Qed.

  Lemma Forall_firstn (Q : A -> Prop) n l : Forall Q l -> Forall Q (firstn n l).
  Proof.
    intros H. rewrite <- (firstn_skipn n l) in H. apply Forall_app in H. tauto.
  Qed.

  Lemma Forall_skipn (Q : A -> Prop) n l : Forall Q l -> Forall Q (skipn n l).
  Proof.
    intros H. rewrite <- (firstn_skipn n l) in H. apply Forall_app in H. tauto.
  Qed.

  Lemma merge_sort_fuel_sorted fuel : forall l, length l <= fuel -> Forall P l ->
    asc (merge_sort_fuel lt fuel l).
  Proof.
    induction fuel as [|f IH]; intros l Hlen Pl; cbn [merge_sort_fuel].
    - apply asc_small. lia.
    - destruct (length l <? 2) eqn:E.
      + apply asc_small. now apply Nat.ltb_lt.
      + apply ltb2_false in E.
        apply merge_sorted.
        * apply Forall_merge_sort_fuel. now apply Forall_firstn.
        * apply Forall_merge_sort_fuel. now apply Forall_skipn.
        * apply IH; [now apply firstn_half_length|now apply Forall_firstn].
        * apply IH; [now apply skipn_half_length|now apply Forall_skipn].
  Qed.

  Lemma merge_sort_sorted l : Forall P l -> asc (merge_sort lt l).
  Proof. intros H. apply merge_sort_fuel_sorted; [lia|exact H]. Qed.

  Lemma merge_sort_fuel_stable k fuel : P k -> forall l, length l <= fuel -> Forall P l ->
    filter (equiv lt k) (merge_sort_fuel lt fuel l) = filter (equiv lt k) l.
  Proof.
    intros Pk. induction fuel as [|f IH]; intros l Hlen Pl; cbn [merge_sort_fuel]; [reflexivity|].
    destruct (length l <? 2) eqn:E; [reflexivity|].
    apply ltb2_false in E.
    rewrite merge_stable.
    - rewrite filter_app.
      rewrite IH by first [now apply firstn_half_length|now apply Forall_firstn].
      rewrite IH by first [now apply skipn_half_length|now apply Forall_skipn].
      rewrite <- filter_app. now rewrite firstn_skipn.
    - exact Pk.
    - apply Forall_merge_sort_fuel. now apply Forall_firstn.
    - apply Forall_merge_sort_fuel. now apply Forall_skipn.
    - apply merge_sort_fuel_sorted; [now apply firstn_half_length|now apply Forall_firstn].
  Qed.

  Lemma merge_sort_stable k l : P k -> Forall P l ->
    filter (equiv lt k) (merge_sort lt l) = filter (equiv lt k) l.
  Proof. intros Pk H. apply merge_sort_fuel_stable; [exact Pk|lia|exact H]. Qed.
End MergeGeneric.

(* ====================================================================== sorting values by a key
   ([sort] is the case of the identity key) *)
Lemma SS_impl_in {A} (R R' : A -> A -> Prop) l :
  (forall a b, In a l -> In b l -> R a b -> R' a b) ->
  StronglySorted R l -> StronglySorted R' l.
Proof.
  induction l as [|x l IH]; intros H S; [constructor|].
  inversion S as [|? ? S' F]; subst. constructor.
  - apply IH; [|exact S']. intros a b Ha Hb. apply H; now right.
  - rewrite Forall_forall in *. intros y Hy. apply H; [now left|now right|now apply F].
Qed.

Lemma Forall_In_self {A} (l : list A) : Forall (fun x => In x l) l.
Proof. apply Forall_forall. auto. Qed.

Section KeyedSort.
  Variable key : value -> value.
  Variable l : list value.
  Hypothesis Hmc : mutually_comparable (map key l) = true.
  Notation kless := (fun a b => value_less (key a) (key b)).

  Lemma kless_asym x y : In x l -> In y l -> kless x y = true -> kless y x = false.
  Proof. intros Hx Hy. apply (vl_asym (map key l)); now apply in_map. Qed.

  Lemma kless_negtrans x y z : In x l -> In y l -> In z l ->
    kless x y = false -> kless y z = false -> kless x z = false.
  Proof. intros Hx Hy Hz. apply (vl_negtrans (map key l) Hmc); now apply in_map. Qed.

  Lemma In_sorted x : In x (merge_sort kless l) -> In x l.
  Proof. apply Permutation_in. symmetry. apply merge_sort_perm. Qed.

  Lemma keyed_sort_asc : StronglySorted (fun a b => kless b a = false) (merge_sort kless l).
  Proof.
    apply (merge_sort_sorted kless (fun x => In x l) kless_asym kless_negtrans), Forall_In_self.
  Qed.

  Lemma keyed_sort_sorted :
    StronglySorted (fun a b => ulte (key a) (key b) = true) (merge_sort kless l).
  Proof.
    eapply SS_impl_in; [|exact keyed_sort_asc]. intros a b Ha Hb.
    apply (vl_not_less_ulte (map key l) Hmc); apply in_map; now apply In_sorted.
  Qed.

  Lemma keyed_sort_equiv_stable k : In k l ->
    filter (equiv kless k) (merge_sort kless l) = filter (equiv kless k) l.
  Proof.
    intros Hk. apply (merge_sort_stable kless (fun x => In x l) kless_asym kless_negtrans);
      [exact Hk|apply Forall_In_self].
  Qed.

  Lemma keyed_sort_stable k : In k l ->
    filter (fun x => same_class (key k) (key x)) (merge_sort kless l) =
    filter (fun x => same_class (key k) (key x)) l.
  Proof.
    intros Hk.
    assert (Hc : forall x, In x l -> equiv kless k x = same_class (key k) (key x)).
    { intros x Hx. apply (vl_equiv_ceq (map key l) Hmc (key k) (key x)); now apply in_map. }
    rewrite <- (filter_ext_in (equiv kless k) _ (merge_sort kless l)) by (intros x Hx; now apply Hc, In_sorted).
    rewrite <- (filter_ext_in (equiv kless k) _ l) by exact Hc.
    now apply keyed_sort_equiv_stable.
  Qed.
End KeyedSort.

(* ====================================================================== sort on values *)
Lemma sort_ok l : bi_sort [VList l] = Ok (VList (merge_sort value_less l)).
Proof. reflexivity. Qed.

Lemma sort_perm l : exists l', bi_sort [VList l] = Ok (VList l') /\ Permutation l l'.
Proof. eexists. split; [apply sort_ok|apply merge_sort_perm]. Qed.

Lemma mc_id l : mutually_comparable l = true -> mutually_comparable (map (fun x => x) l) = true.
Proof. now rewrite map_id. Qed.

Lemma sort_sorted l : mutually_comparable l = true ->
  exists l', bi_sort [VList l] = Ok (VList l') /\ StronglySorted (fun a b => ulte a b = true) l'.
Proof.
  intros Hmc. eexists. split; [apply sort_ok|]. exact (keyed_sort_sorted (fun x => x) l (mc_id l Hmc)).
Qed.

Lemma sort_stable l : mutually_comparable l = true ->
  exists l', bi_sort [VList l] = Ok (VList l') /\
             forall k, In k l -> filter (same_class k) l' = filter (same_class k) l.
Proof.
  intros Hmc. eexists. split; [apply sort_ok|]. exact (keyed_sort_stable (fun x => x) l (mc_id l Hmc)).
Qed.

Lemma sort_any_stable_sort l l' :
  mutually_comparable l = true -> Permutation l l' ->
  StronglySorted (fun a b => value_less b a = false) l' ->
  (forall k, In k l -> filter (equiv value_less k) l' = filter (equiv value_less k) l) ->
  bi_sort [VList l] = Ok (VList l').
Proof.
  intros Hmc Hp Hs Hst. rewrite sort_ok. do 2 f_equal.
  apply (sorted_stable_unique value_less (fun x => In x l)).
  - intros x. apply (vl_irrefl l).
  - apply Forall_forall. intros x Hx.
    eapply Permutation_in; [symmetry; apply merge_sort_perm|exact Hx].
  - apply Forall_forall. intros x Hx.
    eapply Permutation_in; [symmetry; exact Hp|exact Hx].
  - exact (keyed_sort_asc (fun x => x) l (mc_id l Hmc)).
  - exact Hs.
  - intros k Hk. rewrite (Hst k Hk). exact (keyed_sort_equiv_stable (fun x => x) l (mc_id l Hmc) k Hk).
Qed.

Lemma sort_never_panics v : bi_sort [v] = Err \/ exists l', bi_sort [v] = Ok (VList l').
Proof.
  unfold bi_sort. cbn [arg nth_error obind].
  destruct v; cbn [as_list obind]; try (left; reflexivity).
  right. eexists. reflexivity.
Qed.

(* ====================================================================== sort_by *)
Section SortBy.
  Variable St : Type.
  Variable call : value -> value -> list value -> St -> outcome value * St.

  Lemma merge_by_nil_l func r st : merge_by St call func [] r st = (Ok r, st).
  Proof. destruct r; reflexivity. Qed.

  Lemma merge_by_nil_r func l st : merge_by St call func l [] st = (Ok l, st).
  Proof. destruct l; reflexivity. Qed.

  Lemma merge_by_cons func a l b r st :
    merge_by St call func (a :: l) (b :: r) st =
    let '(c, st1) := sort_by_cmp St call func b a st in
    match c with
    | Ok Lt => let '(res, st2) := merge_by St call func (a :: l) r st1 in (omap (cons b) res, st2)
    | Ok _ => let '(res, st2) := merge_by St call func l (b :: r) st1 in (omap (cons a) res, st2)
    | Err => (Err, st1) | ErrDepth => (ErrDepth, st1)
    | Panic => (Panic, st1) | Unmodelled => (Unmodelled, st1)
    end.
  Proof. reflexivity. Qed.

  Lemma merge_by_perm func l : forall r st m st',
    merge_by St call func l r st = (Ok m, st') -> Permutation (l ++ r) m.
  Proof.
    induction l as [|a l IHl]; intros r st m st' H.
    - rewrite merge_by_nil_l in H. injection H as <- _. reflexivity.
    - revert st m st' H. induction r as [|b r IHr]; intros st m st' H.
      + rewrite merge_by_nil_r in H. injection H as <- _. now rewrite app_nil_r.
      + rewrite merge_by_cons in H.
        destruct (sort_by_cmp St call func b a st) as [c st1].
        destruct c as [[| |]| | | |]; try discriminate.
        2:{ (* b < a: b first *)
            destruct (merge_by St call func (a :: l) r st1) as [res st2] eqn:E.
            destruct res as [m'| | | |]; cbn in H; try discriminate.
            injection H as <- _.
            etransitivity; [|apply perm_skip; eapply IHr; exact E].
            symmetry. apply (Permutation_middle (a :: l) r b). }
        all: destruct (merge_by St call func l (b :: r) st1) as [res st2] eqn:E;
          destruct res as [m'| | | |]; cbn in H; try discriminate;
          injection H as <- _; cbn [app]; apply perm_skip; eapply IHl; exact E.
  Qed.

  Lemma merge_sort_by_fuel_perm func fuel : forall l st m st',
    merge_sort_by_fuel St call fuel func l st = (Ok m, st') -> Permutation l m.
  Proof.
    induction fuel as [|f IH]; intros l st m st' H; cbn [merge_sort_by_fuel] in H.
    - injection H as <- _. reflexivity.
    - destruct (length l <? 2).
      + injection H as <- _. reflexivity.
      + destruct (merge_sort_by_fuel St call f func (firstn (length l / 2) l) st)
          as [sl st1] eqn:E1.
        destruct sl as [left'| | | |]; try discriminate.
        destruct (merge_sort_by_fuel St call f func (skipn (length l / 2) l) st1)
          as [sr st2] eqn:E2.
        destruct sr as [right'| | | |]; try discriminate.
        apply merge_by_perm in H. apply IH in E1. apply IH in E2.
        rewrite <- (firstn_skipn (length l / 2) l).
        etransitivity; [|exact H]. now apply Permutation_app.
  Qed.

  Lemma sort_by_perm func l st r st' :
    bi_sort_by St call [VList l; func] st = (Ok r, st') -> exists l', r = VList l' /\ Permutation l l'.
  Proof.
    unfold bi_sort_by. cbn [arg nth_error obind as_list]. unfold sort_by_list.
    destruct (merge_sort_by_fuel St call (length l) func l st) as [res st1] eqn:E.
    destruct res as [m| | | |]; cbn [omap obind]; intros H; try discriminate.
    injection H as <- _. exists m. split; [reflexivity|].
    eapply merge_sort_by_fuel_perm; exact E.
  Qed.

  Variable func : value.
  Variable key : value -> value.
  Hypothesis Hfun : is_function func = true.
  Hypothesis Hkey : forall x st, fst (call func func [x] st) = Ok (key x).

  Let key_less := fun a b => value_less (key a) (key b).

  Lemma sort_by_cmp_key a b st :
    fst (sort_by_cmp St call func a b st) = Ok (cmp_or_eq (key a) (key b)).
  Proof.
    unfold sort_by_cmp. rewrite Hfun.
    assert (Ha := Hkey a st).
    destruct (call func func [a] st) as [ra st1]. cbn [fst] in Ha. subst ra.
    assert (Hb := Hkey b st1).
    destruct (call func func [b] st1) as [rb st2]. cbn [fst] in Hb. subst rb.
    reflexivity.
  Qed.

  Lemma merge_by_key l : forall r st,
    fst (merge_by St call func l r st) = Ok (merge key_less l r).
  Proof.
    induction l as [|a l IHl]; intros r st.
    - now rewrite merge_by_nil_l, merge_nil_l.
    - revert st. induction r as [|b r IHr]; intros st.
      + now rewrite merge_by_nil_r, merge_nil_r.
      + rewrite merge_by_cons, merge_cons.
        assert (Hc := sort_by_cmp_key b a st).
        destruct (sort_by_cmp St call func b a st) as [c st1]. cbn [fst] in Hc. subst c.
        unfold key_less at 1. unfold value_less.
        destruct (cmp_or_eq (key b) (key a)); cbn [is_Lt].
        2:{ specialize (IHr st1).
            destruct (merge_by St call func (a :: l) r st1) as [res st2]. cbn [fst] in IHr. subst res.
            reflexivity. }
        all: specialize (IHl (b :: r) st1);
          destruct (merge_by St call func l (b :: r) st1) as [res st2]; cbn [fst] in IHl; subst res;
          reflexivity.
  Qed.

  Lemma merge_sort_by_fuel_key fuel : forall l st,
    fst (merge_sort_by_fuel St call fuel func l st) = Ok (merge_sort_fuel key_less fuel l).
  Proof.
    induction fuel as [|f IH]; intros l st; cbn [merge_sort_by_fuel merge_sort_fuel]; [reflexivity|].
    destruct (length l <? 2); [reflexivity|].
    assert (H1 := IH (firstn (length l / 2) l) st).
    destruct (merge_sort_by_fuel St call f func (firstn (length l / 2) l) st) as [sl st1].
    cbn [fst] in H1. subst sl.
    assert (H2 := IH (skipn (length l / 2) l) st1).
    destruct (merge_sort_by_fuel St call f func (skipn (length l / 2) l) st1) as [sr st2].
    cbn [fst] in H2. subst sr.
    apply merge_by_key.
  Qed.

  Lemma sort_by_key l st :
    fst (bi_sort_by St call [VList l; func] st) =
    Ok (VList (merge_sort (fun a b => value_less (key a) (key b)) l)).
  Proof.
    unfold bi_sort_by. cbn [arg nth_error obind as_list]. unfold sort_by_list.
    assert (H := merge_sort_by_fuel_key (length l) l st).
    destruct (merge_sort_by_fuel St call (length l) func l st) as [res st1].
    cbn [fst] in H. subst res. reflexivity.
  Qed.

  Lemma sort_by_sorted l st : mutually_comparable (map key l) = true ->
    exists l', fst (bi_sort_by St call [VList l; func] st) = Ok (VList l') /\
               StronglySorted (fun a b => ulte (key a) (key b) = true) l'.
  Proof. intros Hmc. eexists. split; [apply sort_by_key|]. exact (keyed_sort_sorted key l Hmc). Qed.

  Lemma sort_by_stable l st : mutually_comparable (map key l) = true ->
    exists l', fst (bi_sort_by St call [VList l; func] st) = Ok (VList l') /\
               forall k, In k l ->
                 filter (fun x => same_class (key k) (key x)) l' =
                 filter (fun x => same_class (key k) (key x)) l.
  Proof. intros Hmc. eexists. split; [apply sort_by_key|]. exact (keyed_sort_stable key l Hmc). Qed.
End SortBy.
