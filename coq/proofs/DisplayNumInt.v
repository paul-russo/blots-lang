(* DisplayNumInt.v — C20: integer digits and the numeric side facts.
   - nat_digits / int_to_text produce the decimal digits of the integer (value-exact)
   - valid doubles below 2^53 that are integral convert to i64 exactly
   - num_to_Q: the rational a double denotes. *)
From Coq Require Import ZArith Bool String Ascii List Lia QArith Qpower Floats.SpecFloat.
Require Import Blots.Num Blots.Outcome Blots.DisplayNum.
Require Import Blots.proofs.DisplayNumGroup Blots.proofs.DisplayNumSpec Blots.proofs.DisplayNumText.
Import ListNotations.
Open Scope char_scope.
Open Scope Z_scope.

(* ---------- digits ---------- *)
Lemma digit_char_val : forall d, 0 <= d < 10 ->
  digit_val (digit_char d) = d /\ is_digit (digit_char d) = true.
Proof.
  intros d H.
  assert (C : d = 0 \/ d = 1 \/ d = 2 \/ d = 3 \/ d = 4 \/ d = 5 \/ d = 6 \/ d = 7 \/ d = 8 \/ d = 9) by lia.
  repeat (destruct C as [C|C]; [subst; split; reflexivity|]). subst; split; reflexivity.
Qed.

Lemma div_eucl_10 : forall n q r, Z.div_eucl n 10 = (q, r) -> n = 10 * q + r /\ 0 <= r < 10.
Proof.
  intros n q r E. pose proof (Z_div_mod n 10 ltac:(lia)) as H. rewrite E in H. exact H.
Qed.

(* the digits produced denote n; no leading zero: 10^(length - 1) <= n *)
Lemma digits_fuel_spec : forall fuel n acc,
  0 <= n < 10 ^ Z.of_nat (S fuel) ->
  exists ds, digits_fuel fuel n acc = ds ++ acc /\ ds <> [] /\
             forallb is_digit ds = true /\ digits_value ds = n /\
             (0 < n -> pow10 (length ds) <= 10 * n).
Proof.
  induction fuel as [|f IH]; intros n acc H; cbn [digits_fuel];
    destruct (Z.div_eucl n 10) as [q r] eqn:E; destruct (div_eucl_10 _ _ _ E) as [Hn Hr];
    destruct (digit_char_val r Hr) as [Hv Hd].
  - exists [digit_char r]. repeat split; try congruence.
    + cbn. now rewrite Hd.
    + unfold digits_value. cbn. rewrite Hv. change (10 ^ Z.of_nat 1) with 10 in H. lia.
    + change (pow10 (length [digit_char r])) with 10. lia.
  - destruct (q =? 0) eqn:Q.
    + exists [digit_char r]. apply Z.eqb_eq in Q. repeat split; try congruence.
      * cbn. now rewrite Hd.
      * unfold digits_value. cbn. rewrite Hv. lia.
      * change (pow10 (length [digit_char r])) with 10. lia.
    + apply Z.eqb_neq in Q.
      assert (Hq : 0 <= q < 10 ^ Z.of_nat (S f)).
      { rewrite (Nat2Z.inj_succ (S f)), Z.pow_succ_r in H by lia. lia. }
      destruct (IH q (digit_char r :: acc) Hq) as (ds & E1 & Hne & Hall & Hval & Hlen).
      exists (ds ++ [digit_char r]). repeat split.
      * rewrite E1. now rewrite <- app_assoc.
      * destruct ds; discriminate.
      * rewrite forallb_app, Hall. cbn. now rewrite Hd.
      * rewrite digits_value_app, Hval. unfold digits_value at 1, pow10. cbn. rewrite Hv. lia.
      * intros _. rewrite app_length. cbn [length]. rewrite Nat.add_1_r, pow10_S. lia.
Qed.

Lemma nat_digits_full : forall n, 0 <= n ->
  all_digits (nat_digits n) = true /\ digits_value (nat_digits n) = n /\
  (0 < n -> pow10 (length (nat_digits n)) <= 10 * n).
Proof.
  intros n Hn. unfold nat_digits.
  assert (B : 0 <= n < 10 ^ Z.of_nat (S (Z.to_nat (Z.log2 n)))).
  { split; [exact Hn|]. rewrite Nat2Z.inj_succ, Z2Nat.id by apply Z.log2_nonneg.
    destruct (Z.eq_dec n 0) as [->|Hz]; [reflexivity|].
    destruct (Z.log2_spec n ltac:(lia)) as [_ Hu].
    eapply Z.lt_le_trans; [exact Hu|].
    apply Z.pow_le_mono_l. lia. }
  destruct (digits_fuel_spec _ n [] B) as (ds & E & Hne & Hall & Hval & Hlen).
  rewrite app_nil_r in E. rewrite E. split; [now apply all_digits_intro|now split].
Qed.

Lemma nat_digits_spec : forall n, 0 <= n ->
  all_digits (nat_digits n) = true /\ digits_value (nat_digits n) = n.
Proof. intros n Hn. destruct (nat_digits_full n Hn) as (A & V & _). now split. Qed.

Lemma int_to_text_nonneg : forall v, 0 <= v -> int_to_text v = nat_digits v.
Proof. intros v H. unfold int_to_text. destruct (v <? 0) eqn:E; [apply Z.ltb_lt in E; lia|reflexivity]. Qed.

(* i32 / i64 Display:  -? d+ , denoting the integer *)
Lemma int_to_text_spec : forall v, wf_exponent (int_to_text v) = true /\ int_value (int_to_text v) = v.
Proof.
  intros v. unfold int_to_text, wf_exponent, int_value, strip_sign.
  destruct (v <? 0) eqn:E.
  - apply Z.ltb_lt in E. destruct (nat_digits_spec (- v) ltac:(lia)) as [Ha Hv].
    cbn [starts_with tl]. change (Ascii.eqb "-" "-") with true. cbn iota. rewrite Hv. split; [exact Ha|lia].
  - apply Z.ltb_ge in E. destruct (nat_digits_spec v E) as [Ha Hv].
    rewrite (starts_with_digits "-" _ eq_refl Ha). split; assumption.
Qed.

(* ---------- the rational a double denotes ---------- *)
Definition num_to_Q (x : num) : Q :=
  match x with
  | S754_finite s m e => inject_Z (cond_Zopp s (Zpos m)) * Qpower (2 # 1) e
  | _ => 0
  end.

Lemma Qpower2_nonneg : forall e, 0 <= e -> (Qpower (2 # 1) e == inject_Z (2 ^ e))%Q.
Proof. intros e H. rewrite Zpower_Qpower by exact H. reflexivity. Qed.

Lemma Qpower2_neg : forall d, 0 < d -> (inject_Z (2 ^ d) * Qpower (2 # 1) (- d) == 1)%Q.
Proof.
  intros d H. rewrite Qpower_opp. rewrite <- Qpower2_nonneg by lia.
  apply Qmult_inv_r. rewrite Qpower2_nonneg by lia.
  unfold Qeq, inject_Z. cbn. pose proof (Z.pow_pos_nonneg 2 d ltac:(lia) ltac:(lia)). lia.
Qed.

(* an integral finite double denotes its integer part *)
Lemma integral_value : forall s m e q d,
  split_int m e = (q, 0, d) -> (num_to_Q (S754_finite s m e) == inject_Z (cond_Zopp s q))%Q.
Proof.
  intros s m e q d H. unfold split_int in H. unfold num_to_Q.
  destruct (0 <=? e) eqn:E.
  - apply Z.leb_le in E. injection H as <- _. rewrite Qpower2_nonneg by exact E.
    rewrite <- inject_Z_mult.
    assert (C : cond_Zopp s (Zpos m) * 2 ^ e = cond_Zopp s (Zpos m * 2 ^ e)) by (destruct s; unfold cond_Zopp; ring).
    rewrite C. reflexivity.
  - apply Z.leb_gt in E. injection H as Hq Hr _.
    assert (Hm : Zpos m = q * 2 ^ (- e)).
    { pose proof (Z.div_mod (Zpos m) (2 ^ (- e))) as D.
      assert (2 ^ (- e) <> 0) by (pose proof (Z.pow_pos_nonneg 2 (- e) ltac:(lia) ltac:(lia)); lia).
      specialize (D H). rewrite Hq, Hr in D. lia. }
    rewrite Hm. replace e with (- (- e)) at 2 by lia.
    assert (C : cond_Zopp s (q * 2 ^ (- e)) = cond_Zopp s q * 2 ^ (- e)) by (destruct s; unfold cond_Zopp; ring).
    rewrite C, inject_Z_mult, <- Qmult_assoc, Qpower2_neg by lia. ring.
Qed.

(* ---------- sizes of valid doubles ---------- *)
Lemma digits2_pos_bound : forall m, Zpos m < 2 ^ Zpos (digits2_pos m).
Proof.
  induction m as [m IH|m IH|]; cbn [digits2_pos].
  - rewrite Pos2Z.inj_succ, Z.pow_succ_r by lia. lia.
  - rewrite Pos2Z.inj_succ, Z.pow_succ_r by lia. lia.
  - reflexivity.
Qed.

Lemma valid_mantissa_bound : forall m e, bounded prec emax m e = true -> Zpos m < 2 ^ 53.
Proof.
  intros m e H. unfold bounded in H. apply andb_true_iff in H. destruct H as [H _].
  unfold canonical_mantissa in H. apply Zeq_bool_eq in H.
  unfold fexp, SpecFloat.emin, prec, emax in H.
  assert (D : Zpos (digits2_pos m) <= 53) by lia.
  eapply Z.lt_le_trans; [apply digits2_pos_bound|].
  apply Z.pow_le_mono_r; lia.
Qed.

Lemma split_int_bounds : forall m e q r d, split_int m e = (q, r, d) ->
  0 <= q /\ (e <= 0 -> q <= Zpos m) /\ (r = 0 -> 0 < q).
Proof.
  intros m e q r d H. unfold split_int in H. destruct (0 <=? e) eqn:E.
  - apply Z.leb_le in E. apply pair_equal_spec in H. destruct H as [H _].
    apply pair_equal_spec in H. destruct H as [Hq Hr]. subst q r.
    pose proof (Z.pow_pos_nonneg 2 e ltac:(lia) E).
    repeat split.
    + apply Z.mul_nonneg_nonneg; lia.
    + intros. assert (e = 0) by lia. subst e. rewrite Z.pow_0_r. lia.
    + intros. apply Z.mul_pos_pos; lia.
  - apply Z.leb_gt in E. injection H as Hq Hr _.
    pose proof (Z.pow_pos_nonneg 2 (- e) ltac:(lia) ltac:(lia)) as P.
    pose proof (Z.div_mod (Zpos m) (2 ^ (- e)) ltac:(lia)) as D. rewrite Hq, Hr in D.
    pose proof (Z.mod_pos_bound (Zpos m) (2 ^ (- e)) P) as B. rewrite Hr in B.
    assert (0 <= q) by (rewrite <- Hq; apply Z.div_pos; lia).
    repeat split; try assumption; try nia.
Qed.

(* |x| < 1e15 *)
Lemma lt_1e15_exp : forall m e, nltb (S754_finite false m e) c_1e15 = true -> e <= -3.
Proof.
  intros m e H. unfold nltb, SFltb, SFcompare, c_1e15 in H.
  destruct (Z.compare_spec e (-3)); try lia; try discriminate.
Qed.
(* |x| < 2^53 *)
Lemma lt_2p53_exp : forall m e, nltb (S754_finite false m e) c_2p53 = true ->
  e <= 0 \/ (e = 1 /\ Zpos m < 2 ^ 52).
Proof.
  intros m e H. unfold nltb, SFltb, SFcompare, c_2p53 in H.
  destruct (Z.compare_spec e 1); try lia; try discriminate.
  right. split; [assumption|].
  destruct (Pos.compare_cont Eq m 4503599627370496) eqn:C; try discriminate.
  assert (C' : (m ?= 4503599627370496)%positive = Lt) by exact C.
  apply Pos.compare_lt_iff in C'. apply Pos2Z.pos_lt_pos in C'.
  replace (2 ^ 52) with 4503599627370496 by (vm_compute; reflexivity). exact C'.
Qed.
Lemma exp_lt_2p53 : forall m e, e <= -3 -> nltb (S754_finite false m e) c_2p53 = true.
Proof.
  intros m e H. unfold nltb, SFltb, SFcompare, c_2p53.
  destruct (Z.compare_spec e 1); try lia; try reflexivity.
Qed.

(* `value as i64` of a valid integral double below 2^53 *)
Lemma as_i64_small : forall s m e q r d,
  bounded prec emax m e = true ->
  nltb (S754_finite false m e) c_2p53 = true ->
  split_int m e = (q, r, d) ->
  as_i64 (S754_finite s m e) = cond_Zopp s q /\ 0 <= q < 2 ^ 53.
Proof.
  intros s m e q r d Hv Hlt Hs.
  pose proof (valid_mantissa_bound m e Hv) as Hm.
  destruct (split_int_bounds m e q r d Hs) as (Hq0 & Hqm & _).
  assert (Hq : q < 2 ^ 53).
  { destruct (lt_2p53_exp m e Hlt) as [He|[He Hm52]].
    - specialize (Hqm He). lia.
    - subst e. unfold split_int in Hs. cbn in Hs. injection Hs as <- _ _.
      change (2 ^ 53) with (2 ^ 52 * 2). lia. }
  split; [|lia].
  unfold as_i64, cast_int, Z_of_num_trunc. rewrite Hs.
  change (if s then - q else q) with (cond_Zopp s q). unfold clamp, I64_MIN, I64_MAX.
  destruct (Z.ltb_spec (cond_Zopp s q) (- 2 ^ 63)), (Z.ltb_spec (2 ^ 63 - 1) (cond_Zopp s q));
    destruct s; cbn [cond_Zopp] in *; lia.
Qed.
