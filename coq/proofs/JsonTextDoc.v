(* JsonTextDoc.v — property C06, text level, whole documents: the parser reads back every
   document the printer writes (arrays, objects, keys, any member order, duplicate keys kept in
   text order), up to serde_json's recursion limit, as soon as it reads back the numbers in it:
   Section Doc is over a class [okn] of numbers whose printed token is read back; the class given
   by the two library hypotheses on finite doubles follows. *)
From Coq Require Import String Ascii List ZArith Bool Lia.
Require Import ZifyBool ZifyNat.
Require Import Blots.Num Blots.Json Blots.JsonText Blots.JsonWf Blots.proofs.StringFacts Blots.proofs.JsonTextRT.
Require Blots.proofs.JsonRT.
Import ListNotations.
Open Scope Z_scope.

Fixpoint jsize (j : json) : nat :=
  match j with
  | JArr l => S (fold_right (fun x acc => (jsize x + acc)%nat) O l)
  | JObj m => S (fold_right (fun kv acc => (jsize (snd kv) + acc)%nat) O m)
  | _ => 1%nat
  end.

(* first character of a printed value: one of n t f quote [ { - 0-9 *)
Definition value_start (c : ascii) : bool :=
  let n := byte c in
  (n =? 110) || (n =? 116) || (n =? 102) || (n =? 34) || (n =? 91) || (n =? 123) || (n =? 45) || is_digit c.
Lemma value_start_facts c : value_start c = true ->
  is_ws c = false /\ byte c <> 93 /\ byte c <> 125 /\ byte c <> 44 /\ byte c <> 58.
Proof.
  unfold value_start, is_ws, is_digit. intros H. repeat split; lia.
Qed.
Lemma skip_ws_start c r : is_ws c = false -> skip_ws (String c r) = String c r.
Proof. intros H. cbn. now rewrite H. Qed.

(* sums and maxima of a measure over a list *)
Lemma fold_sum_ge_length {A} (f : A -> nat) l :
  (forall x, (1 <= f x)%nat) -> (length l <= fold_right (fun x acc => f x + acc) 0 l)%nat.
Proof. intros Hf. induction l as [|x l IH]; cbn; [lia|]. specialize (Hf x). lia. Qed.
Lemma fold_sum_in {A} (f : A -> nat) l y : In y l -> (f y <= fold_right (fun x acc => f x + acc) 0 l)%nat.
Proof. induction l as [|z t IH]; cbn; [tauto|]. intros [->|H]; [lia|]. specialize (IH H). lia. Qed.
Lemma fold_max_in {A} (f : A -> nat) l y : In y l -> (f y <= fold_right (fun x acc => Nat.max (f x) acc) 0 l)%nat.
Proof. induction l as [|z t IH]; cbn; [tauto|]. intros [->|H]; [lia|]. specialize (IH H). lia. Qed.
Lemma fold_max_le {A} (f : A -> nat) l n :
  Forall (fun x => (f x <= n)%nat) l -> (fold_right (fun x acc => Nat.max (f x) acc) 0 l <= n)%nat.
Proof. induction 1; cbn; lia. Qed.
Lemma jsize_pos j : (1 <= jsize j)%nat.
Proof. destruct j; cbn; lia. Qed.

Section Doc.
  Variable fmt_pieces : num -> numtok.
  Variable float_of_tok : numtok -> option num.
  Variable okn : jnumber -> bool.
  Hypothesis H_tok_wf : forall n, okn n = true -> tok_wf (tok_of_jnumber fmt_pieces n) = true.
  Hypothesis H_number : forall n rest, okn n = true -> no_cont rest = true ->
    parse_number float_of_tok (render_tok (tok_of_jnumber fmt_pieces n) ++ rest) = Some (n, rest).
  Notation jprint := (JsonText.jprint fmt_pieces).
  Notation parse_value := (JsonText.parse_value float_of_tok).

  (* ---------------------------------------------------------------- named inner loops *)
  Definition jitems := fix items (l : list json) : string :=
    match l with
    | [] => ""
    | [x] => jprint x
    | x :: r => jprint x ++ "," ++ items r
    end%string.
  Definition jmembers := fix members (m : list (string * json)) : string :=
    match m with
    | [] => ""
    | [(k, x)] => print_str k ++ ":" ++ jprint x
    | (k, x) :: r => print_str k ++ ":" ++ jprint x ++ "," ++ members r
    end%string.
  Lemma jprint_arr l : jprint (JArr l) = ("[" ++ jitems l ++ "]")%string.
  Proof. reflexivity. Qed.
  Lemma jprint_obj m : jprint (JObj m) = ("{" ++ jmembers m ++ "}")%string.
  Proof. reflexivity. Qed.

  Definition elems_of (pv : string -> option (json * string)) :=
    fix elems (k : nat) (s : string) : option (json * string) :=
      match k with
      | O => None
      | S k' =>
          match pv s with
          | None => None
          | Some (x, r1) =>
              let r1 := skip_ws r1 in
              if byte (ch r1) =? 44 then
                match elems k' (drop 1 r1) with
                | Some (JArr xs, r2) => Some (JArr (x :: xs), r2)
                | _ => None
                end
              else if byte (ch r1) =? 93 then Some (JArr [x], drop 1 r1)
              else None
          end
      end.
  Definition members_of (pv : string -> option (json * string)) :=
    fix members (k : nat) (s : string) : option (json * string) :=
      match k with
      | O => None
      | S k' =>
          let s := skip_ws s in
          if byte (ch s) =? 34 then
            match parse_str (drop 1 s) with
            | None => None
            | Some (key, r1) =>
                let r1 := skip_ws r1 in
                if byte (ch r1) =? 58 then
                  match pv (drop 1 r1) with
                  | None => None
                  | Some (x, r2) =>
                      let r2 := skip_ws r2 in
                      if byte (ch r2) =? 44 then
                        match members k' (drop 1 r2) with
                        | Some (JObj xs, r3) => Some (JObj ((key, x) :: xs), r3)
                        | _ => None
                        end
                      else if byte (ch r2) =? 125 then Some (JObj [(key, x)], drop 1 r2)
                      else None
                  end
                else None
            end
          else None
      end.

  Lemma parse_value_arr f rd' r :
    parse_value (S f) (S (S rd')) (String "[" r) =
    let r0 := skip_ws r in
    if byte (ch r0) =? 93 then Some (JArr [], drop 1 r0)
    else elems_of (parse_value f (S rd')) f r0.
  Proof. reflexivity. Qed.
  Lemma parse_value_obj f rd' r :
    parse_value (S f) (S (S rd')) (String "{" r) =
    let r0 := skip_ws r in
    if byte (ch r0) =? 125 then Some (JObj [], drop 1 r0)
    else members_of (parse_value f (S rd')) f r0.
  Proof. reflexivity. Qed.

  (* ---------------------------------------------------------------- heads *)
  Lemma render_tok_head t rest : tok_wf t = true ->
    exists c r, (render_tok t ++ rest)%string = String c r /\ value_start c = true.
  Proof.
    destruct t as [neg ip fp ep]. unfold tok_wf, render_tok. cbn [t_neg t_int t_frac t_exp].
    intros H. apply andb_prop in H as [H _]. apply andb_prop in H as [H _]. apply andb_prop in H as [Hip Hl].
    destruct neg.
    - eexists _, _. split; [reflexivity|reflexivity].
    - destruct ip as [|d0 more]; [discriminate|]. cbn in Hip. apply andb_prop in Hip as [Hd0 _].
      eexists _, _. split; [cbn; reflexivity|].
      unfold value_start. destruct (digit_char_digit d0 Hd0) as [E _]. rewrite E. now rewrite !orb_true_r.
  Qed.
  Lemma jprint_head j rest : json_all okn j = true ->
    exists c r, (jprint j ++ rest)%string = String c r /\ value_start c = true.
  Proof.
    destruct j as [|[]|n|s|l|m]; intros H; try (eexists _, _; split; [reflexivity|reflexivity]).
    cbn [JsonText.jprint]. apply render_tok_head. now apply H_tok_wf.
  Qed.

  (* what follows a value inside a container: , ] } — none of them continues a number *)
  Lemma no_cont_sep c r : (byte c = 44 \/ byte c = 93 \/ byte c = 125) -> no_cont (String c r) = true.
  Proof. unfold no_cont, is_digit. cbn [ch]. lia. Qed.

  (* ---------------------------------------------------------------- the loops *)
  Lemma elems_items pv rest : forall l k,
    l <> [] -> (length l <= k)%nat ->
    Forall (fun x => forall rest', no_cont rest' = true -> pv (jprint x ++ rest')%string = Some (x, rest')) l ->
    elems_of pv k (jitems l ++ String "]" rest)%string = Some (JArr l, rest).
  Proof.
    induction l as [|x l IH]; intros k Hne Hk HF; [congruence|].
    destruct k as [|k']; [cbn in Hk; lia|]. inversion HF as [|? ? Hx HF']; subst.
    destruct l as [|y l'].
    - cbn [jitems elems_of]. rewrite Hx by (apply no_cont_sep; cbn; lia). reflexivity.
    - change (jitems (x :: y :: l')) with (jprint x ++ "," ++ jitems (y :: l'))%string.
      rewrite !append_assoc. cbn [elems_of].
      rewrite Hx by (apply no_cont_sep; cbn; lia).
      cbn [append skip_ws]. change (is_ws ",") with false. cbv iota. cbn [ch]. change (byte "," =? 44) with true.
      cbv iota. cbn [drop].
      fold (elems_of pv). rewrite (IH k'); [reflexivity|discriminate|cbn in *; lia|exact HF'].
  Qed.

  Lemma members_items pv rest : forall m k,
    m <> [] -> (length m <= k)%nat ->
    Forall (fun kv => forall rest', no_cont rest' = true ->
                        pv (jprint (snd kv) ++ rest')%string = Some (snd kv, rest')) m ->
    members_of pv k (jmembers m ++ String "}" rest)%string = Some (JObj m, rest).
  Proof.
    induction m as [|[key x] m IH]; intros k Hne Hk HF; [congruence|].
    destruct k as [|k']; [cbn in Hk; lia|]. inversion HF as [|? ? Hx HF']; subst. cbn [snd] in *.
    assert (Hkey : forall tail, members_of pv (S k') (print_str key ++ ":" ++ tail)%string =
              match pv tail with
              | None => None
              | Some (x, r2) =>
                  let r2 := skip_ws r2 in
                  if byte (ch r2) =? 44 then
                    match members_of pv k' (drop 1 r2) with
                    | Some (JObj xs, r3) => Some (JObj ((key, x) :: xs), r3)
                    | _ => None
                    end
                  else if byte (ch r2) =? 125 then Some (JObj [(key, x)], drop 1 r2)
                  else None
              end).
    { intros tail. unfold print_str. cbn [append members_of skip_ws].
      change (is_ws QUOTE) with false. cbv iota. cbn [ch]. change (byte QUOTE =? 34) with true. cbv iota.
      cbn [drop]. rewrite append_assoc. cbn [str1 append]. rewrite parse_str_escape.
      cbn [skip_ws]. change (is_ws ":") with false. cbv iota. cbn [ch]. change (byte ":" =? 58) with true.
      cbv iota. cbn [drop]. reflexivity. }
    destruct m as [|[key2 y] m'].
    - change (jmembers [(key, x)]) with (print_str key ++ ":" ++ jprint x)%string.
      rewrite !append_assoc. rewrite Hkey. rewrite Hx by (apply no_cont_sep; cbn; lia). reflexivity.
    - change (jmembers ((key, x) :: (key2, y) :: m'))
        with (print_str key ++ ":" ++ jprint x ++ "," ++ jmembers ((key2, y) :: m'))%string.
      rewrite !append_assoc. rewrite Hkey. rewrite Hx by (apply no_cont_sep; cbn; lia).
      cbn [append skip_ws]. change (is_ws ",") with false. cbv iota. cbn [ch]. change (byte "," =? 44) with true.
      cbv iota. cbn [drop].
      rewrite (IH k'); [reflexivity|discriminate|cbn in *; lia|exact HF'].
  Qed.

  (* ---------------------------------------------------------------- the theorem *)
  Theorem parse_value_print j : forall fuel rd rest,
    json_all okn j = true -> (jsize j <= fuel)%nat -> (jdepth j < rd)%nat -> no_cont rest = true ->
    parse_value fuel rd (jprint j ++ rest)%string = Some (j, rest).
  Proof.
    induction j as [| |n|s|l IH|m IH] using Blots.proofs.JsonRT.json_ind'; intros fuel rd rest Hok Hsz Hd Hrest;
      (destruct fuel as [|f]; [cbn in Hsz; lia|]).
    - vm_compute. reflexivity.
    - destruct b; vm_compute; reflexivity.
    - (* number *)
      cbn [JsonText.jprint]. cbn [json_all] in Hok.
      destruct (render_tok_head (tok_of_jnumber fmt_pieces n) rest (H_tok_wf n Hok)) as (c & r & E & Hc).
      pose proof (H_number n rest Hok Hrest) as Hp.
      rewrite E in *. cbn [JsonText.parse_value]. destruct (value_start_facts c Hc) as (Hws & _).
      rewrite (skip_ws_start c r Hws).
      (* the head of a number token is '-' or a digit *)
      assert (Hnum : (byte c =? 45) || is_digit c = true).
      { unfold JsonText.parse_number, scan_number in Hp. cbn [ch] in Hp.
        destruct (byte c =? 45) eqn:E45; [reflexivity|]. cbn [orb].
        cbn [span_digits] in Hp. destruct (is_digit c); [reflexivity|]. discriminate. }
      assert (Hn4 : byte c <> 110 /\ byte c <> 116 /\ byte c <> 102 /\ byte c <> 34 /\ byte c <> 91 /\ byte c <> 123).
      { unfold is_digit in Hnum. lia. }
      destruct Hn4 as (N1 & N2 & N3 & N4 & N5 & N6).
      apply Z.eqb_neq in N1, N2, N3, N4, N5, N6. rewrite N1, N2, N3, N4, N5, N6, Hnum, Hp. reflexivity.
    - (* string *)
      unfold JsonText.jprint, print_str. cbn [append JsonText.parse_value skip_ws].
      change (is_ws QUOTE) with false. cbv iota.
      change (byte QUOTE =? 110) with false. change (byte QUOTE =? 116) with false.
      change (byte QUOTE =? 102) with false. change (byte QUOTE =? 34) with true. cbv iota.
      rewrite append_assoc. cbn [str1 append]. rewrite parse_str_escape. reflexivity.
    - (* array *)
      rewrite jprint_arr. cbn [json_all jsize jdepth] in *.
      destruct rd as [|[|rd']]; try lia.
      rewrite !append_assoc. change ("[" ++ jitems l ++ "]" ++ rest)%string with (String "[" (jitems l ++ String "]" rest))%string.
      rewrite parse_value_arr. cbv zeta.
      destruct l as [|x l'].
      + reflexivity.
      + assert (Hhead : exists c r, (jitems (x :: l') ++ String "]" rest)%string = String c r /\ value_start c = true).
        { cbn [forallb] in Hok. apply andb_prop in Hok as [Hx _].
          destruct l' as [|y l''].
          - cbn [jitems]. now apply jprint_head.
          - change (jitems (x :: y :: l'')) with (jprint x ++ "," ++ jitems (y :: l''))%string.
            rewrite append_assoc. now apply jprint_head. }
        destruct Hhead as (c & r & E & Hc). destruct (value_start_facts c Hc) as (Hws & H93 & _).
        rewrite E, (skip_ws_start c r Hws). cbn [ch]. apply Z.eqb_neq in H93. rewrite H93. rewrite <- E.
        apply elems_items; [discriminate|pose proof (fold_sum_ge_length jsize (x :: l') jsize_pos); cbn in *; lia|].
        rewrite Forall_forall in *. rewrite forallb_forall in Hok. intros y Hy rest' Hr'.
        pose proof (fold_sum_in jsize _ _ Hy). pose proof (fold_max_in jdepth _ _ Hy).
        apply (IH y Hy); [now apply Hok|lia|lia|exact Hr'].
    - (* object *)
      rewrite jprint_obj. cbn [json_all jsize jdepth] in *.
      destruct rd as [|[|rd']]; try lia.
      rewrite !append_assoc. change ("{" ++ jmembers m ++ "}" ++ rest)%string with (String "{" (jmembers m ++ String "}" rest))%string.
      rewrite parse_value_obj. cbv zeta.
      destruct m as [|[k x] m'].
      + reflexivity.
      + assert (Hhead : exists r, (jmembers ((k, x) :: m') ++ String "}" rest)%string = String QUOTE r).
        { destruct m' as [|[k2 y] m'']; eexists; unfold print_str; cbn; reflexivity. }
        destruct Hhead as (r & E).
        rewrite E. cbn [skip_ws]. change (is_ws QUOTE) with false. cbv iota. cbn [ch].
        change (byte QUOTE =? 125) with false. cbv iota. rewrite <- E.
        apply members_items;
          [discriminate|pose proof (fold_sum_ge_length (fun kv => jsize (snd kv)) ((k, x) :: m') (fun kv => jsize_pos _)); cbn in *; lia|].
        rewrite Forall_forall in *. rewrite forallb_forall in Hok. intros y Hy rest' Hr'.
        pose proof (fold_sum_in (fun kv => jsize (snd kv)) _ _ Hy).
        pose proof (fold_max_in (fun kv => jdepth (snd kv)) _ _ Hy).
        apply (IH y Hy); [now apply Hok|lia|lia|exact Hr'].
  Qed.

  (* ---------------------------------------------------------------- from_str *)
  Lemma jprint_length j : json_all okn j = true -> (jsize j <= String.length (jprint j))%nat.
  Proof.
    induction j as [| |n|s|l IH|m IH] using Blots.proofs.JsonRT.json_ind'; intros Hok.
    - cbn. lia.
    - destruct b; cbn; lia.
    - destruct (jprint_head (JNum n) "" Hok) as (c & r & E & _). rewrite append_nil_r in E. rewrite E. cbn. lia.
    - cbn. lia.
    - rewrite jprint_arr, !length_append. cbn [jsize json_all String.length] in *.
      assert (H : (fold_right (fun x acc => jsize x + acc) 0 l <= String.length (jitems l))%nat).
      { induction l as [|x l' IHl]; [cbn; lia|].
        inversion IH as [|? ? Hx IH']; subst. cbn [forallb] in Hok. apply andb_prop in Hok as [Hox Hol].
        specialize (IHl IH' Hol). specialize (Hx Hox). destruct l' as [|y l''].
        - cbn in *. lia.
        - change (jitems (x :: y :: l'')) with (jprint x ++ "," ++ jitems (y :: l''))%string.
          rewrite !length_append. cbn [fold_right String.length] in *. lia. }
      lia.
    - rewrite jprint_obj, !length_append. cbn [jsize json_all String.length] in *.
      assert (H : (fold_right (fun kv acc => jsize (snd kv) + acc) 0 m <= String.length (jmembers m))%nat).
      { induction m as [|[k x] m' IHm]; [cbn; lia|].
        inversion IH as [|? ? Hx IH']; subst. cbn [forallb snd] in *. apply andb_prop in Hok as [Hox Hom].
        specialize (IHm IH' Hom). specialize (Hx Hox). destruct m' as [|[k2 y] m''].
        - change (jmembers [(k, x)]) with (print_str k ++ ":" ++ jprint x)%string.
          rewrite !length_append. cbn [fold_right snd String.length] in *. lia.
        - change (jmembers ((k, x) :: (k2, y) :: m'')) with (print_str k ++ ":" ++ jprint x ++ "," ++ jmembers ((k2, y) :: m''))%string.
          rewrite !length_append. cbn [fold_right snd String.length] in *. lia. }
      lia.
  Qed.

  (* serde_json::from_str (serde_json::to_string j) = j, as a document (members in the order
     written), for every document whose numbers are of the class and that has at most 127 nested
     containers *)
  Theorem json_text_roundtrip_on j :
    json_all okn j = true -> (jdepth j <= 127)%nat ->
    json_from_str float_of_tok (jprint j) = Some j.
  Proof.
    intros Hok Hd. unfold json_from_str.
    rewrite <- (append_nil_r (jprint j)) at 2.
    rewrite parse_value_print; [reflexivity|exact Hok| |lia|reflexivity].
    pose proof (jprint_length j Hok). lia.
  Qed.
End Doc.

Lemma json_text_ok_all j : json_text_ok j = json_all jnum_text_ok j.
Proof.
  induction j as [| |n|s|l IH|m IH] using Blots.proofs.JsonRT.json_ind'; try reflexivity;
    apply JsonMaps.forallb_ext_in'; rewrite Forall_forall in IH; exact IH.
Qed.

(* the class given by the two library hypotheses on finite doubles *)
Section DocFinite.
  Variable fmt_pieces : num -> numtok.
  Variable float_of_tok : numtok -> option num.
  Hypothesis H_print_wf : forall x, is_finite x = true ->
    tok_wf (fmt_pieces x) = true /\ tok_is_float (fmt_pieces x) = true.
  Hypothesis H_roundtrip : forall x, is_finite x = true -> float_of_tok (fmt_pieces x) = Some x.
  Notation jprint := (JsonText.jprint fmt_pieces).

  (* json_text_roundtrip: serde_json::from_str(serde_json::to_string(j)) = j, as a document
     (members in the order written), for every document whose numbers are in range and that has
     at most 127 nested containers *)
  Theorem json_text_roundtrip j :
    json_text_ok j = true -> (jdepth j <= 127)%nat ->
    json_from_str float_of_tok (jprint j) = Some j.
  Proof.
    rewrite json_text_ok_all.
    apply (json_text_roundtrip_on fmt_pieces float_of_tok jnum_text_ok).
    - exact (tok_of_jnumber_wf fmt_pieces is_finite H_print_wf).
    - exact (parse_print_number fmt_pieces float_of_tok is_finite H_print_wf H_roundtrip).
  Qed.
End DocFinite.
