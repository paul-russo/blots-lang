(* EmitClosed.v — C05: the emitted text is closed.  For EVERY closed-after-capture function value
   (captured closures, closures capturing closures, ... included) the AST of its emission has no
   free names: every name it mentions is a parameter or do-block local of the emission itself, a
   built-in, or one of inf / infinity / constants.  So loading it can never fail with an unknown
   identifier, and nothing it computes depends on the session it is loaded into (except `inputs`
   references, excluded by closed_after_capture). *)
From Coq Require Import String Ascii List ZArith Bool Lia Floats.SpecFloat.
Require Import Blots.Num Blots.gen.Builtins Blots.Ast Blots.Value Blots.Outcome Blots.Env
               Blots.Emit Blots.proofs.ValueInd Blots.proofs.ExprInd Blots.proofs.EmitSubst Blots.proofs.FreeVars.
Import ListNotations.
Open Scope list_scope.

Definition na (e : expr) : bool := match e with EAssign _ _ => false | _ => true end.
Definition lits_closed (m : smap) : Prop :=
  forall y a, rec_get m y = Some a -> (forall b, free_vars a b = []) /\ na a = true.

Lemma concat_ast_closed l : forall acc b, free_vars acc b = [] -> free_vars (concat_ast acc l) b = [].
Proof.
  induction l as [|p l IH]; intros acc b H; cbn [concat_ast]; [exact H|].
  apply IH. cbn [free_vars]. now rewrite H.
Qed.
Lemma concat_ast_na l : forall acc, na acc = true -> na (concat_ast acc l) = true.
Proof. induction l as [|p l IH]; intros acc H; cbn [concat_ast]; [exact H|]. apply IH. reflexivity. Qed.
Lemma str_to_ast_closed s b : free_vars (str_to_ast s) b = [] /\ na (str_to_ast s) = true.
Proof.
  unfold str_to_ast. destruct (both_quotes s); [|split; reflexivity].
  destruct (split_dq s ""); [split; reflexivity|]. split; [apply concat_ast_closed|apply concat_ast_na]; reflexivity.
Qed.

Lemma fv_do_nil a ret t b : free_vars (EDo [] (Cm a ret t)) b = free_vars ret b.
Proof. reflexivity. Qed.
Lemma fv_do_cons_na a s t l R b : na s = true ->
  free_vars (EDo (Cm a s t :: l) R) b = free_vars s b ++ free_vars (EDo l R) b.
Proof. destruct R. destruct s; try reflexivity; discriminate. Qed.
Lemma fv_do_cons_as a x v t l R b :
  free_vars (EDo (Cm a (EAssign x v) t :: l) R) b = free_vars v b ++ free_vars (EDo l R) (x :: b).
Proof. destruct R. reflexivity. Qed.
Lemma subst_do_cons m a s t l R :
  subst true m (EDo (Cm a s t :: l) R) =
  match subst true (do_step_map true m s) (EDo l R) with
  | EDo l' R' => EDo (Cm a (subst true m s) t :: l') R'
  | other => other
  end.
Proof. destruct R. reflexivity. Qed.
Lemma subst_do_shape m l R : exists l' R', subst true m (EDo l R) = EDo l' R'.
Proof. destruct R. cbn. eauto. Qed.
Lemma subst_na m s : lits_closed m -> na s = true -> na (subst true m s) = true.
Proof.
  intros Hm Hs. destruct s; try reflexivity; try discriminate.
  - cbn. destruct (rec_get m x) eqn:E; [apply (Hm x e E)|reflexivity].
  - cbn. destruct (rec_get m "inputs"); [destruct (is_valid_identifier x)|]; reflexivity.
  - cbn. destruct ret. reflexivity.
Qed.

Lemma lits_closed_remove m x : lits_closed m -> lits_closed (smap_remove m x).
Proof.
  intros H y a. rewrite rec_get_remove. destruct (String.eqb y x); [discriminate|apply H].
Qed.
Lemma lits_closed_remove_all xs : forall m, lits_closed m -> lits_closed (smap_remove_all m xs).
Proof. induction xs as [|x xs IH]; cbn; intros m H; [exact H|]. apply IH. now apply lits_closed_remove. Qed.
Lemma lits_closed_step m s : lits_closed m -> lits_closed (do_step_map true m s).
Proof. intros H. destruct s; cbn; auto. now apply lits_closed_remove. Qed.

Lemma mem_app x a b : mem x (a ++ b) = mem x a || mem x b.
Proof. unfold mem. apply existsb_app. Qed.

(* the free names of an inlined expression are EXACTLY the free names of the original that are not
   inlined — for every expression form: lambdas whose parameters shadow a captured name, do-blocks
   whose locals shadow one, shorthand, spreads.  So a closure created while a reloaded body runs
   captures exactly the names that the corresponding original closure captured and that were not
   inlined. *)
Definition FVchar (e : expr) : Prop :=
  forall m bound x, lits_closed m ->
    (In x (free_vars (subst true m e) bound) <-> In x (free_vars e bound) /\ rec_get m x = None).

Theorem subst_fv_char : forall e, FVchar e.
Proof.
  induction e using expr_ind'; intros m bound z Hm; try (cbn; tauto).
  - (* identifier: the literal that replaces it is closed *)
    cbn [subst]. destruct (rec_get m x) eqn:E.
    + rewrite (proj1 (Hm x e E) bound). split; [intros []|]. intros [Hin Hz].
      apply fv_ids_ok with (P := eq x) in Hin; [congruence|reflexivity].
    + cbn [free_vars]. destruct (mem x bound || _ || _ || _)%bool; cbn [In]; [tauto|].
      split; [intros [<-|[]]; auto|tauto].
  - (* input reference: `inputs.field` with `inputs` inlined, or left in place *)
    cbn [subst]. destruct (rec_get m "inputs") eqn:E.
    + assert (Hl : free_vars (if is_valid_identifier x then EDot e x else EAccess e (str_to_ast x)) bound = []).
      { destruct (is_valid_identifier x); cbn [free_vars]; rewrite (proj1 (Hm _ e E) bound);
          [|rewrite (proj1 (str_to_ast_closed x bound))]; reflexivity. }
      rewrite Hl. split; [intros []|]. intros [Hin Hz].
      apply fv_ids_ok with (P := eq "inputs") in Hin; [congruence|reflexivity].
    + cbn [free_vars]. destruct (mem "inputs" bound); cbn [In]; [tauto|].
      split; [intros [<-|[]]; auto|tauto].
  - (* list *)
    cbn [subst free_vars]. induction H as [|[a n t] l Hn Hl IH]; [cbn; tauto|].
    apply fv_char_app; [apply Hn; exact Hm|apply IH].
  - (* record *)
    cbn [subst free_vars]. induction H as [|[a [k v] t] l [Hk Hv] Hl IH]; [cbn; tauto|].
    destruct k as [s|ke|y|se]; cbn [Pkey] in Hk; [| |destruct (rec_get m y) eqn:E|];
      (apply fv_char_app; [|apply IH]).
    + apply Hv; exact Hm.
    + apply fv_char_app; [apply Hk|apply Hv]; exact Hm.
    + rewrite (proj1 (Hm y e E) bound). split; [intros []|]. intros [Hin Hz].
      destruct (mem y bound); [destruct Hin|]. destruct Hin as [<-|[]]. congruence.
    + destruct (mem y bound); cbn [In]; [tauto|]. split; [intros [<-|[]]; auto|tauto].
    + apply Hk; exact Hm.
  - (* lambda: parameters are bound and removed from the scope *)
    cbn [subst free_vars]. rewrite (IHe _ _ z (lits_closed_remove_all (map arg_name args) m Hm)).
    split; intros [Hin Hz]; (split; [exact Hin|]);
      assert (Hnp : ~ In z (map arg_name args))
        by (intros X; apply (fv_not_bound _ _ _ Hin); apply in_or_app; now left);
      rewrite remove_all_get_notin in *; assumption.
  - (* conditional *)
    cbn [subst free_vars]. apply fv_char_app; [apply IHe1|apply fv_char_app; [apply IHe2|apply IHe3]]; exact Hm.
  - (* do-block: an assigned name is bound and removed from the scope for what follows *)
    revert m bound Hm. induction H as [|[a s t] l Hs Hl IH]; intros m bound Hm.
    + destruct ret as [rl ret rt]. cbn [cnode] in IHe. cbn. apply IHe. exact Hm.
    + rewrite subst_do_cons.
      destruct (subst_do_shape (do_step_map true m s) l ret) as (l' & R' & Esh). rewrite Esh.
      cbn in Hs. assert (Hstep := lits_closed_step m s Hm).
      destruct (na s) eqn:Ena.
      * rewrite (fv_do_cons_na a _ t l' R' bound (subst_na m s Hm Ena)).
        rewrite (fv_do_cons_na a s t l ret bound Ena).
        assert (Em : do_step_map true m s = m) by (destruct s; try reflexivity; discriminate).
        rewrite Em in Esh. apply fv_char_app; [apply Hs; exact Hm|]. rewrite <- Esh. apply IH. exact Hm.
      * destruct s; try discriminate. cbn [subst do_step_map] in *.
        rewrite fv_do_cons_as, fv_do_cons_as. apply fv_char_app; [apply (Hs m bound z Hm)|].
        rewrite <- Esh, (IH _ (x :: bound) Hstep), rec_get_remove.
        split; intros [Hin Hz]; (split; [exact Hin|]);
          (destruct (String.eqb_spec z x) as [->|]; [|exact Hz]);
          exfalso; apply (fv_not_bound _ _ _ Hin); now left.
  - (* assignment *)
    cbn [subst free_vars]. apply IHe. exact Hm.
  - (* call *)
    cbn [subst free_vars]. apply fv_char_app; [apply IHe; exact Hm|].
    induction H as [|a l Ha Hl IH]; [cbn; tauto|]. apply fv_char_app; [apply Ha; exact Hm|apply IH].
  - cbn [subst free_vars]. apply fv_char_app; [apply IHe1|apply IHe2]; exact Hm.
  - cbn [subst free_vars]. apply IHe. exact Hm.
  - cbn [subst free_vars]. apply fv_char_app; [apply IHe1|apply IHe2]; exact Hm.
  - cbn [subst free_vars]. apply IHe. exact Hm.
  - cbn [subst free_vars]. apply IHe. exact Hm.
  - cbn [subst free_vars]. apply IHe. exact Hm.
Qed.

(* what the statement says about one expression *)
Definition FVok (e : expr) : Prop :=
  forall m bound x, lits_closed m ->
    In x (free_vars (subst true m e) bound) ->
    In x (free_vars e bound) /\ rec_get m x = None /\ mem x bound = false.

Theorem subst_fv : forall e, FVok e.
Proof.
  intros e m bound x Hm Hin. apply (subst_fv_char e m bound x Hm) in Hin as [Hin Hz].
  repeat split; [exact Hin|exact Hz|]. apply mem_false_notin. exact (fv_not_bound _ _ _ Hin).
Qed.
Theorem subst_fv_conv : forall e m bound x, lits_closed m ->
  In x (free_vars e bound) -> rec_get m x = None -> In x (free_vars (subst true m e) bound).
Proof. intros e m bound x Hm Hin Hz. apply (subst_fv_char e m bound x Hm). split; assumption. Qed.

(* ---- literals of first-order values are closed (and are not assignments) ---- *)

Lemma lit_closed_fo nanfix v : fo v = true -> (nanfix = true \/ has_nan v = false) ->
  forall bb, free_vars (value_to_ast nanfix true v) bb = [] /\ na (value_to_ast nanfix true v) = true.
Proof.
  induction v using value_ind'; intros Hf Hn bb; try (split; reflexivity); try discriminate.
  - cbn [value_to_ast]. unfold num_to_ast. destruct x as [[|]|[|]| |[|] ? ?]; try (split; reflexivity);
      try (split; [cbn; destruct (mem "inf" bb); reflexivity|reflexivity]).
    destruct Hn as [->|Hn]; [split; reflexivity|discriminate].
  - cbn [value_to_ast]. apply str_to_ast_closed.
  - split; [|reflexivity]. cbn [value_to_ast free_vars]. cbn [fo] in Hf. cbn [has_nan] in Hn.
    induction H as [|x l Hx Hl IH]; [reflexivity|]. cbn in Hf. apply andb_prop in Hf as [F1 F2].
    assert (N : (nanfix = true \/ has_nan x = false) /\ (nanfix = true \/ existsb has_nan l = false)).
    { destruct Hn as [->|Hn]; [auto|]. cbn in Hn. apply orb_false_elim in Hn. tauto. }
    destruct N as [N1 N2]. rewrite (proj1 (Hx F1 N1 bb)). cbn. apply IH; auto.
  - split; [|reflexivity]. cbn [value_to_ast free_vars]. cbn [fo] in Hf. cbn [has_nan] in Hn.
    apply andb_prop in Hf as [_ Hf].
    induction H as [|[k x] l Hx Hl IH]; [reflexivity|]. cbn in Hf, Hx. apply andb_prop in Hf as [F1 F2].
    assert (N : (nanfix = true \/ has_nan x = false) /\
                (nanfix = true \/ existsb (fun kv => has_nan (snd kv)) l = false)).
    { destruct Hn as [->|Hn]; [auto|]. cbn in Hn. apply orb_false_elim in Hn. tauto. }
    destruct N as [N1 N2].
    assert (K : match key_to_rkey k with
                | KDyn a => free_vars a bb ++ free_vars (value_to_ast nanfix true x) bb
                | KSpread a => free_vars a bb
                | KStatic _ => free_vars (value_to_ast nanfix true x) bb
                | KShort y => if mem y bb then [] else [y]
                end = []).
    { unfold key_to_rkey. destruct (both_quotes k); [rewrite (proj1 (str_to_ast_closed k bb))|];
        now rewrite (proj1 (Hx F1 N1 bb)). }
    cbv beta iota. rewrite K. cbn. apply IH; auto.
Qed.

(* P1 (closedness), first-order captured values: if every free name of the body is a parameter
   or captured, the inlined body has no free name at all — whatever the body contains (lambdas
   with shadowing parameters, do-blocks with shadowing locals, shorthand, spreads ...) *)
Theorem emitted_body_closed : forall nanfix params body sv,
  forallb (fun kv => fo (snd kv)) sv = true ->
  (nanfix = true \/ existsb (fun kv => has_nan (snd kv)) sv = false) ->
  (forall z, In z (free_vars body (map arg_name params)) -> rec_get sv z <> None) ->
  free_vars (subst true (scope_map nanfix true sv) body) (map arg_name params) = [].
Proof.
  intros nanfix params body sv Hfo Hnan Hcl.
  assert (Hm : lits_closed (scope_map nanfix true sv)).
  { intros y a. rewrite scope_map_get. destruct (rec_get sv y) eqn:E; cbn; [|discriminate].
    intros Ea; inversion Ea; subst a. intros. apply rec_get_In in E.
    assert (F : fo v = true) by (rewrite forallb_forall in Hfo; exact (Hfo _ E)).
    assert (N : nanfix = true \/ has_nan v = false).
    { destruct Hnan as [->|Hn]; [auto|]. right. destruct (has_nan v) eqn:X; [|reflexivity].
      assert (existsb (fun kv => has_nan (snd kv)) sv = true) by (apply existsb_exists; exists (y, v); auto).
      congruence. }
    split; [intros b; apply (lit_closed_fo nanfix v F N b)|apply (lit_closed_fo nanfix v F N [])]. }
  destruct (free_vars (subst true (scope_map nanfix true sv) body) (map arg_name params)) as [|z l] eqn:E;
    [reflexivity|].
  exfalso. destruct (subst_fv body (scope_map nanfix true sv) (map arg_name params) z Hm) as (A & B & _).
  { rewrite E. now left. }
  rewrite scope_map_get in B. apply (Hcl z A). destruct (rec_get sv z); [discriminate|reflexivity].
Qed.
