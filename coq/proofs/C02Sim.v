(* C02Sim.v — STORE-EXTENSION INVARIANCE of the evaluator, as a simulation (C02).

   Evaluating an expression e from (sA, fr) and from (sB, ren fr), where rho is an injective renaming
   of function-cell indices and [sinv rho sA sB] relates the two stores, gives the renamed outcome,
   the renamed scope chain, and stores that are related again.  The statement covers every expression
   form (assignments included), every depth, FunctionDef::call, and is generic in the operator and
   built-in implementations: they are Section variables with the hypothesis that they commute with
   the renaming whenever their callback does (discharged for the transcriptions in C02Ops.v /
   C02OpsFull.v / C02AllOps.v).  This is the relational version of the unary parametricity argument of GenOps.v. *)
From Coq Require Import String Ascii List ZArith Bool Lia.
Require Import Blots.Num Blots.gen.Builtins Blots.Ast Blots.Value Blots.Outcome Blots.Binop
               Blots.Env Blots.Eval Blots.BuiltinsHof Blots.proofs.ExprInd Blots.proofs.ValueInd
               Blots.proofs.Frames Blots.proofs.StoreMono Blots.proofs.C02Ren.
Import ListNotations.
Open Scope string_scope.
Open Scope list_scope.
Open Scope nat_scope.

Section Sim.
  Variable rho : nat -> nat.
  Hypothesis rho_inj : forall a b, rho a = rho b -> a = b.
  Notation ren := (ren rho).
  Notation renF := (renF rho).
  Notation renFr := (renFr rho).
  Notation oren := (oren rho).
  Notation sinv := (sinv rho).

  (* a store-passing computation commutes with the renaming (f on its Ok payload) *)
  Definition Mfun {A B} (f : A -> B) (mA : store -> outcome A * store) (mB : store -> outcome B * store) : Prop :=
    forall sA sB, sinv sA sB ->
      fst (mB sB) = omap f (fst (mA sA)) /\ sinv (snd (mA sA)) (snd (mB sB)).
  Definition cb_eqv (cbA cbB : callback) : Prop :=
    forall this f args, Mfun ren (cbA this f args) (cbB (ren this) (ren f) (map ren args)).

  (* two evaluation results are related *)
  Definition simG {A B} (f : A -> B) (rA : outcome A * cfg) (rB : outcome B * cfg) : Prop :=
    fst rB = omap f (fst rA) /\ snd (snd rB) = renFr (snd (snd rA)) /\ sinv (fst (snd rA)) (fst (snd rB)).

  Ltac step H :=
    match type of H with simG _ ?XA ?XB =>
      revert H; destruct XA as [?rA [?sA ?frA]]; destruct XB as [?rB [?sB ?frB]];
      intros (?E & ?E & ?Hs); cbn [fst snd] in *; subst end.
  Ltac stepM H :=
    match type of H with _ = omap _ (fst ?XA) /\ sinv (snd ?XA) (snd ?XB) =>
      revert H; destruct XA as [?rA ?sA]; destruct XB as [?rB ?sB];
      intros (?E & ?Hs); cbn [fst snd] in *; subst end.
  Ltac done := split; [reflexivity|split; [reflexivity|assumption]].

  (* ---- value-level pieces of evaluate_ast ---- *)
  Lemma of_option_ren : forall o, of_option (option_map ren o) = oren (of_option o).
  Proof. intros [v|]; reflexivity. Qed.

  Lemma access_val_ren : forall v i, access_val (ren v) (ren i) = oren (access_val v i).
  Proof.
    intros v i. destruct v; try reflexivity; cbn [ren access_val].
    - (* string *) rewrite as_number_ren. destruct (as_number i); try reflexivity. cbn [obind oren omap].
      destruct (index_from _ a); [|reflexivity]. destruct (nth_error (chars s) n); reflexivity.
    - (* list *) rewrite as_number_ren. destruct (as_number i); try reflexivity. cbn [obind oren omap].
      rewrite map_length. destruct (index_from _ a); [|reflexivity]. rewrite nth_ren. reflexivity.
    - (* record *) rewrite as_string_ren. destruct (as_string i); try reflexivity. cbn [obind oren omap].
      fold (renF r). rewrite rec_get_ren. destruct (rec_get r a); reflexivity.
  Qed.
  Lemma dot_val_ren : forall v f, dot_val (ren v) f = oren (dot_val v f).
  Proof.
    intros v f. destruct v; try reflexivity. cbn [ren dot_val]. fold (renF r). rewrite rec_get_ren.
    destruct (rec_get r f); reflexivity.
  Qed.
  Lemma spread_val_ren : forall v, spread_val (ren v) = oren (spread_val v).
  Proof. destruct v; reflexivity. Qed.

  Lemma enum_from_ren : forall l n,
    map (fun iv : nat * value => (nat_to_dec (fst iv), snd iv)) (enum_from n (map ren l)) =
    renF (map (fun iv : nat * value => (nat_to_dec (fst iv), snd iv)) (enum_from n l)).
  Proof. unfold C02Ren.renF. induction l as [|x l IH]; intros n; [reflexivity|]. cbn [map enum_from fst snd]. f_equal. apply IH. Qed.
  Lemma enum_from_str : forall (l : list string) n,
    map (fun iv : nat * string => (nat_to_dec (fst iv), VStr (snd iv))) (enum_from n l) =
    renF (map (fun iv : nat * string => (nat_to_dec (fst iv), VStr (snd iv))) (enum_from n l)).
  Proof. unfold C02Ren.renF. induction l as [|x l IH]; intros n; [reflexivity|]. cbn [map enum_from fst snd]. f_equal. apply IH. Qed.
  Lemma record_spread_entries_ren : forall v,
    record_spread_entries (ren v) = renF (record_spread_entries v).
  Proof.
    destruct v; try reflexivity. destruct v; try reflexivity; cbn [ren record_spread_entries].
    - apply enum_from_str.
    - apply enum_from_ren.
  Qed.
  Lemma rec_insert_all_ren : forall es r,
    rec_insert_all (renF r) (renF es) = renF (rec_insert_all r es).
  Proof.
    unfold rec_insert_all. induction es as [|[k v] es IH]; intros r; [reflexivity|].
    change (renF ((k, v) :: es)) with ((k, ren v) :: renF es).
    cbn [fold_left fst snd]. rewrite rec_insert_ren. apply IH.
  Qed.

  Lemma bind_params_ren : forall ps idx args acc,
    bind_params ps idx (map ren args) (renF acc) = option_map renF (bind_params ps idx args acc).
  Proof.
    induction ps as [|p ps IH]; intros idx args acc; [reflexivity|]. destruct p; cbn [bind_params].
    - rewrite nth_error_map_ren. destruct (nth_error args idx) as [v|]; [|reflexivity].
      cbn [option_map]. apply (IH (S idx) args ((x, v) :: acc)).
    - rewrite nth_error_map_ren.
      assert (E : (x, match option_map ren (nth_error args idx) with Some v => v | None => VNull end) :: renF acc
                  = renF ((x, match nth_error args idx with Some v => v | None => VNull end) :: acc)).
      { destruct (nth_error args idx); reflexivity. }
      rewrite E. apply IH.
    - assert (E : (x, VList (skipn idx (map ren args))) :: renF acc = renF ((x, VList (skipn idx args)) :: acc)).
      { cbn [renF map C02Ren.ren]. rewrite skipn_map. reflexivity. }
      rewrite E. apply IH.
  Qed.

  Variable release : bool.
  Variable bi : callback -> binop -> value -> value -> store -> outcome value * store.
  Variable bu : callback -> builtin -> list value -> store -> outcome value * store.
  (* the operators and built-ins commute with the renaming whenever their callback does *)
  Hypothesis Hbi : forall cbA cbB, cb_eqv cbA cbB ->
    forall op l r, Mfun ren (bi cbA op l r) (bi cbB op (ren l) (ren r)).
  Hypothesis Hbu : forall cbA cbB, cb_eqv cbA cbB ->
    forall b args, Mfun ren (bu cbA b args) (bu cbB b (map ren args)).

  Section Gen.
    Variable evA evB : cfg -> expr -> result.
    Definition simR (e : expr) : Prop :=
      forall sA sB fr, sinv sA sB -> simG ren (evA (sA, fr) e) (evB (sB, renFr fr) e).

    Lemma evalL_sim : forall l, Forall simR l ->
      forall sA sB fr, sinv sA sB ->
        simG (map ren) (evalL evA (sA, fr) l) (evalL evB (sB, renFr fr) l).
    Proof.
      intros l HF; induction HF as [|x l Hx _ IH]; intros sA sB fr Hs; cbn [evalL]; [done|].
      pose proof (Hx sA sB fr Hs) as H1. step H1.
      destruct rA; cbn [omap obind]; try done.
      pose proof (IH sA0 sB0 frA Hs0) as H2. step H2.
      destruct rA; cbn [omap obind]; done.
    Qed.
    Lemma bind_value_sim : forall sA0 sB0 sA sB fr x v, sinv sA0 sB0 -> sinv sA sB ->
      simG ren (bind_value (length sA0) (sA, fr) x v) (bind_value (length sB0) (sB, renFr fr) x (ren v)).
    Proof.
      intros sA0 sB0 sA sB fr x v H0 Hs. unfold bind_value. cbn [fst snd]. rewrite insert_head_ren.
      destruct (insert_head fr x v); cbn [option_map];
        (split; [reflexivity|split; [reflexivity|apply sinv_name_if_created; assumption]]).
    Qed.
    Lemma assign_value_sim : forall ve, simR ve -> forall sA sB fr x, sinv sA sB ->
      simG ren (assign_value evA (sA, fr) x ve) (assign_value evB (sB, renFr fr) x ve).
    Proof.
      intros ve Hv sA sB fr x Hs. unfold assign_value. cbn [fst].
      pose proof (Hv sA sB fr Hs) as H1. step H1.
      destruct rA; cbn [omap obind]; try done. apply bind_value_sim; assumption.
    Qed.
    Lemma assign_checked_sim : forall ve, simR ve -> forall sA sB fr x, sinv sA sB ->
      simG ren (assign_checked evA (sA, fr) x ve) (assign_checked evB (sB, renFr fr) x ve).
    Proof.
      intros ve Hv sA sB fr x Hs. unfold assign_checked. cbn [fst].
      pose proof (Hv sA sB fr Hs) as H1. step H1.
      destruct rA; cbn [omap obind]; try done. cbn [snd]. rewrite contains_ren.
      destruct (contains frA x); [done|]. apply bind_value_sim; assumption.
    Qed.

    Definition simS (s : expr) : Prop := simR s /\ (forall x v, s = EAssign x v -> simR v).

    Lemma do_step_sim : forall s, simS s -> forall sA sB fr, sinv sA sB ->
      simG ren (do_step evA (sA, fr) s) (do_step evB (sB, renFr fr) s).
    Proof.
      intros s [Hs Hsub] sA sB fr Hi. destruct s; try (apply Hs; assumption).
      cbn [do_step]. destruct (mem x do_assign_keywords); [done|].
      apply assign_value_sim; [eapply Hsub; reflexivity|assumption].
    Qed.
    Lemma evalDoL_sim : forall (l : list (commented expr)), Forall (fun cm => simS (cnode cm)) l ->
      forall sA sB fr, sinv sA sB ->
        simG (fun u : unit => u) (evalDoL evA (sA, fr) l) (evalDoL evB (sB, renFr fr) l).
    Proof.
      intros l HF; induction HF as [|[ld x tr] l Hx _ IH]; intros sA sB fr Hs; cbn [evalDoL]; [done|].
      cbn [cnode] in Hx. pose proof (do_step_sim x Hx sA sB fr Hs) as H1. step H1.
      destruct rA; cbn [omap obind]; try done. apply IH; assumption.
    Qed.

    Lemma evalRecL_sim : forall (l : list (commented rentry)),
      Forall (fun cm => Pentry simR (cnode cm)) l ->
      forall sA sB fr acc, sinv sA sB ->
        simG ren (evalRecL evA (sA, fr) acc l) (evalRecL evB (sB, renFr fr) (renF acc) l).
    Proof.
      intros l HF; induction HF as [|[ld [k v] tr] l Hx _ IH]; intros sA sB fr acc Hs; cbn [evalRecL]; [done|].
      cbn [cnode Pentry] in Hx. destruct Hx as [Hk Hv]. destruct k as [key|ke|x|se]; cbn [Pkey] in Hk.
      - pose proof (Hv sA sB fr Hs) as H1. step H1. destruct rA; cbn [omap obind]; try done.
        rewrite rec_insert_ren. apply IH; assumption.
      - pose proof (Hk sA sB fr Hs) as H1. step H1. destruct rA; cbn [omap obind]; try done.
        rewrite as_string_ren. destruct (as_string a); cbn [cast_fail]; try done.
        pose proof (Hv sA0 sB0 frA Hs0) as H2. step H2. destruct rA; cbn [omap obind]; try done.
        rewrite rec_insert_ren. apply IH; assumption.
      - cbn [snd]. rewrite lookup_ren. destruct (lookup fr x); cbn [option_map]; [|done].
        rewrite rec_insert_ren. apply IH; assumption.
      - pose proof (Hk sA sB fr Hs) as H1. step H1. destruct rA; cbn [omap obind]; try done.
        rewrite record_spread_entries_ren, rec_insert_all_ren. apply IH; assumption.
    Qed.
  End Gen.

  (* ---- evaluate_ast for a given FunctionDef::call ---- *)
  Section E.
    Variable applyA applyB : frames -> callback.
    Hypothesis Hap : forall fr, cb_eqv (applyA fr) (applyB (renFr fr)).
    Notation evA := (evalE release bi applyA).
    Notation evB := (evalE release bi applyB).

    Theorem evalE_sim : forall e, simS evA evB e.
    Proof.
      induction e using expr_ind';
        (split; [intros sA sB fr Hs|try (intros ? ? Heq; discriminate Heq)]); cbn [Eval.evalE].
      - done. - done. - done. - done.
      - (* EId *)
        destruct (String.eqb x "infinity" || String.eqb x "inf"); [done|].
        destruct (String.eqb x "constants"); [done|]. cbn [snd]. rewrite lookup_ren, of_option_ren. done.
      - (* EInRef *)
        cbn [snd]. rewrite lookup_ren. destruct (lookup fr "inputs") as [[]|]; cbn [option_map C02Ren.ren]; try done.
        fold (renF r). rewrite rec_get_ren. destruct (rec_get r x); done.
      - done.
      - (* EList *)
        assert (HF : Forall (simR evA evB) (map cnode items)).
        { apply Forall_map. eapply Forall_impl; [|eassumption]. intros a Ha; apply Ha. }
        pose proof (evalL_sim evA evB _ HF sA sB fr Hs) as H1. rewrite !evalCL_evalL. step H1.
        destruct rA; cbn [omap obind fst snd]; try done.
        rewrite flatten_spreads_ren. done.
      - (* ERec *)
        assert (HF : Forall (fun cm => Pentry (simR evA evB) (cnode cm)) entries).
        { eapply Forall_impl; [|eassumption]. intros [ld [k v] tr] Ha. cbn [cnode Pentry] in *.
          destruct Ha as [Hk Hv]. split; [|apply Hv]. destruct k; cbn [Pkey] in *; auto; apply Hk. }
        exact (evalRecL_sim evA evB entries HF sA sB fr [] Hs).
      - (* ELam *)
        cbn [snd fst]. unfold fresh_lambda.
        change (@nil (string * value)) with (renF []) at 2. rewrite capture_ren.
        split; [cbn [fst omap obind C02Ren.ren]; rewrite (sinv_len rho sA sB Hs); reflexivity|].
        split; [reflexivity|]. cbn [fst snd]. apply sinv_fresh; assumption.
      - (* ECond *)
        destruct IHe1 as [IH1 _], IHe2 as [IH2 _], IHe3 as [IH3 _].
        pose proof (IH1 sA sB fr Hs) as H1. step H1. destruct rA; cbn [omap obind]; try done.
        rewrite as_bool_ren. destruct (as_bool a) as [[|]| | | |]; cbn [cast_fail]; try done.
        + apply IH2; assumption.
        + apply IH3; assumption.
      - (* EDo *)
        match goal with HF : Forall _ stmts, HR : simS _ _ _ |- _ => rename HF into HFs; rename HR into HRet end.
        destruct ret as [ld rt tr]. cbn [cnode] in HRet. cbn [fst snd].
        match goal with |- context [evalDoL evA ?cA stmts] =>
          match goal with |- context [evalDoL evB ?cB stmts] =>
            assert (H1 : simG (fun u : unit => u) (evalDoL evA cA stmts) (evalDoL evB cB stmts))
              by exact (evalDoL_sim evA evB stmts HFs sA sB ((FOwned, []) :: fr) Hs) end end.
        step H1.
        destruct rA; cbn [omap obind cast_fail fst snd]; try done.
        pose proof (do_step_sim evA evB rt HRet sA0 sB0 frA Hs0) as H2. step H2.
        split; [reflexivity|split; [reflexivity|assumption]].
      - (* EAssign *)
        destruct IHe as [IH _].
        destruct (is_builtin_name x); [done|]. destruct (mem x assign_keywords); [done|].
        cbn [snd]. rewrite contains_ren. destruct (contains fr x); [done|].
        apply assign_checked_sim; assumption.
      - (* EAssign as a statement: its value expression *)
        intros x0 v0 Heq. inversion Heq; subst. apply IHe.
      - (* EOutput *) apply IHe; assumption.
      - (* ECall *)
        destruct IHe as [IH _].
        assert (HF : Forall (simR evA evB) args).
        { eapply Forall_impl; [|eassumption]. intros a Ha; apply Ha. }
        pose proof (IH sA sB fr Hs) as H1. step H1. destruct rA; cbn [omap obind]; try done.
        pose proof (evalL_sim evA evB args HF sA0 sB0 frA Hs0) as H2. step H2.
        destruct rA; cbn [omap obind cast_fail]; try done.
        rewrite is_function_ren. destruct (negb (is_function a)); [done|].
        rewrite flatten_spreads_ren.
        pose proof (Hap frA0 a a (flatten_spreads a0) sA1 sB1 Hs1) as H3. stepM H3. done.
      - (* EAccess *)
        destruct IHe1 as [IH1 _], IHe2 as [IH2 _].
        pose proof (IH1 sA sB fr Hs) as H1. step H1. destruct rA; cbn [omap obind]; try done.
        pose proof (IH2 sA0 sB0 frA Hs0) as H2. step H2. destruct rA; cbn [omap obind]; try done.
        rewrite access_val_ren. done.
      - (* EDot *)
        destruct IHe as [IH _].
        pose proof (IH sA sB fr Hs) as H1. step H1. destruct rA; cbn [omap obind]; try done.
        rewrite dot_val_ren. done.
      - (* EBin *)
        destruct IHe1 as [IH1 _], IHe2 as [IH2 _].
        pose proof (IH1 sA sB fr Hs) as H1. step H1. destruct rA; cbn [omap obind]; try done.
        pose proof (IH2 sA0 sB0 frA Hs0) as H2. step H2. destruct rA; cbn [omap obind]; try done.
        pose proof (Hbi _ _ (Hap frA0) op a a0 sA1 sB1 Hs1) as H3. stepM H3. done.
      - (* EUn *)
        destruct IHe as [IH _].
        pose proof (IH sA sB fr Hs) as H1. step H1. destruct rA; cbn [omap obind]; try done.
        destruct op; rewrite ?as_number_ren, ?as_bool_ren;
          [destruct (as_number a)|destruct (as_bool a)|destruct (as_bool a)]; done.
      - (* EFact *)
        destruct IHe as [IH _].
        pose proof (IH sA sB fr Hs) as H1. step H1. destruct rA; cbn [omap obind]; try done.
        rewrite as_number_ren. destruct (as_number a); cbn [cast_fail]; try done.
        unfold factorial_val. destruct (ngeb a0 nzero && neqb a0 (num_of_Z (as_u64 a0))); done.
      - (* ESpread *)
        destruct IHe as [IH _].
        pose proof (IH sA sB fr Hs) as H1. step H1. destruct rA; cbn [omap obind]; try done.
        rewrite spread_val_ren. done.
    Qed.
  End E.

  (* ---- FunctionDef::call ---- *)
  Lemma call_passed_sim : forall evA evB cbA cbB fr,
    (forall e, simR evA evB e) -> cb_eqv cbA cbB ->
    cb_eqv (call_passed bu evA cbA fr) (call_passed bu evB cbB (renFr fr)).
  Proof.
    intros evA evB cbA cbB fr Hev Hcb this f args sA sB Hs.
    destruct f; try (split; [reflexivity|assumption]).
    - (* lambda *)
      cbn [C02Ren.ren call_passed]. rewrite (proj1 Hs id). fold (renF scope).
      rewrite lookup_ren.
      set (selfA := match lam_name sA id with
                    | Some n => match lookup_frame scope n with Some _ => [] | None => [(n, this)] end
                    | None => [] end).
      assert (Eself : match lam_name sA id with
                      | Some n => match lookup_frame (renF scope) n with Some _ => [] | None => [(n, ren this)] end
                      | None => [] end = renF selfA).
      { unfold selfA. destruct (lam_name sA id) as [n|]; [|reflexivity].
        rewrite lookup_frame_ren. destruct (lookup_frame scope n); reflexivity. }
      rewrite Eself.
      (* F9 repaired: the caller's `inputs` only when the scope did not capture the name *)
      set (inpA := match lookup_frame scope "inputs" with
                   | Some _ => []
                   | None => match lookup fr "inputs" with Some i => [("inputs", i)] | None => [] end
                   end).
      assert (Einp : match lookup_frame (renF scope) "inputs" with
                     | Some _ => []
                     | None => match option_map ren (lookup fr "inputs") with Some i => [("inputs", i)] | None => [] end
                     end = renF inpA).
      { unfold inpA. rewrite lookup_frame_ren. destruct (lookup_frame scope "inputs"); [reflexivity|].
        cbn [option_map]. destruct (lookup fr "inputs"); reflexivity. }
      rewrite Einp, <- renF_app, bind_params_ren.
      destruct (bind_params args0 0 args (inpA ++ selfA)) as [local|]; cbn [option_map];
        [|split; [reflexivity|assumption]].
      match goal with |- context [evA ?cA body] =>
        match goal with |- context [evB ?cB body] =>
          assert (H1 : simG ren (evA cA body) (evB cB body)) end end.
      { destruct scope; exact (Hev body sA sB _ Hs). }
      step H1. split; [reflexivity|assumption].
    - (* built-in *) cbn [C02Ren.ren call_passed]. apply Hbu; assumption.
  Qed.

  Lemma check_arity_ren : forall f (args : list value),
    check_arity (ren f) (length (map ren args)) = check_arity f (length args).
  Proof. intros f args. unfold check_arity. rewrite map_length. apply accepts_ren. Qed.

  Lemma apply_at_sim : forall lowerA lowerB fr,
    match lowerA, lowerB with
    | None, None => True
    | Some (evA, cbA), Some (evB, cbB) => (forall e, simR evA evB e) /\ cb_eqv cbA cbB
    | _, _ => False
    end ->
    cb_eqv (apply_at bu lowerA fr) (apply_at bu lowerB (renFr fr)).
  Proof.
    intros lowerA lowerB fr Hl this f args sA sB Hs. unfold apply_at.
    rewrite check_arity_ren. destruct (negb (check_arity f (length args))); [split; [reflexivity|assumption]|].
    destruct lowerA as [[evA cbA]|], lowerB as [[evB cbB]|]; try contradiction.
    - destruct Hl as [Hev Hcb]. apply call_passed_sim; assumption.
    - split; [reflexivity|assumption].
  Qed.

  Lemma call_too_deep_sim : cb_eqv (fun _ f a s => call_too_deep f a s) (fun _ f a s => call_too_deep f a s).
  Proof.
    intros this f args sA sB Hs. unfold call_too_deep. rewrite check_arity_ren.
    destruct (check_arity f (length args)); (split; [reflexivity|assumption]).
  Qed.

  Notation ADn := (AD release bi bu).
  Lemma AD_sim2 : forall d,
    (forall fr, cb_eqv (ADn d fr) (ADn d (renFr fr))) /\
    (forall fr, cb_eqv (ADn (S d) fr) (ADn (S d) (renFr fr))).
  Proof.
    induction d as [|d [IH0 IH1]].
    - split; intros fr; cbn [AD].
      + apply apply_at_sim. exact I.
      + apply apply_at_sim. split; [|apply call_too_deep_sim].
        intros e. apply (evalE_sim (ADn 0) (ADn 0)). intros fr'. cbn [AD]. apply apply_at_sim. exact I.
    - split; [exact IH1|]. intros fr. cbn [AD]. apply apply_at_sim. split; [|apply IH0].
      intros e. apply (evalE_sim (ADn (S d)) (ADn (S d))). exact IH1.
  Qed.

  Theorem AD_sim : forall d fr, cb_eqv (ADn d fr) (ADn d (renFr fr)).
  Proof. intros d. exact (proj1 (AD_sim2 d)). Qed.

  (* STORE-EXTENSION INVARIANCE, every expression, every depth *)
  Theorem evalD_sim : forall d e sA sB fr, sinv sA sB ->
    simG ren (evalD release bi bu d (sA, fr) e) (evalD release bi bu d (sB, renFr fr) e).
  Proof.
    intros d e. unfold evalD. apply (evalE_sim (ADn d) (ADn d)). intros fr. apply AD_sim.
  Qed.
End Sim.
