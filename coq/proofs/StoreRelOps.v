(* StoreRelOps.v — the operator tables and built-in dispatchers of EvalInst.v / EvalFull.v / EvalAll.v move the
   store only through their callback: for every preorder R on stores, if the callback keeps R so do they
   (the hypotheses [binop_R] / [builtin_R] of StoreMono.v's evaluator theorem).

   This is the parametricity of GenOps.v / AllGenClosed.v ("on values satisfying P, with a callback that keeps
   the order and P, the result satisfies P and the store moved along the order") read at the predicate that
   holds of every value: what is left of its conclusion is the statement about the store. *)
From Coq Require Import String Ascii List ZArith Bool Lia.
Require Import Blots.Num Blots.gen.Builtins Blots.Ast Blots.Value Blots.Outcome Blots.Binop
               Blots.Env Blots.Eval Blots.BuiltinsHof Blots.Program Blots.EvalInst Blots.EvalFull Blots.EvalAll
               Blots.proofs.StoreMono Blots.proofs.GenOps Blots.proofs.AllGenClosed.
Import ListNotations.
Open Scope list_scope.

Lemma anyV_VList : forall st l, anyV st (VList l) <-> closed_list anyV st l.
Proof. intros st l. split; intros _; [apply anyV_all|exact I]. Qed.
Lemma anyV_VRec : forall st r, anyV st (VRec r) <-> AllGenClosed.closed_frame anyV st r.
Proof. intros st r. split; intros _; [apply Forall_forall; intros kv _; exact I|exact I]. Qed.
Lemma anyV_VSpread : forall st w, anyV st (VSpread w) <-> anyV st w.
Proof. intros; reflexivity. Qed.

Section Ops.
  Variable R : store -> store -> Prop.
  Hypothesis R_refl : forall s, R s s.
  Hypothesis R_trans : forall a b c, R a b -> R b c -> R a c.

  Lemma anyV_mono : forall v st st', R st st' -> anyV st v -> anyV st' v.
  Proof. intros; exact I. Qed.
  Lemma cb_R_closed : forall cb s0, cb_R R s0 cb -> cb_closed R anyV s0 cb.
  Proof. intros cb s0 H this f args st r st' Hs _ _ _ E. split; [exact (H this f args st r st' Hs E)|intros; exact I]. Qed.
  Lemma cb_agree_same : forall cb s0, cb_agree R anyV s0 cb cb.
  Proof. intros cb s0 this f args st _ _ _ _. reflexivity. Qed.

  Lemma binop_impl_R : binop_R R binop_impl.
  Proof.
    intros cb s0 Hcb op l r st res st' Hs H.
    exact (proj1 (proj2 (binop_impl_agree R R_refl R_trans anyV anyV_mono anyV_VList (fun _ _ _ => I)
                           cb cb s0 (cb_agree_same cb s0) (cb_R_closed cb s0 Hcb) op l r st Hs I I) res st' H)).
  Qed.
  Lemma binop_all_R : forall o, binop_R R (binop_all o).
  Proof.
    intros o cb s0 Hcb op l r st res st' Hs H.
    exact (proj1 (proj2 (binop_all_agree_gen R R_refl R_trans anyV anyV_VList (fun _ _ _ => I) anyV_mono
                           cb cb s0 (cb_agree_same cb s0) (cb_R_closed cb s0 Hcb) o op l r st Hs I I) res st' H)).
  Qed.

  (* the built-in theorems state the conclusion about [snd (bu cb b args st)] *)
  Lemma builtin_R_of_post : forall (bu : callback -> builtin -> list value -> store -> outcome value * store),
    (forall cb s0, cb_R R s0 cb -> forall b args st, R s0 st -> R st (snd (bu cb b args st))) -> builtin_R R bu.
  Proof. intros bu Hbu cb s0 Hcb b args st res st' Hs H. specialize (Hbu cb s0 Hcb b args st Hs). rewrite H in Hbu. exact Hbu. Qed.

  Lemma builtin_impl_R : builtin_R R builtin_impl.
  Proof.
    apply builtin_R_of_post. intros cb s0 Hcb b args st Hs.
    exact (proj1 (proj2 (builtin_impl_agree R R_refl R_trans anyV anyV_mono anyV_VList (fun _ _ _ => I)
                           cb cb s0 (cb_agree_same cb s0) (cb_R_closed cb s0 Hcb) b args st Hs (anyV_all st args)))).
  Qed.
  Lemma builtin_full_R : builtin_R R builtin_full.
  Proof.
    apply builtin_R_of_post. intros cb s0 Hcb b args st Hs.
    exact (proj1 (proj2 (builtin_full_agree0_gen R R_refl R_trans anyV anyV_VList anyV_VRec anyV_VSpread (fun _ _ _ => I)
                           anyV_mono cb cb s0 (cb_agree_same cb s0) (cb_R_closed cb s0 Hcb) b args st Hs
                           (anyV_all st args)))).
  Qed.
  Lemma builtin_all_R : forall o, builtin_R R (builtin_all o).
  Proof.
    intros o. apply builtin_R_of_post. intros cb s0 Hcb b args st Hs.
    exact (proj1 (proj2 (builtin_all_agree_gen R R_refl R_trans anyV anyV_VList anyV_VRec anyV_VSpread (fun _ _ _ => I)
                           anyV_mono cb cb s0 (cb_agree_same cb s0) (cb_R_closed cb s0 Hcb) o b args st Hs
                           (anyV_all st args)))).
  Qed.
End Ops.
