(* JsonMaps.v — facts about the two map types of the JSON boundary (C06):
   BTreeMap insertion into a key-sorted association list (bmap_insert / bmap_collect) and
   IndexMap insertion (rec_insert / imap_collect); forallb along map, mapv and bmap_collect. *)
From Coq Require Import String Ascii List ZArith Bool Lia Sorted Permutation.
Require Import Blots.Num Blots.gen.Builtins Blots.Ast Blots.Value Blots.Outcome Blots.Json.
Require Import Blots.proofs.ValueInd Blots.proofs.Order Blots.proofs.AccessLaws.
Import ListNotations.
Open Scope list_scope.

Definition mapv {A B} (f : A -> B) (m : list (string * A)) : list (string * B) :=
  map (fun kv => let '(k, v) := kv in (k, f v)) m.
Definition keys {A} (m : list (string * A)) : list string := map fst m.

Lemma keys_mapv {A B} (f : A -> B) m : keys (mapv f m) = keys m.
Proof. induction m as [|[k v] m IH]; cbn; [reflexivity|]. now f_equal. Qed.
Lemma length_mapv {A B} (f : A -> B) m : length (mapv f m) = length m.
Proof. apply map_length. Qed.
Lemma mapv_mapv {A B C} (f : A -> B) (g : B -> C) m : mapv g (mapv f m) = mapv (fun x => g (f x)) m.
Proof. induction m as [|[k v] m IH]; cbn; [reflexivity|]. now f_equal. Qed.
Lemma mapv_ext_in {A B} (f g : A -> B) m :
  (forall k v, In (k, v) m -> f v = g v) -> mapv f m = mapv g m.
Proof.
  induction m as [|[k v] m IH]; cbn; [reflexivity|]. intros H. f_equal.
  - f_equal. apply (H k). now left.
  - apply IH. intros; eapply H; right; eauto.
Qed.
Lemma mapv_id {A} (m : list (string * A)) : mapv (fun x => x) m = m.
Proof. induction m as [|[k v] m IH]; cbn; [reflexivity|]. now f_equal. Qed.
Lemma in_mapv {A B} (f : A -> B) m k y :
  In (k, y) (mapv f m) -> exists x, In (k, x) m /\ y = f x.
Proof.
  induction m as [|[k' v] m IH]; cbn; [tauto|]. intros [E|H].
  - injection E as -> <-. eauto.
  - destruct (IH H) as (x & Hx & ->). eauto.
Qed.
Lemma rec_get_mapv {A B} (f : A -> B) m k : rec_get (mapv f m) k = option_map f (rec_get m k).
Proof.
  induction m as [|[k' v] m IH]; cbn; [reflexivity|]. destruct (String.eqb k k'); auto.
Qed.

(* forallb along map / mapv *)
Lemma forallb_ext_in' {A} (f g : A -> bool) l :
  (forall x, In x l -> f x = g x) -> forallb f l = forallb g l.
Proof.
  induction l as [|a l IH]; intros H; [reflexivity|]. cbn.
  rewrite (H a (or_introl eq_refl)), IH; [reflexivity|]. intros x Hx. apply H. now right.
Qed.
Lemma forallb_map_in {A B} (q : B -> bool) (p : A -> bool) (f : A -> B) l :
  (forall x, In x l -> p x = true -> q (f x) = true) ->
  forallb p l = true -> forallb q (map f l) = true.
Proof.
  intros H. rewrite !forallb_forall. intros Hp y Hy.
  apply in_map_iff in Hy as (x & <- & Hx). auto.
Qed.
Lemma forallb_mapv {A B} (q : B -> bool) (p : A -> bool) (f : A -> B) m :
  (forall k x, In (k, x) m -> p x = true -> q (f x) = true) ->
  forallb (fun kv => p (snd kv)) m = true -> forallb (fun kv => q (snd kv)) (mapv f m) = true.
Proof.
  intros H. rewrite !forallb_forall. intros Hp [k y] HI.
  apply in_mapv in HI as (x & Hx & ->). cbn. apply (H k x Hx). apply (Hp (k, x) Hx).
Qed.

(* ------------------------------------------------------------------ sortedness *)
Definition klt {A} (a b : string * A) : Prop := string_cmp (fst a) (fst b) = Lt.
Definition ksorted {A} (m : list (string * A)) : Prop := StronglySorted klt m.
Definition all_lt {A} (m : list (string * A)) (k : string) : Prop :=
  Forall (fun kv => string_cmp (fst kv) k = Lt) m.

Lemma scmp_lt_trans a b c : string_cmp a b = Lt -> string_cmp b c = Lt -> string_cmp a c = Lt.
Proof.
  intros H1 H2. rewrite (string_cmp_trans a b c); rewrite ?H1, ?H2; [reflexivity|discriminate..].
Qed.
Lemma scmp_gt_lt a b : string_cmp a b = Gt <-> string_cmp b a = Lt.
Proof. rewrite (string_cmp_antisym a b). destruct (string_cmp a b); cbn; split; congruence. Qed.
Lemma scmp_lt_neq a b : string_cmp a b = Lt -> a <> b.
Proof. intros H ->. rewrite string_cmp_refl in H. discriminate. Qed.

Lemma ksorted_mapv {A B} (f : A -> B) m : ksorted m <-> ksorted (mapv f m).
Proof.
  unfold ksorted. induction m as [|[k v] m IH]; cbn.
  - split; constructor.
  - split; intros H; inversion H as [|? ? Hs Hf]; subst; constructor.
    + now apply IH.
    + unfold mapv. rewrite Forall_map. eapply Forall_impl; [|exact Hf]. now intros [k' v'].
    + now apply IH.
    + unfold mapv in Hf. rewrite Forall_map in Hf. eapply Forall_impl; [|exact Hf]. now intros [k' v'].
Qed.

Lemma ksorted_NoDup {A} (m : list (string * A)) : ksorted m -> NoDup (keys m).
Proof.
  induction 1 as [|[k v] m Hs IH Hf]; cbn; constructor; [|assumption].
  intros HI. apply in_map_iff in HI as ([k' v'] & E & HI). cbn in E; subst k'.
  rewrite Forall_forall in Hf. specialize (Hf _ HI). unfold klt in Hf. cbn in Hf.
  now rewrite string_cmp_refl in Hf.
Qed.

(* ------------------------------------------------------------------ bmap_insert *)
Lemma bmap_insert_mapv {A B} (f : A -> B) m k v :
  bmap_insert (mapv f m) k (f v) = mapv f (bmap_insert m k v).
Proof.
  induction m as [|[k' v'] m IH]; cbn; [reflexivity|].
  destruct (string_cmp k k'); cbn; [reflexivity|reflexivity|]. f_equal. exact IH.
Qed.

Lemma bmap_insert_keys {A} (m : list (string * A)) k v k0 :
  In k0 (keys (bmap_insert m k v)) <-> k0 = k \/ In k0 (keys m).
Proof.
  induction m as [|[k' v'] m IH]; cbn; [intuition|].
  destruct (string_cmp k k') eqn:E; cbn.
  - apply string_cmp_eq in E. subst. intuition.
  - intuition.
  - rewrite IH. intuition.
Qed.

Lemma bmap_insert_in {A} (m : list (string * A)) k v k0 x :
  In (k0, x) (bmap_insert m k v) -> (k0 = k /\ x = v) \/ In (k0, x) m.
Proof.
  induction m as [|[k' v'] m IH]; cbn.
  - intros [E|[]]. injection E as <- <-. auto.
  - destruct (string_cmp k k') eqn:E; cbn.
    + apply string_cmp_eq in E. subst. intros [H|H]; [injection H as <- <-|]; auto.
    + intros [H|H]; [injection H as <- <-|]; auto.
    + intros [H|H]; auto. destruct (IH H); auto.
Qed.

Lemma bmap_insert_sorted {A} (m : list (string * A)) k v :
  ksorted m -> ksorted (bmap_insert m k v).
Proof.
  unfold ksorted. induction 1 as [|[k' v'] m Hs IH Hf]; cbn.
  - repeat constructor.
  - destruct (string_cmp k k') eqn:E.
    + constructor; [assumption|]. eapply Forall_impl; [|exact Hf]. now intros [k1 v1].
    + constructor; [now constructor|]. constructor; [exact E|].
      eapply Forall_impl; [|exact Hf]. intros [k1 v1]. unfold klt; cbn.
      intros H1. eapply scmp_lt_trans; eauto.
    + constructor; [assumption|]. rewrite Forall_forall. intros [k1 v1] HI.
      apply bmap_insert_in in HI as [[-> ->]|HI].
      * unfold klt; cbn. now apply scmp_gt_lt.
      * rewrite Forall_forall in Hf. now apply Hf.
Qed.

(* inserting a key above every present key appends *)
Lemma bmap_insert_above {A} (m : list (string * A)) k v :
  all_lt m k -> bmap_insert m k v = m ++ [(k, v)].
Proof.
  induction 1 as [|[k' v'] m H _ IH]; cbn; [reflexivity|].
  cbn in H. apply scmp_gt_lt in H. rewrite H. now rewrite IH.
Qed.

(* lookup after insertion *)
Lemma rec_get_bmap_insert {A} (m : list (string * A)) k v k0 :
  ksorted m ->
  rec_get (bmap_insert m k v) k0 = if String.eqb k0 k then Some v else rec_get m k0.
Proof.
  unfold ksorted. induction 1 as [|[k' v'] m Hs IH Hf]; cbn.
  - destruct (String.eqb k0 k); reflexivity.
  - destruct (string_cmp k k') eqn:E; cbn.
    + apply string_cmp_eq in E. subst k'. destruct (String.eqb k0 k); reflexivity.
    + destruct (String.eqb k0 k); reflexivity.
    + destruct (String.eqb_spec k0 k') as [->|Hne].
      * destruct (String.eqb_spec k' k) as [->|_]; [|reflexivity].
        rewrite string_cmp_refl in E. discriminate.
      * apply IH.
Qed.

(* ------------------------------------------------------------------ bmap_collect *)
Definition bfold {A} (l acc : list (string * A)) : list (string * A) :=
  fold_left (fun acc kv => bmap_insert acc (fst kv) (snd kv)) l acc.
Lemma bmap_collect_bfold {A} (l : list (string * A)) : bmap_collect l = bfold l [].
Proof. reflexivity. Qed.

Lemma bfold_sorted {A} (l acc : list (string * A)) : ksorted acc -> ksorted (bfold l acc).
Proof.
  revert acc; induction l as [|[k v] l IH]; intros acc H; cbn; [assumption|].
  apply IH. now apply bmap_insert_sorted.
Qed.
Lemma bmap_collect_sorted {A} (l : list (string * A)) : ksorted (bmap_collect l).
Proof. apply bfold_sorted. constructor. Qed.

(* collecting with an insertion that commutes with mapv commutes with mapv *)
Lemma fold_insert_mapv {A B} (f : A -> B) (insA : list (string * A) -> string -> A -> list (string * A))
      (insB : list (string * B) -> string -> B -> list (string * B)) :
  (forall m k v, insB (mapv f m) k (f v) = mapv f (insA m k v)) ->
  forall l acc,
    fold_left (fun acc kv => insB acc (fst kv) (snd kv)) (mapv f l) (mapv f acc)
    = mapv f (fold_left (fun acc kv => insA acc (fst kv) (snd kv)) l acc).
Proof.
  intros H. induction l as [|[k v] l IH]; intros acc; cbn; [reflexivity|]. rewrite H. apply IH.
Qed.
Lemma bmap_collect_mapv {A B} (f : A -> B) l : bmap_collect (mapv f l) = mapv f (bmap_collect l).
Proof. apply (fold_insert_mapv f _ _ (bmap_insert_mapv f) l []). Qed.

Lemma bfold_in {A} (l acc : list (string * A)) k x :
  In (k, x) (bfold l acc) -> In (k, x) l \/ In (k, x) acc.
Proof.
  revert acc; induction l as [|[k' v'] l IH]; intros acc; cbn; [auto|].
  intros H. destruct (IH _ H) as [H1|H1]; [auto|].
  apply bmap_insert_in in H1 as [[-> ->]|H1]; auto.
Qed.
Lemma bmap_collect_in {A} (l : list (string * A)) k x : In (k, x) (bmap_collect l) -> In (k, x) l.
Proof. intros H. destruct (bfold_in l [] k x H) as [H1|[]]. exact H1. Qed.

Lemma forallb_collect {A} (p : string * A -> bool) l : forallb p l = true -> forallb p (bmap_collect l) = true.
Proof.
  rewrite !forallb_forall. intros H [k x] Hx. apply H. now apply bmap_collect_in.
Qed.

Lemma bfold_keys {A} (l acc : list (string * A)) k :
  In k (keys (bfold l acc)) <-> In k (keys l) \/ In k (keys acc).
Proof.
  unfold bfold. revert acc; induction l as [|[k' v'] l IH]; intros acc; cbn [fold_left fst snd]; [cbn; intuition|].
  rewrite IH, bmap_insert_keys. cbn. intuition.
Qed.
Lemma bmap_collect_keys {A} (l : list (string * A)) k : In k (keys (bmap_collect l)) <-> In k (keys l).
Proof. unfold bmap_collect. change (In k (keys (bfold l [])) <-> In k (keys l)). rewrite bfold_keys. cbn. intuition. Qed.

(* collecting an already sorted sequence is the identity (a serde_json::Value re-serialised and
   re-read, or iterated and re-collected, is unchanged) *)
Lemma bfold_sorted_id {A} (l acc : list (string * A)) : ksorted (acc ++ l) -> bfold l acc = acc ++ l.
Proof.
  unfold bfold. revert acc; induction l as [|[k v] l IH]; intros acc H; cbn; [now rewrite app_nil_r|].
  rewrite bmap_insert_above.
  - rewrite IH; rewrite <- app_assoc; [reflexivity|exact H].
  - clear IH. unfold ksorted in H. induction acc as [|[k' v'] acc IHa]; [constructor|].
    cbn in H. inversion H as [|? ? Hs Hf]; subst. constructor.
    + rewrite Forall_forall in Hf. apply (Hf (k, v)). apply in_or_app. right. now left.
    + now apply IHa.
Qed.
Lemma bmap_collect_sorted_id {A} (l : list (string * A)) : ksorted l -> bmap_collect l = l.
Proof. intros H. apply (bfold_sorted_id l []). exact H. Qed.
Lemma bmap_collect_idem {A} (l : list (string * A)) : bmap_collect (bmap_collect l) = bmap_collect l.
Proof. apply bmap_collect_sorted_id, bmap_collect_sorted. Qed.

(* lookup in the collected map = the LAST binding of the key in the sequence *)
Fixpoint get_last {A} (l : list (string * A)) (k : string) : option A :=
  match l with
  | [] => None
  | (k', v) :: r => match get_last r k with Some x => Some x | None => if String.eqb k k' then Some v else None end
  end.
Lemma rec_get_bfold {A} (l acc : list (string * A)) k :
  ksorted acc ->
  rec_get (bfold l acc) k = match get_last l k with Some x => Some x | None => rec_get acc k end.
Proof.
  unfold bfold. revert acc; induction l as [|[k' v'] l IH]; intros acc H; cbn; [reflexivity|].
  rewrite IH by now apply bmap_insert_sorted.
  destruct (get_last l k); [reflexivity|]. rewrite rec_get_bmap_insert by assumption.
  now destruct (String.eqb k k').
Qed.
Lemma rec_get_bmap_collect {A} (l : list (string * A)) k : rec_get (bmap_collect l) k = get_last l k.
Proof.
  unfold bmap_collect. change (rec_get (bfold l []) k = get_last l k).
  rewrite rec_get_bfold by constructor. now destruct (get_last l k).
Qed.
Lemma get_last_NoDup {A} (l : list (string * A)) k : NoDup (keys l) -> get_last l k = rec_get l k.
Proof.
  induction l as [|[k' v] l IH]; cbn; [reflexivity|]. intros H. inversion H as [|? ? Hn Hnd]; subst.
  rewrite (IH Hnd). destruct (String.eqb_spec k k') as [->|Hne]; [|now destruct (rec_get l k)].
  now rewrite (rec_get_notin_None l k' Hn).
Qed.

(* with unique keys nothing is lost: same length, a permutation *)
Lemma bmap_insert_perm {A} (m : list (string * A)) k v :
  ~ In k (keys m) -> Permutation ((k, v) :: m) (bmap_insert m k v).
Proof.
  induction m as [|[k' v'] m IH]; cbn; [reflexivity|]. intros Hn.
  destruct (string_cmp k k') eqn:E.
  - apply string_cmp_eq in E. subst. tauto.
  - reflexivity.
  - etransitivity; [apply perm_swap|]. apply perm_skip. apply IH. tauto.
Qed.
Lemma bfold_perm {A} (l acc : list (string * A)) :
  NoDup (keys (acc ++ l)) -> Permutation (acc ++ l) (bfold l acc).
Proof.
  unfold bfold. revert acc; induction l as [|[k v] l IH]; intros acc H; cbn; [now rewrite app_nil_r|].
  assert (Hn : ~ In k (keys acc)).
  { unfold keys in H. rewrite map_app in H. cbn in H. apply NoDup_remove_2 in H.
    intros HI. apply H. apply in_or_app. now left. }
  etransitivity; [|apply IH].
  - etransitivity; [symmetry; apply Permutation_middle|].
    apply (Permutation_app_tail l (l:=(k, v) :: acc)). now apply bmap_insert_perm.
  - unfold keys in *. rewrite map_app in *. cbn in H.
    eapply Permutation_NoDup; [|exact H].
    etransitivity; [symmetry; apply Permutation_middle|].
    apply (Permutation_app_tail (map fst l) (l:=k :: map fst acc)).
    apply (Permutation_map fst (bmap_insert_perm acc k v Hn)).
Qed.
Lemma bmap_collect_perm {A} (l : list (string * A)) : NoDup (keys l) -> Permutation l (bmap_collect l).
Proof. intros H. apply (bfold_perm l []). exact H. Qed.

(* ------------------------------------------------------------------ IndexMap *)
Lemma rec_insert_mapv {A B} (f : A -> B) m k v :
  rec_insert (mapv f m) k (f v) = mapv f (rec_insert m k v).
Proof.
  induction m as [|[k' v'] m IH]; cbn; [reflexivity|].
  destruct (String.eqb k k'); cbn; [reflexivity|]. f_equal. exact IH.
Qed.
Definition ifold {A} (l acc : list (string * A)) : list (string * A) :=
  fold_left (fun acc kv => rec_insert acc (fst kv) (snd kv)) l acc.
Lemma ifold_NoDup {A} (l acc : list (string * A)) : NoDup (keys (acc ++ l)) -> ifold l acc = acc ++ l.
Proof.
  unfold ifold. revert acc; induction l as [|[k v] l IH]; intros acc H; cbn; [now rewrite app_nil_r|].
  rewrite rec_insert_fresh.
  - rewrite IH; rewrite <- app_assoc; [reflexivity|exact H].
  - unfold keys in H. rewrite map_app in H. cbn in H. apply NoDup_remove_2 in H.
    intros HI. apply H. apply in_or_app. now left.
Qed.
(* an iterator with unique keys collects to itself *)
Lemma imap_collect_NoDup {A} (l : list (string * A)) : NoDup (keys l) -> imap_collect l = l.
Proof. intros H. apply (ifold_NoDup l []). exact H. Qed.
Lemma imap_collect_mapv {A B} (f : A -> B) l : imap_collect (mapv f l) = mapv f (imap_collect l).
Proof. apply (fold_insert_mapv f _ _ (rec_insert_mapv f) l []). Qed.

Lemma nodup_keys_keys {A} (r : list (string * A)) : nodup_keys r = true <-> NoDup (keys r).
Proof. apply nodup_keys_NoDup. Qed.
