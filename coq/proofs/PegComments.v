(* proofs/PegComments.v — the parser half of C09: pairs_to_expr_with_comments (PegComments.v) keeps every
   comment of the token stream, in order, outside the class C09-empty-container. *)
From Coq Require Import String Ascii List NArith ZArith Bool Arith Lia.
Require Import Blots.Num Blots.gen.Builtins Blots.Ast Blots.Outcome Blots.PrattTypes Blots.gen.PrecTable
               Blots.Pratt Blots.Formatter.
Require Import Blots.Peg Blots.gen.Grammar Blots.PegToItems Blots.PegComments Blots.proofs.PrattSteps
               Blots.proofs.PrattRend Blots.proofs.Idempotent.
Import ListNotations.
Local Open Scope string_scope.
Local Open Scope list_scope.
Local Open Scope nat_scope.
Local Notation expr := Ast.expr.

(* ------------------------------------------------------------------ split_nl / trailing fields *)
Lemma split_nl_app_nl : forall a b, split_nl (a +++ String NLc b) = split_nl a ++ split_nl b.
Proof.
  induction a as [|c r IH]; intro b.
  - change ("" +++ String NLc b) with (String NLc b). cbn [split_nl]. rewrite Ascii.eqb_refl. reflexivity.
  - change (String c r +++ String NLc b) with (String c (r +++ String NLc b)).
    cbn [split_nl]. destruct (Ascii.eqb c NLc).
    + rewrite IH. reflexivity.
    + rewrite IH. pose proof (split_nl_nonempty r) as Hn.
      destruct (split_nl r) as [|x t]; [congruence|]. reflexivity.
Qed.

Lemma split_nl_nlfree : forall s, nl_free s = true -> split_nl s = [s].
Proof.
  unfold nl_free. induction s as [|c r IH]; intro H; [reflexivity|].
  cbn [contains_nl] in H. cbn [split_nl].
  destruct (Ascii.eqb c NLc); [discriminate H|]. cbn [orb] in H. rewrite (IH H). reflexivity.
Qed.

Lemma split_nl_sjoin : forall l, l <> [] -> forallb nl_free l = true -> split_nl (Formatter.sjoin nl l) = l.
Proof.
  induction l as [|x r IH]; intros Hne H; [congruence|].
  cbn [forallb] in H. apply andb_prop in H as [Hx Hr].
  destruct r as [|y r'].
  - cbn [sjoin]. apply split_nl_nlfree; exact Hx.
  - change (Formatter.sjoin nl (x :: y :: r')) with (x +++ nl +++ Formatter.sjoin nl (y :: r')).
    unfold nl at 1. change (String NLc "" +++ Formatter.sjoin nl (y :: r')) with (String NLc (Formatter.sjoin nl (y :: r'))).
    rewrite split_nl_app_nl, (split_nl_nlfree x Hx), IH; [reflexivity|discriminate|exact Hr].
Qed.

Lemma trailing_opt : forall o, onl_free o = true -> trailing_comments o = opt_list o.
Proof. intros [s|] H; [|reflexivity]. cbn. apply split_nl_nlfree; exact H. Qed.

(* ------------------------------------------------------------------ comments of commented sequences *)
Definition ccs {A} (g : A -> list string) (l : list (commented A)) : list string :=
  flat_map (fun c => cleading c ++ g (cnode c) ++ trailing_comments (ctrailing c)) l.

Lemma items_comments_ccs : forall f l, Formatter.items_comments f l = ccs f l.
Proof.
  intros f l. induction l as [|[ld n tr] r IH]; [reflexivity|].
  cbn [Formatter.items_comments ccs flat_map cleading cnode ctrailing]. rewrite IH.
  unfold ccs. rewrite <- !app_assoc. reflexivity.
Qed.
Lemma entries_comments_ccs : forall f l, entries_comments f l = ccs (entry_comments f) l.
Proof.
  intros f l. induction l as [|[ld n tr] r IH]; [reflexivity|].
  cbn [entries_comments ccs flat_map cleading cnode ctrailing]. rewrite IH.
  unfold ccs. rewrite <- !app_assoc. reflexivity.
Qed.
Lemma ccs_app {A} (g : A -> list string) a b : ccs g (a ++ b) = ccs g a ++ ccs g b.
Proof. unfold ccs. apply flat_map_app. Qed.
Lemma ccs_one {A} (g : A -> list string) ld n tr :
  ccs g [Cm ld n tr] = ld ++ g n ++ trailing_comments tr.
Proof. unfold ccs. cbn. rewrite app_nil_r. reflexivity. Qed.

(* "attach any remaining comments to the last item": nothing is lost when there is an item *)
Lemma attach_after_last_keeps {A} (g : A -> list string) (elements : list (commented A)) pending :
  forallb nl_free pending = true ->
  (pending <> [] -> elements <> []) ->
  ccs g (attach_after_last elements pending) = ccs g elements ++ pending.
Proof.
  intros Hnl Hne. unfold attach_after_last.
  destruct pending as [|p ps]; [rewrite app_nil_r; reflexivity|].
  assert (Hel : elements <> []) by (apply Hne; discriminate).
  destruct (rev elements) as [|[l x tr] before] eqn:Hr.
  - apply (f_equal (@rev _)) in Hr. rewrite rev_involutive in Hr. cbn in Hr. congruence.
  - assert (He : elements = rev before ++ [Cm l x tr]).
    { apply (f_equal (@rev _)) in Hr. rewrite rev_involutive in Hr. cbn in Hr. exact Hr. }
    rewrite He. rewrite !ccs_app, !ccs_one. rewrite <- !app_assoc. f_equal. f_equal. f_equal.
    destruct tr as [t|].
    + cbn [trailing_comments]. unfold nl at 1.
      change (t +++ String NLc "" +++ Formatter.sjoin nl (p :: ps)) with (t +++ String NLc (Formatter.sjoin nl (p :: ps))).
      rewrite split_nl_app_nl, split_nl_sjoin; [reflexivity|discriminate|exact Hnl].
    + cbn [trailing_comments]. rewrite split_nl_sjoin; [reflexivity|discriminate|exact Hnl].
Qed.

(* ------------------------------------------------------------------ the nested fixpoints, unfolded
   (the local fixpoints of item_comments are convertible with the top-level functions; those of item_all are not:
   the top-level ones take the predicate as an argument of the fixpoint) *)
Lemma item_comments_eq : forall i,
  item_comments i =
  match i with
  | IExpr _ g | ILambda _ g | IAssign _ g | IAccess g => items_comments g
  | ICond c t e => items_comments c ++ items_comments t ++ items_comments e
  | IList els => lels_comments els
  | IRecord els => rels_comments els
  | IDo els => dels_comments els
  | ICall args => args_comments args
  | _ => []
  end.
Proof. destruct i; reflexivity. Qed.

Section All.
  Variable P : item -> bool.
  Lemma all_eq : forall l,
    (fix all (l : list item) : bool :=
       match l with [] => true | x :: r => item_all P x && all r end) l = items_all P l.
  Proof. induction l as [|x l IH]; [reflexivity|]. cbn [items_all]. rewrite <- IH. reflexivity. Qed.
  Lemma item_all_eq : forall i,
    item_all P i =
    P i && match i with
           | IExpr _ g | ILambda _ g | IAssign _ g | IAccess g => items_all P g
           | ICond c t e => items_all P c && items_all P t && items_all P e
           | IList els => lels_all P els
           | IRecord els => rels_all P els
           | IDo els => dels_all P els
           | ICall args => args_all P args
           | _ => true
           end.
  Proof.
    destruct i; cbn [item_all]; rewrite ?all_eq; try reflexivity; f_equal.
    - induction els as [|[c|g eol] r IH]; cbn [lels_all]; rewrite <- ?IH, ?all_eq; reflexivity.
    - induction els as [|[c|k v eol|s eol|g eol] r IH]; cbn [rels_all]; rewrite <- ?IH, ?all_eq; try reflexivity.
      destruct k; rewrite ?all_eq; reflexivity.
    - induction els as [|[g c|s c|g|s] r IH]; cbn [dels_all]; rewrite <- ?IH, ?all_eq; reflexivity.
    - induction args as [|g r IH]; cbn [args_all]; rewrite <- ?IH, ?all_eq; reflexivity.
  Qed.
End All.

(* ------------------------------------------------------------------ "good" = grammar shape and outside the exclusion *)
Definition goodi (i : item) : Prop := shape_ok i = true /\ no_empty_container i = true.
Definition good (l : list item) : Prop := shapes_ok l = true /\ no_empty_containers l = true.
Definition lgood (l : list lelem) : Prop := lels_all shape_here l = true /\ lels_all attachable_here l = true.
Definition rgood (l : list relem) : Prop := rels_all shape_here l = true /\ rels_all attachable_here l = true.
Definition dgood (l : list delem) : Prop := dels_all shape_here l = true /\ dels_all attachable_here l = true.
Definition agood (l : list (list item)) : Prop := args_all shape_here l = true /\ args_all attachable_here l = true.

(* splits every conjunction among the hypotheses, boolean (&& = true) or propositional *)
Ltac split_and :=
  repeat match goal with
         | H : _ && _ = true |- _ => apply andb_prop in H; destruct H
         | H : _ /\ _ |- _ => destruct H
         end.

Lemma good_nil : good []. Proof. split; reflexivity. Qed.
Lemma good_cons x r : good (x :: r) -> goodi x /\ good r.
Proof. unfold good, goodi, shapes_ok, no_empty_containers, shape_ok, no_empty_container. cbn [items_all]. intros; split_and. auto. Qed.
Lemma goodi_inv i : goodi i ->
  match i with
  | IExpr _ g | ILambda _ g | IAssign _ g | IAccess g => good g
  | ICond c t e => good c /\ good t /\ good e
  | ICall args => agood args
  | IList els => forallb lelem_shape els = true /\ lels_attachable els = true /\ lgood els
  | IRecord els => forallb relem_shape els = true /\ rels_attachable els = true /\ rgood els
  | IDo els => do_shape els = true /\ dgood els
  | _ => True
  end.
Proof.
  unfold goodi, good, agood, lgood, rgood, dgood, shapes_ok, no_empty_containers, shape_ok, no_empty_container.
  rewrite !item_all_eq. destruct i; cbn [shape_here attachable_here]; intros; split_and; auto.
Qed.
Lemma agood_cons g r : agood (g :: r) -> good g /\ agood r.
Proof. unfold agood, good, shapes_ok, no_empty_containers. cbn [args_all]. intros; split_and; auto. Qed.

(* ------------------------------------------------------------------ the container loops *)
(* What the list / record loop, started with [elements] and [pending] on inner pairs whose comments are [cs],
   returns ([el'], [pd']): every comment is in an element or still pending, in order; an item among the pairs
   ([has_item]) gives a last element to attach to; with items only ([all_items]) nothing is pending. *)
Definition loop_post {A} (g : A -> list string) (elements : list (commented A)) (pending cs : list string)
           (has_item all_items : bool) (el' : list (commented A)) (pd' : list string) : Prop :=
  ccs g elements ++ pending ++ cs = ccs g el' ++ pd'
  /\ forallb nl_free pd' = true
  /\ (elements <> [] \/ has_item = true -> el' <> [])
  /\ (all_items = true -> pending = [] -> pd' = []).

Lemma loop_post_nil {A} (g : A -> list string) elements pending :
  forallb nl_free pending = true -> loop_post g elements pending [] false true elements pending.
Proof.
  intro Hp. split; [rewrite app_nil_r; reflexivity|split; [exact Hp|split]].
  - intros [H|H]; [exact H|discriminate H].
  - intros _ Hq. exact Hq.
Qed.
Lemma loop_post_comment {A} (g : A -> list string) elements pending c cs h a el' pd' :
  loop_post g elements (pending ++ [c]) cs h a el' pd' -> loop_post g elements pending (c :: cs) h false el' pd'.
Proof.
  intros (E & Hn & Hne & _). split; [|split; [exact Hn|split; [exact Hne|discriminate]]].
  rewrite <- E, <- !app_assoc. reflexivity.
Qed.
Lemma loop_post_item {A} (g : A -> list string) elements pending x eol cs h a el' pd' :
  onl_free eol = true ->
  loop_post g (elements ++ [Cm pending x eol]) [] cs h a el' pd' ->
  loop_post g elements pending (g x ++ opt_list eol ++ cs) true a el' pd'.
Proof.
  intros Hc (E & Hn & Hne & Hall). split; [|split; [exact Hn|split]].
  - rewrite <- E, ccs_app, ccs_one, (trailing_opt eol Hc), <- !app_assoc. reflexivity.
  - intros _. apply Hne. left. destruct elements; discriminate.
  - intros Ha _. apply Hall; [exact Ha|reflexivity].
Qed.
(* "attach any remaining comments to the last item" after the loop *)
Lemma loop_post_attach {A} (g : A -> list string) cs h a el' pd' :
  loop_post g [] [] cs h a el' pd' -> h || a = true -> ccs g (attach_after_last el' pd') = cs.
Proof.
  intros (E & Hn & Hne & Hall) Ha. rewrite attach_after_last_keeps; [symmetry; exact E|exact Hn|].
  intro Hpd. apply orb_prop in Ha as [Ha|Ha]; [apply Hne; right; exact Ha|].
  exfalso. apply Hpd. apply Hall; [exact Ha|reflexivity].
Qed.

Section Loops.
  Variable parse : list item -> outcome tres.
  Hypothesis parse_keeps : forall g e, good g -> parse g = Outcome.Ok (Some e) -> items_comments g = expr_comments e.

  Lemma list_loop_keeps : forall els pending elements el' pd',
    lgood els -> forallb lelem_shape els = true -> forallb nl_free pending = true ->
    list_loop_c parse els pending elements = Outcome.Ok (Some (el', pd')) ->
    loop_post expr_comments elements pending (lels_comments els) (existsb l_is_item els) (forallb l_is_item els) el' pd'.
  Proof.
    induction els as [|[c|g eol] r IH]; intros pending elements el' pd' Hg Hs Hp H;
      cbn [list_loop_c] in H; cbn [forallb lelem_shape] in Hs; try (apply andb_prop in Hs as [Hc Hs]);
      unfold lgood in Hg; cbn [lels_all] in Hg; cbn [lels_comments existsb forallb l_is_item orb andb].
    - inversion H; subst. apply loop_post_nil. exact Hp.
    - eapply loop_post_comment. apply IH; [exact Hg|exact Hs| |exact H].
      rewrite forallb_app. cbn. rewrite Hp, Hc. reflexivity.
    - destruct Hg as [Hg1 Hg2]. apply andb_prop in Hg1 as [Hga Hgb]. apply andb_prop in Hg2 as [Hgc Hgd].
      destruct (parse g) as [[e|]| | | |] eqn:Hpg; cbn [obind] in H; try discriminate H.
      rewrite (parse_keeps g e (conj Hga Hgc) Hpg).
      eapply loop_post_item; [exact Hc|]. apply IH; [split; assumption|exact Hs|reflexivity|exact H].
  Qed.

  Lemma list_arm_keeps : forall els t,
    lgood els -> forallb lelem_shape els = true -> lels_attachable els = true ->
    list_arm_c parse els = Outcome.Ok (Some t) -> lels_comments els = expr_comments t.
  Proof.
    intros els t Hg Hs Ha H. unfold list_arm_c in H.
    destruct (list_loop_c parse els [] []) as [[[el' pd']|]| | | |] eqn:Hl; cbn in H; try discriminate H.
    inversion H; subst t. cbn [expr_comments]. rewrite items_comments_ccs. symmetry.
    exact (loop_post_attach _ _ _ _ _ _ (list_loop_keeps _ [] [] _ _ Hg Hs eq_refl Hl) Ha).
  Qed.

  Lemma key_of_keeps : forall k key val,
    match k with RKDyn inner => good inner | _ => True end ->
    key_of parse k = Outcome.Ok (Some key) ->
    match k with RKDyn inner => items_comments inner | _ => [] end ++ expr_comments val
    = entry_comments expr_comments (REntry key val).
  Proof.
    intros [s|s|inner] key val Hg H; cbn [key_of] in H; try (inversion H; reflexivity).
    destruct (parse inner) as [[d|]| | | |] eqn:Hp; cbn in H; try discriminate H.
    inversion H; subst key. cbn [entry_comments]. rewrite (parse_keeps _ _ Hg Hp). reflexivity.
  Qed.

  Lemma rec_loop_keeps : forall els pending entries el' pd',
    rgood els -> forallb relem_shape els = true -> forallb nl_free pending = true ->
    rec_loop_c parse els pending entries = Outcome.Ok (Some (el', pd')) ->
    loop_post (entry_comments expr_comments) entries pending (rels_comments els)
              (existsb r_is_item els) (forallb r_is_item els) el' pd'.
  Proof.
    induction els as [|[c|k v eol|sh eol|g eol] r IH]; intros pending entries el' pd' Hg Hs Hp H;
      cbn [rec_loop_c] in H; cbn [forallb relem_shape] in Hs; try (apply andb_prop in Hs as [Hc Hs]);
      unfold rgood in Hg; cbn [rels_all] in Hg; cbn [rels_comments existsb forallb r_is_item orb andb].
    - inversion H; subst. apply loop_post_nil. exact Hp.
    - eapply loop_post_comment. apply IH; [exact Hg|exact Hs| |exact H].
      rewrite forallb_app. cbn. rewrite Hp, Hc. reflexivity.
    - destruct Hg as [Hg1 Hg2].
      apply andb_prop in Hg1 as [Hg1 Hgb]. apply andb_prop in Hg1 as [Hgk1 Hgv1].
      apply andb_prop in Hg2 as [Hg2 Hgd]. apply andb_prop in Hg2 as [Hgk2 Hgv2].
      destruct (key_of parse k) as [[key|]| | | |] eqn:Hk; cbn [obind] in H; try discriminate H.
      destruct (parse v) as [[val|]| | | |] eqn:Hv; cbn [obind] in H; try discriminate H.
      rewrite (parse_keeps v val (conj Hgv1 Hgv2) Hv), app_assoc.
      rewrite (key_of_keeps k key val); [|destruct k; try exact I; split; assumption|exact Hk].
      eapply loop_post_item; [exact Hc|]. apply IH; [split; assumption|exact Hs|reflexivity|exact H].
    - eapply (loop_post_item (entry_comments expr_comments) _ _ (REntry (KShort sh) ENull)); [exact Hc|].
      apply IH; [exact Hg|exact Hs|reflexivity|exact H].
    - destruct Hg as [Hg1 Hg2]. apply andb_prop in Hg1 as [Hga Hgb]. apply andb_prop in Hg2 as [Hgc Hgd].
      destruct (parse g) as [[e|]| | | |] eqn:Hpg; cbn [obind] in H; try discriminate H.
      rewrite (parse_keeps g e (conj Hga Hgc) Hpg).
      eapply (loop_post_item (entry_comments expr_comments) _ _ (REntry (KSpread e) ENull)); [exact Hc|].
      apply IH; [split; assumption|exact Hs|reflexivity|exact H].
  Qed.

  Lemma rec_arm_keeps : forall els t,
    rgood els -> forallb relem_shape els = true -> rels_attachable els = true ->
    rec_arm_c parse els = Outcome.Ok (Some t) -> rels_comments els = expr_comments t.
  Proof.
    intros els t Hg Hs Ha H. unfold rec_arm_c in H.
    destruct (rec_loop_c parse els [] []) as [[[el' pd']|]| | | |] eqn:Hl; cbn in H; try discriminate H.
    inversion H; subst t. cbn [expr_comments]. rewrite entries_comments_ccs. symmetry.
    exact (loop_post_attach _ _ _ _ _ _ (rec_loop_keeps _ [] [] _ _ Hg Hs eq_refl Hl) Ha).
  Qed.

  Lemma do_loop_keeps : forall els pending stmts ret t,
    dgood els -> do_shape els = true ->
    do_loop_c parse els pending stmts ret = Outcome.Ok (Some t) ->
    ccs expr_comments stmts ++ pending ++ dels_comments els = expr_comments t.
  Proof.
    induction els as [|[g c|s c|g|s] r IH]; intros pending stmts ret t Hg Hs H.
    - discriminate Hs.
    - cbn [do_loop_c] in H. unfold dgood in Hg. cbn [dels_all] in Hg. destruct Hg as [Hg1 Hg2].
      apply andb_prop in Hg1 as [Hga Hgb]. apply andb_prop in Hg2 as [Hgc Hgd].
      assert (Hs' : onl_free c = true /\ do_shape r = true).
      { cbn [do_shape] in Hs. apply andb_prop in Hs. exact Hs. }
      destruct Hs' as [Hc Hs'].
      destruct (parse g) as [[e|]| | | |] eqn:Hpg; cbn [obind] in H; try discriminate H.
      apply IH in H; [|split; assumption|exact Hs'].
      rewrite <- H. rewrite ccs_app, ccs_one. cbn [dels_comments app]. rewrite <- !app_assoc.
      rewrite (parse_keeps g e (conj Hga Hgc) Hpg), (trailing_opt c Hc). reflexivity.
    - cbn [do_loop_c] in H. unfold dgood in Hg. cbn [dels_all] in Hg.
      cbn [do_shape] in Hs. apply andb_prop in Hs as [Hs Hs']. apply andb_prop in Hs as [Hsn Hc].
      destruct c; [discriminate Hc|].
      apply IH in H; [|exact Hg|exact Hs'].
      rewrite <- H. cbn [dels_comments opt_list app]. rewrite <- !app_assoc. reflexivity.
    - cbn [do_loop_c] in H. unfold dgood in Hg. cbn [dels_all] in Hg. destruct Hg as [Hg1 Hg2].
      apply andb_prop in Hg1 as [Hga Hgb]. apply andb_prop in Hg2 as [Hgc Hgd].
      destruct r as [|x r']; [|cbn [do_shape] in Hs; discriminate Hs].
      destruct (parse g) as [[e|]| | | |] eqn:Hpg; cbn [obind] in H; try discriminate H.
      cbn [do_loop_c] in H. inversion H; subst t.
      cbn [expr_comments dels_comments trailing_comments]. rewrite items_comments_ccs, !app_nil_r.
      rewrite (parse_keeps g e (conj Hga Hgc) Hpg). reflexivity.
    - cbn [do_loop_c] in H. unfold dgood in Hg. cbn [dels_all] in Hg.
      cbn [do_shape] in Hs. apply andb_prop in Hs as [Hsn Hs'].
      apply IH in H; [|exact Hg|exact Hs'].
      rewrite <- H. cbn [dels_comments app]. rewrite <- !app_assoc. reflexivity.
  Qed.

  Lemma omapM_keeps : forall args es,
    agood args -> omapM parse args = Outcome.Ok (Some es) -> args_comments args = flat_map expr_comments es.
  Proof.
    induction args as [|g r IH]; intros es Hg H.
    - cbn in H. inversion H; reflexivity.
    - apply agood_cons in Hg as [Hg Hr]. cbn [omapM] in H.
      destruct (parse g) as [[e|]| | | |] eqn:Hp; cbn [obind] in H; try discriminate H.
      destruct (omapM parse r) as [[es'|]| | | |] eqn:Hm; cbn [obind option_map] in H; try discriminate H.
      inversion H; subst es. cbn [args_comments flat_map].
      rewrite (parse_keeps g e Hg Hp), (IH es' Hr eq_refl). reflexivity.
  Qed.
End Loops.

(* a successful bind: name the intermediate result [x] and its equation [Hx] *)
Ltac bind_ok H x Hx := apply obind_ok in H as (x & Hx & H); cbv beta in H.

(* ------------------------------------------------------------------ the Pratt loop keeps the order *)
Section Main.
  Variable tbl : ops_map.
  Variable imap : list (oprule * binop).
  Variable pmap : list (oprule * prefix_ctor).
  Hypothesis tbl_pos : forall r a p, ops_get tbl r = Some (a, p) -> 0 < p.
  Hypothesis tbl_postfix : forall r a p,
    r = R_access \/ r = R_dot_access \/ r = R_call_list -> ops_get tbl r = Some (a, p) -> a = Postfix.

  Local Notation PE := (pexpr_c tbl imap pmap).
  Local Notation PL := (ploop_c tbl imap pmap).
  Local Notation PO := (map_postfix_c tbl imap pmap).
  Local Notation PR := (primary_c tbl imap pmap).
  Local Notation PI := (parse_items_c tbl imap pmap).

  Lemma PE_S f rbp its : PE (S f) rbp its =
    match its with
    | [] => Outcome.Panic
    | pr0 :: rest =>
        obind (match item_op pr0 with
               | Some r =>
                   match ops_get tbl r with
                   | Some (Prefix, p) =>
                       obind (PE f (p - 1) rest) (fun rr =>
                       obind (map_prefix pmap r (fst rr)) (fun e => Outcome.Ok (e, snd rr)))
                   | Some _ => Outcome.Panic
                   | None => Outcome.Panic
                   end
               | None => obind (PR f pr0) (fun e => Outcome.Ok (e, rest))
               end) (fun lr => PL f rbp (fst lr) (snd lr))
    end.
  Proof. reflexivity. Qed.
  Lemma PL_S f rbp lhs its : PL (S f) rbp lhs its =
    obind (lbp tbl its) (fun l =>
      if Nat.ltb rbp l then
        match its with
        | [] => Outcome.Panic
        | pr0 :: rest =>
            match item_op pr0 with
            | Some r =>
                match ops_get tbl r with
                | Some (Infix a, p) =>
                    obind (PE f (match a with ALeft => p | ARight => p - 1 end) rest) (fun rr =>
                    obind (map_infix imap lhs r (fst rr)) (fun e => PL f rbp e (snd rr)))
                | Some (Postfix, _) => obind (PO f lhs pr0) (fun e => PL f rbp e rest)
                | _ => Outcome.Panic
                end
            | None => Outcome.Panic
            end
        end
      else Outcome.Ok (lhs, its)).
  Proof. reflexivity. Qed.
  Lemma PI_S f its : PI (S f) its = obind (PE f 0 its) (fun r => Outcome.Ok (fst r)).
  Proof. reflexivity. Qed.

  Lemma map_infix_none r x e : map_infix imap None r x = Outcome.Ok e -> e = None.
  Proof. unfold map_infix. destruct (assoc_find r imap); intro H; inversion H. reflexivity. Qed.
  Lemma PO_none f pr0 e : PO f None pr0 = Outcome.Ok e -> e = None.
  Proof.
    destruct f; [discriminate|]. cbn [map_postfix_c].
    destruct pr0; try discriminate.
    - destruct r; try discriminate. intro H; inversion H; reflexivity.
    - intro H. bind_ok H i Hi. inversion H. destruct i; reflexivity.
    - intro H; inversion H; reflexivity.
    - intro H. bind_ok H a Ha. inversion H. destruct a; reflexivity.
  Qed.
  Lemma PL_none : forall f rbp its t rest, PL f rbp None its = Outcome.Ok (t, rest) -> t = None.
  Proof.
    induction f as [|f IH]; intros rbp its t rest H; [discriminate H|].
    rewrite PL_S in H. bind_ok H l Hl.
    destruct (Nat.ltb rbp l); [|inversion H; reflexivity].
    destruct its as [|pr0 rest0]; [discriminate H|].
    destruct (item_op pr0) as [r|]; [|discriminate H].
    destruct (ops_get tbl r) as [[[| |a] p]|]; try discriminate H.
    - bind_ok H e He. apply PO_none in He. subst e. eapply IH; exact H.
    - bind_ok H rr Hrr. bind_ok H e He. apply map_infix_none in He. subst e. eapply IH; exact H.
  Qed.

  Lemma lbp_le_0 rest : lbp_le tbl rest 0 -> rest = [].
  Proof.
    intros (l & Hl & Hle). destruct rest as [|pr0 r]; [reflexivity|exfalso].
    cbn [lbp] in Hl. destruct (item_op pr0) as [o|]; [|discriminate Hl].
    destruct (ops_get tbl o) as [[a p]|] eqn:Ho; [|discriminate Hl].
    inversion Hl; subst l. apply tbl_pos in Ho. lia.
  Qed.

  Lemma nonpostfix_no_comments i r a p :
    item_op i = Some r -> ops_get tbl r = Some (a, p) -> a <> Postfix -> item_comments i = [].
  Proof.
    intros Hi Ho Ha. destruct i; cbn [item_op] in Hi; try discriminate Hi; try reflexivity;
      inversion Hi; subst r; exfalso; apply Ha; refine (tbl_postfix _ _ _ _ Ho); tauto.
  Qed.

  Definition keeps_at (f : nat) : Prop :=
    (forall rbp its t rest, good its -> PE f rbp its = Outcome.Ok (Some t, rest) ->
        items_comments its = expr_comments t ++ items_comments rest /\ good rest /\ lbp_le tbl rest rbp)
    /\ (forall rbp lhs its t rest, good its -> PL f rbp (Some lhs) its = Outcome.Ok (Some t, rest) ->
        expr_comments lhs ++ items_comments its = expr_comments t ++ items_comments rest
        /\ good rest /\ lbp_le tbl rest rbp)
    /\ (forall lhs pr0 t, goodi pr0 -> PO f (Some lhs) pr0 = Outcome.Ok (Some t) ->
        expr_comments lhs ++ item_comments pr0 = expr_comments t)
    /\ (forall pr0 t, goodi pr0 -> PR f pr0 = Outcome.Ok (Some t) -> item_comments pr0 = expr_comments t)
    /\ (forall its t, good its -> PI f its = Outcome.Ok (Some t) -> items_comments its = expr_comments t).

  Lemma keeps_all : forall f, keeps_at f.
  Proof.
    induction f as [|f (IHa & IHb & IHc & IHd & IHe)].
    { repeat split; intros; discriminate. }
    assert (Hpk : forall g e, good g -> PI f g = Outcome.Ok (Some e) -> items_comments g = expr_comments e)
      by exact IHe.
    split; [|split; [|split; [|split]]].
    - (* pexpr *)
      intros rbp its t rest Hg H. rewrite PE_S in H.
      destruct its as [|pr0 rest0]; [discriminate H|].
      apply good_cons in Hg as [Hg0 Hgr].
      bind_ok H lr Hlr. destruct lr as [e mid]. cbn [fst snd] in H.
      destruct e as [e|]; [|apply PL_none in H; discriminate H].
      destruct (item_op pr0) as [r|] eqn:Hop.
      + destruct (ops_get tbl r) as [[[| |a] p]|] eqn:Hops; try discriminate Hlr.
        bind_ok Hlr rr Hrr. destruct rr as [x mid']. cbn [fst snd] in Hlr.
        bind_ok Hlr e' He'. inversion Hlr; subst e' mid'. clear Hlr.
        unfold map_prefix in He'.
        destruct x as [x|]; [|destruct (assoc_find r pmap) as [[u|]|]; inversion He'].
        destruct (IHa _ _ _ _ Hgr Hrr) as (E1 & Hgm & _).
        destruct (IHb _ _ _ _ _ Hgm H) as (E2 & Hgrest & Hst).
        split; [|split; assumption].
        cbn [items_comments]. rewrite (nonpostfix_no_comments _ _ _ _ Hop Hops) by discriminate.
        cbn [app]. rewrite E1, <- E2.
        destruct (assoc_find r pmap) as [[u|]|]; inversion He'; subst e; cbn [expr_comments];
          rewrite <- ?app_assoc; reflexivity.
      + bind_ok Hlr e' He'. inversion Hlr; subst e' mid. clear Hlr.
        destruct (IHb _ _ _ _ _ Hgr H) as (E2 & Hgrest & Hst).
        split; [|split; assumption]. cbn [items_comments]. rewrite (IHd _ _ Hg0 He'). exact E2.
    - (* ploop *)
      intros rbp lhs its t rest Hg H. rewrite PL_S in H. bind_ok H l Hl.
      destruct (Nat.ltb rbp l) eqn:Hlt.
      2:{ inversion H; subst. split; [reflexivity|split; [exact Hg|]].
          exists l. split; [exact Hl|]. apply Nat.ltb_ge in Hlt. exact Hlt. }
      destruct its as [|pr0 rest0]; [discriminate H|].
      apply good_cons in Hg as [Hg0 Hgr].
      destruct (item_op pr0) as [r|] eqn:Hop; [|discriminate H].
      destruct (ops_get tbl r) as [[[| |a] p]|] eqn:Hops; try discriminate H.
      + bind_ok H e He. destruct e as [e|]; [|apply PL_none in H; discriminate H].
        destruct (IHb _ _ _ _ _ Hgr H) as (E2 & Hgrest & Hst).
        split; [|split; assumption]. cbn [items_comments].
        rewrite <- E2, <- (IHc _ _ _ Hg0 He), <- !app_assoc. reflexivity.
      + bind_ok H rr Hrr. destruct rr as [x mid]. cbn [fst snd] in H.
        bind_ok H e He. destruct e as [e|]; [|apply PL_none in H; discriminate H].
        unfold map_infix in He. destruct (assoc_find r imap) as [o|]; [|discriminate He].
        destruct x as [x|]; [|inversion He]. inversion He; subst e. clear He.
        destruct (IHa _ _ _ _ Hgr Hrr) as (E1 & Hgm & _).
        destruct (IHb _ _ _ _ _ Hgm H) as (E2 & Hgrest & Hst).
        split; [|split; assumption].
        cbn [items_comments]. rewrite (nonpostfix_no_comments _ _ _ _ Hop Hops) by discriminate.
        cbn [app]. rewrite E1, <- E2. cbn [expr_comments]. rewrite <- !app_assoc. reflexivity.
    - (* map_postfix *)
      intros lhs pr0 t Hg H. cbn [map_postfix_c] in H.
      destruct pr0; try discriminate H.
      + destruct r; try discriminate H. inversion H; subst t. cbn. apply app_nil_r.
      + bind_ok H i Hi. destruct i as [i|]; inversion H; subst t.
        rewrite item_comments_eq, (Hpk _ _ (goodi_inv _ Hg) Hi). reflexivity.
      + inversion H; subst t. cbn. apply app_nil_r.
      + bind_ok H a Ha. destruct a as [a|]; inversion H; subst t.
        rewrite item_comments_eq, (omapM_keeps _ Hpk _ _ (goodi_inv _ Hg) Ha). reflexivity.
    - (* primary *)
      intros pr0 t Hg H. cbn [primary_c] in H.
      destruct pr0; try discriminate H; try (inversion H; subst t; reflexivity).
      + inversion H; subst t. destruct (builtin_of_name s); reflexivity.
      + rewrite item_comments_eq. apply Hpk; [exact (goodi_inv _ Hg)|exact H].
      + rewrite item_comments_eq. destruct (goodi_inv _ Hg) as (Hs & Ha & Hl).
        eapply list_arm_keeps; eauto.
      + rewrite item_comments_eq. destruct (goodi_inv _ Hg) as (Hs & Ha & Hl).
        eapply rec_arm_keeps; eauto.
      + bind_ok H b Hb. destruct b as [b|]; inversion H; subst t.
        rewrite item_comments_eq. cbn [expr_comments]. apply Hpk; [exact (goodi_inv _ Hg)|exact Hb].
      + destruct (goodi_inv _ Hg) as (Hgc & Hgt & Hge).
        bind_ok H c' Hc. destruct c' as [c'|]; [|inversion H].
        bind_ok H t' Ht. destruct t' as [t'|]; [|inversion H].
        bind_ok H e' He. destruct e' as [e'|]; inversion H; subst t.
        rewrite item_comments_eq. cbn [expr_comments].
        rewrite (Hpk _ _ Hgc Hc), (Hpk _ _ Hgt Ht), (Hpk _ _ Hge He). reflexivity.
      + rewrite item_comments_eq. destruct (goodi_inv _ Hg) as (Hs & Hd).
        unfold do_arm_c in H. rewrite <- (do_loop_keeps _ Hpk _ _ _ _ _ Hd Hs H). reflexivity.
      + bind_ok H v' Hv. destruct v' as [v'|]; inversion H; subst t.
        rewrite item_comments_eq. cbn [expr_comments]. apply Hpk; [exact (goodi_inv _ Hg)|exact Hv].
    - (* parse_items *)
      intros its t Hg H. rewrite PI_S in H. bind_ok H r Hr. destruct r as [x rest]. cbn [fst] in H.
      inversion H; subst x. destruct (IHa _ _ _ _ Hg Hr) as (E & _ & Hst).
      apply lbp_le_0 in Hst. subst rest. rewrite E. cbn [items_comments]. apply app_nil_r.
  Qed.
End Main.

(* ------------------------------------------------------------------ the crate's table *)
Lemma impl_table_pos : forall r a p, ops_get impl_table r = Some (a, p) -> 0 < p.
Proof. intros r a p. destruct r; vm_compute; intro H; inversion H; lia. Qed.
Lemma impl_table_postfix : forall r a p,
  r = R_access \/ r = R_dot_access \/ r = R_call_list -> ops_get impl_table r = Some (a, p) -> a = Postfix.
Proof. intros r a p [H|[H|H]]; subst r; vm_compute; intro H; inversion H; reflexivity. Qed.

(* pairs_to_expr_with_comments keeps every comment of its token stream, in order *)
Theorem pratt_c_keeps_comments : forall its t,
  shapes_ok its = true -> no_empty_containers its = true ->
  pratt_c its = Outcome.Ok (Some t) -> expr_comments t = items_comments its.
Proof.
  intros its t Hs Hn H. symmetry.
  destruct (keeps_all impl_table infix_map prefix_map impl_table_pos impl_table_postfix
                      (4 * items_size its + 4)) as (_ & _ & _ & _ & He).
  apply He; [split; assumption|exact H].
Qed.

(* ------------------------------------------------------------------ statements: tree level *)
Lemma strs_eqb_eq : forall a b, strs_eqb a b = true -> a = b.
Proof.
  induction a as [|x a IH]; destruct b as [|y b]; cbn; intro H; try discriminate H; [reflexivity|].
  apply andb_prop in H as [H1 H2]. apply String.eqb_eq in H1. subst y. f_equal. apply IH; exact H2.
Qed.

Lemma stmt_keeps : forall text t s,
  match stmt_items text t with
  | Some g => shapes_ok g = true /\ no_empty_containers g = true
  | None => True
  end ->
  stmt_of_tree text t = Outcome.Ok (Some s) ->
  stmt_view_comments text t = match s with Some x => stmt_comments x | None => [] end.
Proof.
  intros text [r s0 e0 kids] s Hg H. unfold stmt_view_comments, stmt_items in *. cbn [tkids] in *.
  cbn [stmt_of_tree] in H. destruct kids as [|first more]; [inversion H; reflexivity|].
  assert (Hgen : forall (mk : Ast.expr -> stmt_kind),
            (forall x, match mk x with SExpr e | SOut e => expr_comments e | SComment c => [c] end
                       = expr_comments x) ->
            shapes_ok (conv_kids text first) = true /\ no_empty_containers (conv_kids text first) = true ->
            obind (pratt_c (conv_kids text first))
              (fun r0 => Outcome.Ok
                 match r0 with
                 | Some x => Some (Some (St (mk x) (stmt_eol text (Node r s0 e0 (first :: more)))
                                            (line_of text s0) (line_of text e0)))
                 | None => None
                 end) = Outcome.Ok (Some s) ->
            items_comments (conv_kids text first) ++ opt_list (stmt_eol text (Node r s0 e0 (first :: more)))
            = match s with Some x => stmt_comments x | None => [] end).
  { intros mk Hmk [Hs Hn] H1.
    destruct (pratt_c (conv_kids text first)) as [[x|]| | | |] eqn:Hp; cbn [obind] in H1; try discriminate H1.
    inversion H1; subst s. cbn [stmt_comments]. rewrite Hmk.
    rewrite (pratt_c_keeps_comments _ _ Hs Hn Hp). reflexivity. }
  destruct (trule first) eqn:Hr;
    try (apply (Hgen SExpr (fun _ => eq_refl) Hg H); fail).
  - inversion H; subst s. reflexivity.
  - apply (Hgen SOut (fun _ => eq_refl) Hg H).
Qed.

Lemma forest_keeps : forall text l p,
  forallb shapes_ok (forest_items text l) = true ->
  forallb no_empty_containers (forest_items text l) = true ->
  program_of_forest text l = Outcome.Ok (Some p) ->
  forest_view_comments text l = program_comments p.
Proof.
  intros text. induction l as [|t l IH]; intros p Hs Hn H.
  - cbn in H. inversion H; reflexivity.
  - cbn [program_of_forest] in H. unfold forest_view_comments, forest_items in *. cbn [flat_map] in *.
    destruct (is_rule PG_statement t).
    + rewrite forallb_app in Hs, Hn. apply andb_prop in Hs as [Hs1 Hs2]. apply andb_prop in Hn as [Hn1 Hn2].
      destruct (stmt_of_tree text t) as [[s|]| | | |] eqn:Hst; cbn [obind] in H; try discriminate H.
      destruct (program_of_forest text l) as [[p'|]| | | |] eqn:Hp; cbn [obind option_map] in H;
        try discriminate H.
      inversion H; subst p. rewrite (IH p' Hs2 Hn2 eq_refl).
      rewrite (stmt_keeps text t s); [|destruct (stmt_items text t); [|exact I]; cbn [forallb] in Hs1, Hn1;
                                        rewrite andb_true_r in Hs1, Hn1; split; assumption|exact Hst].
      destruct s as [x|]; reflexivity.
    + apply IH; assumption.
Qed.

(* (a) the tree's comment pairs = the comments of the commented program the drivers format *)
Theorem parse_keeps_comments : forall text forest p,
  forest_view_ok text forest = true ->
  forest_shape_ok text forest = true ->
  forest_no_empty_container text forest = true ->
  program_of_forest text forest = Outcome.Ok (Some p) ->
  program_comments p = forest_comments text forest.
Proof.
  intros text forest p Hv Hs Hn H. apply strs_eqb_eq in Hv. rewrite Hv. symmetry.
  apply forest_keeps; assumption.
Qed.

(* a successful run of the whole model is a successful parse followed by the statement loop on its forest *)
Lemma parse_program_c_ok : forall text forest p,
  parse_program_c text = PCOk forest p ->
  exists s, Peg.parse blots_grammar (peg_fuel text) PG_input text = Peg.Ok s /\ forest = rev (out s)
            /\ program_of_forest text forest = Outcome.Ok (Some p).
Proof.
  intros text forest p. unfold parse_program_c.
  destruct (Peg.parse blots_grammar (peg_fuel text) PG_input text) as [s|s| |]; try discriminate.
  destruct (program_of_forest text (rev (out s))) as [[q|]| | | |] eqn:Hp; try discriminate.
  intro H. injection H as <- <-. exists s. auto.
Qed.

(* to exhibit an accepted text with a property of its forest and program, evaluate the model once *)
Lemma parse_program_c_witness : forall text (P : list (tree grule) -> list stmt -> Prop),
  match parse_program_c text with PCOk forest p => P forest p | _ => False end ->
  exists forest p, parse_program_c text = PCOk forest p /\ P forest p.
Proof. intros text P H. destruct (parse_program_c text) as [forest p| | | |]; try contradiction. eauto. Qed.

(* the exclusion is necessary: `[ // c <LF> ]` *)
Definition empty_container_witness : string := "[ // c" +++ nl +++ "]".
Lemma parse_keeps_comments_refuted :
  exists forest p,
    parse_program_c empty_container_witness = PCOk forest p
    /\ forest_view_ok empty_container_witness forest = true
    /\ forest_shape_ok empty_container_witness forest = true
    /\ forest_no_empty_container empty_container_witness forest = false
    /\ forest_comments empty_container_witness forest = ["// c"]
    /\ program_comments p = [].
Proof. apply parse_program_c_witness. vm_compute. repeat split; reflexivity. Qed.
