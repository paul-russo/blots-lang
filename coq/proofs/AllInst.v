(* AllInst.v — the dispatcher with EVERY built-in (EvalAll.builtin_all o) and the operator table with
   `^` through the oracle (EvalAll.binop_all o) meet, for EVERY oracle o, the two hypotheses of the
   evaluator theorems:
     builtin_mono / binop_mono : the store moves only through the callback (StoreMono.v);
     builtin_le / binop_le     : monotone in the callback w.r.t. "is the depth error, or equal"
                                 (DepthMono.v): the depth error of a callback is never swallowed.
   StoreRelOps.v at store_le and InstDepth.v at the depth error. *)
From Coq Require Import String List ZArith Bool Lia.
Require Import Blots.Num Blots.gen.Builtins Blots.Ast Blots.Value Blots.Outcome Blots.Binop
               Blots.Env Blots.Eval Blots.BuiltinsHof Blots.Program Blots.EvalInst Blots.EvalFull
               Blots.EvalAll
               Blots.proofs.StoreMono Blots.proofs.StoreRelOps Blots.proofs.DepthMono Blots.proofs.InstDepth.
Import ListNotations.

Lemma builtin_all_mono : forall o, builtin_mono (builtin_all o).
Proof. exact (builtin_all_R store_le store_le_refl store_le_trans). Qed.

Lemma builtin_all_le : forall o, builtin_le (builtin_all o).
Proof. exact (FailInst.builtin_all_le ErrDepth). Qed.

Lemma binop_all_mono : forall o, binop_mono (binop_all o).
Proof. exact (binop_all_R store_le store_le_refl store_le_trans). Qed.

Lemma binop_all_le : forall o, binop_le (binop_all o).
Proof. exact (FailInst.binop_all_le ErrDepth). Qed.
