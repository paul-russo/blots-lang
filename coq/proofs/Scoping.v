(* Scoping.v — C03 (and the purity half of C02) over the evaluator model:
   sessions (statement sequences incl. failing statements), do-blocks, calls. *)
From Coq Require Import String Ascii List ZArith Bool Lia.
Require Import Blots.Num Blots.gen.Builtins Blots.Ast Blots.Value Blots.Outcome Blots.Binop
               Blots.Env Blots.Eval Blots.Program Blots.proofs.ExprInd Blots.proofs.Frames
               Blots.proofs.StoreMono.
Import ListNotations.
Open Scope string_scope.
Open Scope list_scope.

(* ---- expressions that contain no assignment outside function bodies and do-blocks ---- *)
Fixpoint no_assign (e : expr) {struct e} : bool :=
  match e with
  | EAssign _ _ => false
  | ELam _ _ => true                   (* evaluated later, in its own frame *)
  | EDo _ _ => true                    (* its frame is dropped *)
  | EList items =>
      (fix go (l : list (commented expr)) : bool :=
         match l with [] => true | Cm _ a _ :: r => no_assign a && go r end) items
  | ERec entries =>
      (fix go (l : list (commented rentry)) : bool :=
         match l with
         | [] => true
         | Cm _ (REntry k v) _ :: r =>
             (match k with
              | KDyn a => no_assign a && no_assign v
              | KSpread a => no_assign a
              | KStatic _ => no_assign v
              | KShort _ => true
              end) && go r
         end) entries
  | ECond c t f => no_assign c && no_assign t && no_assign f
  | EOutput a | EUn _ a | EFact a | ESpread a | EDot a _ => no_assign a
  | ECall f args =>
      no_assign f && (fix go (l : list expr) : bool :=
                        match l with [] => true | a :: r => no_assign a && go r end) args
  | EAccess a i => no_assign a && no_assign i
  | EBin _ l r => no_assign l && no_assign r
  | _ => true
  end.

Section WithImpl.
  Variable release : bool.
  Variable binop_impl : callback -> binop -> value -> value -> store -> outcome value * store.
  Variable apply : frames -> callback.
  Notation evalE := (evalE release binop_impl apply).

  Definition pure_ok (e : expr) : Prop :=
    no_assign e = true -> forall c r c', evalE c e = (r, c') -> snd c' = snd c.

  (* PURITY: without a direct assignment, evaluation leaves the scope chain untouched *)
  Theorem evalE_pure_frames : forall e, pure_ok e.
  Proof.
    induction e using expr_ind'; intros Hna c r c' HE; cbn [Eval.evalE] in HE;
      cbn [no_assign] in Hna.
    - inversion HE; subst; auto.
    - inversion HE; subst; auto.
    - inversion HE; subst; auto.
    - inversion HE; subst; auto.
    - destruct (_ || _); [inversion HE; subst; auto|].
      destruct (String.eqb x "constants"); inversion HE; subst; auto.
    - inversion HE; subst; auto.
    - inversion HE; subst; auto.
    - (* EList *)
      assert (HL : forall c0 r0 c0', evalCL evalE c0 items = (r0, c0') -> snd c0' = snd c0).
      { clear HE. match goal with HF : Forall _ items |- _ => rename HF into HFi end.
        induction HFi as [|[ld x tr] l Hx _ IHl]; intros c0 r0 c0' H0; cbn [evalCL] in H0.
        - inversion H0; subst; auto.
        - cbn [cnode] in Hx. apply andb_true_iff in Hna. destruct Hna as [Ha Hr].
          destruct (evalE c0 x) as [o c1] eqn:E1. apply (Hx Ha) in E1.
          destruct o; try (inversion H0; subst; exact E1).
          destruct (evalCL evalE c1 l) as [o2 c2] eqn:E2. apply (IHl Hr) in E2.
          destruct o2; inversion H0; subst; congruence. }
      destruct (evalCL evalE c items) as [o c1] eqn:E1. apply HL in E1.
      cbn [fst snd] in HE. inversion HE; subst. exact E1.
    - (* ERec *)
      assert (HL : forall c0 acc r0 c0', evalRecL evalE c0 acc entries = (r0, c0') -> snd c0' = snd c0).
      { clear HE. match goal with HF : Forall _ entries |- _ => rename HF into HFi end.
        induction HFi as [|[ld [k v] tr] l Hx _ IHl]; intros c0 acc r0 c0' H0;
          cbn [evalRecL] in H0.
        - inversion H0; subst; auto.
        - cbn [cnode Pentry] in Hx. destruct Hx as [Hk Hv].
          apply andb_true_iff in Hna. destruct Hna as [Ha Hr].
          destruct k as [key|ke|x|se]; cbn [Pkey] in Hk.
          + destruct (evalE c0 v) as [o c1] eqn:E1. apply (Hv Ha) in E1.
            destruct o; try (inversion H0; subst; exact E1).
            apply (IHl Hr) in H0. congruence.
          + apply andb_true_iff in Ha. destruct Ha as [Ha1 Ha2].
            destruct (evalE c0 ke) as [o c1] eqn:E1. apply (Hk Ha1) in E1.
            destruct o; try (inversion H0; subst; exact E1).
            destruct (as_string a); try (inversion H0; subst; exact E1).
            destruct (evalE c1 v) as [o2 c2] eqn:E2. apply (Hv Ha2) in E2.
            destruct o2; try (inversion H0; subst; congruence).
            apply (IHl Hr) in H0. congruence.
          + destruct (lookup (snd c0) x).
            * apply (IHl Hr) in H0. exact H0.
            * inversion H0; subst; auto.
          + destruct (evalE c0 se) as [o c1] eqn:E1. apply (Hk Ha) in E1.
            destruct o; try (inversion H0; subst; exact E1).
            apply (IHl Hr) in H0. congruence. }
      apply HL in HE. exact HE.
    - destruct (fresh_lambda _ _ _ _) as [v st']. inversion HE; subst. auto.
    - (* ECond *)
      apply andb_true_iff in Hna. destruct Hna as [Hna H3].
      apply andb_true_iff in Hna. destruct Hna as [H1 H2].
      destruct (evalE c e1) as [o c1] eqn:E1. apply (IHe1 H1) in E1.
      destruct o; try (inversion HE; subst; exact E1).
      destruct (as_bool a) as [[|]| | | |]; try (inversion HE; subst; exact E1).
      + apply (IHe2 H2) in HE. congruence.
      + apply (IHe3 H3) in HE. congruence.
    - destruct ret as [ld rt tr]. inversion HE; subst. auto.
    - discriminate.
    - apply (IHe Hna) in HE. exact HE.
    - (* ECall *)
      apply andb_true_iff in Hna. destruct Hna as [H1 H2].
      destruct (evalE c e) as [o c1] eqn:E1. apply (IHe H1) in E1.
      destruct o; try (inversion HE; subst; exact E1).
      assert (HL : forall c0 r0 c0', evalL evalE c0 args = (r0, c0') -> snd c0' = snd c0).
      { clear HE E1. match goal with HF : Forall _ args |- _ => rename HF into HFi end.
        induction HFi as [|x l Hx _ IHl]; intros c0 r0 c0' H0; cbn [evalL] in H0.
        - inversion H0; subst; auto.
        - apply andb_true_iff in H2. destruct H2 as [Ha Hr].
          destruct (evalE c0 x) as [o c1'] eqn:E1. apply (Hx Ha) in E1.
          destruct o; try (inversion H0; subst; exact E1).
          destruct (evalL evalE c1' l) as [o2 c2] eqn:E2. apply (IHl Hr) in E2.
          destruct o2; inversion H0; subst; congruence. }
      destruct (evalL evalE c1 args) as [o2 [st2 fr2]] eqn:E2. apply HL in E2. cbn [snd] in E2.
      destruct o2; try (inversion HE; subst; cbn [snd]; congruence).
      destruct (negb (is_function a)); [inversion HE; subst; cbn [snd]; congruence|].
      destruct (apply fr2 a a (flatten_spreads a0) st2) as [rr st3].
      inversion HE; subst; cbn [snd]; congruence.
    - (* EAccess *)
      apply andb_true_iff in Hna. destruct Hna as [H1 H2].
      destruct (evalE c e1) as [o c1] eqn:E1. apply (IHe1 H1) in E1.
      destruct o; try (inversion HE; subst; exact E1).
      destruct (evalE c1 e2) as [o2 c2] eqn:E2. apply (IHe2 H2) in E2.
      destruct o2; inversion HE; subst; congruence.
    - destruct (evalE c e) as [o c1] eqn:E1. apply (IHe Hna) in E1.
      destruct o; inversion HE; subst; exact E1.
    - (* EBin *)
      apply andb_true_iff in Hna. destruct Hna as [H1 H2].
      destruct (evalE c e1) as [o c1] eqn:E1. apply (IHe1 H1) in E1.
      destruct o; try (inversion HE; subst; exact E1).
      destruct (evalE c1 e2) as [o2 [st2 fr2]] eqn:E2. apply (IHe2 H2) in E2. cbn [snd] in E2.
      destruct o2; try (inversion HE; subst; cbn [snd]; congruence).
      destruct (binop_impl (apply fr2) op a a0 st2) as [res st3].
      inversion HE; subst; cbn [snd]; congruence.
    - destruct (evalE c e) as [o c1] eqn:E1. apply (IHe Hna) in E1.
      destruct o; inversion HE; subst; exact E1.
    - destruct (evalE c e) as [o c1] eqn:E1. apply (IHe Hna) in E1.
      destruct o; inversion HE; subst; exact E1.
    - destruct (evalE c e) as [o c1] eqn:E1. apply (IHe Hna) in E1.
      destruct o; inversion HE; subst; exact E1.
  Qed.

  (* do-blocks never leak: the caller's chain comes back exactly, whatever the block did *)
  Theorem do_block_no_leak : forall stmts ret c r c',
    evalE c (EDo stmts ret) = (r, c') -> snd c' = snd c.
  Proof.
    intros stmts [ld rt tr] c r c' H. cbn [Eval.evalE] in H. inversion H; subst. reflexivity.
  Qed.

  (* a bound name reads back as its value (the three spellings the evaluator intercepts
     before the lookup are excluded explicitly) *)
  Theorem bound_name_reads_back : forall c x v,
    lookup (snd c) x = Some v ->
    String.eqb x "infinity" = false -> String.eqb x "inf" = false ->
    String.eqb x "constants" = false ->
    evalE c (EId x) = (Ok v, c).
  Proof.
    intros c x v Hl H1 H2 H3. cbn [Eval.evalE]. rewrite H1, H2, H3. cbn [orb].
    rewrite Hl. reflexivity.
  Qed.
End WithImpl.

(* ---- sessions ---- *)
(* a preorder on configurations that every evaluation respects is respected by every statement sequence,
   including one that ends in a failing statement *)
Section RunRel.
  Variable eval : cfg -> expr -> result.
  Variable Rc : cfg -> cfg -> Prop.
  Hypothesis Rc_refl : forall c, Rc c c.
  Hypothesis Rc_trans : forall a b c, Rc a b -> Rc b c -> Rc a c.
  Hypothesis eval_Rc : forall c e r c', eval c e = (r, c') -> Rc c c'.

  Lemma exec_stmt_rel : forall s t s' r, exec_stmt eval s t = (s', r) -> Rc (s_cfg s) (s_cfg s').
  Proof.
    intros s t s' r H. destruct t as [e|e|]; cbn [exec_stmt] in H.
    - destruct (eval (s_cfg s) e) as [o c1] eqn:E. apply eval_Rc in E.
      inversion H; subst. exact E.
    - destruct (eval (s_cfg s) e) as [o [st1 fr1]] eqn:E. apply eval_Rc in E.
      match type of H with (match ?d with _ => _ end) = _ => destruct d as [[x v]|] end.
      + destruct (validate_portable st1 fr1 v); inversion H; subst; exact E.
      + inversion H; subst; exact E.
    - inversion H; subst. apply Rc_refl.
  Qed.

  Theorem run_rel : forall prog s, Rc (s_cfg s) (s_cfg (fst (run eval s prog))).
  Proof.
    induction prog as [|t rest IH]; intros s; cbn [run].
    - apply Rc_refl.
    - destruct (exec_stmt eval s t) as [s' r] eqn:E. pose proof (exec_stmt_rel _ _ _ _ E) as Hx.
      destruct r.
      + destruct (run eval s' rest) as [s'' rs] eqn:E2. cbn [fst].
        specialize (IH s'). rewrite E2 in IH. cbn [fst] in IH. eapply Rc_trans; eauto.
      + exact Hx.
      + exact Hx.
      + specialize (IH s'). eapply Rc_trans; eauto.
  Qed.
End RunRel.

Section Sessions.
  Variable eval : cfg -> expr -> result.
  Hypothesis eval_ext : forall c e r c', eval c e = (r, c') -> ext (snd c) (snd c').
  Hypothesis eval_store : forall c e r c', eval c e = (r, c') -> store_le (fst c) (fst c').

  (* every statement sequence only adds fresh permitted names to the root frame *)
  Theorem run_ext : forall prog s, ext (snd (s_cfg s)) (snd (s_cfg (fst (run eval s prog)))).
  Proof.
    apply (run_rel eval (fun c c' => ext (snd c) (snd c'))); [intros c; constructor| |exact eval_ext].
    intros a b c; apply ext_trans.
  Qed.
  Theorem run_store : forall prog s,
    store_le (fst (s_cfg s)) (fst (s_cfg (fst (run eval s prog)))).
  Proof.
    apply (run_rel eval (fun c c' => store_le (fst c) (fst c'))); [intros c; apply store_le_refl| |exact eval_store].
    intros a b c; apply store_le_trans.
  Qed.

  (* IMMUTABILITY over sessions *)
  Theorem session_bindings_stable : forall prog s x v,
    lookup (snd (s_cfg s)) x = Some v ->
    lookup (snd (s_cfg (fst (run eval s prog)))) x = Some v.
  Proof. intros prog s x v H. eapply ext_lookup; [apply run_ext|exact H]. Qed.

  Theorem session_forbidden_never_bound : forall prog s x,
    lookup (snd (s_cfg s)) x = None ->
    lookup (snd (s_cfg (fst (run eval s prog)))) x <> None ->
    forbidden x = false.
  Proof. intros prog s x Hn Hs. eapply ext_new_names; [apply run_ext| |]; eauto. Qed.

  (* only the root frame exists and stays the only one *)
  Theorem session_chain_shape : forall prog s,
    tl (snd (s_cfg (fst (run eval s prog)))) = tl (snd (s_cfg s)).
  Proof. intros prog s. apply ext_tail. apply run_ext. Qed.
End Sessions.

(* ---- the same facts stated for evalD (any depth, any operator / built-in implementation) ---- *)
Section EvalD.
  Variable release : bool.
  Variable bi : callback -> binop -> value -> value -> store -> outcome value * store.
  Variable bu : callback -> builtin -> list value -> store -> outcome value * store.
  Variable d : nat.
  Notation ev := (evalD release bi bu d).

  Lemma evalD_ext : forall c e r c', ev c e = (r, c') -> ext (snd c) (snd c').
  Proof. intros c e r c' H. exact (evalE_ext release bi (AD release bi bu d) e c r c' H). Qed.

  Lemma evalD_binding_survives : forall c e r c' x v,
    ev c e = (r, c') -> lookup (snd c) x = Some v -> lookup (snd c') x = Some v.
  Proof. intros c e r c' x v H. eapply ext_lookup. eapply evalD_ext; eauto. Qed.

  Lemma evalD_session_stable : forall prog s x v,
    lookup (snd (s_cfg s)) x = Some v ->
    lookup (snd (s_cfg (fst (run ev s prog)))) x = Some v.
  Proof. apply session_bindings_stable. exact evalD_ext. Qed.

  Lemma evalD_forbidden : forall prog s x,
    lookup (snd (s_cfg s)) x = None ->
    lookup (snd (s_cfg (fst (run ev s prog)))) x <> None -> forbidden x = false.
  Proof. apply session_forbidden_never_bound. exact evalD_ext. Qed.

  Lemma evalD_inputs_constant : forall prog inputs,
    lookup (snd (s_cfg (fst (run ev (init_session inputs) prog)))) "inputs" = Some (VRec inputs).
  Proof. intros prog inputs. apply evalD_session_stable. reflexivity. Qed.

  Lemma evalD_do_no_leak : forall stmts ret c r c',
    ev c (EDo stmts ret) = (r, c') -> snd c' = snd c.
  Proof. exact (do_block_no_leak release bi (AD release bi bu d)). Qed.

  Lemma evalD_pure_frames : forall e c r c',
    no_assign e = true -> ev c e = (r, c') -> snd c' = snd c.
  Proof.
    intros e c r c' Hn H. exact (evalE_pure_frames release bi (AD release bi bu d) e Hn c r c' H).
  Qed.

  Lemma evalD_reads_back : forall c x v,
    lookup (snd c) x = Some v ->
    String.eqb x "infinity" = false -> String.eqb x "inf" = false ->
    String.eqb x "constants" = false ->
    ev c (EId x) = (Ok v, c).
  Proof. exact (bound_name_reads_back release bi (AD release bi bu d)). Qed.
End EvalD.
