(* JsonEcho.v — property C06, the input direction and the CLI wrappers:
   input_echo (a supplied document is reproduced up to JSON value equality), cli_out_in,
   cli_echo, the relational reading of JSON value equality, and the refutation witnesses;
   what sj_build, jcanon and to_json do to a predicate on the numbers of a document (JsonWf.json_all). *)
From Coq Require Import String Ascii List ZArith Bool Lia Sorted Permutation.
Require Import Blots.Num Blots.gen.Builtins Blots.Ast Blots.Value Blots.Outcome Blots.Json Blots.JsonWf.
Require Import Blots.proofs.ValueInd Blots.proofs.Order Blots.proofs.AccessLaws Blots.proofs.JsonMaps Blots.proofs.JsonRT.
Import ListNotations.
Open Scope list_scope.

Lemma sj_build_obj m : sj_build (JObj m) = JObj (bmap_collect (mapv sj_build m)).
Proof. reflexivity. Qed.
Lemma jcanon_obj m : jcanon (JObj m) = JObj (bmap_collect (mapv jcanon m)).
Proof. reflexivity. Qed.
Lemma json_nums_ok_obj m : json_nums_ok (JObj m) = forallb (fun kv => json_nums_ok (snd kv)) m.
Proof. reflexivity. Qed.

(* canonical form does not see the deserialiser's map building *)
Lemma jcanon_sj_build d : jcanon (sj_build d) = jcanon d.
Proof.
  induction d as [| | | |l IH|m IH] using json_ind'; try reflexivity.
  - cbn. f_equal. rewrite map_map. apply map_ext_in. intros x Hx. rewrite Forall_forall in IH. auto.
  - rewrite sj_build_obj, !jcanon_obj. f_equal.
    rewrite <- (bmap_collect_mapv jcanon (mapv sj_build m)), bmap_collect_idem, mapv_mapv. f_equal.
    apply mapv_ext_in. intros k x Hx. rewrite Forall_forall in IH. apply (IH (k, x) Hx).
Qed.
Lemma jcanon_idem d : jcanon (jcanon d) = jcanon d.
Proof.
  induction d as [| | | |l IH|m IH] using json_ind'; try reflexivity.
  - cbn. f_equal. rewrite map_map. apply map_ext_in. intros x Hx. rewrite Forall_forall in IH. auto.
  - rewrite !jcanon_obj. f_equal.
    rewrite <- (bmap_collect_mapv jcanon (mapv jcanon m)), bmap_collect_idem, mapv_mapv. f_equal.
    apply mapv_ext_in. intros k x Hx. rewrite Forall_forall in IH. apply (IH (k, x) Hx).
Qed.

(* ------------------------------------------------------------------ predicates on the numbers of a document *)
Lemma json_all_arr p l : json_all p (JArr l) = forallb (json_all p) l.
Proof. reflexivity. Qed.
Lemma json_all_obj p m : json_all p (JObj m) = forallb (fun kv => json_all p (snd kv)) m.
Proof. reflexivity. Qed.

Lemma json_all_impl (p q : jnumber -> bool) :
  (forall n, p n = true -> q n = true) -> forall j, json_all p j = true -> json_all q j = true.
Proof.
  intros Hpq. induction j as [| |n|s|l IH|m IH] using json_ind'; try (cbn; congruence).
  - cbn. apply Hpq.
  - rewrite !json_all_arr, !forallb_forall. rewrite Forall_forall in IH. intros H x Hx. auto.
  - rewrite !json_all_obj, !forallb_forall. rewrite Forall_forall in IH. intros H x Hx. auto.
Qed.
Lemma json_nums_ok_all : forall j, json_nums_ok j = json_all jnum_ok j.
Proof.
  induction j as [| |n|s|l IH|m IH] using json_ind'; try reflexivity;
    apply forallb_ext_in'; rewrite Forall_forall in IH; exact IH.
Qed.

(* serde_json's map builder keeps the numbers it is given *)
Lemma json_all_sj_build p : forall d, json_all p d = true -> json_all p (sj_build d) = true.
Proof.
  induction d as [| |n|s|l IH|m IH] using json_ind'; try (cbn; congruence); rewrite Forall_forall in IH.
  - cbn [sj_build]. rewrite !json_all_arr. now apply forallb_map_in.
  - rewrite sj_build_obj, !json_all_obj. intros H. apply forallb_collect. revert H.
    apply (forallb_mapv (json_all p) (json_all p)). intros k x Hx. apply (IH (k, x) Hx).
Qed.
Theorem json_wf_sj_build : forall d, json_wf d = true -> json_wf (sj_build d) = true.
Proof. exact (json_all_sj_build jnum_wf). Qed.
Lemma json_nums_ok_sj_build d : json_nums_ok d = true -> json_nums_ok (sj_build d) = true.
Proof. rewrite !json_nums_ok_all. apply json_all_sj_build. Qed.

(* the canonical form (every number as its double, members sorted, last duplicate wins) *)
Lemma json_all_jcanon (p q : jnumber -> bool) :
  (forall n, p n = true -> q (JFloat (jnum_as_f64 n)) = true) ->
  forall d, json_all p d = true -> json_all q (jcanon d) = true.
Proof.
  intros Hpq. induction d as [| |n|s|l IH|m IH] using json_ind'; try (cbn; congruence); try rewrite Forall_forall in IH.
  - cbn. apply Hpq.
  - cbn [jcanon]. rewrite !json_all_arr. now apply forallb_map_in.
  - rewrite jcanon_obj, !json_all_obj. intros H. apply forallb_collect. revert H.
    apply (forallb_mapv (json_all q) (json_all p)). intros k x Hx. apply (IH (k, x) Hx).
Qed.

(* what to_json writes is already a serde_json::Value: reading the printed document back
   builds the same tree *)
Lemma sj_build_to_json s : sj_build (to_json s) = to_json s.
Proof.
  induction s as [x|x| |s|l IH|r IH|n a b sc _|n] using svalue_ind'; try reflexivity.
  - rewrite to_json_list. cbn. f_equal. rewrite map_map. apply map_ext_in. intros x Hx.
    rewrite Forall_forall in IH. auto.
  - rewrite to_json_rec, sj_build_obj. f_equal.
    rewrite <- (bmap_collect_mapv sj_build (mapv to_json r)), bmap_collect_idem, mapv_mapv. f_equal.
    apply mapv_ext_in. intros k x Hx. rewrite Forall_forall in IH. apply (IH (k, x) Hx).
Qed.

(* to_json builds well-formed Numbers from ANY serialisable value: Number::from_f64 is None for
   NaN / infinities and the fallback is Number::from(0) *)
Theorem json_wf_to_json : forall s, json_wf (to_json s) = true.
Proof.
  unfold json_wf.
  induction s as [x|x| |s|l IH|r IH|n a b sc _|n] using svalue_ind'; try reflexivity.
  - cbn. unfold jnum_of_f64. destruct (is_finite x) eqn:E; [exact E|reflexivity].
  - rewrite to_json_list, json_all_arr, forallb_forall. intros y Hy.
    apply in_map_iff in Hy as (x & <- & Hx). rewrite Forall_forall in IH. auto.
  - rewrite to_json_rec, json_all_obj, forallb_forall. intros [k y] Hy.
    apply bmap_collect_in in Hy. apply in_mapv in Hy as (x & Hx & ->). cbn.
    rewrite Forall_forall in IH. apply (IH (k, x) Hx).
Qed.
Lemma json_doubles_to_json : forall s, svalue_doubles s = true -> json_doubles (to_json s) = true.
Proof.
  unfold json_doubles.
  induction s as [x|x| |s|l IH|r IH|n a b sc _|n] using svalue_ind'; try reflexivity; try rewrite Forall_forall in IH.
  - cbn. unfold jnum_of_f64. intros H. destruct (is_finite x); [exact H|reflexivity].
  - cbn [svalue_doubles]. rewrite to_json_list, json_all_arr. now apply forallb_map_in.
  - cbn [svalue_doubles]. rewrite to_json_rec, json_all_obj. intros H. apply forallb_collect. revert H.
    apply (forallb_mapv (json_all jnum_double) svalue_doubles). intros k x Hx. apply (IH (k, x) Hx).
Qed.
Lemma svalue_doubles_sv_of : forall v, value_doubles v = true -> svalue_doubles (sv_of v) = true.
Proof.
  induction v as [x|x| |s|l IH|r IH|id ar bd sc _|bi|v _] using value_ind'; try reflexivity; try rewrite Forall_forall in IH.
  - cbn. congruence.
  - cbn [value_doubles sv_of svalue_doubles]. now apply forallb_map_in.
  - cbn [value_doubles]. rewrite sv_of_rec. cbn [svalue_doubles].
    apply (forallb_mapv svalue_doubles value_doubles). intros k x Hx. apply (IH (k, x) Hx).
Qed.
(* whatever a run outputs is a document of well-formed Numbers *)
Theorem json_wf_write_outputs : forall outs, json_wf (write_outputs outs) = true.
Proof.
  intros outs. unfold write_outputs, json_wf. rewrite json_all_obj, forallb_forall.
  intros kv Hkv. apply in_map_iff in Hkv as ([k s] & <- & _). cbn. apply json_wf_to_json.
Qed.

Lemma jlookup_get_last m k : jlookup m k = get_last m k.
Proof. induction m as [|[k' v] m IH]; cbn; [reflexivity|]. now rewrite IH. Qed.

Section Echo.
  Variable pfs : string -> option (list lamarg * string).
  Variable pbody : string -> outcome expr.
  Variable emit : expr -> list (string * svalue) -> string.
  Variable nameof : lam_id -> option string.
  Notation from_json := (Json.from_json pfs).
  Notation from_value := (Json.from_value emit nameof).
  Notation to_value := (Json.to_value pbody).

  Lemma json_no_reserved_obj m :
    json_no_reserved pfs (JObj m) =
    negb (reserved_obj pfs jstr_of m) && forallb (fun kv => json_no_reserved pfs (snd kv)) m.
  Proof. reflexivity. Qed.

  (* the serialisable value read from a built document without reserved objects is plain data,
     and writing it gives the canonical form of the document *)
  Lemma from_json_build d :
    json_nums_ok d = true -> json_no_reserved pfs (sj_build d) = true ->
    splain (from_json (sj_build d)) = true /\ to_json (from_json (sj_build d)) = jcanon d.
  Proof.
    induction d as [| |n|s|l IH|m IH] using json_ind'; try (split; reflexivity).
    - cbn. intros H _. split; [reflexivity|]. unfold jnum_of_f64. unfold jnum_ok in H. now rewrite H.
    - cbn [json_nums_ok sj_build json_no_reserved]. intros Hn Hr. rewrite from_json_arr.
      rewrite Forall_forall in IH. rewrite forallb_forall in Hn, Hr. split.
      + cbn [splain]. apply forallb_forall. intros y Hy. rewrite map_map in Hy.
        apply in_map_iff in Hy as (x & <- & Hx). apply (IH x Hx (Hn x Hx)).
        apply Hr. now apply in_map.
      + rewrite to_json_list. cbn [jcanon]. f_equal. rewrite !map_map. apply map_ext_in.
        intros x Hx. apply (IH x Hx (Hn x Hx)). apply Hr. now apply in_map.
    - rewrite json_nums_ok_obj, sj_build_obj, json_no_reserved_obj. intros Hn Hr.
      apply andb_prop in Hr as [Hr0 Hr]. apply negb_true_iff in Hr0.
      rewrite from_json_obj_regular by exact Hr0. unfold regular.
      rewrite bmap_collect_mapv in *. set (m0 := bmap_collect m) in *.
      assert (Hs : ksorted m0) by apply bmap_collect_sorted.
      assert (Hin : forall k x, In (k, x) m0 -> In (k, x) m) by (intros; now apply bmap_collect_in).
      rewrite mapv_mapv. rewrite imap_collect_NoDup by (rewrite keys_mapv; now apply ksorted_NoDup).
      rewrite Forall_forall in IH. rewrite forallb_forall in Hn, Hr.
      assert (Hel : forall k x, In (k, x) m0 ->
                splain (from_json (sj_build x)) = true /\ to_json (from_json (sj_build x)) = jcanon x).
      { intros k x Hx. apply (IH (k, x) (Hin k x Hx) (Hn (k, x) (Hin k x Hx))).
        apply (Hr (k, sj_build x)). unfold mapv. apply in_map_iff. exists (k, x). auto. }
      split.
      + cbn [splain]. rewrite nodup_keys_mapv.
        replace (nodup_keys m0) with true by (symmetry; now apply nodup_keys_keys, ksorted_NoDup).
        cbn. apply forallb_forall. intros [k y] Hy. apply in_mapv in Hy as (x & Hx & ->). cbn.
        apply (Hel k x Hx).
      + rewrite to_json_rec, mapv_mapv, jcanon_obj. rewrite (bmap_collect_mapv jcanon m). fold m0.
        rewrite bmap_collect_sorted_id by (apply (proj1 (ksorted_mapv _ _)); exact Hs).
        f_equal. apply mapv_ext_in. intros k x Hx. apply (Hel k x Hx).
  Qed.

  Lemma plain_val_of s : splain s = true -> plain (val_of s) = true.
  Proof.
    induction s as [x|x| |s|l IH|r IH|n a b sc _|n] using svalue_ind'; try reflexivity; try discriminate.
    - cbn. rewrite Forall_forall in IH. now apply forallb_map_in.
    - cbn [splain]. intros H. apply andb_prop in H as [Hnd Hp]. rewrite val_of_rec. cbn [plain].
      rewrite nodup_keys_mapv, Hnd. cbn.
      apply (forallb_mapv plain splain val_of r); [|exact Hp].
      intros k x Hx. rewrite Forall_forall in IH. apply (IH (k, x) Hx).
  Qed.
  Lemma sv_of_val_of s : splain s = true -> sv_of (val_of s) = s.
  Proof.
    induction s as [x|x| |s|l IH|r IH|n a b sc _|n] using svalue_ind'; try reflexivity; try discriminate.
    - cbn. intros H. f_equal. rewrite map_map. rewrite <- (map_id l) at 2. apply map_ext_in.
      intros x Hx. rewrite Forall_forall in IH. rewrite forallb_forall in H. auto.
    - cbn [splain]. intros H. apply andb_prop in H as [_ Hp]. rewrite val_of_rec, sv_of_rec. f_equal.
      rewrite mapv_mapv. rewrite <- (mapv_id r) at 2. apply mapv_ext_in. intros k x Hx.
      rewrite Forall_forall in IH. rewrite forallb_forall in Hp. apply (IH (k, x) Hx (Hp (k, x) Hx)).
  Qed.

  (* P0 input_echo: a supplied document, read as an input and written as an output, is the
     canonical form of the document: equal to it as a JSON value with numbers compared as
     doubles, duplicate keys resolved (last wins) and key order ignored *)
  Theorem input_echo d :
    json_nums_ok d = true -> json_no_reserved pfs (sj_build d) = true ->
    (do v <- to_value (from_json (sj_build d)); do s <- from_value v; Ok (to_json s)) = Ok (jcanon d)
    /\ json_equiv (jcanon d) d.
  Proof.
    intros Hn Hr. destruct (from_json_build d Hn Hr) as [Hp Hj]. split.
    - rewrite (to_value_splain pbody _ Hp). cbn.
      rewrite (from_value_plain emit nameof _ (plain_val_of _ Hp)). cbn.
      now rewrite (sv_of_val_of _ Hp), Hj.
    - apply jcanon_idem.
  Qed.

  (* ---------------------------------------------------------------- the CLI wrappers *)
  Lemma bmap_collect_single {A} k (x : A) : bmap_collect [(k, x)] = [(k, x)].
  Proof. reflexivity. Qed.

  (* output -> printed document -> input of a second run: inputs.<name> is the sorted value *)
  Theorem cli_out_in_roundtrip v name :
    json_data v = true -> value_no_reserved pfs v = true ->
    cli_out_in pfs pbody emit nameof v name = Ok (vsort v)
    /\ equals (vsort v) v = true /\ same_data (vsort v) v = true.
  Proof.
    intros Hd Hr. split; [|split; [now apply equals_vsort|now apply same_data_vsort]].
    unfold cli_out_in. rewrite (from_value_plain emit nameof v (json_data_plain v Hd)). cbn [obind].
    unfold write_outputs. cbn [map fst snd]. rewrite sj_build_obj. cbn [mapv map].
    rewrite sj_build_to_json, bmap_collect_single.
    unfold parse_json_inputs. cbn [fold_left fst snd obind].
    rewrite (json_tree_roundtrip pfs v Hd Hr).
    pose proof (json_data_plain _ (vsort_data v Hd)) as Hp.
    rewrite (to_value_splain pbody _ (splain_sv_of _ Hp)), val_of_sv_of by exact Hp.
    cbn. now rewrite String.eqb_refl.
  Qed.

  (* `blots -i <doc> 'output <name> = inputs.<key>'` on an object document: the member that
     counts for <key> (the last one in the text) is written back in canonical form *)
  Definition pj_step := fun (acc : outcome (list (string * value))) (kv : string * json) =>
    do m <- acc;
    match to_value (from_json (snd kv)) with
    | Ok val => Ok (rec_insert m (fst kv) val)
    | Panic => Panic
    | _ => Ok m
    end.
  Lemma parse_json_inputs_obj obj n :
    parse_json_inputs pfs pbody (JObj obj) n = (fold_left pj_step obj (Ok []), n).
  Proof. reflexivity. Qed.
  Lemma pj_fold l : forall acc,
    NoDup (keys acc ++ keys l) ->
    (forall k j, In (k, j) l -> splain (from_json j) = true) ->
    fold_left pj_step l (Ok acc) = Ok (acc ++ mapv (fun j => val_of (from_json j)) l).
  Proof.
    induction l as [|[k j] l IH]; intros acc Hnd Hp; cbn [fold_left].
    - cbn. now rewrite app_nil_r.
    - unfold pj_step at 2. cbn [obind fst snd].
      rewrite (to_value_splain pbody _ (Hp k j (or_introl eq_refl))).
      rewrite rec_insert_fresh.
      + rewrite IH.
        * cbn [mapv map]. now rewrite <- app_assoc.
        * unfold keys. rewrite map_app, <- app_assoc. exact Hnd.
        * intros; eapply Hp; right; eauto.
      + cbn in Hnd. apply NoDup_remove_2 in Hnd.
        intros HI. apply Hnd. apply in_or_app. now left.
  Qed.

  Theorem cli_echo_object m key name x :
    json_nums_ok (JObj m) = true ->
    forallb (fun kv => json_no_reserved pfs (sj_build (snd kv))) m = true ->
    jlookup m key = Some x ->
    cli_echo pfs pbody emit nameof (JObj m) key name = Ok (JObj [(name, jcanon x)]).
  Proof.
    rewrite json_nums_ok_obj. intros Hn Hr Hx. rewrite !forallb_forall in *.
    unfold cli_echo. rewrite sj_build_obj, bmap_collect_mapv, parse_json_inputs_obj. cbn [fst].
    set (m0 := bmap_collect m).
    assert (Hin : forall k y, In (k, y) m0 -> In (k, y) m) by (intros; now apply bmap_collect_in).
    assert (Hel : forall k y, In (k, y) m0 ->
              splain (from_json (sj_build y)) = true /\ to_json (from_json (sj_build y)) = jcanon y).
    { intros k y Hy. apply from_json_build; [apply (Hn (k, y) (Hin k y Hy))|apply (Hr (k, y) (Hin k y Hy))]. }
    rewrite (pj_fold (mapv sj_build m0) []).
    - cbn [app obind]. rewrite mapv_mapv, rec_get_mapv. unfold m0 at 1.
      rewrite rec_get_bmap_collect, <- jlookup_get_last, Hx. cbn [option_map].
      assert (Hx' : In (key, x) m0).
      { apply rec_get_In. unfold m0. now rewrite rec_get_bmap_collect, <- jlookup_get_last. }
      destruct (Hel key x Hx') as [Hp Hj].
      rewrite (from_value_plain emit nameof _ (plain_val_of _ Hp)). cbn [obind].
      unfold write_outputs. cbn [map fst snd]. now rewrite (sv_of_val_of _ Hp), Hj.
    - cbn [app keys map]. rewrite keys_mapv. apply ksorted_NoDup, bmap_collect_sorted.
    - intros k j Hj. apply in_mapv in Hj as (y & Hy & ->). apply (Hel k y Hy).
  Qed.

  (* a document that is not an object is bound to inputs.value_1 *)
  Theorem cli_echo_non_object d name :
    (forall m, d <> JObj m) ->
    json_nums_ok d = true -> json_no_reserved pfs (sj_build d) = true ->
    cli_echo pfs pbody emit nameof d "value_1" name = Ok (JObj [(name, jcanon d)]).
  Proof.
    intros Hno Hn Hr. destruct (from_json_build d Hn Hr) as [Hp Hj].
    unfold cli_echo.
    assert (E : fst (parse_json_inputs pfs pbody (sj_build d) 0)
                = Ok [("value_1"%string, val_of (from_json (sj_build d)))]).
    { destruct d as [| | | |l|m]; try (exfalso; now apply (Hno m));
        unfold parse_json_inputs; cbn [sj_build] in Hp |- *;
        rewrite (to_value_splain pbody _ Hp); reflexivity. }
    rewrite E. cbn [obind rec_get]. cbn [String.eqb Ascii.eqb Bool.eqb].
    rewrite (from_value_plain emit nameof _ (plain_val_of _ Hp)). cbn [obind].
    unfold write_outputs. cbn [map fst snd]. now rewrite (sv_of_val_of _ Hp), Hj.
  Qed.
End Echo.

(* ------------------------------------------------------------------ relational JSON equality *)
Inductive jeq : json -> json -> Prop :=
| jeq_null : jeq JNull JNull
| jeq_bool b : jeq (JBool b) (JBool b)
| jeq_num n1 n2 : jnum_as_f64 n1 = jnum_as_f64 n2 -> jeq (JNum n1) (JNum n2)
| jeq_str s : jeq (JStr s) (JStr s)
| jeq_arr l1 l2 : Forall2 jeq l1 l2 -> jeq (JArr l1) (JArr l2)
| jeq_obj m1 m2 :
    (forall k a, jlookup m1 k = Some a -> exists b, jlookup m2 k = Some b /\ jeq a b) ->
    (forall k, jlookup m1 k = None -> jlookup m2 k = None) ->
    jeq (JObj m1) (JObj m2).

Lemma get_last_In {A} (m : list (string * A)) k a : get_last m k = Some a -> In (k, a) m.
Proof.
  induction m as [|[k' v] m IH]; cbn; [discriminate|].
  destruct (get_last m k) as [x|].
  - intros H; injection H as ->. right. now apply IH.
  - destruct (String.eqb_spec k k') as [->|]; [|discriminate]. intros H; injection H as ->. now left.
Qed.
Lemma get_last_mapv {A B} (f : A -> B) m k : get_last (mapv f m) k = option_map f (get_last m k).
Proof.
  induction m as [|[k' v] m IH]; cbn; [reflexivity|]. unfold mapv in IH. rewrite IH.
  destruct (get_last m k); cbn; [reflexivity|]. now destruct (String.eqb k k').
Qed.

(* equal canonical forms are equal JSON values in the relational sense *)
Theorem json_equiv_jeq a : forall b, json_equiv a b -> jeq a b.
Proof.
  unfold json_equiv.
  induction a as [| |n|s|l IH|m IH] using json_ind'; intros [| |n2|s2|l2|m2]; cbn; try discriminate;
    intros H; try (injection H as H); subst; try constructor.
  - exact H.
  - revert l2 H. induction IH as [|x l Hx _ IHl]; intros [|y l2]; cbn; try discriminate; constructor.
    + apply Hx. now injection H.
    + apply IHl. now injection H.
  - intros k a Ha.
    assert (E : get_last (mapv jcanon m) k = get_last (mapv jcanon m2) k).
    { rewrite <- !rec_get_bmap_collect. unfold mapv. now rewrite H. }
    rewrite !get_last_mapv, <- !jlookup_get_last, Ha in E. cbn in E.
    destruct (jlookup m2 k) as [b|]; [|discriminate]. exists b. split; [reflexivity|].
    rewrite jlookup_get_last in Ha. apply get_last_In in Ha.
    rewrite Forall_forall in IH. cbn in E. injection E as E. exact (IH (k, a) Ha b E).
  - intros k Hk.
    assert (E : get_last (mapv jcanon m) k = get_last (mapv jcanon m2) k).
    { rewrite <- !rec_get_bmap_collect. unfold mapv. now rewrite H. }
    rewrite !get_last_mapv, <- !jlookup_get_last, Hk in E. cbn in E.
    now destruct (jlookup m2 k).
Qed.

(* ------------------------------------------------------------------ refutations *)
Open Scope string_scope.
(* F16: the reserved object form, output as data, is read back as a function.  With the
   generated built-in table alone ("sum" is a built-in of the built crate): *)
Lemma reserved_form_builtin_refuted :
  forall pfs pbody emit nameof,
  let v := VRec [("__blots_function", VStr "sum")] in
  json_data v = true /\
  exists b, (do s <- from_value emit nameof v; to_value pbody (from_json pfs (to_json s))) = Ok (VBuiltin b)
            /\ equals (VBuiltin b) v = false.
Proof.
  intros. split; [reflexivity|]. eexists. split; [vm_compute; reflexivity|reflexivity].
Qed.
(* ... and for the lambda source of DESIGN.md F16, for every parser oracle that accepts
   "(y) => y" the way the real parse_function_source does (checked by the FN stream): *)
Lemma reserved_form_refuted :
  forall pfs pbody emit nameof body_ast,
  pfs "(y) => y" = Some ([AReq "y"], "y") -> pbody "y" = Ok body_ast ->
  let v := VRec [("__blots_function", VStr "(y) => y")] in
  json_data v = true /\
  (do s <- from_value emit nameof v; to_value pbody (from_json pfs (to_json s)))
  = Ok (VLam O [AReq "y"] body_ast []) /\
  equals (VLam O [AReq "y"] body_ast []) v = false.
Proof.
  intros pfs pbody emit nameof body_ast H1 H2. split; [reflexivity|]. split; [|reflexivity].
  cbn [from_value obind to_json]. unfold imap_collect. cbn [fold_left rec_insert fst snd map].
  rewrite from_json_obj. cbn. rewrite H1. cbn. rewrite H2. reflexivity.
Qed.
(* non-finite numbers (outside the property: it speaks of finite numbers) are written as 0 *)
Lemma nonfinite_written_as_zero :
  to_json (SNum npinf) = JNum (JPosInt 0) /\ to_json (SNum nnan) = JNum (JPosInt 0).
Proof. split; reflexivity. Qed.
