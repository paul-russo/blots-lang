(* DisplayNumAcc.v — C20: accuracy of the SCIENTIFIC path (|x| < 0.0001 or |x| >= 1e15),
   under explicit correctness hypotheses on the three library calls it makes:
     HE  format!("{:.14e}", x) is x rounded to 15 significant digits (error <= 1/2 unit),
     HP  str::parse::<f64> of a 15-digit mantissa is within 2e-15 of it,
     HF  format!("{:.14}", m) is within 1/2 * 10^-14 of m.
   Then the displayed text is within 1/2 unit of the 15th significant digit of x (< 1 unit):
   re-parsing and re-printing the mantissa returns the same 15 digits (both lie on the
   10^-14 grid and differ by less than one grid step), and trimming changes no value.
   HE is used once, at the displayed number (display_scientific_accurate_at). *)
From Coq Require Import ZArith Bool String Ascii List Lia QArith Qabs Qpower Lqa Floats.SpecFloat.
Require Import Blots.Num Blots.Outcome Blots.DisplayNum.
Require Import Blots.proofs.DisplayNumGroup Blots.proofs.DisplayNumSpec Blots.proofs.DisplayNumText
               Blots.proofs.DisplayNumInt Blots.proofs.DisplayNum.
Import ListNotations.
Open Scope char_scope.
Open Scope Z_scope.

(* -? d . d{14} : the mantissa text of {:.14e} *)
Definition mant14_shape (s : text) : bool :=
  match strip_sign s with
  | d :: dot :: fp => is_digit d && Ascii.eqb dot "." && all_digits fp && Nat.eqb (length fp) 14
  | _ => false
  end.

(* 10^k <= |x| < 10^(k+1) *)
Definition in_decade (x : num) (k : Z) : Prop :=
  (Qpower (10 # 1) k <= Qabs (num_to_Q x))%Q /\ (Qabs (num_to_Q x) < Qpower (10 # 1) (k + 1)%Z)%Q.

Lemma all_digits_single : forall d, is_digit d = true -> all_digits [d] = true.
Proof. intros d H. unfold all_digits. cbn. now rewrite H. Qed.

Lemma mant14_is_mant : forall s, mant14_shape s = true -> mant_shape s = true.
Proof.
  intros s H. unfold mant14_shape in H. unfold mant_shape.
  destruct (strip_sign s) as [|d [|dot fp]]; try discriminate H.
  apply andb_true_iff in H. now destruct H as [H _].
Qed.

(* -? d . d{14} with its single integer digit exposed *)
Lemma mant14_inv1 : forall s, mant14_shape s = true ->
  exists neg d fp, s = mk_plain neg [d] (Some fp) /\ is_digit d = true /\ all_digits fp = true /\
                   length fp = 14%nat.
Proof.
  intros s H. destruct (mant_inv1 s (mant14_is_mant s H)) as (neg & d & fp & -> & Hd & Hf).
  exists neg, d, fp. repeat split; auto.
  unfold mant14_shape in H. rewrite strip_sign_mk_plain in H by now apply all_digits_single.
  change (mk_plain false [d] (Some fp)) with (d :: "." :: fp) in H.
  apply andb_true_iff in H. now apply Nat.eqb_eq.
Qed.

Lemma mant14_prec_shape : forall s, mant14_shape s = true -> prec_shape 14 s = true.
Proof.
  intros s H. destruct (mant14_inv1 s H) as (neg & d & fp & -> & Hd & Hf & Hl).
  apply prec_shape_mk_plain; [now apply all_digits_single|exact Hf|discriminate| |lia].
  intros _. exists fp. now rewrite Hl.
Qed.

(* values of texts with n fraction digits lie on the 10^-n grid *)
Lemma prec_shape_grid : forall n s, prec_shape n s = true -> 0 <= n ->
  exists z, denote_plain s = Qmake z (Z.to_pos (10 ^ n)).
Proof.
  intros n s H Hn.
  destruct (prec_shape_inv n s H) as (neg & ip & ofp & -> & Hi & Hof & Hpos & Hzero).
  rewrite denote_plain_mk_plain by assumption. cbn zeta.
  assert (L : Z.of_nat (length (match ofp with Some fp => fp | None => [] end)) = n).
  { destruct (Z.eq_dec n 0) as [->|Hnz].
    - now rewrite (Hzero eq_refl).
    - now destruct (Hpos ltac:(lia)) as (fp & -> & Hl). }
  unfold dec_value, pow10. rewrite <- L. destruct neg; eexists; reflexivity.
Qed.

Lemma grid_eq : forall (z1 z2 : Z) (D : positive),
  (Qabs (Qmake z1 D - Qmake z2 D) < Qmake 1 D)%Q -> z1 = z2.
Proof.
  intros z1 z2 D H. apply Qabs_Qlt_condition in H. destruct H as [H1 H2].
  unfold Qlt, Qminus, Qplus, Qopp in H1, H2. cbn [Qnum Qden] in H1, H2.
  rewrite Pos2Z.inj_mul in H1, H2. nia.
Qed.

Section SciAccuracy.
  Variable log10 : num -> num.
  Variable powi : num -> Z -> num.
  Variable fmt_prec : num -> Z -> text.
  Variable fmt_exp14 : num -> text.
  Variable parse_f64 : text -> option num.
  Variable fx : bool.
  Notation fdn := (format_display_number log10 powi fmt_prec fmt_exp14 parse_f64 fx).

  (* {:.14e} is the correctly rounded 15-significant-digit decimal of x *)
  Hypothesis HE : forall x k, is_finite x = true -> in_decade x k ->
    exists ms es kk, split_once "e" (fmt_exp14 x) = Some (ms, es) /\ mant14_shape ms = true /\
      parse_i32 es = Some kk /\
      (Qabs (denote_plain ms * Qpower (10 # 1) kk - num_to_Q x) <= (1 # 2) * Qpower (10 # 1) (k - 14)%Z)%Q.
  (* parse::<f64> of a 15-digit mantissa: within 2e-15 *)
  Hypothesis HP : forall s, mant14_shape s = true ->
    exists m, parse_f64 s = Some m /\ is_finite m = true /\
      (Qabs (num_to_Q m - denote_plain s) <= 2 # 1000000000000000)%Q.
  (* {:.14} prints the nearest multiple of 10^-14 *)
  Hypothesis HF : forall m, is_finite m = true ->
    prec_shape 14 (fmt_prec m 14) = true /\
    (Qabs (denote_plain (fmt_prec m 14) - num_to_Q m) <= 1 # 200000000000000)%Q.

  Lemma display_scientific_accurate_at : forall x k,
    (exists ms es kk, split_once "e" (fmt_exp14 x) = Some (ms, es) /\ mant14_shape ms = true /\
      parse_i32 es = Some kk /\
      (Qabs (denote_plain ms * Qpower (10 # 1) kk - num_to_Q x) <= (1 # 2) * Qpower (10 # 1) (k - 14)%Z)%Q) ->
    is_finite x = true -> neqb x nzero = false -> scientific_range (nabs x) = true ->
    exists t, fdn x = Ok t /\
      (Qabs (denote t - num_to_Q x) <= (1 # 2) * Qpower (10 # 1) (k - 14)%Z)%Q /\
      (Qabs (denote t - num_to_Q x) < Qpower (10 # 1) (k - 14)%Z)%Q.
  Proof.
    intros x k (ms & es & kk & Esp & Hms & Ekk & Herr) Hf Hz Hs.
    destruct (HP ms Hms) as (m & Epm & Hfm & Hperr).
    destruct (HF m Hfm) as (Hshape & Hferr).
    (* the text denotes B * 10^kk with B the re-printed mantissa *)
    assert (Em : sci_mantissa parse_f64 x ms = m) by (unfold sci_mantissa; now rewrite Epm).
    assert (Ee : sci_exponent es = kk) by (unfold sci_exponent; now rewrite Ekk).
    destruct (format_scientific_at fmt_prec fmt_exp14 parse_f64 x ms es Esp) as [_ Ev];
      [now rewrite Em|]. rewrite Em, Ee in Ev.
    exists (format_scientific fmt_prec fmt_exp14 parse_f64 x).
    split; [now rewrite (fdn_finite log10 powi fmt_prec fmt_exp14 parse_f64 fx x Hf Hz), Hs|].
    (* A = B: both on the 10^-14 grid, less than one step apart *)
    destruct (prec_shape_grid 14 ms (mant14_prec_shape ms Hms) ltac:(lia)) as (z1 & G1).
    destruct (prec_shape_grid 14 _ Hshape ltac:(lia)) as (z2 & G2).
    assert (AB : (denote_plain ms == denote_plain (fmt_prec m 14))%Q).
    { rewrite G1, G2. assert (z1 = z2) as ->; [|reflexivity].
      apply (grid_eq z1 z2 (Z.to_pos (10 ^ 14))). rewrite <- G1, <- G2.
      change (Qmake 1 (Z.to_pos (10 ^ 14))) with (1 # 100000000000000)%Q.
      set (A := denote_plain ms) in *. set (B := denote_plain (fmt_prec m 14)) in *.
      set (M := num_to_Q m) in *.
      apply Qabs_Qlt_condition.
      apply Qabs_Qle_condition in Hperr. apply Qabs_Qle_condition in Hferr.
      destruct Hperr, Hferr. split; lra. }
    rewrite Ev, <- AB.
    assert (Ppos : (0 < Qpower (10 # 1) (k - 14)%Z)%Q) by (apply Qpower_0_lt; reflexivity).
    split; [exact Herr|].
    eapply Qle_lt_trans; [exact Herr|]. lra.
  Qed.

  Theorem display_scientific_accurate : forall x k,
    is_finite x = true -> neqb x nzero = false -> scientific_range (nabs x) = true ->
    in_decade x k ->
    exists t, fdn x = Ok t /\
      (Qabs (denote t - num_to_Q x) <= (1 # 2) * Qpower (10 # 1) (k - 14)%Z)%Q /\
      (Qabs (denote t - num_to_Q x) < Qpower (10 # 1) (k - 14)%Z)%Q.
  Proof. intros x k Hf Hz Hs Hk. apply display_scientific_accurate_at; auto. Qed.
End SciAccuracy.
