(* PegShift.v — POSITION INDEPENDENCE of pest parsing, for every grammar:
   running any expression on a state whose byte offset is moved by [d] (same remaining input, same stack),
   away from the very start of the input, gives the same result with every position — the final offset and
   the spans of all pairs produced — moved by [d].  The only primitive that looks at the absolute position
   is SOI (`start_of_input`), which fails at every offset > 0; hence the hypothesis 0 < pos.
   This is what "the tree does not change up to spans" means when blanks are inserted in front of a
   sub-parse (PegLayout.v). *)
From Coq Require Import String Ascii List NArith Bool Arith Lia ZifyBool ZifyNat ZifyN.
Require Import Blots.Peg Blots.proofs.PegGeneric.
Import ListNotations.

Section Shift.
  Variable R : Type.
  Variable G : grammar R.
  Variable d : N.
  Notation st := (st R).
  Notation res := (res R).

  Fixpoint shift_tree (t : tree R) : tree R :=
    match t with Node r s e kids => Node r (s + d) (e + d) (map shift_tree kids) end.

  (* [s'] is [s] moved by d; the pairs produced above the frames [o] / [o'] are moved too *)
  Definition rel (o o' : list (tree R)) (s s' : st) : Prop :=
    pos s' = (pos s + d)%N /\ rest s' = rest s /\ stk s' = stk s /\
    exists new, out s = new ++ o /\ out s' = map shift_tree new ++ o'.
  Definition rel_res (o o' : list (tree R)) (r r' : res) : Prop :=
    match r, r' with
    | Ok s, Ok s' => rel o o' s s'
    | Fail s, Fail s' => rel o o' s s'
    | Panic, Panic => True
    | OutOfFuel, OutOfFuel => True
    | _, _ => False
    end.
  Definition resp (g : st -> res) : Prop :=
    forall o o' s s', rel o o' s s' -> (0 < pos s)%N -> rel_res o o' (g s) (g s').

  Lemma rel_set_pos : forall o o' s s' k r, rel o o' s s' ->
      rel o o' (set_pos s (pos s + k) r) (set_pos s' (pos s' + k) r).
  Proof.
    intros o o' s s' k r (P & E & K & n & O & O'). unfold rel, set_pos. simpl.
    repeat split; try assumption; [lia|]. exists n. auto.
  Qed.
  Lemma rel_set_stk : forall o o' s s' k, rel o o' s s' -> rel o o' (set_stk s k) (set_stk s' k).
  Proof.
    intros o o' s s' k (P & E & K & n & O & O'). unfold rel, set_stk. simpl.
    repeat split; try assumption. exists n. auto.
  Qed.

  Lemma resp_match_string : forall x, resp (match_string x).
  Proof.
    intros x o o' s s' H _. unfold match_string. pose proof H as (P & E & _). rewrite E.
    destruct (drop_prefix x (rest s)); simpl; [apply rel_set_pos|]; assumption.
  Qed.
  Lemma resp_match_insensitive : forall x, resp (match_insensitive x).
  Proof.
    intros x o o' s s' H _. unfold match_insensitive. pose proof H as (P & E & _). rewrite E.
    destruct (drop_prefix_ci x (rest s)); simpl; [apply rel_set_pos|]; assumption.
  Qed.
  Lemma resp_match_range : forall lo hi, resp (match_range lo hi).
  Proof.
    intros lo hi o o' s s' H _. unfold match_range. pose proof H as (P & E & _). rewrite E.
    destruct (rest s); simpl; [assumption|]. destruct (in_range lo hi a); simpl; [apply rel_set_pos|]; assumption.
  Qed.
  Lemma resp_builtin : forall b, resp (run_builtin b).
  Proof.
    intros b o o' s s' H Hp. pose proof H as (P & E & K & _). destruct b; simpl; rewrite ?E, ?K.
    - destruct (rest s); simpl; [assumption|]. apply rel_set_pos. assumption.
    - replace (N.eqb (pos s) 0) with false by (symmetry; apply N.eqb_neq; lia).
      replace (N.eqb (pos s') 0) with false by (symmetry; apply N.eqb_neq; lia). simpl. assumption.
    - destruct (rest s); simpl; assumption.
    - destruct (stack_peek (stk s)); simpl; [|exact I]. apply resp_match_string; assumption.
    - destruct (stack_pop (stk s)) as [[x|] k]; simpl; [|exact I].
      apply resp_match_string; [apply rel_set_stk; assumption|simpl; assumption].
    - destruct (stack_pop (stk s)) as [[x|] k]; simpl; [apply rel_set_stk|]; assumption.
  Qed.

  Lemma skip_until_shift : forall ss s p,
      skip_until_pos ss (p + d) s = (let '(q, r) := skip_until_pos ss p s in ((q + d)%N, r)).
  Proof.
    induction s; intro p; simpl.
    - destruct (existsb _ ss); reflexivity.
    - destruct (existsb _ ss); [reflexivity|].
      replace (p + d + 1)%N with (p + 1 + d)%N by lia. apply IHs.
  Qed.
  Lemma resp_skip_until : forall ss,
      resp (fun s => let '(p, r) := skip_until_pos ss (pos s) (rest s) in Ok (set_pos s p r)).
  Proof.
    intros ss o o' s s' H _. pose proof H as (P & E & K & n & O & O'). rewrite P, E, skip_until_shift.
    destruct (skip_until_pos ss (pos s) (rest s)) as [q r]. simpl. unfold rel, set_pos. simpl.
    repeat split; try assumption. exists n. auto.
  Qed.

  (* ---------------------------------------------------------------- combinators *)
  Lemma good_ok_pos : forall la s s1, good R la s (Ok s1) -> (pos s <= pos s1)%N.
  Proof. intros la s s1 (A & _). eapply adv_pos. exact A. Qed.

  Lemma rr_bind : forall la o o' s r r' f,
      rel_res o o' r r' -> good R la s r -> (0 < pos s)%N -> resp f -> rel_res o o' (bind r f) (bind r' f).
  Proof.
    intros la o o' s r r' f H Hg Hp Hf. destruct r, r'; simpl in *; try contradiction; auto.
    apply Hf; [assumption|]. pose proof (good_ok_pos _ _ _ Hg). lia.
  Qed.

  Lemma rr_sequence : forall o o' s s' r r', rel o o' s s' -> rel_res o o' r r' ->
      rel_res o o' (sequence s r) (sequence s' r').
  Proof.
    intros o o' s s' r r' (P & E & K & n & O & O') H. destruct r, r'; simpl in *; try contradiction; auto.
    destruct H as (_ & _ & K1 & _). unfold rel. simpl. repeat split; try assumption. exists n. auto.
  Qed.

  Lemma rr_optional : forall o o' r r', rel_res o o' r r' -> rel_res o o' (optional r) (optional r').
  Proof. intros o o' r r' H. destruct r, r'; simpl in *; try contradiction; auto. Qed.

  Lemma resp_repeat : forall la n g, good_fun R la g -> resp g -> resp (repeat_loop n g).
  Proof.
    intros la n g Hg Hr. induction n as [|n IH]; intros o o' s s' H Hp; simpl; [exact I|].
    pose proof (Hr o o' s s' H Hp) as H1. pose proof (Hg s) as G1.
    destruct (g s) eqn:E1, (g s') eqn:E2; simpl in H1; try contradiction; auto.
    apply IH; [assumption|]. pose proof (good_ok_pos _ _ _ G1). lia.
  Qed.

  Lemma resp_lookahead : forall p g, resp g -> resp (lookahead p g).
  Proof.
    intros p g Hr o o' s s' H Hp. unfold lookahead. pose proof H as (P & E & K & n & O & O').
    rewrite K.
    pose proof (Hr o o' _ _ (rel_set_stk o o' s s' (stack_snapshot (stk s)) H) Hp) as H1.
    destruct (g (set_stk s (stack_snapshot (stk s)))) eqn:E1, (g (set_stk s' (stack_snapshot (stk s)))) eqn:E2;
      simpl in H1; try contradiction; auto;
      destruct H1 as (_ & _ & K1 & n1 & O1 & O1');
      (assert (Hb : rel o o' (mkst (pos s) (rest s) (stack_restore (stk s0)) (out s0))
                        (mkst (pos s') (rest s') (stack_restore (stk s1)) (out s1)))
        by (unfold rel; simpl; rewrite K1; repeat split; try assumption; exists n1; auto));
      destruct p; simpl; exact Hb.
  Qed.

  Lemma resp_restore : forall g, resp g -> resp (restore_on_err g).
  Proof.
    intros g Hr o o' s s' H Hp. unfold restore_on_err. pose proof H as (P & E & K & n & O & O').
    rewrite K.
    pose proof (Hr o o' _ _ (rel_set_stk o o' s s' (stack_snapshot (stk s)) H) Hp) as H1.
    destruct (g (set_stk s (stack_snapshot (stk s)))) eqn:E1, (g (set_stk s' (stack_snapshot (stk s)))) eqn:E2;
      simpl in H1; try contradiction; auto; simpl;
      pose proof H1 as (_ & _ & K1 & _); rewrite K1; apply rel_set_stk; assumption.
  Qed.

  Lemma resp_push : forall la g, good_fun R la g -> resp g -> resp (do_push g).
  Proof.
    intros la g Hg Hr o o' s s' H Hp. unfold do_push. pose proof H as (P & E & K & n & O & O').
    pose proof (Hr o o' s s' H Hp) as H1. pose proof (Hg s) as G1.
    destruct (g s) eqn:E1, (g s') eqn:E2; simpl in H1; try contradiction; auto. simpl.
    pose proof H1 as (P1 & _ & K1 & _). pose proof (good_ok_pos _ _ _ G1) as L.
    rewrite K1, E. replace (pos s1 - pos s')%N with (pos s0 - pos s)%N by lia.
    apply rel_set_stk. assumption.
  Qed.

  Lemma resp_rule_wrap : forall r a la g, resp g -> resp (rule_wrap r a la g).
  Proof.
    intros r a la g Hr o o' s s' H Hp. unfold rule_wrap. destruct (emits a la); [|apply Hr; assumption].
    pose proof H as (P & E & K & n & O & O').
    assert (H0 : rel [] [] (set_out s []) (set_out s' [])).
    { unfold rel, set_out. simpl. repeat split; try assumption. exists []. auto. }
    pose proof (Hr [] [] _ _ H0 Hp) as H1.
    destruct (g (set_out s [])) eqn:E1, (g (set_out s' [])) eqn:E2; simpl in H1; try contradiction; auto; simpl.
    - destruct H1 as (P1 & R1 & K1 & n1 & O1 & O1'). rewrite app_nil_r in O1, O1'.
      unfold rel, set_out. simpl. repeat split; try assumption.
      exists (Node r (pos s) (pos s0) (rev (out s0)) :: n). split; [rewrite O; reflexivity|].
      simpl. rewrite O', P, P1, O1, O1', map_rev. reflexivity.
    - destruct H1 as (P1 & R1 & K1 & _). unfold rel, set_out. simpl. repeat split; try assumption.
      exists n. auto.
  Qed.

  Definition resp_runner (rf : runner R) : Prop := forall m a la e, resp (rf m a la e).

  Lemma resp_call : forall rf, resp_runner rf -> forall a la r, resp (call_with G rf a la r).
  Proof.
    intros rf H a la r. unfold call_with.
    destruct (rd_mod (g_def G r)); try (apply resp_rule_wrap); apply H.
  Qed.

  Lemma resp_seq_fun : forall la g1 g2, good_fun R la g1 -> resp g1 -> resp g2 ->
      resp (fun s => sequence s (bind (g1 s) g2)).
  Proof.
    intros la g1 g2 G1 R1 R2 o o' s s' H Hp. apply rr_sequence; [assumption|].
    eapply rr_bind; [apply R1; assumption|apply G1|assumption|assumption].
  Qed.

  Lemma resp_skip : forall n call,
      (forall a la r, good_fun R la (call a la r)) -> (forall a la r, resp (call a la r)) ->
      forall a la, resp (skip_with G n call a la).
  Proof.
    intros n call Hg Hr a la. unfold skip_with.
    assert (Hid : resp (fun s => Ok s)) by (intros o o' s s' H _; exact H).
    destruct a; try exact Hid.
    destruct (g_ws G) as [w|], (g_comment G) as [c|]; try exact Hid.
    - apply (resp_seq_fun la).
      + apply good_repeat. apply Hg.
      + apply (resp_repeat la); [apply Hg|apply Hr].
      + apply (resp_repeat la).
        * intro s1. apply good_sequence_bind; [apply Hg|]. apply good_repeat. apply Hg.
        * apply (resp_seq_fun la); [apply Hg|apply Hr|]. apply (resp_repeat la); [apply Hg|apply Hr].
    - apply (resp_repeat la); [apply Hg|apply Hr].
    - apply (resp_repeat la); [apply Hg|apply Hr].
  Qed.

  Theorem run_shift : forall f, resp_runner (run G f).
  Proof.
    induction f as [|f IH]; intros m a la e o o' s s' H Hp; [exact I|].
    pose proof (run_good R G f) as GR.
    pose proof (good_call R G _ GR) as GC.
    pose proof (resp_call _ IH) as RC.
    pose proof (fun a la => good_skip R G f _ GC a la) as GS.
    pose proof (fun a la => resp_skip f _ GC RC a la) as RS.
    rewrite !run_S. cbv zeta.
    destruct e as [x|x|lo hi|r|b|x|x|x y|x y|x|x|ss|x|x].
    - apply resp_match_string; assumption.
    - apply resp_match_insensitive; assumption.
    - apply resp_match_range; assumption.
    - apply RC; assumption.
    - apply resp_builtin; assumption.
    - apply resp_lookahead; [apply IH|assumption|assumption].
    - apply resp_lookahead; [apply IH|assumption|assumption].
    - destruct m.
      + apply (resp_seq_fun la); [apply GR|apply IH|apply IH|assumption|assumption].
      + rewrite !seq_nested.
        apply (resp_seq_fun la (fun s0 => sequence s0 (bind (run G f false a la x s0) (skip_with G f (call_with G (run G f)) a la))));
          [|apply (resp_seq_fun la); [apply GR|apply IH|apply RS]|apply IH|assumption|assumption].
        intro s0. apply good_sequence_bind; [apply GR|apply GS].
    - pose proof (IH m a la x o o' s s' H Hp) as H1. pose proof (GR m a la x s) as G1.
      destruct (run G f m a la x s) eqn:E1, (run G f m a la x s') eqn:E2; simpl in H1; try contradiction; auto.
      apply IH; [assumption|]. simpl in G1. destruct G1 as (P1 & _). lia.
    - apply rr_optional. apply IH; assumption.
    - destruct m.
      + apply (resp_repeat la); [apply GR|apply IH|assumption|assumption].
      + apply rr_sequence; [assumption|]. apply rr_optional.
        eapply rr_bind; [apply IH; assumption|apply GR|assumption|].
        apply (resp_repeat la).
        * intro s1. apply good_sequence_bind; [apply GS|apply GR].
        * apply (resp_seq_fun la); [apply GS|apply RS|apply IH].
    - apply resp_skip_until; assumption.
    - apply (resp_push la); [apply GR|apply IH|assumption|assumption].
    - apply resp_restore; [apply IH|assumption|assumption].
  Qed.
End Shift.
