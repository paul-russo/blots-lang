(* PegFuel.v — TERMINATION of the pest interpreter coq/Peg.v, for EVERY grammar that carries a termination
   certificate (coq/PegTerm.v: [term_cert G rules idx nl C dz = true], a computed check):

     [run_progress]   an expression that the certificate's nullable set calls non-nullable consumes at least one
                      byte whenever it succeeds (soundness of [PegWf.nullable] w.r.t. the interpreter);
     [run_fuel]       evaluating [e] in a state with L bytes left never returns OutOfFuel when the fuel is at least
                      L * C + dl e   — induction on the fuel; the measure is the lexicographic one
                      (bytes left, depth of rule calls without consumption, expression size) folded into one
                      number by the certificate: every sub-evaluation needs strictly less;
     [parse_total]    [parse G fuel r text <> OutOfFuel] for every text, every rule r, every
                      fuel >= |text| * C + dz r.

   The iterations of a `repeat` are bounded by the bytes left, because every repetition body (and the implicit
   WHITESPACE / COMMENT skip) is non-nullable, hence consumes. *)
From Coq Require Import String Ascii List NArith Bool Arith Lia ZifyBool ZifyNat ZifyN.
Require Import Blots.Peg Blots.PegWf Blots.PegTerm Blots.proofs.PegGeneric.
Import ListNotations.

Section Fuel.
  Variable R : Type.
  Variable G : grammar R.
  Variable rules : list R.
  Variable idx : R -> N.
  Variable nl : list R.
  Variable C : nat.
  Variable dz : R -> nat.
  Hypothesis rules_all : forall r, In r rules.
  Hypothesis cert : term_cert G rules idx nl C dz = true.

  Notation st := (st R).
  Notation res := (res R).
  Notation runner := (runner R).
  Notation nullb := (nullable R idx nl).
  Notation memb r := (mem R idx r nl).
  Notation rprog := (reps_progress R idx nl).
  Notation body r := (rd_body (g_def G r)).
  Notation DL := (dl G idx nl C dz).
  Notation DS := (dskip G dz).

  (* ---------------------------------------------------------------- what the certificate says *)
  Lemma C_pos : 1 <= C.
  Proof.
    unfold term_cert in cert. apply andb_prop in cert. destruct cert as [H _].
    apply andb_prop in H. destruct H as [H _]. apply Nat.leb_le. exact H.
  Qed.

  Lemma cert_rule : forall r,
      (nullb (body r) = true -> memb r = true) /\ DL (body r) <= dz r /\ rprog (body r) = true.
  Proof.
    intro r. unfold term_cert in cert. apply andb_prop in cert. destruct cert as [H _].
    apply andb_prop in H. destruct H as [_ H]. rewrite forallb_forall in H. specialize (H r (rules_all r)).
    cbv zeta in H. apply andb_prop in H. destruct H as [H H3]. apply andb_prop in H. destruct H as [H1 H2].
    split; [|split].
    - intro N. rewrite N in H1. exact H1.
    - apply Nat.leb_le. exact H2.
    - exact H3.
  Qed.

  Lemma cert_trivia : forall t, In t (trivia R G) -> memb t = false.
  Proof.
    intros t I. unfold term_cert in cert. apply andb_prop in cert. destruct cert as [_ H].
    rewrite forallb_forall in H. specialize (H t I). apply negb_true_iff in H. exact H.
  Qed.

  Lemma dskip_ge : forall t, In t (trivia R G) -> dz t <= DS.
  Proof.
    unfold dskip. induction (trivia R G) as [|x l IHl]; simpl; intros t I; [contradiction|].
    destruct I as [E|I]; [subst; lia|]. specialize (IHl t I). lia.
  Qed.
  Lemma dskip_pos : 1 <= DS.
  Proof. unfold dskip. induction (trivia R G) as [|x l IHl]; simpl; lia. Qed.

  Lemma dl_pos : forall e, 1 <= DL e.
  Proof. destruct e; cbn [dl]; lia. Qed.

  (* ---------------------------------------------------------------- bytes left *)
  Definition ln (s : st) : nat := String.length (rest s).

  Lemma adv_ln : forall s s', adv R s s' -> ln s' <= ln s.
  Proof. intros s s' (k & L & E & _). unfold ln. rewrite E, sdrop_length by assumption. lia. Qed.
  Lemma good_ln : forall la s s', good R la s (Ok s') -> ln s' <= ln s.
  Proof. intros la s s' [A _]. apply adv_ln; exact A. Qed.

  Lemma run_ln : forall f m a la e s s', run G f m a la e s = Ok s' -> ln s' <= ln s.
  Proof. intros f m a la e s s' H. pose proof (run_good R G f m a la e s) as Hg. rewrite H in Hg. eapply good_ln; exact Hg. Qed.
  Lemma call_ln : forall f a la r s s', call_with G (run G f) a la r s = Ok s' -> ln s' <= ln s.
  Proof.
    intros f a la r s s' H. pose proof (good_call R G _ (run_good R G f) a la r s) as Hg.
    rewrite H in Hg. eapply good_ln; exact Hg.
  Qed.
  Lemma skip_ln : forall n f a la s s', skip_with G n (call_with G (run G f)) a la s = Ok s' -> ln s' <= ln s.
  Proof.
    intros n f a la s s' H. pose proof (good_skip R G n _ (good_call R G _ (run_good R G f)) a la s) as Hg.
    rewrite H in Hg. eapply good_ln; exact Hg.
  Qed.
  Lemma repeat_call_ln : forall n f a la r s s',
      repeat_loop n (call_with G (run G f) a la r) s = Ok s' -> ln s' <= ln s.
  Proof.
    intros n f a la r s s' H.
    pose proof (good_repeat R la n _ (good_call R G _ (run_good R G f) a la r) s) as Hg.
    rewrite H in Hg. eapply good_ln; exact Hg.
  Qed.

  (* ---------------------------------------------------------------- inversion of the combinators *)
  Lemma sequence_ok : forall (s : st) r s', sequence s r = Ok s' -> r = Ok s'.
  Proof. intros s r s' H. destruct r; simpl in H; try discriminate. exact H. Qed.
  Lemma bind_ok : forall (r : res) f s', bind r f = Ok s' -> exists s1, r = Ok s1 /\ f s1 = Ok s'.
  Proof. intros r f s' H. destruct r; simpl in H; try discriminate. exists s. auto. Qed.
  Lemma rule_wrap_ok : forall r a la (g : st -> res) s s',
      rule_wrap r a la g s = Ok s' -> exists s0 s1, g s0 = Ok s1 /\ rest s0 = rest s /\ rest s1 = rest s'.
  Proof.
    intros r a la g s s' H. unfold rule_wrap in H. destruct (emits a la).
    - destruct (g (set_out s [])) eqn:E; try discriminate. inversion H; subst. exists (set_out s []), s0. auto.
    - exists s, s'. auto.
  Qed.

  Lemma sequence_fuel : forall (s : st) r, r <> OutOfFuel -> sequence s r <> OutOfFuel.
  Proof. intros s r H. destruct r; simpl; congruence. Qed.
  Lemma optional_fuel : forall (r : res), r <> OutOfFuel -> optional r <> OutOfFuel.
  Proof. intros r H. destruct r; simpl; congruence. Qed.
  Lemma bind_fuel : forall (r : res) f,
      r <> OutOfFuel -> (forall s1, r = Ok s1 -> f s1 <> OutOfFuel) -> bind r f <> OutOfFuel.
  Proof. intros r f H1 H2. destruct r; simpl; try congruence. apply H2. reflexivity. Qed.
  Lemma rule_wrap_fuel : forall r a la (g : st -> res) s,
      (forall s0, rest s0 = rest s -> g s0 <> OutOfFuel) -> rule_wrap r a la g s <> OutOfFuel.
  Proof.
    intros r a la g s H. unfold rule_wrap. destruct (emits a la).
    - destruct (g (set_out s [])) eqn:E; try discriminate. exfalso. eapply H; [|exact E]. reflexivity.
    - apply H. reflexivity.
  Qed.
  Lemma lookahead_fuel : forall p (g : st -> res) s,
      g (set_stk s (stack_snapshot (stk s))) <> OutOfFuel -> lookahead p g s <> OutOfFuel.
  Proof.
    intros p g s H. unfold lookahead. destruct (g (set_stk s (stack_snapshot (stk s)))); try congruence;
      destruct p; discriminate.
  Qed.
  Lemma restore_fuel : forall (g : st -> res) s,
      g (set_stk s (stack_snapshot (stk s))) <> OutOfFuel -> restore_on_err g s <> OutOfFuel.
  Proof.
    intros g s H. unfold restore_on_err. destruct (g (set_stk s (stack_snapshot (stk s)))); try congruence; discriminate.
  Qed.
  Lemma push_fuel : forall (g : st -> res) s, g s <> OutOfFuel -> do_push g s <> OutOfFuel.
  Proof. intros g s H. unfold do_push. destruct (g s); try congruence; discriminate. Qed.
  Lemma match_string_fuel : forall x (s : st), match_string x s <> OutOfFuel.
  Proof. intros x s. unfold match_string. destruct (drop_prefix x (rest s)); discriminate. Qed.

  (* a `repeat` whose body consumes on success and never runs out of fuel below the current position needs no
     more iterations than there are bytes left, plus the failing one *)
  Lemma repeat_fuel : forall n (g : st -> res) s,
      (forall s1, ln s1 <= ln s -> g s1 <> OutOfFuel) ->
      (forall s1 s2, g s1 = Ok s2 -> ln s2 < ln s1) ->
      ln s < n -> repeat_loop n g s <> OutOfFuel.
  Proof.
    induction n as [|n IHn]; intros g s H1 H2 L; [lia|]. simpl.
    destruct (g s) eqn:E; try discriminate.
    - pose proof (H2 _ _ E) as L2. apply IHn; [|exact H2|lia].
      intros s1 L1. apply H1. lia.
    - exfalso. eapply H1; [|exact E]. lia.
  Qed.

  (* ================================================================ non-nullable => consumes *)
  Definition prog_runner (rf : runner) : Prop :=
    forall m a la e s s', rf m a la e s = Ok s' -> nullb e = false -> ln s' < ln s.

  Lemma call_progress : forall rf, prog_runner rf -> forall a la r s s',
      call_with G rf a la r s = Ok s' -> memb r = false -> ln s' < ln s.
  Proof.
    intros rf Hp a la r s s' H Hm.
    assert (Hn : nullb (body r) = false).
    { destruct (nullb (body r)) eqn:E; [|reflexivity]. apply (cert_rule r) in E. congruence. }
    unfold call_with in H.
    destruct (rd_mod (g_def G r));
      try (apply rule_wrap_ok in H; destruct H as (s0 & s1 & H & E0 & E1); cbv beta in H;
           pose proof (Hp _ _ _ _ _ _ H Hn) as L; unfold ln in *; rewrite E0, E1 in L; exact L).
    exact (Hp _ _ _ _ _ _ H Hn).
  Qed.

  Theorem run_progress : forall f, prog_runner (run G f).
  Proof.
    induction f as [|f IH]; intros m a la e s s' H Hn; [discriminate|].
    rewrite run_S in H. cbv zeta in H.
    destruct e as [x|x|lo hi|r|b|x|x|x y|x y|x|x|ss|x|x]; cbn [nullable] in Hn; try discriminate.
    - (* Str *)
      unfold match_string in H. destruct (drop_prefix x (rest s)) eqn:E; [|discriminate].
      inversion H; subst. apply drop_prefix_sdrop in E. destruct E as [L E]. subst.
      unfold ln. simpl. rewrite sdrop_length by assumption. destruct x; [discriminate|simpl in *; lia].
    - (* Insens *)
      unfold match_insensitive in H. destruct (drop_prefix_ci x (rest s)) eqn:E; [|discriminate].
      inversion H; subst. apply drop_prefix_ci_sdrop in E. destruct E as [L E]. subst.
      unfold ln. simpl. rewrite sdrop_length by assumption. destruct x; [discriminate|simpl in *; lia].
    - (* Range *)
      unfold match_range in H. destruct (rest s) eqn:E; [discriminate|].
      destruct (in_range lo hi a0); [|discriminate]. inversion H; subst. unfold ln. simpl. rewrite E. simpl. lia.
    - (* Ident *)
      eapply call_progress; [exact IH|exact H|exact Hn].
    - (* Builtin: only ANY is non-nullable *)
      destruct b; try discriminate. simpl in H. destruct (rest s) eqn:E; [discriminate|].
      inversion H; subst. unfold ln. simpl. rewrite E.
      pose proof (any_width a0 s0) as [W1 W2]. rewrite sdrop_length by exact W2. lia.
    - (* Seq *)
      destruct m; apply sequence_ok in H.
      + apply bind_ok in H. destruct H as (s1 & E1 & E2).
        pose proof (run_ln _ _ _ _ _ _ _ E1) as L1. pose proof (run_ln _ _ _ _ _ _ _ E2) as L2.
        destruct (nullb x) eqn:Nx.
        * simpl in Hn. pose proof (IH _ _ _ _ _ _ E2 Hn). lia.
        * pose proof (IH _ _ _ _ _ _ E1 Nx). lia.
      + apply bind_ok in H. destruct H as (s2 & E12 & E3).
        apply bind_ok in E12. destruct E12 as (s1 & E1 & E2).
        pose proof (run_ln _ _ _ _ _ _ _ E1) as L1. pose proof (skip_ln _ _ _ _ _ _ E2) as L2.
        pose proof (run_ln _ _ _ _ _ _ _ E3) as L3.
        destruct (nullb x) eqn:Nx.
        * simpl in Hn. pose proof (IH _ _ _ _ _ _ E3 Hn). lia.
        * pose proof (IH _ _ _ _ _ _ E1 Nx). lia.
    - (* Choice *)
      apply orb_false_iff in Hn. destruct Hn as [Nx Ny].
      destruct (run G f m a la x s) eqn:Ex; try discriminate.
      + inversion H; subst. eapply IH; eassumption.
      + apply run_fail_unchanged in Ex. destruct Ex as (_ & Er & _).
        pose proof (IH _ _ _ _ _ _ H Ny) as L. unfold ln in *. rewrite Er in L. exact L.
    - (* Push *)
      unfold do_push in H. destruct (run G f m a la x s) eqn:Ex; try discriminate.
      inversion H; subst. pose proof (IH _ _ _ _ _ _ Ex Hn) as L. exact L.
    - (* RestoreOnErr *)
      unfold restore_on_err in H. destruct (run G f m a la x (set_stk s (stack_snapshot (stk s)))) eqn:Ex; try discriminate.
      inversion H; subst. pose proof (IH _ _ _ _ _ _ Ex Hn) as L. exact L.
  Qed.

  Lemma trivia_call_progress : forall f a la t s s', In t (trivia R G) ->
      call_with G (run G f) a la t s = Ok s' -> ln s' < ln s.
  Proof. intros f a la t s s' I H. eapply call_progress; [apply run_progress|exact H|apply cert_trivia; exact I]. Qed.

  (* ================================================================ enough fuel *)
  Definition fuel_runner (f : nat) (rf : runner) : Prop :=
    forall m a la e s, ln s * C + DL e <= f -> rprog e = true -> rf m a la e s <> OutOfFuel.

  Lemma call_fuel : forall f, fuel_runner f (run G f) -> forall a la r s,
      ln s * C + dz r <= f -> call_with G (run G f) a la r s <> OutOfFuel.
  Proof.
    intros f Hf a la r s L. destruct (cert_rule r) as (_ & D & P).
    assert (K : forall m a' s0, rest s0 = rest s -> run G f m a' la (body r) s0 <> OutOfFuel).
    { intros m a' s0 E. apply Hf; [|exact P]. unfold ln in *. rewrite E. lia. }
    unfold call_with.
    destruct (rd_mod (g_def G r)); try (apply rule_wrap_fuel; intros s0 E0; apply K; exact E0); apply K; reflexivity.
  Qed.

  Lemma mul_le_C : forall a b, a <= b -> a * C <= b * C.
  Proof. intros. apply Nat.mul_le_mono_r. assumption. Qed.
  Lemma mul_lt_C : forall a b, a < b -> a * C + C <= b * C.
  Proof. intros a b H. replace (a * C + C) with ((a + 1) * C) by lia. apply Nat.mul_le_mono_r. lia. Qed.
  Lemma ln_lt_fuel : forall (s : st) d f, ln s * C + d <= f -> 1 <= d -> ln s < f.
  Proof. intros s d f H D. pose proof C_pos as CP. pose proof (mul_le_C 1 C CP). nia. Qed.

  Lemma skip_fuel : forall f, fuel_runner f (run G f) -> forall a la s,
      ln s * C + DS <= f -> skip_with G f (call_with G (run G f)) a la s <> OutOfFuel.
  Proof.
    intros f Hf a la s L. pose proof dskip_pos as DP. pose proof (ln_lt_fuel s DS f L DP) as LF.
    assert (CF : forall t s1, In t (trivia R G) -> ln s1 <= ln s ->
                              call_with G (run G f) a la t s1 <> OutOfFuel).
    { intros t s1 I L1. apply call_fuel; [exact Hf|]. pose proof (dskip_ge t I). pose proof (mul_le_C _ _ L1). lia. }
    assert (RF : forall t s1, In t (trivia R G) -> ln s1 <= ln s ->
                              repeat_loop f (call_with G (run G f) a la t) s1 <> OutOfFuel).
    { intros t s1 I L1. apply repeat_fuel.
      - intros s2 L2. apply CF; [exact I|lia].
      - intros s2 s3 E. eapply trivia_call_progress; eassumption.
      - lia. }
    unfold skip_with. destruct a; try discriminate.
    unfold trivia in CF, RF.
    destruct (g_ws G) as [w|] eqn:Ew, (g_comment G) as [c|] eqn:Ec; try discriminate.
    - apply sequence_fuel. apply bind_fuel.
      + apply RF; [simpl; auto|lia].
      + intros s1 E1. pose proof (repeat_call_ln _ _ _ _ _ _ _ E1) as L1.
        apply repeat_fuel.
        * intros s2 L2. apply sequence_fuel. apply bind_fuel.
          -- apply CF; [simpl; auto|lia].
          -- intros s3 E3. apply call_ln in E3. apply RF; [simpl; auto|lia].
        * intros s2 s4 E. apply sequence_ok in E. apply bind_ok in E. destruct E as (s3 & E3 & E4).
          apply repeat_call_ln in E4.
          assert (ln s3 < ln s2).
          { apply (trivia_call_progress f NonAtomic la c s2 s3); [|exact E3]. unfold trivia. rewrite Ew, Ec. simpl. auto. }
          lia.
        * lia.
    - apply RF; [simpl; auto|lia].
    - apply RF; [simpl; auto|lia].
  Qed.

  (* budget of a part that runs after [x]: undiscounted if [x] may be empty, discounted by C otherwise *)
  Lemma after_budget : forall x d f (s s1 : st),
      ln s * C + S (Nat.max (DL x) (if nullb x then d else d - C)) <= S f ->
      ln s1 <= ln s -> (nullb x = false -> ln s1 < ln s) -> ln s1 * C + d <= f.
  Proof.
    intros x d f s s1 L L1 Lp. destruct (nullb x).
    - pose proof (mul_le_C _ _ L1). lia.
    - pose proof (mul_lt_C _ _ (Lp eq_refl)). lia.
  Qed.

  Theorem run_fuel : forall f, fuel_runner f (run G f).
  Proof.
    induction f as [|f IH]; intros m a la e s L P.
    - pose proof (dl_pos e). lia.
    - pose proof C_pos as CP. pose proof dskip_pos as DP.
      rewrite run_S. cbv zeta.
      destruct e as [x|x|lo hi|r|b|x|x|x y|x y|x|x|ss|x|x]; cbn [dl] in L; cbn [reps_progress] in P.
      + apply match_string_fuel.
      + unfold match_insensitive. destruct (drop_prefix_ci x (rest s)); discriminate.
      + unfold match_range. destruct (rest s); [discriminate|]. destruct (in_range lo hi a0); discriminate.
      + apply call_fuel; [exact IH|lia].
      + destruct b; simpl.
        * destruct (rest s); discriminate.
        * destruct (N.eqb (pos s) 0); discriminate.
        * destruct (rest s); discriminate.
        * destruct (stack_peek (stk s)); [apply match_string_fuel|discriminate].
        * destruct (stack_pop (stk s)) as [[x|] k]; [apply match_string_fuel|discriminate].
        * destruct (stack_pop (stk s)) as [[x|] k]; discriminate.
      + apply lookahead_fuel. apply IH; [|exact P]. change (ln (set_stk s (stack_snapshot (stk s)))) with (ln s). lia.
      + apply lookahead_fuel. apply IH; [|exact P]. change (ln (set_stk s (stack_snapshot (stk s)))) with (ln s). lia.
      + (* Seq *)
        apply andb_prop in P. destruct P as [Px Py].
        assert (Lx : ln s * C + DL x <= f) by lia.
        destruct m.
        * apply sequence_fuel. apply bind_fuel; [apply IH; assumption|].
          intros s1 E1. apply IH; [|exact Py].
          pose proof (after_budget x _ f s s1 L (run_ln _ _ _ _ _ _ _ E1)
                                   (fun N => run_progress _ _ _ _ _ _ _ E1 N)). lia.
        * apply sequence_fuel. apply bind_fuel; [apply bind_fuel; [apply IH; assumption|]|].
          -- intros s1 E1. apply skip_fuel; [exact IH|].
             pose proof (after_budget x _ f s s1 L (run_ln _ _ _ _ _ _ _ E1)
                                      (fun N => run_progress _ _ _ _ _ _ _ E1 N)). lia.
          -- intros s2 E12. apply bind_ok in E12. destruct E12 as (s1 & E1 & E2).
             apply IH; [|exact Py]. pose proof (skip_ln _ _ _ _ _ _ E2) as L2.
             assert (L1 : ln s2 <= ln s) by (pose proof (run_ln _ _ _ _ _ _ _ E1); lia).
             assert (Lp : nullb x = false -> ln s2 < ln s)
               by (intro N; pose proof (run_progress _ _ _ _ _ _ _ E1 N); lia).
             pose proof (after_budget x _ f s s2 L L1 Lp). lia.
      + (* Choice *)
        apply andb_prop in P. destruct P as [Px Py].
        destruct (run G f m a la x s) eqn:Ex; try discriminate.
        * apply run_fail_unchanged in Ex. destruct Ex as (_ & Er & _).
          apply IH; [|exact Py]. unfold ln in *. rewrite Er. lia.
        * exfalso. revert Ex. apply IH; [lia|exact Px].
      + apply optional_fuel. apply IH; [lia|exact P].
      + (* Rep *)
        apply andb_prop in P. destruct P as [Nx Px]. apply negb_true_iff in Nx.
        pose proof (dl_pos x) as Dx.
        assert (Lx : ln s * C + DL x <= f) by lia.
        assert (Lany : forall s1, ln s1 <= ln s -> ln s1 * C + DL x <= f)
          by (intros s1 L1; pose proof (mul_le_C _ _ L1); lia).
        destruct m.
        * apply repeat_fuel.
          -- intros s1 L1. apply IH; [apply Lany; exact L1|exact Px].
          -- intros s1 s2 E. eapply run_progress; eassumption.
          -- eapply ln_lt_fuel; eassumption.
        * apply sequence_fuel. apply optional_fuel. apply bind_fuel; [apply IH; assumption|].
          intros s1 E1. pose proof (run_progress _ _ _ _ _ _ _ E1 Nx) as L1.
          apply repeat_fuel.
          -- intros s2 L2. apply sequence_fuel. apply bind_fuel.
             ++ apply skip_fuel; [exact IH|].
                assert (L2s : ln s2 < ln s) by lia. pose proof (mul_lt_C _ _ L2s). lia.
             ++ intros s3 E3. apply skip_ln in E3. apply IH; [apply Lany; lia|exact Px].
          -- intros s2 s4 E. apply sequence_ok in E. apply bind_ok in E. destruct E as (s3 & E3 & E4).
             apply skip_ln in E3. pose proof (run_progress _ _ _ _ _ _ _ E4 Nx). lia.
          -- assert (ln s < f) by (eapply ln_lt_fuel; eassumption). lia.
      + destruct (skip_until_pos ss (pos s) (rest s)) as [p r]. discriminate.
      + apply push_fuel. apply IH; [lia|exact P].
      + apply restore_fuel. apply IH; [|exact P]. change (ln (set_stk s (stack_snapshot (stk s)))) with (ln s). lia.
  Qed.

  (* ================================================================ the parser is total *)
  Theorem parse_total : forall fuel r text,
      term_fuel C dz r text <= fuel -> parse G fuel r text <> OutOfFuel.
  Proof.
    intros fuel r text L. unfold parse. apply call_fuel; [apply run_fuel|].
    unfold term_fuel in L. unfold ln, init. simpl. exact L.
  Qed.

  (* any expression, any state: the statement about [run] itself *)
  Theorem run_total : forall fuel m a la e (s : st),
      String.length (rest s) * C + DL e <= fuel -> rprog e = true ->
      run G fuel m a la e s <> OutOfFuel.
  Proof. intros fuel m a la e s L P. apply run_fuel; assumption. Qed.
End Fuel.
