(* AllValidBuiltins.v — the built-in hypothesis of AllValidEval.v discharged for the COMPLETE built-in set
   (EvalAll.builtin_all o with percentile's list-length guard: Valid.builtin_all_fit): after the arity check,
   on an argument vector of valid values and with a callback that neither panics nor returns an invalid value on
   valid arguments, no arm panics and the result is a valid value — for every oracle with oracle_valid o and
   oracle_display_safe o.
     never Panic  pure arms: C01_builtin_call_no_panic_all (AllNoPanic.v) — a pure arm does not look at its
                  callback — with its two side conditions DISCHARGED from validity (percentile: args_ok;
                  format: format_display_safe);  callback arms (map filter reduce every some sort_by group_by
                  count_by): Avoid.v, the callback being applied to valid values only;
     valid result pure arms: AllValidPure.v;  the 17 oracle arms: a string / null / an oracle number;
                  callback arms: elements of the argument list, callback results, `idx as f64`, counts. *)
From Coq Require Import String Ascii List ZArith Bool Lia Floats.SpecFloat.
Require Import Blots.Num Blots.gen.Builtins Blots.Ast Blots.Value Blots.Outcome Blots.Binop
               Blots.Env Blots.Eval Blots.BuiltinsHof Blots.Program Blots.EvalInst Blots.EvalFull
               Blots.EvalAll Blots.BuiltinsList Blots.BuiltinsAgg Blots.BuiltinsText Blots.Valid
               Blots.proofs.Avoid Blots.proofs.NoPanic Blots.proofs.AggPanics Blots.proofs.AllNoPanic
               Blots.proofs.AllValidNum Blots.proofs.AllValidEval Blots.proofs.AllValidOps
               Blots.proofs.AllValidPure.
Import ListNotations.
Open Scope list_scope.
Open Scope nat_scope.

(* ---------------- which arms take the callback ---------------- *)
Definition cb_arm (b : builtin) : bool :=
  match b with
  | B_map | B_filter | B_reduce | B_every | B_some | B_sort_by | B_group_by | B_count_by => true
  | _ => false
  end.
Definition cb0 : callback := fun _ _ _ st => (Err, st).
Lemma cb0_safe : cb_safe cb0. Proof. intros ? ? ? ?. discriminate. Qed.
Lemma pure_arm_indep : forall o b cb cb', cb_arm b = false -> builtin_all o cb b = builtin_all o cb' b.
Proof. intros o b cb cb' H. destruct b; try discriminate H; reflexivity. Qed.

(* ---------------- the side conditions of the per-call theorem, from validity ---------------- *)
Lemma nums_in_valid : forall v, valid_value v -> Forall valid_num (nums_in v).
Proof.
  induction v using ValueInd.value_ind'; intros Hv; cbn [nums_in]; try constructor; try exact Hv; try constructor.
  - (* list *)
    apply vv_list in Hv. induction H as [|x l Hx _ IH]; cbn [flat_map]; [constructor|].
    inversion Hv; subst. apply Forall_app. split; [apply Hx; assumption|apply IH; assumption].
  - (* record *)
    apply closed_VRec with (st := []) in Hv. unfold closed_frame, closed_value in Hv.
    induction H as [|kv l Hx _ IH]; cbn [flat_map]; [constructor|].
    inversion Hv; subst. apply Forall_app. split; [apply Hx; assumption|apply IH; assumption].
  - (* spread *) apply IHv. exact Hv.
Qed.

Lemma format_safe_of_valid : forall o args, oracle_display_safe o -> valid_values args -> format_display_safe o args.
Proof.
  intros o args Hd Hv. apply format_safe_of_display. intros v x Hin Hx. apply Hd.
  assert (Hvv : valid_value v).
  { eapply vvs_in; [exact Hv|]. destruct args; [destruct Hin|right; exact Hin]. }
  pose proof (nums_in_valid v Hvv) as Hn. rewrite Forall_forall in Hn. exact (Hn x Hx).
Qed.

Lemma args_ok_of_valid : forall args, valid_values args -> percentile_fits args = true -> args_ok args.
Proof.
  intros args Hv Hf vs p ->. cbn [percentile_fits] in Hf. apply Z.leb_le in Hf.
  split; [|exact Hf]. apply vvs_cons in Hv. destruct Hv as [_ Hv]. apply vvs_cons in Hv. exact (proj1 Hv).
Qed.

(* ---------------- pure arms: never Panic ---------------- *)
Lemma pure_arm_np : forall o b cb args st, cb_arm b = false ->
  oracle_display_safe o -> can_accept (builtin_arity b) (Datatypes.length args) = true ->
  valid_values args -> (b = B_percentile -> percentile_fits args = true) ->
  fst (builtin_all o cb b args st) <> Panic.
Proof.
  intros o b cb args st Hp Hd Ha Hv Hf. rewrite (pure_arm_indep o b cb cb0 Hp).
  apply builtin_all_no_panic; [exact cb0_safe|exact Ha| |].
  - intros E. apply args_ok_of_valid; [exact Hv|exact (Hf E)].
  - intros _. apply format_safe_of_valid; assumption.
Qed.

(* ---------------- the simple arms of EvalInst.builtin_impl and the 17 oracle arms: results ---------------- *)

Lemma harg_in : forall args i a, valid_values args -> BuiltinsHof.arg args i = Ok a -> valid_value a.
Proof.
  intros args i a Hv E. unfold BuiltinsHof.arg in E. destruct (nth_error args i) eqn:En; inversion E; subst.
  eapply vvs_in; [exact Hv|eapply nth_error_In; eauto].
Qed.
Lemma num1_valid : forall f args v, (forall x, valid_num x -> valid_num (f x)) -> valid_values args ->
  num1 f args = Ok v -> valid_value v.
Proof.
  intros f args v Hf Hv E. unfold num1 in E. obk E a Ha. pose proof (harg_in _ _ _ Hv Ha) as Hva.
  destruct a; cbn [Binop.as_number obind] in E; try discriminate E. injection E as <-. apply Hf. exact Hva.
Qed.

(* builtin_all_fit differs from builtin_all in exactly one point; the guard is needed in the model: beyond
   2^53 elements `(len - 1) as f64` may round up *)
Theorem fit_is_the_only_difference : forall o cb b args st,
  (b = B_percentile -> percentile_fits args = true) ->
  builtin_all_fit o cb b args st = builtin_all o cb b args st.
Proof.
  intros o cb b args st Hf. unfold builtin_all_fit. destruct b; try reflexivity. rewrite (Hf eq_refl). reflexivity.
Qed.

Theorem builtin_all_fit_valid : forall o, oracle_valid o -> oracle_display_safe o ->
  forall cb b args st, vcb cb -> can_accept (builtin_arity b) (Datatypes.length args) = true ->
  valid_values args -> vres (fst (builtin_all_fit o cb b args st)).
Proof.
  intros o Ho Hd cb b args st Hcb Ha Hv.
  destruct (cb_arm b) eqn:Harm.
  - (* the callback arms: their loops apply the callback to valid values only (Avoid.v) *)
    apply vcb_ok in Hcb. apply vvs_Forall in Hv.
    destruct b; try discriminate Harm; cbn [builtin_all_fit builtin_all builtin_full builtin_impl];
      arity_facts Ha;
      first [apply (bi_map_V FPanic valid_value)|apply (bi_filter_V FPanic valid_value)
            |apply (bi_reduce_V FPanic valid_value)|apply (bi_every_V FPanic valid_value)
            |apply (bi_some_V FPanic valid_value)|apply (bi_sort_by_V FPanic valid_value)
            |apply (bi_group_by_V FPanic valid_value)|apply (bi_count_by_V FPanic valid_value)];
      first [exact Hcb|exact Hv|lia|exact idx_valid|exact arith_valid|walk_hyps].
  - split.
    + (* never Panic: the per-call theorem, side conditions from validity *)
      destruct (percentile_fits args) eqn:Hfit.
      * rewrite fit_is_the_only_difference by (intros _; exact Hfit). apply pure_arm_np; auto.
      * destruct b; try (unfold builtin_all_fit; apply pure_arm_np; auto; intros; discriminate).
        unfold builtin_all_fit. rewrite Hfit. discriminate.
    + (* the result: the oracle's libm arms and abs floor ceil trunc sqrt by num1_valid; each arm of
         EvalFull.builtin_full by its lemma of AllValidPure.v; what is left — typeof arity to_bool, the u*
         comparisons, any all, trim uppercase lowercase, join to_string format print time_now — returns an
         atom or an argument, one sweep per shape below *)
      intros v E.
      assert (Hc : closed_list st args) by (apply closed_list_vvs; exact Hv).
      destruct b; try discriminate Harm;
        cbn [builtin_all_fit builtin_all builtin_full builtin_impl pure_bi fst] in E;
        try (destruct (percentile_fits args); [|discriminate E]; cbn [pure_bi fst] in E);
        first
        [ (* libm through the oracle *)
          eapply num1_valid; [|exact Hv|exact E]; first [exact (ov_sin o Ho)|exact (ov_cos o Ho)|exact (ov_tan o Ho)
            |exact (ov_asin o Ho)|exact (ov_acos o Ho)|exact (ov_atan o Ho)|exact (ov_ln o Ho)|exact (ov_log10 o Ho)
            |exact (ov_exp o Ho)|exact nabs_valid|exact nfloor_valid|exact nceil_valid|exact ntrunc_valid|exact nsqrt_valid]
        | exact (bi_agg_closed st AMin args v eq_refl Hc E) | exact (bi_agg_closed st AMax args v eq_refl Hc E)
        | exact (bi_agg_closed st AAvg args v eq_refl Hc E) | exact (bi_agg_closed st ASum args v eq_refl Hc E)
        | exact (bi_agg_closed st AProd args v eq_refl Hc E) | exact (bi_agg_closed st AMedian args v eq_refl Hc E)
        | eapply (bi_percentile_closed st); [exact Hc|exact E] | eapply (bi_dot_closed st); [exact Hc|exact E]
        | eapply (bi_range_closed st); exact E | eapply (bi_len_closed st); exact E
        | eapply (bi_head_closed st); [exact Hc|exact E] | eapply (bi_tail_closed st); [exact Hc|exact E]
        | eapply (bi_slice_closed st); [exact Hc|exact E] | eapply (bi_concat_closed st); [exact Hc|exact E]
        | eapply (bi_unique_closed st); [exact Hc|exact E] | eapply (bi_sort_closed st); [exact Hc|exact E]
        | eapply (bi_reverse_closed st); [exact Hc|exact E] | eapply (bi_split_closed st); exact E
        | eapply (bi_replace_closed st); exact E | eapply (bi_includes_closed st); exact E
        | eapply (bi_keys_closed st); exact E | eapply (bi_values_closed st); [exact Hc|exact E]
        | eapply (bi_entries_closed st); [exact Hc|exact E] | eapply (bi_flatten_closed st); [exact Hc|exact E]
        | eapply (bi_zip_closed st); [exact Hc|exact E] | eapply (bi_chunk_closed st); [exact Hc|exact E]
        | eapply (bi_convert_closed st); [exact Hc|exact E] | eapply (bi_round_closed st); [exact Hc|exact E]
        | eapply (bi_random_closed st); exact E | eapply (bi_to_number_closed st); [exact Hc|exact E]
        | idtac ].
      all: try (unfold bi_typeof in E; ob E a; injection E as <-; reflexivity).
      all: try (unfold bi_arity in E; ob E a; destruct (fn_arity a) as [[n|n|n m]|]; try discriminate E;
                injection E as <-; apply num_of_Z_valid).
      all: try (unfold bi_to_bool in E; obk E a Hga; pose proof (harg_in _ _ _ Hv Hga);
                destruct a; try discriminate E; injection E as <-; first [assumption|reflexivity]).
      all: try (unfold bi_ugt, bi_ult, bi_ugte, bi_ulte, cmp2 in E; ob E a; ob E c; injection E as <-; reflexivity).
      all: try (unfold BuiltinsHof.bi_any, BuiltinsHof.bi_all in E; ob E a; ob E l; injection E as <-; reflexivity).
      all: try (unfold bi_trim, bi_uppercase, bi_lowercase in E; ob E a; ob E x; injection E as <-; reflexivity).
      all: try (unfold bi_join_all in E; ob E a1; ob E d; ob E a0; ob E l; injection E as <-; reflexivity).
      all: try (unfold bi_to_string_all in E; obk E a Hga; pose proof (harg_in _ _ _ Hv Hga);
                destruct a; injection E as <-; first [assumption|reflexivity]).
      all: try (unfold bi_format in E; ob E a0; ob E f; ob E rest; ob E fa; ob E s; injection E as <-; reflexivity).
      all: try (unfold bi_print in E; ob E l; injection E as <-; reflexivity).
      all: try (unfold bi_time_now in E; injection E as <-; exact (ov_now o Ho)).
Qed.
