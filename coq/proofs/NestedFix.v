(* NestedFix.v — C09, formatter.rs with fixes/C09-nested-comments.diff (o_keep_nested_comments =
   true): every expression the formatter prints through expr_to_source / format_single_line is
   comment-free, hence (Comments.fmtd_comments_preserved) the document shows every comment of the
   AST — the exclusion of known finding C09-opaque-nested disappears. *)
From Coq Require Import String Ascii List ZArith Bool Lia.
Require Import Blots.Num Blots.gen.Builtins Blots.Ast Blots.Formatter Blots.proofs.ExprInd
  Blots.proofs.FmtdInd Blots.proofs.Comments.
Import ListNotations.
Open Scope list_scope.

(* ------------------------------------------------------------------ contains_comments is exact enough *)
Lemma app_nil_all : forall (l : list (list string)), Forall (fun x => x = []) l -> concat l = [].
Proof. induction 1 as [|x r Hx Hr IH]; [reflexivity|]. cbn. now rewrite Hx, IH. Qed.

Lemma has_comments_false : forall {A} (c : commented A),
  has_comments c = false -> cleading c = [] /\ ctrailing c = None.
Proof.
  intros A [l n t] H. unfold has_comments in H. cbn in *.
  destruct l; destruct t; cbn in H; try discriminate. split; reflexivity.
Qed.

Lemma items_comments_false : forall items,
  Forall (fun c => contains_comments (cnode c) = false -> expr_comments (cnode c) = []) items ->
  existsb (fun c => has_comments c || contains_comments (cnode c)) items = false ->
  items_comments expr_comments items = [].
Proof.
  induction 1 as [|[l n t] r Hn _ IH]; intros Hc; [reflexivity|]. cbn [existsb] in Hc.
  apply orb_false_iff in Hc as [Hc Hcr]. apply orb_false_iff in Hc as [Hh Hn'].
  apply has_comments_false in Hh as [Hl Ht]. cbn in Hl, Ht, Hn, Hn'. subst l t.
  cbn [items_comments trailing_comments]. rewrite (Hn Hn'), (IH Hcr). reflexivity.
Qed.

Lemma contains_comments_false : forall e, contains_comments e = false -> expr_comments e = [].
Proof.
  apply (expr_ind' (fun e => contains_comments e = false -> expr_comments e = [])); try reflexivity;
    cbn [contains_comments expr_comments].
  - exact items_comments_false.
  - (* ERec *)
    intros entries H Hc.
    induction entries as [|[l [k v] t] r IH]; [reflexivity|].
    inversion H as [|? ? Hn Hr]; subst. cbn [existsb] in Hc.
    apply orb_false_iff in Hc as [Hc Hcr]. apply orb_false_iff in Hc as [Hh Hn'].
    apply has_comments_false in Hh as [Hl Ht]. cbn in Hl, Ht. subst l t.
    cbn [entries_comments trailing_comments cnode] in *. rewrite (IH Hr Hcr).
    cbn [Pentry Pkey] in Hn. destruct Hn as [Hk Hv].
    destruct k; cbn [entry_comments] in *.
    + rewrite (Hv Hn'). reflexivity.
    + apply orb_false_iff in Hn' as [A B]. rewrite (Hk A), (Hv B). reflexivity.
    + reflexivity.
    + apply orb_false_iff in Hn' as [A B]. rewrite (Hk A). reflexivity.
  - auto.
  - intros c t f Hc' Ht' Hf' Hc.
    apply orb_false_iff in Hc as [Hc Hf]. apply orb_false_iff in Hc as [Hc Ht].
    now rewrite (Hc' Hc), (Ht' Ht), (Hf' Hf).
  - (* EDo *)
    intros stmts [rl rn rt] H Hr Hc. cbn [cnode] in *.
    apply orb_false_iff in Hc as [Hc Hrn]. apply orb_false_iff in Hc as [Hs Hh].
    apply has_comments_false in Hh as [Hl Ht]. cbn in Hl, Ht. subst rl rt.
    now rewrite (Hr Hrn), (items_comments_false stmts H Hs).
  - auto.
  - auto.
  - (* ECall *)
    intros f args Hf H Hc.
    apply orb_false_iff in Hc as [Hcf Hca]. rewrite (Hf Hcf). cbn [app].
    induction args as [|a r IH]; [reflexivity|].
    inversion H as [|? ? Ha Hr]; subst. cbn [existsb] in Hca. apply orb_false_iff in Hca as [A B].
    cbn [flat_map]. now rewrite (Ha A), (IH Hr B).
  - intros a i Ha Hi Hc. apply orb_false_iff in Hc as [A B]. now rewrite (Ha A), (Hi B).
  - auto.
  - intros op l r Hl Hr Hc. apply orb_false_iff in Hc as [A B]. now rewrite (Hl A), (Hr B).
  - auto.
  - auto.
  - auto.
Qed.

Lemma contains_comments_cfree : forall e, contains_comments e = false -> cfree e = true.
Proof. intros e H. unfold cfree. now rewrite (contains_comments_false e H). Qed.

(* ------------------------------------------------------------------ opaque pieces are comment-free *)
Definition Qc (p : piece) : Prop := match p with Opaque e _ => cfree e = true | _ => True end.
Definition OC (d : doc) : Prop := Forall Qc d.

Lemma OC_app : forall a b, OC (a ++ b) <-> OC a /\ OC b.
Proof. intros; unfold OC; apply Forall_app. Qed.
Lemma OC_app_i : forall a b, OC a -> OC b -> OC (a ++ b).
Proof. intros; apply OC_app; now split. Qed.
Lemma OC_code : forall s, OC [Code s].
Proof. intros; repeat constructor. Qed.
Lemma OC_plain : forall d, (forall p, In p d -> match p with Opaque _ _ => False | _ => True end) -> OC d.
Proof. intros d H. apply Forall_forall. intros p Hp. specialize (H p Hp). destruct p; try exact I. contradiction. Qed.

Lemma OC_dcomment_lines : forall l, OC (dcomment_lines l).
Proof.
  induction l as [|c r IH]; [constructor|]. destruct r; [repeat constructor|].
  change (dcomment_lines (c :: s :: r)) with (Comment c :: Nl :: dcomment_lines (s :: r)).
  repeat constructor. exact IH.
Qed.
Lemma OC_trailing : forall tr, OC (trailing_doc tr).
Proof. intros [t|]; [|constructor]. cbn. constructor; [exact I|apply OC_dcomment_lines]. Qed.
Lemma OC_leading : forall i l, OC (leading_doc i l).
Proof.
  intros i l. induction l as [|c r IH]; [constructor|]. unfold leading_doc in *. cbn [flat_map].
  apply OC_app_i; [repeat constructor|exact IH].
Qed.
Lemma OC_wrap : forall b d, OC d -> OC (wrap_parens b d).
Proof. intros [] d H; [|exact H]. unfold wrap_parens. repeat apply OC_app_i; auto using OC_code. Qed.
Lemma OC_protect : forall d b, OC d -> OC (protect_minus d b).
Proof.
  intros d b H. unfold protect_minus. destruct (negb b && starts_with_minus (render d)); [|exact H].
  repeat apply OC_app_i; auto using OC_code.
Qed.
Lemma OC_lits : forall d, (forallb (fun p => match p with Opaque _ _ => false | _ => true end) d = true) -> OC d.
Proof.
  intros d H. apply OC_plain. rewrite forallb_forall in H. intros p Hp. specialize (H p Hp).
  destruct p; try exact I. discriminate.
Qed.

Ltac oc :=
  repeat first
    [ assumption
    | apply OC_leading | apply OC_trailing | apply OC_code
    | apply OC_wrap | apply OC_protect
    | apply OC_lits; reflexivity
    | apply OC_app_i ].

Section Layouts.
  Variable O : oracles.
  Variable w : nat.
  Variable rec : expr -> nat -> doc.
  Definition RO (x : expr) : Prop := forall j, OC (rec x j).

  Lemma list_items_OC : forall l inner, Forall (fun c => RO (cnode c)) l -> OC (list_items_doc rec l inner).
  Proof.
    induction l as [|[lead n tr] r IH]; intros inner H; [constructor|].
    inversion H as [|? ? Hn Hr]; subst. cbn [cnode] in Hn. cbn [list_items_doc].
    specialize (IH inner Hr). specialize (Hn inner). oc.
  Qed.
  Lemma list_doc_OC : forall items i, Forall (fun c => RO (cnode c)) items -> OC (list_doc rec items i).
  Proof.
    intros items i H. destruct items; [apply OC_code|]. unfold list_doc.
    pose proof (list_items_OC _ (i + INDENT_SIZE) H). oc.
  Qed.

  Definition RO_entry (r : rentry) : Prop :=
    match r with
    | REntry (KStatic _) v => RO v
    | REntry (KDyn k) v => RO k /\ RO v
    | REntry (KShort _) _ => True
    | REntry (KSpread x) _ => RO x
    end.
  Lemma entry_doc_OC : forall r i, RO_entry r -> OC (entry_doc O rec r i).
  Proof.
    intros [[k|k|n|x] v] i H; cbn [entry_doc RO_entry] in *.
    - change (Code (o_record_key O k +++ ": ") :: rec v i) with ([Code (o_record_key O k +++ ": ")] ++ rec v i).
      specialize (H i). oc.
    - destruct H as [Hk Hv]. specialize (Hk i). specialize (Hv i). oc.
    - apply OC_code.
    - apply H.
  Qed.
  Lemma rec_entries_OC : forall l inner, Forall (fun c => RO_entry (cnode c)) l -> OC (rec_entries_doc O rec l inner).
  Proof.
    induction l as [|[lead n tr] r IH]; intros inner H; [constructor|].
    inversion H as [|? ? Hn Hr]; subst. cbn [cnode] in Hn. cbn [rec_entries_doc].
    specialize (IH inner Hr). pose proof (entry_doc_OC n inner Hn). oc.
  Qed.
  Lemma record_doc_OC : forall entries i, Forall (fun c => RO_entry (cnode c)) entries -> OC (record_doc O rec entries i).
  Proof.
    intros entries i H. destruct entries; [apply OC_code|]. unfold record_doc.
    pose proof (rec_entries_OC _ (i + INDENT_SIZE) H). oc.
  Qed.

  Lemma lambda_doc_OC : forall args body i, RO body -> OC (lambda_doc O w rec args body i).
  Proof.
    intros args body i H. unfold lambda_doc. cbv zeta.
    pose proof (H i). pose proof (H (i + INDENT_SIZE)).
    destruct (is_do body); [oc|].
    match goal with |- context [if ?b then _ else _] => destruct b end; oc.
  Qed.

  Lemma do_stmts_OC : forall l inner first, Forall (fun c => RO (cnode c)) l -> OC (do_stmts_doc rec l inner first).
  Proof.
    induction l as [|[lead n tr] r IH]; intros inner first H; [constructor|].
    inversion H as [|? ? Hn Hr]; subst. cbn [cnode] in Hn. cbn [do_stmts_doc].
    specialize (IH inner false Hr). specialize (Hn inner). oc.
  Qed.
  Lemma do_doc_OC : forall stmts ret i, Forall (fun c => RO (cnode c)) stmts -> RO (cnode ret) -> OC (do_doc rec stmts ret i).
  Proof.
    intros stmts ret i Hs Hr. unfold do_doc. cbv zeta.
    pose proof (do_stmts_OC _ (i + INDENT_SIZE) true Hs). specialize (Hr (i + INDENT_SIZE)). oc.
  Qed.

  Lemma call_doc_OC : forall f args i, RO f -> Forall RO args -> OC (call_doc O rec f args i).
  Proof.
    intros f args i Hf Ha. unfold call_doc. cbv zeta. pose proof (Hf i).
    assert (A : OC (flat_map (fun a0 => [Nl; ind (i + INDENT_SIZE)] ++ rec a0 (i + INDENT_SIZE) ++ [Code ","]) args)).
    { induction Ha as [|x l Hx Hl IH]; [constructor|]. cbn [flat_map]. specialize (Hx (i + INDENT_SIZE)). oc. }
    destruct args as [|a r]; oc.
  Qed.

  Lemma binop_doc_OC : forall op l r i, RO l -> RO r -> OC (binop_doc O w rec op l r i).
  Proof.
    intros op l r i Hl Hr. unfold binop_doc. cbv zeta.
    pose proof (Hl i). pose proof (Hr i). pose proof (Hr (i + INDENT_SIZE)).
    repeat match goal with |- context [if ?b then _ else _] =>
      lazymatch b with
      | o_needs_parens _ _ _ _ => fail
      | _ => destruct b
      end end; oc.
  Qed.
End Layouts.

Section Fmt.
  Variable O : oracles.
  Hypothesis Hkeep : o_keep_nested_comments O = true.
  Variable w : nat.
  Let fmtd := fmtd O w.

  Lemma OC_opaque : forall e s, contains_comments e = false -> OC [Opaque e s].
  Proof. intros e s H. constructor; [now apply contains_comments_cfree|constructor]. Qed.

  Theorem fixed_opaque_exprs_comment_free : forall e i, OC (fmtd e i).
  Proof.
    enough (H : forall e, True -> forall i, OC (fmtd e i)) by (intros e i; exact (H e I i)).
    apply (fmtd_ind O w (fun _ => True) (fun _ d => OC d)).
    - (* the two places where an expression is printed opaquely *)
      intros e s _ K _. unfold keeps_layout in K. rewrite Hkeep in K. now apply OC_opaque.
    - intros items i _ H. apply list_doc_OC. eapply Forall_impl; [|exact H]. intros c Hc. exact (Hc I).
    - intros entries i _ H. apply record_doc_OC. eapply Forall_impl; [|exact H].
      intros [lead [k v] tr] [Hk Hv]; cbn [cnode RO_entry Pkey] in *.
      destruct k; [exact (Hv I)|split; [exact (Hk I)|exact (Hv I)]|exact I|exact (Hk I)].
    - intros args body i _ H. apply lambda_doc_OC. exact (H I).
    - intros c t el i _ Hc Ht Hel Cel. rewrite cond_doc_eq.
      pose proof (Hc I i). pose proof (Hc I (i + INDENT_SIZE)). pose proof (Ht I (i + INDENT_SIZE)).
      assert (OC (else_doc O w el i))
        by (refine (else_doc_ind O w _ _ OC el i I Hel Cel _ _); intros d Hd; oc).
      match goal with |- context [if ?b then _ else _] => destruct b end; oc.
    - intros stmts ret i _ Hs Hr. apply do_doc_OC; [|exact (Hr I)].
      eapply Forall_impl; [|exact Hs]. intros c Hc. exact (Hc I).
    - intros x v i _ H. pose proof (H I i). apply (OC_app_i [Code (x +++ " = ")]); oc.
    - intros x i _ H. pose proof (H I i). apply (OC_app_i [Code "output "]); oc.
    - intros f args i _ Hf H. apply call_doc_OC; [exact (Hf I)|].
      eapply Forall_impl; [|exact H]. intros a Ha. exact (Ha I).
    - intros op l r i _ Hl Hr. apply binop_doc_OC; [exact (Hl I)|exact (Hr I)].
    - intros a ix i _ _ H1 H2. pose proof (H1 I i). pose proof (H2 I i). oc.
    - intros a f i _ _ H. pose proof (H I i). oc.
    - intros op x i _ _ H. pose proof (H I i). oc.
    - intros x i _ _ H. pose proof (H I i). oc.
    - intros x i _ _ H. pose proof (H I i). oc.
  Qed.

  (* with the fix, the document shows every comment of the AST — unless a via/into/where lambda
     operand had to be re-assembled from lines() (text with "\r\n" or a trailing line break),
     which keeps its comments in the text but hides them from the document *)
  Theorem fixed_comments_preserved : forall e i,
    wf_ast e = true -> doc_relined (fmtd e i) = [] ->
    doc_comments (fmtd e i) = expr_comments e.
  Proof.
    intros e i Hw Hr. apply fmtd_comments_preserved; [exact Hw|].
    pose proof (fixed_opaque_exprs_comment_free e i) as H. fold fmtd.
    revert H Hr. generalize (fmtd e i) as d. induction d as [|p d IH]; intros H Hr; [reflexivity|].
    inversion H as [|? ? Hp Hd]; subst.
    change (doc_opaque (p :: d)) with (piece_opaque p ++ doc_opaque d).
    change (doc_relined (p :: d)) with ((match p with Relined e0 _ => [e0] | _ => [] end) ++ doc_relined d) in Hr.
    apply app_eq_nil in Hr as [Hr1 Hr2]. rewrite forallb_app, (IH Hd Hr2), andb_true_r.
    destruct p; try reflexivity; [cbn in *; now rewrite Hp|discriminate].
  Qed.
End Fmt.
