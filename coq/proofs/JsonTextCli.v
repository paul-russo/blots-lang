(* JsonTextCli.v — property C06 end to end in the model: value -> from_value -> to_json ->
   serde_json text -> serde_json parse -> map building -> parse_json_inputs -> inputs.<name>
   for a class [okn] of numbers whose printed token is read back, and for the class given by the
   two library hypotheses on finite doubles. *)
From Coq Require Import String Ascii List ZArith Bool Lia.
Require Import Blots.Num Blots.gen.Builtins Blots.Ast Blots.Value Blots.Outcome Blots.Json Blots.JsonText Blots.JsonWf.
Require Import Blots.proofs.ValueInd Blots.proofs.JsonMaps Blots.proofs.JsonRT Blots.proofs.JsonEcho.
Require Import Blots.proofs.JsonTextRT Blots.proofs.JsonTextDoc.
Import ListNotations.
Open Scope list_scope.

Section TextCli.
  Variable pfs : string -> option (list lamarg * string).
  Variable pbody : string -> outcome expr.
  Variable emit : expr -> list (string * svalue) -> string.
  Variable nameof : lam_id -> option string.
  Variable fmt_pieces : num -> numtok.
  Variable float_of_tok : numtok -> option num.

  (* first run: `output <name> = v` prints the outputs object; second run reads that text as its
     inputs and looks at inputs.<name> *)
  Definition cli_text_out_in (v : value) (name : string) : outcome value :=
    do s <- from_value emit nameof v;
    match json_from_str float_of_tok (jprint fmt_pieces (write_outputs [(name, s)])) with
    | None => Err
    | Some d =>
        do inputs <- fst (parse_json_inputs pfs pbody (sj_build d) 0);
        match rec_get inputs name with
        | Some v' => Ok v'
        | None => Ok VNull
        end
    end.

  Variable okn : jnumber -> bool.
  Hypothesis H_tok_wf : forall n, okn n = true -> tok_wf (tok_of_jnumber fmt_pieces n) = true.
  Hypothesis H_number : forall n rest, okn n = true -> no_cont rest = true ->
    parse_number float_of_tok (render_tok (tok_of_jnumber fmt_pieces n) ++ rest) = Some (n, rest).

  Theorem cli_text_out_in_roundtrip_on v name :
    json_data v = true -> value_no_reserved pfs v = true ->
    json_all okn (to_json (sv_of v)) = true ->
    (jdepth (write_outputs [(name, sv_of v)]) <= 127)%nat ->
    cli_text_out_in v name = Ok (vsort v)
    /\ equals (vsort v) v = true /\ same_data (vsort v) v = true.
  Proof.
    intros Hd Hr Hok Hdepth.
    destruct (cli_out_in_roundtrip pfs pbody emit nameof v name Hd Hr) as (H1 & H2 & H3).
    split; [|split; assumption].
    unfold cli_text_out_in. unfold cli_out_in in H1.
    rewrite (from_value_plain emit nameof v (json_data_plain v Hd)) in *. cbn [obind] in *.
    rewrite (json_text_roundtrip_on fmt_pieces float_of_tok okn H_tok_wf H_number);
      [exact H1| |exact Hdepth].
    unfold write_outputs. cbn [map fst snd json_all forallb]. now rewrite Hok.
  Qed.
End TextCli.

Section TextCliFinite.
  Variable pfs : string -> option (list lamarg * string).
  Variable pbody : string -> outcome expr.
  Variable emit : expr -> list (string * svalue) -> string.
  Variable nameof : lam_id -> option string.
  Variable fmt_pieces : num -> numtok.
  Variable float_of_tok : numtok -> option num.
  Hypothesis H_print_wf : forall x, is_finite x = true ->
    tok_wf (fmt_pieces x) = true /\ tok_is_float (fmt_pieces x) = true.
  Hypothesis H_roundtrip : forall x, is_finite x = true -> float_of_tok (fmt_pieces x) = Some x.

  (* every number to_json writes is in range *)
  Theorem cli_text_out_in_roundtrip v name :
    json_data v = true -> value_no_reserved pfs v = true ->
    (jdepth (write_outputs [(name, sv_of v)]) <= 127)%nat ->
    cli_text_out_in pfs pbody emit nameof fmt_pieces float_of_tok v name = Ok (vsort v)
    /\ equals (vsort v) v = true /\ same_data (vsort v) v = true.
  Proof.
    intros Hd Hr.
    exact (cli_text_out_in_roundtrip_on pfs pbody emit nameof fmt_pieces float_of_tok jnum_text_ok
             (tok_of_jnumber_wf fmt_pieces is_finite H_print_wf)
             (parse_print_number fmt_pieces float_of_tok is_finite H_print_wf H_roundtrip)
             v name Hd Hr (json_wf_to_json _)).
  Qed.
End TextCliFinite.
