(* FullClosed.v — EvalFull.builtin_full treats its callback parametrically on hereditarily closed values
   and returns closed values on closed arguments (every function inside a result was inside an
   argument): AllGenClosed.v, where the proofs are, at (store_le, closed_value).  Needed to extend C04's
   call-site independence to the evaluator with every transcribed built-in. *)
From Coq Require Import String Ascii List ZArith Bool Lia.
Require Import Blots.Num Blots.gen.Builtins Blots.Ast Blots.Value Blots.Outcome Blots.Binop
               Blots.Env Blots.Eval Blots.BuiltinsHof Blots.Program Blots.EvalInst Blots.EvalFull
               Blots.BuiltinsList Blots.BuiltinsAgg
               Blots.proofs.ValueInd Blots.proofs.StoreMono Blots.proofs.Closed Blots.proofs.ClosedOps.
Require Blots.proofs.AllGenClosed.
Import ListNotations.
Open Scope list_scope.
Open Scope nat_scope.

Section Pure.
  Variable st : store.

  Lemma aarg_closed : forall args i v, closed_list st args -> BuiltinsAgg.arg args i = Ok v -> closed_value st v.
  Proof. exact (AllGenClosed.aarg_closed closed_value st). Qed.
End Pure.

(* the dispatcher of EvalFull.v *)
Theorem builtin_full_agree0 : GenOps.builtin_agrees store_le closed_value builtin_full.
Proof.
  exact (AllGenClosed.builtin_full_agree0_gen store_le store_le_refl store_le_trans closed_value
           closed_VList closed_VRec (fun st w => iff_refl _) atomic_closed closed_mono).
Qed.
