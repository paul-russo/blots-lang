(* FmtToksFlat.v — the recursive fragment with do-blocks (property C07).

   `flatfam e`: every node that a layout function recurses into is a binary operator, a
   conditional, an assignment, a do-block (without comment annotations) or a node always printed
   through expr_to_source (literal, name, prefix / postfix operator, index, field access —
   whatever it contains); no list, record, call or lambda in a laid-out position.
   For such trees, with lam_ok, tok_ok, the repaired do-block rule and the repaired policy, at
   every width and indentation
       toks (render (fmtd O w e i)) = toks (print_text e)
   — the same chunks before `canon`: by expr_ind' from the step lemmas of FmtToksBin.v and
   do_family of FmtToksDo.v. *)
From Coq Require Import String Ascii List Bool Arith Lia.
Require Import Blots.Num Blots.Ast Blots.PrattRender Blots.Printer Blots.Formatter Blots.FmtTokens
               Blots.proofs.PrattRT
               Blots.proofs.FmtToks Blots.proofs.FmtToksDoc Blots.proofs.FmtToksAll Blots.proofs.FmtToksBin
               Blots.proofs.FmtToksDo.
Import ListNotations.
Local Open Scope list_scope.

Fixpoint flatfam (e : expr) : bool :=
  match e with
  | EBin _ l r => flatfam l && flatfam r
  | EAssign _ v => flatfam v
  | ECond c t f => flatfam c && flatfam t && flatfam f
  | EDo stmts (Cm rl ret rt) =>
      (fix go (l : list (commented expr)) : bool :=
         match l with [] => true | Cm [] x None :: l' => flatfam x && go l' | _ => false end) stmts
      && match rl, rt with [], None => true | _, _ => false end && flatfam ret
  | EList _ | ERec _ | ELam _ _ | ECall _ _ | EOutput _ => false
  | _ => true
  end.

Section Flat.
  Variable oi : opinfo_t.
  Variable fx : fixes.
  Variable numtxt : num -> string.
  Variable keepc : bool.
  Variable w : nat.
  Hypothesis Hdom : fx_dominus fx = true.
  Notation pol := (policy_new oi).
  Notation O := (printer_oracles fx pol numtxt keepc).
  Notation pt := (print_text fx pol numtxt).
  Notation fd := (fmtd O w).
  Notation ELf := (EL fx pol numtxt keepc w).

  Definition PF (e : expr) : Prop := flatfam e = true -> lam_ok e = true -> tok_ok O e = true ->
    (forall i, toks (render (fd e i)) = toks (pt e)) /\ ELf e /\ fsl O e = pt e.

  Ltac leaf :=
    let Hf := fresh in let Hl := fresh in let Hk := fresh in let HS := fresh in
    intros Hf Hl Hk;
    match goal with |- (forall i, toks (render (fd ?e i)) = _) /\ _ =>
      pose proof (step_leaf fx pol numtxt keepc w e eq_refl Hk) as HS;
      split; [exact HS|split; [exact (el_plain fx pol numtxt keepc w e I Hk HS)|reflexivity]]
    end.

  Theorem flatfam_all : forall e, PF e.
  Proof.
    induction e using expr_ind'; unfold PF.
    - leaf. - leaf. - leaf. - leaf. - leaf. - leaf. - leaf.
    - intro Hf; discriminate Hf.
    - intro Hf; discriminate Hf.
    - intro Hf; discriminate Hf.
    - (* ECond *)
      intros Hf Hl Hk. cbn [flatfam] in Hf. apply andb_prop in Hf. destruct Hf as [Hf F3].
      apply andb_prop in Hf. destruct Hf as [F1 F2].
      cbn [lam_ok] in Hl. apply andb_prop in Hl. destruct Hl as [Hl L3]. apply andb_prop in Hl. destruct Hl as [L1 L2].
      pose proof Hk as Hk'. cbn [tok_ok] in Hk'. apply andb_prop in Hk'. destruct Hk' as [_ Hk'].
      apply andb_prop in Hk'. destruct Hk' as [Hk' K3]. apply andb_prop in Hk'. destruct Hk' as [K1 K2].
      destruct (IHe1 F1 L1 K1) as [S1 _]. destruct (IHe2 F2 L2 K2) as [S2 _]. destruct (IHe3 F3 L3 K3) as [_ [C3 _]].
      destruct (step_cond' fx pol numtxt keepc w e1 e2 e3 Hk S1 S2 C3) as [HS HC].
      split; [exact HS|split; [exact HC|reflexivity]].
    - (* EDo *)
      destruct ret as [rl r rt]. intros Hf Hl Hk. cbn [Pcm] in H0.
      cbn [flatfam] in Hf. apply andb_prop in Hf. destruct Hf as [Hf Fr]. apply andb_prop in Hf. destruct Hf as [Fs Fpl].
      destruct rl; [|discriminate]. destruct rt; [discriminate|].
      cbn [lam_ok] in Hl. apply andb_prop in Hl. destruct Hl as [Ls Lr].
      pose proof Hk as Hk'. cbn [tok_ok] in Hk'. apply andb_prop in Hk'. destruct Hk' as [_ Hk'].
      apply andb_prop in Hk'. destruct Hk' as [Hk' Kr]. apply andb_prop in Hk'. destruct Hk' as [Ks _].
      assert (HL : plain_items stmts = true /\ Forall (fun c => child_ok oi fx numtxt keepc w (cnode c)) stmts).
      { clear Hk. revert H Fs Ls Ks. induction stmts as [|[lead x tr] stmts IHl]; intros IH F L K;
          [split; [reflexivity|constructor]|].
        inversion IH as [|? ? Px IH']; subst. cbn [Pcm] in Px.
        destruct lead; [|discriminate]. destruct tr; [discriminate|].
        apply andb_prop in F. destruct F as [Fx F']. apply andb_prop in L. destruct L as [Lx L'].
        apply andb_prop in K. destruct K as [Kx K'].
        destruct (Px Fx Lx Kx) as [Sx _]. destruct (IHl IH' F' L' K') as [A B].
        split; [exact A|]. constructor; [cbn [cnode]; repeat split; assumption|exact B]. }
      destruct HL as [HP HF].
      destruct (H0 Fr Lr Kr) as [Sr _].
      assert (HS : forall i, toks (render (fd (EDo stmts (Cm [] r None)) i)) = toks (pt (EDo stmts (Cm [] r None)))).
      { intro i. apply (do_family oi fx numtxt keepc w Hdom stmts r i HP Hk HF). repeat split; assumption. }
      split; [exact HS|split; [exact (el_plain fx pol numtxt keepc w (EDo stmts (Cm [] r None)) I Hk HS)|reflexivity]].
    - (* EAssign *)
      intros Hf Hl Hk. cbn [flatfam] in Hf. cbn [lam_ok] in Hl.
      pose proof Hk as Hk'. cbn [tok_ok] in Hk'. apply andb_prop in Hk'. destruct Hk' as [_ Hk'].
      apply andb_prop in Hk'. destruct Hk' as [_ Kv].
      destruct (IHe Hf Hl Kv) as [Sv [_ Ev]].
      pose proof (step_assign' fx pol numtxt keepc w x e Ev Hk Sv) as HS.
      split; [exact HS|split; [exact (el_plain fx pol numtxt keepc w (EAssign x e) I Hk HS)|]].
      cbn [fsl print_text]. now rewrite Ev.
    - intro Hf; discriminate Hf.
    - intro Hf; discriminate Hf.
    - leaf. - leaf.
    - (* EBin *)
      intros Hf Hl Hk. cbn [flatfam] in Hf. apply andb_prop in Hf. destruct Hf as [F1 F2].
      cbn [lam_ok] in Hl. apply andb_prop in Hl. destruct Hl as [L1 L2].
      pose proof Hk as Hk'. cbn [tok_ok] in Hk'. apply andb_prop in Hk'. destruct Hk' as [_ Hk'].
      apply andb_prop in Hk'. destruct Hk' as [K1 K2].
      destruct (IHe1 F1 L1 K1) as [S1 _]. destruct (IHe2 F2 L2 K2) as [S2 _].
      pose proof (step_bin' fx pol numtxt keepc w o e1 e2 Hk S1 S2) as HS.
      split; [exact HS|split; [exact (el_plain fx pol numtxt keepc w (EBin o e1 e2) I Hk HS)|reflexivity]].
    - leaf. - leaf. - leaf.
  Qed.

  Theorem flatfam_toks : forall e i, flatfam e = true -> lam_ok e = true -> tok_ok O e = true ->
    toks (render (fd e i)) = toks (pt e).
  Proof. intros e i Hf Hl Hk. exact (proj1 (flatfam_all e Hf Hl Hk) i). Qed.
End Flat.
