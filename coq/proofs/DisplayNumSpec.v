(* DisplayNumSpec.v — C20: the numeral grammar of the property, the value a numeral denotes,
   the documented shapes of the library outputs, and the basic text lemmas.
   The grammar recognisers are written independently of the formatter. *)
From Coq Require Import ZArith Bool String Ascii List Lia QArith.
Require Import Blots.Num Blots.Outcome Blots.DisplayNum Blots.proofs.DisplayNumGroup.
Import ListNotations.
Open Scope char_scope.
Open Scope Z_scope.

(* ---------- the numeral grammar ---------- *)
Definition is_nil {A} (l : list A) : bool := match l with [] => true | _ => false end.
(* d+ *)
Definition all_digits (l : text) : bool := negb (is_nil l) && forallb is_digit l.
(* optional fraction: nothing, or '.' d+ *)
Definition wf_fraction (rest : option text) : bool :=
  match rest with
  | None => true
  | Some (_ :: fp) => all_digits fp
  | Some [] => false
  end.
Definition strip_sign (l : text) : text := if starts_with "-" l then tl l else l.
(* d+ (. d+)?   — the mantissa of a scientific numeral, and the documented library shape *)
Definition wf_plain_body (l : text) : bool :=
  let '(ip, rest) := break_at "." l in all_digits ip && wf_fraction rest.
Definition plain_shape (l : text) : bool := wf_plain_body (strip_sign l).
(* integer digits grouped in threes by commas, optional fraction *)
Definition wf_standard_body (l : text) : bool :=
  let '(ip, rest) := break_at "." l in wf_grouped_int ip && wf_fraction rest.
(* -? d+ *)
Definition wf_exponent (l : text) : bool := all_digits (strip_sign l).
(* mantissa 'e' exponent *)
Definition wf_sci_body (l : text) : bool :=
  match split_once "e" l with
  | Some (m, e) => wf_plain_body m && wf_exponent e
  | None => false
  end.
Definition text_is (t : text) (s : string) : bool := String.eqb (display_string t) s.
(* the numeral grammar of C20 *)
Definition wf_numeral (t : text) : bool :=
  text_is t "NaN" || text_is t "Infinity" || text_is t "-Infinity" ||
  (let b := strip_sign t in wf_standard_body b || wf_sci_body b).

(* ---------- the value a numeral denotes (exact rational) ---------- *)
Definition pow10 (n : nat) : Z := 10 ^ Z.of_nat n.
Definition dec_value (ip fp : text) : Q :=
  Qmake (digits_value (ip ++ fp)) (Z.to_pos (pow10 (length fp))).
Definition frac_digits (rest : option text) : text :=
  match rest with Some (_ :: f) => f | _ => [] end.
Definition denote_body (b : text) : Q :=
  let '(ip, rest) := break_at "." b in dec_value ip (frac_digits rest).
(* -? d+ (. d+)? *)
Definition denote_plain (s : text) : Q :=
  if starts_with "-" s then - denote_body (tl s) else denote_body s.
(* -? d+ *)
Definition int_value (s : text) : Z :=
  if starts_with "-" s then - digits_value (tl s) else digits_value s.
Definition denote_std (s : text) : Q := denote_plain (ungroup s).
Definition denote_sci (s : text) : Q :=
  match split_once "e" s with
  | Some (m, e) => denote_plain m * Qpower (10 # 1) (int_value e)
  | None => 0
  end.
Definition denote (s : text) : Q := if contains "e" s then denote_sci s else denote_std s.

(* ---------- documented shapes of the library outputs ---------- *)
(* format!("{:.n$}", x) of a finite x:  -? d+  followed, when n > 0, by '.' and exactly n digits *)
Definition prec_body_shape (n : Z) (b : text) : bool :=
  let '(ip, rest) := break_at "." b in
  all_digits ip &&
  match rest with
  | None => n =? 0
  | Some (_ :: fp) => (0 <? n) && all_digits fp && (Z.of_nat (length fp) =? n)
  | Some [] => false
  end.
Definition prec_shape (n : Z) (s : text) : bool := prec_body_shape n (strip_sign s).
(* -? d . d+ : the mantissa text of {:e} *)
Definition mant_shape (s : text) : bool :=
  match strip_sign s with
  | d :: dot :: fp => is_digit d && Ascii.eqb dot "." && all_digits fp
  | _ => false
  end.
(* format!("{:.14e}", x) of a finite x:  -? d . d+ e -? d+ *)
Definition exp_shape (s : text) : bool :=
  match split_once "e" s with
  | Some (m, e) => mant_shape m && wf_exponent e
  | None => false
  end.

(* ====================================================================================
   basic text lemmas
   ==================================================================================== *)
Lemma is_digit_not : forall a c, is_digit a = true -> is_digit c = false -> Ascii.eqb a c = false.
Proof.
  intros a c Ha Hc. destruct (Ascii.eqb a c) eqn:E; [|reflexivity].
  apply Ascii.eqb_eq in E. subst. congruence.
Qed.

Lemma forallb_digit_contains : forall c l,
  is_digit c = false -> forallb is_digit l = true -> contains c l = false.
Proof.
  intros c l Hc. induction l as [|a l IH]; intros H; [reflexivity|].
  cbn [forallb] in H. apply andb_true_iff in H. destruct H as [Ha Hl].
  cbn [contains]. rewrite (is_digit_not a c Ha Hc). now apply IH.
Qed.

Lemma break_at_none : forall c l, contains c l = false -> break_at c l = (l, None).
Proof.
  intros c l. induction l as [|a l IH]; intros H; [reflexivity|].
  cbn [contains] in H. apply orb_false_iff in H. destruct H as [Ha Hl].
  cbn [break_at]. rewrite Ha. now rewrite (IH Hl).
Qed.

Lemma break_at_app : forall c l r, contains c l = false -> break_at c (l ++ c :: r) = (l, Some (c :: r)).
Proof.
  intros c l r. induction l as [|a l IH]; intros H.
  - cbn [app break_at]. now rewrite Ascii.eqb_refl.
  - cbn [contains] in H. apply orb_false_iff in H. destruct H as [Ha Hl].
    cbn [app break_at]. rewrite Ha. now rewrite (IH Hl).
Qed.

(* break_at decomposes the text *)
Lemma break_at_spec : forall c l,
  match break_at c l with
  | (b, None) => l = b /\ contains c l = false
  | (b, Some d) => l = b ++ d /\ contains c b = false /\ exists r, d = c :: r
  end.
Proof.
  intros c l. induction l as [|a l IH]; cbn [break_at].
  - auto.
  - destruct (Ascii.eqb a c) eqn:E.
    + apply Ascii.eqb_eq in E. subst. repeat split. now exists l.
    + destruct (break_at c l) as [b [d|]].
      * destruct IH as (-> & Hb & r & ->). repeat split.
        -- cbn [contains]. now rewrite E.
        -- now exists r.
      * destruct IH as (-> & Hb). split; [reflexivity|]. cbn [contains]. now rewrite E.
Qed.

Lemma contains_app : forall c l1 l2, contains c (l1 ++ l2) = contains c l1 || contains c l2.
Proof.
  intros. induction l1 as [|a l1 IH]; [reflexivity|]. cbn [app contains]. rewrite IH. now rewrite orb_assoc.
Qed.

(* ---------- trim_end ---------- *)
Lemma trim_end_cons_ne : forall c a r, Ascii.eqb a c = false -> trim_end c (a :: r) = a :: trim_end c r.
Proof. intros. cbn [trim_end]. rewrite H. now destruct (trim_end c r). Qed.

Lemma trim_end_app_ne : forall c l a r,
  Ascii.eqb a c = false -> trim_end c (l ++ a :: r) = l ++ a :: trim_end c r.
Proof.
  intros c l a r H. induction l as [|x l IH].
  - now apply trim_end_cons_ne.
  - cbn [app trim_end]. rewrite IH. now destruct l.
Qed.

Lemma trim_end_snoc : forall c l, trim_end c (l ++ [c]) = trim_end c l.
Proof.
  intros. induction l as [|a l IH]; cbn [app trim_end]; [now rewrite Ascii.eqb_refl|now rewrite IH].
Qed.

Lemma trim_end_all : forall c k, trim_end c (repeat c k) = [].
Proof.
  intros. induction k; [reflexivity|]. cbn [repeat trim_end]. rewrite IHk. now rewrite Ascii.eqb_refl.
Qed.

(* l = trim_end c l ++ c^k, and the kept part does not end with c *)
Lemma trim_end_spec : forall c l, exists k, l = trim_end c l ++ repeat c k.
Proof.
  intros c l. induction l as [|a l [k IH]].
  - now exists O.
  - cbn [trim_end]. destruct (trim_end c l) as [|x r] eqn:E.
    + destruct (Ascii.eqb a c) eqn:Ea.
      * apply Ascii.eqb_eq in Ea. subst a. exists (S k). cbn [app repeat]. now rewrite IH at 1.
      * exists k. cbn [app]. now rewrite IH at 1.
    + exists k. rewrite IH at 1. reflexivity.
Qed.

Lemma trim_end_last : forall c l, starts_with c (rev (trim_end c l)) = false.
Proof.
  intros c l. induction l as [|a l IH]; [reflexivity|].
  cbn [trim_end]. destruct (trim_end c l) as [|x r] eqn:E.
  - destruct (Ascii.eqb a c) eqn:Ea; [reflexivity|]. cbn. exact Ea.
  - change (rev (a :: x :: r)) with (rev (x :: r) ++ [a]).
    destruct (rev (x :: r)) as [|y t] eqn:Er.
    + apply (f_equal (@length _)) in Er. rewrite rev_length in Er. discriminate.
    + cbn [app starts_with] in *. exact IH.
Qed.

Lemma trim_end_id : forall c l, starts_with c (rev l) = false -> trim_end c l = l.
Proof.
  intros c l H. destruct (trim_end_spec c l) as [k Hk].
  destruct k; [now rewrite app_nil_r in Hk|].
  exfalso. rewrite Hk in H. rewrite rev_app_distr in H.
  change (repeat c (S k)) with (c :: repeat c k) in H. rewrite repeat_cons, rev_app_distr in H.
  cbn in H. now rewrite Ascii.eqb_refl in H.
Qed.

Lemma forallb_trim_end : forall c l, forallb is_digit l = true -> forallb is_digit (trim_end c l) = true.
Proof.
  intros c l H. destruct (trim_end_spec c l) as [k Hk]. rewrite Hk in H.
  rewrite forallb_app in H. now apply andb_true_iff in H.
Qed.

(* ---------- digits_value ---------- *)
Lemma digits_value_acc : forall l a,
  fold_left (fun acc c => 10 * acc + digit_val c) l a = a * pow10 (length l) + digits_value l.
Proof.
  unfold digits_value, pow10. induction l as [|c l IH]; intros a.
  - cbn. lia.
  - cbn [fold_left length]. rewrite IH. rewrite (IH (10 * 0 + digit_val c)).
    rewrite Nat2Z.inj_succ, Z.pow_succ_r by lia. ring.
Qed.

Lemma digits_value_app : forall l1 l2,
  digits_value (l1 ++ l2) = digits_value l1 * pow10 (length l2) + digits_value l2.
Proof.
  intros. unfold digits_value at 1. rewrite fold_left_app. rewrite digits_value_acc. reflexivity.
Qed.

Lemma digits_value_zeros : forall k, digits_value (repeat "0" k) = 0.
Proof.
  induction k; [reflexivity|]. change (repeat "0" (S k)) with (["0"] ++ repeat "0" k).
  rewrite digits_value_app, IHk. reflexivity.
Qed.

Lemma pow10_pos : forall n, 0 < pow10 n.
Proof. intros. unfold pow10. apply Z.pow_pos_nonneg; lia. Qed.

Lemma pow10_S : forall n, pow10 (S n) = 10 * pow10 n.
Proof. intros. unfold pow10. rewrite Nat2Z.inj_succ, Z.pow_succ_r by lia. reflexivity. Qed.

Lemma pow10_add : forall a b, pow10 (a + b) = pow10 a * pow10 b.
Proof. intros. unfold pow10. rewrite Nat2Z.inj_add, Z.pow_add_r by lia. reflexivity. Qed.

(* trailing zeros of the fraction change no value *)
Lemma dec_value_trailing_zeros : forall ip fp k,
  (dec_value ip (fp ++ repeat "0" k) == dec_value ip fp)%Q.
Proof.
  intros. unfold dec_value, Qeq. cbn [Qnum Qden].
  rewrite !Z2Pos.id by apply pow10_pos.
  rewrite app_assoc, digits_value_app, digits_value_zeros, app_length, repeat_length, pow10_add.
  ring.
Qed.

Lemma dec_value_no_frac : forall ip, (dec_value ip [] == inject_Z (digits_value ip))%Q.
Proof.
  intros. unfold dec_value, Qeq, inject_Z. cbn [Qnum Qden length]. rewrite app_nil_r. reflexivity.
Qed.
