(* PrattComplete.v — the converse of PrattAdequacy: whatever the fuelled function returns as a
   successful conversion is derivable in the relational transcription.  Together:
   (exists fuel, parse_items fuel its = Ok (Some t))  <->  Items its t. *)
From Coq Require Import String List Bool Arith Lia.
Require Import Blots.Num Blots.gen.Builtins Blots.Ast Blots.Outcome Blots.PrattTypes Blots.Pratt
               Blots.proofs.PrattSteps.
Import ListNotations.
Local Open Scope nat_scope.
Local Open Scope list_scope.

Section Complete.
  Variable tbl : ops_map.
  Variable imap : list (oprule * binop).
  Variable pmap : list (oprule * prefix_ctor).
  Notation pexpr' := (pexpr tbl imap pmap).
  Notation ploop' := (ploop tbl imap pmap).
  Notation mpost' := (map_postfix tbl imap pmap).
  Notation primary' := (primary tbl imap pmap).
  Notation parse' := (parse_items tbl imap pmap).
  Notation ItemsR := (Items tbl imap pmap).

  (* the element loops, given completeness of the nested converter *)
  Section LoopsComplete.
    Variable parse : list item -> outcome tres.
    Hypothesis Hp : forall g e, parse g = Ok (Some e) -> ItemsR g e.

    Lemma omapM_complete : forall args es, omapM parse args = Ok (Some es) -> Args tbl imap pmap args es.
    Proof.
      induction args as [|g args IH]; intros es H.
      - cbn in H. inversion H. constructor.
      - cbn [omapM] in H. apply obind_ok in H. destruct H as ([e|] & He & H); [|discriminate].
        apply obind_ok in H. destruct H as ([es'|] & Hes & H); cbn in H; inversion H; subst.
        constructor; [apply Hp; exact He | apply IH; exact Hes].
    Qed.
    Lemma list_loop_complete : forall els es, list_loop parse els = Ok (Some es) -> LEls tbl imap pmap els es.
    Proof.
      induction els as [|[s|g eol] els IH]; intros es H.
      - cbn in H. inversion H. constructor.
      - constructor. apply IH. exact H.
      - cbn [list_loop] in H. apply obind_ok in H. destruct H as ([e|] & He & H); [|discriminate].
        apply obind_ok in H. destruct H as ([es'|] & Hes & H); cbn in H; inversion H; subst.
        constructor; [apply Hp; exact He | apply IH; exact Hes].
    Qed.
    Lemma rec_loop_complete : forall els es, rec_loop parse els = Ok (Some es) -> REls tbl imap pmap els es.
    Proof.
      induction els as [|[s|k v eol|s eol|g eol] els IH]; intros es H.
      - cbn in H. inversion H. constructor.
      - constructor. apply IH. exact H.
      - cbn [rec_loop] in H. apply obind_ok in H. destruct H as ([key|] & Hk & H); [|discriminate].
        apply obind_ok in H. destruct H as ([val|] & Hv & H); [|discriminate].
        apply obind_ok in H. destruct H as ([es'|] & Hes & H); cbn in H; inversion H; subst.
        destruct k as [s|s|inner]; cbn [key_of] in Hk.
        + inversion Hk; subst. apply RE_pair_id; [apply Hp; exact Hv | apply IH; exact Hes].
        + inversion Hk; subst. apply RE_pair_str; [apply Hp; exact Hv | apply IH; exact Hes].
        + apply obind_ok in Hk. destruct Hk as ([d|] & Hd & Hk); cbn in Hk; inversion Hk; subst.
          apply RE_pair_dyn; [apply Hp; exact Hd | apply Hp; exact Hv | apply IH; exact Hes].
      - cbn [rec_loop] in H. apply obind_ok in H. destruct H as ([es'|] & Hes & H); cbn in H; inversion H; subst.
        apply RE_short. apply IH. exact Hes.
      - cbn [rec_loop] in H. apply obind_ok in H. destruct H as ([e|] & He & H); [|discriminate].
        apply obind_ok in H. destruct H as ([es'|] & Hes & H); cbn in H; inversion H; subst.
        apply RE_spread; [apply Hp; exact He | apply IH; exact Hes].
    Qed.
    Lemma do_loop_complete : forall els stmts ret t,
      do_loop parse els stmts ret = Ok (Some t) -> DEls tbl imap pmap els stmts ret t.
    Proof.
      induction els as [|[g c|s c|g|s] els IH]; intros stmts ret t H.
      - cbn in H. inversion H. constructor.
      - cbn [do_loop] in H. apply obind_ok in H. destruct H as ([e|] & He & H); [|discriminate].
        eapply DE_stmt; [apply Hp; exact He | apply IH; exact H].
      - apply DE_comstmt. apply IH. exact H.
      - cbn [do_loop] in H. apply obind_ok in H. destruct H as ([e|] & He & H); [|discriminate].
        eapply DE_ret; [apply Hp; exact He | apply IH; exact H].
      - apply DE_com. apply IH. exact H.
    Qed.
  End LoopsComplete.

  Definition C_pexpr (f : nat) := forall rbp its t rest,
    pexpr' f rbp its = Ok (Some t, rest) -> Expr tbl imap pmap rbp its t rest.
  Definition C_ploop (f : nat) := forall rbp lhs its t rest,
    ploop' f rbp lhs its = Ok (Some t, rest) ->
    exists l, lhs = Some l /\ Loop tbl imap pmap rbp l its t rest.
  Definition C_post (f : nat) := forall lhs i u,
    mpost' f lhs i = Ok (Some u) -> exists l, lhs = Some l /\ Post tbl imap pmap l i u.
  Definition C_prim (f : nat) := forall i x, primary' f i = Ok (Some x) -> Prim tbl imap pmap i x.
  Definition C_parse (f : nat) := forall its t, parse' f its = Ok (Some t) -> ItemsR its t.

  Lemma map_prefix_some : forall r r1 l, map_prefix pmap r r1 = Ok (Some l) -> exists x, r1 = Some x.
  Proof.
    intros r r1 l H. unfold map_prefix in H.
    destruct (assoc_find r pmap) as [[u|]|]; [| |discriminate]; destruct r1; cbn in H; try discriminate; eauto.
  Qed.
  Lemma map_infix_some : forall lhs r r1 u, map_infix imap lhs r r1 = Ok (Some u) ->
    exists l x, lhs = Some l /\ r1 = Some x.
  Proof.
    intros lhs r r1 u H. unfold map_infix in H. destruct (assoc_find r imap); [|discriminate].
    destruct lhs, r1; cbn in H; try discriminate. eauto.
  Qed.

  Lemma complete_all : forall f, C_pexpr f /\ C_ploop f /\ C_post f /\ C_prim f /\ C_parse f.
  Proof.
    induction f as [|f (IHe & IHl & IHpo & IHpr & IHpa)].
    - repeat split; intro; intros; discriminate.
    - assert (He : C_pexpr (S f)).
      { intros rbp its t rest H. rewrite pexpr_S in H. destruct its as [|i its']; [discriminate|].
        apply obind_ok in H. destruct H as ([lhs mid] & Hn & H). cbn [fst snd] in H.
        destruct (IHl _ _ _ _ _ H) as (l & -> & HL).
        destruct (item_op i) as [r|] eqn:Eop.
        - destruct (ops_get tbl r) as [[[| |a] p]|] eqn:Eg; try discriminate.
          apply obind_ok in Hn. destruct Hn as ([r1 rest1] & H1 & Hn). cbn [fst snd] in Hn.
          apply obind_ok in Hn. destruct Hn as (e & Hmp & Hn). inversion Hn; subst e mid.
          destruct (map_prefix_some _ _ _ Hmp) as (x & ->).
          eapply E_prefix; [exact Eop | exact Eg | apply IHe; exact H1 | exact Hmp | exact HL].
        - apply obind_ok in Hn. destruct Hn as (e & Hp & Hn). inversion Hn; subst e mid.
          eapply E_primary; [exact Eop | apply IHpr; exact Hp | exact HL]. }
      assert (Hl : C_ploop (S f)).
      { intros rbp lhs its t rest H. rewrite ploop_S in H.
        apply obind_ok in H. destruct H as (l0 & Hlbp & H).
        destruct (Nat.ltb rbp l0) eqn:Elt.
        - apply Nat.ltb_lt in Elt. destruct its as [|i its']; [discriminate|].
          destruct (item_op i) as [r|] eqn:Eop; [|discriminate].
          assert (Hl0 : forall a p, ops_get tbl r = Some (a, p) -> l0 = p).
          { intros a p Eg. unfold lbp in Hlbp. rewrite Eop, Eg in Hlbp. congruence. }
          destruct (ops_get tbl r) as [[[| |a] p]|] eqn:Eg; try discriminate.
          + (* postfix *)
            apply obind_ok in H. destruct H as (e & Hpo & H).
            destruct (IHl _ _ _ _ _ H) as (u & -> & HL).
            destruct (IHpo _ _ _ Hpo) as (l & -> & HP).
            exists l. split; [reflexivity|].
            pose proof (Hl0 _ _ eq_refl). subst l0.
            eapply L_postfix; [exact Eop | exact Eg | exact Elt | exact HP | exact HL].
          + (* infix *)
            apply obind_ok in H. destruct H as ([r1 mid] & H1 & H). cbn [fst snd] in H.
            apply obind_ok in H. destruct H as (e & Hmi & H).
            destruct (IHl _ _ _ _ _ H) as (u & -> & HL).
            destruct (map_infix_some _ _ _ _ Hmi) as (l & x & -> & ->).
            exists l. split; [reflexivity|].
            pose proof (Hl0 _ _ eq_refl). subst l0.
            eapply L_infix; [exact Eop | exact Eg | exact Elt | apply IHe; exact H1 | exact Hmi | exact HL].
        - apply Nat.ltb_ge in Elt. inversion H; subst. exists t. split; [reflexivity|].
          eapply L_stop; [exact Hlbp | exact Elt]. }
      assert (Hpa : C_parse (S f)).
      { intros its t H. rewrite parse_S in H. apply obind_ok in H. destruct H as ([r1 rest] & H1 & H).
        cbn [fst] in H. inversion H; subst r1. eapply I_intro. apply IHe. exact H1. }
      assert (Hpo : C_post (S f)).
      { intros lhs i u H. destruct i; cbn [map_postfix] in H; try discriminate.
        - destruct r; try discriminate. destruct lhs as [l|]; cbn in H; inversion H; subst.
          exists l. split; [reflexivity | apply Po_fact].
        - apply obind_ok in H. destruct H as ([i'|] & Hi & H); destruct lhs as [l|]; cbn in H; inversion H; subst.
          exists l. split; [reflexivity | apply Po_access; apply IHpa; exact Hi].
        - destruct lhs as [l|]; cbn in H; inversion H; subst.
          exists l. split; [reflexivity | apply Po_dot].
        - apply obind_ok in H. destruct H as ([a'|] & Ha & H); destruct lhs as [l|]; cbn in H; inversion H; subst.
          exists l. split; [reflexivity | apply Po_call; apply (omapM_complete (parse' f) IHpa); exact Ha]. }
      assert (Hpr : C_prim (S f)).
      { intros i x H. destruct i; cbn [primary] in H; try discriminate.
        - inversion H; subst. constructor.
        - inversion H; subst. constructor.
        - inversion H; subst. constructor.
        - inversion H; subst. constructor.
        - inversion H; subst. destruct (builtin_of_name s) eqn:E; [apply P_builtin | apply P_ident]; exact E.
        - inversion H; subst. constructor.
        - apply P_expr. apply IHpa. exact H.
        - apply obind_ok in H. destruct H as ([r|] & Hr & H); cbn in H; inversion H; subst.
          apply P_list. apply (list_loop_complete (parse' f) IHpa). exact Hr.
        - apply obind_ok in H. destruct H as ([r|] & Hr & H); cbn in H; inversion H; subst.
          apply P_rec. apply (rec_loop_complete (parse' f) IHpa). exact Hr.
        - apply obind_ok in H. destruct H as ([b|] & Hb & H); cbn in H; inversion H; subst.
          apply P_lam. apply IHpa. exact Hb.
        - apply obind_ok in H. destruct H as ([c'|] & Hc & H); [|discriminate].
          apply obind_ok in H. destruct H as ([t'|] & Ht & H); [|discriminate].
          apply obind_ok in H. destruct H as ([e'|] & He' & H); cbn in H; inversion H; subst.
          apply P_cond; apply IHpa; assumption.
        - apply P_do. apply (do_loop_complete (parse' f) IHpa). exact H.
        - apply obind_ok in H. destruct H as ([v'|] & Hv & H); cbn in H; inversion H; subst.
          apply P_assign. apply IHpa. exact Hv. }
      repeat split; assumption.
  Qed.

  Theorem rel_complete : forall fuel its t, parse' fuel its = Ok (Some t) -> ItemsR its t.
  Proof. intros fuel its t. exact (proj2 (proj2 (proj2 (proj2 (complete_all fuel)))) its t). Qed.
End Complete.
