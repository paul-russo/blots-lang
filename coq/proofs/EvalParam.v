(* EvalParam.v — the evaluator is parametric in a predicate on values: if [P st v] ("v makes sense in the store
   st") is hereditary, is kept along a preorder [le] on stores that allocation and naming respect, holds of a
   new function value whose captured scope satisfies it, and the operators, built-ins and callback keep it, then
   evaluation — every expression form, FunctionDef::call, every depth — takes a configuration whose scope chain
   satisfies P to one that does, moves the store along [le], and returns a value satisfying P.

   Instances: "mentions existing cells only" with "not shorter" (C02Wf.v); the predicate true of every value
   with any preorder closed under allocation and naming, which leaves the statement about the store
   (StoreMono.v: names are write-once; C02Keep.v: old cells are untouched). *)
From Coq Require Import String Ascii List ZArith Bool Lia.
Require Import Blots.Num Blots.gen.Builtins Blots.Ast Blots.Value Blots.Outcome Blots.Binop
               Blots.Env Blots.Eval Blots.BuiltinsHof
               Blots.proofs.ExprInd Blots.proofs.GenOps Blots.proofs.ValuePred Blots.proofs.Frames.
Import ListNotations.
Open Scope string_scope.
Open Scope list_scope.
Open Scope nat_scope.

Section Param.
  Variable le : store -> store -> Prop.
  Hypothesis le_refl : forall s, le s s.
  Hypothesis le_trans : forall a b c, le a b -> le b c -> le a c.
  Hypothesis le_fresh : forall st args body scope v st',
    fresh_lambda st args body scope = (v, st') -> le st st'.
  (* naming at an assignment that started from st0 touches only cells created since *)
  Hypothesis le_name : forall st0 st1 v x, le st0 st1 -> le st0 (name_if_created (length st0) st1 v x).

  Variable P : store -> value -> Prop.
  Hypothesis HP : forall st, hereditary (P st).
  Hypothesis P_mono : forall v st st', le st st' -> P st v -> P st' v.
  Hypothesis P_builtin : forall st b, P st (VBuiltin b).
  Hypothesis P_named : forall n st v x w, P st w -> P (name_if_created n st v x) w.
  (* a function value: what it captured satisfies P, and that is enough when it is created *)
  Hypothesis P_lam_scope : forall st id ps body sc, P st (VLam id ps body sc) -> Pframe (P st) sc.
  Hypothesis P_lam : forall st fr args body vars v st', Pframes (P st) fr ->
    fresh_lambda st args body (capture fr vars []) = (v, st') -> P st' v.

  Lemma Pframe_mono : forall st st' f, le st st' -> Pframe (P st) f -> Pframe (P st') f.
  Proof. intros st st' f H. apply Forall_impl. intros kv. apply P_mono; exact H. Qed.
  Lemma Pframes_mono : forall st st' fr, le st st' -> Pframes (P st) fr -> Pframes (P st') fr.
  Proof. intros st st' fr H. apply Forall_impl. intros kf. apply Pframe_mono; exact H. Qed.

  (* a callback keeps P, from every store above s0 *)
  Definition cb_keeps (s0 : store) (cb : callback) : Prop := cb_closed le P s0 cb.
  (* operators / built-ins keep P when their callback does *)
  Definition binop_keeps (bi : callback -> binop -> value -> value -> store -> outcome value * store) : Prop :=
    forall cb s0, cb_keeps s0 cb -> forall op l r st res st',
      le s0 st -> P st l -> P st r -> bi cb op l r st = (res, st') ->
      le st st' /\ (forall v, res = Ok v -> P st' v).
  Definition builtin_keeps (bu : callback -> builtin -> list value -> store -> outcome value * store) : Prop :=
    forall cb s0, cb_keeps s0 cb -> forall b args st res st',
      le s0 st -> Forall (P st) args -> bu cb b args st = (res, st') ->
      le st st' /\ (forall v, res = Ok v -> P st' v).

  Definition Pc (c : cfg) : Prop := Pframes (P (fst c)) (snd c).

  (* what one evaluation step guarantees *)
  Definition post (c : cfg) (x : result) : Prop :=
    le (fst c) (fst (snd x)) /\ Pc (snd x) /\ (forall v, fst x = Ok v -> P (fst (snd x)) v).
  Definition keeps (ev : cfg -> expr -> result) (e : expr) : Prop :=
    forall c, Pc c -> post c (ev c e).

  Lemma post_same : forall c o, Pc c -> (forall v, o = Ok v -> P (fst c) v) -> post c (o, c).
  Proof. intros c o H Hv. split; [apply le_refl|split; [exact H|exact Hv]]. Qed.
  Lemma post_fail : forall c c1 (o : outcome value), le (fst c) (fst c1) -> Pc c1 -> is_ok o = false -> post c (o, c1).
  Proof. intros c c1 o H1 H2 Ho. split; [exact H1|split; [exact H2|]]. intros v E; cbn [fst] in E; subst o; discriminate Ho. Qed.
  Lemma post_trans : forall c c1 x, le (fst c) (fst c1) -> post c1 x -> post c x.
  Proof. intros c c1 x H [H1 H2]. split; [eapply le_trans; eauto|exact H2]. Qed.

  Section Eval.
    Variable release : bool.
    Variable binop_impl : callback -> binop -> value -> value -> store -> outcome value * store.
    Variable builtin_impl : callback -> builtin -> list value -> store -> outcome value * store.
    Hypothesis Hbin : binop_keeps binop_impl.
    Hypothesis Hbu : builtin_keeps builtin_impl.

    Section Expr.
    Variable apply : frames -> callback.
    Hypothesis Happly : forall fr s0, Pframes (P s0) fr -> cb_keeps s0 (apply fr).
    Notation evalE := (evalE release binop_impl apply).

    (* lists of sub-expressions: the values collected so far stay valid while the store grows *)
    Lemma evalL_keeps : forall ev l, Forall (keeps ev) l ->
      forall c, Pc c ->
        le (fst c) (fst (snd (evalL ev c l))) /\ Pc (snd (evalL ev c l)) /\
        (forall vs, fst (evalL ev c l) = Ok vs -> Forall (P (fst (snd (evalL ev c l)))) vs).
    Proof.
      intros ev l HF; induction HF as [|x l Hx _ IH]; intros c Hc; cbn [evalL].
      - split; [apply le_refl|split; [exact Hc|]]. intros vs E; inversion E; constructor.
      - destruct (Hx c Hc) as (L1 & W1 & V1). destruct (ev c x) as [o c1]. cbn [fst snd] in *.
        destruct o; try (split; [exact L1|split; [exact W1|intros ? E; discriminate E]]).
        destruct (IH c1 W1) as (L2 & W2 & V2). destruct (evalL ev c1 l) as [o2 c2]. cbn [fst snd] in *.
        destruct o2; (split; [eapply le_trans; eauto|split; [exact W2|]]); intros vs E; inversion E; subst.
        constructor; [eapply P_mono; [exact L2|apply V1; reflexivity]|apply V2; reflexivity].
    Qed.
    Lemma evalRecL_keeps : forall ev (l : list (commented rentry)),
      Forall (fun cm => Pentry (keeps ev) (cnode cm)) l ->
      forall c acc, Pc c -> Pframe (P (fst c)) acc -> post c (evalRecL ev c acc l).
    Proof.
      intros ev l HF; induction HF as [|[ld [k v] tr] l Hx _ IH]; intros c acc Hc Hacc; cbn [evalRecL].
      - apply post_same; [exact Hc|]. intros w E; inversion E; subst. apply (her_rec _ (HP _)). exact Hacc.
      - cbn [cnode Pentry] in Hx. destruct Hx as [Hk Hv].
        destruct k as [key|ke|x|se]; cbn [Pkey] in Hk.
        + destruct (Hv c Hc) as (L1 & W1 & V1). destruct (ev c v) as [o c1]. cbn [fst snd] in *.
          destruct o; try (apply post_fail; [exact L1|exact W1|reflexivity]).
          eapply post_trans; [exact L1|]. apply IH; [exact W1|].
          apply rec_insert_P; [eapply Pframe_mono; [exact L1|exact Hacc]|apply V1; reflexivity].
        + destruct (Hk c Hc) as (L1 & W1 & V1). destruct (ev c ke) as [o c1]. cbn [fst snd] in *.
          destruct o; try (apply post_fail; [exact L1|exact W1|reflexivity]).
          destruct (as_string a); cbn [cast_fail]; try (apply post_fail; [exact L1|exact W1|reflexivity]).
          destruct (Hv c1 W1) as (L2 & W2 & V2). destruct (ev c1 v) as [o2 c2]. cbn [fst snd] in *.
          assert (L : le (fst c) (fst c2)) by (eapply le_trans; eauto).
          destruct o2; try (apply post_fail; [exact L|exact W2|reflexivity]).
          eapply post_trans; [exact L|]. apply IH; [exact W2|].
          apply rec_insert_P; [eapply Pframe_mono; [exact L|exact Hacc]|apply V2; reflexivity].
        + destruct (lookup (snd c) x) as [x'|] eqn:El.
          * apply IH; [exact Hc|]. apply rec_insert_P; [exact Hacc|]. eapply lookup_P; [exact Hc|exact El].
          * apply post_fail; [apply le_refl|exact Hc|reflexivity].
        + destruct (Hk c Hc) as (L1 & W1 & V1). destruct (ev c se) as [o c1]. cbn [fst snd] in *.
          destruct o; try (apply post_fail; [exact L1|exact W1|reflexivity]).
          eapply post_trans; [exact L1|]. apply IH; [exact W1|].
          apply rec_insert_all_P; [eapply Pframe_mono; [exact L1|exact Hacc]|].
          eapply (record_spread_entries_P _ (HP _)). apply V1; reflexivity.
    Qed.

    Lemma bind_value_keeps : forall (c c1 : cfg) x v, le (fst c) (fst c1) -> Pc c1 -> P (fst c1) v ->
      post c (bind_value (length (fst c)) c1 x v).
    Proof.
      intros c [st1 fr1] x v L Hc Hv. unfold bind_value. cbn [fst snd] in *.
      assert (Hfr : forall fr, Pframes (P st1) fr -> Pc (name_if_created (length (fst c)) st1 v x, fr)).
      { intros fr H. unfold Pc. cbn [fst snd]. eapply Forall_impl; [|exact H]. intros kf. apply Forall_impl.
        intros kv. apply P_named. }
      destruct (insert_head fr1 x v) as [fr2|] eqn:E.
      - split; [cbn [fst snd]; apply le_name; exact L|].
        split; [cbn [snd]; apply Hfr; eapply insert_head_P; eauto|].
        intros w Ew; inversion Ew; subst. cbn [fst snd]. apply P_named. exact Hv.
      - split; [cbn [fst snd]; apply le_name; exact L|].
        split; [cbn [snd]; apply Hfr; exact Hc|intros w Ew; discriminate Ew].
    Qed.
    Lemma assign_value_keeps : forall ev x ve, keeps ev ve -> forall c, Pc c -> post c (assign_value ev c x ve).
    Proof.
      intros ev x ve Hve c Hc. unfold assign_value.
      destruct (Hve c Hc) as (L1 & W1 & V1). destruct (ev c ve) as [o c1]. cbn [fst snd] in *.
      destruct o; try (apply post_fail; [exact L1|exact W1|reflexivity]).
      apply bind_value_keeps; [exact L1|exact W1|apply V1; reflexivity].
    Qed.
    Lemma assign_checked_keeps : forall ev x ve, keeps ev ve -> forall c, Pc c -> post c (assign_checked ev c x ve).
    Proof.
      intros ev x ve Hve c Hc. unfold assign_checked.
      destruct (Hve c Hc) as (L1 & W1 & V1). destruct (ev c ve) as [o c1]. cbn [fst snd] in *.
      destruct o; try (apply post_fail; [exact L1|exact W1|reflexivity]).
      destruct (contains (snd c1) x); [apply post_fail; [exact L1|exact W1|reflexivity]|].
      apply bind_value_keeps; [exact L1|exact W1|apply V1; reflexivity].
    Qed.
    Lemma do_step_keeps : forall ev s, keeps ev s -> (forall x ve, s = EAssign x ve -> keeps ev ve) ->
      forall c, Pc c -> post c (do_step ev c s).
    Proof.
      intros ev s Hs Hsub c Hc. unfold do_step. destruct s; try (apply Hs; exact Hc).
      destruct (mem x do_assign_keywords); [apply post_fail; [apply le_refl|exact Hc|reflexivity]|].
      apply assign_value_keeps; [eapply Hsub; reflexivity|exact Hc].
    Qed.

    (* a failure after the store moved as L says, the chain being as W says *)
    Ltac fail1 L W := apply post_fail; [exact L|exact W|reflexivity].

    Theorem evalE_keeps : forall e, keeps evalE e.
    Proof.
      intros e.
      enough (HH : keeps evalE e /\ (forall x ve, e = EAssign x ve -> keeps evalE ve)) by apply HH.
      induction e using expr_ind';
        (split; [intros c Hc; cbn [Eval.evalE]|try (intros ? ? Heq; discriminate Heq)]).
      - (* ENum *) apply post_same; [exact Hc|intros v E; inversion E; apply (her_atomic _ (HP _)); exact I].
      - (* EStr *) apply post_same; [exact Hc|intros v E; inversion E; apply (her_atomic _ (HP _)); exact I].
      - (* EBool *) apply post_same; [exact Hc|intros v E; inversion E; apply (her_atomic _ (HP _)); exact I].
      - (* ENull *) apply post_same; [exact Hc|intros v E; inversion E; apply (her_atomic _ (HP _)); exact I].
      - (* EId *)
        destruct (_ || _); [apply post_same; [exact Hc|intros v E; inversion E; apply (her_atomic _ (HP _)); exact I]|].
        destruct (String.eqb x "constants"); [apply post_same; [exact Hc|intros v E; inversion E; apply (constants_P _ (HP (fst c)))]|].
        apply post_same; [exact Hc|]. intros v E. destruct (lookup (snd c) x) eqn:El; inversion E; subst.
        eapply lookup_P; [exact Hc|exact El].
      - (* EInRef *)
        apply post_same; [exact Hc|]. intros v E.
        destruct (lookup (snd c) "inputs") as [w|] eqn:El; [|discriminate E].
        destruct w; try discriminate E. inversion E; subst.
        match goal with |- context [rec_get ?r ?f] => destruct (rec_get r f) eqn:Eg end; [|apply (her_atomic _ (HP _)); exact I].
        eapply rec_get_P; [|exact Eg]. apply (her_rec _ (HP _)). eapply lookup_P; [exact Hc|exact El].
      - (* EBuiltin *) apply post_same; [exact Hc|intros v E; inversion E; apply P_builtin].
      - (* EList *)
        match goal with HF : Forall _ items |- _ =>
          assert (HF' : Forall (keeps evalE) (map cnode items))
            by (apply Forall_map; eapply Forall_impl; [|exact HF]; intros a Ha; apply Ha) end.
        destruct (evalL_keeps evalE _ HF' c Hc) as (L1 & W1 & V1). rewrite evalCL_evalL.
        destruct (evalL evalE c (map cnode items)) as [o c1]. cbn [fst snd] in *.
        split; [exact L1|split; [exact W1|]]. intros v E. destruct o; try discriminate E.
        cbn [omap obind] in E. inversion E; subst. apply (her_list _ (HP _)). eapply (flatten_spreads_P _ (HP _)). apply V1; reflexivity.
      - (* ERec *)
        apply evalRecL_keeps; [|exact Hc|constructor].
        eapply Forall_impl; [|eassumption]. intros [ld [k v] tr] Ha. cbn [cnode Pentry] in *.
        destruct Ha as [Hk Hv]. split; [|apply Hv].
        destruct k; cbn [Pkey] in *; auto; apply Hk.
      - (* ELam *)
        destruct (fresh_lambda (fst c) args e (capture (snd c) (free_vars e (map arg_name args)) [])) as [v st'] eqn:Ef.
        pose proof (le_fresh _ _ _ _ _ _ Ef) as L. cbn [fst snd].
        split; [exact L|split; [unfold Pc; cbn [fst snd]; eapply Pframes_mono; [exact L|exact Hc]|]].
        intros w E; inversion E; subst w. exact (P_lam _ _ _ _ _ _ _ Hc Ef).
      - (* ECond *)
        destruct IHe1 as [IH1 _], IHe2 as [IH2 _], IHe3 as [IH3 _].
        destruct (IH1 c Hc) as (L1 & W1 & V1). destruct (evalE c e1) as [o c1]. cbn [fst snd] in *.
        destruct o; try fail1 L1 W1.
        destruct (as_bool a) as [[|]| | | |]; cbn [cast_fail]; try fail1 L1 W1.
        + eapply post_trans; [exact L1|apply IH2; exact W1].
        + eapply post_trans; [exact L1|apply IH3; exact W1].
      - (* EDo *)
        match goal with
        | HF : Forall _ stmts, HR : _ /\ _ |- _ => rename HF into HFs; rename HR into HRet
        end.
        destruct ret as [ld rt tr]. cbn [cnode] in *.
        assert (HS : forall c0, Pc c0 ->
                     le (fst c0) (fst (snd (evalDoL evalE c0 stmts))) /\ Pc (snd (evalDoL evalE c0 stmts))).
        { induction HFs as [|[l1 s t1] l Hs _ IHl]; intros c0 Hc0; cbn [evalDoL].
          - split; [apply le_refl|exact Hc0].
          - cbn [cnode] in Hs. destruct Hs as [Hs1 Hs2].
            destruct (do_step_keeps evalE s Hs1 Hs2 c0 Hc0) as (L1 & W1 & _).
            destruct (do_step evalE c0 s) as [o c1]. cbn [fst snd] in *.
            destruct o; try (split; assumption).
            destruct (IHl c1 W1) as [L2 W2]. split; [eapply le_trans; eauto|exact W2]. }
        assert (Hc0 : Pc (fst c, (FOwned, []) :: snd c)).
        { unfold Pc. cbn [fst snd]. constructor; [constructor|exact Hc]. }
        destruct (HS _ Hc0) as [L1 W1].
        destruct (evalDoL evalE (fst c, (FOwned, []) :: snd c) stmts) as [o c1]. cbn [fst snd] in *.
        assert (Hback : forall st', le (fst c) st' -> Pc (st', snd c)).
        { intros st' L. unfold Pc. cbn [fst snd]. eapply Pframes_mono; [exact L|exact Hc]. }
        destruct o; cbn [cast_fail fst snd];
          try (split; [exact L1|split; [apply Hback; exact L1|intros ? E; discriminate E]]).
        destruct HRet as [Hr1 Hr2].
        destruct (do_step_keeps evalE rt Hr1 Hr2 c1 W1) as (L2 & W2 & V2).
        destruct (do_step evalE c1 rt) as [o2 c2]. cbn [fst snd] in *.
        assert (L : le (fst c) (fst c2)) by (eapply le_trans; eauto).
        split; [exact L|split; [apply Hback; exact L|exact V2]].
      - (* EAssign *)
        destruct IHe as [IH _].
        destruct (is_builtin_name x); [apply post_fail; [apply le_refl|exact Hc|reflexivity]|].
        destruct (mem x assign_keywords); [apply post_fail; [apply le_refl|exact Hc|reflexivity]|].
        destruct (contains (snd c) x); [apply post_fail; [apply le_refl|exact Hc|reflexivity]|].
        apply assign_checked_keeps; assumption.
      - (* EAssign, second component *)
        intros x0 ve Heq. inversion Heq; subst. apply IHe.
      - (* EOutput *) destruct IHe as [IH _]. apply IH; exact Hc.
      - (* ECall *)
        destruct IHe as [IH _].
        destruct (IH c Hc) as (L1 & W1 & V1). destruct (evalE c e) as [o c1]. cbn [fst snd] in *.
        destruct o; try fail1 L1 W1.
        match goal with HF : Forall _ args |- _ =>
          assert (HF' : Forall (keeps evalE) args)
            by (eapply Forall_impl; [|exact HF]; intros a0 Ha; apply Ha) end.
        destruct (evalL_keeps evalE args HF' c1 W1) as (L2 & W2 & V2).
        destruct (evalL evalE c1 args) as [o2 [st2 fr2]]. cbn [fst snd] in *.
        assert (L : le (fst c) st2) by (eapply le_trans; eauto).
        destruct o2; cbn [cast_fail]; try (apply post_fail; [exact L|exact W2|reflexivity]).
        destruct (negb (is_function a)); [apply post_fail; [exact L|exact W2|reflexivity]|].
        destruct (apply fr2 a a (flatten_spreads a0) st2) as [rr st3] eqn:Ea.
        assert (Ha : P st2 a) by (eapply P_mono; [exact L2|apply V1; reflexivity]).
        destruct (Happly fr2 st2 W2 a a (flatten_spreads a0) st2 rr st3 (le_refl _) Ha Ha
                    (flatten_spreads_P _ (HP _) _ (V2 a0 eq_refl)) Ea) as [L3 V3].
        split; [cbn [fst snd]; eapply le_trans; eauto|].
        split; [unfold Pc; cbn [fst snd]; eapply Pframes_mono; [exact L3|exact W2]|exact V3].
      - (* EAccess *)
        destruct IHe1 as [IH1 _], IHe2 as [IH2 _].
        destruct (IH1 c Hc) as (L1 & W1 & V1). destruct (evalE c e1) as [o c1]. cbn [fst snd] in *.
        destruct o; try fail1 L1 W1.
        destruct (IH2 c1 W1) as (L2 & W2 & V2). destruct (evalE c1 e2) as [o2 c2]. cbn [fst snd] in *.
        assert (L : le (fst c) (fst c2)) by (eapply le_trans; eauto).
        destruct o2; try fail1 L W2.
        split; [exact L|split; [exact W2|]]. cbn [fst snd]. intros v E.
        eapply (access_val_P _ (HP _)); [|exact E]. eapply P_mono; [exact L2|apply V1; reflexivity].
      - (* EDot *)
        destruct IHe as [IH _].
        destruct (IH c Hc) as (L1 & W1 & V1). destruct (evalE c e) as [o c1]. cbn [fst snd] in *.
        destruct o; try fail1 L1 W1.
        split; [exact L1|split; [exact W1|]]. cbn [fst snd]. intros v E.
        eapply (dot_val_P _ (HP _)); [|exact E]. apply V1; reflexivity.
      - (* EBin *)
        destruct IHe1 as [IH1 _], IHe2 as [IH2 _].
        destruct (IH1 c Hc) as (L1 & W1 & V1). destruct (evalE c e1) as [o c1]. cbn [fst snd] in *.
        destruct o; try fail1 L1 W1.
        destruct (IH2 c1 W1) as (L2 & W2 & V2). destruct (evalE c1 e2) as [o2 [st2 fr2]]. cbn [fst snd] in *.
        assert (L : le (fst c) st2) by (eapply le_trans; eauto).
        destruct o2; try (apply post_fail; [exact L|exact W2|reflexivity]).
        destruct (binop_impl (apply fr2) op a a0 st2) as [res st3] eqn:Eb.
        assert (Ha : P st2 a) by (eapply P_mono; [exact L2|apply V1; reflexivity]).
        destruct (Hbin (apply fr2) st2 (Happly fr2 st2 W2) op a a0 st2 res st3 (le_refl _) Ha (V2 a0 eq_refl) Eb)
          as [L3 V3].
        split; [cbn [fst snd]; eapply le_trans; eauto|].
        split; [unfold Pc; cbn [fst snd]; eapply Pframes_mono; [exact L3|exact W2]|exact V3].
      - (* EUn *)
        destruct IHe as [IH _].
        destruct (IH c Hc) as (L1 & W1 & V1). destruct (evalE c e) as [o c1]. cbn [fst snd] in *.
        destruct o; try fail1 L1 W1.
        split; [exact L1|split; [exact W1|]]. cbn [fst snd]. intros v E.
        destruct op; [destruct (as_number a)|destruct (as_bool a)|destruct (as_bool a)]; inversion E; apply (her_atomic _ (HP _)); exact I.
      - (* EFact *)
        destruct IHe as [IH _].
        destruct (IH c Hc) as (L1 & W1 & V1). destruct (evalE c e) as [o c1]. cbn [fst snd] in *.
        destruct o; try fail1 L1 W1.
        split; [exact L1|split; [exact W1|]]. cbn [fst snd]. intros v E.
        destruct (as_number a); try discriminate E. unfold factorial_val in E.
        destruct (_ && _); inversion E; apply (her_atomic _ (HP _)); exact I.
      - (* ESpread *)
        destruct IHe as [IH _].
        destruct (IH c Hc) as (L1 & W1 & V1). destruct (evalE c e) as [o c1]. cbn [fst snd] in *.
        destruct o; try fail1 L1 W1.
        split; [exact L1|split; [exact W1|]]. cbn [fst snd]. intros v E.
        eapply (spread_val_P _ (HP _)); [|exact E]. apply V1; reflexivity.
    Qed.
    End Expr.

    (* ---- FunctionDef::call at every depth ---- *)
    Lemma call_too_deep_keeps : forall s0, cb_keeps s0 (fun _ f a s => call_too_deep f a s).
    Proof.
      intros s0 this f args st r st' _ _ _ _ H. unfold call_too_deep in H.
      destruct (check_arity _ _); inversion H; subst; (split; [apply le_refl|intros ? E; discriminate E]).
    Qed.

    Theorem AD_keeps : forall d fr s0, Pframes (P s0) fr -> cb_keeps s0 (AD release binop_impl builtin_impl d fr).
    Proof.
      intros d. induction d as [d IH] using lt_wf_ind. intros fr s0 Hfr this f args st r st' Hs0 Hthis Hf Hargs H.
      assert (Hsame : forall (o : outcome value), is_ok o = false -> (r, st') = (o, st) ->
                le st st' /\ (forall v, r = Ok v -> P st' v)).
      { intros o Ho E. inversion E; subst. split; [apply le_refl|intros v Ev; subst; discriminate Ho]. }
      destruct d as [|d']; cbn [AD] in H; unfold apply_at in H.
      - destruct (negb _); symmetry in H; eapply Hsame; try exact H; reflexivity.
      - destruct (negb _); [symmetry in H; eapply Hsame; try exact H; reflexivity|].
        unfold call_passed in H.
        destruct f; try (symmetry in H; eapply Hsame; try exact H; reflexivity).
        + (* lambda *)
          pose proof (P_lam_scope _ _ _ _ _ Hf) as Hsc.
          assert (Hfr' : Pframes (P st) fr) by (eapply Pframes_mono; [exact Hs0|exact Hfr]).
          match type of H with context [bind_params ?ps 0 args ?acc] =>
            assert (Hacc : Pframe (P st) acc); [|(destruct (bind_params ps 0 args acc) as [local|] eqn:Eb)] end.
          { apply Forall_app. split.
            - destruct (lookup_frame scope "inputs"); [constructor|].  (* F9 repaired *)
              destruct (lookup fr "inputs") eqn:El; constructor; [|constructor]. cbn [snd]. eapply lookup_P; eauto.
            - destruct (lam_name st id); [|constructor]. destruct (lookup_frame scope s); constructor; [|constructor].
              exact Hthis. }
          2:{ symmetry in H; eapply Hsame; try exact H; reflexivity. }
          pose proof (bind_params_P _ (HP _) _ _ _ _ _ Hargs Hacc Eb) as Hlocal.
          match type of H with context [evalE ?rl ?b ?a ?c ?e] =>
            assert (Hc : Pc c);
            [|(pose proof (evalE_keeps (AD release binop_impl builtin_impl d')
                            (fun fr0 s1 Hf0 => IH d' (Nat.lt_succ_diag_r d') fr0 s1 Hf0) e c Hc) as Hpost;
               destruct (evalE rl b a c e) as [rr [st1 fr1]])] end.
          { unfold Pc. cbn [fst snd]. constructor; [exact Hlocal|].
            destruct scope; [exact Hfr'|]. constructor; [exact Hsc|exact Hfr']. }
          destruct Hpost as (L & _ & V). cbn [fst snd] in *. inversion H; subst. split; [exact L|exact V].
        + (* built-in *)
          eapply (Hbu _ s0); [|exact Hs0|exact Hargs|exact H].
          destruct d' as [|d'']; [apply call_too_deep_keeps|apply IH; [lia|exact Hfr]].
    Qed.

    Corollary evalD_keeps : forall d e, keeps (evalD release binop_impl builtin_impl d) e.
    Proof. intros d e. unfold evalD. apply evalE_keeps. intros fr s0. apply AD_keeps. Qed.
  End Eval.
End Param.
