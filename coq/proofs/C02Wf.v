(* C02Wf.v — WELL-FORMEDNESS IS AN INVARIANT OF EVALUATION (C02).

   [cfg_wf c] (C02Twice.v): the scope chain of c mentions only function cells that exist in the store of c
   (no dangling index).  The eval-twice / let-abstraction theorems take it as a hypothesis on the configuration
   they start from.  Here: every evaluation — every expression form (assignments and do-blocks too),
   FunctionDef::call, every depth — takes a well-formed configuration to a well-formed configuration and
   returns a value that mentions existing cells only ([evalD_wf]: an instance of EvalParam.v); generic in
   operators / built-ins that "create no dangling cell" ([ops_wf]: on arguments that mention existing cells only,
   with a callback that returns such values, the result mentions existing cells only and the store does not shrink),
   discharged for [binop_impl] / [builtin_impl] / [builtin_full] by instantiating GenOps.v / AllGenClosed.v (the
   unary parametricity argument, with the predicate "every index is below the store length" and the order
   "not shorter").

   Consequences: well-formedness holds after ANY sequence of statements run from the initial configuration
   of Program.v ([run_wf], [init_wf]), so the eval-twice theorem needs no hypothesis there
   ([eval_twice_after_any_program]). *)
From Coq Require Import String Ascii List ZArith Bool Lia.
Require Import Blots.Num Blots.gen.Builtins Blots.Ast Blots.Value Blots.Outcome Blots.Binop
               Blots.Env Blots.Eval Blots.BuiltinsHof Blots.Program Blots.EvalInst Blots.EvalFull
               Blots.proofs.ExprInd Blots.proofs.ValueInd Blots.proofs.GenOps Blots.proofs.StoreMono
               Blots.proofs.AllGenClosed Blots.proofs.RelPure Blots.proofs.ValuePred Blots.proofs.EvalParam
               Blots.proofs.Frames Blots.proofs.Scoping
               Blots.proofs.C02Ren Blots.proofs.C02Keep Blots.proofs.C02Twice Blots.proofs.C02Let.
Require Blots.BuiltinsList.
Import ListNotations.
Open Scope string_scope.
Open Scope list_scope.
Open Scope nat_scope.

(* ---- the predicate, Prop-level readings of the boolean definitions of C02Twice.v ---- *)
Definition vlt (n : nat) (v : value) : Prop := ids_lt n v = true.
Definition flt (n : nat) (f : frame) : Prop := Forall (fun kv => vlt n (snd kv)) f.
Definition frs_lt (n : nat) (fr : frames) : Prop := Forall (fun kf => flt n (snd kf)) fr.

Lemma frame_lt_iff : forall n f, frame_lt n f = true <-> flt n f.
Proof.
  intros n f. unfold frame_lt, flt. rewrite forallb_forall, Forall_forall. split.
  - intros H [k x] Hx. exact (H (k, x) Hx).
  - intros H [k x] Hx. exact (H (k, x) Hx).
Qed.
Lemma frames_lt_iff : forall n fr, frames_lt n fr = true <-> frs_lt n fr.
Proof.
  intros n fr. unfold frames_lt, frs_lt. rewrite forallb_forall, Forall_forall. split.
  - intros H kf Hx. apply frame_lt_iff. exact (H kf Hx).
  - intros H kf Hx. apply frame_lt_iff. exact (H kf Hx).
Qed.
Lemma vlt_VList : forall n l, vlt n (VList l) <-> Forall (vlt n) l.
Proof. intros n l. unfold vlt. cbn [ids_lt]. rewrite forallb_forall, Forall_forall. reflexivity. Qed.
Lemma vlt_VRec : forall n r, vlt n (VRec r) <-> flt n r.
Proof. intros n r. exact (frame_lt_iff n r). Qed.
Lemma vlt_VLam : forall n id a b sc, vlt n (VLam id a b sc) <-> id < n /\ flt n sc.
Proof.
  intros n id a b sc. unfold vlt. cbn [ids_lt]. rewrite andb_true_iff, Nat.ltb_lt.
  split; intros [H1 H2]; (split; [exact H1|]); apply (frame_lt_iff n sc); exact H2.
Qed.
Lemma vlt_VSpread : forall n x, vlt n (VSpread x) <-> vlt n x.
Proof. intros; reflexivity. Qed.
Lemma vlt_atomic : forall n v, atomic v -> vlt n v.
Proof. intros n v H. destruct v; try contradiction; reflexivity. Qed.

Lemma vlt_mono : forall n m v, n <= m -> vlt n v -> vlt m v.
Proof. intros n m v H. exact (ids_lt_mono n m H v). Qed.
Lemma Forall_vlt_mono : forall n m l, n <= m -> Forall (vlt n) l -> Forall (vlt m) l.
Proof. intros n m l H. apply Forall_impl. intros a. apply vlt_mono; exact H. Qed.
Lemma flt_mono : forall n m f, n <= m -> flt n f -> flt m f.
Proof. intros n m f H. apply Forall_impl. intros a. apply vlt_mono; exact H. Qed.
Lemma frs_lt_mono : forall n m fr, n <= m -> frs_lt n fr -> frs_lt m fr.
Proof. intros n m fr H. apply Forall_impl. intros a. apply flt_mono; exact H. Qed.

Lemma vlt_her : forall n, hereditary (vlt n).
Proof. intros n. constructor; [apply vlt_VList|apply vlt_VRec|apply vlt_VSpread|apply vlt_atomic]. Qed.

Lemma length_name_if_created : forall n0 st v x, length (name_if_created n0 st v x) = length st.
Proof.
  intros n0 st v x. destruct v; try reflexivity. cbn [name_if_created].
  destruct (Nat.leb n0 id); [|reflexivity]. cbn [name_if_lambda].
  destruct (lam_name st id); [reflexivity|apply length_set_nth].
Qed.

(* ================= the evaluator ================= *)
Definition slen_le (s s' : store) : Prop := length s <= length s'.
Definition wfv (st : store) (v : value) : Prop := vlt (length st) v.
Lemma slen_refl : forall s, slen_le s s. Proof. intros; unfold slen_le; lia. Qed.
Lemma slen_trans : forall a b c, slen_le a b -> slen_le b c -> slen_le a c.
Proof. unfold slen_le; intros; lia. Qed.
Lemma wfv_mono : forall v st st', slen_le st st' -> wfv st v -> wfv st' v.
Proof. intros v st st' H. apply vlt_mono. exact H. Qed.
Lemma wfv_VList : forall st l, wfv st (VList l) <-> closed_list wfv st l.
Proof. intros st l. apply vlt_VList. Qed.
Lemma wfv_atomic : forall st v, atomic v -> wfv st v.
Proof. intros st v. apply vlt_atomic. Qed.

(* a callback creates no dangling cell, from every store not shorter than s0 *)
Definition cb_wf (s0 : store) (cb : callback) : Prop := cb_closed slen_le wfv s0 cb.
(* operators / built-ins create no dangling cell when their callback does not *)
Definition binop_wf (bi : callback -> binop -> value -> value -> store -> outcome value * store) : Prop :=
  forall cb s0, cb_wf s0 cb -> forall op l r st res st',
    slen_le s0 st -> wfv st l -> wfv st r -> bi cb op l r st = (res, st') ->
    slen_le st st' /\ (forall v, res = Ok v -> wfv st' v).
Definition builtin_wf (bu : callback -> builtin -> list value -> store -> outcome value * store) : Prop :=
  forall cb s0, cb_wf s0 cb -> forall b args st res st',
    slen_le s0 st -> Forall (wfv st) args -> bu cb b args st = (res, st') ->
    slen_le st st' /\ (forall v, res = Ok v -> wfv st' v).
Definition ops_wf bi bu : Prop := binop_wf bi /\ builtin_wf bu.

Definition wfc (c : cfg) : Prop := frs_lt (length (fst c)) (snd c).
Lemma cfg_wf_iff : forall c, cfg_wf c = true <-> wfc c.
Proof. intros c. apply frames_lt_iff. Qed.

(* what one evaluation step guarantees *)
Definition post (c : cfg) (x : result) : Prop :=
  slen_le (fst c) (fst (snd x)) /\ wfc (snd x) /\ (forall v, fst x = Ok v -> wfv (fst (snd x)) v).
Definition wf_ok (ev : cfg -> expr -> result) (e : expr) : Prop :=
  forall c, wfc c -> post c (ev c e).

(* ---- the evaluator: EvalParam.v at "mentions cells below the store length" and "not shorter" ---- *)
Lemma slen_fresh : forall st args body scope v st', fresh_lambda st args body scope = (v, st') -> slen_le st st'.
Proof. intros st args body scope v st' H. inversion H; subst. unfold slen_le. rewrite app_length. lia. Qed.
Lemma slen_name : forall st0 st1 v x, slen_le st0 st1 -> slen_le st0 (name_if_created (length st0) st1 v x).
Proof. intros st0 st1 v x H. unfold slen_le. rewrite length_name_if_created. exact H. Qed.
Lemma wfv_named : forall n st v x w, wfv st w -> wfv (name_if_created n st v x) w.
Proof. intros n st v x w H. unfold wfv. rewrite length_name_if_created. exact H. Qed.
Lemma wfv_lam_scope : forall st id ps body sc, wfv st (VLam id ps body sc) -> flt (length st) sc.
Proof. intros st id ps body sc H. exact (proj2 (proj1 (vlt_VLam _ _ _ _ _) H)). Qed.
Lemma wfv_lam : forall st fr args body vars v st', frs_lt (length st) fr ->
  fresh_lambda st args body (capture fr vars []) = (v, st') -> wfv st' v.
Proof.
  intros st fr args body vars v st' Hfr H. inversion H; subst. unfold wfv.
  assert (Hl : length st <= length (st ++ [None])) by (rewrite app_length; cbn; lia).
  apply vlt_VLam. split; [rewrite app_length; cbn; lia|]. eapply flt_mono; [exact Hl|].
  apply capture_P; [exact Hfr|constructor].
Qed.

Theorem evalD_wf : forall release bi bu, binop_wf bi -> builtin_wf bu ->
  forall d e, wf_ok (evalD release bi bu d) e.
Proof.
  exact (evalD_keeps slen_le slen_refl slen_trans slen_fresh slen_name wfv (fun st => vlt_her (length st)) wfv_mono
           (fun _ _ => eq_refl) wfv_named wfv_lam_scope wfv_lam).
Qed.

(* ================= the operators and built-ins of EvalInst.v: GenOps.v instantiated ================= *)
Lemma cb_agree_refl : forall s0 cb, cb_agree slen_le wfv s0 cb cb.
Proof. intros s0 cb this f args st _ _ _ _. reflexivity. Qed.

Lemma binop_impl_wf : binop_wf binop_impl.
Proof.
  intros cb s0 Hcb op l r st res st' Hs0 Hl Hr H.
  exact (proj2 (binop_impl_agree slen_le slen_refl slen_trans wfv wfv_mono wfv_VList wfv_atomic
                  cb cb s0 (cb_agree_refl s0 cb) Hcb op l r st Hs0 Hl Hr) res st' H).
Qed.

Lemma builtin_impl_wf : builtin_wf builtin_impl.
Proof.
  intros cb s0 Hcb b args st res st' Hs0 Ha H.
  destruct (builtin_impl_agree slen_le slen_refl slen_trans wfv wfv_mono wfv_VList wfv_atomic
              cb cb s0 (cb_agree_refl s0 cb) Hcb b args st Hs0 Ha) as [_ [Hle Hpost]].
  rewrite H in Hle, Hpost. cbn [fst snd] in Hle, Hpost. split; assumption.
Qed.

Theorem ops_wf_inst : ops_wf binop_impl builtin_impl.
Proof. split; [exact binop_impl_wf|exact builtin_impl_wf]. Qed.

(* ================= the full dispatcher (EvalFull.v): AllGenClosed.v instantiated ================= *)
Lemma builtin_full_wf : builtin_wf builtin_full.
Proof.
  intros cb s0 Hcb b args st res st' Hs0 Ha H.
  destruct (builtin_full_agree0_gen slen_le slen_refl slen_trans wfv wfv_VList (fun st => vlt_VRec (length st))
              (fun st => vlt_VSpread (length st)) wfv_atomic wfv_mono
              cb cb s0 (cb_agree_refl s0 cb) Hcb b args st Hs0 Ha) as [_ [Hle Hpost]].
  rewrite H in Hle, Hpost. cbn [fst snd] in Hle, Hpost. split; assumption.
Qed.

(* the relation "equal, and mentioning cells below n" *)
Section PureWf.
  Variable n : nat.
  Definition Rn (v v' : value) : Prop := v' = v /\ vlt n v.
  Lemma Rn_rec : forall r r', Forall2 (RRf Rn) r r' -> Rn (VRec r) (VRec r').
  Proof.
    intros r r' H. enough (E : r' = r /\ flt n r) by (destruct E as [-> E]; split; [reflexivity|apply vlt_VRec; exact E]).
    induction H as [|[k x] [k' x'] r r' [E [E2 Hx]] _ [IH1 IH2]]; [split; [reflexivity|constructor]|].
    cbn [fst snd] in *. subst. split; [reflexivity|constructor; assumption].
  Qed.
End PureWf.

Theorem ops_wf_full : ops_wf binop_impl builtin_full.
Proof. split; [exact binop_impl_wf|exact builtin_full_wf]. Qed.

(* ================= statement sequences (Program.v) ================= *)
Open Scope nat_scope.
Section Prog.
  Variable eval : cfg -> expr -> result.
  Hypothesis Heval : forall e, wf_ok eval e.

  Lemma eval_wfc : forall c e r c', eval c e = (r, c') -> wfc c -> wfc c'.
  Proof. intros c e r c' E Hc. destruct (Heval e c Hc) as (_ & W & _). rewrite E in W. exact W. Qed.
  Lemma exec_stmt_wf : forall s t, wfc (s_cfg s) -> wfc (s_cfg (fst (exec_stmt eval s t))).
  Proof.
    intros s t. destruct (exec_stmt eval s t) as [s' r] eqn:E.
    exact (exec_stmt_rel eval (fun c c' => wfc c -> wfc c') (fun c H => H) eval_wfc s t s' r E).
  Qed.

  (* after ANY statement sequence (CLI semantics: the loop stops at the first failing statement) *)
  Theorem run_wf : forall prog s, wfc (s_cfg s) -> wfc (s_cfg (fst (run eval s prog))).
  Proof. apply (run_rel eval (fun c c' => wfc c -> wfc c')); [auto|auto|exact eval_wfc]. Qed.
  (* session semantics: the configuration after every statement, failures included *)
  Theorem run_trace_wf : forall stop prog s, wfc (s_cfg s) ->
    Forall (fun rc => wfc (snd rc)) (run_trace eval stop s prog).
  Proof.
    intros stop. induction prog as [|t rest IH]; intros s Hs; cbn [run_trace]; [constructor|].
    pose proof (exec_stmt_wf s t Hs) as H1. destruct (exec_stmt eval s t) as [s' r]. cbn [fst] in H1.
    destruct r; try (constructor; [exact H1|destruct stop; [constructor|apply IH; exact H1]]).
    - constructor; [exact H1|apply IH; exact H1].
    - apply IH; exact H1.
  Qed.
End Prog.

(* the initial configuration: empty store, one frame binding `inputs` (function-free: it comes from JSON) *)
Lemma init_wf : forall inputs, frame_lt 0 inputs = true -> wfc (s_cfg (init_session inputs)).
Proof.
  intros inputs H. unfold wfc, init_session. cbn [s_cfg fst snd length].
  constructor; [|constructor]. cbn [snd]. constructor; [|constructor]. cbn [snd]. exact H.
Qed.
Lemma init_wf_empty : wfc (s_cfg (init_session [])).
Proof. apply init_wf. reflexivity. Qed.

(* ---- in terms of the boolean [cfg_wf], for every operator table and dispatcher with [ops_wf] ---- *)
Section OpsWf.
  Variable release : bool.
  Variable bi : callback -> binop -> value -> value -> store -> outcome value * store.
  Variable bu : callback -> builtin -> list value -> store -> outcome value * store.
  Hypothesis Hwfo : ops_wf bi bu.

  Theorem evalD_cfg_wf : forall d e c r c',
    cfg_wf c = true -> evalD release bi bu d c e = (r, c') ->
    cfg_wf c' = true /\ length (fst c) <= length (fst c') /\ (forall v, r = Ok v -> ids_lt (length (fst c')) v = true).
  Proof.
    intros d e c r c' Hc H. apply cfg_wf_iff in Hc.
    destruct (evalD_wf release bi bu (proj1 Hwfo) (proj2 Hwfo) d e c Hc) as (L & W & V).
    rewrite H in L, W, V. cbn [fst snd] in *. split; [apply cfg_wf_iff; exact W|split; [exact L|exact V]].
  Qed.

  Theorem program_cfg_wf : forall d0 inputs prog,
    frame_lt 0 inputs = true ->
    cfg_wf (s_cfg (fst (run (evalD release bi bu d0) (init_session inputs) prog))) = true.
  Proof.
    intros d0 inputs prog Hi. apply cfg_wf_iff. apply run_wf; [|apply init_wf; exact Hi].
    intros e. apply evalD_wf; [exact (proj1 Hwfo)|exact (proj2 Hwfo)].
  Qed.
  Theorem session_cfg_wf : forall d0 stop inputs prog,
    frame_lt 0 inputs = true ->
    Forall (fun rc => cfg_wf (snd rc) = true)
           (run_trace (evalD release bi bu d0) stop (init_session inputs) prog).
  Proof.
    intros d0 stop inputs prog Hi.
    eapply Forall_impl; [|apply (run_trace_wf (evalD release bi bu d0))].
    - intros rc H. apply cfg_wf_iff. exact H.
    - intros e. apply evalD_wf; [exact (proj1 Hwfo)|exact (proj2 Hwfo)].
    - apply init_wf; exact Hi.
  Qed.

  (* EVAL-TWICE after ANY program: no hypothesis on the configuration is left *)
  Hypothesis Hops : ops_commute bi bu.
  Hypothesis Hkeep : forall d c e r c', evalD release bi bu d c e = (r, c') -> store_keep (fst c) (fst c').
  Theorem eval_twice_after_any_program : forall d0 d inputs prog e r1 c1 r2 c2,
    frame_lt 0 inputs = true -> no_assign e = true ->
    let c := s_cfg (fst (run (evalD release bi bu d0) (init_session inputs) prog)) in
    evalD release bi bu d c e = (r1, c1) ->
    evalD release bi bu d c1 e = (r2, c2) ->
    osame r1 r2 /\ snd c2 = snd c /\ snd c1 = snd c.
  Proof.
    intros d0 d inputs prog e r1 c1 r2 c2 Hi Hna c HA HB.
    exact (eval_twice release bi bu Hops Hkeep d e c r1 c1 r2 c2 Hna (program_cfg_wf d0 inputs prog Hi) HA HB).
  Qed.
End OpsWf.
