(* PrattIff.v — the other direction for the declarative relation: every stream that renders t with at
   least the parentheses the level assignment requires (Rend) is converted to t.  With
   PrattConverse (generated table, where every binding power is positive):  Items its t  <->  Rend 1 its t. *)
From Coq Require Import String List Bool Arith Lia.
Require Import Blots.Num Blots.gen.Builtins Blots.Ast Blots.Outcome Blots.PrattTypes Blots.Pratt
               Blots.PrattRender Blots.proofs.PrattRend Blots.proofs.PrattConverse.
Require Import Blots.gen.PrecTable Blots.proofs.PrattTable.
Import ListNotations.
Local Open Scope nat_scope.
Local Open Scope list_scope.

Section Forward.
  Variable tbl : ops_map.
  Variable imap : list (oprule * binop).
  Variable pmap : list (oprule * prefix_ctor).
  Variable bprec : binop -> nat.
  Variable rassoc : binop -> bool.
  Variables Ppre Pmax : nat.

  (* the table, read forwards *)
  Hypothesis F_infix : forall r o, assoc_find r imap = Some o ->
    ops_get tbl r = Some (Infix (if rassoc o then ARight else ALeft), bprec o).
  Hypothesis F_postfix : forall r p, ops_get tbl r = Some (Postfix, p) -> Ppre < p /\ p <= Pmax.
  Hypothesis F_prefix_ctor : forall r x u, map_prefix pmap r (Some x) = Ok (Some u) ->
    match u with EBin _ _ _ => False | _ => True end.
  Hypothesis prec_pos : forall o, 0 < bprec o.
  Hypothesis prec_lt_pre : forall o, bprec o < Ppre.
  Hypothesis pre_le_max : Ppre <= Pmax.
  Hypothesis level_assoc : forall o1 o2, bprec o1 = bprec o2 -> rassoc o1 = rassoc o2.

  Notation LoopR := (Loop tbl imap pmap).
  Notation RendR := (Rend tbl imap pmap bprec rassoc Ppre).

  Definition followsK (k : nat) (rest : list item) : Prop := exists b, lbp tbl rest = Ok b /\ b <= k.

  Lemma stops : forall rbp lhs rest, followsK rbp rest -> LoopR rbp lhs rest lhs rest.
  Proof. exact (loop_stops tbl imap pmap). Qed.

  (* with a table that reads forwards, every node of a Rend derivation has the entries RendK asks for *)
  Lemma Rend_has_K : forall m its t, RendR m its t -> exists k, RendK tbl imap pmap bprec rassoc Ppre Pmax m its t k.
  Proof.
    intros m its t H. induction H.
    - eexists. apply Rk_prim; assumption.
    - destruct IHRend1 as (kl & Hl). destruct IHRend2 as (kr & Hr). eexists.
      eapply Rk_bin; [eassumption | eassumption | apply F_infix; assumption | assumption | exact Hl | exact Hr].
    - destruct IHRend as (kx & Hx). eexists.
      eapply Rk_pre; [eassumption | eassumption | eassumption | eapply F_prefix_ctor; eassumption | assumption | exact Hx].
    - destruct IHRend as (kl & Hl). destruct (F_postfix _ _ H0). eexists. eapply Rk_post; eauto.
  Qed.

  (* every rendering is converted to the tree it renders *)
  Theorem rend_parses : forall m its t, 0 < m -> RendR m its t -> Items tbl imap pmap its t.
  Proof.
    intros m its t Hm H. destruct (Rend_has_K _ _ _ H) as (k & HK).
    exact (rendK_parses tbl imap pmap bprec rassoc Ppre Pmax prec_pos prec_lt_pre pre_le_max level_assoc m its t k Hm HK).
  Qed.
End Forward.

(* ------------------------------------------------------------------ the generated table *)

Lemma impl_F_infix : forall r o, assoc_find r infix_map = Some o ->
  ops_get impl_table r = Some (Infix (if spec_rassoc o then ARight else ALeft), spec_bprec o).
Proof. intros r o H. destruct r; vm_compute in H; try discriminate; inversion H; subst; vm_compute; reflexivity. Qed.
Lemma impl_F_postfix : forall r p, ops_get impl_table r = Some (Postfix, p) -> spec_Ppre < p /\ p <= spec_Ppost.
Proof.
  intros r p H. destruct r; vm_compute in H; try discriminate; inversion H; subst; vm_compute;
    split; repeat constructor.
Qed.
Lemma impl_F_prefix_ctor : forall r x u, map_prefix prefix_map r (Some x) = Ok (Some u) ->
  match u with EBin _ _ _ => False | _ => True end.
Proof.
  intros r x u H. unfold map_prefix in H.
  destruct (assoc_find r prefix_map) as [[uo|]|]; cbn in H; inversion H; exact I.
Qed.

(* every stream that renders t with at least the parentheses spec_table requires is converted to t *)
Theorem rend_parses_impl : forall its t, RendSpec 1 its t -> Items impl_table infix_map prefix_map its t.
Proof.
  intros its t H. unfold RendSpec in H.
  eapply (rend_parses impl_table infix_map prefix_map spec_bprec spec_rassoc spec_Ppre spec_Ppost);
    try exact H.
  - exact impl_F_infix.
  - exact impl_F_postfix.
  - exact impl_F_prefix_ctor.
  - exact spec_prec_pos.
  - exact spec_prec_lt_pre.
  - exact (Nat.lt_le_incl _ _ spec_pre_lt_post).
  - exact spec_level_assoc.
  - apply le_n.
Qed.

(* the parser accepts exactly the renderings, and returns the rendered tree *)
Theorem parse_iff_impl : forall its t,
  Items impl_table infix_map prefix_map its t <-> RendSpec 1 its t.
Proof. intros its t. split; [apply parse_sound_impl | apply rend_parses_impl]. Qed.
