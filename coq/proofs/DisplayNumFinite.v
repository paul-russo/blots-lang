(* DisplayNumFinite.v — C20: on the standard path the rounded value
   (value * scale).round() / scale  is a finite double, for every powi/log10 oracle within
   coarse bounds.  Hence well-formedness of the display text for ALL valid doubles with no
   side condition (display_wellformed_total). *)
From Coq Require Import ZArith Reals Bool String Ascii List Lia Lra Floats.SpecFloat.
From Flocq Require Import Core.Core IEEE754.BinarySingleNaN.
Require Import Blots.Num Blots.Outcome Blots.DisplayNum.
Require Import Blots.proofs.DisplayNumGroup Blots.proofs.DisplayNumSpec Blots.proofs.DisplayNumText
               Blots.proofs.DisplayNumInt Blots.proofs.DisplayNum Blots.proofs.DisplayNumFloat.
Import ListNotations.
Open Scope R_scope.

Lemma rnd_abs_le_bpow : forall v e, (-1074 <= e <= 1023)%Z -> Rabs v <= bpow radix2 e ->
  Rabs (rnd64 v) <= bpow radix2 e.
Proof.
  intros v e He H. apply abs_round_le_generic; try typeclasses eauto.
  - apply (fexp_correct 53 1024). reflexivity.
  - apply generic_format_bpow. unfold fexp, SpecFloat.emin. lia.
  - exact H.
Qed.

(* the no-overflow side condition of the Flocq correctness lemmas *)
Lemma rnd_lt_emax : forall v e, (-1074 <= e <= 1023)%Z -> Rabs v <= bpow radix2 e ->
  Rabs (rnd64 v) < bpow radix2 1024.
Proof.
  intros v e He H. eapply Rle_lt_trans; [now apply (rnd_abs_le_bpow v e)|apply bpow_lt; lia].
Qed.

Lemma valid_nabs : forall x, valid x -> valid (nabs x).
Proof. intros [| | |] H; exact H. Qed.
Lemma finite_nabs : forall x, Num.is_finite (nabs x) = Num.is_finite x.
Proof. now intros [| | |]. Qed.
Lemma RV_nabs : forall x, RV (nabs x) = Rabs (RV x).
Proof.
  intros [s|s| |s m e]; unfold RV; cbn [nabs SFabs SF2R]; try (now rewrite Rabs_R0).
  rewrite <- F2R_Zabs. now rewrite abs_cond_Zopp.
Qed.

Lemma RV_c_1e15 : RV c_1e15 = 1000000000000000.
Proof.
  unfold RV, c_1e15. cbn [SF2R]. unfold F2R. cbn [Fnum Fexp cond_Zopp].
  change (bpow radix2 (-3)) with (/ 8). lra.
Qed.

(* 0.0001 <= |x| < 1e15 on the reals *)
Lemma std_range_R : forall a, valid a -> Num.is_finite a = true -> scientific_range a = false ->
  RV c_1e_4 <= RV a < 1000000000000000.
Proof.
  intros a Va Fa Hs. destruct (std_range_inv a Hs) as [Hlo Hhi]. rewrite <- RV_c_1e15. split.
  - now apply (nleb_correct c_1e_4 a).
  - now apply (nltb_correct a c_1e15).
Qed.

(* (x * sc).round() / sc in binary64: no step overflows when |x * sc| <= 2^a and |sc| >= 2^-b;
   p = x * sc rounded, n the integer p.round(), the result n / sc rounded *)
Lemma round_scaled : forall x sc a b,
  valid x -> Num.is_finite x = true -> valid sc -> (exists s m e, sc = S754_finite s m e) ->
  (0 <= a)%Z -> (0 <= b)%Z -> (a + 1 + b <= 1023)%Z ->
  Rabs (RV x * RV sc) <= bpow radix2 a -> bpow radix2 (- b) <= Rabs (RV sc) ->
  let p := nmul x sc in let r := ndiv (nround p) sc in
  exists n, (0 <= n)%Z /\ valid r /\ Num.is_finite r = true /\
    RV p = rnd64 (RV x * RV sc) /\
    Rabs (IZR (cond_Zopp (nsign p) n) - RV p) <= / 2 /\
    RV r = rnd64 (rnd64 (IZR (cond_Zopp (nsign p) n)) / RV sc).
Proof.
  intros x sc a b Vx Fx Vs (ss & ms & es & ->) Ha Hb Hab Bp Bs.
  set (sc := S754_finite ss ms es) in *. intros p r.
  destruct (nmul_correct x sc Vx Vs Fx eq_refl) as (Vp & Fp & Ep);
    [apply (rnd_lt_emax _ a); [lia|exact Bp]|]. fold p in Vp, Fp, Ep.
  assert (Bp' : Rabs (RV p) <= bpow radix2 a) by (rewrite Ep; apply rnd_abs_le_bpow; [lia|exact Bp]).
  destruct (nround_value p Fp) as (n & Hn & En & Dn).
  set (N := IZR (cond_Zopp (nsign p) n)) in *.
  assert (Bn : Rabs N <= bpow radix2 (a + 1)).
  { replace N with ((N - RV p) + RV p) by ring. eapply Rle_trans; [apply Rabs_triang|].
    rewrite bpow_plus. change (bpow radix2 1) with 2.
    assert (1 <= bpow radix2 a) by (change 1 with (bpow radix2 0); apply bpow_le; lia). lra. }
  destruct (num_of_sm_correct (nsign p) n Hn) as (Vq & Fq & Eq);
    [apply (rnd_lt_emax _ (a + 1)); [lia|exact Bn]|]. fold N in Eq.
  assert (Bd : Rabs (rnd64 N / RV sc) <= bpow radix2 (a + 1 + b)).
  { unfold Rdiv. rewrite Rabs_mult, (bpow_plus _ (a + 1)).
    apply Rmult_le_compat; try apply Rabs_pos; [apply rnd_abs_le_bpow; [lia|exact Bn]|].
    rewrite Rabs_inv. replace (bpow radix2 b) with (/ bpow radix2 (- b)) by (now rewrite <- bpow_opp, Z.opp_involutive).
    apply Rinv_le; [apply bpow_gt_0|exact Bs]. }
  unfold r. rewrite En.
  destruct (ndiv_correct (num_of_sm (nsign p) n) ss ms es Vq Fq) as (Vr & Fr & Er);
    [rewrite Eq; apply (rnd_lt_emax _ (a + 1 + b)); [lia|exact Bd]|].
  rewrite Eq in Er. now exists n.
Qed.

Section Finite.
  Variable log10 : num -> num.
  Variable powi : num -> Z -> num.
  Variable fx : bool.

  (* coarse sanity of the two numeric oracles on the standard path:
     floor(log10 a) of a double in [0.0001, 1e15) is between -5 and 15;
     10^j for -2 <= j <= 21 is a finite non-zero double between 2^-80 and 2^80 *)
  Hypothesis Hlog_std : forall a, valid a -> Num.is_finite a = true ->
    scientific_range a = false -> (-5 <= as_i32 (nfloor (log10 a)) <= 15)%Z.
  Hypothesis Hpowi_std : forall j, (-2 <= j <= 21)%Z ->
    exists s m e, powi c_ten j = S754_finite s m e /\ valid (powi c_ten j) /\
                  bpow radix2 (-80) <= Rabs (RV (powi c_ten j)) <= bpow radix2 80.

  Lemma flog10_std : forall a, valid a -> Num.is_finite a = true -> scientific_range a = false ->
    exists l, flog10 log10 powi fx a = Ok l /\ (-6 <= l <= 15)%Z.
  Proof.
    intros a Va Fa Sa. pose proof (Hlog_std a Va Fa Sa) as B. unfold flog10.
    destruct fx; [destruct (nltb _ _)|]; try (eexists; split; [reflexivity|lia]).
    unfold i32_sub. rewrite i32_ok_small by lia. eexists; split; [reflexivity|lia].
  Qed.

  Theorem round_sig_finite : forall x,
    valid x -> std_nonint_path x = true ->
    exists r, round_to_significant_figures log10 powi fx x = Ok r /\
              valid r /\ Num.is_finite r = true.
  Proof.
    intros x Vx Hp. destruct (std_nonint_path_inv x Hp) as (Fx & Hz & Hs & _).
    destruct (flog10_std (nabs x) (valid_nabs x Vx) ltac:(now rewrite finite_nabs) Hs) as (l & El & Hl).
    rewrite (round_sig_eq log10 powi fx x l Hz El) by lia. eexists. split; [reflexivity|].
    destruct (Hpowi_std (14 - l)%Z ltac:(lia)) as (ss & ms & es & Es & Vs & Bs).
    (* |x| < 1e15 <= 2^50 *)
    assert (Bx : Rabs (RV x) <= bpow radix2 50).
    { pose proof (std_range_R _ (valid_nabs x Vx) ltac:(now rewrite finite_nabs) Hs) as [_ Hlt].
      rewrite RV_nabs in Hlt. change (bpow radix2 50) with 1125899906842624. lra. }
    destruct (round_scaled x (powi c_ten (14 - l)) 130 80 Vx Fx Vs) as (n & _ & Vr & Fr & _);
      try lia; [eauto| |tauto|now split].
    rewrite Rabs_mult. change 130%Z with (50 + 80)%Z. rewrite bpow_plus.
    apply Rmult_le_compat; try apply Rabs_pos; tauto.
  Qed.
End Finite.

(* ---------- well-formedness with no side condition ---------- *)
Section Total.
  Variable log10 : num -> num.
  Variable powi : num -> Z -> num.
  Variable fmt_prec : num -> Z -> text.
  Variable fmt_exp14 : num -> text.
  Variable parse_f64 : text -> option num.
  Variable fx : bool.
  Hypothesis Hprec : forall x n, Num.is_finite x = true -> (0 <= n)%Z -> prec_shape n (fmt_prec x n) = true.
  Hypothesis Hexp : forall x, Num.is_finite x = true -> exp_shape (fmt_exp14 x) = true.
  Hypothesis Hparse : forall s m, mant_shape s = true -> parse_f64 s = Some m -> Num.is_finite m = true.
  Hypothesis Hlog_std : forall a, valid a -> Num.is_finite a = true ->
    scientific_range a = false -> (-5 <= as_i32 (nfloor (log10 a)) <= 15)%Z.
  Hypothesis Hpowi_std : forall j, (-2 <= j <= 21)%Z ->
    exists s m e, powi c_ten j = S754_finite s m e /\ valid (powi c_ten j) /\
                  bpow radix2 (-80) <= Rabs (RV (powi c_ten j)) <= bpow radix2 80.

  Lemma display_wellformed_total_at : forall x t,
    valid_binary 53 1024 x = true ->
    (Num.is_finite x = true -> exp_shape (fmt_exp14 x) = true) ->
    format_display_number log10 powi fmt_prec fmt_exp14 parse_f64 fx x = Ok t ->
    wf_numeral t = true.
  Proof.
    intros x t Vx Hex H.
    destruct (display_wellformed_at log10 powi fmt_prec fmt_exp14 parse_f64 fx Hprec Hparse x t Hex H)
      as [W|(Hp & r & Er & Fr)]; [exact W|].
    destruct (round_sig_finite log10 powi fx Hlog_std Hpowi_std x Vx Hp) as (r' & Er' & _ & Fr').
    rewrite Er in Er'. injection Er' as <-. congruence.
  Qed.

  Theorem display_wellformed_total : forall x t,
    valid_binary 53 1024 x = true ->
    format_display_number log10 powi fmt_prec fmt_exp14 parse_f64 fx x = Ok t ->
    wf_numeral t = true.
  Proof. intros x t Vx. apply display_wellformed_total_at; [exact Vx|apply Hexp]. Qed.
End Total.
