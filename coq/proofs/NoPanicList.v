(* NoPanicList.v — C01 for the list / string / record built-ins transcribed in BuiltinsList.v:
   once the arity check of FunctionDef::call has passed, none of the arms fails
   with Panic — every `args[i]` is below the enforced arity (arities from the generated table
   coq/gen/Builtins.v) — and none is Unmodelled; stated once for either failure (Avoid.v).
   `range` is the exception: its arm has a second partial operation (the
   i64 subtraction); Properties/C14.v (C14_range_no_panic) covers it with its exclusion.
   The callback-taking ones (sort_by, group_by, count_by) are in Avoid.v.  The text functions are
   stated for every Unicode / number-printing oracle. *)
From Coq Require Import String Ascii List ZArith Bool Lia.
Require Import Blots.Num Blots.gen.Builtins Blots.Ast Blots.Value Blots.Outcome Blots.Binop
               Blots.Access Blots.BuiltinsList Blots.proofs.Avoid.
Import ListNotations.
Open Scope list_scope.
Open Scope nat_scope.

(* what the arity check gives, as a fact about [length args] usable by lia *)
Ltac arity_fact Ha :=
  cbn [builtin_arity] in Ha; unfold arity_can_accept in Ha;
  repeat match type of Ha with
         | (_ && _)%bool = true =>
             let H1 := fresh "Hb" in apply andb_true_iff in Ha; destruct Ha as [Ha H1];
             try apply Nat.leb_le in H1
         end;
  try apply Nat.eqb_eq in Ha; try apply Nat.leb_le in Ha.

(* ---- one statement for the pure arms: a table (built-in, arm) and "no row fails" ---- *)
Definition list_builtin_arms : list (builtin * (list value -> outcome value)) :=
  [(B_len, bi_len); (B_head, bi_head); (B_tail, bi_tail); (B_slice, bi_slice); (B_concat, bi_concat);
   (B_unique, bi_unique); (B_sort, bi_sort); (B_reverse, bi_reverse); (B_split, bi_split);
   (B_replace, bi_replace); (B_includes, bi_includes); (B_keys, bi_keys); (B_values, bi_values);
   (B_entries, bi_entries); (B_flatten, bi_flatten); (B_zip, bi_zip); (B_chunk, bi_chunk)].

Section Leaves.
  Variable k : failure.

  Lemma barg_nf : forall args i, i < Datatypes.length args -> BuiltinsList.arg args i <> fail k.
  Proof. exact (arg_nf k). Qed.
  Lemma bas_number_nf : forall v, BuiltinsList.as_number v <> fail k.
  Proof. exact (as_number_nf k). Qed.
  Lemma bas_string_nf : forall v, BuiltinsList.as_string v <> fail k.
  Proof. exact (as_string_nf k). Qed.
  Lemma bas_list_nf : forall v, BuiltinsList.as_list v <> fail k.
  Proof. exact (as_list_nf k). Qed.
  Lemma bas_record_nf : forall v, BuiltinsList.as_record v <> fail k.
  Proof. destruct v; first [apply ok_nf|apply err_nf]. Qed.
End Leaves.

(* one step of "the next monadic bind / match cannot be the failure": `args[i]` is below the arity
   (lia, from the facts arity_fact leaves in the context), an as_* accessor answers a value or an error *)
Ltac nf_step :=
  match goal with
  | |- Ok _ <> fail ?k => apply ok_nf
  | |- Err <> fail ?k => apply err_nf
  | |- obind (BuiltinsList.arg _ _) _ <> fail ?k => apply (obind_nf k); [apply (barg_nf k); cbn [Datatypes.length]; lia|intros ? _]
  | |- obind (BuiltinsHof.arg _ _) _ <> fail ?k => apply (obind_nf k); [apply (arg_nf k); cbn [Datatypes.length]; lia|intros ? _]
  | |- obind (BuiltinsList.as_number _) _ <> fail ?k => apply (obind_nf k); [apply bas_number_nf|intros ? _]
  | |- obind (BuiltinsList.as_string _) _ <> fail ?k => apply (obind_nf k); [apply bas_string_nf|intros ? _]
  | |- obind (BuiltinsList.as_list _) _ <> fail ?k => apply (obind_nf k); [apply bas_list_nf|intros ? _]
  | |- obind (BuiltinsList.as_record _) _ <> fail ?k => apply (obind_nf k); [apply bas_record_nf|intros ? _]
  | |- obind (Binop.as_string _) _ <> fail ?k => apply (obind_nf k); [apply as_string_nf|intros ? _]
  | |- obind (BuiltinsHof.as_list _) _ <> fail ?k => apply (obind_nf k); [apply as_list_nf|intros ? _]
  | |- (if ?b then _ else _) <> fail _ => destruct b
  | |- (match ?x with _ => _ end) <> fail _ => destruct x
  | |- (let _ := _ in _) <> fail _ => cbv zeta
  end.
Ltac nf_auto := repeat nf_step.

Section Avoided.
  Variable k : failure.

  (* zip indexes nothing: `list.get(i).unwrap_or(Null)` *)
  Lemma zip_nf : forall args, bi_zip args <> fail k.
  Proof.
    intros args. unfold bi_zip. apply obind_nf; [|intros; apply ok_nf].
    apply mapM_nf. intros x _. destruct x; first [apply ok_nf|apply err_nf].
  Qed.
  (* includes: args[1] is touched inside the loop over the haystack *)
  Lemma includes_nf : forall args, 2 <= Datatypes.length args -> bi_includes args <> fail k.
  Proof.
    intros args Ha. unfold bi_includes.
    apply obind_nf; [apply barg_nf; lia|]. intros a0 _.
    destruct a0; try apply err_nf.
    - nf_auto.
    - induction l as [|item rest IH]; [apply ok_nf|].
      apply obind_nf; [apply barg_nf; lia|]. intros a1 _.
      destruct (equals item a1); [apply ok_nf|exact IH].
  Qed.

  Theorem list_builtins_nf : forall b arm args,
    In (b, arm) list_builtin_arms ->
    arity_can_accept (builtin_arity b) (Datatypes.length args) = true ->
    arm args <> fail k.
  Proof.
    intros b arm args Hin Ha. unfold list_builtin_arms in Hin. cbn [In] in Hin.
    repeat (destruct Hin as [Hin|Hin]; [injection Hin as <- <-|]); try contradiction;
      arity_fact Ha; try (apply includes_nf; lia); try apply zip_nf;
      unfold bi_len, bi_head, bi_tail, bi_slice, bi_concat, bi_unique, bi_sort, bi_reverse, bi_split,
             bi_replace, bi_keys, bi_values, bi_entries, bi_flatten, bi_chunk;
      nf_auto.
  Qed.

  Section Text.
    Variable str_trim str_upper str_lower : string -> string.
    Variable num_str : num -> string.
    Variable lam_str : list lamarg -> expr -> list (string * value) -> string.
    Variable args : list value.

    Lemma trim_nf : arity_can_accept (builtin_arity B_trim) (Datatypes.length args) = true ->
      bi_trim str_trim args <> fail k.
    Proof. intros Ha. arity_fact Ha. unfold bi_trim. nf_auto. Qed.
    Lemma uppercase_nf : arity_can_accept (builtin_arity B_uppercase) (Datatypes.length args) = true ->
      bi_uppercase str_upper args <> fail k.
    Proof. intros Ha. arity_fact Ha. unfold bi_uppercase. nf_auto. Qed.
    Lemma lowercase_nf : arity_can_accept (builtin_arity B_lowercase) (Datatypes.length args) = true ->
      bi_lowercase str_lower args <> fail k.
    Proof. intros Ha. arity_fact Ha. unfold bi_lowercase. nf_auto. Qed.
    Lemma join_nf : arity_can_accept (builtin_arity B_join) (Datatypes.length args) = true ->
      bi_join num_str lam_str args <> fail k.
    Proof. intros Ha. arity_fact Ha. unfold bi_join. nf_auto. Qed.
  End Text.

End Avoided.
