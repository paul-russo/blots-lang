(* EmitHOOps.v — C05: the transcribed operators and built-ins respect the emit/reload relation.
   The binary (relational) counterpart of GenOps.v: where GenOps shows that the operators treat a
   callback parametrically on values satisfying a PREDICATE (same arguments on both sides), this
   file shows it for a RELATION: related callbacks (EmitHOSim.cb_rel_on), related operands -> related
   outcomes, with different stores on the two sides.  The relation is EmitHO.vrelG; nothing here looks at
   which numbers and strings may be inlined, so EmitHO.vrel and EmitNqHO.vrel are both covered.

   Structure (so that further built-in arms can be added mechanically):
     - a relational state-and-outcome monad lemma set  (lift_MR, bindM_MR, for_each_MR, call_fn_MR)
     - one lemma per operator arm  (arm_scalar_rel, arm_list_scalar_rel, arm_list_list_rel)
     - one lemma per callback loop (map_loop_rel ...), one per pure built-in (pure_*_rel)
     - the dispatchers: eval_binop_rel, builtin_impl_rel, builtin_full_rel; a new arm of a
       dispatcher layered on top (EvalAll.builtin_all) is one more `match` case proved with
       pure_bi_rel or the loop lemmas, falling through to builtin_full_rel.

   EXCLUDED operators: == != .== .!= (finding F53: Value::equals on two functions compares
   parameter lists and body ASTs only, so it distinguishes a closure from its reloaded emission
   and identifies closures that differ only in captured values).  *)
From Coq Require Import String Ascii List ZArith Bool Lia.
Require Import Blots.Num Blots.gen.Builtins Blots.Ast Blots.Value Blots.Outcome Blots.Binop
               Blots.Env Blots.Eval Blots.Emit Blots.BuiltinsHof Blots.Program Blots.EvalInst Blots.EvalFull
               Blots.proofs.ValueInd Blots.proofs.BinopShape Blots.proofs.EmitHO Blots.proofs.EmitHOSim.
Import ListNotations.
Open Scope list_scope.

(* operators that never apply Value::equals *)
Definition eqfree (op : binop) : bool :=
  match op with Equal | NotEqual | DotEqual | DotNotEqual => false | _ => true end.

Section Ops.
  Variable opok : binop -> bool.
  Variable biok : builtin -> bool.
  Variable nanfix : bool.
  Variable numok : num -> bool.
  Variable strok : string -> bool.
  Notation vrel := (vrelG opok biok nanfix numok strok).
  Notation lrel := (lrelG opok biok nanfix numok strok).
  Notation orel := (orelG opok biok nanfix numok strok).
  Notation cb_rel := (cb_rel_on vrel).

  (* ---- shape lemmas ---- *)
  Lemma vrel_is_list v v' : vrel v v' -> is_list v = is_list v'. Proof. destruct 1; reflexivity. Qed.
  Lemma vrel_is_string v v' : vrel v v' -> is_string v = is_string v'. Proof. destruct 1; reflexivity. Qed.
  Lemma vrel_is_null v v' : vrel v v' -> is_null v = is_null v'. Proof. destruct 1; reflexivity. Qed.
  Lemma vrel_is_lambda v v' : vrel v v' -> is_lambda v = is_lambda v'. Proof. destruct 1; reflexivity. Qed.
  Lemma vrel_is_built_in v v' : vrel v v' -> is_built_in v = is_built_in v'. Proof. destruct 1; reflexivity. Qed.
  Lemma vrel_is_callable v v' : vrel v v' -> is_callable v = is_callable v'. Proof. destruct 1; reflexivity. Qed.
  Lemma vrel_fa2 v v' : vrel v v' -> fn_accepts2_of_value v = fn_accepts2_of_value v'.
  Proof. destruct 1; reflexivity. Qed.
  Lemma vrel_accepts v v' n : vrel v v' -> accepts v n = accepts v' n.
  Proof. intros H. unfold accepts. now rewrite (vrel_fn_arity H). Qed.

  (* Value::compare looks at data only (functions have no ordering) *)
  Lemma compare_rel : forall v v' w w', vrel v v' -> vrel w w' -> compare v w = compare v' w'.
  Proof.
    induction v using value_ind'; intros v' w w' Hv Hw; inversion Hv; subst; clear Hv;
      destruct Hw; try reflexivity.
    cbn [compare].
    match goal with HF : Forall2 _ l l' |- _ => rename HF into HL end.
    match goal with HF : Forall2 _ l0 l'0 |- _ => rename HF into HM end.
    revert l0 l'0 HM. induction HL as [|x x' l l' Vx _ IHl]; intros m m' HM.
    - destruct HM; reflexivity.
    - destruct HM as [|y y' m m' Vy HM]; [reflexivity|].
      inversion H as [|? ? Hx Hl]; subst.
      rewrite (Hx x' y y' Vx Vy). destruct (compare x' y') as [[| |]|]; try reflexivity.
      apply IHl; assumption.
  Qed.

  (* ---- the relational monad ---- *)
  Definition MR {A B} (Q : A -> B -> Prop) (m : M store A) (m' : M store B) : Prop :=
    forall st st', orel_gen Q (fst (m st)) (fst (m' st')).
  Lemma lift_MR {A B} (Q : A -> B -> Prop) o o' : orel_gen Q o o' -> MR Q (lift store o) (lift store o').
  Proof. intros H st st'. exact H. Qed.
  Lemma bindM_MR {A B A' B'} (Q : A -> B -> Prop) (Q' : A' -> B' -> Prop) m m' f f' :
    MR Q m m' -> (forall a a', Q a a' -> MR Q' (f a) (f' a')) ->
    MR Q' (bindM store m f) (bindM store m' f').
  Proof.
    intros Hm Hf st st'. unfold bindM. specialize (Hm st st').
    destruct (m st) as [o s1], (m' st') as [o' s1']. cbn [fst] in Hm.
    destruct o, o'; cbn in Hm; try contradiction; try exact I. apply Hf. exact Hm.
  Qed.
  Lemma for_each_MR {B B'} (Q : B -> B' -> Prop) idxs b b' :
    (forall i, MR Q (b i) (b' i)) -> MR (Forall2 Q) (for_each store idxs b) (for_each store idxs b').
  Proof.
    intros Hb. induction idxs as [|i r IH]; cbn [for_each].
    - apply lift_MR. constructor.
    - eapply bindM_MR; [apply Hb|]. intros y y' Hy. eapply bindM_MR; [apply IH|].
      intros ys ys' Hys. apply lift_MR. constructor; assumption.
  Qed.

  Lemma mapM_rel {A A' B B'} (R : A -> A' -> Prop) (S : B -> B' -> Prop) f f' l l' :
    Forall2 R l l' -> (forall x x', R x x' -> orel_gen S (f x) (f' x')) ->
    orel_gen (Forall2 S) (mapM f l) (mapM f' l').
  Proof.
    intros HL Hf. induction HL as [|x x' l l' Hx _ IH]; cbn [mapM]; [constructor|].
    specialize (Hf x x' Hx). destruct (f x), (f' x'); cbn in Hf; try contradiction; try exact I.
    cbn [obind]. destruct (mapM f l), (mapM f' l'); cbn in IH; try contradiction; try exact I.
    cbn. constructor; assumption.
  Qed.
  Lemma omap_VList_rel o o' : orel_gen lrel o o' -> orel (omap VList o) (omap VList o').
  Proof. destruct o, o'; cbn; try contradiction; auto. intros H. constructor. exact H. Qed.

  Lemma num2_rel f a a' b b' : vrel a a' -> vrel b b' -> orel (num2 f a b) (num2 f a' b').
  Proof.
    intros Ha Hb. unfold num2. rewrite <- (vrel_as_number Ha), <- (vrel_as_number Hb).
    destruct (as_number a); cbn; try exact I. destruct (as_number b); cbn; try exact I. constructor.
  Qed.
  Lemma and_q_rel a a' b b' : vrel a a' -> vrel b b' -> orel (and_q a b) (and_q a' b').
  Proof.
    intros Ha Hb. unfold and_q. rewrite <- (vrel_as_bool Ha), <- (vrel_as_bool Hb).
    destruct (as_bool a) as [[|]| | | |]; cbn; try exact I; [|constructor].
    destruct (as_bool b); cbn; try exact I. constructor.
  Qed.
  Lemma or_q_rel a a' b b' : vrel a a' -> vrel b b' -> orel (or_q a b) (or_q a' b').
  Proof.
    intros Ha Hb. unfold or_q. rewrite <- (vrel_as_bool Ha), <- (vrel_as_bool Hb).
    destruct (as_bool a) as [[|]| | | |]; cbn; try exact I; [constructor|].
    destruct (as_bool b); cbn; try exact I. constructor.
  Qed.
  Lemma add_match_rel a a' b b' : vrel a a' -> vrel b b' -> orel (add_match a b) (add_match a' b').
  Proof.
    intros Ha Hb. destruct Ha; destruct Hb; cbn; try exact I; constructor.
  Qed.
  Lemma ord_rel a a' b b' e : vrel a a' -> vrel b b' ->
    orel (do r <- check_ord (compare a b) e; Ok (VBool r)) (do r <- check_ord (compare a' b') e; Ok (VBool r)).
  Proof.
    intros Ha Hb. rewrite (compare_rel _ _ _ _ Ha Hb). destruct (check_ord _ _); cbn; try exact I. constructor.
  Qed.
  Lemma index_rel l l' i : lrel l l' -> orel (index l i) (index l' i).
  Proof.
    intros H. unfold index. pose proof (lrel_nth_error i H) as G.
    destruct (nth_error l i), (nth_error l' i); try contradiction; cbn; auto.
  Qed.
  Lemma filter_some_rel (l l' : list (option value)) :
    Forall2 (fun o o' => match o, o' with Some v, Some v' => vrel v v' | None, None => True | _, _ => False end) l l' ->
    lrel (filter_some l) (filter_some l').
  Proof.
    induction 1 as [|o o' l l' Ho _ IH]; cbn; [constructor|].
    destruct o, o'; try contradiction; [constructor; assumption|exact IH].
  Qed.
  Lemma combine_rel l l' r r' : lrel l l' -> lrel r r' ->
    Forall2 (fun p p' => vrel (fst p) (fst p') /\ vrel (snd p) (snd p')) (combine l r) (combine l' r').
  Proof.
    intros HL. revert r r'. induction HL as [|x x' l l' Vx _ IH]; intros r r' HR; cbn; [constructor|].
    destruct HR as [|y y' r r' Vy HR]; constructor; [split; assumption|apply IH; exact HR].
  Qed.
  Lemma seq_rel n k : Forall2 (@eq nat) (seq k n) (seq k n).
  Proof. revert k. induction n; intros k; cbn; constructor; auto. Qed.

  Section Arms.
    Variable cb cb' : callback.
    Hypothesis Hcb : cb_rel cb cb'.
    Variable powf : num -> num -> num.
    Notation fa2 := fn_accepts2_of_value.

    Lemma call_fn_MR f f' args args' : vrel f f' -> lrel args args' ->
      MR vrel (call_fn store cb f args) (call_fn store cb' f' args').
    Proof. intros Hf Ha st st'. unfold call_fn. apply Hcb; assumption. Qed.

    Ltac lf := apply lift_MR.

    Lemma arm_scalar_rel op l l' r r' : eqfree op = true -> vrel l l' -> vrel r r' ->
      MR vrel (arm_scalar store cb powf op l r) (arm_scalar store cb' powf op l' r').
    Proof.
      intros Hop Hl Hr. unfold arm_scalar.
      destruct op; try discriminate; try (lf; exact I);
        try (lf; first [apply ord_rel|apply and_q_rel|apply or_q_rel|apply num2_rel]; assumption).
      - (* Add *) rewrite <- (vrel_is_string _ _ Hl). destruct (is_string l); lf; [|apply num2_rel; assumption].
        rewrite <- (vrel_as_string Hl), <- (vrel_as_string Hr).
        destruct (as_string l); cbn; try exact I. destruct (as_string r); cbn; try exact I. constructor.
      - (* Via *) rewrite <- (vrel_is_callable _ _ Hr). destruct (negb (is_callable r)); [lf; exact I|].
        apply call_fn_MR; [exact Hr|]. constructor; [exact Hl|constructor].
      - (* Into *) rewrite <- (vrel_is_callable _ _ Hr). destruct (negb (is_callable r)); [lf; exact I|].
        apply call_fn_MR; [exact Hr|]. constructor; [exact Hl|constructor].
      - (* Coalesce *) lf. rewrite <- (vrel_is_null _ _ Hl). destruct (is_null l); assumption.
    Qed.

    Ltac plist := apply omap_VList_rel; eapply mapM_rel; [eassumption|]; cbv beta.

    Lemma cbargs_rel (b : bool) x x' i : vrel x x' ->
      lrel (if b then [x; VNum (num_of_idx i)] else [x]) (if b then [x'; VNum (num_of_idx i)] else [x']).
    Proof. intros H. destruct b; repeat constructor; assumption. Qed.

    Lemma arm_list_scalar_rel op b l l' sc sc' : eqfree op = true -> lrel l l' -> vrel sc sc' ->
      MR vrel (arm_list_scalar store cb fa2 powf op b l sc) (arm_list_scalar store cb' fa2 powf op b l' sc').
    Proof.
      intros Hop Hl Hs. unfold arm_list_scalar. rewrite <- (lrel_length Hl).
      (* the operators without a callback map, over the list, a scalar function that respects the relation *)
      destruct op; try discriminate; try (lf; exact I);
        try (lf; cbn [expected_of obind]; apply omap_VList_rel; try destruct b;
             (eapply mapM_rel; [eassumption|]); intros x x' Hx; try destruct b;
             first [apply num2_rel|apply ord_rel|apply and_q_rel|apply or_q_rel]; assumption).
      - (* Add *) lf. apply omap_VList_rel. eapply mapM_rel; [apply seq_rel|]. intros i ? <-.
        pose proof (index_rel l l' i Hl) as Hi. destruct (index l i), (index l' i); cbn in Hi; try contradiction; try exact I.
        cbn [obind]. destruct b; apply add_match_rel; assumption.
      - (* Via *)
        destruct b; [|lf; exact I]. rewrite <- (vrel_is_callable _ _ Hs).
        destruct (negb (is_callable sc)); [lf; exact I|]. rewrite <- (vrel_fa2 _ _ Hs).
        eapply bindM_MR.
        + apply for_each_MR. intros i. eapply bindM_MR; [lf; apply index_rel; exact Hl|].
          intros a a' Ha. apply call_fn_MR; [exact Hs|]. apply cbargs_rel. exact Ha.
        + intros ys ys' Hys. lf. constructor. exact Hys.
      - (* Into *)
        destruct b; [|lf; exact I]. rewrite <- (vrel_is_callable _ _ Hs).
        destruct (negb (is_callable sc)); [lf; exact I|].
        apply call_fn_MR; [exact Hs|]. constructor; [constructor; exact Hl|constructor].
      - (* Where *)
        destruct b; [|lf; exact I]. rewrite <- (vrel_is_callable _ _ Hs).
        destruct (negb (is_callable sc)); [lf; exact I|]. rewrite <- (vrel_fa2 _ _ Hs).
        eapply bindM_MR.
        + apply for_each_MR with
            (Q := fun o o' => match o, o' with Some v, Some v' => vrel v v' | None, None => True | _, _ => False end).
          intros i. eapply bindM_MR; [lf; apply index_rel; exact Hl|].
          intros a a' Ha. eapply bindM_MR; [apply call_fn_MR; [exact Hs|apply cbargs_rel; exact Ha]|].
          intros res res' Hres. rewrite <- (vrel_as_bool Hres).
          eapply bindM_MR with (Q := @eq bool).
          * lf. destruct (as_bool res); cbn; auto.
          * intros k ? <-. lf. destruct k; cbn; auto.
        + intros ys ys' Hys. lf. constructor. apply filter_some_rel. exact Hys.
      - (* Coalesce *) lf. plist. intros x x' Hx. cbn.
        rewrite <- (vrel_is_null _ _ Hx), <- (vrel_is_null _ _ Hs).
        destruct b; [destruct (is_null x)|destruct (is_null sc)]; assumption.
    Qed.

    Lemma arm_list_list_rel op l l' r r' : eqfree op = true -> lrel l l' -> lrel r r' ->
      MR vrel (arm_list_list store cb powf op l r) (arm_list_list store cb' powf op l' r').
    Proof.
      intros Hop Hl Hr. unfold arm_list_list.
      rewrite <- (lrel_length Hl), <- (lrel_length Hr).
      destruct (negb (Nat.eqb (Datatypes.length l) (Datatypes.length r))); [lf; exact I|].
      pose proof (combine_rel l l' r r' Hl Hr) as Hz.
      destruct op; try discriminate; try (lf; exact I);
        try (lf; cbn [expected_of obind]; apply omap_VList_rel; eapply mapM_rel; [exact Hz|];
             intros [x y] [x' y'] [Hx Hy]; cbn [fst snd] in *;
             first [apply num2_rel|apply ord_rel|apply and_q_rel|apply or_q_rel]; assumption).
      - (* Add *) lf. apply omap_VList_rel. eapply mapM_rel; [apply seq_rel|]. intros i ? <-.
        pose proof (index_rel l l' i Hl) as Hi. destruct (index l i), (index l' i); cbn in Hi; try contradiction; try exact I.
        cbn [obind].
        pose proof (index_rel r r' i Hr) as Hj. destruct (index r i), (index r' i); cbn in Hj; try contradiction; try exact I.
        cbn [obind]. apply add_match_rel; assumption.
      - (* Via *)
        eapply bindM_MR.
        + apply for_each_MR. intros i.
          eapply bindM_MR with (Q := fun p p' => vrel (fst p) (fst p') /\ vrel (snd p) (snd p')).
          * lf. pose proof (index_rel l l' i Hl) as Hi.
            destruct (index l i), (index l' i); cbn in Hi; try contradiction; try exact I. cbn [obind].
            pose proof (index_rel r r' i Hr) as Hj.
            destruct (index r i), (index r' i); cbn in Hj; try contradiction; try exact I. cbn. split; assumption.
          * intros [x y] [x' y'] [Hx Hy]. cbn [fst snd] in *.
            rewrite <- (vrel_is_lambda _ _ Hy), <- (vrel_is_built_in _ _ Hy).
            destruct (negb (is_lambda y) && negb (is_built_in y)); [lf; exact I|].
            apply call_fn_MR; [exact Hy|]. constructor; [exact Hx|constructor].
        + intros ys ys' Hys. lf. constructor. exact Hys.
      - (* Coalesce *) lf. apply omap_VList_rel. eapply mapM_rel; [exact Hz|].
        intros [x y] [x' y'] [Hx Hy]. cbn [fst snd] in *. cbn. rewrite <- (vrel_is_null _ _ Hx).
        destruct (is_null x); assumption.
    Qed.

    Lemma broadcast_rel op l l' r r' : eqfree op = true -> vrel l l' -> vrel r r' ->
      MR vrel (broadcast store cb fa2 powf op l r) (broadcast store cb' fa2 powf op l' r').
    Proof.
      intros Hop Hl Hr. revert l' r' Hl Hr. pattern l, r. apply operands_cases; clear l r.
      - intros a b l' r' Hl Hr. inversion Hl; inversion Hr; subst. apply arm_list_list_rel; assumption.
      - intros a sc Hsc l' r' Hl Hr. inversion Hl; subst.
        rewrite !broadcast_list_l by (rewrite <- ?(vrel_is_list _ _ Hr); exact Hsc).
        apply arm_list_scalar_rel; assumption.
      - intros sc a Hsc l' r' Hl Hr. inversion Hr; subst.
        rewrite !broadcast_list_r by (rewrite <- ?(vrel_is_list _ _ Hl); exact Hsc).
        apply arm_list_scalar_rel; assumption.
      - intros l r Hnl Hnr l' r' Hl Hr.
        rewrite !broadcast_scalar by (rewrite <- ?(vrel_is_list _ _ Hl), <- ?(vrel_is_list _ _ Hr); assumption).
        apply arm_scalar_rel; assumption.
    Qed.

    (* the whole operator function, for every operator that does not apply Value::equals *)
    Theorem eval_binop_rel op l l' r r' st st' : eqfree op = true -> vrel l l' -> vrel r r' ->
      orel (fst (eval_binop store cb fa2 powf op l r st)) (fst (eval_binop store cb' fa2 powf op l' r' st')).
    Proof.
      intros Hop Hl Hr. rewrite !eval_binop_shape.
      destruct (undot op) as [op'|] eqn:U.
      - apply arm_scalar_rel; [destruct op; try discriminate; inversion U; reflexivity|assumption|assumption].
      - rewrite <- (vrel_is_list _ _ Hr). destruct (is_list r && binop_eqb op Into); [exact I|].
        apply broadcast_rel; assumption.
    Qed.
  End Arms.
End Ops.
Arguments vrel_accepts {opok biok nanfix numok strok v v'} n _.
Arguments compare_rel {opok biok nanfix numok strok v v' w w'} _ _.

(* ------------------------------------------------------------------ built-ins *)
(* the built-ins of EvalInst.builtin_impl proved to respect the relation: the callback-taking ones
   and the pure ones that never apply Value::equals *)
Definition biok_inst (b : builtin) : bool :=
  match b with
  | B_map | B_filter | B_reduce | B_every | B_some
  | B_abs | B_floor | B_ceil | B_trunc | B_sqrt | B_typeof | B_arity | B_to_bool
  | B_ugt | B_ult | B_ugte | B_ulte | B_any | B_all => true
  | _ => false
  end.

Section Builtins.
  Variable opok : binop -> bool.
  Variable biok : builtin -> bool.
  Variable nanfix : bool.
  Variable numok : num -> bool.
  Variable strok : string -> bool.
  Notation vrel := (vrelG opok biok nanfix numok strok).
  Notation lrel := (lrelG opok biok nanfix numok strok).
  Notation orel := (orelG opok biok nanfix numok strok).
  Notation cb_rel := (cb_rel_on vrel).

  Variable cb cb' : callback.
  Hypothesis Hcb : cb_rel cb cb'.

  Lemma cb_args_rel two x x' i : vrel x x' -> lrel (cb_args two x i) (cb_args two x' i).
  Proof. intros H. unfold cb_args. destruct two; repeat constructor; assumption. Qed.

  (* one callback step on both sides *)
  Ltac cbstep f f' xs xs' st st' Hf Ha :=
    pose proof (Hcb f f' f f' xs xs' st st' Hf Ha) as Hc;
    destruct (cb f f xs st) as [o s1]; destruct (cb' f' f' xs' st') as [o' s1']; cbn [fst] in Hc;
    destruct o as [a| | | |], o' as [a0| | | |]; cbn in Hc; try contradiction; try exact I.

  Lemma map_loop_rel f f' two l l' : vrel f f' -> lrel l l' -> forall i st st',
    orel_gen lrel (fst (map_loop cb f two l i st)) (fst (map_loop cb' f' two l' i st')).
  Proof.
    intros Hf HL. induction HL as [|x x' l l' Hx _ IH]; intros i st st'; cbn [map_loop]; [constructor|].
    cbstep f f' (cb_args two x i) (cb_args two x' i) st st' Hf (cb_args_rel two x x' i Hx).
    specialize (IH (S i) s1 s1'). destruct (map_loop cb f two l (S i) s1) as [o2 s2], (map_loop cb' f' two l' (S i) s1') as [o2' s2'].
    cbn [fst] in IH. destruct o2, o2'; cbn in IH; try contradiction; try exact I. cbn. constructor; assumption.
  Qed.
  Lemma filter_loop_rel f f' two l l' : vrel f f' -> lrel l l' -> forall i st st',
    orel_gen lrel (fst (filter_loop cb f two l i st)) (fst (filter_loop cb' f' two l' i st')).
  Proof.
    intros Hf HL. induction HL as [|x x' l l' Hx _ IH]; intros i st st'; cbn [filter_loop]; [constructor|].
    cbstep f f' (cb_args two x i) (cb_args two x' i) st st' Hf (cb_args_rel two x x' i Hx).
    rewrite <- (vrel_as_bool Hc). destruct (as_bool a) as [keep| | | |]; cbn; try exact I.
    specialize (IH (S i) s1 s1'). destruct (filter_loop cb f two l (S i) s1) as [o2 s2], (filter_loop cb' f' two l' (S i) s1') as [o2' s2'].
    cbn [fst] in IH. destruct o2, o2'; cbn in IH; try contradiction; try exact I. cbn.
    destruct keep; [constructor; assumption|assumption].
  Qed.
  Lemma reduce_loop_rel f f' three l l' : vrel f f' -> lrel l l' -> forall i acc acc' st st', vrel acc acc' ->
    orel (fst (reduce_loop cb f three l i acc st)) (fst (reduce_loop cb' f' three l' i acc' st')).
  Proof.
    intros Hf HL. induction HL as [|x x' l l' Hx _ IH]; intros i acc acc' st st' Ha; cbn [reduce_loop]; [exact Ha|].
    assert (Hargs : lrel (if three then [acc; x; idx_num i] else [acc; x]) (if three then [acc'; x'; idx_num i] else [acc'; x']))
      by (destruct three; repeat constructor; assumption).
    cbstep f f' (if three then [acc; x; idx_num i] else [acc; x]) (if three then [acc'; x'; idx_num i] else [acc'; x']) st st' Hf Hargs.
    apply IH. exact Hc.
  Qed.
  Lemma every_loop_rel f f' two l l' : vrel f f' -> lrel l l' -> forall i st st',
    orel (fst (every_loop cb f two l i st)) (fst (every_loop cb' f' two l' i st')).
  Proof.
    intros Hf HL. induction HL as [|x x' l l' Hx _ IH]; intros i st st'; cbn [every_loop]; [constructor|].
    cbstep f f' (cb_args two x i) (cb_args two x' i) st st' Hf (cb_args_rel two x x' i Hx).
    rewrite <- (vrel_as_bool Hc). destruct (as_bool a) as [[|]| | | |]; cbn; try exact I; [apply IH|constructor].
  Qed.
  Lemma some_loop_rel f f' two l l' : vrel f f' -> lrel l l' -> forall i st st',
    orel (fst (some_loop cb f two l i st)) (fst (some_loop cb' f' two l' i st')).
  Proof.
    intros Hf HL. induction HL as [|x x' l l' Hx _ IH]; intros i st st'; cbn [some_loop]; [constructor|].
    cbstep f f' (cb_args two x i) (cb_args two x' i) st st' Hf (cb_args_rel two x x' i Hx).
    rewrite <- (vrel_as_bool Hc). destruct (as_bool a) as [[|]| | | |]; cbn; try exact I; [constructor|apply IH].
  Qed.

  Lemma arg_rel args args' i : lrel args args' -> orel (arg args i) (arg args' i).
  Proof.
    intros H. unfold arg. pose proof (lrel_nth_error i H) as G.
    destruct (nth_error args i), (nth_error args' i); try contradiction; cbn; auto.
  Qed.
  Lemma hof_prelude_rel args args' : lrel args args' ->
    orel_gen (fun p p' => vrel (fst p) (fst p') /\ lrel (snd p) (snd p')) (hof_prelude args) (hof_prelude args').
  Proof.
    intros H. unfold hof_prelude.
    pose proof (arg_rel args args' 1 H) as H1. destruct (arg args 1), (arg args' 1); cbn in H1; try contradiction; try exact I.
    cbn [obind].
    pose proof (arg_rel args args' 0 H) as H0. destruct (arg args 0), (arg args' 0); cbn in H0; try contradiction; try exact I.
    cbn [obind].
    destruct H0; cbn [as_list obind]; try exact I.
    unfold as_function. rewrite <- (vrel_is_function H1).
    destruct (is_function a); cbn; [|exact I]. split; assumption.
  Qed.

  (* a pure built-in that respects the relation on its argument vector *)
  Lemma pure_bi_rel (f : list value -> outcome value) args args' st st' :
    orel (f args) (f args') -> orel (fst (pure_bi f args st)) (fst (pure_bi f args' st')).
  Proof. intros H. exact H. Qed.

  Lemma num1_rel g args args' : lrel args args' -> orel (num1 g args) (num1 g args').
  Proof.
    intros H. unfold num1. pose proof (arg_rel args args' 0 H) as H0.
    destruct (arg args 0), (arg args' 0); cbn in H0; try contradiction; try exact I. cbn [obind].
    rewrite <- (vrel_as_number H0). destruct (as_number a); cbn; try exact I. constructor.
  Qed.
  Lemma cmp2_rel g args args' : (forall a a' b b', vrel a a' -> vrel b b' -> g a b = g a' b') ->
    lrel args args' -> orel (cmp2 g args) (cmp2 g args').
  Proof.
    intros Hg H. unfold cmp2. pose proof (arg_rel args args' 0 H) as H0.
    destruct (arg args 0), (arg args' 0); cbn in H0; try contradiction; try exact I. cbn [obind].
    pose proof (arg_rel args args' 1 H) as H1.
    destruct (arg args 1), (arg args' 1); cbn in H1; try contradiction; try exact I. cbn.
    rewrite (Hg _ _ _ _ H0 H1). constructor.
  Qed.
  Lemma boolish_rel l l' : lrel l l' -> map boolish l = map boolish l'.
  Proof. induction 1 as [|x x' l l' Hx _ IH]; cbn; [reflexivity|]. f_equal; [destruct Hx; reflexivity|exact IH]. Qed.
  Lemma existsb_map {A} (p : A -> bool) l : existsb p l = existsb (fun b => b) (map p l).
  Proof. induction l; cbn; congruence. Qed.
  Lemma forallb_map {A} (p : A -> bool) l : forallb p l = forallb (fun b => b) (map p l).
  Proof. induction l; cbn; congruence. Qed.

  (* the built-in dispatcher of EvalInst.v *)
  Theorem builtin_impl_rel b args args' st st' : biok_inst b = true -> lrel args args' ->
    orel (fst (builtin_impl cb b args st)) (fst (builtin_impl cb' b args' st')).
  Proof.
    intros Hb Ha.
    assert (Hcmp : forall g, (forall a a' b b', vrel a a' -> vrel b b' -> g a b = g a' b') ->
              orel (fst (pure_bi (cmp2 g) args st)) (fst (pure_bi (cmp2 g) args' st')))
      by (intros g Hg; apply pure_bi_rel, cmp2_rel; assumption).
    destruct b; try discriminate; cbn [builtin_impl];
      try (apply pure_bi_rel, num1_rel; exact Ha).
    - (* any *) apply pure_bi_rel. unfold bi_any. pose proof (arg_rel args args' 0 Ha) as H0.
      destruct (arg args 0), (arg args' 0); cbn in H0; try contradiction; try exact I. cbn [obind].
      destruct H0; cbn [as_list obind]; try exact I.
      cbn. rewrite (existsb_map boolish l), (existsb_map boolish l'), (boolish_rel l l'); [constructor|assumption].
    - (* all *) apply pure_bi_rel. unfold bi_all. pose proof (arg_rel args args' 0 Ha) as H0.
      destruct (arg args 0), (arg args' 0); cbn in H0; try contradiction; try exact I. cbn [obind].
      destruct H0; cbn [as_list obind]; try exact I.
      cbn. rewrite (forallb_map boolish l), (forallb_map boolish l'), (boolish_rel l l'); [constructor|assumption].
    - (* map *) unfold bi_map. pose proof (hof_prelude_rel args args' Ha) as HP.
      destruct (hof_prelude args) as [[f l]| | | |], (hof_prelude args') as [[f' l']| | | |]; cbn in HP; try contradiction; try exact I.
      destruct HP as [Hf Hl]. rewrite <- (vrel_accepts 2 Hf).
      pose proof (map_loop_rel f f' (accepts f 2) l l' Hf Hl 0 st st') as HM.
      destruct (map_loop cb f (accepts f 2) l 0 st) as [o s1], (map_loop cb' f' (accepts f 2) l' 0 st') as [o' s1'].
      cbn [fst] in *. apply omap_VList_rel. exact HM.
    - (* reduce *) unfold bi_reduce.
      pose proof (arg_rel args args' 1 Ha) as H1. destruct (arg args 1), (arg args' 1); cbn in H1; try contradiction; try exact I.
      cbn [obind].
      pose proof (arg_rel args args' 2 Ha) as H2. destruct (arg args 2), (arg args' 2); cbn in H2; try contradiction; try exact I.
      cbn [obind].
      pose proof (arg_rel args args' 0 Ha) as H0. destruct (arg args 0), (arg args' 0); cbn in H0; try contradiction; try exact I.
      cbn [obind].
      destruct H0; cbn [as_list obind]; try exact I.
      unfold as_function. rewrite <- (vrel_is_function H1).
      destruct (is_function a); cbn; [|exact I].
      rewrite <- (vrel_accepts 3 H1). apply reduce_loop_rel; assumption.
    - (* filter *) unfold bi_filter. pose proof (hof_prelude_rel args args' Ha) as HP.
      destruct (hof_prelude args) as [[f l]| | | |], (hof_prelude args') as [[f' l']| | | |]; cbn in HP; try contradiction; try exact I.
      destruct HP as [Hf Hl]. rewrite <- (vrel_accepts 2 Hf).
      pose proof (filter_loop_rel f f' (accepts f 2) l l' Hf Hl 0 st st') as HM.
      destruct (filter_loop cb f (accepts f 2) l 0 st) as [o s1], (filter_loop cb' f' (accepts f 2) l' 0 st') as [o' s1'].
      cbn [fst] in *. apply omap_VList_rel. exact HM.
    - (* every *) unfold bi_every. pose proof (hof_prelude_rel args args' Ha) as HP.
      destruct (hof_prelude args) as [[f l]| | | |], (hof_prelude args') as [[f' l']| | | |]; cbn in HP; try contradiction; try exact I.
      destruct HP as [Hf Hl]. rewrite <- (vrel_accepts 2 Hf). apply every_loop_rel; assumption.
    - (* some *) unfold bi_some. pose proof (hof_prelude_rel args args' Ha) as HP.
      destruct (hof_prelude args) as [[f l]| | | |], (hof_prelude args') as [[f' l']| | | |]; cbn in HP; try contradiction; try exact I.
      destruct HP as [Hf Hl]. rewrite <- (vrel_accepts 2 Hf). apply some_loop_rel; assumption.
    - (* to_bool *) apply pure_bi_rel. unfold bi_to_bool. pose proof (arg_rel args args' 0 Ha) as H0.
      destruct (arg args 0), (arg args' 0); cbn in H0; try contradiction; try exact I. cbn [obind].
      destruct H0; cbn; try exact I; constructor.
    - (* typeof *) apply pure_bi_rel. unfold bi_typeof. pose proof (arg_rel args args' 0 Ha) as H0.
      destruct (arg args 0), (arg args' 0); cbn in H0; try contradiction; try exact I. cbn.
      rewrite (vrel_type_of H0). constructor.
    - (* arity *) apply pure_bi_rel. unfold bi_arity. pose proof (arg_rel args args' 0 Ha) as H0.
      destruct (arg args 0), (arg args' 0); cbn in H0; try contradiction; try exact I. cbn [obind].
      rewrite <- (vrel_fn_arity H0). destruct (fn_arity a) as [[?|?|? ?]|]; cbn; try exact I; constructor.
    - (* ugt *) apply Hcmp. intros a a' b0 b' Hx Hy. unfold ugt. now rewrite (compare_rel Hx Hy).
    - apply Hcmp. intros a a' b0 b' Hx Hy. unfold ult. now rewrite (compare_rel Hx Hy).
    - apply Hcmp. intros a a' b0 b' Hx Hy. unfold ugte. now rewrite (compare_rel Hx Hy).
    - apply Hcmp. intros a a' b0 b' Hx Hy. unfold ulte. now rewrite (compare_rel Hx Hy).
  Qed.

  (* EvalFull.builtin_full: every arm covered by biok_inst falls through to builtin_impl.  The arms
     that builtin_full adds (aggregates, list / string / record built-ins, sort_by / group_by /
     count_by): EmitHOOpsFull.builtin_full_rel_all. *)
  Theorem builtin_full_rel b args args' st st' : biok_inst b = true -> lrel args args' ->
    orel (fst (builtin_full cb b args st)) (fst (builtin_full cb' b args' st')).
  Proof.
    intros Hb Ha. destruct b; try discriminate; cbn [builtin_full]; apply builtin_impl_rel; auto.
  Qed.
End Builtins.

Section Plain.
  Variable opok : binop -> bool.
  Variable biok : builtin -> bool.
  Variable nanfix : bool.
  Notation vrel := (vrel opok biok nanfix).
  Notation lrel := (lrel opok biok nanfix).

  Lemma as_list_rel v v' : vrel v v' -> orel_gen lrel (as_list v) (as_list v').
  Proof. destruct 1; cbn; auto. Qed.
End Plain.
