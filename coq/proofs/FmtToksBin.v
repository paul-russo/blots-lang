(* FmtToksBin.v — the binary-operator family at the TEXT level (property C07).

   For trees whose laid-out part consists of binary operators, conditionals (with else-if chains)
   and an assignment (`binfam`: the operands that format_binary_op_multiline /
   format_conditional_multiline recurse into are again of these kinds or nodes that are always
   printed through expr_to_source — literals, names, prefix / postfix operators, index,
   field access), with the printer oracle instance, every width and indentation:
       toks (render (fmtd O w e i)) = toks (print_text e)
   — the SAME chunks, before `canon` (this family adds no trailing comma and prints no lambda), for
   all three arms of format_binary_op_multiline, both arms and the else-if chain of
   format_conditional_multiline, and for the assignment arm of format_multiline. *)
From Coq Require Import String Ascii List Bool Arith Lia.
Require Import Blots.Num Blots.Ast Blots.Printer Blots.Formatter Blots.FmtTokens Blots.proofs.Relined
               Blots.proofs.FmtdInd Blots.proofs.StringFacts Blots.proofs.FmtToks Blots.proofs.FmtToksDoc Blots.proofs.FmtToksAll.
Import ListNotations.
Local Open Scope list_scope.

Lemma render_app' : forall a b, render (a ++ b) = (render a +++ render b).
Proof. induction a as [|p a IH]; intro b; [reflexivity|]. cbn [app render]. now rewrite IH, append_assoc. Qed.

Definition wrapT (b : bool) (l : list string) : list string :=
  if b then ("(" :: l ++ [")"])%string else l.

Lemma paren_facts : forall b s, ends_code s = true ->
  toks (paren_s b s) = wrapT b (toks s) /\ ends_code (paren_s b s) = true.
Proof.
  intros [|] s H; unfold paren_s, wrapT; [|auto].
  assert (B1 : boundary s ")" = true) by (unfold boundary; rewrite H; apply orb_true_r).
  assert (T1 : tst (s +++ ")") = tst ")") by (apply tst_boundary; [exact B1|discriminate]).
  assert (B2 : boundary "(" (s +++ ")") = true) by reflexivity.
  split.
  - rewrite (toks_app_boundary _ _ B2), (toks_app_boundary _ _ B1). reflexivity.
  - rewrite (ends_code_tst _ (s +++ ")")).
    + rewrite (ends_code_tst _ _ T1). reflexivity.
    + apply tst_boundary; [exact B2|destruct s; discriminate].
Qed.

Lemma render_wrap : forall b d, render (wrap_parens b d) = paren_s b (render d).
Proof.
  intros [|] d; unfold wrap_parens, paren_s; [|reflexivity].
  rewrite !render_app'. cbn [render render_piece]. now rewrite append_nil_r.
Qed.

Lemma op_chunk : forall op, toks (binary_op_str op +++ " ") = [binary_op_str op].
Proof. intros []; vm_compute; reflexivity. Qed.

Lemma toks_bin_shape : forall A s1 op B, ends_code A = true -> is_sep s1 ->
  toks (A +++ s1 +++ (binary_op_str op +++ " ") +++ B) = toks A ++ [binary_op_str op] ++ toks B.
Proof.
  intros A s1 op B HA Hs. rewrite (toks_app_sep A s1 _ HA Hs).
  destruct (op_head_facts op) as [_ Hc]. rewrite (toks_app_closed _ B Hc), op_chunk. reflexivity.
Qed.
Lemma is_sep_space : is_sep " ".
Proof. apply is_sep_blank; reflexivity. Qed.

Section Bin.
  Variable fx : fixes.
  Variable pol : policy.
  Variable numtxt : num -> string.
  Variable keepc : bool.
  Variable w : nat.
  Notation O := (printer_oracles fx pol numtxt keepc).
  Notation pt := (print_text fx pol numtxt).
  Notation fd := (fmtd O w).

  Fixpoint binfam (e : expr) : bool :=
    match e with
    | EBin _ l r => binfam l && binfam r
    | EAssign _ v => binfam v
    | ECond c t f => binfam c && binfam t && binfam f
    | EList _ | ERec _ | ELam _ _ | ECall _ _ | EDo _ _ | EOutput _ => false
    | _ => true
    end.

  Lemma fsl_pt : forall e, binfam e = true -> fsl O e = pt e.
  Proof.
    induction e; intro H; try reflexivity; try discriminate.
    cbn [binfam] in H. cbn [fsl print_text].
    match goal with IH : _ -> fsl _ ?v = _ |- _ => now rewrite (IH H) end.
  Qed.

  Lemma op_same : forall o, binop_text o = binary_op_str o.
  Proof. intros []; reflexivity. Qed.

  Lemma pt_bin : forall o l r,
    pt (EBin o l r) = paren_s (pL pol o l) (pt l) +++ " " +++ (binary_op_str o +++ " ") +++ paren_s (pR pol o r) (pt r).
  Proof. intros o l r. cbn [print_text]. rewrite op_same, !append_assoc. reflexivity. Qed.

  Lemma node_of : forall e, tok_ok O e = true ->
    ends_code (fsl O e) = true /\ ends_code (pt e) = true /\ contains_comments e = false.
  Proof. exact (tok_node O). Qed.

  Lemma opaque_toks : forall e s, render [Opaque e s] = s.
  Proof. intros e s. cbn [render render_piece]. apply append_nil_r. Qed.

  Ltac enter Hfsl :=
    rewrite fmtd_eq; unfold impl_doc;
    match goal with |- context [if ?b then _ else _] => destruct b end;
    [rewrite opaque_toks, Hfsl; reflexivity|].

  (* nodes that format_multiline always hands to expr_to_source (no comment inside) *)
  Definition leafkind (e : expr) : bool :=
    match e with
    | ENum _ | EStr _ | EBool _ | ENull | EId _ | EInRef _ | EBuiltin _
    | EAccess _ _ | EDot _ _ | EUn _ _ | EFact _ | ESpread _ => true
    | _ => false
    end.
  Lemma step_leaf : forall e, leafkind e = true -> tok_ok O e = true ->
    forall i, toks (render (fd e i)) = toks (pt e).
  Proof.
    intros e Hl Hk i. destruct (node_of e Hk) as [_ [_ Hcc]].
    assert (Hfsl : fsl O e = pt e) by (destruct e; try discriminate; reflexivity).
    destruct e; try discriminate; enter Hfsl; unfold multiline_doc; rewrite ?Hcc, ?andb_false_r;
      rewrite opaque_toks; reflexivity.
  Qed.

  (* the steps, with the children's equalities as hypotheses *)
  Lemma step_assign' : forall x e, fsl O e = pt e -> tok_ok O (EAssign x e) = true ->
    (forall i, toks (render (fd e i)) = toks (pt e)) ->
    forall i, toks (render (fd (EAssign x e) i)) = toks (pt (EAssign x e)).
  Proof.
    intros x e Hfv Hk IHe i. pose proof Hk as Hk'. cbn [tok_ok] in Hk'. apply andb_prop in Hk'. destruct Hk' as [_ Hk'].
    apply andb_prop in Hk'. destruct Hk' as [Hx Hv].
    assert (Hfsl : fsl O (EAssign x e) = pt (EAssign x e)) by (cbn [fsl print_text]; now rewrite Hfv).
    enter Hfsl. unfold multiline_doc.
    destruct (kw_suffix x " = " Hx eq_refl eq_refl) as [_ [A2 _]].
    change (render (Code (x +++ " = ") :: fd e i)) with ((x +++ " = ") +++ render (fd e i)).
    rewrite (toks_app_closed _ _ A2), (IHe i), <- (toks_app_closed _ _ A2).
    cbn [print_text]. now rewrite append_assoc.
  Qed.

  Lemma step_bin' : forall o e1 e2, tok_ok O (EBin o e1 e2) = true ->
    (forall i, toks (render (fd e1 i)) = toks (pt e1)) -> (forall i, toks (render (fd e2 i)) = toks (pt e2)) ->
    forall i, toks (render (fd (EBin o e1 e2) i)) = toks (pt (EBin o e1 e2)).
  Proof.
    intros o e1 e2 Hk IHe1 IHe2 i.
    pose proof Hk as Hk'. cbn [tok_ok] in Hk'. apply andb_prop in Hk'. destruct Hk' as [_ Hk'].
    apply andb_prop in Hk'. destruct Hk' as [H1 H2].
    assert (Hfsl : fsl O (EBin o e1 e2) = pt (EBin o e1 e2)) by reflexivity.
    enter Hfsl. unfold multiline_doc, binop_doc.
    destruct (node_of e1 H1) as [_ [P1 _]]. destruct (node_of e2 H2) as [_ [P2 _]].
    change (o_needs_parens O o e1 true) with (pL pol o e1).
    change (o_needs_parens O o e2 false) with (pR pol o e2).
    (* the one-line text *)
    destruct (paren_facts (pL pol o e1) _ P1) as [TL1 EL1].
    destruct (paren_facts (pR pol o e2) _ P2) as [TR1 _].
    rewrite pt_bin, (toks_bin_shape _ " " o _ EL1 is_sep_space), TL1, TR1.
    (* the layouts *)
    assert (HL : forall j, toks (render (wrap_parens (pL pol o e1) (fd e1 j))) = wrapT (pL pol o e1) (toks (pt e1))
                           /\ ends_code (render (wrap_parens (pL pol o e1) (fd e1 j))) = true).
    { intro j. rewrite render_wrap. destruct (layout_toks O w e1 j H1) as [_ E].
      destruct (paren_facts (pL pol o e1) _ E) as [T E']. rewrite T, (IHe1 j). auto. }
    assert (HR : forall j, toks (render (wrap_parens (pR pol o e2) (fd e2 j))) = wrapT (pR pol o e2) (toks (pt e2))).
    { intro j. rewrite render_wrap. destruct (layout_toks O w e2 j H2) as [_ E].
      destruct (paren_facts (pR pol o e2) _ E) as [T _]. rewrite T, (IHe2 j). reflexivity. }
    destruct (HL i) as [TL EL].
    assert (MID : forall R, toks (render (wrap_parens (pL pol o e1) (fd e1 i) ++
                                   [Code (" " +++ binary_op_str o +++ " ")] ++ R))
                            = wrapT (pL pol o e1) (toks (pt e1)) ++ [binary_op_str o] ++ toks (render R)).
    { intro R. rewrite render_app'. cbn [app render render_piece].
      change ((" " +++ binary_op_str o +++ " ") +++ render R)
        with (" " +++ (binary_op_str o +++ " ") +++ render R).
      rewrite (toks_bin_shape _ " " o _ EL is_sep_space), TL. reflexivity. }
    assert (BRK : forall n R, toks (render (wrap_parens (pL pol o e1) (fd e1 i) ++
                                   [Nl; ind n; Code (binary_op_str o +++ " ")] ++ R))
                            = wrapT (pL pol o e1) (toks (pt e1)) ++ [binary_op_str o] ++ toks (render R)).
    { intros n R. rewrite render_app'. cbn [app render render_piece ind].
      rewrite <- (append_assoc nl (make_indent n)).
      rewrite (toks_bin_shape _ (nl +++ make_indent n) o _ EL (is_sep_nl_indent n)), TL. reflexivity. }
    destruct (is_via_like o && is_lambda e2).
    + match goal with |- context [if ?c then _ else _] => destruct c end.
      * destruct (contains_nl _) eqn:Enl.
        -- rewrite (relined_identity _ Enl), String.eqb_refl, MID, HR. reflexivity.
        -- rewrite MID, HR. reflexivity.
      * rewrite BRK, HR. reflexivity.
    + rewrite BRK, HR. reflexivity.
  Qed.

  (* ---------------------------------------------------------------- the conditional family *)
  Lemma fm_code : forall k d, flat_map piece_toks (Code k :: d) = toks k ++ flat_map piece_toks d.
  Proof. reflexivity. Qed.
  Lemma fm_nl : forall d, flat_map piece_toks (Nl :: d) = flat_map piece_toks d.
  Proof. reflexivity. Qed.
  Lemma fm_ind : forall n d, flat_map piece_toks (ind n :: d) = flat_map piece_toks d.
  Proof.
    intros n d. cbn [flat_map]. unfold piece_toks at 1, ind. cbn [render_piece].
    unfold toks. rewrite toks_from_trun.
    pose proof (no_chunk_blank _ (all_blank_indent n)) as H. unfold no_chunk in H. rewrite H. reflexivity.
  Qed.
  Lemma pieces_toks : forall e j, tok_ok O e = true -> flat_map piece_toks (fd e j) = toks (render (fd e j)).
  Proof. intros e j H. symmetry. exact (proj1 (layout_toks O w e j H)). Qed.

  Lemma pt_cond_toks : forall c t f, ends_code (pt c) = true -> ends_code (pt t) = true ->
    toks (pt (ECond c t f)) = ["if"] ++ toks (pt c) ++ ["then"] ++ toks (pt t) ++ ["else"] ++ toks (pt f).
  Proof.
    intros c t f Hc Ht. cbn [print_text].
    assert (S1 : is_sep " ") by exact is_sep_space.
    change ("if " +++ pt c +++ " then " +++ pt t +++ " else " +++ pt f)
      with ("if " +++ pt c +++ " " +++ ("then " +++ pt t +++ " " +++ ("else " +++ pt f))).
    rewrite (toks_app_closed "if " _ eq_refl).
    rewrite (toks_app_sep (pt c) " " _ Hc S1).
    rewrite (toks_app_closed "then " _ eq_refl).
    rewrite (toks_app_sep (pt t) " " _ Ht S1).
    rewrite (toks_app_closed "else " _ eq_refl). reflexivity.
  Qed.

  Ltac norm := repeat (progress (repeat rewrite <- app_assoc; cbn [app])).

  (* the chunks of format_conditional_multiline's document, and of what follows its then-branch *)
  Lemma fm_cond_doc : forall fc ft el Tc Tt i,
    (forall j, flat_map piece_toks (fc j) = Tc) -> (forall j, flat_map piece_toks (ft j) = Tt) ->
    flat_map piece_toks (cond_doc w fd fc ft el i) =
    ["if"] ++ Tc ++ ["then"] ++ Tt ++ flat_map piece_toks (else_doc O w el i).
  Proof.
    intros fc ft el Tc Tt i Hc Ht. rewrite cond_doc_eq, !flat_map_app, Ht.
    match goal with |- context [if ?c then _ else _] => destruct c end; cbn [app];
      rewrite fm_code, flat_map_app, Hc, ?fm_nl, ?fm_ind, fm_code, fm_nl, fm_ind;
      cbn [flat_map]; rewrite app_nil_r, <- !app_assoc; reflexivity.
  Qed.
  Definition EL (el : expr) : Prop := forall i,
    flat_map piece_toks (else_doc O w el i) = ["else"] ++ toks (pt el).

  Lemma el_plain : forall el, (match el with ECond _ _ _ => False | _ => True end) ->
    tok_ok O el = true -> (forall i, toks (render (fd el i)) = toks (pt el)) -> EL el.
  Proof.
    intros el Hne Hk HS i. rewrite (else_doc_plain O w el i Hne). cbn [app].
    rewrite fm_nl, fm_ind, fm_code, fm_nl, fm_ind, (pieces_toks _ _ Hk), HS. reflexivity.
  Qed.

  Lemma step_cond' : forall c t f, tok_ok O (ECond c t f) = true ->
    (forall i, toks (render (fd c i)) = toks (pt c)) -> (forall i, toks (render (fd t i)) = toks (pt t)) -> EL f ->
    (forall i, toks (render (fd (ECond c t f) i)) = toks (pt (ECond c t f))) /\ EL (ECond c t f).
  Proof.
    intros c t f Hk Sc St Ef.
    pose proof Hk as Hk'. cbn [tok_ok] in Hk'. apply andb_prop in Hk'. destruct Hk' as [_ Hk'].
    apply andb_prop in Hk'. destruct Hk' as [Hk' K3]. apply andb_prop in Hk'. destruct Hk' as [K1 K2].
    assert (Hfsl : fsl O (ECond c t f) = pt (ECond c t f)) by reflexivity.
    destruct (node_of c K1) as [_ [E1 _]]. destruct (node_of t K2) as [_ [E2 _]].
    assert (M : forall i, flat_map piece_toks (cond_doc w fd (fd c) (fd t) f i) = toks (pt (ECond c t f))).
    { intro i. rewrite (fm_cond_doc _ _ f (toks (pt c)) (toks (pt t)) i), (Ef i), (pt_cond_toks c t f E1 E2).
      - reflexivity.
      - intro j. rewrite (pieces_toks _ _ K1). apply Sc.
      - intro j. rewrite (pieces_toks _ _ K2). apply St. }
    split.
    - intro i. enter Hfsl. unfold multiline_doc.
      rewrite (proj1 (doc_toks _ (proj2 (dok_fmtd_chain O w (ECond c t f)) Hk i))). apply M.
    - intro i. cbn [else_doc app]. rewrite fm_nl, fm_ind, fm_code, M. reflexivity.
  Qed.

  Theorem binfam_all : forall e, binfam e = true -> tok_ok O e = true ->
    (forall i, toks (render (fd e i)) = toks (pt e)) /\ EL e.
  Proof.
    assert (plain : forall e, (match e with ECond _ _ _ => False | _ => True end) -> tok_ok O e = true ->
              (forall i, toks (render (fd e i)) = toks (pt e)) ->
              (forall i, toks (render (fd e i)) = toks (pt e)) /\ EL e)
      by (intros e Hne Hk HS; split; [exact HS|exact (el_plain e Hne Hk HS)]).
    induction e as [ | | | | | | | | | |c IHc t IHt f IHf| |x v IHv| | | | |o l IHl r IHr| | | ];
      intros Hb Hk; try discriminate Hb;
      try (apply plain; [exact I|exact Hk|]; apply step_leaf; [reflexivity|exact Hk]);
      pose proof Hk as Hk'; cbn [tok_ok] in Hk'; apply andb_prop in Hk' as [_ Hk']; cbn [binfam] in Hb.
    - apply andb_prop in Hk' as [Hk' K3]. apply andb_prop in Hk' as [K1 K2].
      apply andb_prop in Hb as [Hb B3]. apply andb_prop in Hb as [B1 B2].
      exact (step_cond' c t f Hk (proj1 (IHc B1 K1)) (proj1 (IHt B2 K2)) (proj2 (IHf B3 K3))).
    - apply andb_prop in Hk' as [_ Kv]. apply plain; [exact I|exact Hk|].
      exact (step_assign' x v (fsl_pt v Hb) Hk (proj1 (IHv Hb Kv))).
    - apply andb_prop in Hk' as [K1 K2]. apply andb_prop in Hb as [B1 B2]. apply plain; [exact I|exact Hk|].
      exact (step_bin' o l r Hk (proj1 (IHl B1 K1)) (proj1 (IHr B2 K2))).
  Qed.
  Theorem binfam_toks : forall e, binfam e = true -> tok_ok O e = true ->
    forall i, toks (render (fd e i)) = toks (pt e).
  Proof. intros e Hb Hk. exact (proj1 (binfam_all e Hb Hk)). Qed.

  Corollary binfam_lview : forall e i, binfam e = true -> tok_ok O e = true ->
    lview (render (fd e i)) = lview (pt e).
  Proof. intros e i Hb Hk. unfold lview. now rewrite (binfam_toks e Hb Hk i). Qed.
End Bin.
