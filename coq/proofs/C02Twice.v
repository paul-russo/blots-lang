(* C02Twice.v — EVAL-TWICE (C02, "no effect on values"), from the simulation of C02Sim.v.

   Evaluating an assignment-free expression e from c = (st, fr) gives (r1, (st1, fr)); evaluating it again
   from (st1, fr) gives the SAME outcome up to the indices of the function cells the evaluation itself
   allocated: cells that existed before (index < |st|) keep their index, the k-th cell allocated by the
   second run sits |st1| - |st| places after the k-th cell allocated by the first.

   [eval_twice_shift] / [eval_twice_same] carry the hypothesis [old_names_kept st st1] ("the first run named no
   cell that existed before").  On the code as pinned before repo fix F52 it was needed: an assignment named ANY unnamed
   lambda it was handed, `y = fs[0]` inside a do-block named an old cell, and a named function is bound to its
   own name when called, which shadows a name its body resolves dynamically (known/C02.json F52: the same
   expression succeeded once and failed the second time, in the model and on the real interpreter).  With the
   repaired rule (Env.name_if_created) it is a theorem (C02Keep.v: evaluation never writes to an existing cell)
   and [eval_twice_exact] / [eval_twice] / [eval_twice_equals] no longer mention it.
   Well-formedness [frames_lt]: the scope chain mentions only cells that exist (no dangling index), an
   invariant of every run from the empty store. *)
From Coq Require Import String Ascii List ZArith Bool Lia.
Require Import Blots.Num Blots.gen.Builtins Blots.Ast Blots.Value Blots.Outcome Blots.Binop
               Blots.Env Blots.Eval Blots.BuiltinsHof Blots.Program Blots.EvalInst Blots.EvalFull
               Blots.proofs.ExprInd Blots.proofs.ValueInd Blots.proofs.Frames Blots.proofs.StoreMono
               Blots.proofs.Scoping Blots.proofs.InstMono
               Blots.proofs.C02Ren Blots.proofs.C02Sim Blots.proofs.C02Ops Blots.proofs.C02Keep.
Import ListNotations.
Open Scope string_scope.
Open Scope list_scope.
Open Scope nat_scope.

(* ---- the renaming of the second run ---- *)
Definition shift (n dlt id : nat) : nat := if Nat.ltb id n then id else id + dlt.
Lemma shift_inj : forall n dlt a b, shift n dlt a = shift n dlt b -> a = b.
Proof.
  intros n dlt a b. unfold shift.
  destruct (Nat.ltb_spec a n), (Nat.ltb_spec b n); lia.
Qed.

(* every cell index mentioned by a value (deeply, captured scopes included) is below n *)
Fixpoint ids_lt (n : nat) (v : value) : bool :=
  match v with
  | VList l => forallb (ids_lt n) l
  | VRec r => forallb (fun kv => match kv with (_, x) => ids_lt n x end) r
  | VLam id _ _ sc => Nat.ltb id n && forallb (fun kv => match kv with (_, x) => ids_lt n x end) sc
  | VSpread x => ids_lt n x
  | _ => true
  end.
Definition frame_lt (n : nat) (f : frame) : bool := forallb (fun kv => match kv with (_, x) => ids_lt n x end) f.
Definition frames_lt (n : nat) (fr : frames) : bool := forallb (fun kf => frame_lt n (snd kf)) fr.
(* a configuration whose scope chain mentions existing cells only *)
Definition cfg_wf (c : cfg) : bool := frames_lt (length (fst c)) (snd c).

Lemma map_fix : forall {A} (f : A -> A) l, Forall (fun x => f x = x) l -> map f l = l.
Proof. intros A f l H; induction H as [|x l Hx _ IH]; [reflexivity|]. cbn [map]. rewrite Hx, IH. reflexivity. Qed.

Lemma ren_shift_fix : forall n dlt v, ids_lt n v = true -> ren (shift n dlt) v = v.
Proof.
  intros n dlt. induction v as [x|x| |s|l IH|r IH|id ar bd sc IH|bi|x IH] using value_ind';
    intros H; cbn [ren ids_lt] in *; try reflexivity.
  - f_equal. apply map_fix. rewrite forallb_forall in H. rewrite Forall_forall in *.
    intros x Hx. apply IH; [exact Hx|apply H; exact Hx].
  - f_equal. apply map_fix. rewrite forallb_forall in H. rewrite Forall_forall in *.
    intros [k x] Hx. f_equal. apply (IH (k, x) Hx). apply (H (k, x) Hx).
  - apply andb_true_iff in H. destruct H as [Hid H]. apply Nat.ltb_lt in Hid.
    assert (E : shift n dlt id = id) by (unfold shift; apply Nat.ltb_lt in Hid; rewrite Hid; reflexivity).
    rewrite E. f_equal. apply map_fix. rewrite forallb_forall in H. rewrite Forall_forall in *.
    intros [k x] Hx. f_equal. apply (IH (k, x) Hx). apply (H (k, x) Hx).
  - f_equal. apply IH. exact H.
Qed.
Lemma renF_shift_fix : forall n dlt f, frame_lt n f = true -> renF (shift n dlt) f = f.
Proof.
  intros n dlt f H. unfold renF. apply map_fix. unfold frame_lt in H. rewrite forallb_forall in H.
  rewrite Forall_forall. intros [k x] Hx. f_equal. apply ren_shift_fix. apply (H (k, x) Hx).
Qed.
Lemma renFr_shift_fix : forall n dlt fr, frames_lt n fr = true -> renFr (shift n dlt) fr = fr.
Proof.
  intros n dlt fr H. unfold renFr. apply map_fix. unfold frames_lt in H. rewrite forallb_forall in H.
  rewrite Forall_forall. intros [k f] Hx. cbn [fst snd]. f_equal. apply renF_shift_fix. apply (H (k, f) Hx).
Qed.

(* ---- "the first run named no cell that existed before" ---- *)
Definition old_names_kept (st st1 : store) : Prop :=
  forall id, id < length st -> lam_name st1 id = lam_name st id.
Definition all_named (st : store) : Prop :=
  forall id, id < length st -> lam_name st id <> None.
Lemma all_named_kept : forall st st1, all_named st -> store_le st st1 -> old_names_kept st st1.
Proof.
  intros st st1 Ha [_ Hn] id Hid. specialize (Ha id Hid).
  destruct (lam_name st id) as [x|] eqn:E; [|congruence]. apply Hn. exact E.
Qed.
Lemma old_names_kept_nil : forall st1, old_names_kept [] st1.
Proof. intros st1 id Hid. cbn in Hid. lia. Qed.

Lemma sinv_shift : forall st st1,
  length st <= length st1 -> old_names_kept st st1 ->
  sinv (shift (length st) (length st1 - length st)) st st1.
Proof.
  intros st st1 Hlen Hk. split; [|split].
  - intros id. unfold shift. destruct (Nat.ltb_spec id (length st)) as [Hlt|Hge]; [apply Hk; exact Hlt|].
    unfold lam_name.
    assert (E1 : nth_error st id = None) by (apply nth_error_None; exact Hge).
    assert (E2 : nth_error st1 (id + (length st1 - length st)) = None) by (apply nth_error_None; lia).
    rewrite E1, E2. reflexivity.
  - intros id Hid. unfold shift. apply Nat.ltb_lt in Hid. rewrite Hid. apply Nat.ltb_lt in Hid. lia.
  - intros k. unfold shift. destruct (Nat.ltb_spec (length st + k) (length st)); lia.
Qed.

(* ---- equality up to cell indices ---- *)
Definition erase (v : value) : value := ren (fun _ => 0) v.
Lemma erase_ren : forall rho v, erase (ren rho v) = erase v.
Proof.
  intros rho. unfold erase.
  induction v as [x|x| |s|l IH|r IH|id ar bd sc IH|bi|x IH] using value_ind'; cbn [ren]; try reflexivity.
  - f_equal. rewrite map_map. apply map_ext_Forall. exact IH.
  - f_equal. rewrite map_map. apply map_ext_Forall. eapply Forall_impl; [|exact IH].
    intros [k x] Hx. cbn [snd] in Hx. rewrite Hx. reflexivity.
  - f_equal. rewrite map_map. apply map_ext_Forall. eapply Forall_impl; [|exact IH].
    intros [k x] Hx. cbn [snd] in Hx. rewrite Hx. reflexivity.
  - f_equal. exact IH.
Qed.
(* the two values are the same tree except for the indices of function cells *)
Definition same_up_to_cells (v1 v2 : value) : Prop := erase v1 = erase v2.
Definition osame (r1 r2 : outcome value) : Prop :=
  match r1, r2 with
  | Ok a, Ok b => same_up_to_cells a b
  | Err, Err | ErrDepth, ErrDepth | Panic, Panic | Unmodelled, Unmodelled => True
  | _, _ => False
  end.
Lemma osame_oren : forall rho r, osame r (oren rho r).
Proof. intros rho [v| | | |]; cbn; try exact I. unfold same_up_to_cells. symmetry. apply erase_ren. Qed.

(* Value::equals does not see cell indices *)
Lemma equals_ren2 : forall rho1 rho2 a b, equals (ren rho1 a) (ren rho2 b) = equals a b.
Proof.
  intros rho1 rho2.
  induction a as [x|x| |s|l IH|r IH|id ar bd sc IH|bi|x IH] using value_ind'; intros b;
    destruct b; try reflexivity.
  - cbn [ren equals]. revert l0. induction IH as [|x l Hx _ IHl]; intros [|y m]; try reflexivity.
    cbn [map]. rewrite Hx. destruct (equals x y); [apply IHl|reflexivity].
  - cbn [ren equals]. rewrite !map_length. f_equal.
    induction IH as [|[k x] r' Hx _ IHr]; [reflexivity|]. cbn [map snd] in *.
    fold (renF rho2 r0). rewrite rec_get_ren. destruct (rec_get r0 k) as [y|]; cbn [option_map]; [|reflexivity].
    rewrite Hx. destruct (equals x y); [exact IHr|reflexivity].
  - cbn [ren equals]. destruct x; destruct b; try reflexivity; apply IH.
Qed.
Lemma equals_erase : forall a b, equals (erase a) (erase b) = equals a b.
Proof. intros a b. apply equals_ren2. Qed.
Lemma same_equals : forall v1 v2, same_up_to_cells v1 v2 -> equals v1 v2 = equals v1 v1.
Proof. intros v1 v2 H. rewrite <- (equals_erase v1 v2), <- H. apply equals_erase. Qed.

(* ---- the operators and built-ins commute with every injective renaming ---- *)
Definition ops_commute (bi : callback -> binop -> value -> value -> store -> outcome value * store)
                       (bu : callback -> builtin -> list value -> store -> outcome value * store) : Prop :=
  forall rho, (forall a b : nat, rho a = rho b -> a = b) ->
    (forall cbA cbB, cb_eqv rho cbA cbB ->
       forall op l r, Mfun rho (ren rho) (bi cbA op l r) (bi cbB op (ren rho l) (ren rho r))) /\
    (forall cbA cbB, cb_eqv rho cbA cbB ->
       forall b args, Mfun rho (ren rho) (bu cbA b args) (bu cbB b (map (ren rho) args))).

Lemma ops_commute_inst : ops_commute binop_impl builtin_impl.
Proof.
  intros rho Hinj. split.
  - apply binop_impl_sim.
  - apply builtin_impl_sim.
Qed.

Lemma store_keep_old_names : forall st st1, store_keep st st1 -> length st <= length st1 /\ old_names_kept st st1.
Proof. intros st st1 [L N]. split; [exact L|exact N]. Qed.

Section Twice.
  Variable release : bool.
  Variable bi : callback -> binop -> value -> value -> store -> outcome value * store.
  Variable bu : callback -> builtin -> list value -> store -> outcome value * store.
  Hypothesis Hops : ops_commute bi bu.
  Notation evalD := (evalD release bi bu).

  (* STORE-EXTENSION INVARIANCE in the form used below *)
  Theorem store_extension_invariance : forall rho, (forall a b : nat, rho a = rho b -> a = b) ->
    forall d e sA sB fr r sA' fr',
      sinv rho sA sB -> evalD d (sA, fr) e = (r, (sA', fr')) ->
      exists sB', evalD d (sB, renFr rho fr) e = (oren rho r, (sB', renFr rho fr')) /\ sinv rho sA' sB'.
  Proof.
    intros rho Hinj d e sA sB fr r sA' fr' Hs HA. destruct (Hops rho Hinj) as [Hbi Hbu].
    pose proof (evalD_sim rho Hinj release bi bu Hbi Hbu d e sA sB fr Hs) as (E1 & E2 & E3).
    rewrite HA in E1, E2, E3. cbn [fst snd] in E1, E2, E3.
    destruct (evalD d (sB, renFr rho fr) e) as [rB [sB' frB]]. cbn [fst snd] in *. subst.
    exists sB'. split; [reflexivity|assumption].
  Qed.

  (* EVAL-TWICE, exact form: the second outcome is the first one with the cells of the first run shifted *)
  Theorem eval_twice_shift : forall d e st fr r1 st1 fr1,
    no_assign e = true -> frames_lt (length st) fr = true ->
    evalD d (st, fr) e = (r1, (st1, fr1)) ->
    length st <= length st1 -> old_names_kept st st1 ->
    fr1 = fr /\
    exists st2, evalD d (st1, fr) e = (oren (shift (length st) (length st1 - length st)) r1, (st2, fr)) /\
                sinv (shift (length st) (length st1 - length st)) st1 st2.
  Proof.
    intros d e st fr r1 st1 fr1 Hna Hwf HA Hlen Hkept.
    assert (Hfr : fr1 = fr) by exact (evalD_pure_frames release bi bu d e (st, fr) r1 (st1, fr1) Hna HA).
    subst fr1. split; [reflexivity|].
    set (rho := shift (length st) (length st1 - length st)).
    destruct (store_extension_invariance rho (shift_inj _ _) d e st st1 fr r1 st1 fr
                (sinv_shift st st1 Hlen Hkept) HA) as (st2 & E & Hs).
    unfold rho in E. rewrite (renFr_shift_fix _ _ fr Hwf) in E. exists st2. split; assumption.
  Qed.

  Theorem eval_twice_same : forall d e c r1 c1 r2 c2,
    no_assign e = true -> cfg_wf c = true ->
    evalD d c e = (r1, c1) -> length (fst c) <= length (fst c1) -> old_names_kept (fst c) (fst c1) ->
    evalD d c1 e = (r2, c2) ->
    osame r1 r2 /\ snd c2 = snd c /\ snd c1 = snd c.
  Proof.
    intros d e [st fr] r1 [st1 fr1] r2 c2 Hna Hwf HA Hlen Hk HB. cbn [fst snd] in *.
    destruct (eval_twice_shift d e st fr r1 st1 fr1 Hna Hwf HA Hlen Hk) as (-> & st2 & E & _).
    rewrite E in HB. inversion HB; subst. split; [apply osame_oren|split; reflexivity].
  Qed.
  (* with the repaired naming rule (C02Keep.v: no evaluation writes to a cell that existed before it) the side
     condition on names is discharged by the evaluator itself *)
  Hypothesis Hkeep : forall d c e r c', evalD d c e = (r, c') -> store_keep (fst c) (fst c').

  Theorem eval_twice_exact : forall d e st fr r1 st1 fr1,
    no_assign e = true -> frames_lt (length st) fr = true ->
    evalD d (st, fr) e = (r1, (st1, fr1)) ->
    fr1 = fr /\
    exists st2, evalD d (st1, fr) e = (oren (shift (length st) (length st1 - length st)) r1, (st2, fr)) /\
                sinv (shift (length st) (length st1 - length st)) st1 st2.
  Proof.
    intros d e st fr r1 st1 fr1 Hna Hwf HA.
    destruct (store_keep_old_names _ _ (Hkeep d (st, fr) e r1 (st1, fr1) HA)) as [Hlen Hk].
    exact (eval_twice_shift d e st fr r1 st1 fr1 Hna Hwf HA Hlen Hk).
  Qed.

  Theorem eval_twice : forall d e c r1 c1 r2 c2,
    no_assign e = true -> cfg_wf c = true ->
    evalD d c e = (r1, c1) -> evalD d c1 e = (r2, c2) ->
    osame r1 r2 /\ snd c2 = snd c /\ snd c1 = snd c.
  Proof.
    intros d e c r1 c1 r2 c2 Hna Hwf HA HB.
    destruct (store_keep_old_names _ _ (Hkeep d c e r1 c1 HA)) as [Hlen Hk].
    exact (eval_twice_same d e c r1 c1 r2 c2 Hna Hwf HA Hlen Hk HB).
  Qed.

  Corollary eval_twice_equals : forall d e c v1 c1 v2 c2,
    no_assign e = true -> cfg_wf c = true ->
    evalD d c e = (Ok v1, c1) -> evalD d c1 e = (Ok v2, c2) ->
    equals v1 v2 = equals v1 v1.
  Proof.
    intros d e c v1 c1 v2 c2 Hna Hwf HA HB.
    destruct (eval_twice d e c (Ok v1) c1 (Ok v2) c2 Hna Hwf HA HB) as [Hs _].
    apply same_equals. exact Hs.
  Qed.
End Twice.

(* ---- the evaluator of EvalInst.v ---- *)
Theorem eval_twice_inst : forall release d e c r1 c1 r2 c2,
  no_assign e = true -> cfg_wf c = true ->
  evalD release binop_impl builtin_impl d c e = (r1, c1) -> old_names_kept (fst c) (fst c1) ->
  evalD release binop_impl builtin_impl d c1 e = (r2, c2) ->
  osame r1 r2 /\ snd c2 = snd c /\ snd c1 = snd c.
Proof.
  intros release d e c r1 c1 r2 c2 Hna Hwf HA Hk HB.
  pose proof (evalD_store_le release binop_impl builtin_impl binop_impl_mono builtin_impl_mono d c e r1 c1 HA) as [Hlen _].
  exact (eval_twice_same release binop_impl builtin_impl ops_commute_inst d e c r1 c1 r2 c2 Hna Hwf HA Hlen Hk HB).
Qed.

Corollary eval_twice_inst_named : forall release d e c r1 c1 r2 c2,
  no_assign e = true -> cfg_wf c = true -> all_named (fst c) ->
  evalD release binop_impl builtin_impl d c e = (r1, c1) ->
  evalD release binop_impl builtin_impl d c1 e = (r2, c2) ->
  osame r1 r2 /\ snd c2 = snd c /\ snd c1 = snd c.
Proof.
  intros release d e c r1 c1 r2 c2 Hna Hwf Hall HA HB.
  pose proof (evalD_store_le release binop_impl builtin_impl binop_impl_mono builtin_impl_mono d c e r1 c1 HA) as Hle.
  eapply eval_twice_inst; eauto. apply all_named_kept; assumption.
Qed.

Corollary eval_twice_inst_equals : forall release d e c v1 c1 v2 c2,
  no_assign e = true -> cfg_wf c = true ->
  evalD release binop_impl builtin_impl d c e = (Ok v1, c1) -> old_names_kept (fst c) (fst c1) ->
  evalD release binop_impl builtin_impl d c1 e = (Ok v2, c2) ->
  equals v1 v2 = equals v1 v1.
Proof.
  intros release d e c v1 c1 v2 c2 Hna Hwf HA Hk HB.
  destruct (eval_twice_inst release d e c (Ok v1) c1 (Ok v2) c2 Hna Hwf HA Hk HB) as [Hs _].
  apply same_equals. exact Hs.
Qed.
