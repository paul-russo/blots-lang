(* UnitsFloat2.v — the binary64 half of the C17 conversion laws beyond UnitsFloat.v (which has the
   per-operation relative-error lemmas and linear there-and-back with range hypotheses on the
   computed intermediates).  In order:
     1. Coq's SpecFloat add / sub / mul / div as Flocq's Bplus / Bminus / Bmult / Bdiv (SpecFlocq.v) for
        every FINITE operand including zeros ([isB]: "is a finite binary64 of real value r"), with the
        result exposed as [rnd] of the exact result;
     2. exponent windows: a decidable sufficient condition ([tab_ok]) for every intermediate of a
        conversion chain to stay in the normal range, proved sufficient;
     3. there-and-back for the linear AND reciprocal kinds with decidable hypotheses only;
     4. float-level composition  fl(A->B->C) vs fl(A->C)  for these kinds (6 roundings);
     5. the range conditions hold, BY COMPUTATION over the regenerated table, for every pair and triple
        of linear/reciprocal units of one category;
     6. 3 and 4 for the units of the table, and at the level of the [convert] built-in on identifiers;
     7. there-and-back for the temperature (affine) kind as an ABSOLUTE error bound, and the built-in for
        every kind;
     8. the range hypotheses of UnitsFloat.there_and_back_float_linear from the decidable condition;
     9. composition for the temperature kind.
   Three notions of "finite binary64" occur: [fin x] (UnitsFloat: valid, finite, non-zero), [finz x]
   (valid and finite, zero allowed), and [isB x r] (finz x, with its real value named: finz x <-> isB x (Rv x)). *)
From Coq Require Import ZArith Reals Floats.SpecFloat Psatz Lra List Bool String QArith Qreals.
From Flocq Require Import Core Relative Plus_error BinarySingleNaN.
Require Import Blots.Num Blots.UnitsBase Blots.gen.UnitsTable Blots.Units Blots.proofs.UnitsLaws Blots.proofs.UnitsFloat.
Import ListNotations.
Open Scope R_scope.

(* ================================================================ 1. the bridge, zeros included *)
Definition B64 := binary_float 53 1024.
Definition rnd (x : R) : R := round radix2 (fexp 53 1024) (round_mode mode_NE) x.
Definition Tmax : R := bpow radix2 1023.

(* x is a finite binary64 (zero allowed) whose real value is r *)
Definition isB (x : num) (r : R) : Prop :=
  exists b : B64, x = B2SF b /\ BinarySingleNaN.is_finite b = true /\ B2R b = r.

Lemma isB_Rv x r : isB x r -> Rv x = r.
Proof. intros [b [E [_ V]]]. subst x. unfold Rv. rewrite SF2R_B2SF. exact V. Qed.

Lemma isB_of_valid x : valid_binary 53 1024 x = true -> is_finite_SF x = true -> isB x (Rv x).
Proof.
  intros V F. exists (SF2B x V). split; [symmetry; apply B2SF_SF2B|]. split.
  - rewrite is_finite_SF2B. exact F.
  - rewrite B2R_SF2B. reflexivity.
Qed.

Lemma isB_of_fin x : fin x -> isB x (Rv x).
Proof. destruct x; simpl; try contradiction. intros H. apply isB_of_valid; [exact H|reflexivity]. Qed.

Lemma isB_valid x r : isB x r -> valid_binary 53 1024 x = true /\ is_finite_SF x = true.
Proof.
  intros [b [E [F _]]]. subst x. split; [apply valid_binary_B2SF|]. rewrite is_finite_SF_B2SF. exact F.
Qed.

(* no overflow when the exact result is at most 2^1023 in magnitude *)
Lemma Tmax_format : generic_format radix2 (fexp 53 1024) Tmax.
Proof. apply generic_format_bpow. vm_compute. discriminate. Qed.
Lemma rnd_no_overflow z : Rabs z <= Tmax -> Rabs (rnd z) < bpow radix2 1024.
Proof.
  intros H. apply Rle_lt_trans with Tmax.
  - apply abs_round_le_generic; [apply fexp_correct; reflexivity|apply valid_rnd_round_mode|apply Tmax_format|exact H].
  - apply bpow_lt. reflexivity.
Qed.

Lemma isB_add x y rx ry : isB x rx -> isB y ry -> Rabs (rx + ry) <= Tmax -> isB (nadd x y) (rnd (rx + ry)).
Proof.
  intros [bx [Ex [Fx Vx]]] [by_ [Ey [Fy Vy]]] H. subst x y rx ry.
  pose proof (Bplus_correct 53 1024 prec_gt_0_53 prec_lt_emax_53 mode_NE bx by_ Fx Fy) as C.
  rewrite Rlt_bool_true in C by (apply rnd_no_overflow; exact H).
  destruct C as [CR [CF _]].
  exists (Bplus mode_NE bx by_). split; [apply nadd_Bplus|]. split; [exact CF|exact CR].
Qed.
Lemma isB_sub x y rx ry : isB x rx -> isB y ry -> Rabs (rx - ry) <= Tmax -> isB (nsub x y) (rnd (rx - ry)).
Proof.
  intros [bx [Ex [Fx Vx]]] [by_ [Ey [Fy Vy]]] H. subst x y rx ry.
  pose proof (Bminus_correct 53 1024 prec_gt_0_53 prec_lt_emax_53 mode_NE bx by_ Fx Fy) as C.
  rewrite Rlt_bool_true in C by (apply rnd_no_overflow; exact H).
  destruct C as [CR [CF _]].
  exists (Bminus mode_NE bx by_). split; [apply nsub_Bminus|]. split; [exact CF|exact CR].
Qed.
Lemma isB_mul x y rx ry : isB x rx -> isB y ry -> Rabs (rx * ry) <= Tmax -> isB (nmul x y) (rnd (rx * ry)).
Proof.
  intros [bx [Ex [Fx Vx]]] [by_ [Ey [Fy Vy]]] H. subst x y rx ry.
  pose proof (Bmult_correct 53 1024 prec_gt_0_53 prec_lt_emax_53 mode_NE bx by_) as C.
  rewrite Rlt_bool_true in C by (apply rnd_no_overflow; exact H).
  destruct C as [CR [CF _]].
  exists (Bmult mode_NE bx by_). split; [apply nmul_Bmult|]. split; [rewrite CF, Fx, Fy; reflexivity|exact CR].
Qed.
Lemma isB_div x y rx ry : isB x rx -> isB y ry -> ry <> 0 -> Rabs (rx / ry) <= Tmax -> isB (ndiv x y) (rnd (rx / ry)).
Proof.
  intros [bx [Ex [Fx Vx]]] [by_ [Ey [Fy Vy]]] N H. subst x y rx ry.
  pose proof (Bdiv_correct 53 1024 prec_gt_0_53 prec_lt_emax_53 mode_NE bx by_ N) as C.
  rewrite Rlt_bool_true in C by (apply rnd_no_overflow; exact H).
  destruct C as [CR [CF _]].
  exists (Bdiv mode_NE bx by_). split; [apply ndiv_Bdiv|]. split; [rewrite CF; exact Fx|exact CR].
Qed.

(* ================================================================ 2. exponent windows *)
(* 2^a <= |x| <= 2^b *)
Definition win (a b : Z) (x : R) : Prop := bpow radix2 a <= Rabs x <= bpow radix2 b.

Lemma win_neq0 a b x : win a b x -> x <> 0.
Proof. intros [H _] E. subst x. rewrite Rabs_R0 in H. pose proof (bpow_gt_0 radix2 a). lra. Qed.

Lemma win_mul a b c d x y : win a b x -> win c d y -> win (a + c) (b + d) (x * y).
Proof.
  intros [H1 H2] [H3 H4]. unfold win. rewrite Rabs_mult, !bpow_plus.
  pose proof (bpow_gt_0 radix2 a). pose proof (bpow_gt_0 radix2 c).
  split; apply Rmult_le_compat; lra.
Qed.
Lemma win_inv c d y : win c d y -> win (- d) (- c) (/ y).
Proof.
  intros W. pose proof (win_neq0 _ _ _ W) as N. destruct W as [H3 H4].
  unfold win. rewrite Rabs_inv, !bpow_opp.
  pose proof (bpow_gt_0 radix2 c). pose proof (bpow_gt_0 radix2 d).
  split; apply Rinv_le_contravar; lra.
Qed.
Lemma win_div a b c d x y : win a b x -> win c d y -> win (a - d) (b - c) (x / y).
Proof. intros Wx Wy. apply win_inv in Wy. apply (win_mul _ _ _ _ _ _ Wx Wy). Qed.
Lemma win_weaken a b a' b' x : (a' <= a)%Z -> (b <= b')%Z -> win a b x -> win a' b' x.
Proof.
  intros Ha Hb [H1 H2]. split.
  - eapply Rle_trans; [apply bpow_le; exact Ha|exact H1].
  - eapply Rle_trans; [exact H2|apply bpow_le; exact Hb].
Qed.

Definition wokZ (a b : Z) : Prop := (-1022 <= a)%Z /\ (b <= 1023)%Z.

Lemma format_bpow e : (-1022 <= e)%Z -> (e <= 1023)%Z -> generic_format radix2 (fexp 53 1024) (bpow radix2 e).
Proof.
  intros H1 H2. apply generic_format_bpow. unfold fexp, emin. lia.
Qed.
Lemma win_rnd a b x : wokZ a b -> win a b x -> win a b (rnd x).
Proof.
  intros [Ha Hb] [H1 H2].
  assert (a <= b)%Z as Hab.
  { apply (le_bpow radix2). lra. }
  split.
  - apply abs_round_ge_generic; [apply fexp_correct; reflexivity|apply valid_rnd_round_mode|apply format_bpow; lia|exact H1].
  - apply abs_round_le_generic; [apply fexp_correct; reflexivity|apply valid_rnd_round_mode|apply format_bpow; lia|exact H2].
Qed.
Lemma win_in_range a b x : wokZ a b -> win a b x -> in_range x.
Proof. intros [Ha Hb] W. apply (win_weaken _ _ _ _ _ Ha Hb W). Qed.

(* floor(log2 |x|) of a finite non-zero number: 2^(lo x) <= |x| < 2^(lo x + 1) *)
Definition lo (x : num) : Z :=
  match x with S754_finite _ m e => (Z.pos (digits2_pos m) + e - 1)%Z | _ => 0%Z end.
Lemma lo_win x : fin x -> win (lo x) (lo x + 1) (Rv x).
Proof.
  intros F. destruct x as [| | |s m e]; try (exfalso; exact F). clear F.
  unfold lo, Rv, SF2R. set (z := cond_Zopp s (Z.pos m)).
  assert (Nz : z <> 0%Z) by (unfold z; destruct s; discriminate).
  assert (Nr : F2R (Float radix2 z e) <> 0) by (apply F2R_neq_0; exact Nz).
  assert (M : mag radix2 (F2R (Float radix2 z e)) = (Z.pos (digits2_pos m) + e)%Z :> Z).
  { rewrite mag_F2R_Zdigits by exact Nz. unfold z. rewrite Zdigits_cond_Zopp, Zpos_digits2_pos. reflexivity. }
  split.
  - replace (Z.pos (digits2_pos m) + e - 1)%Z with (mag radix2 (F2R (Float radix2 z e)) - 1)%Z by (rewrite M; ring).
    apply bpow_mag_le. exact Nr.
  - replace (Z.pos (digits2_pos m) + e - 1 + 1)%Z with (mag radix2 (F2R (Float radix2 z e)) : Z) by (rewrite M; ring).
    apply Rlt_le. apply bpow_mag_gt.
Qed.

(* ---------------------------------------------------------------- accumulated relative error *)
(* q = 1/(1-u): 1-u <= 1+e <= 1+u <= q for |e| <= u.  [near n f]: f is a product of n factors (1+e)^(+-1). *)
Definition qq : R := / (1 - u53).
Definition near (n : nat) (f : R) : Prop := / qq ^ n <= f <= qq ^ n.

Lemma qq_ge1 : 1 <= qq.
Proof.
  unfold qq. pose proof u53_lt1. rewrite <- Rinv_1 at 1. apply Rinv_le_contravar; lra.
Qed.
Lemma qq_pow_ge1 n : 1 <= qq ^ n.
Proof. apply pow_R1_Rle. apply qq_ge1. Qed.
Lemma near_pos n f : near n f -> 0 < f.
Proof.
  intros [H _]. pose proof (qq_pow_ge1 n). assert (0 < / qq ^ n) by (apply Rinv_0_lt_compat; lra). lra.
Qed.
Lemma near_0 : near 0 1.
Proof. unfold near. simpl. rewrite Rinv_1. lra. Qed.
Lemma near_1 e : Rabs e <= u53 -> near 1 (1 + e).
Proof.
  intros H. unfold near. simpl. rewrite Rmult_1_r. unfold qq. rewrite Rinv_inv.
  pose proof u53_lt1 as U. apply Rabs_le_inv in H. split; [lra|].
  apply Rle_trans with (1 + u53); [lra|].
  apply Rmult_le_reg_r with (1 - u53); [lra|]. rewrite Rinv_l by lra. nra.
Qed.
Lemma near_mul n m f g : near n f -> near m g -> near (n + m) (f * g).
Proof.
  intros Hf Hg. pose proof (near_pos _ _ Hf). pose proof (near_pos _ _ Hg).
  destruct Hf as [F1 F2], Hg as [G1 G2]. unfold near. rewrite pow_add.
  pose proof (qq_pow_ge1 n). pose proof (qq_pow_ge1 m).
  rewrite Rinv_mult. split; apply Rmult_le_compat; try lra.
  - apply Rlt_le, Rinv_0_lt_compat; lra.
  - apply Rlt_le, Rinv_0_lt_compat; lra.
Qed.
Lemma near_inv n f : near n f -> near n (/ f).
Proof.
  intros Hf. pose proof (near_pos _ _ Hf). destruct Hf as [F1 F2]. pose proof (qq_pow_ge1 n).
  split.
  - apply Rinv_le_contravar; lra.
  - rewrite <- (Rinv_inv (qq ^ n)). apply Rinv_le_contravar; [apply Rinv_0_lt_compat; lra|exact F1].
Qed.
Lemma near_bound n f : near n f -> Rabs (f - 1) <= qq ^ n - 1.
Proof.
  intros [F1 F2]. pose proof (qq_pow_ge1 n) as Q.
  assert (1 - (qq ^ n - 1) <= / qq ^ n).
  { apply Rmult_le_reg_r with (qq ^ n); [lra|]. rewrite Rinv_l by lra. nra. }
  apply Rabs_le. lra.
Qed.

(* ---------------------------------------------------------------- one rounded operation on a tracked value *)
(* [st r i n a b]: r is a valid finite non-zero binary64 with 2^a <= |r| <= 2^b whose value is the ideal
   (exact) value i times a product of n factors (1+e)^(+-1), |e| <= 2^-53 *)
Definition st (r : num) (i : R) (n : nat) (a b : Z) : Prop :=
  fin r /\ win a b (Rv r) /\ exists f, near n f /\ Rv r = i * f.

Lemma st_init v a b : fin v -> win a b (Rv v) -> st v (Rv v) 0 a b.
Proof. intros F W. split; [exact F|]. split; [exact W|]. exists 1. split; [apply near_0|ring]. Qed.

Lemma rnd_rel z : in_range z -> exists e, Rabs e <= u53 /\ rnd z = z * (1 + e) /\ rnd z <> 0.
Proof.
  intros H. destruct (round_in_range z H) as [e [He [Hr [_ Hn]]]]. exists e. auto.
Qed.

Lemma fin_of_isB x r : isB x r -> r <> 0 -> fin x.
Proof.
  intros H N. pose proof (isB_Rv _ _ H) as E. destruct (isB_valid _ _ H) as [V F].
  apply fin_of_valid; auto. rewrite E. exact N.
Qed.

(* generic step: the exact result z of an operation on tracked values, rounded *)
Lemma st_step x z i' n a' b' :
  (Rabs z <= Tmax -> isB x (rnd z)) -> wokZ a' b' -> win a' b' z -> (exists f, near n f /\ z = i' * f) ->
  st x i' (S n) a' b'.
Proof.
  intros HB OK W [f [Nf Ez]].
  specialize (HB (Rle_trans _ _ _ (proj2 W) (bpow_le radix2 _ _ (proj2 OK)))).
  destruct (rnd_rel z (win_in_range _ _ _ OK W)) as [e [He [Hr Hn]]].
  pose proof (isB_Rv _ _ HB) as E.
  split; [apply (fin_of_isB _ _ HB Hn)|]. rewrite E. split; [apply win_rnd; assumption|].
  exists (f * (1 + e)). split.
  - replace (S n) with (n + 1)%nat by lia. apply near_mul; [exact Nf|apply near_1; exact He].
  - rewrite Hr, Ez. ring.
Qed.

Lemma st_mulc r i n a b c k : st r i n a b -> fin c -> win k (k + 1) (Rv c) -> wokZ (a + k) (b + (k + 1)) ->
  st (nmul r c) (i * Rv c) (S n) (a + k) (b + (k + 1)).
Proof.
  intros [F [W [f [Nf E]]]] Fc Wc OK.
  pose proof (win_mul _ _ _ _ _ _ W Wc) as Wz.
  apply st_step with (z := Rv r * Rv c).
  - intros HT. apply isB_mul; try (apply isB_of_fin; assumption). exact HT.
  - exact OK.
  - exact Wz.
  - exists f. split; [exact Nf|]. rewrite E. ring.
Qed.
Lemma st_divc r i n a b c k : st r i n a b -> fin c -> win k (k + 1) (Rv c) -> wokZ (a - (k + 1)) (b - k) ->
  st (ndiv r c) (i / Rv c) (S n) (a - (k + 1)) (b - k).
Proof.
  intros [F [W [f [Nf E]]]] Fc Wc OK.
  pose proof (win_div _ _ _ _ _ _ W Wc) as Wz.
  pose proof (win_neq0 _ _ _ Wc) as Nc.
  apply st_step with (z := Rv r / Rv c).
  - intros HT. apply isB_div; try (apply isB_of_fin; assumption); [exact Nc|exact HT].
  - exact OK.
  - exact Wz.
  - exists f. split; [exact Nf|]. rewrite E. field. exact Nc.
Qed.
Lemma st_rdiv r i n a b c k : st r i n a b -> fin c -> win k (k + 1) (Rv c) -> wokZ (k - b) (k + 1 - a) ->
  st (ndiv c r) (Rv c / i) (S n) (k - b) (k + 1 - a).
Proof.
  intros [F [W [f [Nf E]]]] Fc Wc OK.
  pose proof (win_div _ _ _ _ _ _ Wc W) as Wz.
  pose proof (win_neq0 _ _ _ W) as Nr.
  pose proof (near_pos _ _ Nf) as Pf.
  assert (Ni : i <> 0) by (intros Z0; apply Nr; rewrite E, Z0; ring).
  apply st_step with (z := Rv c / Rv r).
  - intros HT. apply isB_div; try (apply isB_of_fin; assumption); [exact Nr|exact HT].
  - exact OK.
  - exact Wz.
  - exists (/ f). split; [apply near_inv; exact Nf|]. rewrite E. field. split; lra.
Qed.

(* ---------------------------------------------------------------- the conversion code on tracked values *)
(* coefficient of a linear / reciprocal unit as the binary64 the code holds *)
Definition cnum (u : unit) : num :=
  match coef_of u with Some c => num_of_bits (l_bits c) | None => nzero end.
Definition klo (u : unit) : Z := lo (cnum u).
Definition is_lr (u : unit) : bool := match u_conv u with Temperature _ _ => false | _ => true end.

(* exact (real-number) meaning of convert_to_base / convert_from_base for the linear and reciprocal kinds *)
Definition tbR (u : unit) (x : R) : R :=
  match u_conv u with Linear _ => x * Rv (cnum u) | Reciprocal _ => Rv (cnum u) / x | Temperature _ _ => x end.
Definition fbR (u : unit) (x : R) : R :=
  match u_conv u with Linear _ => x / Rv (cnum u) | Reciprocal _ => Rv (cnum u) / x | Temperature _ _ => x end.

(* exponent window after convert_to_base / convert_from_base, computed on integers from a summary of the
   unit: (kind, floor(log2 coefficient)), kind 0 = linear, 1 = reciprocal, 2 = temperature *)
Definition ksum := (Z * Z)%type.
Definition usum (u : unit) : ksum :=
  (match u_conv u with Linear _ => 0 | Reciprocal _ => 1 | Temperature _ _ => 2 end, klo u)%Z.
Definition stepS_to (s : ksum) (w : Z * Z) : Z * Z :=
  let (a, b) := w in let k := snd s in
  (if fst s =? 0 then (a + k, b + (k + 1)) else if fst s =? 1 then (k - b, k + 1 - a) else w)%Z.
Definition stepS_from (s : ksum) (w : Z * Z) : Z * Z :=
  let (a, b) := w in let k := snd s in
  (if fst s =? 0 then (a - (k + 1), b - k) else if fst s =? 1 then (k - b, k + 1 - a) else w)%Z.
Definition step_to (u : unit) (w : Z * Z) : Z * Z := stepS_to (usum u) w.
Definition step_from (u : unit) (w : Z * Z) : Z * Z := stepS_from (usum u) w.
Definition wok (w : Z * Z) : bool := ((-1022 <=? fst w) && (snd w <=? 1023))%Z.
Lemma wok_wokZ w : wok w = true -> wokZ (fst w) (snd w).
Proof. unfold wok, wokZ. intros H. apply andb_prop in H. destruct H as [H1 H2]. split; lia. Qed.

Lemma neqb_fin_zero v : fin v -> neqb v nzero = false.
Proof. destruct v as [| | |s m e]; simpl; try contradiction. intros _. destruct s; reflexivity. Qed.

Lemma st_to_base u r i n a b : is_lr u = true -> fin (cnum u) -> st r i n a b -> wok (step_to u (a, b)) = true ->
  st (convert_to_base fl u r) (tbR u i) (S n) (fst (step_to u (a, b))) (snd (step_to u (a, b))).
Proof.
  intros LR Fc S OK. pose proof (lo_win _ Fc) as Wc. fold (klo u) in Wc.
  apply wok_wokZ in OK. revert OK Wc LR Fc.
  unfold convert_to_base, tbR, step_to, stepS_to, usum, is_lr, cnum, klo, cnum, coef_of.
  destruct (u_conv u) as [c|c|t f]; cbn [fst snd a_mul a_div a_lit a_is_zero a_inf fl Z.eqb]; intros OK Wc LR Fc.
  - apply st_mulc; assumption.
  - rewrite (neqb_fin_zero r) by (destruct S; assumption). apply st_rdiv; assumption.
  - discriminate.
Qed.
Lemma st_from_base u r i n a b : is_lr u = true -> fin (cnum u) -> st r i n a b -> wok (step_from u (a, b)) = true ->
  st (convert_from_base fl u r) (fbR u i) (S n) (fst (step_from u (a, b))) (snd (step_from u (a, b))).
Proof.
  intros LR Fc S OK. pose proof (lo_win _ Fc) as Wc. fold (klo u) in Wc.
  apply wok_wokZ in OK. revert OK Wc LR Fc.
  unfold convert_from_base, fbR, step_from, stepS_from, usum, is_lr, cnum, klo, cnum, coef_of.
  destruct (u_conv u) as [c|c|t f]; cbn [fst snd a_mul a_div a_lit a_is_zero a_inf fl Z.eqb]; intros OK Wc LR Fc.
  - apply st_divc; assumption.
  - rewrite (neqb_fin_zero r) by (destruct S; assumption). apply st_rdiv; assumption.
  - discriminate.
Qed.

(* one conversion (through the base unit): decidable range condition and resulting window *)
Definition wokS (w : Z * Z) := wok w.
Definition tbS_win (sa sb : ksum) (w : Z * Z) : Z * Z := stepS_from sb (stepS_to sa w).
Definition tbS_ok (sa sb : ksum) (w : Z * Z) : bool := wok (stepS_to sa w) && wok (tbS_win sa sb w).
Definition tb_win (ua ub : unit) (w : Z * Z) : Z * Z := tbS_win (usum ua) (usum ub) w.
Definition tb_ok (ua ub : unit) (w : Z * Z) : bool := tbS_ok (usum ua) (usum ub) w.

Lemma st_through_base ua ub r i n w :
  is_lr ua = true -> is_lr ub = true -> fin (cnum ua) -> fin (cnum ub) ->
  st r i n (fst w) (snd w) -> tb_ok ua ub w = true ->
  st (through_base fl r ua ub) (fbR ub (tbR ua i)) (S (S n)) (fst (tb_win ua ub w)) (snd (tb_win ua ub w)).
Proof.
  intros La Lb Fa Fb S OK. unfold tb_ok, tbS_ok in OK. apply andb_prop in OK. destruct OK as [O1 O2].
  destruct w as [a b]. cbn [fst snd] in S. fold (step_to ua (a, b)) in O1.
  pose proof (st_to_base ua r i n a b La Fa S O1) as S1.
  unfold through_base, tb_win, tbS_win in *. fold (step_to ua (a, b)) in *. fold (step_from ub (step_to ua (a, b))) in *.
  destruct (step_to ua (a, b)) as [a1 b1] eqn:E1. cbn [fst snd] in S1.
  apply st_from_base; assumption.
Qed.

(* ================================================================ 3. there and back, linear and reciprocal kinds *)
Lemma tbR_neq0 u x : Rv (cnum u) <> 0 -> x <> 0 -> tbR u x <> 0.
Proof.
  intros Nc Nx. unfold tbR. destruct (u_conv u); [| |exact Nx].
  - intros H. apply Rmult_integral in H. tauto.
  - intros H. unfold Rdiv in H. apply Rmult_integral in H. destruct H as [H|H]; [tauto|].
    apply (Rinv_neq_0_compat _ Nx). exact H.
Qed.
Lemma fbR_neq0 u x : Rv (cnum u) <> 0 -> x <> 0 -> fbR u x <> 0.
Proof.
  intros Nc Nx. unfold fbR. destruct (u_conv u); [| |exact Nx].
  - intros H. unfold Rdiv in H. apply Rmult_integral in H. destruct H as [H|H]; [tauto|].
    apply (Rinv_neq_0_compat _ Nc). exact H.
  - intros H. unfold Rdiv in H. apply Rmult_integral in H. destruct H as [H|H]; [tauto|].
    apply (Rinv_neq_0_compat _ Nx). exact H.
Qed.
Lemma fb_tb_cancel u x : Rv (cnum u) <> 0 -> x <> 0 -> fbR u (tbR u x) = x.
Proof. intros Nc Nx. unfold fbR, tbR. destruct (u_conv u); [field; assumption|field; split; assumption|reflexivity]. Qed.
Lemma tb_fb_cancel u x : Rv (cnum u) <> 0 -> x <> 0 -> tbR u (fbR u x) = x.
Proof. intros Nc Nx. unfold fbR, tbR. destruct (u_conv u); [field; assumption|field; split; assumption|reflexivity]. Qed.

(* decidable: every intermediate of  v -> B -> A  (four rounded operations) stays in the normal range
   whenever 2^(fst w) <= |v| <= 2^(snd w) *)
Definition tabS_ok (sa sb : ksum) (w : Z * Z) : bool := tbS_ok sa sb w && tbS_ok sb sa (tbS_win sa sb w).
Definition tab_ok (ua ub : unit) (w : Z * Z) : bool := tabS_ok (usum ua) (usum ub) w.

Theorem there_and_back_float_lr : forall ua ub v w,
  is_lr ua = true -> is_lr ub = true -> fin (cnum ua) -> fin (cnum ub) ->
  fin v -> win (fst w) (snd w) (Rv v) -> tab_ok ua ub w = true ->
  let r2 := through_base fl v ua ub in
  let r4 := through_base fl r2 ub ua in
  fin r2 /\ fin r4 /\ Rabs (Rv r4 - Rv v) <= (qq ^ 4 - 1) * Rabs (Rv v).
Proof.
  intros ua ub v w La Lb Fa Fb Fv Wv OK r2 r4.
  apply andb_prop in OK. destruct OK as [O1 O2].
  pose proof (st_through_base ua ub v _ _ w La Lb Fa Fb (st_init v _ _ Fv Wv) O1) as S2. fold r2 in S2.
  pose proof (st_through_base ub ua r2 _ _ _ Lb La Fb Fa S2 O2) as S4. fold r4 in S4.
  pose proof (fin_nonzero _ Fa) as Na. pose proof (fin_nonzero _ Fb) as Nb. pose proof (fin_nonzero _ Fv) as Nv.
  rewrite (tb_fb_cancel ub) in S4 by (try apply tbR_neq0; assumption).
  rewrite (fb_tb_cancel ua) in S4 by assumption.
  destruct S2 as [F2 _]. destruct S4 as [F4 [_ [f [Nf E]]]].
  split; [exact F2|]. split; [exact F4|].
  rewrite E. replace (Rv v * f - Rv v) with ((f - 1) * Rv v) by ring.
  rewrite Rabs_mult. apply Rmult_le_compat_r; [apply Rabs_pos|]. apply near_bound. exact Nf.
Qed.

(* ================================================================ 4. composition A->B->C vs A->C (six roundings) *)
Definition compS_ok (sa sb sc : ksum) (w : Z * Z) : bool :=
  tbS_ok sa sb w && tbS_ok sb sc (tbS_win sa sb w) && tbS_ok sa sc w.
Definition comp_ok (ua ub uc : unit) (w : Z * Z) : bool := compS_ok (usum ua) (usum ub) (usum uc) w.

Theorem composition_float_lr : forall ua ub uc v w,
  is_lr ua = true -> is_lr ub = true -> is_lr uc = true ->
  fin (cnum ua) -> fin (cnum ub) -> fin (cnum uc) ->
  fin v -> win (fst w) (snd w) (Rv v) -> comp_ok ua ub uc w = true ->
  let r_ab := through_base fl v ua ub in
  let r_abc := through_base fl r_ab ub uc in
  let r_ac := through_base fl v ua uc in
  fin r_abc /\ fin r_ac /\ Rabs (Rv r_abc - Rv r_ac) <= (qq ^ 6 - 1) * Rabs (Rv r_ac).
Proof.
  intros ua ub uc v w La Lb Lc Fa Fb Fc Fv Wv OK r_ab r_abc r_ac.
  apply andb_prop in OK. destruct OK as [OK O3]. apply andb_prop in OK. destruct OK as [O1 O2].
  pose proof (st_init v _ _ Fv Wv) as S0.
  pose proof (st_through_base ua ub v _ _ w La Lb Fa Fb S0 O1) as S2. fold r_ab in S2.
  pose proof (st_through_base ub uc r_ab _ _ _ Lb Lc Fb Fc S2 O2) as S4. fold r_abc in S4.
  pose proof (st_through_base ua uc v _ _ w La Lc Fa Fc S0 O3) as S2'. fold r_ac in S2'.
  pose proof (fin_nonzero _ Fa) as Na. pose proof (fin_nonzero _ Fb) as Nb. pose proof (fin_nonzero _ Fv) as Nv.
  rewrite (tb_fb_cancel ub) in S4 by (try apply tbR_neq0; assumption).
  destruct S4 as [F4 [_ [f [Nf E]]]]. destruct S2' as [F2 [_ [g [Ng E']]]].
  split; [exact F4|]. split; [exact F2|].
  pose proof (near_pos _ _ Ng) as Pg.
  rewrite E. replace (fbR uc (tbR ua (Rv v)) * f - Rv r_ac) with ((f * / g - 1) * Rv r_ac) by (rewrite E'; field; lra).
  rewrite Rabs_mult. apply Rmult_le_compat_r; [apply Rabs_pos|]. apply near_bound.
  change 6%nat with (4 + 2)%nat. apply near_mul; [exact Nf|apply near_inv; exact Ng].
Qed.

(* ================================================================ 5. the regenerated table satisfies the range conditions *)
Definition same_cat (a b : unit) : bool := String.eqb (u_cat a) (u_cat b).
Definition Kv : Z := 40.
Definition Kw : Z := 800.
(* an ordered pair of linear/reciprocal units of one category: coefficients are valid finite non-zero
   binary64s and the four-operation chain stays in the normal range for 2^-K <= |v| <= 2^K *)
Definition pair_check (K : Z) (ua ub : unit) : bool :=
  if same_cat ua ub && is_lr ua && is_lr ub
  then finb (cnum ua) && finb (cnum ub) && tab_ok ua ub (- K, K)%Z else true.
(* ordered triples (ub, uc range over the linear/reciprocal units of ua's category) *)
Definition lr_mates (l : list unit) (ua : unit) : list unit := filter (fun x => same_cat ua x && is_lr x) l.
Definition triple_check_on (K : Z) (sa : ksum) (cs : list ksum) : bool :=
  forallb (fun sb => forallb (fun sc => compS_ok sa sb sc (- K, K)%Z) cs) cs.
Definition triple_check (K : Z) (l : list unit) (ua : unit) : bool :=
  if is_lr ua then triple_check_on K (usum ua) (map usum (lr_mates l ua)) else true.

(* What the two checks read of a unit: category, kind, whether the coefficient is a finite non-zero
   binary64, and (kind, exponent).  The sweeps below run over the summaries, so that each coefficient
   is decoded from its bits once. *)
Record usm := { sm_cat : string; sm_lr : bool; sm_fin : bool; sm_sum : ksum }.
Definition summary (u : unit) : usm :=
  {| sm_cat := u_cat u; sm_lr := is_lr u; sm_fin := finb (cnum u); sm_sum := usum u |}.
Definition sm_mate (a x : usm) : bool := String.eqb (sm_cat a) (sm_cat x) && sm_lr x.
Definition pair_checkS (K : Z) (a b : usm) : bool :=
  if String.eqb (sm_cat a) (sm_cat b) && sm_lr a && sm_lr b
  then sm_fin a && sm_fin b && tabS_ok (sm_sum a) (sm_sum b) (- K, K)%Z else true.
Definition pairsS (K : Z) (l : list usm) : bool := forallb (fun a => forallb (pair_checkS K a) l) l.

(* compS_ok sa sb sc = (a to b) && (b to c, after a to b) && (a to c).  The range conditions are monotone
   in the window, so for a middle unit b the part (b to c) is checked once per c, on the hull of the windows
   after (a to b) over all a of the category: quadratic in the size of a category instead of cubic. *)
Definition wsub (w w' : Z * Z) : Prop := (fst w' <= fst w /\ snd w <= snd w')%Z.
Definition hullw (w1 w2 : Z * Z) : Z * Z := (Z.min (fst w1) (fst w2), Z.max (snd w1) (snd w2)).
Definition hull_after (sb : ksum) (w : Z * Z) (cs : list ksum) : Z * Z :=
  fold_right (fun sa h => hullw (tbS_win sa sb w) h) (tbS_win sb sb w) cs.
Definition middle_checkS (K : Z) (l : list usm) (b : usm) : bool :=
  if sm_lr b then
    let w := (- K, K)%Z in let sb := sm_sum b in let cs := map sm_sum (filter (sm_mate b) l) in
    let h := hull_after sb w cs in
    forallb (fun sc => tbS_ok sb sc w && tbS_ok sb sc h) cs
  else true.
Definition triplesS (K : Z) (l : list usm) : bool := forallb (middle_checkS K l) l.

Lemma hull_after_sub sb w cs sa : In sa cs -> wsub (tbS_win sa sb w) (hull_after sb w cs).
Proof.
  unfold hull_after, wsub. induction cs as [|x cs IH]; [intros []|].
  intros [<-|H]; cbn [fold_right hullw fst snd]; [lia|]. specialize (IH H). lia.
Qed.
Lemma stepS_to_mono s w w' : wsub w w' -> wsub (stepS_to s w) (stepS_to s w').
Proof.
  destruct w, w'. unfold wsub, stepS_to. cbn [fst snd].
  destruct (fst s =? 0)%Z, (fst s =? 1)%Z; cbn [fst snd]; lia.
Qed.
Lemma stepS_from_mono s w w' : wsub w w' -> wsub (stepS_from s w) (stepS_from s w').
Proof.
  destruct w, w'. unfold wsub, stepS_from. cbn [fst snd].
  destruct (fst s =? 0)%Z, (fst s =? 1)%Z; cbn [fst snd]; lia.
Qed.
Lemma wok_mono w w' : wsub w w' -> wok w' = true -> wok w = true.
Proof. unfold wsub, wok. intros H O. apply andb_prop in O as [O1 O2]. apply andb_true_intro. split; lia. Qed.
Lemma tbS_ok_mono sa sb w w' : wsub w w' -> tbS_ok sa sb w' = true -> tbS_ok sa sb w = true.
Proof.
  intros H O. unfold tbS_ok, tbS_win in *. apply andb_prop in O as [O1 O2]. apply stepS_to_mono with (s := sa) in H.
  rewrite (wok_mono _ _ H O1). exact (wok_mono _ _ (stepS_from_mono sb _ _ H) O2).
Qed.

Lemma forallb_map_ext {A B} (f : A -> B) (p : B -> bool) (q : A -> bool) l :
  (forall x, p (f x) = q x) -> forallb p (map f l) = forallb q l.
Proof. intros E. induction l as [|x l IH]; [reflexivity|]. cbn [map forallb]. now rewrite E, IH. Qed.

Lemma pairs_of_summaries K l :
  pairsS K (map summary l) = forallb (fun ua => forallb (pair_check K ua) l) l.
Proof. apply forallb_map_ext. intros ua. now apply forallb_map_ext. Qed.

Lemma mates_of_summaries l ub :
  map sm_sum (filter (sm_mate (summary ub)) (map summary l)) = map usum (lr_mates l ub).
Proof.
  unfold lr_mates. induction l as [|x l IH]; [reflexivity|]. cbn [map filter].
  change (sm_mate (summary ub) (summary x)) with (same_cat ub x && is_lr x).
  destruct (same_cat ub x && is_lr x); cbn [map]; now rewrite IH.
Qed.

(* what the check says of a middle unit ub and two units x, y of its category *)
Lemma middle_ok K l ub x y : triplesS K (map summary l) = true ->
  In ub l -> is_lr ub = true -> In (usum x) (map usum (lr_mates l ub)) -> In (usum y) (map usum (lr_mates l ub)) ->
  tbS_ok (usum ub) (usum y) (- K, K)%Z = true /\
  tbS_ok (usum ub) (usum y) (tbS_win (usum x) (usum ub) (- K, K)%Z) = true.
Proof.
  intros H Ib Lb Mx My. unfold triplesS in H. rewrite forallb_forall in H.
  specialize (H _ (in_map summary _ _ Ib)). unfold middle_checkS in H. cbn [summary sm_lr sm_sum] in H.
  rewrite Lb, mates_of_summaries in H. cbv zeta in H. rewrite forallb_forall in H.
  specialize (H _ My). apply andb_prop in H as [H1 H2]. split; [exact H1|].
  exact (tbS_ok_mono _ _ _ _ (hull_after_sub _ _ _ _ Mx) H2).
Qed.

Lemma triples_of_summaries K l : triplesS K (map summary l) = true -> forallb (triple_check K l) l = true.
Proof.
  intros H. apply forallb_forall. intros ua Ia. unfold triple_check, triple_check_on.
  destruct (is_lr ua) eqn:La; [|reflexivity].
  apply forallb_forall. intros sb Hb. apply forallb_forall. intros sc Hc.
  destruct (proj1 (in_map_iff _ _ _) Hb) as (ub & <- & Mb). destruct (proj1 (in_map_iff _ _ _) Hc) as (uc & <- & Mc).
  apply filter_In in Mb as [Ib Mb], Mc as [Ic Mc].
  apply andb_prop in Mb as [Cb Lb], Mc as [Cc Lc]. apply String.eqb_eq in Cb, Cc.
  assert (In (usum ua) (map usum (lr_mates l ub)) /\ In (usum uc) (map usum (lr_mates l ub))) as [Ma Mc'].
  { split; apply in_map, filter_In; (split; [assumption|]); apply andb_true_intro; (split; [|assumption]);
      apply String.eqb_eq; congruence. }
  unfold compS_ok.
  rewrite (proj1 (middle_ok K l ua ub ub H Ia La Hb Hb)), (proj1 (middle_ok K l ua uc uc H Ia La Hc Hc)).
  now rewrite (proj2 (middle_ok K l ub ua uc H Ib Lb Ma Mc')).
Qed.

(* exhaustive over the regenerated table, for the window 2^-40 .. 2^40 (Kv) and for the much wider
   2^-800 .. 2^800 (Kw); one evaluation, so that the table is summarised once *)
Lemma table_sweeps : let S := map summary all_units in
  pairsS Kv S && triplesS Kv S && (pairsS Kw S && triplesS Kw S) = true.
Proof. vm_compute. reflexivity. Qed.
Lemma andb4 (a b c d : bool) : a && b && (c && d) = true -> (a = true /\ b = true) /\ c = true /\ d = true.
Proof. destruct a, b, c, d; intros H; try discriminate H; auto. Qed.
(* the four parts are named explicitly: left to unification, the sweeps would be evaluated again *)
Definition table_sweeps_split :=
  andb4 (pairsS Kv (map summary all_units)) (triplesS Kv (map summary all_units))
        (pairsS Kw (map summary all_units)) (triplesS Kw (map summary all_units)) table_sweeps.
Lemma table_lr_pairs_ok : forallb (fun ua => forallb (pair_check Kv ua) all_units) all_units = true.
Proof. rewrite <- pairs_of_summaries. exact (proj1 (proj1 table_sweeps_split)). Qed.
Lemma table_lr_triples_ok : forallb (triple_check Kv all_units) all_units = true.
Proof. apply triples_of_summaries. exact (proj2 (proj1 table_sweeps_split)). Qed.
Lemma table_lr_pairs_ok_wide : forallb (fun ua => forallb (pair_check Kw ua) all_units) all_units = true.
Proof. rewrite <- pairs_of_summaries. exact (proj1 (proj2 table_sweeps_split)). Qed.
Lemma table_lr_triples_ok_wide : forallb (triple_check Kw all_units) all_units = true.
Proof. apply triples_of_summaries. exact (proj2 (proj2 table_sweeps_split)). Qed.

Lemma same_cat_true a b : u_cat a = u_cat b -> same_cat a b = true.
Proof. intros H. unfold same_cat. rewrite H. apply String.eqb_refl. Qed.

(* ================================================================ 6. the units of the table; the same at the level of convert / the built-in *)
Lemma same_ids_true a b : same_ids a b = true -> u_ids a = u_ids b.
Proof. unfold same_ids. destruct (list_eq_dec string_dec (u_ids a) (u_ids b)); [auto|discriminate]. Qed.
Lemma same_ids_sym a b : same_ids a b = same_ids b a.
Proof.
  unfold same_ids. destruct (list_eq_dec string_dec (u_ids a) (u_ids b)), (list_eq_dec string_dec (u_ids b) (u_ids a)); congruence.
Qed.
Lemma same_ids_unit a b : In a all_units -> In b all_units -> same_ids a b = true -> a = b.
Proof. intros Ia Ib H. apply same_ids_same_unit; auto. apply same_ids_true. exact H. Qed.

(* convert(v, a, b) then convert(_, b, a): either the same unit, and then v itself comes back, or twice
   through the base unit *)
Lemma builtin_there_and_back a b ua ub v (B : R) :
  resolve_unit a = UOk ua -> resolve_unit b = UOk ub -> u_cat ua = u_cat ub -> 0 <= B ->
  Rabs (Rv (through_base fl (through_base fl v ua ub) ub ua) - Rv v) <= B ->
  exists r1 r2,
    builtin_convert (ANum v) (AStr a) (AStr b) = UOk r1 /\
    builtin_convert (ANum r1) (AStr b) (AStr a) = UOk r2 /\
    Rabs (Rv r2 - Rv v) <= B.
Proof.
  intros Ra Rb C HB H. eexists. eexists. rewrite !builtin_is_convert.
  rewrite (same_category_converts fl v a b ua ub Ra Rb C). split; [reflexivity|].
  rewrite (same_category_converts fl _ b a ub ua Rb Ra (eq_sym C)). split; [reflexivity|].
  rewrite (same_ids_sym ub ua). destruct (same_ids ua ub); [|exact H].
  replace (Rv v - Rv v) with 0 by ring. now rewrite Rabs_R0.
Qed.

(* convert a->b->c against a->c for a closeness relation that holds of equal results: when two of the
   units coincide it is trivial or there-and-back, otherwise the composition through the base unit *)
Lemma builtin_composition (close : num -> num -> Prop) a b c ua ub uc v :
  resolve_unit a = UOk ua -> resolve_unit b = UOk ub -> resolve_unit c = UOk uc ->
  u_cat ua = u_cat ub -> u_cat ub = u_cat uc ->
  (forall x, close x x) ->
  (uc = ua -> close (through_base fl (through_base fl v ua ub) ub ua) v) ->
  close (through_base fl (through_base fl v ua ub) ub uc) (through_base fl v ua uc) ->
  exists r1 r2 r3,
    builtin_convert (ANum v) (AStr a) (AStr b) = UOk r1 /\
    builtin_convert (ANum r1) (AStr b) (AStr c) = UOk r2 /\
    builtin_convert (ANum v) (AStr a) (AStr c) = UOk r3 /\
    close r2 r3.
Proof.
  intros Ra Rb Rc C1 C2 Z0 Hback Hcomp.
  pose proof (resolve_unit_In _ _ Ra) as Ia. pose proof (resolve_unit_In _ _ Rb) as Ib.
  pose proof (resolve_unit_In _ _ Rc) as Ic.
  assert (C3 : u_cat ua = u_cat uc) by congruence.
  eexists. eexists. eexists. rewrite !builtin_is_convert.
  rewrite (same_category_converts fl v a b ua ub Ra Rb C1). split; [reflexivity|].
  rewrite (same_category_converts fl _ b c ub uc Rb Rc C2). split; [reflexivity|].
  rewrite (same_category_converts fl v a c ua uc Ra Rc C3). split; [reflexivity|].
  destruct (same_ids ua ub) eqn:Eab.
  { apply (same_ids_unit _ _ Ia Ib) in Eab. subst ub. apply Z0. }
  destruct (same_ids ub uc) eqn:Ebc.
  { apply (same_ids_unit _ _ Ib Ic) in Ebc. subst uc. rewrite Eab. apply Z0. }
  destruct (same_ids ua uc) eqn:Eac; [|exact Hcomp].
  apply (same_ids_unit _ _ Ia Ic) in Eac. subst uc. now apply Hback.
Qed.

Section AnyWindow.
  (* any window exponent K for which the two exhaustive table checks hold *)
  Variable K : Z.
  Hypothesis HP : forallb (fun ua => forallb (pair_check K ua) all_units) all_units = true.
  Hypothesis HT : forallb (triple_check K all_units) all_units = true.

Lemma table_pairK ua ub : In ua all_units -> In ub all_units -> u_cat ua = u_cat ub ->
  is_lr ua = true -> is_lr ub = true ->
  fin (cnum ua) /\ fin (cnum ub) /\ tab_ok ua ub (- K, K)%Z = true.
Proof.
  intros Ia Ib C La Lb. pose proof HP as H.
  rewrite forallb_forall in H. specialize (H ua Ia). rewrite forallb_forall in H. specialize (H ub Ib). unfold pair_check in H.
  rewrite (same_cat_true _ _ C), La, Lb in H. cbn [andb] in H.
  apply andb_prop in H. destruct H as [H H3]. apply andb_prop in H. destruct H as [H1 H2].
  split; [apply finb_fin; exact H1|]. split; [apply finb_fin; exact H2|exact H3].
Qed.
Lemma triple_extract (l : list unit) ua ub uc : forallb (triple_check K l) l = true ->
  In ua l -> In ub l -> In uc l ->
  u_cat ua = u_cat ub -> u_cat ub = u_cat uc ->
  is_lr ua = true -> is_lr ub = true -> is_lr uc = true -> comp_ok ua ub uc (- K, K)%Z = true.
Proof.
  intros H Ia Ib Ic C1 C2 La Lb Lc.
  rewrite forallb_forall in H. specialize (H ua Ia). unfold triple_check, triple_check_on in H. rewrite La in H.
  assert (Mb : In (usum ub) (map usum (lr_mates l ua))).
  { apply in_map. unfold lr_mates. apply filter_In. split; [exact Ib|]. rewrite (same_cat_true _ _ C1), Lb. reflexivity. }
  assert (Mc : In (usum uc) (map usum (lr_mates l ua))).
  { apply in_map. unfold lr_mates. apply filter_In. split; [exact Ic|]. rewrite (same_cat_true ua uc) by congruence. rewrite Lc. reflexivity. }
  rewrite forallb_forall in H. specialize (H _ Mb). rewrite forallb_forall in H. exact (H _ Mc).
Qed.
Lemma table_tripleK ua ub uc : In ua all_units -> In ub all_units -> In uc all_units ->
  u_cat ua = u_cat ub -> u_cat ub = u_cat uc ->
  is_lr ua = true -> is_lr ub = true -> is_lr uc = true -> comp_ok ua ub uc (- K, K)%Z = true.
Proof. exact (triple_extract all_units ua ub uc HT). Qed.

(* no range hypothesis left: any two linear/reciprocal units of one category of the table, any valid v
   with 2^-K <= |v| <= 2^K *)
Theorem there_and_back_float_tableK : forall ua ub v,
  In ua all_units -> In ub all_units -> u_cat ua = u_cat ub -> is_lr ua = true -> is_lr ub = true ->
  fin v -> win (- K) K (Rv v) ->
  let r2 := through_base fl v ua ub in
  let r4 := through_base fl r2 ub ua in
  fin r2 /\ fin r4 /\ Rabs (Rv r4 - Rv v) <= (qq ^ 4 - 1) * Rabs (Rv v).
Proof.
  intros ua ub v Ia Ib C La Lb Fv Wv.
  destruct (table_pairK ua ub Ia Ib C La Lb) as [Fa [Fb OK]].
  exact (there_and_back_float_lr ua ub v (- K, K)%Z La Lb Fa Fb Fv Wv OK).
Qed.

Theorem composition_float_tableK : forall ua ub uc v,
  In ua all_units -> In ub all_units -> In uc all_units ->
  u_cat ua = u_cat ub -> u_cat ub = u_cat uc ->
  is_lr ua = true -> is_lr ub = true -> is_lr uc = true ->
  fin v -> win (- K) K (Rv v) ->
  let r_ab := through_base fl v ua ub in
  let r_abc := through_base fl r_ab ub uc in
  let r_ac := through_base fl v ua uc in
  fin r_abc /\ fin r_ac /\ Rabs (Rv r_abc - Rv r_ac) <= (qq ^ 6 - 1) * Rabs (Rv r_ac).
Proof.
  intros ua ub uc v Ia Ib Ic C1 C2 La Lb Lc Fv Wv.
  destruct (table_pairK ua ub Ia Ib C1 La Lb) as [Fa [Fb _]].
  destruct (table_pairK ub uc Ib Ic C2 Lb Lc) as [_ [Fc _]].
  exact (composition_float_lr ua ub uc v (- K, K)%Z La Lb Lc Fa Fb Fc Fv Wv
           (table_tripleK ua ub uc Ia Ib Ic C1 C2 La Lb Lc)).
Qed.

Lemma qq_pow_mono n m : (n <= m)%nat -> qq ^ n <= qq ^ m.
Proof. intros H. apply Rle_pow; [apply qq_ge1|exact H]. Qed.

(* what a user calls: convert(v, a, b) then convert(_, b, a), for ANY two identifiers that resolve to
   linear/reciprocal units of one category (the same unit included: then the result is v itself) *)
Theorem builtin_there_and_back_floatK : forall a b ua ub v,
  resolve_unit a = UOk ua -> resolve_unit b = UOk ub -> u_cat ua = u_cat ub ->
  is_lr ua = true -> is_lr ub = true -> fin v -> win (- K) K (Rv v) ->
  exists r1 r2,
    builtin_convert (ANum v) (AStr a) (AStr b) = UOk r1 /\
    builtin_convert (ANum r1) (AStr b) (AStr a) = UOk r2 /\
    Rabs (Rv r2 - Rv v) <= (qq ^ 4 - 1) * Rabs (Rv v).
Proof.
  intros a b ua ub v Ra Rb C La Lb Fv Wv.
  apply (builtin_there_and_back a b ua ub v _ Ra Rb C).
  - apply Rmult_le_pos; [pose proof (qq_pow_ge1 4); lra|apply Rabs_pos].
  - apply (there_and_back_float_tableK ua ub v (resolve_unit_In _ _ Ra) (resolve_unit_In _ _ Rb) C La Lb Fv Wv).
Qed.

Theorem builtin_composition_floatK : forall a b c ua ub uc v,
  resolve_unit a = UOk ua -> resolve_unit b = UOk ub -> resolve_unit c = UOk uc ->
  u_cat ua = u_cat ub -> u_cat ub = u_cat uc ->
  is_lr ua = true -> is_lr ub = true -> is_lr uc = true -> fin v -> win (- K) K (Rv v) ->
  exists r1 r2 r3,
    builtin_convert (ANum v) (AStr a) (AStr b) = UOk r1 /\
    builtin_convert (ANum r1) (AStr b) (AStr c) = UOk r2 /\
    builtin_convert (ANum v) (AStr a) (AStr c) = UOk r3 /\
    Rabs (Rv r2 - Rv r3) <= (qq ^ 6 - 1) * Rabs (Rv r3).
Proof.
  intros a b c ua ub uc v Ra Rb Rc C1 C2 La Lb Lc Fv Wv.
  pose proof (resolve_unit_In _ _ Ra) as Ia. pose proof (resolve_unit_In _ _ Rb) as Ib.
  pose proof (resolve_unit_In _ _ Rc) as Ic.
  apply (builtin_composition (fun x y => Rabs (Rv x - Rv y) <= (qq ^ 6 - 1) * Rabs (Rv y)) a b c ua ub uc v Ra Rb Rc C1 C2).
  - intros x. replace (Rv x - Rv x) with 0 by ring. rewrite Rabs_R0.
    apply Rmult_le_pos; [pose proof (qq_pow_ge1 6); lra|apply Rabs_pos].
  - intros _. destruct (there_and_back_float_tableK ua ub v Ia Ib C1 La Lb Fv Wv) as [_ [_ H]].
    eapply Rle_trans; [exact H|]. apply Rmult_le_compat_r; [apply Rabs_pos|].
    pose proof (qq_pow_mono 4 6 ltac:(lia)). lra.
  - apply (composition_float_tableK ua ub uc v Ia Ib Ic C1 C2 La Lb Lc Fv Wv).
Qed.

End AnyWindow.

(* the window 2^-40 <= |v| <= 2^40 *)
Definition table_pair := table_pairK Kv table_lr_pairs_ok.
Definition table_triple := table_tripleK Kv table_lr_triples_ok.
Definition there_and_back_float_table := there_and_back_float_tableK Kv table_lr_pairs_ok.
Definition composition_float_table := composition_float_tableK Kv table_lr_pairs_ok table_lr_triples_ok.
Definition builtin_there_and_back_float := builtin_there_and_back_floatK Kv table_lr_pairs_ok.
Definition builtin_composition_float := builtin_composition_floatK Kv table_lr_pairs_ok table_lr_triples_ok.
(* and 2^-800 <= |v| <= 2^800 *)
Definition table_pair_wide := table_pairK Kw table_lr_pairs_ok_wide.
Definition table_triple_wide := table_tripleK Kw table_lr_triples_ok_wide.
Definition there_and_back_float_table_wide := there_and_back_float_tableK Kw table_lr_pairs_ok_wide.
Definition composition_float_table_wide := composition_float_tableK Kw table_lr_pairs_ok_wide table_lr_triples_ok_wide.
Definition builtin_composition_float_wide := builtin_composition_floatK Kw table_lr_pairs_ok_wide table_lr_triples_ok_wide.

(* a decidable form of all the hypotheses, for instantiation *)
Definition vwin_b (v : num) : bool := (finb v && (- Kv <=? lo v) && (lo v + 1 <=? Kv))%Z.
Lemma vwin_b_ok v : vwin_b v = true -> fin v /\ win (- Kv) Kv (Rv v).
Proof.
  unfold vwin_b. intros H. apply andb_prop in H. destruct H as [H H3]. apply andb_prop in H. destruct H as [H1 H2].
  apply finb_fin in H1. split; [exact H1|].
  apply Z.leb_le in H2. apply Z.leb_le in H3.
  apply (win_weaken (lo v) (lo v + 1)); [exact H2|exact H3|apply lo_win; exact H1].
Qed.
Definition lr_hyps_b (a b : string) : bool :=
  match resolve_unit a, resolve_unit b with
  | UOk ua, UOk ub => same_cat ua ub && is_lr ua && is_lr ub
  | _, _ => false
  end.
Lemma lr_hyps_b_ok a b : lr_hyps_b a b = true ->
  exists ua ub, resolve_unit a = UOk ua /\ resolve_unit b = UOk ub /\ u_cat ua = u_cat ub /\
                is_lr ua = true /\ is_lr ub = true.
Proof.
  unfold lr_hyps_b. destruct (resolve_unit a) as [ua|]; [|discriminate]. destruct (resolve_unit b) as [ub|]; [|discriminate].
  intros H. apply andb_prop in H. destruct H as [H H3]. apply andb_prop in H. destruct H as [H1 H2].
  exists ua, ub. repeat split; auto. apply String.eqb_eq. exact H1.
Qed.

(* ================================================================ 7. the temperature (affine) kind: absolute error *)
(* rounding error of one operation, no range hypothesis except "no overflow": relative 2^-53 plus, in the
   subnormal range, at most half the smallest subnormal *)
Definition eta : R := / 2 * bpow radix2 (-1074).
Lemma rnd_err z : Rabs (rnd z - z) <= u53 * Rabs z + eta.
Proof.
  destruct (error_N_FLT radix2 (-1074) 53 ltac:(reflexivity) (fun x => negb (Z.even x)) z) as [eps [et [He [Ht [_ E]]]]].
  unfold rnd. rewrite fexp_eq. change (round_mode mode_NE) with ZnearestE. unfold ZnearestE in *. rewrite E.
  replace (z * (1 + eps) + et - z) with (z * eps + et) by ring.
  eapply Rle_trans; [apply Rabs_triang|]. rewrite Rabs_mult.
  apply Rplus_le_compat; [|exact Ht]. rewrite Rmult_comm. apply Rmult_le_compat_r; [apply Rabs_pos|exact He].
Qed.
(* one rounded step on an approximation: xh approximates the ideal x within d, |x| <= M *)
Definition stp (d M : R) : R := d + u53 * (M + d) + eta.
Lemma rnd_step xh x d M : Rabs (xh - x) <= d -> Rabs x <= M -> Rabs (rnd xh - x) <= stp d M.
Proof.
  intros H1 H2. unfold stp.
  replace (rnd xh - x) with ((rnd xh - xh) + (xh - x)) by ring.
  eapply Rle_trans; [apply Rabs_triang|]. pose proof (rnd_err xh) as E.
  assert (Rabs xh <= M + d).
  { replace xh with (x + (xh - x)) by ring. eapply Rle_trans; [apply Rabs_triang|]. lra. }
  pose proof u53_lt1. assert (u53 * Rabs xh <= u53 * (M + d)) by (apply Rmult_le_compat_l; lra). lra.
Qed.

Lemma u53_val : u53 = / 9007199254740992.
Proof. unfold u53. simpl bpow. lra. Qed.

(* the constants of the temperature functions as the binary64s the code holds *)
Definition n273 : num := num_of_bits (l_bits lit_273_15).
Definition n32 : num := num_of_bits (l_bits lit_32).
Definition n5 : num := num_of_bits (l_bits lit_5).
Definition n9 : num := num_of_bits (l_bits lit_9).
Definition c273 : R := 4805305618032230 / 17592186044416.   (* 273.15000000000003..., the double nearest 273.15 *)
Lemma n273_val : Rv n273 = c273.
Proof. unfold Rv, n273, c273. vm_compute num_of_bits. unfold SF2R, F2R. simpl. lra. Qed.
Lemma n32_val : Rv n32 = 32.
Proof. unfold Rv, n32. vm_compute num_of_bits. unfold SF2R, F2R. simpl. lra. Qed.
Lemma n5_val : Rv n5 = 5.
Proof. unfold Rv, n5. vm_compute num_of_bits. unfold SF2R, F2R. simpl. lra. Qed.
Lemma n9_val : Rv n9 = 9.
Proof. unfold Rv, n9. vm_compute num_of_bits. unfold SF2R, F2R. simpl. lra. Qed.
Lemma isB_n273 : isB n273 c273. Proof. rewrite <- n273_val. apply isB_of_valid; reflexivity. Qed.
Lemma isB_n32 : isB n32 32. Proof. rewrite <- n32_val. apply isB_of_valid; reflexivity. Qed.
Lemma isB_n5 : isB n5 5. Proof. rewrite <- n5_val. apply isB_of_valid; reflexivity. Qed.
Lemma isB_n9 : isB n9 9. Proof. rewrite <- n9_val. apply isB_of_valid; reflexivity. Qed.

(* [apx X i d]: X is a finite binary64 whose value is within d of the ideal real i *)
Definition apx (X : num) (i d : R) : Prop := exists r, isB X r /\ Rabs (r - i) <= d.

Lemma apx_mag X i d M : apx X i d -> Rabs i <= M -> exists r, isB X r /\ Rabs (r - i) <= d /\ Rabs r <= M + d.
Proof.
  intros [r [B H]] Hi. exists r. split; [exact B|]. split; [exact H|].
  replace r with (i + (r - i)) by ring. eapply Rle_trans; [apply Rabs_triang|]. lra.
Qed.

(* the rounded exact result z of an operation, z within d' of an ideal i' of magnitude <= M *)
Lemma ap_round X' z i' d' M : (Rabs z <= Tmax -> isB X' (rnd z)) ->
  Rabs (z - i') <= d' -> Rabs i' <= M -> M + d' <= Tmax -> apx X' i' (stp d' M).
Proof.
  intros HB E Hi HT. exists (rnd z). split; [|apply rnd_step; assumption].
  apply HB. replace z with (i' + (z - i')) by ring. eapply Rle_trans; [apply Rabs_triang|]. lra.
Qed.

Lemma ap_add X i d C cr M : apx X i d -> isB C cr -> Rabs (i + cr) <= M -> M + d <= Tmax ->
  apx (nadd X C) (i + cr) (stp d M).
Proof.
  intros [r [B H]] BC Hi HT. apply (ap_round _ (r + cr)); try assumption; [intros; now apply isB_add|].
  replace (r + cr - (i + cr)) with (r - i) by ring. exact H.
Qed.
Lemma ap_sub X i d C cr M : apx X i d -> isB C cr -> Rabs (i - cr) <= M -> M + d <= Tmax ->
  apx (nsub X C) (i - cr) (stp d M).
Proof.
  intros [r [B H]] BC Hi HT. apply (ap_round _ (r - cr)); try assumption; [intros; now apply isB_sub|].
  replace (r - cr - (i - cr)) with (r - i) by ring. exact H.
Qed.
Lemma ap_mul X i d C cr M : apx X i d -> isB C cr -> 0 < cr -> Rabs (i * cr) <= M -> M + d * cr <= Tmax ->
  apx (nmul X C) (i * cr) (stp (d * cr) M).
Proof.
  intros [r [B H]] BC Pc Hi HT. apply (ap_round _ (r * cr)); try assumption; [intros; now apply isB_mul|].
  replace (r * cr - i * cr) with ((r - i) * cr) by ring. rewrite Rabs_mult, (Rabs_pos_eq cr) by lra.
  apply Rmult_le_compat_r; lra.
Qed.
Lemma ap_div X i d C cr M : apx X i d -> isB C cr -> 0 < cr -> Rabs (i / cr) <= M -> M + d / cr <= Tmax ->
  apx (ndiv X C) (i / cr) (stp (d / cr) M).
Proof.
  intros [r [B H]] BC Pc Hi HT.
  apply (ap_round _ (r / cr)); try assumption; [intros; apply isB_div; try assumption; lra|].
  replace (r / cr - i / cr) with ((r - i) * / cr) by (field; lra).
  assert (0 < / cr) by (apply Rinv_0_lt_compat; lra).
  rewrite Rabs_mult, (Rabs_pos_eq (/ cr)) by lra. apply Rmult_le_compat_r; lra.
Qed.

Lemma eta_small : 0 <= eta <= / 1267650600228229401496703205376.
Proof.
  unfold eta. pose proof (bpow_gt_0 radix2 (-1074)).
  assert (bpow radix2 (-1074) <= bpow radix2 (-100)) by (apply bpow_le; discriminate).
  simpl (bpow radix2 (-100)) in *. lra.
Qed.

(* the ideal (real-number) temperature functions, with the offset the code holds *)
Definition TFid (f : tempfn) (x : R) : R :=
  match f with
  | TF_celsius_to_kelvin => x + c273
  | TF_kelvin_to_celsius => x - c273
  | TF_fahrenheit_to_kelvin => (x - 32) * 5 / 9 + c273
  | TF_kelvin_to_fahrenheit => (x - c273) * 9 / 5 + 32
  | TF_kelvin_to_kelvin => x
  end.
(* |x| <= M -> |TFid f x| <= TFM f M *)
Definition TFM (f : tempfn) (M : R) : R :=
  match f with
  | TF_celsius_to_kelvin | TF_kelvin_to_celsius => M + c273
  | TF_fahrenheit_to_kelvin => (M + 32) * 5 / 9 + c273
  | TF_kelvin_to_fahrenheit => (M + c273) * 9 / 5 + 32
  | TF_kelvin_to_kelvin => M
  end.
(* error after the function: input within d of an ideal of magnitude <= M, ideal output of magnitude <= Mo *)
Definition TFd (f : tempfn) (d M Mo : R) : R :=
  match f with
  | TF_celsius_to_kelvin | TF_kelvin_to_celsius => stp d Mo
  | TF_fahrenheit_to_kelvin =>
      stp (stp (stp (stp d (M + 32) * 5) ((M + 32) * 5) / 9) ((M + 32) * 5 / 9)) Mo
  | TF_kelvin_to_fahrenheit =>
      stp (stp (stp (stp d (M + c273) * 9) ((M + c273) * 9) / 5) ((M + c273) * 9 / 5)) Mo
  | TF_kelvin_to_kelvin => d
  end.

Ltac absle :=
  repeat match goal with H : Rabs _ <= _ |- _ => apply Rabs_le_inv in H end;
  apply Rabs_le; unfold c273 in *; split; lra.

Lemma TFM_ok f x M : Rabs x <= M -> Rabs (TFid f x) <= TFM f M.
Proof. intros H. destruct f; unfold TFid, TFM; absle. Qed.

Lemma c273_bounds : 273 <= c273 <= 274.
Proof. unfold c273. lra. Qed.

(* one side condition for "no intermediate overflows": every intermediate of a temperature function is at
   most 9 * (M + d + 274) + 274 in magnitude (plus roundings), which 64 * (M + d) + 16384 covers generously *)
Lemma tf_spec f X x d M Mo : apx X x d -> Rabs x <= M -> Rabs (TFid f x) <= Mo -> 0 <= d ->
  Mo + 64 * (M + d) + 16384 <= Tmax ->
  apx (tempfn_apply fl f X) (TFid f x) (TFd f d M Mo).
Proof.
  intros HX Hx Ho Hd HT.
  pose proof eta_small as He. pose proof c273_bounds as Hc.
  assert (HM : 0 <= M) by (pose proof (Rabs_pos x); lra).
  assert (HMo : 0 <= Mo) by (pose proof (Rabs_pos (TFid f x)); lra).
  destruct f; unfold TFid, TFd in *; cbn [tempfn_apply a_add a_sub a_mul a_div a_lit fl];
    fold n273 n32 n5 n9.
  - apply ap_add; auto using isB_n273. lra.
  - apply ap_sub; auto using isB_n273. lra.
  - assert (H1 : Rabs (x - 32) <= M + 32) by absle.
    assert (H2 : Rabs ((x - 32) * 5) <= (M + 32) * 5) by absle.
    assert (H3 : Rabs ((x - 32) * 5 / 9) <= (M + 32) * 5 / 9) by absle.
    assert (A1 : apx (nsub X n32) (x - 32) (stp d (M + 32))).
    { apply ap_sub; auto using isB_n32. lra. }
    assert (A2 : apx (nmul (nsub X n32) n5) ((x - 32) * 5) (stp (stp d (M + 32) * 5) ((M + 32) * 5))).
    { apply ap_mul; auto using isB_n5; [lra|]. unfold stp. rewrite u53_val. lra. }
    assert (A3 : apx (ndiv (nmul (nsub X n32) n5) n9) ((x - 32) * 5 / 9)
                     (stp (stp (stp d (M + 32) * 5) ((M + 32) * 5) / 9) ((M + 32) * 5 / 9))).
    { apply ap_div; auto using isB_n9; [lra|]. unfold stp. rewrite u53_val. lra. }
    apply ap_add; auto using isB_n273. unfold stp. rewrite u53_val. lra.
  - assert (H1 : Rabs (x - c273) <= M + c273) by absle.
    assert (H2 : Rabs ((x - c273) * 9) <= (M + c273) * 9) by absle.
    assert (H3 : Rabs ((x - c273) * 9 / 5) <= (M + c273) * 9 / 5) by absle.
    assert (A1 : apx (nsub X n273) (x - c273) (stp d (M + c273))).
    { apply ap_sub; auto using isB_n273. lra. }
    assert (A2 : apx (nmul (nsub X n273) n9) ((x - c273) * 9) (stp (stp d (M + c273) * 9) ((M + c273) * 9))).
    { apply ap_mul; auto using isB_n9; [lra|]. unfold stp. rewrite u53_val. lra. }
    assert (A3 : apx (ndiv (nmul (nsub X n273) n9) n5) ((x - c273) * 9 / 5)
                     (stp (stp (stp d (M + c273) * 9) ((M + c273) * 9) / 5) ((M + c273) * 9 / 5))).
    { apply ap_div; auto using isB_n5; [lra|]. unfold stp. rewrite u53_val. lra. }
    apply ap_add; auto using isB_n32. unfold stp. rewrite u53_val. lra.
  - exact HX.
Qed.

Lemma TF_inv1 t f x : inverse_pair t f = true -> TFid f (TFid t x) = x.
Proof. destruct t, f; try discriminate; intros _; unfold TFid; field. Qed.
Lemma TF_inv2 t f x : inverse_pair t f = true -> TFid t (TFid f x) = x.
Proof. destruct t, f; try discriminate; intros _; unfold TFid; field. Qed.

(* the proved absolute bound, by the to_kelvin functions of the two units:
   |there-and-back - v| <= 2^-53 * (1 + 1/1024) * (A * |v| + B).  The integers A, B (here and in
   tcomp_AZ / tcomp_BZ) were found by evaluating the error recurrence and rounding up; what establishes
   them is [temp_ok_all] below; they are not tight. *)
Definition temp_AZ (ta tb : tempfn) : Z :=
  match ta, tb with
  | TF_kelvin_to_kelvin, TF_kelvin_to_kelvin => 0
  | TF_kelvin_to_kelvin, TF_celsius_to_kelvin | TF_celsius_to_kelvin, TF_kelvin_to_kelvin => 2
  | TF_kelvin_to_kelvin, TF_fahrenheit_to_kelvin | TF_fahrenheit_to_kelvin, TF_kelvin_to_kelvin => 8
  | TF_celsius_to_kelvin, TF_celsius_to_kelvin => 4
  | TF_celsius_to_kelvin, TF_fahrenheit_to_kelvin | TF_fahrenheit_to_kelvin, TF_celsius_to_kelvin => 10
  | TF_fahrenheit_to_kelvin, TF_fahrenheit_to_kelvin => 16
  | _, _ => 0
  end%Z.
Definition temp_A (ta tb : tempfn) : R := IZR (temp_AZ ta tb).
Definition temp_BZ (ta tb : tempfn) : Z :=
  match ta, tb with
  | TF_kelvin_to_kelvin, TF_kelvin_to_kelvin => 0
  | TF_kelvin_to_kelvin, TF_celsius_to_kelvin | TF_celsius_to_kelvin, TF_kelvin_to_kelvin => 274
  | TF_kelvin_to_kelvin, TF_fahrenheit_to_kelvin => 2037
  | TF_fahrenheit_to_kelvin, TF_kelvin_to_kelvin => 3666
  | TF_celsius_to_kelvin, TF_celsius_to_kelvin => 1093
  | TF_celsius_to_kelvin, TF_fahrenheit_to_kelvin => 4495
  | TF_fahrenheit_to_kelvin, TF_celsius_to_kelvin => 5205
  | TF_fahrenheit_to_kelvin, TF_fahrenheit_to_kelvin => 11521
  | _, _ => 0
  end%Z.
Definition temp_B (ta tb : tempfn) : R := IZR (temp_BZ ta tb).
Definition temp_bound (ta tb : tempfn) (a : R) : R := u53 * (1 + / 1024) * (temp_A ta tb * a + temp_B ta tb).

Lemma apx_weaken X i d d' : apx X i d -> d <= d' -> apx X i d'.
Proof. intros [r [B H]] L. exists r. split; [exact B|lra]. Qed.

(* Every bound of the temperature chains is affine in a = |v| and in eta:  ca * a + ce * eta + c0,  each
   coefficient a polynomial in u = 2^-53 with small rational coefficients (u is kept symbolic so that the
   numbers stay small).  The chains are evaluated on these forms exactly and compared coefficient by
   coefficient at u = 2^-53. *)
Definition poly := list Q.
Definition pev (p : poly) : R := fold_right (fun q r => Q2R q + u53 * r) 0 p.
Fixpoint padd (p q : poly) : poly :=
  match p, q with
  | [], _ => q
  | _, [] => p
  | x :: p', y :: q' => Qred (x + y) :: padd p' q'
  end.
Definition pscale (k : Q) (p : poly) : poly := map (fun x => Qred (k * x)) p.
Definition pshift (p : poly) : poly := 0%Q :: p.

Lemma Q2R_red q : Q2R (Qred q) = Q2R q.
Proof. apply Qeq_eqR, Qred_correct. Qed.
Lemma pev_add p q : pev (padd p q) = pev p + pev q.
Proof.
  revert q. induction p as [|x p IH]; intros [|y q]; cbn [padd pev fold_right]; try ring.
  fold (pev (padd p q)) (pev p) (pev q). rewrite IH, Q2R_red, Q2R_plus. ring.
Qed.
Lemma pev_scale k p : pev (pscale k p) = Q2R k * pev p.
Proof.
  induction p as [|x p IH]; cbn [pscale map pev fold_right]; [ring|].
  fold (pscale k p) (pev (pscale k p)) (pev p). rewrite IH, Q2R_red, Q2R_mult. ring.
Qed.
Lemma pev_shift p : pev (pshift p) = u53 * pev p.
Proof. unfold pshift. cbn [pev fold_right]. fold (pev p). rewrite RMicromega.Q2R_0. ring. Qed.
Lemma pev_const q : pev [q] = Q2R q.
Proof. cbn [pev fold_right]. ring. Qed.

Definition uQ : Q := 1 # 9007199254740992.
Lemma uQ_val : Q2R uQ = u53. Proof. rewrite u53_val. unfold Q2R, uQ. cbn [Qnum Qden]. lra. Qed.
(* the value at u = 2^-53, in Q *)
Definition pval (p : poly) : Q := fold_right (fun q r => q + uQ * r)%Q 0%Q p.
Lemma pval_ok p : Q2R (pval p) = pev p.
Proof.
  induction p as [|x p IH]; cbn [pval pev fold_right]; [apply RMicromega.Q2R_0|].
  fold (pval p) (pev p). rewrite Q2R_plus, Q2R_mult, IH, uQ_val. reflexivity.
Qed.
Record aff := Aff { ca : poly; ce : poly; c0 : poly }.
Definition ev (a : R) (f : aff) : R := pev (ca f) * a + pev (ce f) * eta + pev (c0 f).
Definition aadd (f g : aff) : aff := Aff (padd (ca f) (ca g)) (padd (ce f) (ce g)) (padd (c0 f) (c0 g)).
Definition ascale (q : Q) (f : aff) : aff := Aff (pscale q (ca f)) (pscale q (ce f)) (pscale q (c0 f)).
Definition ashift (f : aff) : aff := Aff (pshift (ca f)) (pshift (ce f)) (pshift (c0 f)).
Definition aconst (q : Q) : aff := Aff [] [] [q].
Definition avar : aff := Aff [1%Q] [] [].
Definition aeta : aff := Aff [] [1%Q] [].

Lemma ev_add a f g : ev a (aadd f g) = ev a f + ev a g.
Proof. unfold ev, aadd. cbn [ca ce c0]. rewrite !pev_add. ring. Qed.
Lemma ev_scale a q f : ev a (ascale q f) = Q2R q * ev a f.
Proof. unfold ev, ascale. cbn [ca ce c0]. rewrite !pev_scale. ring. Qed.
Lemma ev_shift a f : ev a (ashift f) = u53 * ev a f.
Proof. unfold ev, ashift. cbn [ca ce c0]. rewrite !pev_shift. ring. Qed.
Lemma ev_const a q : ev a (aconst q) = Q2R q.
Proof. unfold ev, aconst. cbn [ca ce c0 pev fold_right]. ring. Qed.
Lemma ev_var a : ev a avar = a.
Proof. unfold ev, avar. cbn [ca ce c0 pev fold_right]. rewrite RMicromega.Q2R_1. ring. Qed.
Lemma ev_eta a : ev a aeta = eta.
Proof. unfold ev, aeta. cbn [ca ce c0 pev fold_right]. rewrite RMicromega.Q2R_1. ring. Qed.
Lemma ev_zero a : ev a (aconst 0) = 0.
Proof. rewrite ev_const. apply RMicromega.Q2R_0. Qed.

Definition c273Q : Q := 4805305618032230 # 17592186044416.
Lemma c273Q_val : Q2R c273Q = c273. Proof. unfold Q2R, c273Q, c273. cbn [Qnum Qden]. lra. Qed.
Lemma Q2R_Z z : Q2R (inject_Z z) = IZR z. Proof. unfold Q2R, inject_Z. cbn [Qnum Qden]. lra. Qed.
Lemma Q2R_frac n d : Q2R (Z.pos n # d) = IZR (Z.pos n) / IZR (Z.pos d).
Proof. reflexivity. Qed.

Definition stpA (d M : aff) : aff := aadd d (aadd (ashift (aadd M d)) aeta).
Lemma ev_stp a d M : ev a (stpA d M) = stp (ev a d) (ev a M).
Proof. unfold stpA, stp. rewrite !ev_add, ev_shift, ev_add, ev_eta. ring. Qed.

Definition TFM_A (f : tempfn) (M : aff) : aff :=
  match f with
  | TF_celsius_to_kelvin | TF_kelvin_to_celsius => aadd M (aconst c273Q)
  | TF_fahrenheit_to_kelvin => aadd (ascale (5 # 9) (aadd M (aconst 32))) (aconst c273Q)
  | TF_kelvin_to_fahrenheit => aadd (ascale (9 # 5) (aadd M (aconst c273Q))) (aconst 32)
  | TF_kelvin_to_kelvin => M
  end.
Definition TFd_A (f : tempfn) (d M Mo : aff) : aff :=
  match f with
  | TF_celsius_to_kelvin | TF_kelvin_to_celsius => stpA d Mo
  | TF_fahrenheit_to_kelvin =>
      let M32 := aadd M (aconst 32) in
      stpA (stpA (ascale (1 # 9) (stpA (ascale 5 (stpA d M32)) (ascale 5 M32))) (ascale (5 # 9) M32)) Mo
  | TF_kelvin_to_fahrenheit =>
      let Mc := aadd M (aconst c273Q) in
      stpA (stpA (ascale (1 # 5) (stpA (ascale 9 (stpA d Mc)) (ascale 9 Mc))) (ascale (9 # 5) Mc)) Mo
  | TF_kelvin_to_kelvin => d
  end.

Lemma ev_TFM a f M : ev a (TFM_A f M) = TFM f (ev a M).
Proof.
  destruct f; unfold TFM_A, TFM; rewrite ?ev_add, ?ev_scale, ?ev_add, ?ev_const, ?c273Q_val, ?Q2R_frac;
    try reflexivity; field.
Qed.
Lemma ev_TFd a f d M Mo : ev a (TFd_A f d M Mo) = TFd f (ev a d) (ev a M) (ev a Mo).
Proof.
  destruct f; unfold TFd_A, TFd; cbv zeta;
    rewrite ?ev_stp, ?ev_scale, ?ev_stp, ?ev_scale, ?ev_stp, ?ev_scale, ?ev_add, ?ev_const, ?c273Q_val, ?Q2R_frac; try reflexivity.
  all: unfold stp; field.
Qed.

(* sufficient tests: a polynomial with non-negative coefficients is non-negative at u and at most the sum
   of its coefficients (0 <= u <= 1); the comparison with the stated bound keeps the two leading
   coefficients and bounds the others by their sum (exact evaluation at u = 2^-53 would multiply up
   numbers of thousands of bits) *)
Definition pnonneg (p : poly) : bool := forallb (Qle_bool 0) p.
Definition psum (p : poly) : Q := fold_right (fun x s => Qred (x + s)) 0%Q p.
Lemma pnonneg_sum p : pnonneg p = true -> 0 <= pev p <= Q2R (psum p).
Proof.
  pose proof u53_lt1 as U. assert (0 < u53) by (rewrite u53_val; lra).
  induction p as [|x p IH]; cbn [pnonneg forallb pev psum fold_right]; [rewrite RMicromega.Q2R_0; lra|].
  intros H0. apply andb_prop in H0 as [Hx Hp]. fold (pev p) (psum p). specialize (IH Hp).
  apply Qle_bool_imp_le, Qle_Rle in Hx. rewrite RMicromega.Q2R_0 in Hx. rewrite Q2R_red, Q2R_plus. nra.
Qed.

Definition pup (p : poly) : Q :=
  match p with x0 :: x1 :: r => x0 + uQ * (x1 + uQ * psum r) | _ => psum p end.
Lemma pup_ok p : pnonneg p = true -> pev p <= Q2R (pup p).
Proof.
  destruct p as [|x0 [|x1 r]]; try (intros H; apply pnonneg_sum; exact H).
  cbn [pnonneg forallb pup pev fold_right]. fold (pev r). intros H.
  apply andb_prop in H as [_ H]. apply andb_prop in H as [_ H]. apply pnonneg_sum in H.
  rewrite Q2R_plus, Q2R_mult, Q2R_plus, Q2R_mult, uQ_val. pose proof u53_lt1. nra.
Qed.

Definition e0Q : Q := 1 # 1267650600228229401496703205376.
Lemma e0Q_val : Q2R e0Q = / 1267650600228229401496703205376.
Proof. unfold Q2R, e0Q. cbn [Qnum Qden]. lra. Qed.
Definition nonnegA (f : aff) : bool := pnonneg (ca f) && pnonneg (ce f) && pnonneg (c0 f).
(* f <= g for every a >= 0 and every 0 <= eta <= 2^-100: the eta part of f is moved into its constant *)
Definition leA (f g : aff) : bool :=
  nonnegA f && pnonneg (ce g) && Qle_bool (pup (ca f)) (pval (ca g)) &&
  Qle_bool (pup (c0 f) + e0Q * psum (ce f)) (pval (c0 g)).
(* Mo + 64 * (M + d) + 16384 <= Tmax = 2^23 * V  whenever  a <= V  and  2^100 <= V: the coefficients of a
   sum to at most 2^22 and the constants to at most 2^100; V = 2^1000 below, whence the range |v| <= 2^1000 *)
Definition fitsA (Mo M d : aff) : bool :=
  let f := aadd Mo (aadd (ascale 64 (aadd M d)) (aconst 16384)) in
  nonnegA f && Qle_bool (psum (ca f)) 4194304 &&
  Qle_bool (psum (c0 f) + e0Q * psum (ce f)) 1267650600228229401496703205376.
Definition boundA (A B : Z) : aff :=
  ashift (ascale (1025 # 1024) (aadd (ascale (inject_Z A) avar) (aconst (inject_Z B)))).

Lemma leA_ok a f g : 0 <= a -> leA f g = true -> ev a f <= ev a g.
Proof.
  intros Ha H. apply andb_prop in H as [H H4]. apply andb_prop in H as [H H3]. apply andb_prop in H as [H1 H2].
  apply andb_prop in H1 as [H1 Hc]. apply andb_prop in H1 as [Ha' He'].
  apply pup_ok in Ha', Hc. apply pnonneg_sum in He', H2. apply Qle_bool_imp_le, Qle_Rle in H3, H4.
  rewrite pval_ok in H3. rewrite Q2R_plus, Q2R_mult, pval_ok, e0Q_val in H4.
  destruct eta_small as [He He2]. unfold ev.
  assert (pev (ce f) * eta <= Q2R (psum (ce f)) * / 1267650600228229401496703205376) by (apply Rmult_le_compat; lra).
  assert (0 <= pev (ce g) * eta) by (apply Rmult_le_pos; tauto).
  assert (pev (ca f) * a <= pev (ca g) * a) by (apply Rmult_le_compat_r; lra). lra.
Qed.
Lemma nonnegA_ok a f : 0 <= a -> nonnegA f = true -> 0 <= ev a f.
Proof.
  intros Ha H. apply andb_prop in H as [H H3]. apply andb_prop in H as [H1 H2].
  apply pnonneg_sum in H1, H2, H3. destruct eta_small as [He _]. unfold ev.
  assert (0 <= pev (ca f) * a) by (apply Rmult_le_pos; tauto).
  assert (0 <= pev (ce f) * eta) by (apply Rmult_le_pos; tauto). lra.
Qed.
Lemma fitsA_ok a V Mo M d : 0 <= a <= V -> 1267650600228229401496703205376 <= V -> fitsA Mo M d = true ->
  ev a Mo + 64 * (ev a M + ev a d) + 16384 <= V * 8388608.
Proof.
  intros Ha HV H. unfold fitsA in H. cbv zeta in H.
  set (f := aadd Mo (aadd (ascale 64 (aadd M d)) (aconst 16384))) in H.
  replace (ev a Mo + 64 * (ev a M + ev a d) + 16384) with (ev a f).
  2:{ unfold f. rewrite !ev_add, ev_scale, ev_add, ev_const. unfold Q2R. cbn [Qnum Qden]. lra. }
  apply andb_prop in H as [H H3]. apply andb_prop in H as [H H2]. apply andb_prop in H as [H H1c].
  apply andb_prop in H as [H1a H1e]. apply pnonneg_sum in H1a, H1e, H1c.
  apply Qle_bool_imp_le, Qle_Rle in H2, H3. rewrite Q2R_plus, Q2R_mult, e0Q_val in H3.
  unfold Q2R at 2 in H2. unfold Q2R at 3 in H3. cbn [Qnum Qden] in H2, H3.
  destruct eta_small as [He He']. unfold ev.
  assert (pev (ca f) * a <= 4194304 * V) by (apply Rmult_le_compat; lra).
  assert (pev (ce f) * eta <= Q2R (psum (ce f)) * / 1267650600228229401496703205376) by (apply Rmult_le_compat; lra).
  lra.
Qed.
Lemma ev_bound a A B : ev a (boundA A B) = u53 * (1 + / 1024) * (IZR A * a + IZR B).
Proof.
  unfold boundA. rewrite ev_shift, ev_scale, ev_add, ev_scale, ev_var, ev_const, !Q2R_Z.
  unfold Q2R. cbn [Qnum Qden]. field.
Qed.

(* [tcomp_bound ta tb tc a] = 2^-53 * (1 + 1/1024) * (A * a + B), (A, B) by the to_kelvin functions of A, B, C *)
Definition tcomp_AZ (ta tb tc : tempfn) : Z :=
  match ta, tb, tc with
  | TF_kelvin_to_kelvin, TF_kelvin_to_kelvin, TF_kelvin_to_kelvin => 0
  | TF_kelvin_to_kelvin, TF_kelvin_to_kelvin, TF_celsius_to_kelvin => 2
  | TF_kelvin_to_kelvin, TF_kelvin_to_kelvin, TF_fahrenheit_to_kelvin => 15
  | TF_kelvin_to_kelvin, TF_celsius_to_kelvin, TF_kelvin_to_kelvin => 2
  | TF_kelvin_to_kelvin, TF_celsius_to_kelvin, TF_celsius_to_kelvin => 4
  | TF_kelvin_to_kelvin, TF_celsius_to_kelvin, TF_fahrenheit_to_kelvin => 18
  | TF_kelvin_to_kelvin, TF_fahrenheit_to_kelvin, TF_kelvin_to_kelvin => 8
  | TF_kelvin_to_kelvin, TF_fahrenheit_to_kelvin, TF_celsius_to_kelvin => 10
  | TF_kelvin_to_kelvin, TF_fahrenheit_to_kelvin, TF_fahrenheit_to_kelvin => 29
  | TF_celsius_to_kelvin, TF_kelvin_to_kelvin, TF_kelvin_to_kelvin => 2
  | TF_celsius_to_kelvin, TF_kelvin_to_kelvin, TF_celsius_to_kelvin => 4
  | TF_celsius_to_kelvin, TF_kelvin_to_kelvin, TF_fahrenheit_to_kelvin => 18
  | TF_celsius_to_kelvin, TF_celsius_to_kelvin, TF_kelvin_to_kelvin => 4
  | TF_celsius_to_kelvin, TF_celsius_to_kelvin, TF_celsius_to_kelvin => 6
  | TF_celsius_to_kelvin, TF_celsius_to_kelvin, TF_fahrenheit_to_kelvin => 22
  | TF_celsius_to_kelvin, TF_fahrenheit_to_kelvin, TF_kelvin_to_kelvin => 10
  | TF_celsius_to_kelvin, TF_fahrenheit_to_kelvin, TF_celsius_to_kelvin => 12
  | TF_celsius_to_kelvin, TF_fahrenheit_to_kelvin, TF_fahrenheit_to_kelvin => 33
  | TF_fahrenheit_to_kelvin, TF_kelvin_to_kelvin, TF_kelvin_to_kelvin => 5
  | TF_fahrenheit_to_kelvin, TF_kelvin_to_kelvin, TF_celsius_to_kelvin => 6
  | TF_fahrenheit_to_kelvin, TF_kelvin_to_kelvin, TF_fahrenheit_to_kelvin => 16
  | TF_fahrenheit_to_kelvin, TF_celsius_to_kelvin, TF_kelvin_to_kelvin => 6
  | TF_fahrenheit_to_kelvin, TF_celsius_to_kelvin, TF_celsius_to_kelvin => 7
  | TF_fahrenheit_to_kelvin, TF_celsius_to_kelvin, TF_fahrenheit_to_kelvin => 18
  | TF_fahrenheit_to_kelvin, TF_fahrenheit_to_kelvin, TF_kelvin_to_kelvin => 9
  | TF_fahrenheit_to_kelvin, TF_fahrenheit_to_kelvin, TF_celsius_to_kelvin => 10
  | TF_fahrenheit_to_kelvin, TF_fahrenheit_to_kelvin, TF_fahrenheit_to_kelvin => 24
  | _, _, _ => 0
  end%Z.
Definition tcomp_A (ta tb tc : tempfn) : R := IZR (tcomp_AZ ta tb tc).
Definition tcomp_BZ (ta tb tc : tempfn) : Z :=
  match ta, tb, tc with
  | TF_kelvin_to_kelvin, TF_kelvin_to_kelvin, TF_kelvin_to_kelvin => 1
  | TF_kelvin_to_kelvin, TF_kelvin_to_kelvin, TF_celsius_to_kelvin => 547
  | TF_kelvin_to_kelvin, TF_kelvin_to_kelvin, TF_fahrenheit_to_kelvin => 3998
  | TF_kelvin_to_kelvin, TF_celsius_to_kelvin, TF_kelvin_to_kelvin => 274
  | TF_kelvin_to_kelvin, TF_celsius_to_kelvin, TF_celsius_to_kelvin => 820
  | TF_kelvin_to_kelvin, TF_celsius_to_kelvin, TF_fahrenheit_to_kelvin => 4490
  | TF_kelvin_to_kelvin, TF_fahrenheit_to_kelvin, TF_kelvin_to_kelvin => 2037
  | TF_kelvin_to_kelvin, TF_fahrenheit_to_kelvin, TF_celsius_to_kelvin => 2584
  | TF_kelvin_to_kelvin, TF_fahrenheit_to_kelvin, TF_fahrenheit_to_kelvin => 7664
  | TF_celsius_to_kelvin, TF_kelvin_to_kelvin, TF_kelvin_to_kelvin => 547
  | TF_celsius_to_kelvin, TF_kelvin_to_kelvin, TF_celsius_to_kelvin => 1640
  | TF_celsius_to_kelvin, TF_kelvin_to_kelvin, TF_fahrenheit_to_kelvin => 8915
  | TF_celsius_to_kelvin, TF_celsius_to_kelvin, TF_kelvin_to_kelvin => 1367
  | TF_celsius_to_kelvin, TF_celsius_to_kelvin, TF_celsius_to_kelvin => 2459
  | TF_celsius_to_kelvin, TF_celsius_to_kelvin, TF_fahrenheit_to_kelvin => 10390
  | TF_celsius_to_kelvin, TF_fahrenheit_to_kelvin, TF_kelvin_to_kelvin => 4769
  | TF_celsius_to_kelvin, TF_fahrenheit_to_kelvin, TF_celsius_to_kelvin => 5861
  | TF_celsius_to_kelvin, TF_fahrenheit_to_kelvin, TF_fahrenheit_to_kelvin => 16514
  | TF_fahrenheit_to_kelvin, TF_kelvin_to_kelvin, TF_kelvin_to_kelvin => 689
  | TF_fahrenheit_to_kelvin, TF_kelvin_to_kelvin, TF_celsius_to_kelvin => 1817
  | TF_fahrenheit_to_kelvin, TF_kelvin_to_kelvin, TF_fahrenheit_to_kelvin => 9427
  | TF_fahrenheit_to_kelvin, TF_celsius_to_kelvin, TF_kelvin_to_kelvin => 1544
  | TF_fahrenheit_to_kelvin, TF_celsius_to_kelvin, TF_celsius_to_kelvin => 2672
  | TF_fahrenheit_to_kelvin, TF_celsius_to_kelvin, TF_fahrenheit_to_kelvin => 10966
  | TF_fahrenheit_to_kelvin, TF_fahrenheit_to_kelvin, TF_kelvin_to_kelvin => 5053
  | TF_fahrenheit_to_kelvin, TF_fahrenheit_to_kelvin, TF_celsius_to_kelvin => 6181
  | TF_fahrenheit_to_kelvin, TF_fahrenheit_to_kelvin, TF_fahrenheit_to_kelvin => 17282
  | _, _, _ => 0
  end%Z.
Definition tcomp_B (ta tb tc : tempfn) : R := IZR (tcomp_BZ ta tb tc).
Definition tcomp_bound (ta tb tc : tempfn) (a : R) : R := u53 * (1 + / 1024) * (tcomp_A ta tb tc * a + tcomp_B ta tb tc).

Definition inv_pairs : list (tempfn * tempfn) :=
  [(TF_kelvin_to_kelvin, TF_kelvin_to_kelvin); (TF_celsius_to_kelvin, TF_kelvin_to_celsius);
   (TF_fahrenheit_to_kelvin, TF_kelvin_to_fahrenheit)].
Lemma inv_pairs_all t f : inverse_pair t f = true -> In (t, f) inv_pairs.
Proof. destruct t, f; try discriminate; intros _; cbn; tauto. Qed.

(* The chains A->B->A and A->B->C / A->C share their first three steps (to kelvin, to B, back to kelvin):
   those are evaluated once per (A, B); then the last step of there-and-back, and for each C the last step
   of the two sides of the composition. *)
Definition temp_ok (ta fa tb fb : tempfn) : bool :=
  let M1 := TFM_A ta avar in let M2 := TFM_A fb M1 in
  let d1 := TFd_A ta (aconst 0) avar M1 in let d2 := TFd_A fb d1 M1 M2 in let d3 := TFd_A tb d2 M2 M1 in
  nonnegA d1 && nonnegA d2 && nonnegA d3 &&
  fitsA M1 avar (aconst 0) && fitsA M2 M1 d1 && fitsA M1 M2 d2 &&
  fitsA avar M1 d3 && leA (TFd_A fa d3 M1 avar) (boundA (temp_AZ ta tb) (temp_BZ ta tb)) &&
  forallb (fun p => let M3 := TFM_A (snd p) M1 in
             fitsA M3 M1 d3 && fitsA M3 M1 d1 &&
             leA (aadd (TFd_A (snd p) d3 M1 M3) (TFd_A (snd p) d1 M1 M3))
                 (boundA (tcomp_AZ ta tb (fst p)) (tcomp_BZ ta tb (fst p)))) inv_pairs.

Lemma temp_ok_all ta fa tb fb : inverse_pair ta fa = true -> inverse_pair tb fb = true -> temp_ok ta fa tb fb = true.
Proof. destruct ta, fa; try discriminate; destruct tb, fb; try discriminate; intros _ _; vm_compute; reflexivity. Qed.

#[local] Hint Rewrite ev_TFd ev_TFM ev_var ev_zero ev_bound : aff.

Lemma temp_bounds ta fa tb fb a V :
  inverse_pair ta fa = true -> inverse_pair tb fb = true ->
  0 <= a <= V -> 1267650600228229401496703205376 <= V ->
  let M1 := TFM ta a in let M2 := TFM fb M1 in
  let d1 := TFd ta 0 a M1 in let d2 := TFd fb d1 M1 M2 in let d3 := TFd tb d2 M2 M1 in
  (0 <= d1 /\ 0 <= d2 /\ 0 <= d3 /\
   M1 + 64 * (a + 0) + 16384 <= V * 8388608 /\ M2 + 64 * (M1 + d1) + 16384 <= V * 8388608 /\
   M1 + 64 * (M2 + d2) + 16384 <= V * 8388608) /\
  (a + 64 * (M1 + d3) + 16384 <= V * 8388608 /\ TFd fa d3 M1 a <= temp_bound ta tb a) /\
  (forall tc fc, inverse_pair tc fc = true -> let M3 := TFM fc M1 in
     M3 + 64 * (M1 + d3) + 16384 <= V * 8388608 /\ M3 + 64 * (M1 + d1) + 16384 <= V * 8388608 /\
     TFd fc d3 M1 M3 + TFd fc d1 M1 M3 <= tcomp_bound ta tb tc a).
Proof.
  intros Ia Ib Ha HV. assert (Ha0 : 0 <= a) by tauto.
  pose proof (temp_ok_all ta fa tb fb Ia Ib) as C. unfold temp_ok in C. cbv zeta in C.
  apply andb_prop in C as [C F9]. apply andb_prop in C as [C F8]. apply andb_prop in C as [C F7].
  apply andb_prop in C as [C F6]. apply andb_prop in C as [C F5]. apply andb_prop in C as [C F4].
  apply andb_prop in C as [C F3]. apply andb_prop in C as [F1 F2].
  apply (nonnegA_ok a _ Ha0) in F1, F2, F3. apply (fitsA_ok a V _ _ _ Ha HV) in F4, F5, F6, F7.
  apply (leA_ok a _ _ Ha0) in F8. autorewrite with aff in F1, F2, F3, F4, F5, F6, F7, F8.
  cbv zeta. split; [tauto|]. split; [unfold temp_bound, temp_A, temp_B; tauto|].
  intros tc fc Ic. rewrite forallb_forall in F9. specialize (F9 _ (inv_pairs_all tc fc Ic)). cbn [fst snd] in F9.
  apply andb_prop in F9 as [F9 G3]. apply andb_prop in F9 as [G1 G2].
  apply (fitsA_ok a V _ _ _ Ha HV) in G1, G2. apply (leA_ok a _ _ Ha0) in G3. rewrite ev_add in G3.
  autorewrite with aff in G1, G2, G3. unfold tcomp_bound, tcomp_A, tcomp_B. tauto.
Qed.

Lemma Tmax_split : Tmax = bpow radix2 1000 * 8388608.
Proof. unfold Tmax. change 1023%Z with (1000 + 23)%Z. rewrite bpow_plus. f_equal; simpl; try reflexivity; lra. Qed.
Lemma bpow_1000_big : 1267650600228229401496703205376 <= bpow radix2 1000.
Proof.
  assert (bpow radix2 100 <= bpow radix2 1000) by (apply bpow_le; discriminate).
  simpl (bpow radix2 100) in *. lra.
Qed.

(* the shared three steps: after ta the value is within d1, after ta, fb, tb within d3, of TFid ta v *)
Lemma temp_prefix ta fa tb fb X v :
  isB X v -> inverse_pair ta fa = true -> inverse_pair tb fb = true -> Rabs v <= bpow radix2 1000 ->
  let a := Rabs v in let M1 := TFM ta a in let M2 := TFM fb M1 in
  let d1 := TFd ta 0 a M1 in let d3 := TFd tb (TFd fb d1 M1 M2) M2 M1 in
  Rabs (TFid ta v) <= M1 /\ 0 <= d1 /\ 0 <= d3 /\
  apx (tempfn_apply fl ta X) (TFid ta v) d1 /\
  apx (tempfn_apply fl tb (tempfn_apply fl fb (tempfn_apply fl ta X))) (TFid ta v) d3.
Proof.
  intros HX Ia Ib Hv a M1 M2 d1 d3.
  assert (Ha : 0 <= a) by apply Rabs_pos.
  destruct (temp_bounds ta fa tb fb a _ Ia Ib (conj Ha Hv) bpow_1000_big) as [[N1 [N2 [N3 [S1 [S2 S3]]]]] _].
  rewrite <- Tmax_split in S1, S2, S3.
  assert (P1 : Rabs (TFid ta v) <= M1) by (apply TFM_ok; apply Rle_refl).
  assert (P2 : Rabs (TFid fb (TFid ta v)) <= M2) by (apply TFM_ok; exact P1).
  assert (P3 : Rabs (TFid tb (TFid fb (TFid ta v))) <= M1) by (rewrite (TF_inv2 tb fb) by exact Ib; exact P1).
  assert (A0 : apx X v 0).
  { exists v. split; [exact HX|]. replace (v - v) with 0 by ring. rewrite Rabs_R0. lra. }
  pose proof (tf_spec ta X v 0 a M1 A0 (Rle_refl a) P1 (Rle_refl 0) S1) as T1.
  pose proof (tf_spec fb _ _ _ M1 M2 T1 P1 P2 N1 S2) as T2.
  pose proof (tf_spec tb _ _ _ M2 M1 T2 P2 P3 N2 S3) as T3.
  rewrite (TF_inv2 tb fb) in T3 by exact Ib. auto.
Qed.

Lemma temp_chain ta fa tb fb X v :
  isB X v -> inverse_pair ta fa = true -> inverse_pair tb fb = true -> Rabs v <= bpow radix2 1000 ->
  apx (tempfn_apply fl fa (tempfn_apply fl tb (tempfn_apply fl fb (tempfn_apply fl ta X)))) v
      (temp_bound ta tb (Rabs v)).
Proof.
  intros HX Ia Ib Hv.
  destruct (temp_prefix ta fa tb fb X v HX Ia Ib Hv) as (P1 & _ & N3 & _ & T3).
  set (a := Rabs v) in *. assert (Ha : 0 <= a) by apply Rabs_pos.
  destruct (temp_bounds ta fa tb fb a _ Ia Ib (conj Ha Hv) bpow_1000_big) as [_ [[S4 NB] _]].
  rewrite <- Tmax_split in S4.
  assert (P4 : Rabs (TFid fa (TFid ta v)) <= a) by (rewrite (TF_inv1 ta fa) by exact Ia; apply Rle_refl).
  pose proof (tf_spec fa _ _ _ _ a T3 P1 P4 N3 S4) as T4.
  rewrite (TF_inv1 ta fa) in T4 by exact Ia.
  exact (apx_weaken _ _ _ _ T4 NB).
Qed.

(* valid and finite (zero allowed) *)
Definition finz (x : num) : Prop := valid_binary 53 1024 x = true /\ is_finite_SF x = true.
Lemma fin_finz x : fin x -> finz x.
Proof. destruct x; simpl; try contradiction. intros H. split; [exact H|reflexivity]. Qed.

Lemma temp_bound_nonneg ta tb a : 0 <= a -> 0 <= temp_bound ta tb a.
Proof.
  intros Ha. unfold temp_bound. pose proof u53_lt1.
  assert (0 <= temp_A ta tb) by (destruct ta, tb; unfold temp_A, temp_AZ; lra).
  assert (0 <= temp_B ta tb) by (destruct ta, tb; unfold temp_B, temp_BZ; lra).
  apply Rmult_le_pos; [apply Rmult_le_pos; lra|]. apply Rplus_le_le_0_compat; [apply Rmult_le_pos|]; assumption.
Qed.

(* binary64, two temperature units A and B: v -> B -> A returns v up to an ABSOLUTE error proportional to
   2^-53 * max-ish(|v|, offsets): relative error is meaningless near the offsets (v = -273.15 C is 0 K) *)
Theorem there_and_back_float_temperature : forall ua ub ta fa tb fb v,
  u_conv ua = Temperature ta fa -> u_conv ub = Temperature tb fb ->
  inverse_pair ta fa = true -> inverse_pair tb fb = true ->
  finz v -> Rabs (Rv v) <= bpow radix2 1000 ->
  let r2 := through_base fl v ua ub in
  let r4 := through_base fl r2 ub ua in
  finz r4 /\ Rabs (Rv r4 - Rv v) <= temp_bound ta tb (Rabs (Rv v)).
Proof.
  intros ua ub ta fa tb fb v Ca Cb Ia Ib [Vv Fv] Hv r2 r4.
  pose proof (temp_chain ta fa tb fb v (Rv v) (isB_of_valid v Vv Fv) Ia Ib Hv) as [r [B H]].
  assert (E : r4 = tempfn_apply fl fa (tempfn_apply fl tb (tempfn_apply fl fb (tempfn_apply fl ta v)))).
  { unfold r4, r2, through_base, convert_from_base, convert_to_base. rewrite Ca, Cb. reflexivity. }
  rewrite E. split; [exact (isB_valid _ _ B)|]. rewrite (isB_Rv _ _ B). exact H.
Qed.

Lemma table_inverse_pair u t f : In u all_units -> u_conv u = Temperature t f -> inverse_pair t f = true.
Proof. intros I C. pose proof (table_wellformed u I) as W. unfold unit_wf in W. rewrite C in W. exact W. Qed.

(* no category of the table mixes the temperature kind with the other two (exhaustive; vm_cast_no_check
   as in UnitsLaws.v: evaluated once, at Qed) *)
Lemma table_kinds_uniform_ok :
  forallb (fun ua => forallb (fun ub => if same_cat ua ub then Bool.eqb (is_lr ua) (is_lr ub) else true) all_units) all_units = true.
Proof. vm_cast_no_check (eq_refl true). Qed.
Lemma table_kinds_uniform ua ub : In ua all_units -> In ub all_units -> u_cat ua = u_cat ub -> is_lr ua = is_lr ub.
Proof.
  intros Ia Ib C. pose proof table_kinds_uniform_ok as H.
  rewrite forallb_forall in H. specialize (H ua Ia). rewrite forallb_forall in H. specialize (H ub Ib).
  rewrite (same_cat_true _ _ C) in H. apply Bool.eqb_prop. exact H.
Qed.

(* the bound for a pair of units, by kind *)
Definition tab_bound (ua ub : unit) (a : R) : R :=
  match u_conv ua, u_conv ub with
  | Temperature ta _, Temperature tb _ => temp_bound ta tb a
  | _, _ => (qq ^ 4 - 1) * a
  end.

Section AnyWindowAllKinds.
  Variable K : Z.
  Hypothesis HK : (K <= 1000)%Z.
  Hypothesis HP : forallb (fun ua => forallb (pair_check K ua) all_units) all_units = true.

(* ---- what a user calls, every kind: convert(v, a, b) then convert(_, b, a) for ANY two identifiers that
   resolve to units of one category, any valid v with 2^-K <= |v| <= 2^K; K <= 1000 because the temperature
   bound is proved for |v| <= 2^1000 *)
Theorem builtin_there_and_back_all_kindsK : forall a b ua ub v,
  resolve_unit a = UOk ua -> resolve_unit b = UOk ub -> u_cat ua = u_cat ub ->
  fin v -> win (- K) K (Rv v) ->
  exists r1 r2,
    builtin_convert (ANum v) (AStr a) (AStr b) = UOk r1 /\
    builtin_convert (ANum r1) (AStr b) (AStr a) = UOk r2 /\
    Rabs (Rv r2 - Rv v) <= tab_bound ua ub (Rabs (Rv v)).
Proof.
  intros a b ua ub v Ra Rb C Fv Wv.
  pose proof (resolve_unit_In _ _ Ra) as Ia. pose proof (resolve_unit_In _ _ Rb) as Ib.
  pose proof (table_kinds_uniform ua ub Ia Ib C) as KU.
  destruct (is_lr ua) eqn:La.
  - symmetry in KU.
    destruct (builtin_there_and_back_floatK K HP a b ua ub v Ra Rb C La KU Fv Wv) as [r1 [r2 [H1 [H2 H3]]]].
    exists r1, r2. split; [exact H1|]. split; [exact H2|].
    unfold tab_bound. unfold is_lr in La, KU.
    destruct (u_conv ua); try discriminate La; destruct (u_conv ub); try discriminate KU; exact H3.
  - symmetry in KU. unfold is_lr in La, KU. unfold tab_bound.
    destruct (u_conv ua) as [| |ta fa] eqn:Ca; try discriminate La.
    destruct (u_conv ub) as [| |tb fb] eqn:Cb; try discriminate KU.
    assert (Hv : Rabs (Rv v) <= bpow radix2 1000).
    { destruct Wv as [_ W]. eapply Rle_trans; [exact W|apply bpow_le; exact HK]. }
    apply (builtin_there_and_back a b ua ub v _ Ra Rb C); [apply temp_bound_nonneg, Rabs_pos|].
    apply (there_and_back_float_temperature ua ub ta fa tb fb v Ca Cb
             (table_inverse_pair _ _ _ Ia Ca) (table_inverse_pair _ _ _ Ib Cb) (fin_finz _ Fv) Hv).
Qed.

End AnyWindowAllKinds.
Definition builtin_there_and_back_all_kinds :=
  builtin_there_and_back_all_kindsK Kv ltac:(discriminate) table_lr_pairs_ok.
Definition builtin_there_and_back_all_kinds_wide :=
  builtin_there_and_back_all_kindsK Kw ltac:(discriminate) table_lr_pairs_ok_wide.

(* temperature only, on the full range (zero and the offsets included) *)
Theorem builtin_there_and_back_temperature : forall a b ua ub ta fa tb fb v,
  resolve_unit a = UOk ua -> resolve_unit b = UOk ub -> u_cat ua = u_cat ub ->
  u_conv ua = Temperature ta fa -> u_conv ub = Temperature tb fb ->
  finz v -> Rabs (Rv v) <= bpow radix2 1000 ->
  exists r1 r2,
    builtin_convert (ANum v) (AStr a) (AStr b) = UOk r1 /\
    builtin_convert (ANum r1) (AStr b) (AStr a) = UOk r2 /\
    Rabs (Rv r2 - Rv v) <= temp_bound ta tb (Rabs (Rv v)).
Proof.
  intros a b ua ub ta fa tb fb v Ra Rb C Ca Cb Fv Hv.
  apply (builtin_there_and_back a b ua ub v _ Ra Rb C); [apply temp_bound_nonneg, Rabs_pos|].
  apply (there_and_back_float_temperature ua ub ta fa tb fb v Ca Cb
           (table_inverse_pair _ _ _ (resolve_unit_In _ _ Ra) Ca) (table_inverse_pair _ _ _ (resolve_unit_In _ _ Rb) Cb) Fv Hv).
Qed.

(* ================================================================ 8. the range hypotheses of UnitsFloat.there_and_back_float_linear
   follow from the decidable condition, so that theorem (four factors (1+e), |e| <= 2^-53) holds for every pair of
   linear units of one category of the table and every valid v in the window *)
Lemma linear_in_ranges ua ub la lb v w :
  u_conv ua = Linear la -> u_conv ub = Linear lb ->
  let ca := num_of_bits (l_bits la) in
  let cb := num_of_bits (l_bits lb) in
  fin ca -> fin cb -> fin v -> win (fst w) (snd w) (Rv v) -> tab_ok ua ub w = true ->
  let r1 := nmul v ca in
  let r2 := through_base fl v ua ub in
  let r3 := nmul r2 cb in
  in_range (Rv v * Rv ca) /\ in_range (Rv r1 / Rv cb) /\ in_range (Rv r2 * Rv cb) /\ in_range (Rv r3 / Rv ca).
Proof.
  intros Ha Hb ca cb Fa Fb Fv Wv OK r1 r2 r3. destruct w as [a b]. cbn [fst snd] in Wv.
  assert (Ka : klo ua = lo ca) by (unfold klo, cnum, coef_of; rewrite Ha; reflexivity).
  assert (Kb : klo ub = lo cb) by (unfold klo, cnum, coef_of; rewrite Hb; reflexivity).
  unfold tab_ok, tabS_ok, tbS_ok, tbS_win, stepS_to, stepS_from, usum in OK. rewrite Ha, Hb, Ka, Kb in OK.
  cbn [fst snd Z.eqb] in OK.
  apply andb_prop in OK. destruct OK as [OK O34]. apply andb_prop in OK. destruct OK as [O1 O2].
  apply andb_prop in O34. destruct O34 as [O3 O4].
  apply wok_wokZ in O1, O2, O3, O4. cbn [fst snd] in O1, O2, O3, O4.
  pose proof (lo_win _ Fa) as Wa. pose proof (lo_win _ Fb) as Wb.
  pose proof (st_init v a b Fv Wv) as S0.
  pose proof (st_mulc v _ _ a b ca (lo ca) S0 Fa Wa O1) as S1. fold r1 in S1.
  pose proof (st_divc r1 _ _ _ _ cb (lo cb) S1 Fb Wb O2) as S2.
  assert (E2 : r2 = ndiv r1 cb).
  { unfold r2, through_base, convert_from_base, convert_to_base. rewrite Ha, Hb. reflexivity. }
  rewrite <- E2 in S2.
  pose proof (st_mulc r2 _ _ _ _ cb (lo cb) S2 Fb Wb O3) as S3. fold r3 in S3.
  destruct S1 as [_ [W1 _]]. destruct S2 as [_ [W2 _]]. destruct S3 as [_ [W3 _]].
  split; [apply (win_in_range _ _ _ O1); apply win_mul; assumption|].
  split; [apply (win_in_range _ _ _ O2); apply win_div; assumption|].
  split; [apply (win_in_range _ _ _ O3); apply win_mul; assumption|].
  apply (win_in_range _ _ _ O4); apply win_div; assumption.
Qed.

Section AnyWindowLinear.
  Variable K : Z.
  Hypothesis HP : forallb (fun ua => forallb (pair_check K ua) all_units) all_units = true.
Theorem there_and_back_float_linear_tableK : forall ua ub la lb v,
  In ua all_units -> In ub all_units -> u_cat ua = u_cat ub ->
  u_conv ua = Linear la -> u_conv ub = Linear lb ->
  fin v -> win (- K) K (Rv v) ->
  let r2 := through_base fl v ua ub in
  let r4 := through_base fl r2 ub ua in
  exists e1 e2 e3 e4,
    Rabs e1 <= u53 /\ Rabs e2 <= u53 /\ Rabs e3 <= u53 /\ Rabs e4 <= u53 /\
    Rv r4 = Rv v * ((1 + e1) * (1 + e2) * (1 + e3) * (1 + e4)) /\
    Rabs (Rv r4 - Rv v) <= ((1 + u53) * (1 + u53) * (1 + u53) * (1 + u53) - 1) * Rabs (Rv v).
Proof.
  intros ua ub la lb v Ia Ib C Ha Hb Fv Wv.
  assert (La : is_lr ua = true) by (unfold is_lr; rewrite Ha; reflexivity).
  assert (Lb : is_lr ub = true) by (unfold is_lr; rewrite Hb; reflexivity).
  destruct (table_pairK K HP ua ub Ia Ib C La Lb) as [Fa [Fb OK]].
  assert (Ea : cnum ua = num_of_bits (l_bits la)) by (unfold cnum, coef_of; rewrite Ha; reflexivity).
  assert (Eb : cnum ub = num_of_bits (l_bits lb)) by (unfold cnum, coef_of; rewrite Hb; reflexivity).
  rewrite Ea in Fa. rewrite Eb in Fb.
  destruct (linear_in_ranges ua ub la lb v (- K, K)%Z Ha Hb Fa Fb Fv Wv OK) as [R1 [R2 [R3 R4]]].
  exact (there_and_back_float_linear ua ub la lb v Ha Hb Fv Fa Fb R1 R2 R3 R4).
Qed.
End AnyWindowLinear.
Definition there_and_back_float_linear_table := there_and_back_float_linear_tableK Kv table_lr_pairs_ok.
Definition there_and_back_float_linear_table_wide := there_and_back_float_linear_tableK Kw table_lr_pairs_ok_wide.


(* ================================================================ 9. composition for the temperature kind:
   fl(A->B->C) and fl(A->C) both approximate the same ideal value; the bound is the sum of the two accumulated errors *)
Lemma temp_comp_chain ta fa tb fb tc fc X v :
  isB X v -> inverse_pair ta fa = true -> inverse_pair tb fb = true -> inverse_pair tc fc = true ->
  Rabs v <= bpow radix2 1000 ->
  exists r s,
    isB (tempfn_apply fl fc (tempfn_apply fl tb (tempfn_apply fl fb (tempfn_apply fl ta X)))) r /\
    isB (tempfn_apply fl fc (tempfn_apply fl ta X)) s /\
    Rabs (r - s) <= tcomp_bound ta tb tc (Rabs v).
Proof.
  intros HX Ia Ib Ic Hv.
  destruct (temp_prefix ta fa tb fb X v HX Ia Ib Hv) as (P1 & N1 & N3 & T1 & T3).
  set (a := Rabs v) in *. assert (Ha : 0 <= a) by apply Rabs_pos.
  destruct (temp_bounds ta fa tb fb a _ Ia Ib (conj Ha Hv) bpow_1000_big) as [_ [_ H]].
  destruct (H tc fc Ic) as [S4 [S5 NB]]. rewrite <- Tmax_split in S4, S5.
  assert (P5 : Rabs (TFid fc (TFid ta v)) <= TFM fc (TFM ta a)) by (apply TFM_ok; exact P1).
  destruct (tf_spec fc _ _ _ _ _ T3 P1 P5 N3 S4) as [r [Br Hr]].
  destruct (tf_spec fc _ _ _ _ _ T1 P1 P5 N1 S5) as [s [Bs Hs]].
  exists r, s. split; [exact Br|]. split; [exact Bs|].
  replace (r - s) with ((r - TFid fc (TFid ta v)) - (s - TFid fc (TFid ta v))) by ring.
  eapply Rle_trans; [apply Rabs_triang|]. rewrite Rabs_Ropp. lra.
Qed.

Theorem composition_float_temperature : forall ua ub uc ta fa tb fb tc fc v,
  u_conv ua = Temperature ta fa -> u_conv ub = Temperature tb fb -> u_conv uc = Temperature tc fc ->
  inverse_pair ta fa = true -> inverse_pair tb fb = true -> inverse_pair tc fc = true ->
  finz v -> Rabs (Rv v) <= bpow radix2 1000 ->
  let r_ab := through_base fl v ua ub in
  let r_abc := through_base fl r_ab ub uc in
  let r_ac := through_base fl v ua uc in
  finz r_abc /\ finz r_ac /\ Rabs (Rv r_abc - Rv r_ac) <= tcomp_bound ta tb tc (Rabs (Rv v)).
Proof.
  intros ua ub uc ta fa tb fb tc fc v Ca Cb Cc Ia Ib Ic [Vv Fv] Hv r_ab r_abc r_ac.
  destruct (temp_comp_chain ta fa tb fb tc fc v (Rv v) (isB_of_valid v Vv Fv) Ia Ib Ic Hv) as [r [s [Br [Bs H]]]].
  assert (E1 : r_abc = tempfn_apply fl fc (tempfn_apply fl tb (tempfn_apply fl fb (tempfn_apply fl ta v)))).
  { unfold r_abc, r_ab, through_base, convert_from_base, convert_to_base. rewrite Ca, Cb, Cc. reflexivity. }
  assert (E2 : r_ac = tempfn_apply fl fc (tempfn_apply fl ta v)).
  { unfold r_ac, through_base, convert_from_base, convert_to_base. rewrite Ca, Cc. reflexivity. }
  rewrite E1, E2. split; [exact (isB_valid _ _ Br)|]. split; [exact (isB_valid _ _ Bs)|].
  rewrite (isB_Rv _ _ Br), (isB_Rv _ _ Bs). exact H.
Qed.

Lemma tcomp_bound_nonneg ta tb tc a : 0 <= a -> 0 <= tcomp_bound ta tb tc a.
Proof.
  intros Ha. unfold tcomp_bound. pose proof u53_lt1.
  assert (0 <= tcomp_A ta tb tc) by (destruct ta, tb, tc; unfold tcomp_A, tcomp_AZ; lra).
  assert (0 <= tcomp_B ta tb tc) by (destruct ta, tb, tc; unfold tcomp_B, tcomp_BZ; lra).
  apply Rmult_le_pos; [apply Rmult_le_pos; lra|]. apply Rplus_le_le_0_compat; [apply Rmult_le_pos|]; assumption.
Qed.
Lemma temp_bound_le_tcomp ta fa tb fb a : inverse_pair ta fa = true -> inverse_pair tb fb = true -> 0 <= a ->
  temp_bound ta tb a <= tcomp_bound ta tb ta a.
Proof.
  intros Ia Ib Ha. pose proof u53_lt1. unfold temp_bound, tcomp_bound.
  apply Rmult_le_compat_l; [apply Rmult_le_pos; lra|].
  destruct ta, fa; try discriminate Ia; destruct tb, fb; try discriminate Ib;
    unfold temp_A, temp_B, tcomp_A, tcomp_B, temp_AZ, temp_BZ, tcomp_AZ, tcomp_BZ; lra.
Qed.

Theorem builtin_composition_temperature : forall a b c ua ub uc ta fa tb fb tc fc v,
  resolve_unit a = UOk ua -> resolve_unit b = UOk ub -> resolve_unit c = UOk uc ->
  u_cat ua = u_cat ub -> u_cat ub = u_cat uc ->
  u_conv ua = Temperature ta fa -> u_conv ub = Temperature tb fb -> u_conv uc = Temperature tc fc ->
  finz v -> Rabs (Rv v) <= bpow radix2 1000 ->
  exists r1 r2 r3,
    builtin_convert (ANum v) (AStr a) (AStr b) = UOk r1 /\
    builtin_convert (ANum r1) (AStr b) (AStr c) = UOk r2 /\
    builtin_convert (ANum v) (AStr a) (AStr c) = UOk r3 /\
    Rabs (Rv r2 - Rv r3) <= tcomp_bound ta tb tc (Rabs (Rv v)).
Proof.
  intros a b c ua ub uc ta fa tb fb tc fc v Ra Rb Rc C1 C2 Ca Cb Cc Fv Hv.
  pose proof (table_inverse_pair _ _ _ (resolve_unit_In _ _ Ra) Ca) as Pa.
  pose proof (table_inverse_pair _ _ _ (resolve_unit_In _ _ Rb) Cb) as Pb.
  pose proof (table_inverse_pair _ _ _ (resolve_unit_In _ _ Rc) Cc) as Pc.
  apply (builtin_composition (fun x y => Rabs (Rv x - Rv y) <= tcomp_bound ta tb tc (Rabs (Rv v))) a b c ua ub uc v Ra Rb Rc C1 C2).
  - intros x. replace (Rv x - Rv x) with 0 by ring. rewrite Rabs_R0. apply tcomp_bound_nonneg, Rabs_pos.
  - intros ->. assert (tc = ta) by congruence. subst tc.
    destruct (there_and_back_float_temperature ua ub ta fa tb fb v Ca Cb Pa Pb Fv Hv) as [_ H].
    eapply Rle_trans; [exact H|]. apply (temp_bound_le_tcomp ta fa tb fb); auto. apply Rabs_pos.
  - apply (composition_float_temperature ua ub uc ta fa tb fb tc fc v Ca Cb Cc Pa Pb Pc Fv Hv).
Qed.

(* the constant tables as text, for the check to compare with the tolerances it uses (checks/c17.py TEMP_AB / TCOMP_AB) *)
Definition tf_to_list : list tempfn := [TF_kelvin_to_kelvin; TF_celsius_to_kelvin; TF_fahrenheit_to_kelvin].
Definition temp_tables : list Z :=
  flat_map (fun ta => flat_map (fun tb => [temp_AZ ta tb; temp_BZ ta tb]) tf_to_list) tf_to_list.
Definition tcomp_tables : list Z :=
  flat_map (fun ta => flat_map (fun tb => flat_map (fun tc => [tcomp_AZ ta tb tc; tcomp_BZ ta tb tc]) tf_to_list) tf_to_list) tf_to_list.
