(* FullAgree.v — the evaluator with EVERY transcribed built-in (EvalFull.builtin_full) treats its
   callback parametrically on closed values: the hypothesis of CallSite.v's simulation.  So C04's
   call-site independence also covers functions that call sort_by / group_by / count_by with a
   callback, and every pure list, string, record and aggregate built-in. *)
From Coq Require Import String Ascii List ZArith Bool Lia.
Require Import Blots.Num Blots.gen.Builtins Blots.Ast Blots.Value Blots.Outcome Blots.Binop
               Blots.Env Blots.Eval Blots.BuiltinsHof Blots.Program Blots.EvalInst Blots.EvalFull
               Blots.proofs.StoreMono Blots.proofs.Closed Blots.proofs.ClosedOps
               Blots.proofs.FullClosed Blots.proofs.CallSite.
Import ListNotations.
Open Scope list_scope.
Open Scope nat_scope.

Definition post' := @post.

(* CALL-SITE INDEPENDENCE for the evaluator with every transcribed built-in *)
Theorem call_site_independent_full : forall release d fr1 fr2 this f args st,
  lookup fr1 "inputs" = lookup fr2 "inputs" ->
  (forall v, lookup fr1 "inputs" = Some v -> closed_value st v) ->
  closed_value st this -> closed_value st f -> closed_list st args ->
  AD release binop_impl builtin_full d fr1 this f args st =
  AD release binop_impl builtin_full d fr2 this f args st.
Proof.
  intros release. exact (call_site_independent_gen release binop_impl builtin_full binop_impl_agree builtin_full_agree0).
Qed.

Theorem call_result_closed_full : forall release d fr this f args st r st',
  (forall v, lookup fr "inputs" = Some v -> closed_value st v) ->
  closed_value st this -> closed_value st f -> closed_list st args ->
  AD release binop_impl builtin_full d fr this f args st = (r, st') ->
  store_le st st' /\ (forall v, r = Ok v -> closed_value st' v).
Proof.
  intros release. exact (call_result_closed_gen release binop_impl builtin_full binop_impl_agree builtin_full_agree0).
Qed.
