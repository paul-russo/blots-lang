(* Idempotent.v — C08: blank-line spacing between statements is stable under re-formatting. *)
From Coq Require Import String Ascii List ZArith Bool Lia.
Require Import Blots.Num Blots.gen.Builtins Blots.Ast Blots.Formatter Blots.proofs.StringFacts.
Import ListNotations.
Open Scope Z_scope.

(* join_statements_with_spacing emits between 1 and 3 newlines *)
Lemma gap_newlines_range : forall e s, 1 <= gap_newlines e s <= 3.
Proof. intros; unfold gap_newlines, line_gap, sat_sub; lia. Qed.

(* re-reading the emitted newlines: a statement ending on line e' followed by n newlines puts
   the next statement on line e' + n, and the newlines emitted for that gap are the same n *)
Lemma reread_newlines : forall e s e',
  gap_newlines e' (e' + gap_newlines e s) = gap_newlines e s.
Proof. intros; unfold gap_newlines, line_gap, sat_sub; lia. Qed.

Definition clamp_gap (g : Z) : Z := Z.min (Z.max 0 g) 2.

(* spacing_idempotent: with the positions the statements have in the emitted text,
   join_statements_with_spacing emits the same text again *)
Theorem spacing_idempotent : forall l start, join_spacing (relayout start l) = join_spacing l.
Proof.
  induction l as [|[[d s] e] rest IH]; intros start; [reflexivity|].
  destruct rest as [|[[d2 s2] e2] rest'].
  - reflexivity.
  - change (relayout start ((d, s, e) :: (d2, s2, e2) :: rest'))
      with ((d, start, start + doc_height d) ::
            relayout (start + doc_height d + gap_newlines e s2) ((d2, s2, e2) :: rest')).
    remember (start + doc_height d + gap_newlines e s2) as st2.
    specialize (IH st2).
    change (relayout st2 ((d2, s2, e2) :: rest')) with
      ((d2, st2, st2 + doc_height d2) ::
       match rest' with [] => [] | (_, s', _) :: _ => relayout (st2 + doc_height d2 + gap_newlines e2 s') rest' end) in *.
    cbn [join_spacing] in *. rewrite IH. subst st2.
    rewrite reread_newlines. reflexivity.
Qed.

(* relayout is a fixed point: laying out the re-laid-out program changes no position *)
Theorem relayout_idem : forall l start, relayout start (relayout start l) = relayout start l.
Proof.
  induction l as [|[[d s] e] rest IH]; intros start; [reflexivity|].
  destruct rest as [|[[d2 s2] e2] rest'].
  - reflexivity.
  - change (relayout start ((d, s, e) :: (d2, s2, e2) :: rest'))
      with ((d, start, start + doc_height d) ::
            relayout (start + doc_height d + gap_newlines e s2) ((d2, s2, e2) :: rest')).
    remember (start + doc_height d + gap_newlines e s2) as st2.
    specialize (IH st2).
    change (relayout st2 ((d2, s2, e2) :: rest')) with
      ((d2, st2, st2 + doc_height d2) ::
       match rest' with [] => [] | (_, s', _) :: _ => relayout (st2 + doc_height d2 + gap_newlines e2 s') rest' end) in *.
    cbn [relayout]. f_equal.
    replace (start + doc_height d + gap_newlines (start + doc_height d) st2) with st2.
    + exact IH.
    + subst st2. rewrite reread_newlines. reflexivity.
Qed.

(* ------------------------------------------------------------------ comment re-attachment *)
Open Scope list_scope.
Open Scope nat_scope.

Lemma split_nl_nonempty : forall t, split_nl t <> [].
Proof.
  induction t as [|c r IH]; cbn; [discriminate|].
  destruct (Ascii.eqb c NLc); [discriminate|]. destruct (split_nl r); discriminate.
Qed.

Lemma append_nil_r' : forall a, a +++ EmptyString = a.
Proof. exact append_nil_r. Qed.

(* lines().join("\n") of split('\n') is the identity *)
Lemma sjoin_split_nl : forall t, sjoin nl (split_nl t) = t.
Proof.
  induction t as [|c r IH]; [reflexivity|].
  cbn [split_nl]. destruct (Ascii.eqb c NLc) eqn:E.
  - apply Ascii.eqb_eq in E; subst c.
    pose proof (split_nl_nonempty r) as NE.
    destruct (split_nl r) as [|x t] eqn:S; [contradiction|].
    change (sjoin nl (EmptyString :: x :: t)) with (EmptyString +++ nl +++ sjoin nl (x :: t)).
    rewrite IH. reflexivity.
  - pose proof (split_nl_nonempty r) as NE.
    destruct (split_nl r) as [|x t] eqn:S; [contradiction|].
    assert (J : forall x t, sjoin nl (String c x :: t) = String c (sjoin nl (x :: t)))
      by (intros; destruct t0; reflexivity).
    rewrite J, IH. reflexivity.
Qed.

Section Reattach.
  Context {A : Type}.
  Notation lp := (lpair A).

  Lemma attach_loop_app : forall (p1 p2 : list lp) pend els,
    attach_loop (p1 ++ p2) pend els =
    let (e1, pe1) := attach_loop p1 pend els in attach_loop p2 pe1 e1.
  Proof.
    induction p1 as [|[c|x eol] r IH]; intros; cbn [app attach_loop]; [reflexivity| |]; apply IH.
  Qed.

  Lemma attach_loop_comments : forall cs pend (els : list (commented A)),
    attach_loop (map PComment cs) pend els = (els, pend ++ cs).
  Proof.
    induction cs as [|c r IH]; intros; cbn [map attach_loop]; [now rewrite app_nil_r|].
    rewrite IH. now rewrite <- app_assoc.
  Qed.

  Lemma attach_loop_item : forall lead (x : A) tr pend els,
    attach_loop (map PComment lead ++ [PItem x None] ++ map PComment (trailing_comments tr)) pend els
    = (els ++ [Cm (pend ++ lead) x None], trailing_comments tr).
  Proof.
    intros. rewrite attach_loop_app, attach_loop_comments. cbn [app attach_loop].
    now rewrite attach_loop_comments.
  Qed.

  Lemma attach_after_last_snoc : forall els l (x : A) tr,
    attach_after_last (els ++ [Cm l x None]) (trailing_comments tr) = els ++ [Cm l x tr].
  Proof.
    intros els l x [t|]; cbn [trailing_comments]; [|reflexivity].
    unfold attach_after_last. pose proof (split_nl_nonempty t) as NE.
    destruct (split_nl t) as [|a b] eqn:S; [contradiction|]. rewrite <- S.
    rewrite rev_app_distr. cbn [rev app]. rewrite rev_involutive, sjoin_split_nl. reflexivity.
  Qed.

  (* reparse normal form, lists and records: parsing the formatter's layout of items whose
     comments are where the parser puts them (only the last item has a trailing comment)
     attaches every comment to the same item in the same role *)
  Lemma reattach_gen : forall (items : list (commented A)) els,
    items <> [] -> only_last_trailing items = true ->
    (let (e, p) := attach_loop (layout_pairs items) [] els in attach_after_last e p) = els ++ items.
  Proof.
    induction items as [|[lead x tr] r IH]; intros els NE H; [contradiction|].
    destruct r as [|c2 r'].
    - unfold layout_pairs. cbn [flat_map cleading cnode ctrailing]. rewrite app_nil_r.
      rewrite attach_loop_item. cbn [app]. apply attach_after_last_snoc.
    - cbn [only_last_trailing] in H. destruct tr as [t|]; [discriminate|].
      change (layout_pairs (Cm lead x None :: c2 :: r'))
        with ((map PComment lead ++ [PItem x None] ++ map PComment (trailing_comments None)) ++
              layout_pairs (c2 :: r')).
      rewrite attach_loop_app, attach_loop_item. cbn [trailing_comments app].
      specialize (IH (els ++ [Cm lead x None])). rewrite IH; [|discriminate|exact H].
      now rewrite <- app_assoc.
  Qed.

  Theorem list_reattach_fixed_point : forall items : list (commented A),
    only_last_trailing items = true -> attach (layout_pairs items) = items.
  Proof.
    intros items H. destruct items as [|c r]; [reflexivity|].
    unfold attach. apply (reattach_gen (c :: r) []); [discriminate|exact H].
  Qed.

  (* ... and whatever the parser attaches has that shape, given the grammar's constraint that
     an eol_comment can only follow the last item *)
  Definition all_none (l : list (commented A)) : Prop := Forall (fun c => ctrailing c = None) l.

  Lemma olt_cons : forall a (x : A) t c0 l,
    only_last_trailing (Cm a x t :: c0 :: l) =
    match t with None => only_last_trailing (c0 :: l) | Some _ => false end.
  Proof. reflexivity. Qed.

  Lemma only_last_trailing_snoc : forall l (c : commented A), all_none l -> only_last_trailing (l ++ [c]) = true.
  Proof.
    induction l as [|[a x t] r IH]; intros c H; [destruct c; reflexivity|].
    inversion H as [|? ? Ht Hr]; subst. cbn in Ht; subst t.
    cbn [app]. destruct (r ++ [c]) eqn:E; [destruct r; discriminate|].
    rewrite olt_cons, <- E. now apply IH.
  Qed.

  Lemma only_last_trailing_all_none : forall l : list (commented A), all_none l -> only_last_trailing l = true.
  Proof.
    induction l as [|[a x t] r IH]; intros H; [reflexivity|].
    inversion H as [|? ? Ht Hr]; subst. cbn in Ht; subst t.
    destruct r; [reflexivity|]. rewrite olt_cons. now apply IH.
  Qed.

  Lemma attach_loop_shape : forall (pairs : list lp) pend els,
    all_none els -> eol_only_last pairs = true ->
    only_last_trailing (fst (attach_loop pairs pend els)) = true.
  Proof.
    induction pairs as [|[c|x [eol|]] r IH]; intros pend els Hn H; cbn [attach_loop fst].
    - now apply only_last_trailing_all_none.
    - apply IH; [exact Hn|exact H].
    - cbn [eol_only_last] in H.
      assert (R : exists cs, r = map PComment cs).
      { clear -H. induction r as [|[c|y e] r' IHr]; [now exists []| |discriminate].
        cbn in H. destruct (IHr H) as [cs ->]. now exists (c :: cs). }
      destruct R as [cs ->]. rewrite attach_loop_comments. cbn [fst].
      now apply only_last_trailing_snoc.
    - apply IH; [|exact H]. unfold all_none. rewrite Forall_app. split; [exact Hn|]. now repeat constructor.
  Qed.

  Lemma olt_change_last : forall before l (x : A) tr tr',
    only_last_trailing (before ++ [Cm l x tr]) = true ->
    only_last_trailing (before ++ [Cm l x tr']) = true.
  Proof.
    induction before as [|[a y t] r IH]; intros l x tr tr' H; [reflexivity|].
    cbn [app] in *. destruct (r ++ [Cm l x tr]) eqn:E1; [destruct r; discriminate|].
    destruct (r ++ [Cm l x tr']) eqn:E2; [destruct r; discriminate|].
    rewrite olt_cons in H. rewrite olt_cons. destruct t; [discriminate|].
    rewrite <- E2. apply (IH l x tr tr'). rewrite E1. exact H.
  Qed.

  Theorem attach_shape : forall pairs : list lp,
    eol_only_last pairs = true -> only_last_trailing (attach pairs) = true.
  Proof.
    intros pairs H. unfold attach.
    pose proof (attach_loop_shape pairs [] [] (Forall_nil _) H) as S.
    destruct (attach_loop pairs [] []) as [els pend]. cbn [fst] in S.
    unfold attach_after_last. destruct pend as [|p ps]; [exact S|].
    destruct (rev els) as [|[l x tr] before] eqn:E; [exact S|].
    assert (Els : els = rev before ++ [Cm l x tr]).
    { rewrite <- (rev_involutive els), E. reflexivity. }
    subst els.
    (* only the last element's trailing changes *)
    eapply olt_change_last. exact S.
  Qed.

  (* one formatting pass reaches the fixed point of comment placement: parse, format, parse
     again gives the first parse's attachment *)
  Corollary reattach_after_one_pass : forall pairs : list lp,
    eol_only_last pairs = true -> attach (layout_pairs (attach pairs)) = attach pairs.
  Proof. intros. apply list_reattach_fixed_point. now apply attach_shape. Qed.

  (* do-blocks *)
  Notation dp := (dpair A).
  Lemma attach_do_loop_app : forall (p1 p2 : list dp) pend els,
    attach_do_loop (p1 ++ p2) pend els =
    let (e1, pe1) := attach_do_loop p1 pend els in attach_do_loop p2 pe1 e1.
  Proof.
    induction p1 as [|[c|x tr] r IH]; intros; cbn [app attach_do_loop]; [reflexivity| |]; apply IH.
  Qed.
  Lemma attach_do_loop_comments : forall cs pend (els : list (commented A)),
    attach_do_loop (map DComment cs) pend els = (els, pend ++ cs).
  Proof.
    induction cs as [|c r IH]; intros; cbn [map attach_do_loop]; [now rewrite app_nil_r|].
    rewrite IH. now rewrite <- app_assoc.
  Qed.

  Lemma attach_do_loop_stmts : forall (stmts : list (commented A)) els,
    attach_do_loop (flat_map (fun c => map DComment (cleading c) ++ [DStmt (cnode c) (ctrailing c)]) stmts) [] els
    = (els ++ stmts, []).
  Proof.
    induction stmts as [|[lead x tr] r IH]; intros els; cbn [flat_map]; [now rewrite app_nil_r|].
    cbn [cleading cnode ctrailing]. rewrite attach_do_loop_app, attach_do_loop_app, attach_do_loop_comments.
    cbn [attach_do_loop app]. rewrite IH. now rewrite <- app_assoc.
  Qed.

  (* reparse normal form, do-blocks: statements keep their leading and same-line comments, the
     return expression keeps its leading comments *)
  Theorem do_reattach_fixed_point : forall (stmts : list (commented A)) ret,
    ctrailing ret = None ->
    attach_do (do_layout_pairs stmts ret) (cnode ret) = (stmts, ret).
  Proof.
    intros stmts [rl rx rt] H. cbn in H; subst rt.
    unfold attach_do, do_layout_pairs. cbn [cleading cnode].
    rewrite attach_do_loop_app, attach_do_loop_stmts, attach_do_loop_comments. reflexivity.
  Qed.
End Reattach.

(* ------------------------------------------------------------------ the drivers, second pass *)
Definition stmt_content (s : stmt) : stmt_kind * option string := match s with St k eol _ _ => (k, eol) end.
Definition stmt_pos (s : stmt) : Z * Z := match s with St _ _ a b => (a, b) end.
Definition triple_pos (x : doc * Z * Z) : Z * Z := (snd (fst x), snd x).
Definition triple_doc (x : doc * Z * Z) : doc := fst (fst x).

Lemma relayout_docs : forall l start, map triple_doc (relayout start l) = map triple_doc l.
Proof.
  induction l as [|[[d s] e] rest IH]; intros start; [reflexivity|].
  destruct rest as [|[[d2 s2] e2] rest']; [reflexivity|].
  change (relayout start ((d, s, e) :: (d2, s2, e2) :: rest'))
    with ((d, start, (start + doc_height d)%Z) ::
          relayout (start + doc_height d + gap_newlines e s2)%Z ((d2, s2, e2) :: rest')).
  cbn [map]. now rewrite IH.
Qed.

Lemma triples_eq : forall l1 l2 : list (doc * Z * Z),
  map triple_doc l1 = map triple_doc l2 -> map triple_pos l1 = map triple_pos l2 -> l1 = l2.
Proof.
  induction l1 as [|[[d s] e] r IH]; intros [|[[d' s'] e'] r'] Hd Hp; try discriminate; [reflexivity|].
  cbn in Hd, Hp. injection Hd as -> Hd. injection Hp as -> -> Hp. f_equal. now apply IH.
Qed.

Section Second.
  Variable O : oracles.

  Lemma lib_stmt_doc_content : forall mw first s t, stmt_content s = stmt_content t ->
    triple_doc (lib_stmt O mw first s) = triple_doc (lib_stmt O mw first t).
  Proof. intros mw first [k eol a b] [k' eol' a' b'] H. cbn in H. injection H as -> ->. reflexivity. Qed.
  Lemma lib_stmt_pos : forall mw first s, triple_pos (lib_stmt O mw first s) = stmt_pos s.
  Proof. intros mw first [k eol a b]. reflexivity. Qed.

  Lemma map_lib_docs : forall mw first p q, map stmt_content q = map stmt_content p ->
    map triple_doc (map (lib_stmt O mw first) q) = map triple_doc (map (lib_stmt O mw first) p).
  Proof.
    intros mw first p. induction p as [|t r' IH]; intros [|s r] Hc; try discriminate; [reflexivity|].
    cbn [map] in *. injection Hc as Hs Hr. f_equal; [now apply lib_stmt_doc_content|now apply IH].
  Qed.

  (* If the first output re-parses to statements q with the same content as p (same
     expressions with the same comment attachment, same end-of-line comments) at the positions
     the text gives them, the second pass of the library driver prints the same text. *)
  Theorem lib_driver_second_pass : forall mw p q,
    map stmt_content q = map stmt_content p ->
    map stmt_pos q = map triple_pos (relayout 1 (map_first (lib_stmt O mw) p)) ->
    format_lib O mw q = format_lib O mw p.
  Proof.
    intros mw p q Hc Hp.
    assert (E : map_first (lib_stmt O mw) q = relayout 1 (map_first (lib_stmt O mw) p)).
    { apply triples_eq.
      - rewrite relayout_docs. destruct p as [|t r']; destruct q as [|s r]; try discriminate; [reflexivity|].
        cbn [map_first map] in *. injection Hc as Hs Hr.
        f_equal; [now apply lib_stmt_doc_content|now apply map_lib_docs].
      - rewrite <- Hp. destruct q as [|s r]; [reflexivity|].
        cbn [map_first map]. rewrite lib_stmt_pos. f_equal.
        rewrite map_map. apply map_ext. intros x. apply lib_stmt_pos. }
    unfold format_lib.
    destruct p as [|t r']; destruct q as [|s r]; try discriminate; [reflexivity|].
    rewrite E, spacing_idempotent. reflexivity.
  Qed.

  (* the CLI driver does not look at positions *)
  Theorem cli_driver_second_pass : forall p q,
    map stmt_content q = map stmt_content p -> format_cli O q = format_cli O p.
  Proof.
    assert (S : forall first s t, stmt_content s = stmt_content t -> cli_stmt O first s = cli_stmt O first t).
    { intros first [k eol a b] [k' eol' a' b'] H. cbn in H. injection H as -> ->. reflexivity. }
    assert (M : forall first p q, map stmt_content q = map stmt_content p ->
                map (cli_stmt O first) q = map (cli_stmt O first) p).
    { intros first p. induction p as [|t r' IH]; intros [|s r] Hc; try discriminate; [reflexivity|].
      cbn [map] in *. injection Hc as Hs Hr. f_equal; [now apply S|now apply IH]. }
    unfold format_cli. intros [|t r'] [|s r] Hc; try discriminate; [reflexivity|].
    cbn [map_first map] in *. injection Hc as Hs Hr. now rewrite (S true s t Hs), (M false r' r Hr).
  Qed.
End Second.
