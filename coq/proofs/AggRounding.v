(* AggRounding.v — "sum equals the sum of the elements up to double-precision rounding":
   the left fold of SFadd from -0.0 is within ((1+u)^(n-1) - 1) * sum|x_i| of the exact real
   sum (u = 2^-53), provided no partial sum overflows (Higham's bound for recursive summation;
   addition needs no underflow side condition).  Uses Flocq (classical real-number axioms). *)
From Coq Require Import ZArith String List Bool Lia Lra Reals Floats.SpecFloat Arith.
From Flocq Require Import Core.Core Core.Round_pred Core.Generic_fmt Core.FLT Core.Raux Core.Zaux
  Core.Defs Core.Float_prop Core.Ulp Relative Plus_error IEEE754.BinarySingleNaN.
Require Import Blots.Num Blots.gen.Builtins Blots.Ast Blots.Value Blots.Show Blots.Outcome
  Blots.BuiltinsAgg Blots.proofs.Order Blots.proofs.Aggregates Blots.proofs.AggPercentile.
Import ListNotations.
Open Scope Z_scope.

#[local] Existing Instance Hprec.
#[local] Existing Instance Hmax.

Notation fexp := (SpecFloat.fexp prec emax).
Notation rnd := (round radix2 fexp ZnearestE).
Notation R_of := (SF2R radix2).

Definition finv (x : num) : bool := valid x && is_finite_SF x.   (* a genuine finite double *)

Lemma nadd_finite_correct a b : finv a = true -> finv b = true ->
  is_finite_SF (nadd a b) = true ->
  finv (nadd a b) = true /\ R_of (nadd a b) = rnd (R_of a + R_of b).
Proof.
  unfold finv. rewrite !andb_true_iff. intros [Va Fa] [Vb Fb] F.
  assert (E := nadd_Bplus (@SF2B prec emax a Va) (@SF2B prec emax b Vb)).
  rewrite !B2SF_SF2B in E.
  assert (C := Bplus_correct prec emax Hprec Hmax mode_NE (@SF2B prec emax a Va) (@SF2B prec emax b Vb)).
  rewrite !is_finite_SF2B in C. specialize (C Fa Fb). rewrite !B2R_SF2B in C. cbn [round_mode] in C.
  rewrite E in *. split; [split; [unfold valid; apply valid_binary_B2SF|exact F]|].
  destruct (Rlt_bool _ _).
  - destruct C as (C & _). now rewrite SF2R_B2SF.
  - destruct C as (C & _). rewrite C in F. cbn in F. discriminate.
Qed.

Lemma finv_finite x : finv x = true -> is_finite_SF x = true.
Proof. unfold finv. intros H. now apply andb_prop in H. Qed.

Lemma finv_format x : finv x = true -> generic_format radix2 fexp (R_of x).
Proof.
  unfold finv. rewrite andb_true_iff. intros [V _].
  rewrite <- (B2SF_SF2B prec emax x V), SF2R_B2SF. apply generic_format_B2R.
Qed.

(* ---------- the bound ---------- *)
Definition u : R := u_ro radix2 prec.             (* 2^-53 *)
Lemma u_value : u = bpow radix2 (-53).
Proof. unfold u, u_ro. change (- prec + 1) with (-52). change (/2)%R with (bpow radix2 (-1)).
       rewrite <- bpow_plus. reflexivity. Qed.
Lemma u_pos : (0 <= u)%R.
Proof. apply u_ro_pos. Qed.

Lemma rnd_plus_rel x y : generic_format radix2 fexp x -> generic_format radix2 fexp y ->
  exists d, (Rabs d <= u)%R /\ rnd (x + y) = ((x + y) * (1 + d))%R.
Proof.
  intros Fx Fy.
  destruct (FLT_plus_error_N_ex radix2 (SpecFloat.emin prec emax) prec (fun z => negb (Z.even z)) x y Fx Fy)
    as (d & Hd & E).
  exists d. split; [|exact E].
  eapply Rle_trans; [exact Hd|]. apply u_rod1pu_ro_le_u_ro.
Qed.

Definition rsum (l : list num) : R := fold_right (fun x s => (R_of x + s)%R) 0%R l.
Definition rabs_sum (l : list num) : R := fold_right (fun x s => (Rabs (R_of x) + s)%R) 0%R l.

(* no partial sum overflows (decidable; checked on the model) *)
Fixpoint partial_finite (acc : num) (l : list num) : bool :=
  match l with
  | [] => true
  | x :: r => let s := nadd acc x in is_finite_SF s && partial_finite s r
  end.

Lemma rabs_sum_nonneg l : (0 <= rabs_sum l)%R.
Proof.
  induction l as [|a l IH]; [cbn; lra|].
  change (rabs_sum (a :: l)) with (Rabs (R_of a) + rabs_sum l)%R.
  assert (H := Rabs_pos (R_of a)). lra.
Qed.

Lemma Rabs_1_plus d : (Rabs d <= u)%R -> (Rabs (1 + d) <= 1 + u)%R.
Proof. intros H. eapply Rle_trans; [apply Rabs_triang|]. rewrite Rabs_R1. lra. Qed.

Lemma rsum_abs_le l : (Rabs (rsum l) <= rabs_sum l)%R.
Proof.
  induction l as [|a l IH]; [cbn; rewrite Rabs_R0; lra|].
  change (rsum (a :: l)) with (R_of a + rsum l)%R.
  change (rabs_sum (a :: l)) with (Rabs (R_of a) + rabs_sum l)%R.
  eapply Rle_trans; [apply Rabs_triang|]. lra.
Qed.

Lemma pow_ge_1 k : (1 <= (1 + u) ^ k)%R.
Proof. apply pow_R1_Rle. assert (H := u_pos). lra. Qed.

Lemma fold_bound l : forall acc S T k,
  finv acc = true -> forallb finv l = true -> partial_finite acc l = true ->
  (Rabs (R_of acc - S) <= ((1 + u) ^ k - 1) * T)%R -> (Rabs S <= T)%R ->
  (Rabs (R_of (fold_left nadd l acc) - (S + rsum l))
   <= ((1 + u) ^ (k + length l) - 1) * (T + rabs_sum l))%R.
Proof.
  induction l as [|x l IH]; intros acc S T k Fa Fl Pf HE HS.
  - change (rsum []) with 0%R. change (rabs_sum []) with 0%R. cbn [fold_left length].
    rewrite Nat.add_0_r, !Rplus_0_r. exact HE.
  - cbn [forallb] in Fl. apply andb_true_iff in Fl. destruct Fl as [Fx Fl].
    cbn [partial_finite] in Pf. apply andb_true_iff in Pf. destruct Pf as [Fs Pf].
    destruct (nadd_finite_correct acc x Fa Fx Fs) as [Fa' Ra'].
    destruct (rnd_plus_rel (R_of acc) (R_of x) (finv_format _ Fa) (finv_format _ Fx)) as (d & Hd & Ed).
    change (rsum (x :: l)) with (R_of x + rsum l)%R.
    change (rabs_sum (x :: l)) with (Rabs (R_of x) + rabs_sum l)%R. cbn [fold_left length].
    specialize (IH (nadd acc x) (S + R_of x)%R (T + Rabs (R_of x))%R (Datatypes.S k) Fa' Fl Pf).
    replace (k + Datatypes.S (length l))%nat with (Datatypes.S k + length l)%nat by lia.
    replace (S + (R_of x + rsum l))%R with (S + R_of x + rsum l)%R by ring.
    replace (T + (Rabs (R_of x) + rabs_sum l))%R with (T + Rabs (R_of x) + rabs_sum l)%R by ring.
    apply IH.
    + rewrite Ra', Ed.
      set (a := R_of acc) in *. set (xr := R_of x) in *.
      replace ((a + xr) * (1 + d) - (S + xr))%R with ((a - S) * (1 + d) + d * (S + xr))%R by ring.
      eapply Rle_trans; [apply Rabs_triang|]. rewrite !Rabs_mult.
      assert (P1 := pow_ge_1 k). assert (Pu := u_pos).
      assert (H1 := Rabs_1_plus d Hd).
      assert (H2 : (Rabs (S + xr) <= T + Rabs xr)%R).
      { eapply Rle_trans; [apply Rabs_triang|]. lra. }
      assert (T0 : (0 <= T)%R) by (eapply Rle_trans; [apply Rabs_pos|exact HS]).
      assert (X0 := Rabs_pos xr).
      assert (A1 : (Rabs (a - S) * Rabs (1 + d) <= ((1 + u) ^ k - 1) * T * (1 + u))%R).
      { apply Rmult_le_compat; try apply Rabs_pos; assumption. }
      assert (A2 : (Rabs d * Rabs (S + xr) <= u * (T + Rabs xr))%R).
      { apply Rmult_le_compat; try apply Rabs_pos; assumption. }
      cbn [pow].
      assert (A3 : (((1 + u) ^ k - 1) * T * (1 + u) <= ((1 + u) ^ k - 1) * (T + Rabs xr) * (1 + u))%R).
      { apply Rmult_le_compat_r; [lra|]. apply Rmult_le_compat_l; lra. }
      replace (((1 + u) * (1 + u) ^ k - 1) * (T + Rabs xr))%R
        with (((1 + u) ^ k - 1) * (T + Rabs xr) * (1 + u) + u * (T + Rabs xr))%R by ring.
      lra.
    + eapply Rle_trans; [apply Rabs_triang|]. lra.
Qed.

(* -0.0 + x = x exactly for every finite x (as a real number) *)
Lemma nadd_nnzero x : finv x = true -> finv (nadd nnzero x) = true /\ R_of (nadd nnzero x) = R_of x.
Proof.
  intros F. destruct x as [s|s| |s m e]; try discriminate (finv_finite _ F).
  - destruct s; cbn; auto.
  - cbn. auto.
Qed.

Theorem sum_rounding_bound l : l <> [] ->
  forallb finv l = true -> partial_finite nnzero l = true ->
  (Rabs (R_of (fold_sum l) - rsum l) <= ((1 + u) ^ (length l - 1) - 1) * rabs_sum l)%R.
Proof.
  intros Hne Fl Pf. destruct l as [|x l]; [contradiction|].
  cbn [forallb] in Fl. apply andb_true_iff in Fl. destruct Fl as [Fx Fl].
  cbn [partial_finite] in Pf. apply andb_true_iff in Pf. destruct Pf as [_ Pf].
  destruct (nadd_nnzero x Fx) as [F0 R0].
  unfold fold_sum. change (rsum (x :: l)) with (R_of x + rsum l)%R.
  change (rabs_sum (x :: l)) with (Rabs (R_of x) + rabs_sum l)%R. cbn [fold_left length].
  replace (Datatypes.S (length l) - 1)%nat with (0 + length l)%nat by lia.
  apply (fold_bound l (nadd nnzero x) (R_of x) (Rabs (R_of x)) 0%nat F0 Fl Pf).
  - rewrite R0. cbn [pow]. replace (R_of x - R_of x)%R with 0%R by ring. rewrite Rabs_R0. lra.
  - lra.
Qed.

(* permutation invariance of sum "up to rounding": both orders are within the bound of the same
   exact sum *)
Lemma fold_right_perm {A B} (f : A -> B -> B) (b : B) :
  (forall x y s, f x (f y s) = f y (f x s)) ->
  forall l l', Permutation.Permutation l l' -> fold_right f b l = fold_right f b l'.
Proof. intros Hf. induction 1; cbn; congruence. Qed.

Lemma rsum_perm l l' : Permutation.Permutation l l' -> rsum l = rsum l'.
Proof. apply fold_right_perm. intros; ring. Qed.
Lemma rabs_sum_perm l l' : Permutation.Permutation l l' -> rabs_sum l = rabs_sum l'.
Proof. apply fold_right_perm. intros; ring. Qed.

Lemma forallb_perm {A} (f : A -> bool) l l' :
  Permutation.Permutation l l' -> forallb f l = true -> forallb f l' = true.
Proof.
  intros P. rewrite !forallb_forall. intros H x Hx. apply H.
  eapply Permutation.Permutation_in; [apply Permutation.Permutation_sym|]; eauto.
Qed.

Lemma Rabs_within a a' m B : (Rabs (a - m) <= B)%R -> (Rabs (a' - m) <= B)%R -> (Rabs (a - a') <= 2 * B)%R.
Proof.
  intros H H'. replace (a - a')%R with ((a - m) - (a' - m))%R by ring.
  eapply Rle_trans; [apply Rabs_triang|]. rewrite Rabs_Ropp. lra.
Qed.

Theorem sum_perm_rounding l l' : Permutation.Permutation l l' -> l <> [] ->
  forallb finv l = true -> partial_finite nnzero l = true -> partial_finite nnzero l' = true ->
  (Rabs (R_of (fold_sum l) - R_of (fold_sum l'))
   <= 2 * (((1 + u) ^ (length l - 1) - 1) * rabs_sum l))%R.
Proof.
  intros P Hne Fl Pf Pf'.
  assert (B := sum_rounding_bound l Hne Fl Pf).
  assert (B' := sum_rounding_bound l' (perm_nonempty _ _ P Hne) (forallb_perm _ _ _ P Fl) Pf').
  rewrite <- (rsum_perm _ _ P), <- (rabs_sum_perm _ _ P), <- (Permutation.Permutation_length P) in B'.
  exact (Rabs_within _ _ _ _ B B').
Qed.

(* ================================================================== prod *)
Lemma nmul_finite_correct a b : finv a = true -> finv b = true ->
  is_finite_SF (nmul a b) = true ->
  finv (nmul a b) = true /\ R_of (nmul a b) = rnd (R_of a * R_of b).
Proof.
  unfold finv. rewrite !andb_true_iff. intros [Va Fa] [Vb Fb] F.
  assert (E := nmul_Bmult (@SF2B prec emax a Va) (@SF2B prec emax b Vb)).
  rewrite !B2SF_SF2B in E.
  assert (C := Bmult_correct prec emax Hprec Hmax mode_NE (@SF2B prec emax a Va) (@SF2B prec emax b Vb)).
  rewrite !B2R_SF2B in C. cbn [round_mode] in C.
  rewrite E in *. split; [split; [unfold valid; apply valid_binary_B2SF|exact F]|].
  destruct (Rlt_bool _ _).
  - destruct C as (C & _). now rewrite SF2R_B2SF.
  - rewrite C in F. unfold binary_overflow in F. cbn in F. discriminate.
Qed.

(* a lower bound 2^(mag_lo x) <= |x| for finite non-zero x, read off the representation *)
Definition mag_lo (x : num) : Z :=
  match x with S754_finite _ m e => Z.pos (digits2_pos m) - 1 + e | _ => 0 end.
(* the exact product cannot fall into the subnormal range (or a factor is zero): decidable *)
Definition mul_safe (a b : num) : bool :=
  is_zero a || is_zero b || (-1022 <=? mag_lo a + mag_lo b).

Lemma mag_lo_bound s m e : (bpow radix2 (mag_lo (S754_finite s m e)) <= Rabs (R_of (S754_finite s m e)))%R.
Proof.
  cbn [mag_lo SF2R]. rewrite <- F2R_Zabs, abs_cond_Zopp. cbn [Z.abs].
  unfold F2R. cbn [Fnum Fexp]. rewrite bpow_plus. apply Rmult_le_compat_r; [apply bpow_ge_0|].
  rewrite Zpos_digits2_pos. rewrite <- IZR_Zpower.
  - apply IZR_le. exact (proj1 (Digits.Zdigits_correct radix2 (Z.pos m))).
  - assert (H := Digits.Zdigits_gt_0 radix2 (Z.pos m) ltac:(discriminate)). lia.
Qed.

Lemma rnd_mult_rel a b : finv a = true -> finv b = true -> mul_safe a b = true ->
  exists d, (Rabs d <= u)%R /\ rnd (R_of a * R_of b) = (R_of a * R_of b * (1 + d))%R.
Proof.
  intros Fa Fb S.
  assert (Z0 : forall x, is_zero x = true -> R_of x = 0%R) by (intros [ | | | ]; cbn; congruence).
  unfold mul_safe in S. apply orb_true_iff in S. destruct S as [S|S].
  - exists 0%R. split; [rewrite Rabs_R0; apply u_pos|].
    apply orb_true_iff in S. destruct S as [S|S]; rewrite (Z0 _ S);
      rewrite ?Rmult_0_l, ?Rmult_0_r, ?Rmult_0_l; apply round_0; apply valid_rnd_N.
  - apply Z.leb_le in S.
    destruct a as [sa|sa| |sa ma ea]; try discriminate (finv_finite _ Fa);
    destruct b as [sb|sb| |sb mb eb]; try discriminate (finv_finite _ Fb).
    1-3: exists 0%R; split; [rewrite Rabs_R0; apply u_pos|];
         cbn [SF2R]; rewrite ?Rmult_0_l, ?Rmult_0_r, ?Rmult_0_l; apply round_0; apply valid_rnd_N.
    destruct (relative_error_N_FLT_ex radix2 (SpecFloat.emin prec emax) prec Hprec
                (fun z => negb (Z.even z))
                (R_of (S754_finite sa ma ea) * R_of (S754_finite sb mb eb))%R) as (d & Hd & E).
    + rewrite Rabs_mult. change (SpecFloat.emin prec emax + prec - 1) with (-1022).
      eapply Rle_trans; [apply bpow_le; exact S|]. rewrite bpow_plus.
      apply Rmult_le_compat; try apply bpow_ge_0; apply mag_lo_bound.
    + exists d. split; [exact Hd|exact E].
Qed.

Definition rprod (l : list num) : R := fold_right (fun x s => (R_of x * s)%R) 1%R l.

(* every multiplication of the fold is safe from underflow and does not overflow *)
Fixpoint prod_ok (acc : num) (l : list num) : bool :=
  match l with
  | [] => true
  | x :: r => let p := nmul acc x in mul_safe acc x && is_finite_SF p && prod_ok p r
  end.

Lemma fold_prod_bound l : forall acc P k,
  finv acc = true -> forallb finv l = true -> prod_ok acc l = true ->
  (Rabs (R_of acc - P) <= ((1 + u) ^ k - 1) * Rabs P)%R ->
  (Rabs (R_of (fold_left nmul l acc) - P * rprod l)
   <= ((1 + u) ^ (k + length l) - 1) * Rabs (P * rprod l))%R.
Proof.
  induction l as [|x l IH]; intros acc P k Fa Fl Ok HE.
  - change (rprod []) with 1%R. cbn [fold_left length]. rewrite Nat.add_0_r, !Rmult_1_r. exact HE.
  - cbn [forallb] in Fl. apply andb_true_iff in Fl. destruct Fl as [Fx Fl].
    cbn [prod_ok] in Ok. apply andb_true_iff in Ok. destruct Ok as [Ok Ok2].
    apply andb_true_iff in Ok. destruct Ok as [Sf Fs].
    destruct (nmul_finite_correct acc x Fa Fx Fs) as [Fa' Ra'].
    destruct (rnd_mult_rel acc x Fa Fx Sf) as (d & Hd & Ed).
    change (rprod (x :: l)) with (R_of x * rprod l)%R. cbn [fold_left length].
    specialize (IH (nmul acc x) (P * R_of x)%R (Datatypes.S k) Fa' Fl Ok2).
    replace (k + Datatypes.S (length l))%nat with (Datatypes.S k + length l)%nat by lia.
    replace (P * (R_of x * rprod l))%R with (P * R_of x * rprod l)%R by ring.
    apply IH. rewrite Ra', Ed.
    set (a := R_of acc) in *. set (xr := R_of x) in *.
    replace (a * xr * (1 + d) - P * xr)%R with ((a - P) * xr * (1 + d) + d * (P * xr))%R by ring.
    eapply Rle_trans; [apply Rabs_triang|]. rewrite !Rabs_mult.
    assert (P1 := pow_ge_1 k). assert (Pu := u_pos).
    assert (H1 := Rabs_1_plus d Hd).
    assert (X0 := Rabs_pos xr). assert (P0 := Rabs_pos P).
    assert (A1 : (Rabs (a - P) * Rabs xr * Rabs (1 + d) <= ((1 + u) ^ k - 1) * Rabs P * Rabs xr * (1 + u))%R).
    { apply Rmult_le_compat.
      - apply Rmult_le_pos; apply Rabs_pos.
      - apply Rabs_pos.
      - apply Rmult_le_compat_r; assumption.
      - exact H1. }
    assert (A2 : (Rabs d * (Rabs P * Rabs xr) <= u * (Rabs P * Rabs xr))%R).
    { apply Rmult_le_compat_r; [apply Rmult_le_pos; assumption|assumption]. }
    cbn [pow].
    replace (((1 + u) * (1 + u) ^ k - 1) * (Rabs P * Rabs xr))%R
      with (((1 + u) ^ k - 1) * Rabs P * Rabs xr * (1 + u) + u * (Rabs P * Rabs xr))%R by ring.
    lra.
Qed.

Lemma finv_n1 : finv n1 = true.
Proof. vm_compute. reflexivity. Qed.
Lemma R_n1 : R_of n1 = 1%R.
Proof. destruct (num_of_Z_correct 1 ltac:(lia)) as (_ & H & _). exact H. Qed.

(* prod equals the exact product up to a relative error of (1+u)^n - 1 *)
Theorem prod_rounding_bound l :
  forallb finv l = true -> prod_ok n1 l = true ->
  (Rabs (R_of (fold_prod l) - rprod l) <= ((1 + u) ^ length l - 1) * Rabs (rprod l))%R.
Proof.
  intros Fl Ok.
  assert (B := fold_prod_bound l n1 1%R 0%nat finv_n1 Fl Ok).
  rewrite R_n1, !Rmult_1_l in B. cbn [pow Nat.add] in B. apply B.
  replace (1 - 1)%R with 0%R by ring. rewrite Rabs_R0. lra.
Qed.

Lemma rprod_perm l l' : Permutation.Permutation l l' -> rprod l = rprod l'.
Proof. apply fold_right_perm. intros; ring. Qed.

Theorem prod_perm_rounding l l' : Permutation.Permutation l l' ->
  forallb finv l = true -> prod_ok n1 l = true -> prod_ok n1 l' = true ->
  (Rabs (R_of (fold_prod l) - R_of (fold_prod l'))
   <= 2 * (((1 + u) ^ length l - 1) * Rabs (rprod l)))%R.
Proof.
  intros P Fl Ok Ok'.
  assert (B := prod_rounding_bound l Fl Ok).
  assert (B' := prod_rounding_bound l' (forallb_perm _ _ _ P Fl) Ok').
  rewrite <- (rprod_perm _ _ P), <- (Permutation.Permutation_length P) in B'.
  exact (Rabs_within _ _ _ _ B B').
Qed.

(* ================================================================== avg *)
Lemma fold_finv l : forall acc, finv acc = true -> forallb finv l = true ->
  partial_finite acc l = true -> finv (fold_left nadd l acc) = true.
Proof.
  induction l as [|x l IH]; intros acc Fa Fl Pf; [exact Fa|].
  cbn [forallb] in Fl. apply andb_true_iff in Fl. destruct Fl as [Fx Fl].
  cbn [partial_finite] in Pf. apply andb_true_iff in Pf. destruct Pf as [Fs Pf].
  cbn [fold_left]. apply IH; auto. now destruct (nadd_finite_correct acc x Fa Fx Fs).
Qed.

Lemma finv_nnzero : finv nnzero = true.
Proof. reflexivity. Qed.

Lemma finv_abs_lt_emax x : finv x = true -> (Rabs (R_of x) < bpow radix2 emax)%R.
Proof.
  unfold finv. rewrite andb_true_iff. intros [V _].
  rewrite <- (B2SF_SF2B prec emax x V), SF2R_B2SF. apply abs_B2R_lt_emax.
Qed.

(* s / (n as f64) for a finite s and 1 <= n <= 2^53: correctly rounded, with the standard error
   decomposition (relative u, or absolute 2^-1075 in the subnormal range) *)
Lemma ndiv_count_error s n : finv s = true -> 1 <= n <= 2^53 ->
  exists eps eta, (Rabs eps <= u)%R /\ (Rabs eta <= bpow radix2 (-1075))%R /\
    R_of (ndiv s (num_of_Z n)) = (R_of s / IZR n * (1 + eps) + eta)%R.
Proof.
  intros Fs Hn.
  destruct (num_of_Z_correct n ltac:(lia)) as (Vn & Rn & Fn).
  assert (Hrel : forall x, exists eps eta, (Rabs eps <= u)%R /\ (Rabs eta <= bpow radix2 (-1075))%R /\
             rnd x = (x * (1 + eps) + eta)%R).
  { intros x. destruct (error_N_FLT radix2 (SpecFloat.emin prec emax) prec ltac:(reflexivity)
                          (fun z => negb (Z.even z)) x) as (eps & eta & A & B & _ & D).
    exists eps, eta. split; [exact A|split; [|exact D]].
    eapply Rle_trans; [exact B|]. change (/2)%R with (bpow radix2 (-1)). rewrite <- bpow_plus.
    apply bpow_le. vm_compute. discriminate. }
  assert (N1 : (1 <= IZR n)%R) by (apply IZR_le; lia).
  destruct (num_of_Z n) as [sn|sn| |sn mn en] eqn:En; try contradiction.
  { cbn in Rn. assert (IZR n = 0)%R by congruence. lra. }
  destruct sn; [contradiction|].
  destruct s as [ss|ss| |ss ms es]; try discriminate (finv_finite _ Fs).
  - (* s = +-0 *)
    exists 0%R, 0%R. rewrite !Rabs_R0. split; [apply u_pos|split; [apply bpow_ge_0|]].
    cbn. lra.
  - destruct (ndiv_correct ss ms es false mn en) as (_ & E & _).
    + rewrite Rn.
      apply Rle_lt_trans with (Rabs (R_of (S754_finite ss ms es))); [|now apply finv_abs_lt_emax].
      apply abs_round_le_generic; [apply fexp_correct; reflexivity|apply valid_rnd_N| |].
      * apply generic_format_abs. now apply finv_format.
      * unfold Rdiv. rewrite Rabs_mult. rewrite <- (Rmult_1_r (Rabs (R_of (S754_finite ss ms es)))) at 2.
        apply Rmult_le_compat_l; [apply Rabs_pos|]. rewrite Rabs_inv.
        rewrite Rabs_pos_eq by lra. rewrite <- Rinv_1. apply Rinv_le_contravar; lra.
    + rewrite E, Rn. destruct (Hrel (R_of (S754_finite ss ms es) / IZR n)%R) as (eps & eta & A & B & D).
      exists eps, eta. auto.
Qed.

(* avg is within ((1+u)^n - 1) * mean|x_i| + 2^-1075 of the exact mean *)
Theorem avg_rounding_bound l : l <> [] -> Z.of_nat (length l) <= 2^53 ->
  forallb finv l = true -> partial_finite nnzero l = true ->
  (Rabs (R_of (ndiv (fold_sum l) (num_of_Z (Z.of_nat (length l)))) - rsum l / INR (length l))
   <= ((1 + u) ^ length l - 1) * (rabs_sum l / INR (length l)) + bpow radix2 (-1075))%R.
Proof.
  intros Hne Hlen Fl Pf.
  assert (Hn : 1 <= Z.of_nat (length l) <= 2^53) by (destruct l; [contradiction|cbn [length] in *; lia]).
  assert (Fs : finv (fold_sum l) = true) by (apply fold_finv; auto).
  destruct (ndiv_count_error (fold_sum l) _ Fs Hn) as (eps & eta & He & Ht & E).
  assert (B := sum_rounding_bound l Hne Fl Pf).
  rewrite E, <- INR_IZR_INZ.
  set (n := INR (length l)). set (s := R_of (fold_sum l)) in *. set (Sx := rsum l) in *.
  set (T := rabs_sum l) in *. set (k := length l) in *.
  assert (Nn : (1 <= n)%R).
  { unfold n. change 1%R with (INR 1). apply le_INR. destruct l; [contradiction|cbn; lia]. }
  assert (Pu := u_pos). assert (P1 := pow_ge_1 (k - 1)). assert (T0 := rabs_sum_nonneg l). fold T in T0.
  assert (ST : (Rabs Sx <= T)%R) by apply rsum_abs_le.
  assert (Pk : ((1 + u) ^ k = (1 + u) * (1 + u) ^ (k - 1))%R).
  { unfold k. destruct l; [contradiction|]. cbn [length]. replace (S (length l) - 1)%nat with (length l) by lia.
    reflexivity. }
  replace (s / n * (1 + eps) + eta - Sx / n)%R
    with ((s - Sx) / n * (1 + eps) + eps * (Sx / n) + eta)%R by (field; lra).
  assert (In0 : (0 < / n)%R) by (apply Rinv_0_lt_compat; lra).
  assert (H1 := Rabs_1_plus eps He).
  assert (A1 : (Rabs ((s - Sx) / n * (1 + eps)) <= ((1 + u) ^ (k - 1) - 1) * T / n * (1 + u))%R).
  { rewrite Rabs_mult. apply Rmult_le_compat; try apply Rabs_pos; [|exact H1].
    unfold Rdiv. rewrite Rabs_mult, (Rabs_pos_eq (/ n)) by lra.
    apply Rmult_le_compat_r; [lra|exact B]. }
  assert (A2 : (Rabs (eps * (Sx / n)) <= u * (T / n))%R).
  { rewrite Rabs_mult. apply Rmult_le_compat; try apply Rabs_pos; [exact He|].
    unfold Rdiv. rewrite Rabs_mult, (Rabs_pos_eq (/ n)) by lra. apply Rmult_le_compat_r; lra. }
  eapply Rle_trans; [apply Rabs_triang|]. eapply Rle_trans; [apply Rplus_le_compat_r, Rabs_triang|].
  rewrite Pk.
  replace (((1 + u) * (1 + u) ^ (k - 1) - 1) * (T / n))%R
    with (((1 + u) ^ (k - 1) - 1) * T / n * (1 + u) + u * (T / n))%R by (field; lra).
  lra.
Qed.

Definition avg_of (l : list num) : num := ndiv (fold_sum l) (num_of_Z (Z.of_nat (length l))).

Theorem avg_perm_rounding l l' : Permutation.Permutation l l' -> l <> [] ->
  Z.of_nat (length l) <= 2^53 ->
  forallb finv l = true -> partial_finite nnzero l = true -> partial_finite nnzero l' = true ->
  (Rabs (R_of (avg_of l) - R_of (avg_of l'))
   <= 2 * (((1 + u) ^ length l - 1) * (rabs_sum l / INR (length l)) + bpow radix2 (-1075)))%R.
Proof.
  intros P Hne Hlen Fl Pf Pf'.
  assert (L := Permutation.Permutation_length P).
  assert (B := avg_rounding_bound l Hne Hlen Fl Pf).
  assert (B' := avg_rounding_bound l' (perm_nonempty _ _ P Hne) ltac:(rewrite <- L; exact Hlen)
                  (forallb_perm _ _ _ P Fl) Pf').
  rewrite <- (rsum_perm _ _ P), <- (rabs_sum_perm _ _ P), <- L in B'.
  unfold avg_of. rewrite <- L. exact (Rabs_within _ _ _ _ B B').
Qed.

Lemma avg_of_is_avg l : l <> [] -> bi_avg (nums l) = Ok (VNum (avg_of l)).
Proof.
  intros H. destruct (avg_is_sum_div_count l H) as (s & A & B & _).
  destruct (sum_is_fold l H) as [_ C]. rewrite C in A. injection A as <-. exact B.
Qed.
