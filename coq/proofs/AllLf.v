(* AllLf.v — C05: the COMPLETE operator table and built-in set (EvalAll.binop_all o / builtin_all o, for
   every oracle o) satisfy the hypothesis of EmitSound.emit_equiv_first_order (impl_lf_respecting): on
   function-free values they treat their callback parametrically and return function-free results.
   LfInst.v shows this for EvalInst.builtin_impl (19 built-ins); here AllGenClosed.v (the 35 further arms
   of EvalFull.builtin_full, the 17 arms of EvalAll.v that return a number, a string or null, `^` through
   the oracle's powf) is instantiated with "contains no function", the full relation on stores. *)
From Coq Require Import String Ascii List ZArith Bool Lia.
Require Import Blots.Num Blots.gen.Builtins Blots.Ast Blots.Value Blots.Outcome Blots.Binop
               Blots.Env Blots.Eval Blots.BuiltinsHof Blots.Program Blots.EvalInst Blots.EvalFull Blots.EvalAll
               Blots.BuiltinsList Blots.Emit
               Blots.proofs.ValueInd Blots.proofs.GenOps Blots.proofs.EmitSound Blots.proofs.LfInst
               Blots.proofs.AllGenClosed.
Import ListNotations.
Open Scope list_scope.

Lemma lfp_VRec : forall st r, lfp st (VRec r) <-> closed_frame lfp st r.
Proof.
  intros st r. unfold lfp, closed_frame. rewrite lf_rec, forallb_forall, Forall_forall. reflexivity.
Qed.
Lemma lfp_VSpread : forall st w, lfp st (VSpread w) <-> lfp st w.
Proof. intros st w. unfold lfp. cbn [lf]. reflexivity. Qed.

Theorem impl_lf_respecting_all : forall o, impl_lf_respecting (binop_all o) (builtin_all o).
Proof.
  intros o. apply lf_respecting_of_agree.
  - intros cb1 cb2 s0 Hag Hcl.
    exact (binop_all_agree_gen anyst anyst_refl anyst_trans lfp lfp_VList lfp_atomic lfp_mono cb1 cb2 s0 Hag Hcl o).
  - intros cb1 cb2 s0 Hag Hcl.
    exact (builtin_all_agree_gen anyst anyst_refl anyst_trans lfp lfp_VList lfp_VRec lfp_VSpread lfp_atomic lfp_mono
             cb1 cb2 s0 Hag Hcl o).
Qed.

Theorem impl_lf_respecting_full : impl_lf_respecting binop_impl builtin_full.
Proof.
  apply lf_respecting_of_agree.
  - exact (binop_impl_agree anyst anyst_refl anyst_trans lfp lfp_mono lfp_VList lfp_atomic).
  - exact (builtin_full_agree0_gen anyst anyst_refl anyst_trans lfp lfp_VList lfp_VRec lfp_VSpread lfp_atomic lfp_mono).
Qed.
