(* PrintCapture.v — with the repaired rule no lambda body, conditional branch or assignment value
   absorbs what follows it, lambda bodies contain no via / into / where outside parentheses, and no
   do-block statement continues the previous one: seq_ok (print_items (policy_new oi) e) for every
   well-formed tree e. *)
From Coq Require Import String Ascii List Bool Arith Lia.
Require Import Blots.Num Blots.gen.Builtins Blots.Ast Blots.Outcome Blots.PrattTypes Blots.gen.PrecTable
               Blots.Pratt Blots.PrattRender Blots.Printer Blots.proofs.PrattRT Blots.proofs.PrintText.
Import ListNotations.
Local Open Scope nat_scope.
Local Open Scope list_scope.

Lemma follow_ok_head : forall x y a b, follow_ok x (y :: a) = follow_ok x (y :: b).
Proof. intros x y a b. destruct x; try reflexivity; destruct y; reflexivity. Qed.

Lemma seq_ok_cons : forall x r, seq_ok (x :: r) = item_ok x && follow_ok x r && seq_ok r.
Proof. reflexivity. Qed.

Lemma last_app_ne : forall (l1 l2 : list item) d, l2 <> [] -> last (l1 ++ l2) d = last l2 d.
Proof.
  induction l1 as [|x l1 IH]; intros l2 d H; [reflexivity|].
  cbn [app]. destruct (l1 ++ l2) eqn:E.
  - apply app_eq_nil in E. destruct E as [_ E]. contradiction.
  - rewrite <- E. cbn [last]. rewrite E. rewrite <- E. apply IH. exact H.
Qed.

Lemma seq_ok_app : forall l1 l2,
  seq_ok l1 = true -> seq_ok l2 = true ->
  (l1 = [] \/ l2 = [] \/ follow_ok (last l1 INull) l2 = true) ->
  seq_ok (l1 ++ l2) = true.
Proof.
  induction l1 as [|x l1 IH]; intros l2 H1 H2 Hf; [exact H2|].
  rewrite seq_ok_cons in H1. apply andb_prop in H1. destruct H1 as [H1 Hr]. apply andb_prop in H1. destruct H1 as [Hx Hfx].
  destruct l2 as [|y l2]; [rewrite app_nil_r, seq_ok_cons, Hx, Hfx, Hr; reflexivity|].
  destruct Hf as [Hf|[Hf|Hf]]; try discriminate.
  cbn [app]. rewrite seq_ok_cons, Hx. cbn [andb].
  destruct l1 as [|z l1].
  - cbn [app]. cbn [last] in Hf. rewrite Hf. exact H2.
  - cbn [app]. rewrite (follow_ok_head x z (l1 ++ y :: l2) l1), Hfx. cbn [andb].
    change (z :: l1 ++ y :: l2) with ((z :: l1) ++ y :: l2).
    apply IH; [exact Hr | exact H2 |]. right. right.
    change (last (x :: z :: l1) INull) with (last (z :: l1) INull) in Hf. exact Hf.
Qed.

Lemma item_tail_lambda : forall a b, item_tail_ok (ILambda a b) = item_tail_ok (last b INull).
Proof.
  intros a b. cbn [item_tail_ok].
  induction b as [|x b IH]; [reflexivity|].
  destruct b as [|y b]; [reflexivity|].
  change (last (x :: y :: b) INull) with (last (y :: b) INull). rewrite <- IH. reflexivity.
Qed.

Lemma open_kind_app : forall l1 l2, l2 <> [] -> open_kind (l1 ++ l2) = open_kind l2.
Proof. intros l1 l2 H. unfold open_kind. rewrite last_app_ne by exact H. reflexivity. Qed.

Lemma open_kind_greedy_iff : forall l, tailk_eqb (open_kind l) TGreedy = negb (item_tail_ok (last l INull)).
Proof.
  intro l. unfold open_kind. destruct (last l INull) eqn:E; try reflexivity.
  rewrite item_tail_lambda. destruct (item_tail_ok (last body INull)); reflexivity.
Qed.

Lemma follow_closed : forall l1 l2, open_kind l1 = TClosed -> follow_ok (last l1 INull) l2 = true.
Proof.
  intros l1 l2 H. unfold open_kind in H. destruct (last l1 INull); try reflexivity; try discriminate.
  destruct (item_tail_ok (ILambda args body)); discriminate.
Qed.
Lemma follow_lambda : forall l1 r l2,
  open_kind l1 = TLambda -> is_vwi_rule r = true -> follow_ok (last l1 INull) (IOp r :: l2) = true.
Proof.
  intros l1 r l2 H Hr. unfold open_kind in H. destruct (last l1 INull) eqn:E; try discriminate.
  destruct (item_tail_ok (ILambda args body)) eqn:Et; [|cbn in H; discriminate H].
  unfold follow_ok. rewrite Hr, Et. reflexivity.
Qed.

Lemma is_vwi_rule_binop : forall o, is_vwi_rule (binop_rule o) = is_vwi o.
Proof. destruct o; reflexivity. Qed.

Lemma no_vwi_app : forall a b, no_vwi (a ++ b) = no_vwi a && no_vwi b.
Proof. intros. unfold no_vwi. apply forallb_app. Qed.

Lemma tail_lam : forall oi a b,
  tail oi (ELam a b) = if negb (lbnp oi b) && tailk_eqb (tail oi b) TGreedy then TGreedy else TLambda.
Proof. reflexivity. Qed.
Lemma tail_bin : forall oi o l r, tail oi (EBin o l r) = if new_right oi o r then TClosed else tail oi r.
Proof. reflexivity. Qed.
Lemma tail_un : forall oi u x, tail oi (EUn u x) = if new_unary oi x then TClosed else tail oi x.
Proof. reflexivity. Qed.
Lemma lbnp_bin : forall oi o l r,
  lbnp oi (EBin o l r) = is_vwi o || (negb (new_left oi o l) && lbnp oi l) || (negb (new_right oi o r) && lbnp oi r).
Proof. reflexivity. Qed.
Lemma lbnp_un : forall oi u x, lbnp oi (EUn u x) = negb (new_unary oi x) && lbnp oi x.
Proof. reflexivity. Qed.

Section Capture.
  Variable oi : opinfo_t.
  Hypothesis Hlv : forall o, fst (oi o) < PREFIX_LEVEL.
  Variable fx : fixes.
  Hypothesis Hdm : fx_dominus fx = true.
  Variable numtxt : num -> string.
  Notation pol := (policy_new oi).
  Notation pi := (print_items fx pol numtxt).
  Notation pt := (print_text fx pol numtxt).

  Lemma pi_nonempty : forall e, wf e = true -> pi e <> [].
  Proof.
    intros e H. destruct e; cbn [print_items]; try discriminate;
      try (intro E; apply app_eq_nil in E; destruct E as [_ E]; discriminate).
    - destruct ret. discriminate.
  Qed.

  Lemma wrapb_nonempty : forall b e, wf e = true -> wrapb b (pi e) <> [].
  Proof. intros [|] e H; cbn [wrapb]; [discriminate | apply pi_nonempty; exact H]. Qed.

  Lemma open_kind_wrapb_true : forall l, open_kind (wrapb true l) = TClosed.
  Proof. reflexivity. Qed.

  (* ---- how the token stream ends = fn tail *)
  Lemma tail_spec : forall e, wf e = true -> open_kind (pi e) = tail oi e.
  Proof.
    induction e using expr_ind'; intro Hwf; cbn [print_items]; try reflexivity.
    - (* ELam *)
      cbn [wf] in Hwf. rewrite tail_lam. cbn [pB policy_new]. unfold open_kind. cbn [last].
      rewrite item_tail_lambda.
      destruct (lbnp oi e) eqn:El; cbn [wrapb negb andb].
      + reflexivity.
      + rewrite <- (IHe Hwf). rewrite open_kind_greedy_iff.
        destruct (item_tail_ok (last (pi e) INull)); reflexivity.
    - (* EDo *) destruct ret. reflexivity.
    - (* EOutput *) discriminate.
    - (* ECall *) unfold open_kind. rewrite last_last. reflexivity.
    - (* EAccess *) unfold open_kind. rewrite last_last. reflexivity.
    - (* EDot *) unfold open_kind. rewrite last_last. reflexivity.
    - (* EBin *)
      cbn [wf] in Hwf. apply andb_prop in Hwf. destruct Hwf as [Hwl Hwr].
      rewrite tail_bin. cbn [pR policy_new]. change (IOp (binop_rule o) :: wrapb (new_right oi o e2) (pi e2))
        with ([IOp (binop_rule o)] ++ wrapb (new_right oi o e2) (pi e2)).
      rewrite open_kind_app by discriminate.
      rewrite open_kind_app by (apply wrapb_nonempty; exact Hwr).
      destruct (new_right oi o e2); [reflexivity | cbn [wrapb]; apply IHe2; exact Hwr].
    - (* EUn *)
      cbn [wf] in Hwf. apply andb_prop in Hwf. destruct Hwf as [_ Hwe].
      rewrite tail_un. cbn [pU policy_new]. change (unop_item u :: wrapb (new_unary oi e) (pi e))
        with ([unop_item u] ++ wrapb (new_unary oi e) (pi e)).
      rewrite open_kind_app by (apply wrapb_nonempty; exact Hwe).
      destruct (new_unary oi e); [reflexivity | cbn [wrapb]; apply IHe; exact Hwe].
    - (* EFact *) unfold open_kind. rewrite last_last. reflexivity.
  Qed.

  (* the operand of a postfix operator is closed, or stands in parentheses *)
  Lemma post_follow : forall x l2, wf x = true ->
    follow_ok (last (wrapb (new_post oi x) (pi x)) INull) l2 = true.
  Proof.
    intros x l2 Hw. destruct (new_post oi x) eqn:E; cbn [wrapb]; [reflexivity|].
    apply follow_closed. rewrite (tail_spec x Hw).
    unfold new_post in E. apply orb_false_elim in E. destruct E as [_ E].
    destruct (tail oi x); try reflexivity; discriminate.
  Qed.

  (* ---- lambda bodies *)
  Lemma new_post_no_lbnp : forall f, new_post oi f = false -> lbnp oi f = false.
  Proof.
    intros f H. unfold new_post in H. apply orb_false_elim in H. destruct H as [H _].
    apply Nat.ltb_ge in H. destruct f; try reflexivity; cbn [binding_level] in H.
    - pose proof (Hlv op). unfold POSTFIX_LEVEL, PREFIX_LEVEL in *. lia.
    - unfold POSTFIX_LEVEL, PREFIX_LEVEL in *. lia.
  Qed.

  Lemma no_vwi_wrapb : forall b l, (b = false -> no_vwi l = true) -> no_vwi (wrapb b l) = true.
  Proof. intros [|] l H; cbn [wrapb]; [reflexivity | apply H; reflexivity]. Qed.

  Lemma no_vwi_post : forall x tl,
    (lbnp oi x = false -> no_vwi (pi x) = true) -> no_vwi tl = true ->
    no_vwi (wrapb (new_post oi x) (pi x) ++ tl) = true.
  Proof.
    intros x tl IH Ht. rewrite no_vwi_app, Ht, andb_true_r. apply no_vwi_wrapb.
    intro E. apply IH, new_post_no_lbnp, E.
  Qed.

  Lemma lbnp_spec : forall e, wf e = true -> lbnp oi e = false -> no_vwi (pi e) = true.
  Proof.
    induction e using expr_ind'; intros Hwf Hl; cbn [print_items]; try reflexivity.
    - (* EDo *) destruct ret. reflexivity.
    - (* ECall *)
      cbn [wf] in Hwf. apply andb_prop in Hwf. destruct Hwf as [Hwf1 _].
      apply no_vwi_post; [exact (IHe Hwf1) | reflexivity].
    - (* EAccess *)
      cbn [wf] in Hwf. apply andb_prop in Hwf. destruct Hwf as [Hwf1 _].
      apply no_vwi_post; [exact (IHe1 Hwf1) | reflexivity].
    - (* EDot *) apply no_vwi_post; [exact (IHe Hwf) | reflexivity].
    - (* EBin *)
      cbn [wf] in Hwf. apply andb_prop in Hwf. destruct Hwf as [Hwl Hwr].
      rewrite lbnp_bin in Hl. apply orb_false_elim in Hl. destruct Hl as [Hl Hr].
      apply orb_false_elim in Hl. destruct Hl as [Hv Hl].
      rewrite no_vwi_app. cbn [pL pR policy_new]. apply andb_true_intro. split.
      + apply no_vwi_wrapb. intro E. rewrite E in Hl. cbn [negb andb] in Hl. apply IHe1; assumption.
      + change (IOp (binop_rule o) :: wrapb (new_right oi o e2) (pi e2))
          with ([IOp (binop_rule o)] ++ wrapb (new_right oi o e2) (pi e2)).
        rewrite no_vwi_app. apply andb_true_intro. split.
        * unfold no_vwi. cbn [forallb]. rewrite is_vwi_rule_binop, Hv. reflexivity.
        * apply no_vwi_wrapb. intro E. rewrite E in Hr. cbn [negb andb] in Hr. apply IHe2; assumption.
    - (* EUn *)
      cbn [wf] in Hwf. apply andb_prop in Hwf. destruct Hwf as [_ Hwe].
      rewrite lbnp_un in Hl. cbn [pU policy_new].
      change (unop_item u :: wrapb (new_unary oi e) (pi e)) with ([unop_item u] ++ wrapb (new_unary oi e) (pi e)).
      rewrite no_vwi_app. apply andb_true_intro. split; [destruct u; reflexivity|].
      apply no_vwi_wrapb. intro E. rewrite E in Hl. cbn [negb andb] in Hl. apply IHe; assumption.
    - (* EFact *) apply no_vwi_post; [exact (IHe Hwf) | reflexivity].
  Qed.

  (* ---- the do-block separator *)
  Lemma dominus_link : forall i x, wf x = true -> i <> 0 ->
    starts_neg (wrapb (dominus_text fx i (pt x)) (pi x)) = false.
  Proof.
    intros i x Hw Hi. destruct (dominus_text fx i (pt x)) eqn:E; [reflexivity|].
    cbn [wrapb]. destruct (starts_neg (pi x)) eqn:Es; [|reflexivity].
    apply (starts_neg_text fx numtxt) in Es. rewrite <- (items_render fx pol numtxt x Hw) in Es.
    unfold dominus_text in E. rewrite Hdm, Es in E.
    destruct i; [contradiction|]. discriminate.
  Qed.

  Definition OK (e : expr) : Prop := wf e = true -> seq_ok (pi e) = true.

  Lemma seq_ok_one : forall x, seq_ok [x] = item_ok x && follow_ok x [].
  Proof. intro x. rewrite seq_ok_cons. cbn [seq_ok]. apply andb_true_r. Qed.
  Lemma item_ok_expr : forall b g, item_ok (IExpr b g) = seq_ok g.
  Proof. reflexivity. Qed.
  Lemma seq_ok_wrapb : forall b l, seq_ok l = true -> seq_ok (wrapb b l) = true.
  Proof. intros [|] l H; cbn [wrapb]; [rewrite seq_ok_one, item_ok_expr, H; reflexivity | exact H]. Qed.

  Lemma list_ok : forall items,
    Forall (Pcm OK) items ->
    wf_cms items = true ->
    item_ok (IList ((fix go (l : list (commented expr)) : list lelem :=
                       match l with [] => [] | Cm _ x _ :: l' => LItem (pi x) None :: go l' end) items)) = true.
  Proof.
    induction items as [|c items IH]; intros HF Hwf; [reflexivity|].
    destruct (wf_cms_inv (fun e => seq_ok (pi e) = true) _ _ HF Hwf) as (x & -> & _ & Hx & HF' & Hrest).
    specialize (IH HF' Hrest).
    change (seq_ok (pi x) && item_ok (IList ((fix go (l : list (commented expr)) : list lelem :=
                       match l with [] => [] | Cm _ x _ :: l' => LItem (pi x) None :: go l' end) items)) = true).
    rewrite Hx, IH. reflexivity.
  Qed.

  Lemma args_ok : forall args,
    Forall OK args ->
    (fix go (l : list expr) : bool := match l with [] => true | a :: l' => wf a && go l' end) args = true ->
    item_ok (ICall ((fix go (l : list expr) : list (list item) :=
                       match l with [] => [] | a :: l' => pi a :: go l' end) args)) = true.
  Proof.
    induction args as [|a args IH]; intros HF Hwf; [reflexivity|].
    apply andb_prop in Hwf. destruct Hwf as [Hw Hrest]. inversion HF as [|? ? Hc HF']; subst.
    specialize (IH HF' Hrest).
    change (seq_ok (pi a) && item_ok (ICall ((fix go (l : list expr) : list (list item) :=
                       match l with [] => [] | a :: l' => pi a :: go l' end) args)) = true).
    rewrite (Hc Hw), IH. reflexivity.
  Qed.

  Lemma rec_ok : forall entries,
    Forall (Pentry OK) entries ->
    wf_ents entries = true ->
    item_ok (IRecord ((fix go (l : list (commented rentry)) : list relem :=
                         match l with
                         | [] => []
                         | Cm _ (REntry k v) _ :: l' =>
                             match k with
                             | KStatic s => RPairI (key_item s) (pi v) None
                             | KDyn d => RPairI (RKDyn [IExpr false (pi d)]) (pi v) None
                             | KShort s => RShortI s None
                             | KSpread x => RSpreadI (pi x) None
                             end :: go l'
                         end) entries)) = true.
  Proof.
    induction entries as [|c entries IH]; intros HF Hwf; [reflexivity|].
    destruct (wf_ents_inv (fun e => seq_ok (pi e) = true) _ _ HF Hwf) as (k & v & -> & Hk & HF' & Hrest).
    specialize (IH HF' Hrest).
    set (rest := (fix go (l : list (commented rentry)) : list relem :=
                         match l with
                         | [] => []
                         | Cm _ (REntry k v) _ :: l' =>
                             match k with
                             | KStatic s => RPairI (key_item s) (pi v) None
                             | KDyn d => RPairI (RKDyn [IExpr false (pi d)]) (pi v) None
                             | KShort s => RShortI s None
                             | KSpread x => RSpreadI (pi x) None
                             end :: go l'
                         end) entries) in *.
    destruct k as [s|d|s|x].
    - change (match key_item s with RKDyn inner => seq_ok inner | _ => true end && seq_ok (pi v)
              && item_ok (IRecord rest) = true).
      rewrite Hk, IH. unfold key_item. destruct (is_valid_identifier s); reflexivity.
    - destruct Hk as [Hd Hv].
      change (seq_ok [IExpr false (pi d)] && seq_ok (pi v) && item_ok (IRecord rest) = true).
      rewrite seq_ok_one, item_ok_expr, Hd, Hv, IH. reflexivity.
    - exact IH.
    - destruct Hk as [Hx _].
      change (seq_ok (pi x) && item_ok (IRecord rest) = true). rewrite Hx, IH. reflexivity.
  Qed.

  Lemma do_ok : forall stmts i first ret,
    (first = false -> i <> 0) ->
    Forall (Pcm OK) stmts ->
    wf_cms stmts = true ->
    seq_ok (pi ret) = true ->
    (fix go (first : bool) (l : list delem) : bool :=
       match l with
       | [] => true
       | DStmt g _ :: r => seq_ok g && (first || negb (starts_neg g)) && go false r
       | DRet g :: r => seq_ok g && go false r
       | _ :: r => go first r
       end) first
      ((fix go (i : nat) (l : list (commented expr)) : list delem :=
          match l with
          | [] => [DRet (pi ret)]
          | Cm _ x _ :: l' => DStmt (wrapb (dominus_text fx i (pt x)) (pi x)) None :: go (S i) l'
          end) i stmts) = true.
  Proof.
    induction stmts as [|c stmts IH]; intros i first ret Hfi HF Hwf Hret.
    - cbn. rewrite Hret. reflexivity.
    - destruct (wf_cms_inv (fun e => seq_ok (pi e) = true) _ _ HF Hwf) as (x & -> & Hw & Hx & HF' & Hrest).
      specialize (IH (S i) false ret (fun _ => Nat.neq_succ_0 i) HF' Hrest Hret).
      cbn -[seq_ok starts_neg wrapb dominus_text print_text print_items] in IH |- *.
      rewrite IH. rewrite (seq_ok_wrapb _ _ Hx).
      destruct first; [reflexivity|].
      rewrite (dominus_link i x Hw (Hfi eq_refl)). reflexivity.
  Qed.

  Theorem seq_ok_all : forall e, OK e.
  Proof.
    induction e as [x|s|b| |x|x|b|items HF|entries HF|args body IHb|c t1 e IHc IHt IHe|stmts ret HF Hret
                   |x v IHv|e IHe|f args IHf HF|e i IHe IHi|e f IHe|o l r IHl IHr|uo e IHe|e IHe|e IHe]
      using expr_ind';
      intros Hwf; cbn [print_items]; try reflexivity.
    - (* EList *) rewrite seq_ok_one. cbn [wf] in Hwf. rewrite (list_ok items HF Hwf). reflexivity.
    - (* ERec *) rewrite seq_ok_one. cbn [wf] in Hwf. rewrite (rec_ok entries HF Hwf). reflexivity.
    - (* ELam *)
      cbn [wf] in Hwf. rewrite seq_ok_one. cbn [follow_ok]. rewrite andb_true_r.
      change (seq_ok (wrapb (pB pol body) (pi body)) && no_vwi (wrapb (pB pol body) (pi body)) = true).
      rewrite (seq_ok_wrapb _ _ (IHb Hwf)). cbn [andb pB policy_new].
      apply no_vwi_wrapb. intro E. apply lbnp_spec; assumption.
    - (* ECond *)
      cbn [wf] in Hwf. apply andb_prop in Hwf. destruct Hwf as [Hwf H3]. apply andb_prop in Hwf. destruct Hwf as [H1 H2].
      rewrite seq_ok_one. cbn [follow_ok]. rewrite andb_true_r.
      change (seq_ok (pi c) && seq_ok (pi t1) && seq_ok (pi e) = true).
      rewrite (IHc H1), (IHt H2), (IHe H3). reflexivity.
    - (* EDo *)
      destruct (wf_EDo_inv _ _ Hwf) as (r & -> & Hs & Hr). cbn [uncommented].
      rewrite seq_ok_one. cbn [follow_ok]. rewrite andb_true_r. cbn [Pcm] in Hret.
      exact (do_ok stmts 0 true r (fun H => match Bool.diff_true_false H with end) HF Hs (Hret Hr)).
    - (* EAssign *)
      cbn [wf] in Hwf. rewrite seq_ok_one. cbn [follow_ok]. rewrite andb_true_r.
      change (seq_ok (pi v) = true). exact (IHv Hwf).
    - (* ECall *)
      cbn [wf] in Hwf. apply andb_prop in Hwf. destruct Hwf as [Hwf1 Hwf2].
      apply seq_ok_app.
      + apply seq_ok_wrapb. exact (IHf Hwf1).
      + rewrite seq_ok_one, (args_ok args HF Hwf2). reflexivity.
      + right. right. apply post_follow. exact Hwf1.
    - (* EAccess *)
      cbn [wf] in Hwf. apply andb_prop in Hwf. destruct Hwf as [Hwf1 Hwf2].
      apply seq_ok_app.
      + apply seq_ok_wrapb. exact (IHe Hwf1).
      + rewrite seq_ok_one. cbn [follow_ok]. rewrite andb_true_r.
        change (seq_ok [IExpr false (pi i)] = true). rewrite seq_ok_one, item_ok_expr, (IHi Hwf2). reflexivity.
      + right. right. apply post_follow. exact Hwf1.
    - (* EDot *)
      cbn [wf] in Hwf.
      apply seq_ok_app.
      + apply seq_ok_wrapb. exact (IHe Hwf).
      + reflexivity.
      + right. right. apply post_follow. exact Hwf.
    - (* EBin *)
      cbn [wf] in Hwf. apply andb_prop in Hwf. destruct Hwf as [Hwl Hwr].
      apply seq_ok_app.
      + apply seq_ok_wrapb. exact (IHl Hwl).
      + rewrite seq_ok_cons. cbn [item_ok follow_ok andb]. apply seq_ok_wrapb. exact (IHr Hwr).
      + right. right. cbn [pL policy_new]. destruct (new_left oi o l) eqn:E; cbn [wrapb]; [reflexivity|].
        unfold new_left in E. apply orb_false_elim in E. destruct E as [_ E].
        unfold tail_parens in E. destruct (tail oi l) eqn:Et.
        * apply follow_closed. rewrite (tail_spec l Hwl). exact Et.
        * apply follow_lambda; [rewrite (tail_spec l Hwl); exact Et|].
          rewrite is_vwi_rule_binop. destruct (is_vwi o); [reflexivity | discriminate].
        * discriminate.
    - (* EUn *)
      cbn [wf] in Hwf. apply andb_prop in Hwf. destruct Hwf as [_ Hwe].
      rewrite seq_ok_cons. replace (item_ok (unop_item uo)) with true by (destruct uo; reflexivity).
      replace (follow_ok (unop_item uo) (wrapb (pU pol e) (pi e))) with true by (destruct uo; reflexivity).
      cbn [andb]. apply seq_ok_wrapb. exact (IHe Hwe).
    - (* EFact *)
      cbn [wf] in Hwf.
      apply seq_ok_app.
      + apply seq_ok_wrapb. exact (IHe Hwf).
      + reflexivity.
      + right. right. apply post_follow. exact Hwf.
    - (* ESpread *)
      cbn [wf] in Hwf. rewrite seq_ok_cons. cbn [item_ok follow_ok andb].
      rewrite seq_ok_one, item_ok_expr, (IHe Hwf). reflexivity.
  Qed.

  Theorem new_policy_no_capture : forall e, wf e = true -> seq_ok (pi e) = true.
  Proof. intros e H. apply seq_ok_all. exact H. Qed.
End Capture.
