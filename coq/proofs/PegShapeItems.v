(* proofs/PegShapeItems.v — the tree-level shape facts proved of Peg.parse (PegShape.v, PegShapeFirst.v) carried
   through the item view PegToItems.conv to the ITEM-level predicate PegComments.forest_shape_ok — the hypothesis of
   C09_parse_keeps_comments that was tested on every interpreter tree.  Result: forest_shape_ok holds of every
   Peg.parse result. *)
From Coq Require Import String Ascii List NArith ZArith Bool Arith Lia.
Require Import Blots.Num Blots.gen.Builtins Blots.Ast Blots.Outcome Blots.PrattTypes Blots.Formatter.
Require Import Blots.Peg Blots.gen.Grammar Blots.PegToItems Blots.PegComments Blots.proofs.PegComments
               Blots.proofs.PegGeneric Blots.proofs.PegShape Blots.proofs.PegShapeFirst.
Import ListNotations.
Local Open Scope list_scope.

Section Items.
  Variable text : string.
  Notation TOK C := (tree_ok grule text C).

  Definition good (t : tree grule) : Prop := TOK C_comment t /\ TOK C_kids t /\ TOK C_do_statement t.

  Lemma good_kids : forall r s e kids, good (Node r s e kids) -> Forall good kids.
  Proof.
    intros r s e kids (H1 & H2 & H3).
    apply tree_ok_node in H1. apply tree_ok_node in H2. apply tree_ok_node in H3.
    destruct H1 as [_ H1]. destruct H2 as [_ H2]. destruct H3 as [_ H3]. unfold forest_all in *.
    rewrite Forall_forall in *. intros k Hk. repeat split; auto.
  Qed.
  Lemma good_tkids : forall t, good t -> Forall good (tkids t).
  Proof. intros [r s e kids] H. exact (good_kids r s e kids H). Qed.
  Lemma good_comment : forall t, good t -> is_comment_rule (trule t) = true -> nl_free (tspan text t) = true.
  Proof.
    intros [r s e kids] (H1 & _) Hr. apply tree_ok_node in H1. destruct H1 as [H1 _].
    apply comment_text_ok_nl_free. exact (H1 Hr).
  Qed.
  Lemma good_spec : forall t, good t -> kids_spec (trule t) (map trule (tkids t)).
  Proof. intros [r s e kids] (_ & H2 & _). apply tree_ok_node in H2. destruct H2 as [H2 _]. exact H2. Qed.
  Lemma good_dostmt : forall t, good t -> trule t = PG_do_statement ->
    In (map trule (tkids t)) [[PG_expression]; [PG_expression; PG_comment]; [PG_comment]].
  Proof.
    intros [r s e kids] (_ & _ & H3) Hr. apply tree_ok_node in H3. destruct H3 as [H3 _].
    cbn [trule] in Hr. subst r. exact H3.
  Qed.

  Notation P := shape_here.

  Section Fuel.
    Variable f : nat.
    Hypothesis IH : forall t, good t -> item_all P (conv text f t) = true.

    Lemma convs_ok : forall l, Forall good l -> items_all P (map (conv text f) l) = true.
    Proof.
      induction 1 as [|t l Ht _ IHl]; [reflexivity|]. cbn [map items_all]. rewrite (IH t Ht), IHl. reflexivity.
    Qed.
    Lemma inner_ok : forall t, good t -> items_all P (map (conv text f) (tkids t)) = true.
    Proof. intros t H. apply convs_ok. apply good_tkids. exact H. Qed.
  End Fuel.

  Lemma opt_comment_ok : forall more, Forall good more ->
    (more = [] \/ exists m, more = [m] /\ is_comment_rule (trule m) = true) -> onl_free (opt_comment text more) = true.
  Proof.
    intros more Hg [->|(m & -> & Hr)]; [reflexivity|]. cbn [opt_comment onl_free].
    inversion Hg; subst. apply good_comment; assumption.
  Qed.

  (* "the tail of the inner pairs is empty or one (eol_)comment", from a finite kids_spec *)
  Lemma tail_of_spec : forall (first : tree grule) more (ls : list (list grule)),
    In (map trule (first :: more)) ls ->
    forallb (fun l => match l with
                      | [_] => true
                      | [_; c] => is_comment_rule c
                      | _ => false
                      end) ls = true ->
    more = [] \/ exists m, more = [m] /\ is_comment_rule (trule m) = true.
  Proof.
    intros first more ls Hin Hall. rewrite forallb_forall in Hall. specialize (Hall _ Hin). cbn [map] in Hall.
    destruct more as [|m [|m2 more]]; [left; reflexivity| |discriminate Hall].
    right. exists m. split; [reflexivity|exact Hall].
  Qed.

  Section Cases.
    Variable f : nat.
    Hypothesis IH : forall t, good t -> item_all P (conv text f t) = true.
    Notation inner := (fun k => map (conv text f) (tkids k)).

    Lemma args_ok : forall l, Forall good l -> args_all P (map inner l) = true.
    Proof.
      induction 1 as [|k l Hk _ IHl]; [reflexivity|]. cbn [map args_all]. rewrite (inner_ok f IH k Hk), IHl. reflexivity.
    Qed.

    (* ---- list *)
    Definition lelem_ok (x : lelem) : Prop :=
      lelem_shape x = true /\ match x with LCom _ => True | LItem g _ => items_all P g = true end.
    Lemma lelems_ok : forall els, Forall lelem_ok els -> forallb lelem_shape els = true /\ lels_all P els = true.
    Proof.
      induction 1 as [|x els [Hs Hx] _ [IH1 IH2]]; [split; reflexivity|].
      cbn [forallb]. rewrite Hs, IH1. split; [reflexivity|].
      destruct x; cbn [lels_all]; [exact IH2|rewrite Hx, IH2; reflexivity].
    Qed.
    Definition list_elem (k : tree grule) : lelem :=
      match trule k with
      | PG_comment => LCom (tspan text k)
      | PG_list_item =>
          match tkids k with
          | first :: more => LItem (inner first) (opt_comment text more)
          | [] => LItem [] None
          end
      | _ => LItem (inner k) None
      end.
    Lemma list_elem_ok : forall k, good k -> lelem_ok (list_elem k).
    Proof.
      intros k Hk. unfold list_elem.
      assert (Hdef : lelem_ok (LItem (inner k) None)).
      { split; [reflexivity|]. exact (inner_ok f IH k Hk). }
      destruct (trule k) eqn:Er; try exact Hdef.
      - split; [|exact I]. cbn [lelem_shape]. apply good_comment; [exact Hk|rewrite Er; reflexivity].
      - pose proof (good_spec k Hk) as Hsp. rewrite Er in Hsp. cbn [kids_spec] in Hsp.
        pose proof (good_tkids k Hk) as Hkk.
        destruct (tkids k) as [|first more]; [split; reflexivity|].
        inversion Hkk; subst. split.
        + cbn [lelem_shape]. apply opt_comment_ok; [assumption|].
          eapply tail_of_spec; [exact Hsp|reflexivity].
        + exact (inner_ok f IH first H1).
    Qed.
    (* ---- record *)
    Definition relem_ok (x : relem) : Prop :=
      relem_shape x = true /\
      match x with
      | RCom _ | RShortI _ _ => True
      | RPairI k v _ => match k with RKDyn i => items_all P i = true | _ => True end /\ items_all P v = true
      | RSpreadI g _ => items_all P g = true
      end.
    Lemma relems_ok : forall els, Forall relem_ok els -> forallb relem_shape els = true /\ rels_all P els = true.
    Proof.
      induction 1 as [|x els [Hs Hx] _ [IH1 IH2]]; [split; reflexivity|].
      cbn [forallb]. rewrite Hs, IH1. split; [reflexivity|].
      destruct x as [c|k v eol|sh eol|g eol]; cbn [rels_all]; try exact IH2.
      - destruct Hx as [Hk Hv]. rewrite Hv, IH2. destruct k; try reflexivity. rewrite Hk. reflexivity.
      - rewrite Hx, IH2. reflexivity.
    Qed.
    Definition rec_elems (k : tree grule) : list relem :=
      match trule k with
      | PG_comment => [RCom (tspan text k)]
      | PG_record_item =>
          match tkids k with
          | entry :: more =>
              let eol := opt_comment text more in
              match trule entry with
              | PG_record_pair =>
                  match tkids entry with
                  | key :: value :: _ =>
                      let kk :=
                          match trule key with
                          | PG_record_key_static =>
                              match tkids key with
                              | ik :: _ =>
                                  match trule ik with
                                  | PG_string => RKStr (inner_str text (tkids ik))
                                  | _ => RKId (tspan text ik)
                                  end
                              | [] => RKId ""
                              end
                          | _ => RKDyn (inner key)
                          end in
                      [RPairI kk (inner value) eol]
                  | _ => []
                  end
              | PG_record_shorthand => [RShortI (inner_str text (tkids entry)) eol]
              | _ => [RSpreadI (inner entry) eol]
              end
          | [] => []
          end
      | _ => []
      end.
    Lemma rec_elems_ok : forall k, good k -> Forall relem_ok (rec_elems k).
    Proof.
      intros k Hk. unfold rec_elems. destruct (trule k) eqn:Er; try constructor.
      - split; [|exact I]. cbn [relem_shape]. apply good_comment; [exact Hk|rewrite Er; reflexivity].
      - constructor.
      - pose proof (good_spec k Hk) as Hsp. rewrite Er in Hsp. cbn [kids_spec] in Hsp.
        pose proof (good_tkids k Hk) as Hkk.
        destruct (tkids k) as [|entry more]; [constructor|]. inversion Hkk as [|? ? Hge Hgm]; subst.
        assert (Heol : onl_free (opt_comment text more) = true).
        { apply opt_comment_ok; [assumption|]. eapply tail_of_spec; [exact Hsp|reflexivity]. }
        cbv zeta.
        assert (Hdef : Forall relem_ok [RSpreadI (inner entry) (opt_comment text more)]).
        { constructor; [|constructor]. split; [exact Heol|]. exact (inner_ok f IH entry Hge). }
        destruct (trule entry) eqn:Ee; try exact Hdef.
        + pose proof (good_tkids entry Hge) as Hke.
          destruct (tkids entry) as [|key [|value rest]]; try constructor; [|constructor].
          inversion Hke as [|? ? Hgk Hke']; subst. inversion Hke' as [|? ? Hgv _]; subst.
          split; [exact Heol|]. split; [|exact (inner_ok f IH value Hgv)].
          destruct (trule key); try exact (inner_ok f IH key Hgk).
          destruct (tkids key) as [|ik ?]; [exact I|]. destruct (trule ik); exact I.
        + constructor; [|constructor]. split; [exact Heol|exact I].
    Qed.

    (* ---- do-block *)
    Definition do_elems (k : tree grule) : list delem :=
      match trule k with
      | PG_do_statement =>
          match tkids k with
          | first :: more =>
              let c := match more with
                       | m :: _ => if is_rule PG_comment m then Some (tspan text m) else None
                       | [] => None
                       end in
              match trule first with
              | PG_expression => [PrattTypes.DStmt (inner first) c]
              | PG_comment => [DComStmt (tspan text first) c]
              | _ => []
              end
          | [] => []
          end
      | PG_return_statement =>
          match tkids k with
          | ex :: _ => [DRet (inner ex)]
          | [] => []
          end
      | PG_comment => [DCom (tspan text k)]
      | _ => []
      end.

    Lemma dels_all_app : forall a b, dels_all P (a ++ b) = dels_all P a && dels_all P b.
    Proof.
      induction a as [|x a IHa]; intro b; [reflexivity|].
      destruct x; cbn [app dels_all]; rewrite IHa; try reflexivity; apply andb_assoc.
    Qed.

    (* a comment / do_statement inner pair contributes shape-respecting elements that are not DRet *)
    Definition pre_ok (l : list delem) : Prop :=
      dels_all P l = true /\ forall r, do_shape (l ++ r) = do_shape r.
    Lemma do_elems_comment : forall k, good k -> trule k = PG_comment -> pre_ok (do_elems k).
    Proof.
      intros k Hk Er. unfold do_elems. rewrite Er. split; [reflexivity|]. intro r. cbn [app do_shape].
      rewrite (good_comment k Hk) by (rewrite Er; reflexivity). reflexivity.
    Qed.
    Lemma do_elems_stmt : forall k, good k -> trule k = PG_do_statement -> pre_ok (do_elems k).
    Proof.
      intros k Hk Er. unfold do_elems. rewrite Er.
      pose proof (good_dostmt k Hk Er) as Hsp. pose proof (good_tkids k Hk) as Hkk.
      destruct (tkids k) as [|first more]; [split; [reflexivity|intro; reflexivity]|].
      inversion Hkk as [|? ? Hgf Hgm]; subst. cbn [map] in Hsp. cbv zeta.
      destruct Hsp as [Hsp|[Hsp|[Hsp|[]]]].
      - (* [expression] *)
        destruct more; [|discriminate Hsp].
        assert (Hr : trule first = PG_expression) by (cbn [map] in Hsp; congruence). rewrite Hr.
        split; [cbn [dels_all]; rewrite (inner_ok f IH first Hgf); reflexivity|]. intro r. reflexivity.
      - (* [expression; comment] *)
        destruct more as [|m [|? ?]]; try discriminate Hsp.
        assert (Hr : trule first = PG_expression) by (cbn [map] in Hsp; congruence).
        assert (Hm : trule m = PG_comment) by (cbn [map] in Hsp; congruence). rewrite Hr.
        inversion Hgm; subst.
        assert (Hi : is_rule PG_comment m = true) by (unfold is_rule; rewrite Hm; reflexivity).
        rewrite Hi.
        split; [cbn [dels_all]; rewrite (inner_ok f IH first Hgf); reflexivity|]. intro r. cbn [app do_shape onl_free].
        rewrite (good_comment m) by (try assumption; rewrite Hm; reflexivity). reflexivity.
      - (* [comment] *)
        destruct more; [|discriminate Hsp].
        assert (Hr : trule first = PG_comment) by (cbn [map] in Hsp; congruence). rewrite Hr.
        split; [reflexivity|]. intro r. cbn [app do_shape].
        rewrite (good_comment first Hgf) by (rewrite Hr; reflexivity). reflexivity.
    Qed.
    Lemma do_elems_ret : forall k, good k -> trule k = PG_return_statement ->
      exists g, do_elems k = [DRet g] /\ items_all P g = true.
    Proof.
      intros k Hk Er. unfold do_elems. rewrite Er.
      pose proof (good_spec k Hk) as Hsp. rewrite Er in Hsp. cbn [kids_spec] in Hsp.
      pose proof (good_tkids k Hk) as Hkk.
      destruct (tkids k) as [|ex rest]; [discriminate Hsp|]. inversion Hkk; subst.
      eexists. split; [reflexivity|]. apply (inner_ok f IH); assumption.
    Qed.

    Lemma do_block_ok : forall kids, Forall good kids ->
      (exists pre, map trule kids = pre ++ [PG_return_statement] /\
                   Forall (fun x => x = PG_comment \/ x = PG_do_statement) pre) ->
      do_shape (flat_map do_elems kids) = true /\ dels_all P (flat_map do_elems kids) = true.
    Proof.
      intros kids Hg (pre & E & Hpre). revert kids Hg E.
      induction Hpre as [|x pre Hx _ IHp]; intros kids Hg E.
      - destruct kids as [|k [|k2 kids]]; try discriminate E. cbn [map app] in E. inversion E as [Er].
        inversion Hg; subst. destruct (do_elems_ret k) as (g & Eg & Hgi); try assumption.
        cbn [flat_map]. rewrite Eg. cbn [app do_shape dels_all]. rewrite Hgi. split; reflexivity.
      - destruct kids as [|k kids]; [destruct pre; discriminate E|]. cbn [map app] in E. inversion E as [[Er Erest]].
        inversion Hg as [|? ? Hk Hks]; subst.
        destruct (IHp kids Hks Erest) as [I1 I2].
        assert (Hp : pre_ok (do_elems k)).
        { destruct Hx as [Hx|Hx]; [apply do_elems_comment|apply do_elems_stmt]; congruence. }
        destruct Hp as [P1 P2]. cbn [flat_map]. rewrite P2, dels_all_app, P1, I1, I2. split; reflexivity.
    Qed.
  End Cases.

  Lemma conv_shape : forall f t, good t -> item_all P (conv text f t) = true.
  Proof.
    induction f as [|f IH]; intros t Hg; [reflexivity|].
    destruct t as [r s e kids].
    pose proof (good_kids _ _ _ _ Hg) as Hk.
    pose proof (convs_ok f IH) as Hcv. pose proof (inner_ok f IH) as Hin.
    destruct r; try reflexivity.
    - (* number *) cbn [conv]. unfold number_item.
      match goal with |- context [match ?X with Some _ => _ | None => _ end] => destruct X end; reflexivity.
    - (* lambda *)
      destruct kids as [|al [|body rest]]; try reflexivity. cbn [conv]. rewrite item_all_eq. cbn [shape_here andb].
      apply Hin. inversion Hk as [|? ? _ Hk2]; subst. inversion Hk2; subst. assumption.
    - (* lambda_expression *) cbn [conv]. rewrite item_all_eq. cbn [shape_here andb]. apply Hcv. exact Hk.
    - (* access *) cbn [conv]. rewrite item_all_eq. cbn [shape_here andb]. apply Hcv. exact Hk.
    - (* call_list *) cbn [conv]. rewrite item_all_eq. cbn [shape_here andb]. apply (args_ok f IH). exact Hk.
    - (* list *)
      cbn [conv]. rewrite item_all_eq. cbn [shape_here].
      change (map _ kids) with (map (list_elem f) kids).
      assert (Hl : Forall lelem_ok (map (list_elem f) kids)).
      { clear - Hk IH. induction Hk as [|k l Hk0 _ IHl]; [constructor|]. cbn [map]. constructor; [apply (list_elem_ok f IH); assumption|exact IHl]. }
      destruct (lelems_ok _ Hl) as [H1 H2]. rewrite H1, H2. reflexivity.
    - (* record *)
      cbn [conv]. rewrite item_all_eq. cbn [shape_here].
      change (flat_map _ kids) with (flat_map (rec_elems f) kids).
      assert (Hl : Forall relem_ok (flat_map (rec_elems f) kids)).
      { clear - Hk IH. induction Hk as [|k l Hk0 _ IHl]; [constructor|]. cbn [flat_map].
        apply Forall_app. split; [apply (rec_elems_ok f IH); assumption|exact IHl]. }
      destruct (relems_ok _ Hl) as [H1 H2]. rewrite H1, H2. reflexivity.
    - (* conditional *)
      destruct kids as [|c [|t1 [|e1 rest]]]; try reflexivity. cbn [conv]. rewrite item_all_eq. cbn [shape_here andb].
      inversion Hk as [|? ? G1 Hk2]; subst. inversion Hk2 as [|? ? G2 Hk3]; subst. inversion Hk3 as [|? ? G3 _]; subst.
      rewrite (Hin c G1), (Hin t1 G2), (Hin e1 G3). reflexivity.
    - (* expression *) cbn [conv]. rewrite item_all_eq. cbn [shape_here andb]. apply Hcv. exact Hk.
    - (* assignment *)
      destruct kids as [|x [|v rest]]; try reflexivity. cbn [conv]. rewrite item_all_eq. cbn [shape_here andb].
      apply Hin. inversion Hk as [|? ? _ Hk2]; subst. inversion Hk2; subst. assumption.
    - (* do_block *)
      cbn [conv]. rewrite item_all_eq. cbn [shape_here].
      change (flat_map _ kids) with (flat_map (do_elems f) kids).
      pose proof (good_spec _ Hg) as Hsp. cbn [trule tkids kids_spec] in Hsp.
      destruct (do_block_ok f IH kids Hk Hsp) as [H1 H2]. rewrite H1, H2. reflexivity.
  Qed.
End Items.

Lemma forest_items_shape : forall text l, Forall (good text) l -> forallb shapes_ok (forest_items text l) = true.
Proof.
  intros text l H. unfold forest_items. induction H as [|t l Ht _ IH]; [reflexivity|].
  cbn [flat_map]. rewrite forallb_app, IH, andb_true_r.
  destruct (is_rule PG_statement t); [|reflexivity].
  unfold stmt_items. pose proof (good_tkids text t Ht) as Hk.
  destruct (tkids t) as [|first rest]; [reflexivity|]. inversion Hk as [|? ? Hf _]; subst.
  assert (Hs : shapes_ok (conv_kids text first) = true).
  { unfold shapes_ok, conv_kids. apply (convs_ok text _ (conv_shape text _)). apply good_tkids. exact Hf. }
  destruct (trule first); cbn [forallb]; rewrite ?Hs; reflexivity.
Qed.

(* forest_shape_ok — one of the two hypotheses of C09_parse_keeps_comments — holds of EVERY result of Peg.parse *)
Theorem parse_forest_shape_ok : forall fuel text s',
  Peg.parse blots_grammar fuel PG_input text = Peg.Ok s' -> forest_shape_ok text (rev (out s')) = true.
Proof.
  intros fuel text s' H. unfold forest_shape_ok. apply forest_items_shape.
  pose proof (parse_nodes grule blots_grammar text C_comment (blots_comment_body_gives text) fuel PG_input s' H) as H1.
  pose proof (parse_nodes grule blots_grammar text C_kids (blots_kids_body_gives text) fuel PG_input s' H) as H2.
  pose proof (parse_nodes grule blots_grammar text C_do_statement (blots_do_statement_body_gives text) fuel PG_input s' H) as H3.
  unfold forest_all in *. apply Forall_rev. rewrite Forall_forall in *. intros t Ht. repeat split; auto.
Qed.

Theorem parse_program_c_shape_ok : forall text forest p,
  parse_program_c text = PCOk forest p -> forest_shape_ok text forest = true.
Proof.
  intros text forest p H. destruct (parse_program_c_ok _ _ _ H) as (s & Hs & -> & _).
  exact (parse_forest_shape_ok _ _ _ Hs).
Qed.
