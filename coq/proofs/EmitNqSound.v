(* EmitNqSound.v — C05: the first-order emission equivalence with NaN and both-quote strings / keys
   in the captured data: EmitSound.emit_equiv_first_order_on at the class [emittable_nq nanfix]
   (first-order; NaN allowed when the NaN literal is `(0/0)`; both-quote strings and keys
   allowed), with ONE more hypothesis on the operator implementation, [binop_lit_ok] (0/0 is NaN,
   string + string concatenates), under which the literal of such a value evaluates to the value,
   configuration unchanged ([lit_roundtrip_nq]). *)
From Coq Require Import String Ascii List ZArith Bool Lia.
Require Import Blots.Num Blots.gen.Builtins Blots.Ast Blots.Value Blots.Outcome Blots.Binop
               Blots.Env Blots.Eval Blots.Emit Blots.EmitNq
               Blots.proofs.EmitLit Blots.proofs.EmitSound Blots.proofs.EmitNqLit.
Import ListNotations.
Open Scope list_scope.

Lemma emittable_nq_lf n v : emittable_nq n v = true -> lf v = true.
Proof. unfold emittable_nq. intros H. apply andb_prop in H as [H _]. now apply fo_lf. Qed.

(* P2, first-order part: a call of the original closure and a call of the reloaded emission
   give the same outcome and the same store — at every depth, from any two call sites *)
Theorem emit_equiv_first_order_nq release binop_impl builtin_impl :
  impl_lf_respecting binop_impl builtin_impl -> binop_lit_ok binop_impl ->
  forall nanfix d fr fr' this this' id id' params body sv args st,
    first_order_body body = true ->
    free_vars body (map arg_name params ++ map fst sv) = [] ->
    forallb (fun kv => emittable_nq nanfix (snd kv)) sv = true ->
    (forall x, special_name x = true -> rec_get sv x = None) ->
    (forall x, In x (map arg_name params) -> rec_get sv x = None) ->
    rec_get sv "inputs"%string = None ->
    (forall n, lam_name st id = Some n -> rec_get sv n = None) ->
    lfs args = true ->
    AD release binop_impl builtin_impl d fr this (VLam id params body sv) args st =
    AD release binop_impl builtin_impl d fr' this'
       (VLam id' params (subst true (scope_map nanfix true sv) body) []) args st.
Proof.
  intros Himpl Hops nanfix.
  apply (emit_equiv_first_order_on release binop_impl builtin_impl Himpl nanfix (emittable_nq nanfix) (emittable_nq_lf nanfix)).
  intros apply v c Hv. apply lit_roundtrip_nq; assumption.
Qed.

(* ------------------------------------------------------------------ instances: the transcribed evaluator *)
Require Import Blots.EvalInst Blots.EvalFull Blots.EvalAll Blots.proofs.LfInst Blots.proofs.AllLf.

(* the two instances; their statements are written out at C05_emit_equiv_first_order_nan_quote[_all] *)
Definition emit_equiv_first_order_nq_evaluator (release : bool) :=
  emit_equiv_first_order_nq release binop_impl builtin_impl impl_lf_respecting_inst binop_lit_ok_inst.
Definition emit_equiv_first_order_nq_all (o : oracle) (release : bool) :=
  emit_equiv_first_order_nq release (binop_all o) (builtin_all o) (impl_lf_respecting_all o) (binop_lit_ok_all o).
