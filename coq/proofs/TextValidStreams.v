(* TextValidStreams.v — the glue-panic hypothesis of C01_text_run_no_panic_all reduced to a DECIDABLE shape predicate of
   the PEG output (C01): every `statement` pair starts with expression / output_declaration / comment, and
   the token stream of the first two kinds alternates deeply (TextValidNoGlue.stream_ok over the crate's table).  That the
   grammar only produces such forests ([text_streams_ok_full]) is NOT proved (PegShape.kids_spec has no clause for the
   inner pairs of `expression`); the predicate is computable, so it can be checked by vm_compute for a given text.
   All unfolding is done at a GENERIC fuel and instantiated by rewriting (conversion through Peg.parse on the concrete
   grammar at [peg_fuel text] does not terminate in practice). *)
From Coq Require Import String Ascii List NArith ZArith Bool Arith.
Require Import Blots.Peg Blots.gen.Grammar Blots.PrattTypes Blots.Pratt Blots.PegToItems.
Require Import Blots.Num Blots.gen.Builtins Blots.Ast Blots.Value Blots.Outcome Blots.Env Blots.Eval
               Blots.Program Blots.EvalAll Blots.TextRun Blots.Valid.
Require Import Blots.proofs.TextRunFacts Blots.proofs.TextValid Blots.proofs.TextValidNoGlue.
Import ListNotations.
Local Open Scope list_scope.

Definition stmt_streams_ok (text : string) (cf : nat) (t : tree grule) : bool :=
  match tkids t with
  | first :: _ =>
      match trule first with
      | PG_expression | PG_output_declaration => impl_stream_ok (map (conv text cf) (tkids first))
      | PG_comment => true
      | _ => false
      end
  | [] => true
  end.
Definition forest_streams_ok (text : string) (forest : list (tree grule)) : bool :=
  let cf := forest_conv_fuel forest in
  forallb (fun t => if is_rule PG_statement t then stmt_streams_ok text cf t else true) forest.
Definition text_streams_ok_fuel (fuel : nat) (text : string) : bool :=
  match Peg.parse blots_grammar fuel PG_input text with
  | Peg.Ok s => forest_streams_ok text (rev (Peg.out s))
  | _ => true
  end.
Definition text_streams_ok (text : string) : bool := text_streams_ok_fuel (peg_fuel text) text.
Lemma text_streams_ok_unfold : forall text, text_streams_ok text = text_streams_ok_fuel (peg_fuel text) text.
Proof. intro text. unfold text_streams_ok. reflexivity. Qed.

Lemma glue_stmt_not_panic : forall mk r, r <> Outcome.Panic -> glue_stmt mk r <> TGluePanic.
Proof. intros mk r H. destruct r as [[e|]| | | |]; cbn [glue_stmt]; try discriminate. exfalso; apply H; reflexivity. Qed.

Lemma text_stmt_of_no_glue_panic : forall text cf t r,
  stmt_streams_ok text cf t = true -> text_stmt_of text cf t = Some r -> r <> TGluePanic.
Proof.
  intros text cf t r S H. unfold text_stmt_of in H. unfold stmt_streams_ok in S.
  destruct (tkids t) as [|first rest]; [discriminate H|].
  destruct (trule first); try discriminate S; injection H as <-; try discriminate.
  - apply glue_stmt_not_panic. apply pratt_impl_no_panic. exact S.
  - apply glue_stmt_not_panic. apply pratt_impl_no_panic. exact S.
Qed.

Lemma stmts_of_forest_no_glue_panic : forall text forest,
  forest_streams_ok text forest = true -> Forall (fun t => t <> TGluePanic) (stmts_of_forest text forest).
Proof.
  intros text forest S.
  apply (stmts_of_forest_Forall text _ (fun cf t => stmt_streams_ok text cf t = true) (text_stmt_of_no_glue_panic text)).
  apply Forall_forall. intros t Hin Hr.
  unfold forest_streams_ok in S. rewrite forallb_forall in S. specialize (S t Hin). rewrite Hr in S. exact S.
Qed.

Lemma text_no_glue_panic_fuel : forall fuel text l,
  parse_text_stmts_fuel fuel text = TIOk l -> text_streams_ok_fuel fuel text = true ->
  Forall (fun t => t <> TGluePanic) l.
Proof.
  intros fuel text l H S. unfold parse_text_stmts_fuel in H. unfold text_streams_ok_fuel in S.
  destruct (Peg.parse blots_grammar fuel PG_input text); try discriminate H.
  injection H as <-. apply stmts_of_forest_no_glue_panic. exact S.
Qed.
Theorem text_no_glue_panic : forall text l,
  parse_text_stmts text = TIOk l -> text_streams_ok text = true -> Forall (fun t => t <> TGluePanic) l.
Proof.
  intros text l H S. rewrite parse_text_stmts_unfold in H. rewrite text_streams_ok_unfold in S.
  eapply text_no_glue_panic_fuel; eassumption.
Qed.

(* what remains for "EVERY text": the grammar only produces deeply alternating statement streams *)
Definition text_streams_ok_full : Prop := forall text, text_streams_ok text = true.

Theorem text_run_no_panic_streams : forall o, oracle_valid o -> oracle_display_safe o ->
  forall release inputs text l, valid_inputs inputs ->
  parse_text_stmts text = TIOk l -> text_streams_ok text = true ->
  exists sr, run_text_res (eval_top release (binop_all o) (builtin_all_fit o)) inputs text = TRun sr
             /\ Forall result_fine (snd sr).
Proof.
  intros o Ho Hd release inputs text l Hin H S.
  exact (text_run_no_panic o Ho Hd release inputs text l Hin H (text_no_glue_panic text l H S)).
Qed.
