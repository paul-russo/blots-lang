(* AllValidOps.v — the operator hypothesis of AllValidEval.v discharged for the COMPLETE operator table
   EvalAll.binop_all o (evaluate_binary_op_ast: 26 operators x 3 broadcasting arms, `^` through the oracle's
   powf): on valid operands, with a callback that neither panics nor returns an invalid value on valid
   arguments, no arm panics (every `list[idx]` stays in range, no unreachable!() arm is reached) and the
   result is a valid value — every number it contains is an operand's or the result of + - * / % ^ on valid
   numbers (AllValidNum.v) or an index `idx as f64`.  The arms are Avoid.eval_binop_V at valid_value. *)
From Coq Require Import String Ascii List ZArith Bool Lia.
Require Import Blots.Num Blots.gen.Builtins Blots.Ast Blots.Value Blots.Outcome Blots.Binop
               Blots.Env Blots.Eval Blots.EvalInst Blots.EvalFull Blots.EvalAll Blots.Valid
               Blots.proofs.Avoid Blots.proofs.NoPanic Blots.proofs.AllValidNum Blots.proofs.AllValidEval.
Import ListNotations.
Open Scope list_scope.
Open Scope nat_scope.

(* ---------------- the outcome monad with a postcondition: Avoid.sat at Panic ---------------- *)
Definition vresP {A} (P : A -> Prop) (o : outcome A) : Prop := o <> Panic /\ forall a, o = Ok a -> P a.
Lemma vres_vresP : forall r, vres r <-> vresP valid_value r. Proof. reflexivity. Qed.
Lemma vresP_weaken : forall {A} (P Q : A -> Prop) o, (forall a, P a -> Q a) -> vresP P o -> vresP Q o.
Proof. exact (sat_imp FPanic). Qed.

Lemma vbool : forall b, valid_value (VBool b). Proof. reflexivity. Qed.
Lemma vstr : forall s, valid_value (VStr s). Proof. reflexivity. Qed.
Lemma vnum : forall x, valid_num x -> valid_value (VNum x). Proof. intros x H; exact H. Qed.

(* valid numbers are closed under the arithmetic of the operators *)
Lemma arith_valid : forall f, In f [nadd; nsub; nmul; ndiv; nfmod] ->
  forall x y, valid_value (VNum x) -> valid_value (VNum y) -> valid_value (VNum (f x y)).
Proof.
  intros f Hf. cbn [In] in Hf. decompose [or] Hf; subst; try contradiction;
    first [exact nadd_valid|exact nsub_valid|exact nmul_valid|exact ndiv_valid|exact nfmod_valid].
Qed.
Lemma idx_valid : forall i, valid_value (VNum (num_of_idx i)).
Proof. intros i. apply num_of_Z_valid. Qed.

(* ---------------- the complete operator table ---------------- *)
Theorem binop_all_valid : forall o, oracle_valid o ->
  forall cb op l r st, vcb cb -> valid_value l -> valid_value r -> vres (fst (binop_all o cb op l r st)).
Proof.
  intros o Ho cb op l r st Hcb Hl Hr. apply vcb_ok in Hcb. unfold binop_all.
  assert (G : forall powf, (forall x y, valid_num x -> valid_num y -> valid_num (powf x y)) ->
              vres (fst (eval_binop store cb fn_accepts2_of_value powf op l r st))).
  { intros powf Hp.
    apply (eval_binop_V FPanic valid_value) with (St := store) (call := cb) (powf := powf);
      first [exact Hcb|exact Hl|exact Hr|exact Hp|exact arith_valid|exact idx_valid|exact vv_list
            |intros; reflexivity]. }
  destruct op; try (unfold binop_impl; apply G; intros; reflexivity).
  apply G. exact (ov_powf o Ho).
Qed.
