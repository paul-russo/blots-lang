(* FullHigherOrder.v — C13 at evaluator level for the evaluator with EVERY transcribed built-in
   (EvalFull.builtin_full): the built-in forms map / filter are the depth error or exactly the
   operator forms via / where; `x into f` is `f(x)`. *)
From Coq Require Import String Ascii List ZArith Bool Lia.
Require Import Blots.Num Blots.gen.Builtins Blots.Ast Blots.Value Blots.Outcome Blots.Binop
               Blots.Env Blots.Eval Blots.BuiltinsHof Blots.Program Blots.EvalInst Blots.EvalFull
               Blots.proofs.DepthMono Blots.proofs.InstDepth Blots.proofs.HigherOrder
               Blots.proofs.FullInst.
Import ListNotations.
Open Scope list_scope.
Open Scope nat_scope.

Section DepthFull.
  Variable release : bool.
  Notation AD := (AD release binop_impl builtin_full).

  Lemma AD_le2_full : forall d fr, cb_le (AD d fr) (AD (S (S d)) fr).
  Proof. exact (AD_le2_gen release binop_impl builtin_full binop_impl_le builtin_full_le). Qed.

  Lemma AD_builtin2_full : forall d fr b x y st,
    can_accept (builtin_arity b) 2 = true ->
    AD d fr (VBuiltin b) (VBuiltin b) [x; y] st =
    match d with
    | O => (ErrDepth, st)
    | S O => builtin_full (fun _ f a s => call_too_deep f a s) b [x; y] st
    | S (S d'') => builtin_full (AD d'' fr) b [x; y] st
    end.
  Proof. exact (AD_builtin2_gen release binop_impl builtin_full). Qed.

  Lemma too_deep_le_full : forall fr, cb_le (fun _ f a s => call_too_deep f a s) (AD 1 fr).
  Proof. exact (too_deep_le_gen release binop_impl builtin_full). Qed.

  Theorem map_form_le_via_form_full : forall d fr l f st,
    is_callable f = true ->
    rle (AD d fr (VBuiltin B_map) (VBuiltin B_map) [VList l; f] st)
        (binop_impl (AD d fr) Via (VList l) f st).
  Proof.
    exact (map_form_le_via_form_gen release binop_impl builtin_full binop_impl_le builtin_full_le (fun _ _ _ _ => eq_refl) (fun _ => eq_refl)).
  Qed.

  Theorem filter_form_le_where_form_full : forall d fr l f st,
    is_callable f = true ->
    rle (AD d fr (VBuiltin B_filter) (VBuiltin B_filter) [VList l; f] st)
        (binop_impl (AD d fr) Where (VList l) f st).
  Proof.
    exact (filter_form_le_where_form_gen release binop_impl builtin_full binop_impl_le builtin_full_le (fun _ _ _ _ => eq_refl) (fun _ => eq_refl)).
  Qed.

  Theorem into_form_is_call_form_full : forall d fr x f st,
    is_callable f = true ->
    binop_impl (AD d fr) Into x f st = AD d fr f f [x] st.
  Proof. exact (into_form_is_call_form_gen release binop_impl builtin_full (fun _ _ _ _ => eq_refl)). Qed.
End DepthFull.
