(* AllValidNum.v — every number operation of Num.v (and the number-producing helpers of the built-in
   transcriptions) returns a VALID binary64 (SpecFloat.valid_binary 53 1024) on valid arguments.
   The SpecFloat operations are Flocq's (AggPercentile.binary_round_equiv ...), and Flocq's
   binary_round_correct / Bmult_correct_aux / Bdiv_correct_aux / Bsqrt_correct_aux carry the validity of
   the result as their first component.  Those lemmas are proved over the reals, so everything here
   inherits the four standard-library real-number axioms (the allow-list of checks/common.py). *)
From Coq Require Import ZArith String List Bool Lia Reals Floats.SpecFloat Arith.
From Flocq Require Import Core.Core Core.Zaux Core.Digits IEEE754.BinarySingleNaN.
Require Import Blots.Num Blots.NumText Blots.Valid Blots.proofs.AggPercentile.
Import ListNotations.
Open Scope Z_scope.

#[local] Existing Instance Hprec.
#[local] Existing Instance Hmax.

Lemma valid_num_iff x : valid_num x <-> valid_binary prec emax x = true.
Proof. reflexivity. Qed.

(* ---------------- constants ---------------- *)
Lemma valid_nan : valid_num S754_nan. Proof. reflexivity. Qed.
Lemma valid_zero s : valid_num (S754_zero s). Proof. reflexivity. Qed.
Lemma valid_inf s : valid_num (S754_infinity s). Proof. reflexivity. Qed.
#[export] Hint Resolve valid_nan valid_zero valid_inf : vnum.

(* validity does not look at the sign *)
Lemma valid_finite_sign s s' m e : valid_num (S754_finite s m e) -> valid_num (S754_finite s' m e).
Proof. exact (fun H => H). Qed.

(* ---------------- rounding ---------------- *)
Lemma binary_round_valid s m e : valid_num (SpecFloat.binary_round prec emax s m e).
Proof.
  unfold valid_num, valid_numb. rewrite binary_round_equiv.
  exact (proj1 (binary_round_correct prec emax Hprec Hmax mode_NE s m e)).
Qed.
Lemma binary_normalize_valid m e sz : valid_num (SpecFloat.binary_normalize prec emax m e sz).
Proof. destruct m; cbn [SpecFloat.binary_normalize]; [reflexivity|apply binary_round_valid..]. Qed.

Lemma num_of_Z_valid z : valid_num (num_of_Z z).
Proof. apply binary_normalize_valid. Qed.
Lemma num_of_sm_valid s n : valid_num (num_of_sm s n).
Proof. destruct n; cbn [num_of_sm]; [reflexivity|apply binary_round_valid..]. Qed.
Lemma num_of_dyadic_valid s m e : valid_num (num_of_dyadic s m e).
Proof. destruct m; cbn [num_of_dyadic]; [reflexivity|apply binary_round_valid..]. Qed.
#[export] Hint Resolve num_of_Z_valid num_of_sm_valid num_of_dyadic_valid : vnum.

(* ---------------- + - * / sqrt ---------------- *)
Lemma nadd_valid x y : valid_num x -> valid_num y -> valid_num (nadd x y).
Proof.
  intros Hx Hy. unfold nadd.
  destruct x as [sx|sx| |sx mx ex], y as [sy|sy| |sy my ey]; cbn [SFadd];
    try assumption; try reflexivity; try (destruct (Bool.eqb _ _); reflexivity).
  apply binary_normalize_valid.
Qed.
Lemma nsub_valid x y : valid_num x -> valid_num y -> valid_num (nsub x y).
Proof.
  intros Hx Hy. unfold nsub.
  destruct x as [sx|sx| |sx mx ex], y as [sy|sy| |sy my ey]; cbn [SFsub];
    try assumption; try reflexivity; try (destruct (Bool.eqb _ _); reflexivity).
  apply binary_normalize_valid.
Qed.
Lemma nmul_valid x y : valid_num x -> valid_num y -> valid_num (nmul x y).
Proof.
  intros Hx Hy. unfold nmul.
  destruct x as [sx|sx| |sx mx ex], y as [sy|sy| |sy my ey]; cbn [SFmul]; try reflexivity.
  unfold valid_num, valid_numb. rewrite binary_round_aux_equiv.
  exact (proj1 (Bmult_correct_aux prec emax Hprec Hmax mode_NE sx mx ex Hx sy my ey Hy)).
Qed.
Lemma ndiv_valid x y : valid_num x -> valid_num y -> valid_num (ndiv x y).
Proof.
  intros Hx Hy. unfold ndiv.
  destruct x as [sx|sx| |sx mx ex], y as [sy|sy| |sy my ey]; cbn [SFdiv]; try reflexivity.
  assert (C := proj1 (Bdiv_correct_aux prec emax Hprec Hmax mode_NE sx mx ex sy my ey)).
  destruct (SFdiv_core_binary prec emax (Z.pos mx) ex (Z.pos my) ey) as [[mz ez] lz].
  unfold valid_num, valid_numb. rewrite binary_round_aux_equiv. exact C.
Qed.
Lemma nsqrt_valid x : valid_num x -> valid_num (nsqrt x).
Proof.
  intros Hx. unfold nsqrt.
  destruct x as [sx|sx| |sx mx ex]; cbn [SFsqrt]; try reflexivity; try (destruct sx; reflexivity).
  destruct sx; [reflexivity|].
  assert (C := proj1 (Bsqrt_correct_aux prec emax Hprec Hmax mode_NE mx ex Hx)).
  destruct (SFsqrt_core_binary prec emax (Z.pos mx) ex) as [[mz ez] lz].
  unfold valid_num, valid_numb. rewrite binary_round_aux_equiv. exact C.
Qed.
Lemma nneg_valid x : valid_num x -> valid_num (nneg x).
Proof. destruct x; exact (fun H => H). Qed.
Lemma nabs_valid x : valid_num x -> valid_num (nabs x).
Proof. destruct x; exact (fun H => H). Qed.
#[export] Hint Resolve nadd_valid nsub_valid nmul_valid ndiv_valid nsqrt_valid nneg_valid nabs_valid : vnum.

(* ---------------- integer part, fmod, min / max ---------------- *)
Lemma ntrunc_valid x : valid_num x -> valid_num (ntrunc x).
Proof.
  intros H. destruct x; try exact H. cbn [ntrunc]. destruct (split_int m e) as [[q r] d].
  apply num_of_sm_valid.
Qed.
Lemma nfloor_valid x : valid_num x -> valid_num (nfloor x).
Proof.
  intros H. destruct x; try exact H. cbn [nfloor]. destruct (split_int m e) as [[q r] d].
  destruct s; apply num_of_sm_valid.
Qed.
Lemma nceil_valid x : valid_num x -> valid_num (nceil x).
Proof.
  intros H. destruct x; try exact H. cbn [nceil]. destruct (split_int m e) as [[q r] d].
  destruct s; apply num_of_sm_valid.
Qed.
Lemma nround_valid x : valid_num x -> valid_num (nround x).
Proof.
  intros H. destruct x; try exact H. cbn [nround]. destruct (split_int m e) as [[q r] d].
  apply num_of_sm_valid.
Qed.
Lemma nfmod_valid x y : valid_num x -> valid_num y -> valid_num (nfmod x y).
Proof.
  intros Hx Hy. destruct x as [sx|sx| |sx mx ex], y as [sy|sy| |sy my ey]; cbn [nfmod];
    try assumption; try reflexivity.
  apply num_of_dyadic_valid.
Qed.
Lemma nmin_valid x y : valid_num x -> valid_num y -> valid_num (nmin x y).
Proof. intros Hx Hy. unfold nmin. destruct (is_nan x), (is_nan y), (nltb y x); assumption. Qed.
Lemma nmax_valid x y : valid_num x -> valid_num y -> valid_num (nmax x y).
Proof. intros Hx Hy. unfold nmax. destruct (is_nan x), (is_nan y), (nltb x y); assumption. Qed.
#[export] Hint Resolve ntrunc_valid nfloor_valid nceil_valid nround_valid nfmod_valid nmin_valid nmax_valid : vnum.

(* ---------------- bit patterns: every 64-bit pattern is a double ---------------- *)
Lemma digits2_pos_Zdigits p : Z.pos (digits2_pos p) = Zdigits radix2 (Z.pos p).
Proof. apply Zpos_digits2_pos. Qed.
Lemma canonical_of_digits m e d :
  Zdigits radix2 (Z.pos m) = d -> SpecFloat.fexp prec emax (d + e) = e -> e <= emax - prec ->
  valid_num (S754_finite false m e).
Proof.
  intros Hd Hf He. unfold valid_num, valid_numb, valid_binary, bounded, canonical_mantissa.
  rewrite digits2_pos_Zdigits, Hd, Hf, (Zeq_bool_true e e eq_refl). cbn [andb]. apply Z.leb_le. exact He.
Qed.
Lemma num_of_bits_valid b : valid_num (num_of_bits b).
Proof.
  unfold num_of_bits.
  set (e := (b / 2 ^ 52) mod 2 ^ 11). set (m := b mod 2 ^ 52).
  assert (He : 0 <= e < 2 ^ 11) by (apply Z.mod_pos_bound; reflexivity).
  assert (Hm : 0 <= m < 2 ^ 52) by (apply Z.mod_pos_bound; reflexivity).
  destruct (e =? 2047) eqn:E1; [destruct (m =? 0); reflexivity|].
  apply Z.eqb_neq in E1.
  destruct (e =? 0) eqn:E0.
  - destruct m as [|p|p] eqn:Em; try reflexivity.
    apply (valid_finite_sign false).
    assert (Hd : 0 < Zdigits radix2 (Z.pos p) <= 52).
    { split; [apply Zdigits_gt_0; discriminate|].
      apply Zdigits_le_Zpower. cbn [Z.abs]. change (Zpower radix2 52) with (2 ^ 52). lia. }
    eapply canonical_of_digits; [reflexivity| |unfold emax, prec; lia].
    unfold SpecFloat.fexp, SpecFloat.emin, prec, emax. lia.
  - apply Z.eqb_neq in E0.
    destruct (m + 2 ^ 52) as [|p|p] eqn:Em; try reflexivity.
    apply (valid_finite_sign false).
    assert (Hd : Zdigits radix2 (Z.pos p) = 53).
    { apply Zdigits_unique. cbn [Z.abs]. change (Zpower radix2 (53 - 1)) with (2 ^ 52).
      change (Zpower radix2 53) with (2 ^ 53). change (2 ^ 53) with (2 ^ 52 + 2 ^ 52). lia. }
    eapply canonical_of_digits; [exact Hd| |unfold emax, prec; lia].
    unfold SpecFloat.fexp, SpecFloat.emin, prec, emax. lia.
Qed.
#[export] Hint Resolve num_of_bits_valid : vnum.

(* ---------------- a parsed number: NumText.rn_decimal = Flocq's correctly rounded binary_round / division ---------------- *)
Lemma rn_ratio_valid : forall n d, valid_num (NumText.rn_ratio n d).
Proof.
  intros n d. unfold NumText.rn_ratio.
  assert (C := proj1 (Bdiv_correct_aux prec emax Hprec Hmax mode_NE false n 0 false d 0)).
  destruct (SFdiv_core_binary prec emax (Z.pos n) 0 (Z.pos d) 0) as [[q e] l].
  unfold valid_num, valid_numb. rewrite binary_round_aux_equiv. exact C.
Qed.
Lemma rn_decimal_valid : forall s m e, valid_num (NumText.rn_decimal s m e).
Proof.
  intros s m e. unfold NumText.rn_decimal. destruct m; try reflexivity.
  assert (Hp : valid_num (rn_pos p e)).
  { unfold rn_pos. destruct (400 <? e)%Z; [reflexivity|]. destruct (e <? _)%Z; [reflexivity|].
    destruct (0 <=? e)%Z.
    - destruct (Z.pos p * 10 ^ e)%Z; try reflexivity. apply binary_round_valid.
    - destruct (10 ^ - e)%Z; try reflexivity. apply rn_ratio_valid. }
  unfold with_sign. destruct s; [apply nneg_valid|]; exact Hp.
Qed.
