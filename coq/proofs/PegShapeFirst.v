(* proofs/PegShapeFirst.v — FIRST-byte analysis of the PEG interpreter (every grammar) and its use on gen/Grammar.v:
   a do_statement that starts with a `comment` pair has no second pair (the `comment` rule runs to the line break /
   end of input, and `WHITESPACE* ~ comment` cannot start there) — the one conjunct of PegComments.do_shape that is
   not a rule-shape fact.
   [run_first]: if an expression succeeds, either the remaining input is unchanged or its first byte is in the
   (over-approximated) set [first e], read off the expression; rule references through a table [Fst] closed under
   unfolding rule bodies. *)
From Coq Require Import String Ascii List NArith Bool Arith Lia ZifyBool ZifyNat ZifyN.
Require Import Blots.Peg Blots.proofs.PegGeneric.
Import ListNotations.

Section First.
  Variable R : Type.
  Variable G : grammar R.
  Notation st := (st R).
  Notation res := (res R).
  Variable Fst : R -> ascii -> bool.

  Definition head_is (x : string) (c : ascii) : bool :=
    match x with String a _ => Ascii.eqb a c | EmptyString => false end.
  Definition head_is_ci (x : string) (c : ascii) : bool :=
    match x with String a _ => Ascii.eqb (lower a) (lower c) | EmptyString => false end.
  Variable Nul : R -> bool.
  Definition wsf (c : ascii) : bool :=
    (match g_ws G with Some w => Fst w c | None => false end) ||
    (match g_comment G with Some w => Fst w c | None => false end).
  Definition is_empty (x : string) : bool := match x with EmptyString => true | _ => false end.

  (* may the expression succeed without consuming a byte? (over-approximation) *)
  Fixpoint nullable (e : expr R) : bool :=
    match e with
    | Str x | Insens x => is_empty x
    | Range _ _ => false
    | Ident r => Nul r
    | Builtin BAny => false
    | Builtin _ => true
    | PosPred _ | NegPred _ => true
    | Seq a b => nullable a && nullable b
    | Choice a b => nullable a || nullable b
    | Opt _ | Rep _ | SkipUntil _ => true
    | Push x | RestoreOnErr x => nullable x
    end.
  (* the first byte of the input when the expression succeeds and consumes something (over-approximation) *)
  Fixpoint first (e : expr R) (c : ascii) : bool :=
    match e with
    | Str x => head_is x c
    | Insens x => head_is_ci x c
    | Range lo hi => in_range lo hi c
    | Ident r => Fst r c
    | Builtin BAny | Builtin BPeek | Builtin BPop => true
    | Builtin _ => false
    | PosPred _ | NegPred _ => false
    | Seq a b => first a c || (nullable a && (wsf c || first b c))
    | Choice a b => first a c || first b c
    | Opt x | Rep x => first x c || wsf c
    | SkipUntil _ => true
    | Push x | RestoreOnErr x => first x c
    end.

  Hypothesis Fst_sound : forall r c, first (rd_body (g_def G r)) c = true -> Fst r c = true.
  Hypothesis Nul_sound : forall r, nullable (rd_body (g_def G r)) = true -> Nul r = true.

  (* either nothing was consumed (and N allows it), or the first byte of the input is in F *)
  Definition step (N : bool) (F : ascii -> bool) (s s' : st) : Prop :=
    (rest s' = rest s /\ N = true) \/ exists c r, rest s = String c r /\ F c = true.
  Definition stepr (N : bool) (F : ascii -> bool) (s : st) (r : res) : Prop :=
    match r with Ok s' => step N F s s' | Fail s' => rest s' = rest s | _ => True end.
  Definition step_fun (N : bool) (F : ascii -> bool) (g : st -> res) : Prop := forall s, stepr N F s (g s).

  Lemma step_weaken : forall (N N' : bool) (F F' : ascii -> bool) s s',
    (N = true -> N' = true) -> (forall c, F c = true -> F' c = true) -> step N F s s' -> step N' F' s s'.
  Proof. intros N N' F F' s s' HN H [[E En]|(c & r & E & Hc)]; [left; auto|right; exists c, r; auto]. Qed.
  Lemma stepr_weaken : forall (N N' : bool) (F F' : ascii -> bool) s r,
    (N = true -> N' = true) -> (forall c, F c = true -> F' c = true) -> stepr N F s r -> stepr N' F' s r.
  Proof. intros N N' F F' s r HN H Hs. destruct r; simpl in *; auto. eapply step_weaken; eassumption. Qed.
  Lemma step_trans : forall N1 N2 (F1 F2 : ascii -> bool) s s1 s2, step N1 F1 s s1 -> step N2 F2 s1 s2 ->
    step (N1 && N2) (fun c => F1 c || (N1 && F2 c)) s s2.
  Proof.
    intros N1 N2 F1 F2 s s1 s2 [[E1 En1]|(c & r & E & Hc)] H2.
    - subst N1. destruct H2 as [[E2 En2]|(c & r & E & Hc)].
      + left. split; [congruence|exact En2].
      + right. exists c, r. rewrite <- E1. split; [exact E|]. rewrite Hc. apply orb_true_r.
    - right. exists c, r. split; [exact E|]. rewrite Hc. reflexivity.
  Qed.

  (* sequence s (bind r f) *)
  Lemma stepr_seq_bind : forall N1 N2 (F1 F2 : ascii -> bool) s r f, stepr N1 F1 s r -> step_fun N2 F2 f ->
    stepr (N1 && N2) (fun c => F1 c || (N1 && F2 c)) s (sequence s (bind r f)).
  Proof.
    intros N1 N2 F1 F2 s r f Hr Hf. destruct r as [s1|s1| |]; simpl in *; auto.
    pose proof (Hf s1) as H. destruct (f s1) as [s2|s2| |]; simpl in *; auto.
    eapply step_trans; eassumption.
  Qed.
  Lemma stepr_optional : forall N F s r, stepr N F s r -> stepr true F s (optional r).
  Proof.
    intros N F s r H. destruct r; simpl in *; auto.
    - eapply step_weaken; [| |exact H]; auto.
    - left. auto.
  Qed.
  Lemma step_repeat : forall N F n g, step_fun N F g -> step_fun true F (repeat_loop n g).
  Proof.
    intros N F n g Hg. induction n as [|n IH]; intro s; simpl; [exact I|].
    pose proof (Hg s) as H. destruct (g s) as [s1|s1| |] eqn:E; simpl in *; auto.
    - pose proof (IH s1) as H2. destruct (repeat_loop n g s1) as [s2|s2| |] eqn:E2; simpl in *; auto.
      + eapply step_weaken; [| |eapply step_trans; eassumption]; [auto|].
        intros c Hc. cbv beta in Hc. destruct (F c); [reflexivity|]. destruct N; simpl in Hc; discriminate.
      + exfalso. eapply repeat_never_fails. exact E2.
    - left. auto.
  Qed.

  Definition first_runner (rf : runner R) : Prop := forall m a la e, step_fun (nullable e) (first e) (rf m a la e).

  Lemma step_rule_wrap : forall N F r a la f, step_fun N F f -> step_fun N F (rule_wrap r a la f).
  Proof.
    intros N F r a la f Hf s. unfold rule_wrap. destruct (emits a la); [|apply Hf].
    pose proof (Hf (set_out s [])) as H. destruct (f (set_out s [])); simpl in *; auto.
  Qed.

  Lemma step_call : forall rf, first_runner rf -> forall a la r, step_fun (Nul r) (Fst r) (call_with G rf a la r).
  Proof.
    intros rf H a la r s. unfold call_with.
    assert (Hb : forall m a', step_fun (Nul r) (Fst r) (rf m a' la (rd_body (g_def G r)))).
    { intros m a' s0. eapply stepr_weaken; [| |apply H]; [apply Nul_sound|intros c; apply Fst_sound]. }
    destruct (rd_mod (g_def G r)); try (apply step_rule_wrap; intro s0; apply Hb); apply Hb.
  Qed.

  Lemma step_skip : forall n rf, first_runner rf -> forall a la, step_fun true wsf (skip_with G n (call_with G rf) a la).
  Proof.
    intros n rf H a la s. unfold skip_with, wsf.
    destruct a; try (simpl; left; auto).
    destruct (g_ws G) as [w|], (g_comment G) as [c|]; try (simpl; left; auto).
    - eapply stepr_weaken; [| |apply stepr_seq_bind; [apply (step_repeat (Nul w) (Fst w)); apply step_call; exact H|]].
      3:{ apply (step_repeat (Nul c && true) (fun x => Fst c x || (Nul c && Fst w x))). intro s1.
          apply stepr_seq_bind; [apply step_call; exact H|apply (step_repeat (Nul w)); apply step_call; exact H]. }
      + auto.
      + intros x Hx. cbv beta in Hx. destruct (Fst w x); [reflexivity|]. destruct (Fst c x); [apply orb_true_r|].
        simpl in Hx. destruct (Nul c); simpl in Hx; discriminate.
    - eapply stepr_weaken; [| |apply (step_repeat (Nul w) (Fst w)); apply step_call; exact H]; [auto|].
      intros x Hx. rewrite Hx. reflexivity.
    - eapply stepr_weaken; [| |apply (step_repeat (Nul c) (Fst c)); apply step_call; exact H]; [auto|].
      intros x Hx. rewrite Hx. reflexivity.
  Qed.

  Lemma drop_prefix_head : forall x t r, drop_prefix x t = Some r ->
    r = t \/ exists c t', t = String c t' /\ head_is x c = true.
  Proof.
    intros [|a x] t r H; simpl in *; [inversion H; left; reflexivity|].
    destruct t as [|b t]; [discriminate|]. destruct (Ascii.eqb a b) eqn:E; [|discriminate].
    right. exists b, t. split; [reflexivity|exact E].
  Qed.
  Lemma drop_prefix_ci_head : forall x t r, drop_prefix_ci x t = Some r ->
    r = t \/ exists c t', t = String c t' /\ head_is_ci x c = true.
  Proof.
    intros [|a x] t r H; simpl in *; [inversion H; left; reflexivity|].
    destruct t as [|b t]; [discriminate|]. destruct (Ascii.eqb (lower a) (lower b)) eqn:E; [|discriminate].
    right. exists b, t. split; [reflexivity|exact E].
  Qed.

  Lemma step_match_string : forall x N F, (is_empty x = true -> N = true) ->
    (forall c, head_is x c = true -> F c = true) -> step_fun N F (match_string x).
  Proof.
    intros x N F HN HF s. unfold match_string. destruct (drop_prefix x (rest s)) eqn:E; simpl; [|reflexivity].
    destruct x as [|a x].
    - simpl in E. inversion E. left. auto.
    - destruct (drop_prefix_head _ _ _ E) as [->|(c & t & Et & Hc)]; [|right; exists c, t; auto].
      (* a non-empty prefix was dropped and the rest is unchanged: impossible *)
      exfalso. apply drop_prefix_sdrop in E. destruct E as [L E]. apply (f_equal String.length) in E.
      rewrite sdrop_length in E by assumption. simpl in E, L. lia.
  Qed.

  Ltac bool_solve Hc :=
    cbv beta in Hc;
    repeat match goal with
           | |- context [first ?x ?c] => destruct (first x c)
           | |- context [wsf ?c] => destruct (wsf c)
           | |- context [nullable ?x] => destruct (nullable x)
           | H : context [first ?x ?c] |- _ => destruct (first x c)
           | H : context [wsf ?c] |- _ => destruct (wsf c)
           | H : context [nullable ?x] |- _ => destruct (nullable x)
           end; simpl in *; congruence.

  Theorem run_first : forall f, first_runner (run G f).
  Proof.
    induction f as [|f IH]; intros m a la e s; [exact I|].
    pose proof (step_call _ IH) as IHc.
    pose proof (fun a la => step_skip f _ IH a la) as IHs.
    rewrite run_S. cbv zeta.
    destruct e as [x|x|lo hi|r|b|x|x|x y|x y|x|x|ss|x|x]; cbn [first nullable].
    - apply step_match_string; auto.
    - unfold match_insensitive. destruct (drop_prefix_ci x (rest s)) eqn:E; simpl; [|reflexivity].
      destruct x as [|a0 x]; [simpl in E; inversion E; left; auto|].
      destruct (drop_prefix_ci_head _ _ _ E) as [->|(c & t & Et & Hc)]; [|right; exists c, t; auto].
      exfalso. apply drop_prefix_ci_sdrop in E. destruct E as [L E]. apply (f_equal String.length) in E.
      rewrite sdrop_length in E by assumption. simpl in E, L. lia.
    - unfold match_range. destruct (rest s) as [|c t] eqn:E; simpl; [reflexivity|].
      destruct (in_range lo hi c) eqn:Ei; simpl; [|first [reflexivity|exact E]]. right. exists c, t. rewrite ?E. auto.
    - apply IHc.
    - destruct b; simpl.
      + destruct (rest s) as [|c t] eqn:E; simpl; [reflexivity|]. right. exists c, t. auto.
      + destruct (N.eqb (pos s) 0); simpl; [left; auto|reflexivity].
      + destruct (rest s); simpl; [left; auto|reflexivity].
      + destruct (stack_peek (stk s)); [|exact I]. apply step_match_string; auto.
      + destruct (stack_pop (stk s)) as [[x|] k]; [|exact I].
        exact (step_match_string x true (fun _ => true) (fun _ => eq_refl) (fun _ _ => eq_refl) (set_stk s k)).
      + destruct (stack_pop (stk s)) as [[x|] k]; simpl; [left; auto|reflexivity].
    - unfold lookahead. pose proof (IH m a true x (set_stk s (stack_snapshot (stk s)))) as H.
      destruct (run G f m a true x (set_stk s (stack_snapshot (stk s)))); simpl in *; auto; try (left; auto).
    - unfold lookahead. pose proof (IH m a true x (set_stk s (stack_snapshot (stk s)))) as H.
      destruct (run G f m a true x (set_stk s (stack_snapshot (stk s)))); simpl in *; auto; try (left; auto).
    - destruct m.
      + eapply stepr_weaken; [| |apply stepr_seq_bind; [apply (IH true a la x)|apply (IH true a la y)]]; [auto|].
        intros c Hc. bool_solve Hc.
      + rewrite seq_nested.
        eapply stepr_weaken; [| |apply stepr_seq_bind; [apply stepr_seq_bind; [apply (IH false a la x)|apply IHs]|apply (IH false a la y)]].
        * intro Hn. rewrite andb_true_r in Hn. exact Hn.
        * intros c Hc. bool_solve Hc.
    - pose proof (IH m a la x s) as H1. destruct (run G f m a la x s) as [s1|s1| |] eqn:E1; simpl in *; auto.
      + eapply step_weaken; [| |exact H1]; [intro Hn; rewrite Hn; reflexivity|intros c Hc; rewrite Hc; reflexivity].
      + pose proof (IH m a la y s1) as H2. destruct (run G f m a la y s1) as [s2|s2| |]; simpl in *; auto.
        * destruct H2 as [[E En]|(c & r & E & Hc)]; [left; split; [congruence|rewrite En; apply orb_true_r]|].
          right. exists c, r. rewrite <- H1. split; [exact E|]. rewrite Hc. apply orb_true_r.
        * congruence.
    - eapply stepr_weaken; [| |apply (stepr_optional _ _ _ _ (IH m a la x s))]; [auto|].
      intros c Hc. rewrite Hc. reflexivity.
    - destruct m.
      + eapply stepr_weaken; [| |apply (step_repeat (nullable x) (first x)); apply (IH true a la x)]; [auto|].
        intros c Hc. rewrite Hc. reflexivity.
      + pose proof (IH false a la x s) as H1.
        destruct (run G f false a la x s) as [s1|s1| |] eqn:E1; cbn [bind optional sequence]; simpl; auto.
        * assert (Hg : step_fun (true && nullable x) (fun c => wsf c || (true && first x c))
                         (fun s1 => sequence s1 (bind (skip_with G f (call_with G (run G f)) a la s1) (run G f false a la x)))).
          { intro s0. apply stepr_seq_bind; [apply IHs|apply (IH false a la x)]. }
          pose proof (step_repeat _ _ f _ Hg s1) as H2.
          destruct (repeat_loop f _ s1) as [s2|s2| |] eqn:E2; simpl in *; auto.
          -- eapply step_weaken; [| |eapply step_trans; eassumption]; [auto|].
             intros c Hc. bool_solve Hc.
          -- exfalso. eapply repeat_never_fails. exact E2.
        * left. auto.
    - destruct (skip_until_pos ss (pos s) (rest s)) as [p r] eqn:E. simpl.
      destruct (rest s) as [|c t] eqn:Er; [|right; exists c, t; auto].
      left. split; [|reflexivity]. simpl in E. destruct (existsb _ ss) in E; inversion E; subst; simpl; symmetry; exact Er.
    - unfold do_push. pose proof (IH m a la x s) as H. destruct (run G f m a la x s); simpl in *; auto.
    - unfold restore_on_err. pose proof (IH m a la x (set_stk s (stack_snapshot (stk s)))) as H.
      destruct (run G f m a la x (set_stk s (stack_snapshot (stk s)))); simpl in *; auto.
  Qed.
End First.

(* ---------------------------------------------------------------- inversion of one interpreter step (every grammar) *)
Section Inv.
  Variable R : Type.
  Variable G : grammar R.
  Lemma run_ok_fuel : forall f m a la e (s s1 : st R), run G f m a la e s = Ok s1 -> exists f', f = S f'.
  Proof. intros [|f] m a la e s s1 H; [discriminate H|eauto]. Qed.
  Lemma seq_false_inv : forall f a la x y (s s1 : st R),
    run G (S f) false a la (Seq x y) s = Ok s1 ->
    exists sx sy, run G f false a la x s = Ok sx /\ skip_with G f (call_with G (run G f)) a la sx = Ok sy
                  /\ run G f false a la y sy = Ok s1.
  Proof.
    intros f a la x y s s1 H. rewrite run_S in H. cbv zeta in H.
    destruct (run G f false a la x s) as [sx|sx| |] eqn:E1; try discriminate H. cbn [bind] in H.
    destruct (skip_with G f (call_with G (run G f)) a la sx) as [sy|sy| |] eqn:E2; try discriminate H. cbn [bind] in H.
    destruct (run G f false a la y sy) as [s2|s2| |] eqn:E3; try discriminate H. cbn [sequence] in H.
    exists sx, sy. inversion H; subst s2. auto.
  Qed.
  Lemma choice_inv : forall f m a la x y (s s1 : st R),
    run G (S f) m a la (Choice x y) s = Ok s1 ->
    run G f m a la x s = Ok s1 \/ exists s', run G f m a la x s = Fail s' /\ run G f m a la y s' = Ok s1.
  Proof.
    intros f m a la x y s s1 H. rewrite run_S in H. cbv zeta in H.
    destruct (run G f m a la x s) as [sx|sx| |] eqn:E1; try discriminate H; [left; exact H|right; eauto].
  Qed.
  Lemma opt_inv : forall f m a la x (s s1 : st R),
    run G (S f) m a la (Opt x) s = Ok s1 -> run G f m a la x s = Ok s1 \/ run G f m a la x s = Fail s1.
  Proof.
    intros f m a la x s s1 H. rewrite run_S in H. cbv zeta in H.
    destruct (run G f m a la x s) as [sx|sx| |] eqn:E1; try discriminate H; cbn [optional] in H; inversion H; subst; auto.
  Qed.

  (* where skip_until stops *)
  Lemma skip_until_stops : forall ss t p,
    (snd (skip_until_pos ss p t) = EmptyString \/
     existsb (fun x => match drop_prefix x (snd (skip_until_pos ss p t)) with Some _ => true | None => false end) ss = true)
    /\ String.length (snd (skip_until_pos ss p t)) <= String.length t.
  Proof.
    intros ss. induction t as [|c t IH]; intro p; cbn [skip_until_pos].
    - destruct (existsb _ ss); simpl; auto.
    - destruct (existsb (fun x => match drop_prefix x (String c t) with Some _ => true | None => false end) ss) eqn:Ex.
      + cbn [snd]. split; [right; exact Ex|lia].
      + destruct (IH (p + 1)%N) as [H1 H2]. split; [exact H1|simpl; lia].
  Qed.

End Inv.

(* ================================================================== gen/Grammar.v *)
Require Import Blots.Formatter Blots.gen.Grammar Blots.PegToItems Blots.PegComments Blots.proofs.PegQuiet
               Blots.proofs.PegShape.
Local Open Scope list_scope.

(* the atomic body "//" ~ skip_until ss: where it ends, and that it consumed at least the two slashes *)
Lemma comment_body_post : forall R (G : grammar R) fu a la ss (s s1 : st R),
  run G fu true a la (Seq (Str "//") (SkipUntil ss)) s = Ok s1 ->
  (rest s1 = EmptyString \/
   existsb (fun x => match drop_prefix x (rest s1) with Some _ => true | None => false end) ss = true)
  /\ String.length (rest s1) + 2 <= String.length (rest s).
Proof.
  intros R G fu a la ss s s1 H. destruct (comment_body_inv R G _ _ _ _ _ _ H) as (t & Er & E).
  pose proof (skip_until_stops ss t (pos s + 2)%N) as [H1 H2]. rewrite <- E in H1, H2. cbn [snd] in H1, H2.
  split; [exact H1|]. rewrite Er. cbn [append String.length]. lia.
Qed.

Definition bFst (r : grule) (c : ascii) : bool :=
  match r with
  | PG_WHITESPACE => Ascii.eqb " " c || Ascii.eqb "009" c
  | PG_plain_newline => Ascii.eqb "013" c || Ascii.eqb "010" c
  | PG_comment | PG_eol_comment | PG_inline_comment => Ascii.eqb "/" c
  | _ => true
  end.
Definition bNul (r : grule) : bool :=
  match r with
  | PG_WHITESPACE | PG_plain_newline | PG_comment | PG_eol_comment | PG_inline_comment => false
  | _ => true
  end.
Lemma bFst_sound : forall r c,
  first grule blots_grammar bFst bNul (rd_body (g_def blots_grammar r)) c = true -> bFst r c = true.
Proof.
  intros r c. destruct r; try (intros _; reflexivity);
    cbn; rewrite ?orb_false_r, ?andb_false_r, ?orb_false_r; intro H; exact H.
Qed.
Lemma bNul_sound : forall r, nullable grule bNul (rd_body (g_def blots_grammar r)) = true -> bNul r = true.
Proof. intros r. destruct r; try (intros _; reflexivity); vm_compute; intro H; exact H. Qed.
Definition blots_run_first := run_first grule blots_grammar bFst bNul bFst_sound bNul_sound.

(* the input is at its end or at a line break *)
Definition stops (r : string) : Prop :=
  match r with EmptyString => True | String c _ => c = "013"%char \/ c = "010"%char end.
Definition blank_or_slash (c : ascii) : bool := Ascii.eqb " " c || Ascii.eqb "009" c || Ascii.eqb "/" c.

Lemma step_stays : forall N (F : ascii -> bool) (s s' : st grule),
  stops (rest s) -> (forall c, F c = true -> blank_or_slash c = true) -> step grule N F s s' -> rest s' = rest s.
Proof.
  intros N F s s' Hs HF [[E _]|(c & r & E & Hc)]; [exact E|exfalso].
  rewrite E in Hs. simpl in Hs. apply HF in Hc. destruct Hs as [->| ->]; vm_compute in Hc; discriminate Hc.
Qed.

Lemma comment_call_post : forall f m a la (s s1 : st grule),
  run blots_grammar f m a la (Ident PG_comment) s = Ok s1 ->
  stops (rest s1) /\ String.length (rest s1) + 2 <= String.length (rest s).
Proof.
  intros f m a la s s1 H. destruct f as [|f]; [discriminate H|]. rewrite run_S in H. cbv zeta in H.
  unfold call_with in H. cbn [blots_grammar g_def grule_def rd_mod rd_trivia rd_body orb andb negb] in H.
  assert (Hconv : forall r : string,
            (r = EmptyString \/
             existsb (fun x => match drop_prefix x r with Some _ => true | None => false end)
                     [String "013" (String "010" EmptyString); String "010" EmptyString] = true) -> stops r).
  { intros [|c t] Hr; [exact I|]. simpl. destruct Hr as [Hr|Hr]; [discriminate Hr|].
    cbn [existsb drop_prefix] in Hr.
    destruct (Ascii.eqb "013" c) eqn:E1; [left; symmetry; apply Ascii.eqb_eq; exact E1|].
    destruct (Ascii.eqb "010" c) eqn:E2; [right; symmetry; apply Ascii.eqb_eq; exact E2|]. discriminate Hr. }
  unfold rule_wrap in H. destruct (emits a la).
  - destruct (run blots_grammar f true Atomic la _ (set_out s [])) as [s2|s2| |] eqn:E; try discriminate H.
    inversion H; subst s1. cbn [rest set_out]. apply comment_body_post in E. cbn [rest set_out] in E.
    destruct E as [E1 E2]. split; [apply Hconv; exact E1|exact E2].
  - apply comment_body_post in H. destruct H as [E1 E2]. split; [apply Hconv; exact E1|exact E2].
Qed.

Lemma wsf_blank : forall c, wsf grule blots_grammar bFst c = true -> blank_or_slash c = true.
Proof.
  intros c H. unfold wsf in H. cbn [blots_grammar g_ws g_comment ws_rule comment_rule bFst] in H.
  unfold blank_or_slash. rewrite orb_false_r in H. rewrite H. reflexivity.
Qed.

(* `WHITESPACE* ~ comment` cannot succeed at the end of the input or at a line break *)
Lemma second_comment_impossible : forall f a la (s s1 : st grule),
  stops (rest s) ->
  run blots_grammar f false a la (Seq (Rep (Ident PG_WHITESPACE)) (Ident PG_comment)) s = Ok s1 -> False.
Proof.
  intros f a la s s1 Hs H. destruct (run_ok_fuel _ _ _ _ _ _ _ _ _ H) as [f' ->].
  apply seq_false_inv in H. destruct H as (s2 & s3 & H2 & H3 & H4).
  assert (E2 : rest s2 = rest s).
  { pose proof (blots_run_first f' false a la (Rep (Ident PG_WHITESPACE)) s) as P. rewrite H2 in P.
    refine (step_stays _ _ _ _ Hs _ P). intros c Hc. cbn [first] in Hc.
    unfold blank_or_slash. apply orb_prop in Hc as [Hc|Hc].
    - cbn [bFst] in Hc. rewrite Hc. reflexivity.
    - apply wsf_blank in Hc. exact Hc. }
  assert (E3 : rest s3 = rest s2).
  { pose proof (step_skip grule blots_grammar bFst bNul bFst_sound bNul_sound f' _ (blots_run_first f') a la s2) as P.
    rewrite H3 in P. refine (step_stays _ _ _ _ _ wsf_blank P). rewrite E2. exact Hs. }
  pose proof (blots_run_first f' false a la (Ident PG_comment) s3) as P. rewrite H4 in P.
  destruct P as [[_ En]|(c & r & E & Hc)]; [discriminate En|].
  rewrite E3, E2 in E. rewrite E in Hs. simpl in Hs. cbn [first bFst] in Hc.
  destruct Hs as [->| ->]; vm_compute in Hc; discriminate Hc.
Qed.

(* do_statement = (expression | comment) ~ (WHITESPACE* ~ comment)? : after a leading `comment` there is no second pair *)
Lemma do_statement_kids : forall f a (s s1 : st grule), a <> Atomic -> out s = [] ->
  run blots_grammar f false a false (rd_body (grule_def PG_do_statement)) s = Ok s1 ->
  In (map trule (rev (out s1))) [[PG_expression]; [PG_expression; PG_comment]; [PG_comment]].
Proof.
  intros f a s s1 Ha Ho H. cbn [grule_def rd_body] in H.
  destruct (run_ok_fuel _ _ _ _ _ _ _ _ _ H) as [f1 ->].
  apply seq_false_inv in H. destruct H as (sx & sy & HX & HS & HY).
  (* the pairs each part appends *)
  pose proof (blots_run_tops f1 false a (Choice (RestoreOnErr (Ident PG_expression)) (Ident PG_comment)) Ha s) as TX. rewrite HX in TX. destruct TX as (nx & Ox & Tx).
  assert (Ex : In (map (troot grule) (rev nx)) [[PG_expression]; [PG_comment]]).
  { refine (tops_enum grule blots_grammar in_newline_quiet blots_Senum _ _ _ Tx _). vm_compute. reflexivity. }
  pose proof (quiet_skip grule blots_grammar in_newline_quiet BQ_silent BQ_closed BQ_ws BQ_comment f1 (run blots_grammar f1)
                (run_quiet grule blots_grammar in_newline_quiet BQ_silent BQ_closed BQ_ws BQ_comment f1) a false sx) as Qs.
  rewrite HS in Qs. simpl in Qs.
  pose proof (blots_run_tops f1 false a (Opt (Seq (Rep (Ident PG_WHITESPACE)) (Ident PG_comment))) Ha sy) as TY. rewrite HY in TY. destruct TY as (ny & Oy & Ty).
  assert (Ey : In (map (troot grule) (rev ny)) [[]; [PG_comment]]).
  { refine (tops_enum grule blots_grammar in_newline_quiet blots_Senum _ _ _ Ty _). vm_compute. reflexivity. }
  assert (Eall : map trule (rev (out s1)) = map (troot grule) (rev nx) ++ map (troot grule) (rev ny)).
  { rewrite Oy, Qs, Ox, Ho, app_nil_r, rev_app_distr, map_app. reflexivity. }
  rewrite Eall.
  destruct Ex as [Ex|[Ex|[]]]; destruct Ey as [Ey|[Ey|[]]]; rewrite <- Ex, <- Ey; cbn [app In]; auto.
  (* [comment] then [comment]: impossible *)
  exfalso.
  destruct (run_ok_fuel _ _ _ _ _ _ _ _ _ HX) as [f2 ->].
  apply choice_inv in HX. destruct HX as [HA|(s' & HA & HB)].
  - pose proof (blots_run_tops f2 false a (RestoreOnErr (Ident PG_expression)) Ha s) as TA. rewrite HA in TA. destruct TA as (nA & OA & TA).
    assert (EA : In (map (troot grule) (rev nA)) [[PG_expression]]).
    { refine (tops_enum grule blots_grammar in_newline_quiet blots_Senum _ _ _ TA _). vm_compute. reflexivity. }
    rewrite OA in Ox. apply app_inv_tail in Ox. subst nA. rewrite <- Ex in EA. destruct EA as [EA|[]]. discriminate EA.
  - apply comment_call_post in HB. destruct HB as [Hst _].
    assert (Esy : rest sy = rest sx).
    { pose proof (step_skip grule blots_grammar bFst bNul bFst_sound bNul_sound (S f2) _ (blots_run_first (S f2)) a false sx) as P.
      rewrite HS in P. exact (step_stays _ _ _ _ Hst wsf_blank P). }
    apply opt_inv in HY. destruct HY as [HY|HY].
    + refine (second_comment_impossible f2 a false sy s1 _ HY). rewrite Esy. exact Hst.
    + apply (run_fail_unchanged grule blots_grammar) in HY. destruct HY as (_ & _ & HO).
      rewrite HO in Oy. symmetry in Oy. apply (app_inv_tail _ ny []) in Oy. subst ny. discriminate Ey.
Qed.

Definition C_do_statement (r : grule) (txt : string) (kids : list (tree grule)) : Prop :=
  match r with
  | PG_do_statement => In (map trule kids) [[PG_expression]; [PG_expression; PG_comment]; [PG_comment]]
  | _ => True
  end.

Lemma blots_do_statement_body_gives : forall text f,
  body_gives grule blots_grammar text C_do_statement (run blots_grammar f).
Proof.
  intros text f r a s s1 Hns Hem Ht Ho H Hf. destruct r; try exact I. unfold C_do_statement.
  apply (do_statement_kids f a s s1); [apply emits_not_atomic; exact Hem|exact Ho|exact H].
Qed.

(* SHAPE: for EVERY accepted text, a do_statement pair that starts with a comment has no second inner pair
   (third conjunct of PegComments.do_shape, at tree level) *)
Theorem shape_do_statement : forall fuel text s',
  Peg.parse blots_grammar fuel PG_input text = Peg.Ok s' ->
  forest_all grule text C_do_statement (rev (out s')).
Proof.
  intros fuel text s' H. unfold forest_all. apply Forall_rev.
  exact (parse_nodes grule blots_grammar text C_do_statement (blots_do_statement_body_gives text) fuel PG_input s' H).
Qed.
