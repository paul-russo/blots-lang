(* PrattFuelAllText.v — the fuel gap of the TEXT layer closed.

   With PrattFuelAll.pratt_impl_never_unmodelled (the Pratt model's fuel suffices on EVERY item list) no statement
   of any text is [TGlueFuel]; with PegFuelBlots.blots_peg_total no text is [TIFuel].  Hence, for EVERY byte
   string and every oracle, [run_text_res (eval_all o)] is [TRun sr] with no `Unmodelled` result in sr, or
   [TReject], or [TParsePanic] — the hypothesis "no statement is TGlueFuel" of
   TextRunFacts.run_text_never_unmodelled is gone.

   Reachability of the explicit Panic arms of the glue model on trees the PEG interpreter produces on the
   regenerated grammar (PegShape.shape_kids): the `unreachable!()` arm of main.rs's statement loop
   ([text_stmt_of]'s `_ => Some TGluePanic`) and the "statement pair without inner pair" arm are NOT reachable
   ([text_stmt_of_parsed_shape]).  See notes/ext-pf1.md for the arms that remain. *)
From Coq Require Import String Ascii List NArith ZArith Bool Lia.
Require Import Blots.Peg Blots.gen.Grammar Blots.proofs.PegGeneric Blots.proofs.PegFuelBlots.
Require Import Blots.PrattTypes Blots.Pratt Blots.PegToItems.
Require Import Blots.Num Blots.gen.Builtins Blots.Ast Blots.Value Blots.Outcome Blots.Env Blots.Eval
               Blots.Program Blots.EvalInst Blots.EvalFull Blots.EvalAll Blots.AllRun Blots.TextRun.
Require Import Blots.proofs.NoPanic Blots.proofs.AllNoUnmEval Blots.proofs.AllNoUnm.
Require Import Blots.proofs.TextRunFacts Blots.proofs.PrattFuelAll.
Import ListNotations.

(* ------------------------------------------------------------------ no statement is TGlueFuel *)
Lemma glue_stmt_not_fuel : forall mk r, r <> Outcome.Unmodelled -> glue_stmt mk r <> TGlueFuel.
Proof. intros mk r H. destruct r as [[e|]| | | |]; cbn; try (intro D; discriminate D). exfalso; apply H; reflexivity. Qed.

Lemma text_stmt_of_not_fuel : forall text fuel t r, text_stmt_of text fuel t = Some r -> r <> TGlueFuel.
Proof.
  intros text fuel t r H. unfold text_stmt_of in H.
  destruct (tkids t) as [|first rest]; [discriminate H|].
  revert H. generalize (pratt_impl_never_unmodelled (map (conv text fuel) (tkids first))).
  generalize (pratt_impl (map (conv text fuel) (tkids first))). intros out NU H.
  destruct (trule first); injection H as <-;
    first [apply glue_stmt_not_fuel; exact NU | intro D; discriminate D].
Qed.

Theorem parse_text_stmts_fuel_no_glue_fuel : forall fuel text l,
    parse_text_stmts_fuel fuel text = TIOk l -> Forall (fun t => t <> TGlueFuel) l.
Proof. intros fuel text. apply parse_text_stmts_fuel_Forall. apply text_stmt_of_not_fuel. Qed.
Theorem parse_text_stmts_no_glue_fuel : forall text l,
    parse_text_stmts text = TIOk l -> Forall (fun t => t <> TGlueFuel) l.
Proof. intros text l H. rewrite parse_text_stmts_unfold in H. eapply parse_text_stmts_fuel_no_glue_fuel; exact H. Qed.

(* the all-or-nothing view never answers "fuel" either *)
Lemma no_fuel_existsb : forall l, Forall (fun t => t <> TGlueFuel) l -> existsb is_glue_fuel l = false.
Proof.
  induction 1 as [|t l Ht _ IH]; [reflexivity|]. cbn [existsb]. rewrite IH, orb_false_r.
  destruct t; try reflexivity. exfalso; apply Ht; reflexivity.
Qed.
Lemma parse_text_ast_fuel_never_fuel : forall fuel text,
    parse_text_stmts_fuel fuel text <> TIFuel -> parse_text_ast_fuel fuel text <> TPFuel.
Proof.
  intros fuel text T. unfold parse_text_ast_fuel.
  pose proof (parse_text_stmts_fuel_no_glue_fuel fuel text) as G.
  destruct (parse_text_stmts_fuel fuel text) as [l| | |]; try (intro D; discriminate D).
  - rewrite (no_fuel_existsb l (G l eq_refl)).
    destruct (existsb is_glue_panic l); [intro D; discriminate D|].
    destruct (stmts_all_ok l); intro D; discriminate D.
  - exfalso; apply T; reflexivity.
Qed.
Theorem parse_text_ast_never_fuel : forall text, parse_text_ast text <> TPFuel.
Proof.
  intro text. rewrite parse_text_ast_unfold. apply parse_text_ast_fuel_never_fuel.
  rewrite <- parse_text_stmts_unfold. apply parse_text_stmts_total.
Qed.

(* ------------------------------------------------------------------ the total statement *)
Definition text_outcome_modelled (r : text_outcome) : Prop :=
  (exists sr, r = TRun sr /\ Forall (fun rs => fst rs <> RFail Unmodelled) (snd sr))
  \/ r = TReject \/ r = TParsePanic.

Lemma run_text_res_fuel_modelled : forall o fuel inputs text,
    parse_text_stmts_fuel fuel text <> TIFuel ->
    text_outcome_modelled (run_text_res_fuel (eval_all o) fuel inputs text).
Proof.
  intros o fuel inputs text T. unfold run_text_res_fuel.
  pose proof (parse_text_stmts_fuel_no_glue_fuel fuel text) as G.
  destruct (parse_text_stmts_fuel fuel text) as [l| | |].
  - left. eexists. split; [reflexivity|].
    apply run_tstmts_nu; [| |apply init_session_wf|exact (G l eq_refl)].
    + intros c e Hw. apply evalD_all_no_unm. exact Hw.
    + intros c e r c' E Hw. unfold eval_all, eval_top in E. eapply evalD_keeps_wf; eauto.
  - right; left; reflexivity.
  - right; right; reflexivity.
  - exfalso; apply T; reflexivity.
Qed.

Theorem run_text_never_unmodelled_total : forall o inputs text,
    text_outcome_modelled (run_text_res (eval_all o) inputs text).
Proof.
  intros o inputs text. rewrite run_text_res_unfold. apply run_text_res_fuel_modelled.
  rewrite <- parse_text_stmts_unfold. apply parse_text_stmts_total.
Qed.

(* the same for the string the TEXT-EVAL stream compares: it is never the model's "FUEL" line *)
Theorem run_text_outcome_cases : forall o inputs text,
    (exists sr, run_text o inputs text = show_run_out sr
                /\ Forall (fun rs => fst rs <> RFail Unmodelled) (snd sr))
    \/ run_text o inputs text = "REJECT;ENV:;OUT:"%string
    \/ run_text o inputs text = "PANIC"%string.
Proof.
  intros o inputs text. unfold run_text, run_text_with.
  pose proof (run_text_never_unmodelled_total o inputs text) as H. revert H.
  generalize (run_text_res (eval_all o) inputs text). intros r [[sr [E F]]|[E|E]]; subst r; cbn [show_text_outcome].
  - left. exists sr. split; [reflexivity|exact F].
  - right; left; reflexivity.
  - right; right; reflexivity.
Qed.
