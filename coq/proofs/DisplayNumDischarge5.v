(* DisplayNumDischarge5.v — C20: the one hypothesis left in the accuracy theorem for the
   executable models, log10_sane, is satisfiable: a log10 that returns floor(log10 a) exactly
   (as a double) meets it.  Consequently the display algorithm running on exact library models
   is accurate with NO hypothesis (display_accurate_exact_log10). *)
From Coq Require Import ZArith Reals Bool String Ascii List Lia Lra QArith Qreals Qabs Qpower Floats.SpecFloat.
From Flocq Require Import Core.Core IEEE754.BinarySingleNaN.
Require Import Blots.Num Blots.Outcome Blots.DisplayNum.
Require Import Blots.proofs.DisplayNumGroup Blots.proofs.DisplayNumSpec Blots.proofs.DisplayNumText
               Blots.proofs.DisplayNumInt Blots.proofs.DisplayNum Blots.proofs.DisplayNumAcc
               Blots.proofs.DisplayNumFloat Blots.proofs.DisplayNumFinite Blots.proofs.DisplayNumAccStd
               Blots.proofs.DisplayNumAccAll Blots.proofs.DisplayNumExec
               Blots.proofs.DisplayNumDischarge1 Blots.proofs.DisplayNumDischarge2
               Blots.proofs.DisplayNumDischarge4.
Import ListNotations.
Open Scope R_scope.

(* floor(log10 |a|) as a double (0.0 for zero / non-finite arguments, which the display path never asks) *)
Definition log10_floor_model (a : num) : num :=
  match a with
  | S754_finite _ m e => let '(N, D) := mag_frac m e in num_of_Z (e10_frac N D)
  | _ => nzero
  end.

(* k -> k as f64 -> .floor() as i32 gives k back, for every decimal exponent of binary64 *)
Definition floor_roundtrip_ok (k : Z) : bool := (as_i32 (nfloor (num_of_Z k)) =? k)%Z.
Lemma floor_roundtrip_all : forall_range (Z.to_nat 661) (-340) floor_roundtrip_ok = true.
Proof. vm_compute. reflexivity. Qed.

Theorem log10_floor_model_sane : forall a k, valid_binary prec emax a = true -> in_decade a k ->
  (k <= as_i32 (nfloor (log10_floor_model a)) <= k + 1)%Z.
Proof.
  intros a k V Hk. apply in_decade_R in Hk. pose proof (p10_pos k) as Pk.
  destruct a as [s|s| |s m e];
    try (exfalso; unfold RV in Hk; cbn [SF2R] in Hk; rewrite Rabs_R0 in Hk; lra).
  unfold log10_floor_model. destruct (mag_frac m e) as [N D] eqn:E.
  destruct (RV_mag_frac s m e N D E) as [_ RA]. rewrite RA in Hk.
  destruct (e10_frac_spec s m e N D V E) as [Dk Rk].
  assert (Ek : e10_frac N D = k) by (eapply decade_unique; eassumption). rewrite Ek in *.
  assert (O : floor_roundtrip_ok k = true).
  { apply (forall_range_spec _ _ _ floor_roundtrip_all). rewrite Z2Nat.id by lia. lia. }
  unfold floor_roundtrip_ok in O. apply Z.eqb_eq in O. lia.
Qed.

(* the accuracy clause with every library call replaced by its exact model: no hypothesis left *)
Theorem display_accurate_exact_log10 :
  forall x t, valid_binary prec emax x = true -> Num.is_finite x = true -> neqb x nzero = false ->
    format_display_number log10_floor_model powi_exec fmt_prec_exec fmt_exp14_exec parse_f64_exec true x = Ok t ->
    forall k, in_decade x k -> (Qabs (denote t - num_to_Q x) < Qpower (10 # 1) (k - 14)%Z)%Q.
Proof. exact (display_accurate_exec log10_floor_model log10_floor_model_sane). Qed.
