(* NoPanic.v — C01 over the evaluator model: the explicit [Panic] outcome (Outcome.v), which the
   model returns exactly where the Rust code has a partial operation (`args[i]`, `list[idx]`,
   `unreachable!()`, Environment::insert into a shared frame, debug-build arithmetic overflow),
   is never produced.  These are the statements of Avoid.v at the failure Panic:

     1. the frame invariant [head_owned]: the innermost frame of every chain the evaluator
        builds is Owned, and it stays so (so Environment::insert never hits a shared frame);
     2. for EVERY operator / built-in implementation that does not panic when its callback does
        not and every build whose factorial does not overflow, evalE / AD / evalD never return
        Panic;
     3. the hypotheses discharged for the transcriptions that are in the tree: Binop.eval_binop,
        the built-ins of EvalInst.builtin_impl, the factorial (capped loop, no `+ 1`: total in
        both builds since repo fix def3962);
     4. the statement loop of whole programs. *)
From Coq Require Import String Ascii List ZArith Bool Lia.
Require Import Blots.Num Blots.gen.Builtins Blots.Ast Blots.Value Blots.Outcome Blots.Binop
               Blots.Env Blots.Eval Blots.BuiltinsHof Blots.Program Blots.EvalInst
               Blots.proofs.Frames Blots.proofs.Avoid.
Import ListNotations.
Open Scope string_scope.
Open Scope list_scope.
Open Scope nat_scope.

Lemma cast_fail_np : forall A B (o : outcome A), o <> Panic -> @cast_fail A B o <> Panic.
Proof. exact (cast_fail_nf FPanic). Qed.

(* ------------------------------------------------------------------ 1. the frame invariant *)
Definition head_owned (fr : frames) : bool :=
  match fr with (FOwned, _) :: _ => true | _ => false end.

Lemma insert_head_owned : forall fr x v, head_owned fr = true -> insert_head fr x v <> None.
Proof. intros [|[[|] f] r] x v H; cbn in *; congruence. Qed.

Lemma insert_head_keeps_owned : forall fr x v fr1,
  insert_head fr x v = Some fr1 -> head_owned fr1 = true.
Proof.
  intros fr x v fr1 H. destruct (insert_head_shape _ _ _ _ H) as (f & rest & -> & ->). reflexivity.
Qed.

Lemma ext_head_owned : forall fr fr', ext fr fr' -> head_owned fr = true -> head_owned fr' = true.
Proof.
  induction 1 as [|fr x v fr1 fr2 _ Hi _ IH]; intros H; auto.
  apply IH. eapply insert_head_keeps_owned; eauto.
Qed.

(* the wf invariant of a configuration: the innermost frame is an Owned one *)
Definition wf (c : cfg) : Prop := head_owned (snd c) = true.

(* Avoid.cb_nf FPanic *)
Definition cb_safe (cb : callback) : Prop :=
  forall this f args st, fst (cb this f args st) <> Panic.

(* head_owned is a head condition in the sense of Avoid.v, for either failure *)
Definition owned (fr : frames) : Prop := head_owned fr = true.
Lemma owned_new : forall f fr, owned ((FOwned, f) :: fr).
Proof. reflexivity. Qed.
Lemma owned_ins : forall fr x v fr1, owned fr -> insert_head fr x v = Some fr1 -> owned fr1.
Proof. intros fr x v fr1 _. apply insert_head_keeps_owned. Qed.
Lemma owned_shared : forall k fr x v, owned fr -> insert_head fr x v = None -> k <> FPanic.
Proof. intros k fr x v H E. destruct (insert_head_owned fr x v H E). Qed.

(* ------------------------------------------------------------------ 2. the evaluator *)
Section NoPanicEval.
  Variable release : bool.
  Variable binop_impl : callback -> binop -> value -> value -> store -> outcome value * store.
  Variable builtin_impl : callback -> builtin -> list value -> store -> outcome value * store.

  (* the operators never panic when the function they call back does not *)
  Hypothesis binop_no_panic : forall cb op l r st,
    cb_safe cb -> fst (binop_impl cb op l r st) <> Panic.
  (* a built-in never panics on an argument vector that passed its arity check *)
  Hypothesis builtin_no_panic : forall cb b args st,
    cb_safe cb -> can_accept (builtin_arity b) (Datatypes.length args) = true ->
    fst (builtin_impl cb b args st) <> Panic.
  (* the factorial does not panic in the build being modelled *)
  Hypothesis fact_no_panic : forall n, factorial_val release n <> Panic.

  (* FunctionDef::call at every depth *)
  Theorem AD_no_panic : forall d fr, cb_safe (AD release binop_impl builtin_impl d fr).
  Proof.
    exact (AD_nf FPanic owned owned_new owned_ins (owned_shared FPanic) release binop_impl builtin_impl
             binop_no_panic builtin_no_panic fact_no_panic).
  Qed.

  (* C01, evaluator stage: from a configuration whose innermost frame is Owned, evaluation at
     any depth budget never panics, and the invariant is kept *)
  Theorem evalD_no_panic : forall d c e,
    wf c -> fst (evalD release binop_impl builtin_impl d c e) <> Panic.
  Proof.
    exact (evalD_nf FPanic owned owned_new owned_ins (owned_shared FPanic) release binop_impl builtin_impl
             binop_no_panic builtin_no_panic fact_no_panic).
  Qed.

  Theorem evalD_keeps_wf : forall d c e r c',
    evalD release binop_impl builtin_impl d c e = (r, c') -> wf c -> wf c'.
  Proof.
    intros d c e r c' H Hw. unfold wf in *. eapply ext_head_owned; [|exact Hw].
    unfold evalD in H. eapply evalE_ext; eauto.
  Qed.
End NoPanicEval.

(* ------------------------------------------------------------------ 3. operators, built-ins, factorial *)
Definition is_cmp (op : binop) : bool :=
  match op with Less | LessEq | Greater | GreaterEq => true | _ => false end.
Lemma expected_of_np : forall op, is_cmp op = true -> expected_of op <> Panic.
Proof. destruct op; cbn; intros; discriminate. Qed.

Theorem binop_impl_no_panic : forall cb op l r st,
  cb_safe cb -> fst (EvalInst.binop_impl cb op l r st) <> Panic.
Proof. intros cb op l r st Hcb. apply (binop_impl_nf FPanic); [exact Hcb|discriminate]. Qed.

(* what the arity check gives for an arity read from the generated table *)
Lemma accept_exact : forall n k, can_accept (AExact n) k = true -> k = n.
Proof. intros n k H. cbn in H. apply Nat.eqb_eq in H. exact H. Qed.

Theorem builtin_impl_no_panic : forall cb b args st,
  cb_safe cb -> can_accept (builtin_arity b) (Datatypes.length args) = true ->
  fst (EvalInst.builtin_impl cb b args st) <> Panic.
Proof. intros cb b args st Hcb Ha. apply (builtin_impl_nf FPanic); [exact Hcb|exact Ha|discriminate]. Qed.

Lemma factorial_no_panic : forall release n, factorial_val release n <> Panic.
Proof. exact (factorial_nf FPanic). Qed.

(* both overflow semantics *)
Theorem eval_inst_no_panic : forall release d c e,
  wf c -> fst (evalD release EvalInst.binop_impl EvalInst.builtin_impl d c e) <> Panic.
Proof.
  intros release. apply evalD_no_panic.
  - exact binop_impl_no_panic.
  - exact builtin_impl_no_panic.
  - exact (factorial_no_panic release).
Qed.

(* ------------------------------------------------------------------ 4. whole programs *)
Lemma init_session_wf : forall inputs, wf (s_cfg (init_session inputs)).
Proof. reflexivity. Qed.

(* evaluate_source (Program.v): the statement loop never sees a Panic, from any inputs *)
Theorem program_no_panic : forall release inputs prog,
  Forall (fun rs => fst rs <> RFail Panic)
         (snd (run (eval_top release EvalInst.binop_impl EvalInst.builtin_impl) (init_session inputs) prog)).
Proof.
  intros release inputs prog. apply (run_nf FPanic owned).
  - intros c e Hw. apply eval_inst_no_panic. exact Hw.
  - intros c e r c' H Hw. unfold eval_top in H. eapply evalD_keeps_wf; eauto.
  - apply init_session_wf.
Qed.
