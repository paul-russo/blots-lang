(* Avoid.v — "evaluation never returns the failure k", proved once for the two failure outcomes the
   model has beside errors: Panic (a partial Rust operation was hit) and Unmodelled (the transcription
   does not cover the operation).  The statement carries a postcondition as well: [sat k P o] says that
   o is not the failure k and, when it is a value, one satisfying P; with P trivially true this is
   "never k" (NoPanic.v, AllNoUnm.v), with P = validity it is the invariant of AllValidEval.v.

     1. the outcome monad, plain and state-passing: a bind keeps [sat] (the bind lemmas are stated
        in the shapes the transcriptions use, so that `apply` finds the continuation);
     2. Section Walk: for every predicate V on values that is hereditary (E on expressions) and every
        operator / built-in implementation that keeps [sat k V] when its callback does,
        evalE / AD / evalD keep it, together with the frame invariant [Inv]: the head condition H
        (Environment::insert panics on a Shared frame) and V of every bound value — by induction
        on the call-depth budget and on the expression; then the statement loop of whole programs;
     3. - 5. under the same hypotheses on V: the arms of Binop.eval_binop (every `list[idx]` stays in
        range, no unreachable!() arm is reached), the callback loops of BuiltinsHof.v (the arity check
        precedes every `args[i]`), sort_by / group_by / count_by of BuiltinsList.v;
     6. Section Plain: all of it with nothing asked of the values, and the dispatchers of EvalInst.v. *)
From Coq Require Import String Ascii List ZArith Bool Lia.
Require Import Blots.Num Blots.gen.Builtins Blots.Ast Blots.Value Blots.Outcome Blots.Binop
               Blots.Env Blots.Eval Blots.BuiltinsHof Blots.Program Blots.EvalInst
               Blots.proofs.ExprInd Blots.proofs.Frames Blots.proofs.Closures Blots.proofs.BinopShape
               Blots.proofs.ValuePred.
Require Blots.BuiltinsList.
Import ListNotations.
Open Scope string_scope.
Open Scope list_scope.
Open Scope nat_scope.

Inductive failure := FPanic | FUnm.
Definition fail (k : failure) {A} : outcome A :=
  match k with FPanic => Panic | FUnm => Unmodelled end.

Definition sat (k : failure) {A} (P : A -> Prop) (o : outcome A) : Prop :=
  o <> fail k /\ forall a, o = Ok a -> P a.

(* ------------------------------------------------------------------ 1. the outcome monad *)
Lemma obind_ok : forall {A B} (m : outcome A) (f : A -> outcome B) v,
  obind m f = Ok v -> exists a, m = Ok a /\ f a = Ok v.
Proof. intros A B m f v H. destruct m; try discriminate H. eexists; split; [reflexivity|exact H]. Qed.
(* `let x = m?;` in a hypothesis H : ... = Ok v, keeping (obk) or dropping (ob) the equation for m *)
Ltac obk H x Hx := apply obind_ok in H; destruct H as [x [Hx H]].
Ltac ob H x := apply obind_ok in H; destruct H as [x [_ H]].

Section Monad.
  Variable k : failure.

  Lemma ok_nf : forall A (a : A), Ok a <> fail k.
  Proof. destruct k; discriminate. Qed.
  Lemma err_nf : forall A, @Err A <> fail k.
  Proof. destruct k; discriminate. Qed.
  Lemma errdepth_nf : forall A, @ErrDepth A <> fail k.
  Proof. destruct k; discriminate. Qed.

  Lemma cast_fail_nf : forall A B (o : outcome A), o <> fail k -> @cast_fail A B o <> fail k.
  Proof.
    intros A B o H. destruct o; cbn [cast_fail];
      [apply err_nf|apply err_nf|apply errdepth_nf|..];
      (intros E; apply H; destruct k; (reflexivity || discriminate E)).
  Qed.
  Lemma obind_nf : forall A B (x : outcome A) (f : A -> outcome B),
    x <> fail k -> (forall a, x = Ok a -> f a <> fail k) -> obind x f <> fail k.
  Proof.
    intros A B x f Hx Hf. destruct x; [apply Hf; reflexivity|apply err_nf|apply errdepth_nf|..];
      exact (cast_fail_nf _ B _ Hx).
  Qed.
  Lemma of_option_nf : forall A (o : option A), of_option o <> fail k.
  Proof. intros A [a|]; [apply ok_nf|apply err_nf]. Qed.
  Lemma mapM_nf : forall A B (f : A -> outcome B) (l : list A),
    (forall x, In x l -> f x <> fail k) -> mapM f l <> fail k.
  Proof.
    intros A B f l. induction l as [|x l IH]; intros H; cbn [mapM]; [apply ok_nf|].
    apply obind_nf; [apply H; left; reflexivity|]. intros y _.
    apply obind_nf; [apply IH; intros z Hz; apply H; right; exact Hz|]. intros; apply ok_nf.
  Qed.

  Lemma sat_ok : forall A (P : A -> Prop) a, P a -> sat k P (Ok a).
  Proof. intros A P a H. split; [apply ok_nf|intros b E; injection E as <-; exact H]. Qed.
  Lemma sat_err : forall A (P : A -> Prop), sat k P Err.
  Proof. intros. split; [apply err_nf|discriminate]. Qed.
  Lemma sat_errdepth : forall A (P : A -> Prop), sat k P ErrDepth.
  Proof. intros. split; [apply errdepth_nf|discriminate]. Qed.
  Lemma sat_imp : forall A (P Q : A -> Prop) o, (forall a, P a -> Q a) -> sat k P o -> sat k Q o.
  Proof. intros A P Q o H [Hn Hv]. split; [exact Hn|intros a E; apply H, Hv, E]. Qed.
  Lemma sat_nf : forall A (o : outcome A), o <> fail k -> sat k (fun _ => True) o.
  Proof. intros A o H. split; [exact H|trivial]. Qed.
  Lemma sat_fail : forall A (P : A -> Prop) o, sat k P o -> o <> fail k.
  Proof. intros A P o H. apply H. Qed.
  Lemma obind_sat : forall A B (P : A -> Prop) (Q : B -> Prop) (x : outcome A) (f : A -> outcome B),
    sat k P x -> (forall a, P a -> sat k Q (f a)) -> sat k Q (obind x f).
  Proof.
    intros A B P Q x f [Hn Hv] Hf. destruct x; cbn [obind];
      [apply Hf, Hv; reflexivity|apply sat_err|apply sat_errdepth|..];
      (split; [exact (cast_fail_nf _ B _ Hn)|discriminate]).
  Qed.
  Lemma omap_sat : forall A B (P : A -> Prop) (Q : B -> Prop) (g : A -> B) (x : outcome A),
    sat k P x -> (forall a, P a -> Q (g a)) -> sat k Q (omap g x).
  Proof. intros A B P Q g x Hx Hg. eapply obind_sat; [exact Hx|]. intros a Ha. apply sat_ok; auto. Qed.
  Lemma mapM_sat : forall A B (P : B -> Prop) (f : A -> outcome B) (l : list A),
    (forall x, In x l -> sat k P (f x)) -> sat k (Forall P) (mapM f l).
  Proof.
    intros A B P f l. induction l as [|x l IH]; intros H; cbn [mapM]; [apply sat_ok; constructor|].
    eapply obind_sat; [apply H; left; reflexivity|]. intros y Hy.
    eapply obind_sat; [apply IH; intros z Hz; apply H; right; exact Hz|]. intros ys Hys.
    apply sat_ok. constructor; assumption.
  Qed.

  Lemma as_number_nf : forall v, as_number v <> fail k.
  Proof. destruct v; first [apply ok_nf|apply err_nf]. Qed.
  Lemma as_bool_nf : forall v, as_bool v <> fail k.
  Proof. destruct v; first [apply ok_nf|apply err_nf]. Qed.
  Lemma as_string_nf : forall v, as_string v <> fail k.
  Proof. destruct v; first [apply ok_nf|apply err_nf]. Qed.
  Lemma as_list_nf : forall v, as_list v <> fail k.
  Proof. destruct v; first [apply ok_nf|apply err_nf]. Qed.
  (* `args[i]` below the arity that check_arity enforced *)
  Lemma arg_nf : forall args i, i < Datatypes.length args -> arg args i <> fail k.
  Proof.
    intros args i H. unfold arg. destruct (nth_error args i) eqn:E; [apply ok_nf|].
    apply nth_error_None in E. lia.
  Qed.

  (* an operation threading a state of type S (a configuration, a store) on which J is kept *)
  Section State.
    Variables (S : Type) (J : S -> Prop).
    Definition oks {A} (P : A -> Prop) (r : outcome A * S) : Prop := sat k P (fst r) /\ J (snd r).

    Lemma oks_sat : forall A (P : A -> Prop) o s, sat k P o -> J s -> oks P (o, s).
    Proof. intros; split; assumption. Qed.
    Lemma oks_ok : forall A (P : A -> Prop) a s, P a -> J s -> oks P (Ok a, s).
    Proof. intros. apply oks_sat; [apply sat_ok|]; assumption. Qed.
    Lemma oks_err : forall A (P : A -> Prop) s, J s -> oks P (Err, s).
    Proof. intros. apply oks_sat; [apply sat_err|assumption]. Qed.

    (* `let (v, s1) = r?; f v s1`: a failure is passed on, at the same type or cast to another *)
    Lemma oks_bind : forall A (P Q : A -> Prop) (r : outcome A * S) (f : A -> S -> outcome A * S),
      oks P r -> (forall a s, P a -> J s -> oks Q (f a s)) ->
      oks Q (match r with (Ok a, s) => f a s | (o, s) => (o, s) end).
    Proof.
      intros A P Q [o s] f [[Hn Hv] Hj] Hf. cbn [fst snd] in *.
      destruct o; [apply Hf; auto|..]; (apply oks_sat; [split; [exact Hn|discriminate]|exact Hj]).
    Qed.
    Lemma oks_bind_cast : forall A B (P : A -> Prop) (Q : B -> Prop) (r : outcome A * S)
                                 (f : A -> S -> outcome B * S),
      oks P r -> (forall a s, P a -> J s -> oks Q (f a s)) ->
      oks Q (match r with (Ok a, s) => f a s | (o, s) => (cast_fail o, s) end).
    Proof.
      intros A B P Q [o s] f [[Hn Hv] Hj] Hf. cbn [fst snd] in *.
      destruct o; [apply Hf; auto|..];
        (apply oks_sat; [split; [exact (cast_fail_nf _ B _ Hn)|discriminate]|exact Hj]).
    Qed.
  End State.

  (* the same when nothing is asked of the state *)
  Lemma fst_bind : forall S A (P Q : A -> Prop) (r : outcome A * S) (f : A -> S -> outcome A * S),
    sat k P (fst r) -> (forall a s, P a -> sat k Q (fst (f a s))) ->
    sat k Q (fst (match r with (Ok a, s) => f a s | (o, s) => (o, s) end)).
  Proof.
    intros S A P Q r f Hr Hf.
    exact (proj1 (oks_bind S (fun _ => True) A P Q r f (conj Hr I) (fun a s Ha _ => conj (Hf a s Ha) I))).
  Qed.
  Lemma fst_bind_cast : forall S A B (P : A -> Prop) (Q : B -> Prop) (r : outcome A * S)
                               (f : A -> S -> outcome B * S),
    sat k P (fst r) -> (forall a s, P a -> sat k Q (fst (f a s))) ->
    sat k Q (fst (match r with (Ok a, s) => f a s | (o, s) => (cast_fail o, s) end)).
  Proof.
    intros S A B P Q r f Hr Hf.
    exact (proj1 (oks_bind_cast S (fun _ => True) A B P Q r f (conj Hr I)
                    (fun a s Ha _ => conj (Hf a s Ha) I))).
  Qed.
  (* ... and with the failure arms written out *)
  Lemma fst_bind_x : forall S A B (P : A -> Prop) (Q : B -> Prop) (r : outcome A * S)
                            (f : A -> S -> outcome B * S),
    sat k P (fst r) -> (forall a s, P a -> sat k Q (fst (f a s))) ->
    sat k Q (fst (let '(o, s) := r in
                  match o with
                  | Ok a => f a s
                  | Err => (Err, s) | ErrDepth => (ErrDepth, s)
                  | Panic => (Panic, s) | Unmodelled => (Unmodelled, s)
                  end)).
  Proof.
    intros S A B P Q [o s] f Hr Hf.
    pose proof (fst_bind_cast S A B P Q (o, s) f Hr Hf) as H. destruct o; exact H.
  Qed.
  (* `let v = o?; g v` where only g touches the state *)
  Lemma fst_match_cast : forall S A B (P : A -> Prop) (Q : B -> Prop) (o : outcome A)
                                (g : A -> outcome B * S) (s : S),
    sat k P o -> (forall a, P a -> sat k Q (fst (g a))) ->
    sat k Q (fst (match o with
                  | Ok a => g a
                  | Err => (Err, s) | ErrDepth => (ErrDepth, s)
                  | Panic => (Panic, s) | Unmodelled => (Unmodelled, s)
                  end)).
  Proof.
    intros S A B P Q o g s [Hn Hv] Hg.
    destruct o; [apply Hg, Hv; reflexivity|apply sat_err|apply sat_errdepth|..];
      (split; [exact (cast_fail_nf _ B _ Hn)|discriminate]).
  Qed.
End Monad.

(* ------------------------------------------------------------------ 2. the evaluator *)
(* E holds of the immediate sub-expressions of e *)
Definition children (E : expr -> Prop) (e : expr) : Prop :=
  match e with
  | EList items => Forall (fun c => E (cnode c)) items
  | ERec entries => Forall (fun c => Pentry E (cnode c)) entries
  | ELam _ body => E body
  | ECond c t f => E c /\ E t /\ E f
  | EDo stmts ret => Forall (fun c => E (cnode c)) stmts /\ E (cnode ret)
  | EAssign _ a | EOutput a | EDot a _ | EUn _ a | EFact a | ESpread a => E a
  | ECall f args => E f /\ Forall E args
  | EAccess a b | EBin _ a b => E a /\ E b
  | _ => True
  end.

Section Walk.
  Variable k : failure.
  Variable E : expr -> Prop.
  Variable V : value -> Prop.
  (* what is asked of the innermost frame: Environment::insert panics on a Shared one *)
  Variable Head : frames -> Prop.

  Definition Inv (fr : frames) : Prop := Head fr /\ Pframes V fr.

  (* V is hereditary: it holds of a compound value when it holds of its parts, of a closure when E
     holds of the body and V of the captured values, and of the numbers the evaluator makes itself.
     (ValuePred.hereditary is the same notion with V asked of EVERY number; validity is not that.)
     V_idx and V_arith are used by the operators and the built-ins (parts 3 - 5) only: evalE_sat,
     AD_sat, evalD_sat and the statement loop do not depend on them.  V_arith is stated over a list of
     operations so that an arm says which one it uses by its position in the list. *)
  Hypothesis V_null : V VNull.
  Hypothesis V_bool : forall b, V (VBool b).
  Hypothesis V_str : forall s, V (VStr s).
  Hypothesis V_builtin : forall b, V (VBuiltin b).
  Hypothesis V_list : forall l, V (VList l) <-> Forall V l.
  Hypothesis V_rec : forall r, V (VRec r) <-> Pframe V r.
  Hypothesis V_spread : forall v, V (VSpread v) <-> V v.
  Hypothesis V_lam : forall id ps body scope, V (VLam id ps body scope) <-> E body /\ Pframe V scope.
  Hypothesis V_inf : V (VNum npinf).
  Hypothesis V_neg : forall x, V (VNum x) -> V (VNum (nneg x)).
  Hypothesis V_consts : V (VRec constants_record).
  Hypothesis V_idx : forall i, V (VNum (num_of_idx i)).
  Hypothesis V_arith : forall f, In f [nadd; nsub; nmul; ndiv; nfmod] ->
    forall x y, V (VNum x) -> V (VNum y) -> V (VNum (f x y)).
  Hypothesis E_num : forall x, E (ENum x) -> V (VNum x).
  Hypothesis E_sub : forall e, E e -> children E e.

  Hypothesis H_new : forall f fr, Head ((FOwned, f) :: fr).
  Hypothesis H_ins : forall fr x v fr1, Head fr -> insert_head fr x v = Some fr1 -> Head fr1.
  (* on a Shared head frame Environment::insert — and the model — panics: a chain with the head
     condition may only get there when Panic is not the failure to be avoided *)
  Hypothesis H_shared : forall fr x v, Head fr -> insert_head fr x v = None -> k <> FPanic.

  (* ---- the value-level steps of evaluate_ast keep V ---- *)
  Lemma field_V : forall r x, V (VRec r) -> V (match rec_get r x with Some v => v | None => VNull end).
  Proof. intros r x Hr. destruct (rec_get r x) eqn:E0; [|exact V_null]. eapply rec_get_P; [apply V_rec|]; eauto. Qed.
  Lemma record_spread_entries_V : forall v, V v -> Pframe V (record_spread_entries v).
  Proof.
    intros v Hv. destruct v; try constructor. apply -> V_spread in Hv.
    destruct v; try constructor; cbn [record_spread_entries].
    - apply (enum_from_P V VStr). intros; apply V_str.
    - apply (enum_from_P V (fun x => x)). apply V_list in Hv. rewrite Forall_forall in Hv. exact Hv.
    - apply V_rec; exact Hv.
  Qed.
  Lemma spread_items_V : forall it, V it -> Forall V (spread_items it).
  Proof.
    intros it Hv. destruct it; try constructor; cbn [spread_items].
    - apply Forall_forall. intros v Hin. apply in_map_iff in Hin. destruct Hin as [c [<- _]]. apply V_str.
    - apply V_list. exact Hv.
    - apply V_rec in Hv. apply Forall_forall. intros v Hin. apply in_map_iff in Hin.
      destruct Hin as [[x w] [<- Hin]]. apply V_list. repeat constructor; [apply V_str|].
      unfold Pframe in Hv. rewrite Forall_forall in Hv. exact (Hv _ Hin).
  Qed.
  Lemma flatten_spreads_V : forall l, Forall V l -> Forall V (flatten_spreads l).
  Proof.
    induction 1 as [|v l Hv _ IH]; [constructor|].
    destruct v; cbn [flatten_spreads]; try (constructor; assumption).
    apply Forall_app. split; [apply spread_items_V, V_spread; exact Hv|exact IH].
  Qed.
  Lemma bind_params_V : forall ps idx args acc local,
    Forall V args -> Pframe V acc -> bind_params ps idx args acc = Some local -> Pframe V local.
  Proof.
    induction ps as [|p ps IH]; intros idx args acc local Ha Hacc E0; [injection E0 as <-; exact Hacc|].
    apply bind_params_cons in E0. eapply IH; [exact Ha| |exact E0]. constructor; [|exact Hacc].
    rewrite Forall_forall in Ha. destruct p; cbn [snd param_value];
      [destruct (nth_error args idx) eqn:En; [eapply Ha, nth_error_In; eauto|exact V_null]..|].
    apply V_list, Forall_forall. intros v Hv. apply Ha.
    rewrite <- (firstn_skipn idx args). apply in_or_app. right. exact Hv.
  Qed.

  (* a callback / operator / built-in result *)
  Definition cb_ok (cb : callback) : Prop :=
    forall this f args st, V this -> V f -> Forall V args -> sat k V (fst (cb this f args st)).

  Lemma access_val_V : forall v i, V v -> sat k V (access_val v i).
  Proof.
    intros v i Hv. destruct v; cbn [access_val]; try exact (sat_err _ _ _);
      destruct i; cbn [as_number as_string obind]; try exact (sat_err _ _ _); apply sat_ok.
    - destruct (index_from _ _) as [n|]; [|exact V_null].
      destruct (nth_error (chars s) n); [apply V_str|exact V_null].
    - destruct (index_from _ _) as [n|]; [|exact V_null].
      destruct (nth_in_or_default n l VNull) as [Hin| ->]; [|exact V_null].
      apply V_list in Hv. rewrite Forall_forall in Hv. auto.
    - apply field_V. exact Hv.
  Qed.
  Lemma dot_val_V : forall v f, V v -> sat k V (dot_val v f).
  Proof. intros v f Hv. destruct v; cbn [dot_val]; try exact (sat_err _ _ _). apply sat_ok, field_V, Hv. Qed.
  Lemma spread_val_V : forall v, V v -> sat k V (spread_val v).
  Proof.
    intros v Hv. destruct v; cbn [spread_val]; try exact (sat_err _ _ _); apply sat_ok, V_spread, Hv.
  Qed.
  Lemma unary_V : forall op v, V v ->
    sat k V (match op with
             | Negate => omap (fun x => VNum (nneg x)) (as_number v)
             | Not | Invert => omap (fun b => VBool (negb b)) (as_bool v)
             end).
  Proof.
    intros op v Hv. destruct op; destruct v; cbn [as_number as_bool omap obind]; try exact (sat_err _ _ _);
      apply sat_ok; auto.
  Qed.

  Section Expr.
  Variable release : bool.
  Variable binop_impl : callback -> binop -> value -> value -> store -> outcome value * store.
  Variable apply : frames -> callback.
  Hypothesis binop_ok : forall cb op l r st,
    cb_ok cb -> V l -> V r -> sat k V (fst (binop_impl cb op l r st)).
  Hypothesis fact_ok : forall n, V (VNum n) -> sat k V (factorial_val release n).
  Hypothesis Happly : forall fr, Pframes V fr -> cb_ok (apply fr).

  Notation evalE := (evalE release binop_impl apply).
  Notation okc := (oks k cfg (fun c => Inv (snd c))).

  Definition ok_e (ev : cfg -> expr -> result) (e : expr) : Prop :=
    forall c, Inv (snd c) -> okc V (ev c e).

  Section Gen.
    Variable ev : cfg -> expr -> result.

    Lemma evalL_ok : forall l, Forall (ok_e ev) l ->
      forall c, Inv (snd c) -> okc (Forall V) (evalL ev c l).
    Proof.
      intros l HF; induction HF as [|x l Hx _ IH]; intros c Hi; cbn [evalL];
        [apply oks_ok; [constructor|exact Hi]|].
      apply oks_bind_cast with (P := V); [apply Hx; exact Hi|]. intros v c1 Hv Hi1.
      apply oks_bind with (P := Forall V); [apply IH; exact Hi1|]. intros vs c2 Hvs Hi2.
      apply oks_ok; [constructor; assumption|exact Hi2].
    Qed.

    Lemma evalRecL_ok : forall (l : list (commented rentry)),
      Forall (fun cm => Pentry (ok_e ev) (cnode cm)) l ->
      forall c acc, Inv (snd c) -> Pframe V acc -> okc V (evalRecL ev c acc l).
    Proof.
      intros l HF; induction HF as [|[ld [key v] tr] l [Hkey Hv] _ IH]; intros c acc Hi Hacc;
        cbn [evalRecL]; [apply oks_ok; [apply V_rec; exact Hacc|exact Hi]|].
      destruct key as [x|ke|x|se]; cbn [Pkey] in Hkey.
      - apply oks_bind with (P := V); [apply Hv; exact Hi|]. intros w c1 Hw Hi1.
        apply IH; [exact Hi1|apply rec_insert_P; assumption].
      - apply oks_bind with (P := V); [apply Hkey; exact Hi|]. intros kv c1 _ Hi1.
        destruct kv; cbn [as_string cast_fail]; try (apply oks_err; exact Hi1).
        apply oks_bind with (P := V); [apply Hv; exact Hi1|]. intros w c2 Hw Hi2.
        apply IH; [exact Hi2|apply rec_insert_P; assumption].
      - destruct (lookup (snd c) x) eqn:E0; [|apply oks_err; exact Hi].
        apply IH; [exact Hi|]. apply rec_insert_P; [exact Hacc|]. eapply lookup_P; [apply Hi|exact E0].
      - apply oks_bind with (P := V); [apply Hkey; exact Hi|]. intros sv c1 Hsv Hi1.
        apply IH; [exact Hi1|]. apply rec_insert_all_P; [exact Hacc|apply record_spread_entries_V; exact Hsv].
    Qed.

    (* Environment::insert: the only write, and the one place the head condition Head is for *)
    Lemma bind_value_ok : forall n0 c1 x v, Inv (snd c1) -> V v -> okc V (bind_value n0 c1 x v).
    Proof.
      intros n0 [st fr] x v [Hh Hfr] Hv. unfold bind_value. cbn [fst snd].
      destruct (insert_head fr x v) as [fr1|] eqn:E0.
      - apply oks_ok; [exact Hv|]. split; [eapply H_ins; eauto|eapply insert_head_P; eauto].
      - apply oks_sat; [|split; assumption]. split; [|discriminate].
        pose proof (H_shared fr x v Hh E0). destruct k; [contradiction|discriminate].
    Qed.
    Lemma assign_value_ok : forall x ve, ok_e ev ve ->
      forall c, Inv (snd c) -> okc V (assign_value ev c x ve).
    Proof.
      intros x ve Hve c Hi. unfold assign_value.
      apply oks_bind with (P := V); [apply Hve; exact Hi|]. intros v c1 Hv Hi1.
      apply bind_value_ok; assumption.
    Qed.
    Lemma assign_checked_ok : forall x ve, ok_e ev ve ->
      forall c, Inv (snd c) -> okc V (assign_checked ev c x ve).
    Proof.
      intros x ve Hve c Hi. unfold assign_checked.
      apply oks_bind with (P := V); [apply Hve; exact Hi|]. intros v c1 Hv Hi1.
      destruct (contains (snd c1) x); [apply oks_err; exact Hi1|apply bind_value_ok; assumption].
    Qed.

    (* the strengthening that lets the do-block case reach the right-hand side of a statement
       `x = e` (the do-block path evaluates it without the immutability guards) *)
    Definition stmt_ok (s : expr) : Prop :=
      ok_e ev s /\ (forall x ve, s = EAssign x ve -> ok_e ev ve).

    Lemma do_step_ok : forall s, stmt_ok s -> forall c, Inv (snd c) -> okc V (do_step ev c s).
    Proof.
      intros s [Hs Ha] c Hi. destruct s; cbn [do_step]; try (apply Hs; exact Hi).
      destruct (mem x do_assign_keywords); [apply oks_err; exact Hi|].
      apply assign_value_ok; [eapply Ha; reflexivity|exact Hi].
    Qed.
    Lemma evalDoL_ok : forall (l : list (commented expr)),
      Forall (fun cm => stmt_ok (cnode cm)) l ->
      forall c, Inv (snd c) -> okc (fun _ : unit => True) (evalDoL ev c l).
    Proof.
      intros l HF; induction HF as [|[ld s tr] l Hx _ IH]; intros c Hi; cbn [evalDoL];
        [apply oks_ok; [exact I|exact Hi]|].
      apply oks_bind_cast with (P := V); [apply do_step_ok; [exact Hx|exact Hi]|].
      intros _ c1 _ Hi1. apply IH. exact Hi1.
    Qed.
  End Gen.

  Theorem evalE_sat : forall e, E e -> ok_e evalE e.
  Proof.
    intros e.
    enough (HH : E e -> stmt_ok evalE e) by (intros He; apply (HH He)). unfold stmt_ok.
    induction e using expr_ind'; intros He; pose proof (E_sub _ He) as Hs; cbn [children] in Hs;
      (split; [intros c Hi; cbn [Eval.evalE]|try (intros ? ? Heq; discriminate Heq)]).
    - apply oks_ok; [apply E_num; exact He|exact Hi].
    - apply oks_ok; [apply V_str|exact Hi].
    - apply oks_ok; [apply V_bool|exact Hi].
    - apply oks_ok; [apply V_null|exact Hi].
    - (* EId *)
      destruct (_ || _); [apply oks_ok; [exact V_inf|exact Hi]|].
      destruct (String.eqb x "constants"); [apply oks_ok; [exact V_consts|exact Hi]|].
      destruct (lookup (snd c) x) eqn:E0; [|apply oks_err; exact Hi].
      apply oks_ok; [eapply lookup_P; [apply Hi|exact E0]|exact Hi].
    - (* EInRef *)
      apply oks_sat; [|exact Hi].
      destruct (lookup (snd c) "inputs") as [v|] eqn:E0; [|exact (sat_err _ _ _)].
      pose proof (lookup_P V _ _ _ (proj2 Hi) E0) as Hv.
      destruct v; try exact (sat_err _ _ _). apply sat_ok, field_V, Hv.
    - apply oks_ok; [apply V_builtin|exact Hi].
    - (* EList *)
      assert (HF : Forall (fun cm => ok_e evalE (cnode cm)) items).
      { rewrite Forall_forall in *. intros cm Hin. exact (proj1 (H cm Hin (Hs cm Hin))). }
      rewrite evalCL_evalL. destruct (evalL_ok evalE _ (proj2 (Forall_map _ _ _) HF) c Hi) as [Hl Hi1].
      apply oks_sat; [|exact Hi1]. eapply omap_sat; [exact Hl|].
      intros vs Hvs. apply V_list, flatten_spreads_V, Hvs.
    - (* ERec *)
      apply evalRecL_ok; [|exact Hi|constructor].
      rewrite Forall_forall in *. intros [ld [key v] tr] Hin.
      specialize (H _ Hin). specialize (Hs _ Hin). cbn [cnode Pentry] in *.
      destruct H as [Hk Hv], Hs as [Ek Ev]. split; [|exact (proj1 (Hv Ev))].
      destruct key; cbn [Pkey] in *; auto; exact (proj1 (Hk Ek)).
    - (* ELam *)
      unfold fresh_lambda. apply oks_ok; [|exact Hi].
      apply V_lam. split; [exact Hs|]. apply capture_P; [apply Hi|constructor].
    - (* ECond *)
      destruct Hs as (E1 & E2 & E3).
      destruct (IHe1 E1) as [IH1 _], (IHe2 E2) as [IH2 _], (IHe3 E3) as [IH3 _].
      apply oks_bind with (P := V); [apply IH1; exact Hi|]. intros cv c1 _ Hi1.
      destruct cv; cbn [as_bool cast_fail]; try (apply oks_err; exact Hi1).
      destruct b; [apply IH2|apply IH3]; exact Hi1.
    - (* EDo: a fresh Owned frame for the block; the caller's chain is handed back *)
      destruct Hs as [Es Er]. destruct ret as [ld rt tr]. cbn [cnode] in *.
      match goal with |- okc V (fst ?r, _) => assert (Hr : okc V r) end.
      { apply oks_bind_cast with (P := fun _ : unit => True).
        - apply evalDoL_ok.
          + rewrite Forall_forall in *. intros cm Hin. exact (H cm Hin (Es cm Hin)).
          + split; [apply H_new|constructor; [constructor|apply Hi]].
        - intros _ c1 _ Hi1. apply do_step_ok; [apply IHe; exact Er|exact Hi1]. }
      apply oks_sat; [apply Hr|exact Hi].
    - (* EAssign *)
      destruct (is_builtin_name x); [apply oks_err; exact Hi|].
      destruct (mem x assign_keywords); [apply oks_err; exact Hi|].
      destruct (contains (snd c) x); [apply oks_err; exact Hi|].
      apply assign_checked_ok; [exact (proj1 (IHe Hs))|exact Hi].
    - (* EAssign, second component *)
      intros y ve Heq. injection Heq as _ <-. exact (proj1 (IHe Hs)).
    - (* EOutput *) exact (proj1 (IHe Hs) c Hi).
    - (* ECall: FunctionDef::call is [apply] *)
      destruct Hs as [Ef Ea].
      apply oks_bind with (P := V); [apply (IHe Ef); exact Hi|]. intros fv c1 Hfv Hi1.
      apply oks_bind_cast with (P := Forall V).
      { apply evalL_ok; [|exact Hi1]. rewrite Forall_forall in *.
        intros a Hin. exact (proj1 (H a Hin (Ea a Hin))). }
      intros raw [st2 fr2] Hraw Hi2.
      destruct (negb (is_function fv)); [apply oks_err; exact Hi2|].
      pose proof (Happly fr2 (proj2 Hi2) fv fv (flatten_spreads raw) st2 Hfv Hfv
                    (flatten_spreads_V _ Hraw)) as Hc.
      destruct (apply fr2 fv fv (flatten_spreads raw) st2) as [rr st3].
      apply oks_sat; [exact Hc|exact Hi2].
    - (* EAccess *)
      destruct Hs as [E1 E2].
      apply oks_bind with (P := V); [apply (IHe1 E1); exact Hi|]. intros v c1 Hv Hi1.
      apply oks_bind with (P := V); [apply (IHe2 E2); exact Hi1|]. intros i c2 _ Hi2.
      apply oks_sat; [apply access_val_V; exact Hv|exact Hi2].
    - (* EDot *)
      apply oks_bind with (P := V); [apply (IHe Hs); exact Hi|]. intros v c1 Hv Hi1.
      apply oks_sat; [apply dot_val_V; exact Hv|exact Hi1].
    - (* EBin: evaluate_binary_op_ast after the operands is [binop_impl] *)
      destruct Hs as [E1 E2].
      apply oks_bind with (P := V); [apply (IHe1 E1); exact Hi|]. intros lv c1 Hlv Hi1.
      apply oks_bind with (P := V); [apply (IHe2 E2); exact Hi1|]. intros rv [st2 fr2] Hrv Hi2.
      pose proof (binop_ok (apply fr2) op lv rv st2 (Happly fr2 (proj2 Hi2)) Hlv Hrv) as Hb.
      destruct (binop_impl (apply fr2) op lv rv st2) as [res st3].
      apply oks_sat; [exact Hb|exact Hi2].
    - (* EUn *)
      apply oks_bind with (P := V); [apply (IHe Hs); exact Hi|]. intros v c1 Hv Hi1.
      apply oks_sat; [apply unary_V; exact Hv|exact Hi1].
    - (* EFact *)
      apply oks_bind with (P := V); [apply (IHe Hs); exact Hi|]. intros v c1 Hv Hi1.
      apply oks_sat; [|exact Hi1].
      destruct v; cbn [as_number cast_fail]; try exact (sat_err _ _ _). apply fact_ok. exact Hv.
    - (* ESpread *)
      apply oks_bind with (P := V); [apply (IHe Hs); exact Hi|]. intros v c1 Hv Hi1.
      apply oks_sat; [apply spread_val_V; exact Hv|exact Hi1].
  Qed.
  End Expr.

  (* ---- FunctionDef::call at every depth ---- *)
  Section Depth.
  Variable release : bool.
  Variable binop_impl : callback -> binop -> value -> value -> store -> outcome value * store.
  Variable builtin_impl : callback -> builtin -> list value -> store -> outcome value * store.
  Hypothesis binop_ok : forall cb op l r st,
    cb_ok cb -> V l -> V r -> sat k V (fst (binop_impl cb op l r st)).
  (* a built-in is only asked about an argument vector that passed its arity check *)
  Hypothesis builtin_ok : forall cb b args st,
    cb_ok cb -> can_accept (builtin_arity b) (Datatypes.length args) = true -> Forall V args ->
    sat k V (fst (builtin_impl cb b args st)).
  Hypothesis fact_ok : forall n, V (VNum n) -> sat k V (factorial_val release n).

  Lemma call_too_deep_ok : cb_ok (fun _ f a s => call_too_deep f a s).
  Proof.
    intros this f args st _ _ _. unfold call_too_deep.
    destruct (check_arity _ _); [exact (sat_errdepth _ _ _)|exact (sat_err _ _ _)].
  Qed.

  (* binding the parameters: `args[idx]` is in range once check_arity has passed
     (Closures.bind_params_total), and the body runs in a chain whose head is the fresh Owned
     frame of the call *)
  Theorem AD_sat : forall d fr, Pframes V fr -> cb_ok (AD release binop_impl builtin_impl d fr).
  Proof.
    intros d. induction d as [d IH] using lt_wf_ind. intros fr Hfr this f args st Hthis Hf Hargs.
    destruct d as [|d']; cbn [AD]; unfold apply_at.
    - destruct (negb _); [exact (sat_err _ _ _)|exact (sat_errdepth _ _ _)].
    - destruct (check_arity f (Datatypes.length args)) eqn:Ha; cbn [negb]; [|exact (sat_err _ _ _)].
      unfold call_passed, check_arity, accepts in *. destruct f; try exact (sat_err _ _ _); cbn [fn_arity] in Ha.
      + (* lambda *)
        apply V_lam in Hf. destruct Hf as [Hbody Hscope].
        match goal with |- context [bind_params args0 0 args ?acc] =>
          pose proof (bind_params_total args0 args acc Ha) as Hb;
          assert (Hacc : Pframe V acc);
          [|pose proof (fun local => bind_params_V args0 0 args acc local Hargs Hacc) as Hloc;
            destruct (bind_params args0 0 args acc) as [local|]; [|congruence]] end.
        { apply Forall_app. split.
          - destruct (lookup_frame scope "inputs"); [constructor|].
            destruct (lookup fr "inputs") eqn:E0; repeat constructor. eapply lookup_P; eauto.
          - destruct (lam_name st id); [|constructor].
            destruct (lookup_frame scope s); repeat constructor. exact Hthis. }
        match goal with |- context [evalE ?r ?b ?a ?c ?e] =>
          assert (Hi : Inv (snd c));
          [|pose proof (evalE_sat r b a binop_ok fact_ok
                          (fun fr0 H0 => IH d' (Nat.lt_succ_diag_r d') fr0 H0) e Hbody c Hi) as He;
            destruct (evalE r b a c e) as [rr [st1 fr1]]] end.
        { split; [apply H_new|]. constructor; [exact (Hloc local eq_refl)|].
          destruct scope; [exact Hfr|]. constructor; assumption. }
        apply He.
      + (* built-in *)
        apply builtin_ok; [|exact Ha|exact Hargs].
        destruct d' as [|d'']; [apply call_too_deep_ok|apply IH; [lia|exact Hfr]].
  Qed.

  Theorem evalD_sat : forall d c e, E e -> Inv (snd c) ->
    oks k cfg (fun c => Inv (snd c)) V (evalD release binop_impl builtin_impl d c e).
  Proof. intros d c e He Hi. unfold evalD. apply evalE_sat; auto using AD_sat. Qed.

  End Depth.

  (* ---- the statement loop of evaluate_source (Program.v) ---- *)
  Section Loop.
  Variable eval : cfg -> expr -> result.
  Hypothesis eval_ok : forall c e, E e -> Inv (snd c) -> oks k cfg (fun c => Inv (snd c)) V (eval c e).
  Definition stmt_E (t : stmt) : Prop := match t with SExpr e | SOut e => E e | SComment => True end.
  Definition result_ok (r : stmt_result) : Prop := r <> RFail (fail k) /\ forall v, r = ROk v -> V v.

  Lemma exec_stmt_sat : forall s t s' r, stmt_E t ->
    exec_stmt eval s t = (s', r) -> Inv (snd (s_cfg s)) -> Inv (snd (s_cfg s')) /\ result_ok r.
  Proof.
    assert (R : forall o : outcome value, sat k V o ->
                result_ok (match o with Ok v => ROk v | _ => RFail o end)).
    { intros o [Hn Hv]. destruct o; (split; [|intros w Ew; try discriminate Ew]);
        [discriminate|injection Ew as <-; auto|..]; intros Ef; injection Ef as Ef; exact (Hn Ef). }
    intros s t s' r Et H0 Hi. destruct t as [e|e|]; cbn [exec_stmt stmt_E] in *.
    - destruct (eval_ok (s_cfg s) e Et Hi) as [Hs Hi1]. destruct (eval (s_cfg s) e) as [o c'].
      injection H0 as <- <-. auto.
    - destruct (eval_ok (s_cfg s) e Et Hi) as [Hs Hi1]. destruct (eval (s_cfg s) e) as [o [st' fr']].
      match type of H0 with (match ?D with Some _ => _ | None => _ end) = _ => destruct D as [[x v]|] end;
        [destruct (validate_portable st' fr' v)|]; injection H0 as <- <-; auto.
      split; [exact Hi1|split; discriminate].
    - injection H0 as <- <-. split; [exact Hi|split; discriminate].
  Qed.

  Theorem run_sat : forall prog s, Forall stmt_E prog -> Inv (snd (s_cfg s)) ->
    Forall (fun rs => result_ok (fst rs)) (snd (run eval s prog)).
  Proof.
    induction prog as [|t rest IH]; intros s Ep Hi; cbn [run]; [constructor|].
    inversion Ep as [|? ? Et Er]; subst.
    destruct (exec_stmt eval s t) as [s' r] eqn:E0.
    destruct (exec_stmt_sat _ _ _ _ Et E0 Hi) as [Hi' Hr].
    destruct r; [|constructor; [exact Hr|constructor]..|apply IH; assumption].
    specialize (IH s' Er Hi'). destruct (run eval s' rest) as [s'' rs]. constructor; [exact Hr|exact IH].
  Qed.
  End Loop.

  (* ------------------------------------------------------------------ 3. the operators *)
  Ltac s_ok := refine (sat_ok _ _ _ _ _).
  Ltac s_err := exact (sat_err _ _ _).

  Lemma as_number_V : forall v, V v -> sat k (fun x => V (VNum x)) (as_number v).
  Proof. intros v Hv. destruct v; try s_err. s_ok. exact Hv. Qed.
  Lemma num2_V : forall f a b, (forall x y, V (VNum x) -> V (VNum y) -> V (VNum (f x y))) ->
    V a -> V b -> sat k V (num2 f a b).
  Proof.
    intros f a b Hf Ha Hb. unfold num2.
    eapply obind_sat; [apply as_number_V; exact Ha|]. intros x Hx.
    eapply obind_sat; [apply as_number_V; exact Hb|]. intros y Hy. s_ok. auto.
  Qed.
  Lemma and_q_V : forall a b, sat k V (and_q a b).
  Proof.
    intros a b. unfold and_q. eapply obind_sat; [apply sat_nf, as_bool_nf|]. intros x _.
    destruct x; [|s_ok; apply V_bool].
    eapply obind_sat; [apply sat_nf, as_bool_nf|]. intros y _. s_ok; apply V_bool.
  Qed.
  Lemma or_q_V : forall a b, sat k V (or_q a b).
  Proof.
    intros a b. unfold or_q. eapply obind_sat; [apply sat_nf, as_bool_nf|]. intros x _.
    destruct x; [s_ok; apply V_bool|].
    eapply obind_sat; [apply sat_nf, as_bool_nf|]. intros y _. s_ok; apply V_bool.
  Qed.
  Lemma cmp_bool_V : forall o e, sat k V (do r <- check_ord o e; Ok (VBool r)).
  Proof.
    intros o e. eapply obind_sat with (P := fun _ => True).
    - apply sat_nf, of_option_nf.
    - intros r _. s_ok. apply V_bool.
  Qed.
  (* `list[idx]` inside `for idx in 0..list.len()` *)
  Lemma index_V : forall l idx, Forall V l -> idx < Datatypes.length l -> sat k V (index l idx).
  Proof.
    intros l idx Hl Hlt. unfold index. destruct (nth_error l idx) eqn:E0.
    - s_ok. rewrite Forall_forall in Hl. eapply Hl, nth_error_In; eauto.
    - apply nth_error_None in E0. lia.
  Qed.
  Lemma in_seq0 : forall i n, In i (seq 0 n) -> i < n.
  Proof. intros i n H0. apply in_seq in H0. lia. Qed.

  Section Ops.
    Variable St : Type.
    Variable call : value -> value -> list value -> St -> outcome value * St.
    Hypothesis call_ok : forall this f args st,
      V this -> V f -> Forall V args -> sat k V (fst (call this f args st)).
    Variable fa2 : value -> bool.
    Variable powf : num -> num -> num.
    Hypothesis V_powf : forall x y, V (VNum x) -> V (VNum y) -> V (VNum (powf x y)).

    Lemma add_match_V : forall a b, V a -> V b -> sat k V (add_match a b).
    Proof.
      intros a b Ha Hb. destruct a; cbn [add_match]; try s_err; destruct b; try s_err.
      - apply num2_V; [apply V_arith; left; reflexivity|exact Ha|exact Hb].
      - cbn. s_ok. apply V_str.
    Qed.

    Definition msat {A} (P : A -> Prop) (m : M St A) : Prop := forall st, sat k P (fst (m st)).

    Lemma lift_sat : forall A (P : A -> Prop) (o : outcome A), sat k P o -> msat P (lift St o).
    Proof. intros A P o H0 st. exact H0. Qed.
    Lemma bindM_sat : forall A B (P : A -> Prop) (Q : B -> Prop) (m : M St A) (f : A -> M St B),
      msat P m -> (forall a, P a -> msat Q (f a)) -> msat Q (bindM St m f).
    Proof.
      intros A B P Q m f Hm Hf st. unfold bindM. destruct (Hm st) as [Hn Hv].
      destruct (m st) as [[a| | | |] st1]; cbn [fst] in *;
        [apply Hf, Hv; reflexivity|s_err|exact (sat_errdepth _ _ _)|..];
        (split; [exact (cast_fail_nf k _ B _ Hn)|discriminate]).
    Qed.
    Lemma for_each_sat : forall B (P : B -> Prop) (idxs : list nat) (body : nat -> M St B),
      (forall i, In i idxs -> msat P (body i)) -> msat (Forall P) (for_each St idxs body).
    Proof.
      intros B P idxs body. induction idxs as [|i r IH]; intros H0; cbn [for_each].
      - apply lift_sat. s_ok. constructor.
      - eapply bindM_sat; [apply H0; left; reflexivity|]. intros y Hy.
        eapply bindM_sat; [apply IH; intros j Hj; apply H0; right; exact Hj|]. intros ys Hys.
        apply lift_sat. s_ok. constructor; assumption.
    Qed.
    Lemma call_fn_sat : forall f args, V f -> Forall V args -> msat V (call_fn St call f args).
    Proof. intros f args Hf Ha st. apply call_ok; assumption. Qed.

    (* a pure element-wise arm: over the zipped lists, over one list, over the indices *)
    Lemma zip_arm : forall (g : value * value -> outcome value) l r, Forall V l -> Forall V r ->
      (forall a b, V a -> V b -> sat k V (g (a, b))) ->
      msat V (lift St (omap VList (mapM g (combine l r)))).
    Proof.
      intros g l r Hl Hr Hg. apply lift_sat. eapply omap_sat; [|intros vs; apply V_list].
      apply mapM_sat. intros [a b] Hin. rewrite Forall_forall in Hl, Hr.
      apply Hg; [eapply Hl, in_combine_l|eapply Hr, in_combine_r]; eauto.
    Qed.
    Lemma map_arm : forall A (g : A -> outcome value) (P : A -> Prop) l, Forall P l ->
      (forall a, P a -> sat k V (g a)) -> msat V (lift St (omap VList (mapM g l))).
    Proof.
      intros A g P l Hl Hg. apply lift_sat. eapply omap_sat; [|intros vs; apply V_list].
      apply mapM_sat. intros a Hin. rewrite Forall_forall in Hl. auto.
    Qed.

    (* one element of a broadcast: a boolean or an operand handed on, a comparison, and / or, `+`
       (numbers or strings), or num2 over one of the arithmetic operations *)
    Ltac elem :=
      cbn [fst snd];
      first [ s_ok; first [apply V_bool|assumption]
            | apply cmp_bool_V | apply and_q_V | apply or_q_V
            | apply add_match_V; assumption
            | apply num2_V; [first [exact V_powf|apply V_arith; cbn [In]; auto 8]|assumption|assumption] ].
    (* the argument vector of a callback: operands / items (in the context) and `idx as f64` *)
    Ltac valid_args := repeat (first [assumption | apply V_idx | constructor]).

    (* (List, List): reached only with op <> Into and op not a dot operator *)
    Lemma arm_list_list_V : forall op l r, undot op = None -> op <> Into ->
      Forall V l -> Forall V r -> msat V (arm_list_list St call powf op l r).
    Proof.
      intros op l r Hd Hinto Hl Hr. unfold arm_list_list.
      destruct (negb (Nat.eqb (Datatypes.length l) (Datatypes.length r))) eqn:Elen;
        [apply lift_sat; s_err|].
      apply negb_false_iff, Nat.eqb_eq in Elen.
      destruct op; try discriminate Hd; try congruence; cbn [expected_of obind];
        try (apply zip_arm; [exact Hl|exact Hr|intros a b Ha Hb; elem]);
        try (apply lift_sat; s_err).
      - (* Add: l_list[idx], r_list[idx] for idx in 0..list_len *)
        apply map_arm with (P := fun i => i < Datatypes.length l); [apply Forall_forall; intros i; apply in_seq0|].
        intros i Hi.
        eapply obind_sat; [apply index_V; [exact Hl|exact Hi]|]. intros a Ha.
        eapply obind_sat; [apply index_V; [exact Hr|lia]|]. intros b Hb. apply add_match_V; assumption.
      - (* Via *)
        eapply bindM_sat; [|intros mapped Hm; apply lift_sat; s_ok; apply V_list; exact Hm].
        apply for_each_sat. intros i Hi. apply in_seq0 in Hi.
        eapply bindM_sat with (P := fun lr => V (fst lr) /\ V (snd lr)).
        + apply lift_sat.
          eapply obind_sat; [apply index_V; [exact Hl|exact Hi]|]. intros a Ha.
          eapply obind_sat; [apply index_V; [exact Hr|lia]|]. intros b Hb. s_ok. split; assumption.
        + intros [a b] [Ha Hb]. cbn [fst snd] in *.
          destruct (negb (is_lambda b) && negb (is_built_in b)); [apply lift_sat; s_err|].
          apply call_fn_sat; valid_args.
      - (* Coalesce *)
        apply zip_arm; [exact Hl|exact Hr|]. intros a b Ha Hb. cbn [fst snd]. s_ok.
        destruct (is_null a); assumption.
    Qed.

    Lemma filter_some_V : forall (l : list (option value)),
      Forall (fun o => match o with Some v => V v | None => True end) l -> Forall V (filter_some l).
    Proof. induction 1 as [|[v|] l Hv _ IH]; cbn [filter_some]; auto. Qed.

    Lemma arm_list_scalar_V : forall op b l s, undot op = None -> Forall V l -> V s ->
      msat V (arm_list_scalar St call fa2 powf op b l s).
    Proof.
      intros op b l s Hd Hl Hs. unfold arm_list_scalar.
      destruct op; try discriminate Hd; cbn [expected_of obind];
        try (apply map_arm with (P := V); [exact Hl|intros a Ha; destruct b; elem]);
        try (destruct b; cbv iota; (apply map_arm with (P := V); [exact Hl|intros a Ha; elem])).
      - (* Add *)
        apply map_arm with (P := fun i => i < Datatypes.length l); [apply Forall_forall; intros i; apply in_seq0|].
        intros i Hi. eapply obind_sat; [apply index_V; [exact Hl|exact Hi]|]. intros a Ha.
        destruct b; apply add_match_V; assumption.
      - (* Via *)
        destruct b; [|apply lift_sat; s_err].
        destruct (negb (is_callable s)); [apply lift_sat; s_err|].
        eapply bindM_sat; [|intros mapped Hm; apply lift_sat; s_ok; apply V_list; exact Hm].
        apply for_each_sat. intros i Hi. apply in_seq0 in Hi.
        eapply bindM_sat; [apply lift_sat, index_V; [exact Hl|exact Hi]|]. intros item Hitem.
        apply call_fn_sat; [exact Hs|]. destruct (fa2 s); valid_args.
      - (* Into *)
        destruct b; [|apply lift_sat; s_err].
        destruct (negb (is_callable s)); [apply lift_sat; s_err|].
        apply call_fn_sat; [exact Hs|]. constructor; [apply V_list; exact Hl|constructor].
      - (* Where *)
        destruct b; [|apply lift_sat; s_err].
        destruct (negb (is_callable s)); [apply lift_sat; s_err|].
        eapply bindM_sat;
          [|intros kept Hk; apply lift_sat; s_ok; apply V_list, filter_some_V; exact Hk].
        apply for_each_sat. intros i Hi. apply in_seq0 in Hi.
        eapply bindM_sat; [apply lift_sat, index_V; [exact Hl|exact Hi]|]. intros item Hitem.
        eapply bindM_sat with (P := V); [apply call_fn_sat; [exact Hs|]; destruct (fa2 s); valid_args|].
        intros res _. eapply bindM_sat; [apply lift_sat, sat_nf, as_bool_nf|]. intros keep _.
        apply lift_sat; s_ok. destruct keep; [exact Hitem|exact I].
      - (* Coalesce *)
        apply map_arm with (P := V); [exact Hl|]. intros a Ha. s_ok.
        destruct b; [destruct (is_null a)|destruct (is_null s)]; assumption.
    Qed.

    Lemma arm_scalar_V : forall op l r, undot op = None -> V l -> V r ->
      msat V (arm_scalar St call powf op l r).
    Proof.
      intros op l r Hd Hl Hr. unfold arm_scalar.
      destruct op; try discriminate Hd; try (apply lift_sat; elem); try (apply lift_sat; s_err).
      - (* Add *)
        destruct (is_string l); apply lift_sat; [|elem].
        eapply obind_sat; [apply sat_nf, as_string_nf|]. intros a _.
        eapply obind_sat; [apply sat_nf, as_string_nf|]. intros b _. s_ok. apply V_str.
      - destruct (negb (is_callable r)); [apply lift_sat; s_err|apply call_fn_sat; valid_args].
      - destruct (negb (is_callable r)); [apply lift_sat; s_err|apply call_fn_sat; valid_args].
      - apply lift_sat; s_ok. destruct (is_null l); assumption.
    Qed.

    (* evaluate_binary_op_ast after operand evaluation: no `list[idx]` goes out of range and no
       unreachable!() arm is reached *)
    Theorem eval_binop_V : forall op l r st, V l -> V r ->
      sat k V (fst (eval_binop St call fa2 powf op l r st)).
    Proof.
      intros op l r st Hl Hr. rewrite eval_binop_shape.
      destruct (undot op) as [op'|] eqn:Hd;
        [apply arm_scalar_V; [destruct op; try discriminate Hd; injection Hd as <-; reflexivity|..];
         assumption|].
      destruct (is_list r && binop_eqb op Into) eqn:Hi; [s_err|].
      revert Hl Hr Hi. pattern l, r. apply operands_cases; clear l r.
      - intros a b Hl Hr Hi. apply arm_list_list_V; [exact Hd| |apply V_list; assumption..].
        intros ->. discriminate Hi.
      - intros a s Hs Hl Hr _. rewrite broadcast_list_l by exact Hs.
        apply arm_list_scalar_V; [exact Hd|apply V_list|]; assumption.
      - intros s a Hs Hl Hr _. rewrite broadcast_list_r by exact Hs.
        apply arm_list_scalar_V; [exact Hd|apply V_list|]; assumption.
      - intros l r Hnl Hnr Hl Hr _. rewrite broadcast_scalar by assumption.
        apply arm_scalar_V; assumption.
    Qed.
  End Ops.

  (* ------------------------------------------------------------------ 4. map filter reduce every some *)
  Lemma arg_V : forall args i, Forall V args -> i < Datatypes.length args -> sat k V (arg args i).
  Proof.
    intros args i Hv Hi. unfold arg. destruct (nth_error args i) eqn:E0.
    - s_ok. rewrite Forall_forall in Hv. eapply Hv, nth_error_In; eauto.
    - apply nth_error_None in E0. lia.
  Qed.
  Lemma as_list_V : forall v, V v -> sat k (Forall V) (as_list v).
  Proof. intros v Hv. destruct v; try s_err. s_ok. apply V_list. exact Hv. Qed.
  Lemma as_function_V : forall v, V v -> sat k V (as_function v).
  Proof. intros v Hv. unfold as_function. destruct (is_function v); [s_ok; exact Hv|s_err]. Qed.

  Section Hof.
    Variable call : callback.
    Hypothesis Hc : cb_ok call.

    Lemma cb_args_V : forall two x i, V x -> Forall V (cb_args two x i).
    Proof. intros two x i Hx. unfold cb_args. destruct two; repeat constructor; (exact Hx || apply V_idx). Qed.

    Lemma map_loop_V : forall f two l i st, V f -> Forall V l ->
      sat k (Forall V) (fst (map_loop call f two l i st)).
    Proof.
      intros f two l i st Hf Hl. revert i st.
      induction Hl as [|x l Hx _ IH]; intros i st; cbn [map_loop]; [s_ok; constructor|].
      apply fst_bind_cast with (P := V); [apply Hc; auto using cb_args_V|]. intros y st1 Hy.
      apply fst_bind with (P := Forall V); [apply IH|]. intros ys st2 Hys. s_ok. constructor; assumption.
    Qed.
    Lemma filter_loop_V : forall f two l i st, V f -> Forall V l ->
      sat k (Forall V) (fst (filter_loop call f two l i st)).
    Proof.
      intros f two l i st Hf Hl. revert i st.
      induction Hl as [|x l Hx _ IH]; intros i st; cbn [filter_loop]; [s_ok; constructor|].
      apply fst_bind_cast with (P := V); [apply Hc; auto using cb_args_V|]. intros y st1 _.
      destruct y; cbn [as_bool cast_fail fst]; try s_err.
      apply fst_bind with (P := Forall V); [apply IH|]. intros ys st2 Hys. s_ok.
      destruct b; [constructor|]; assumption.
    Qed.
    Lemma reduce_loop_V : forall f three l i acc st, V f -> Forall V l -> V acc ->
      sat k V (fst (reduce_loop call f three l i acc st)).
    Proof.
      intros f three l i acc st Hf Hl. revert i acc st.
      induction Hl as [|x l Hx _ IH]; intros i acc st Hacc; cbn [reduce_loop]; [s_ok; exact Hacc|].
      apply fst_bind with (P := V); [|intros acc' st1 Ha'; apply IH; exact Ha'].
      apply Hc; [exact Hf..|]. destruct three; repeat constructor; (assumption || apply V_idx).
    Qed.
    Lemma every_loop_V : forall f two l i st, V f -> Forall V l ->
      sat k V (fst (every_loop call f two l i st)).
    Proof.
      intros f two l i st Hf Hl. revert i st.
      induction Hl as [|x l Hx _ IH]; intros i st; cbn [every_loop]; [s_ok; apply V_bool|].
      apply fst_bind with (P := V); [apply Hc; auto using cb_args_V|]. intros y st1 _.
      destruct y; cbn [as_bool cast_fail fst]; try s_err.
      destruct b; [apply IH|s_ok; apply V_bool].
    Qed.
    Lemma some_loop_V : forall f two l i st, V f -> Forall V l ->
      sat k V (fst (some_loop call f two l i st)).
    Proof.
      intros f two l i st Hf Hl. revert i st.
      induction Hl as [|x l Hx _ IH]; intros i st; cbn [some_loop]; [s_ok; apply V_bool|].
      apply fst_bind with (P := V); [apply Hc; auto using cb_args_V|]. intros y st1 _.
      destruct y; cbn [as_bool cast_fail fst]; try s_err.
      destruct b; [s_ok; apply V_bool|apply IH].
    Qed.

    (* `&args[1]`, `args[0]` after the arity check *)
    Lemma hof_prelude_V : forall args, Forall V args -> 2 <= Datatypes.length args ->
      sat k (fun fl => V (fst fl) /\ Forall V (snd fl)) (hof_prelude args).
    Proof.
      intros args Hv Hl. unfold hof_prelude.
      eapply obind_sat; [apply arg_V; [exact Hv|lia]|]. intros f Hf.
      eapply obind_sat; [apply arg_V; [exact Hv|lia]|]. intros l0 Hl0.
      eapply obind_sat; [apply as_list_V; exact Hl0|]. intros l Hll.
      eapply obind_sat; [apply as_function_V; exact Hf|]. intros f' Hf'. s_ok. split; assumption.
    Qed.

    Lemma bi_map_V : forall args st, Forall V args -> 2 <= Datatypes.length args ->
      sat k V (fst (bi_map call args st)).
    Proof.
      intros args st Hv Hl. unfold bi_map.
      eapply fst_match_cast; [apply hof_prelude_V; assumption|]. intros [f l] [Hf Hll].
      pose proof (map_loop_V f (accepts f 2) l 0 st Hf Hll) as Hm.
      destruct (map_loop call f (accepts f 2) l 0 st) as [r st'].
      eapply omap_sat; [exact Hm|]. intros ys; apply V_list.
    Qed.
    Lemma bi_filter_V : forall args st, Forall V args -> 2 <= Datatypes.length args ->
      sat k V (fst (bi_filter call args st)).
    Proof.
      intros args st Hv Hl. unfold bi_filter.
      eapply fst_match_cast; [apply hof_prelude_V; assumption|]. intros [f l] [Hf Hll].
      pose proof (filter_loop_V f (accepts f 2) l 0 st Hf Hll) as Hm.
      destruct (filter_loop call f (accepts f 2) l 0 st) as [r st'].
      eapply omap_sat; [exact Hm|]. intros ys; apply V_list.
    Qed.
    Lemma bi_every_V : forall args st, Forall V args -> 2 <= Datatypes.length args ->
      sat k V (fst (bi_every call args st)).
    Proof.
      intros args st Hv Hl. unfold bi_every.
      eapply fst_match_cast; [apply hof_prelude_V; assumption|]. intros [f l] [Hf Hll].
      apply every_loop_V; assumption.
    Qed.
    Lemma bi_some_V : forall args st, Forall V args -> 2 <= Datatypes.length args ->
      sat k V (fst (bi_some call args st)).
    Proof.
      intros args st Hv Hl. unfold bi_some.
      eapply fst_match_cast; [apply hof_prelude_V; assumption|]. intros [f l] [Hf Hll].
      apply some_loop_V; assumption.
    Qed.
    Lemma bi_reduce_V : forall args st, Forall V args -> 3 <= Datatypes.length args ->
      sat k V (fst (bi_reduce call args st)).
    Proof.
      intros args st Hv Hl. unfold bi_reduce.
      eapply fst_match_cast with (P := fun t => V (fst (fst t)) /\ V (snd (fst t)) /\ Forall V (snd t)).
      - eapply obind_sat; [apply arg_V; [exact Hv|lia]|]. intros f Hf.
        eapply obind_sat; [apply arg_V; [exact Hv|lia]|]. intros init Hi.
        eapply obind_sat; [apply arg_V; [exact Hv|lia]|]. intros l0 Hl0.
        eapply obind_sat; [apply as_list_V; exact Hl0|]. intros l Hll.
        eapply obind_sat; [apply as_function_V; exact Hf|]. intros f' Hf'. s_ok. cbn [fst snd]. auto.
      - intros [[f init] l] (Hf & Hi & Hll). apply reduce_loop_V; assumption.
    Qed.
  End Hof.
  (* ------------------------------------------------------------------ 5. sort_by group_by count_by *)
  Section By.
    Import BuiltinsList.
    Local Open Scope nat_scope.
    Variable St : Type.
    Variable call : value -> value -> list value -> St -> outcome value * St.
    Hypothesis call_ok : forall this f args st,
      V this -> V f -> Forall V args -> sat k V (fst (call this f args st)).

    (* BuiltinsList.v has copies of its own of arg / as_list *)
    Lemma barg_V : forall args i, Forall V args -> i < Datatypes.length args ->
      sat k V (BuiltinsList.arg args i).
    Proof. exact arg_V. Qed.
    Lemma bas_list_V : forall v, V v -> sat k (Forall V) (BuiltinsList.as_list v).
    Proof. exact as_list_V. Qed.

    Lemma sort_by_cmp_V : forall func a b st, V func -> V a -> V b ->
      sat k (fun _ => True) (fst (sort_by_cmp St call func a b st)).
    Proof.
      intros func a b st Hf Ha Hb. unfold sort_by_cmp.
      destruct (BuiltinsList.is_function func); [|s_ok; exact I].
      apply fst_bind_x with (P := V); [apply call_ok; auto|]. intros va st1 _.
      apply fst_bind_x with (P := V); [apply call_ok; auto|]. intros vb st2 _. s_ok; exact I.
    Qed.

    (* the merge loop of the stable merge sort (repo fix f7e0465) with the comparator closure *)
    Lemma merge_by_V : forall func left right st, V func -> Forall V left -> Forall V right ->
      sat k (Forall V) (fst (merge_by St call func left right st)).
    Proof.
      intros func left right st Hf Hl. revert right st.
      induction Hl as [|a left' Ha Hl' IHl]; intros right st Hr.
      - destruct right; s_ok; assumption.
      - induction Hr as [|b right' Hb Hr' IHr] in st |- *; [s_ok; constructor; assumption|].
        cbn [merge_by].
        apply fst_bind_x with (P := fun _ => True); [apply sort_by_cmp_V; assumption|]. intros c st1 _.
        destruct c.
        + specialize (IHl (b :: right') st1 (Forall_cons _ Hb Hr')).
          destruct (merge_by St call func left' (b :: right') st1) as [res st2].
          eapply omap_sat; [exact IHl|]. intros; constructor; assumption.
        + specialize (IHr st1). cbn [merge_by] in IHr.
          match goal with |- context [(fix merge_right (r : list value) (s : St) {struct r} := _) right' st1] =>
            destruct ((fix merge_right (r : list value) (s : St) {struct r} := _) right' st1) as [res st2] end.
          eapply omap_sat; [exact IHr|]. intros; constructor; assumption.
        + specialize (IHl (b :: right') st1 (Forall_cons _ Hb Hr')).
          destruct (merge_by St call func left' (b :: right') st1) as [res st2].
          eapply omap_sat; [exact IHl|]. intros; constructor; assumption.
    Qed.

    Lemma Forall_halves : forall A (P : A -> Prop) n l,
      Forall P l -> Forall P (firstn n l) /\ Forall P (skipn n l).
    Proof. intros A P n l Hl. apply Forall_app. rewrite firstn_skipn. exact Hl. Qed.

    Lemma merge_sort_by_fuel_V : forall fuel func l st, V func -> Forall V l ->
      sat k (Forall V) (fst (merge_sort_by_fuel St call fuel func l st)).
    Proof.
      induction fuel as [|f IH]; intros func l st Hf Hl; cbn [merge_sort_by_fuel]; [s_ok; exact Hl|].
      destruct (Datatypes.length l <? 2); [s_ok; exact Hl|].
      apply fst_bind with (P := Forall V); [apply IH; [exact Hf|apply Forall_halves, Hl]|]. intros left' st1 Hl1.
      apply fst_bind with (P := Forall V); [apply IH; [exact Hf|apply Forall_halves, Hl]|]. intros right' st2 Hr1.
      apply merge_by_V; assumption.
    Qed.

    Lemma bi_sort_by_V : forall args st, Forall V args -> 2 <= Datatypes.length args ->
      sat k V (fst (bi_sort_by St call args st)).
    Proof.
      intros args st Hv Hl. unfold bi_sort_by.
      destruct (barg_V args 1 Hv ltac:(lia)) as [_ H1].
      destruct (BuiltinsList.arg args 1) as [func| | | |] eqn:E1;
        try (unfold BuiltinsList.arg in E1; destruct (nth_error args 1) eqn:En; [discriminate E1|];
             apply nth_error_None in En; lia).
      eapply fst_match_cast with (P := Forall V).
      - eapply obind_sat; [apply barg_V; [exact Hv|lia]|]. apply bas_list_V.
      - intros l Hll. unfold sort_by_list.
        pose proof (merge_sort_by_fuel_V (Datatypes.length l) func l st (H1 _ eq_refl) Hll) as Hs.
        destruct (merge_sort_by_fuel St call _ func l st) as [res st1].
        eapply omap_sat; [exact Hs|]. intros ys; apply V_list.
    Qed.

    Lemma keyed_items_V : forall func l st, V func -> Forall V l ->
      sat k (Pframe V) (fst (keyed_items St call func l st)).
    Proof.
      intros func l st Hf Hl. revert st.
      induction Hl as [|item rest Hi _ IH]; intros st; cbn [keyed_items]; [s_ok; constructor|].
      apply fst_bind_x with (P := V); [apply call_ok; auto|]. intros v st1 _.
      destruct v; try s_err.
      specialize (IH st1). destruct (keyed_items St call func rest st1) as [more st2].
      eapply omap_sat; [exact IH|]. intros; constructor; assumption.
    Qed.

    Lemma by_prologue_V : forall args, Forall V args -> 2 <= Datatypes.length args ->
      sat k (fun fl => V (fst fl) /\ Forall V (snd fl)) (by_prologue args).
    Proof.
      intros args Hv Hl. unfold by_prologue.
      eapply obind_sat; [apply barg_V; [exact Hv|lia]|]. intros f Hf.
      eapply obind_sat; [apply barg_V; [exact Hv|lia]|]. intros a0 Ha0.
      eapply obind_sat; [apply bas_list_V; exact Ha0|]. intros l Hll.
      destruct (BuiltinsList.is_function f); [s_ok; split; assumption|s_err].
    Qed.

    (* every item of every group is an item of the keyed list; every count is 0 + 1 + ... + 1 *)
    Lemma groups_of_V : forall keyed, Pframe V keyed -> Forall (fun g => Forall V (snd g)) (groups_of keyed).
    Proof.
      assert (P : forall g key item, Forall (fun g => Forall V (snd g)) g -> V item ->
                  Forall (fun g => Forall V (snd g)) (group_push g key item)).
      { induction 1 as [|[x items] rest Hg Hrest IH]; intros Hi; cbn [group_push]; [repeat constructor; exact Hi|].
        destruct (String.eqb key x); constructor; auto.
        cbn [snd] in *. apply Forall_app. split; [exact Hg|repeat constructor; exact Hi]. }
      intros keyed. unfold groups_of. generalize (@nil (string * list value)) (Forall_nil (fun g : string * list value => Forall V (snd g))).
      induction keyed as [|[x v] r IH]; intros acc Ha Hk; cbn [fold_left]; [exact Ha|].
      inversion Hk; subst. apply IH; [apply P|]; assumption.
    Qed.
    Lemma counts_of_V : forall keyed : list (string * value), Forall (fun c => V (VNum (snd c))) (counts_of keyed).
    Proof.
      assert (A1 : forall c, V (VNum c) -> V (VNum (nadd c one))).
      { intros c Hc. apply V_arith; [left; reflexivity|exact Hc|exact (V_idx 1)]. }
      assert (P : forall c key, Forall (fun c => V (VNum (snd c))) c ->
                  Forall (fun c => V (VNum (snd c))) (count_push c key)).
      { induction 1 as [|[x n] rest Hn Hrest IH]; cbn [count_push]; [repeat constructor; exact (A1 _ (V_idx 0))|].
        destruct (String.eqb key x); constructor; cbn [snd] in *; auto. }
      intros keyed. unfold counts_of. generalize (@nil (string * num)) (Forall_nil (fun c : string * num => V (VNum (snd c)))).
      induction keyed as [|kv r IH]; intros acc Ha; cbn [fold_left]; [exact Ha|]. apply IH, P, Ha.
    Qed.

    Lemma bi_group_by_V : forall args st, Forall V args -> 2 <= Datatypes.length args ->
      sat k V (fst (bi_group_by St call args st)).
    Proof.
      intros args st Hv Hl. unfold bi_group_by.
      eapply fst_match_cast; [apply by_prologue_V; assumption|]. intros [func l] [Hf Hll].
      pose proof (keyed_items_V func l st Hf Hll) as Hk.
      destruct (keyed_items St call func l st) as [keyed st1].
      eapply omap_sat; [exact Hk|]. intros kd Hkd. apply V_rec.
      pose proof (groups_of_V kd Hkd) as G. unfold Pframe. rewrite Forall_forall in *.
      intros kv Hin. apply in_map_iff in Hin. destruct Hin as [g [<- Hg]]. apply V_list, G, Hg.
    Qed.
    Lemma bi_count_by_V : forall args st, Forall V args -> 2 <= Datatypes.length args ->
      sat k V (fst (bi_count_by St call args st)).
    Proof.
      intros args st Hv Hl. unfold bi_count_by.
      eapply fst_match_cast; [apply by_prologue_V; assumption|]. intros [func l] [Hf Hll].
      pose proof (keyed_items_V func l st Hf Hll) as Hk.
      destruct (keyed_items St call func l st) as [keyed st1].
      eapply omap_sat; [exact Hk|]. intros kd _. apply V_rec.
      pose proof (counts_of_V kd) as G. unfold Pframe. rewrite Forall_forall in *.
      intros kv Hin. apply in_map_iff in Hin. destruct Hin as [c [<- Hc]]. apply G, Hc.
    Qed.
  End By.
End Walk.

(* ------------------------------------------------------------------ 6. nothing asked of the values *)
Lemma Forall_triv : forall A (l : list A), Forall (fun _ => True) l.
Proof. induction l; constructor; auto. Qed.

Definition cb_nf (k : failure) (cb : callback) : Prop :=
  forall this f args st, fst (cb this f args st) <> fail k.

Section Plain.
  Variable k : failure.
  Let T {A : Type} (_ : A) : Prop := True.

  Lemma children_triv : forall e : expr, children T e.
  Proof.
    destruct e; cbn [children]; repeat split; try apply Forall_triv.
    apply Forall_forall. intros [ld [key v] tr] _. split; [destruct key|]; exact I.
  Qed.
  (* each hypothesis of Section Walk on V and E at T: an atom or a closed number (intros; exact I), an
     iff with Forall / Pframe (split ... Forall_triv), E_sub (children_triv), Pframes T fr *)
  Ltac triv :=
    first [ intros; exact I | apply Forall_triv
          | intros; split; intros; repeat split; apply Forall_triv
          | intros; apply children_triv
          | apply Forall_forall; intros; apply Forall_triv ].

  Lemma cb_ok_nf : forall cb, cb_ok k T cb <-> cb_nf k cb.
  Proof.
    intros cb. split; intros Hc this f args st.
    - apply Hc; triv.
    - intros _ _ _. apply sat_nf, Hc.
  Qed.

  Section PlainFrames.
  Variable Head : frames -> Prop.
  Hypothesis H_new : forall f fr, Head ((FOwned, f) :: fr).
  Hypothesis H_ins : forall fr x v fr1, Head fr -> insert_head fr x v = Some fr1 -> Head fr1.
  Hypothesis H_shared : forall fr x v, Head fr -> insert_head fr x v = None -> k <> FPanic.
  (* ... and the three on the head condition *)
  Ltac triv_h := first [exact H_new|exact H_ins|exact H_shared|triv].

  Section PlainDepth.
  Variable release : bool.
  Variable binop_impl : callback -> binop -> value -> value -> store -> outcome value * store.
  Variable builtin_impl : callback -> builtin -> list value -> store -> outcome value * store.
  Hypothesis binop_nf : forall cb op l r st, cb_nf k cb -> fst (binop_impl cb op l r st) <> fail k.
  Hypothesis builtin_nf : forall cb b args st,
    cb_nf k cb -> can_accept (builtin_arity b) (Datatypes.length args) = true ->
    fst (builtin_impl cb b args st) <> fail k.
  Hypothesis fact_nf : forall n, factorial_val release n <> fail k.

  Let binop_ok : forall cb op l r st,
    cb_ok k T cb -> T l -> T r -> sat k T (fst (binop_impl cb op l r st)).
  Proof. intros cb op l r st Hcb _ _. apply sat_nf, binop_nf, cb_ok_nf, Hcb. Qed.
  Let builtin_ok : forall cb b args st,
    cb_ok k T cb -> can_accept (builtin_arity b) (Datatypes.length args) = true -> Forall T args ->
    sat k T (fst (builtin_impl cb b args st)).
  Proof. intros cb b args st Hcb Ha _. apply sat_nf, builtin_nf; [apply cb_ok_nf, Hcb|exact Ha]. Qed.
  Let fact_ok : forall n : num, T (VNum n) -> sat k T (factorial_val release n).
  Proof. intros n _. apply sat_nf, fact_nf. Qed.

  Theorem AD_nf : forall d fr, cb_nf k (AD release binop_impl builtin_impl d fr).
  Proof.
    intros d fr. apply cb_ok_nf.
    apply AD_sat with (E := T) (Head := Head); first [exact binop_ok|exact builtin_ok|exact fact_ok|triv_h].
  Qed.

  Theorem evalD_nf : forall d c e, Head (snd c) ->
    fst (evalD release binop_impl builtin_impl d c e) <> fail k.
  Proof.
    intros d c e Hh.
    apply (evalD_sat k T T Head) with (release := release) (binop_impl := binop_impl)
                                  (builtin_impl := builtin_impl) (d := d) (c := c) (e := e);
      first [exact binop_ok|exact builtin_ok|exact fact_ok|split; [exact Hh|triv]|triv_h].
  Qed.
  End PlainDepth.

  (* evaluate_source: the statement loop never sees the failure k *)
  Section PlainLoop.
  Variable eval : cfg -> expr -> result.
  Hypothesis eval_nf : forall c e, Head (snd c) -> fst (eval c e) <> fail k.
  Hypothesis eval_keeps : forall c e r c', eval c e = (r, c') -> Head (snd c) -> Head (snd c').

  Let eval_ok : forall c e, T e -> Inv T Head (snd c) -> oks k cfg (fun c => Inv T Head (snd c)) T (eval c e).
  Proof.
    intros c e _ [Hh _]. split; [apply sat_nf, eval_nf, Hh|]. split; [|triv].
    destruct (eval c e) eqn:E0. eapply eval_keeps; eauto.
  Qed.

  Lemma exec_stmt_nf : forall s t s' r,
    exec_stmt eval s t = (s', r) -> Head (snd (s_cfg s)) -> Head (snd (s_cfg s')) /\ r <> RFail (fail k).
  Proof.
    intros s t s' r H0 Hh.
    destruct (exec_stmt_sat k T T Head eval eval_ok s t s' r) as [[Hh' _] [Hr _]];
      [destruct t; exact I|exact H0|split; [exact Hh|triv]|]. split; assumption.
  Qed.
  Theorem run_nf : forall prog s, Head (snd (s_cfg s)) ->
    Forall (fun rs => fst rs <> RFail (fail k)) (snd (run eval s prog)).
  Proof.
    intros prog s Hh. eapply Forall_impl; [|apply (run_sat k T T Head eval eval_ok)].
    - intros rs Hr. apply Hr.
    - apply Forall_forall. intros t _. destruct t; exact I.
    - split; [exact Hh|triv].
  Qed.
  End PlainLoop.
  End PlainFrames.

  (* ---- the operators and the callback-taking built-ins ---- *)
  Theorem eval_binop_nf : forall St (call : value -> value -> list value -> St -> outcome value * St),
    (forall this f args st, fst (call this f args st) <> fail k) ->
    forall fa2 powf op l r st, fst (eval_binop St call fa2 powf op l r st) <> fail k.
  Proof.
    intros St call Hc fa2 powf op l r st.
    apply (eval_binop_V k T) with (St := St) (call := call) (fa2 := fa2) (powf := powf) (op := op)
                                  (l := l) (r := r) (st := st); try triv.
    intros this f args st0 _ _ _. apply sat_nf, Hc.
  Qed.

  Section PlainBy.
    Variable St : Type.
    Variable call : value -> value -> list value -> St -> outcome value * St.
    Hypothesis call_nf : forall this f a st, fst (call this f a st) <> fail k.
    Let call_T : forall this f args st, T this -> T f -> Forall T args -> sat k T (fst (call this f args st)).
    Proof. intros. apply sat_nf, call_nf. Qed.

    Lemma bi_sort_by_nf : forall args st, 2 <= Datatypes.length args ->
      fst (BuiltinsList.bi_sort_by St call args st) <> fail k.
    Proof. intros. apply sat_fail with (P := T), (bi_sort_by_V k T); first [exact call_T|assumption|triv]. Qed.
    Lemma bi_group_by_nf : forall args st, 2 <= Datatypes.length args ->
      fst (BuiltinsList.bi_group_by St call args st) <> fail k.
    Proof. intros. apply sat_fail with (P := T), (bi_group_by_V k T); first [exact call_T|assumption|triv]. Qed.
    Lemma bi_count_by_nf : forall args st, 2 <= Datatypes.length args ->
      fst (BuiltinsList.bi_count_by St call args st) <> fail k.
    Proof. intros. apply sat_fail with (P := T), (bi_count_by_V k T); first [exact call_T|assumption|triv]. Qed.
  End PlainBy.

  (* ---- EvalInst.builtin_impl / binop_impl: the arms that are transcribed there ---- *)
  Lemma num1_nf : forall f args, 1 <= Datatypes.length args -> num1 f args <> fail k.
  Proof.
    intros f args Hl. unfold num1. apply obind_nf; [apply arg_nf; lia|]. intros a _.
    apply obind_nf; [apply as_number_nf|]. intros; apply ok_nf.
  Qed.
  Lemma cmp2_nf : forall f args, 2 <= Datatypes.length args -> cmp2 f args <> fail k.
  Proof.
    intros f args Hl. unfold cmp2. apply obind_nf; [apply arg_nf; lia|]. intros a _.
    apply obind_nf; [apply arg_nf; lia|]. intros; apply ok_nf.
  Qed.

  Definition impl_modelled (b : builtin) : bool :=
    match b with
    | B_map | B_filter | B_reduce | B_every | B_some | B_abs | B_floor | B_ceil | B_trunc | B_sqrt
    | B_typeof | B_arity | B_to_bool | B_ugt | B_ult | B_ugte | B_ulte | B_any | B_all => true
    | _ => false
    end.

  (* BuiltInFunction::call for the built-ins transcribed in EvalInst.builtin_impl: every `args[i]`
     is below the arity that check_arity enforced (the arities are the generated table
     coq/gen/Builtins.v, i.e. what BuiltInFunction::arity() returns in the built crate); the
     other arms answer Unmodelled *)
  Theorem builtin_impl_nf : forall cb b args st,
    cb_nf k cb -> can_accept (builtin_arity b) (Datatypes.length args) = true ->
    (k = FUnm -> impl_modelled b = true) ->
    fst (EvalInst.builtin_impl cb b args st) <> fail k.
  Proof.
    intros cb b args st Hcb Ha Hm. apply cb_ok_nf in Hcb.
    destruct b; cbn [EvalInst.builtin_impl];
      try (destruct k; [discriminate|discriminate (Hm eq_refl)]);
      cbn [builtin_arity] in Ha; unfold can_accept, arity_can_accept in Ha;
      try (apply andb_true_iff in Ha; destruct Ha as [Ha _]);
      first [apply Nat.eqb_eq in Ha|apply Nat.leb_le in Ha];
      unfold pure_bi; cbn [fst];
      try (first [apply num1_nf|apply cmp2_nf]; lia);
      try (first [apply (bi_map_V k T)|apply (bi_filter_V k T)|apply (bi_reduce_V k T)
                 |apply (bi_every_V k T)|apply (bi_some_V k T)]; first [exact Hcb|lia|triv]).
    all: unfold bi_typeof, bi_arity, bi_to_bool, bi_any, bi_all;
      (apply obind_nf; [apply arg_nf; lia|]); intros a _.
    all: first [ apply ok_nf
               | apply obind_nf; [apply as_list_nf|]; intros; apply ok_nf
               | destruct (fn_arity a) as [[]|]; first [apply ok_nf|apply err_nf]
               | destruct a; first [apply ok_nf|apply err_nf] ].
  Qed.

  (* EvalInst.binop_impl answers Unmodelled for `^` (and only for it) *)
  Theorem binop_impl_nf : forall cb op l r st,
    cb_nf k cb -> (k = FUnm -> op <> Power) -> fst (EvalInst.binop_impl cb op l r st) <> fail k.
  Proof.
    intros cb op l r st Hcb Hop. unfold EvalInst.binop_impl.
    destruct op; try apply (eval_binop_nf store cb Hcb).
    destruct k; [discriminate|]. exfalso. apply Hop; reflexivity.
  Qed.

  (* `(1..=min(n as u64, 171))`: no `+ 1`, no overflow in either build (repo fix def3962; before
     it `(n as u64) + 1` overflowed for n >= 2^64 in builds with overflow checks) *)
  Lemma factorial_nf : forall release n, factorial_val release n <> fail k.
  Proof.
    intros release n. unfold factorial_val.
    destruct (ngeb n nzero && neqb n (num_of_Z (as_u64 n))); [apply ok_nf|apply err_nf].
  Qed.
End Plain.
