(* C02OpsFull.v — [ops_commute binop_impl builtin_full]: EVERY transcribed built-in (the aggregates,
   the list / string / record built-ins of BuiltinsList.v / BuiltinsAgg.v / BuiltinsText.v, and the
   callback-taking sort_by / group_by / count_by) commutes with every injective renaming of
   function-cell indices whenever its callback does.  The arms are instances of proofs/RelPure.v with
   the value relation "v' is v renamed" and the state relation [sinv rho]; unique / includes are
   covered too, because Value::equals is blind to cell indices ([equals_ren]).  With this the generic
   theorems of C02Twice.v / C02LetGen.v apply to the evaluator the EVAL streams run (EvalFull.eval_full). *)
From Coq Require Import String Ascii List ZArith Bool Lia.
Require Import Blots.Num Blots.gen.Builtins Blots.Ast Blots.Value Blots.Outcome Blots.Binop
               Blots.Env Blots.Eval Blots.BuiltinsHof Blots.Program Blots.EvalInst Blots.EvalFull
               Blots.proofs.ValueInd Blots.proofs.StoreMono Blots.proofs.InstMono Blots.proofs.FullInst
               Blots.proofs.Frames Blots.proofs.Scoping
               Blots.proofs.C02Ren Blots.proofs.C02Sim Blots.proofs.C02Ops Blots.proofs.C02Keep Blots.proofs.C02Twice
               Blots.proofs.C02Let Blots.proofs.EmitHO Blots.RelTable Blots.proofs.RelPure.
Require Blots.BuiltinsList Blots.BuiltinsAgg Blots.BuiltinsText.
Import ListNotations.
Open Scope list_scope.
Open Scope nat_scope.

Section OpsFull.
  Variable rho : nat -> nat.
  Hypothesis rho_inj : forall a b, rho a = rho b -> a = b.
  Notation ren := (ren rho).
  Notation oren := (oren rho).
  Notation sinv := (sinv rho).
  Notation Mfun := (Mfun rho).
  Notation cb_eqv := (cb_eqv rho).

  (* the value relation: the graph of the renaming *)
  Definition Rr (v v' : value) : Prop := v' = ren v.

  Lemma RL_map : forall l, Forall2 Rr l (map ren l).
  Proof. induction l; cbn; constructor; [reflexivity|assumption]. Qed.
  Lemma RL_inv : forall l l', Forall2 Rr l l' -> l' = map ren l.
  Proof. induction 1 as [|x x' l l' Hx _ IH]; cbn; [reflexivity|]. unfold Rr in Hx. congruence. Qed.
  Lemma RR_map : forall r, Forall2 (RRf Rr) r (renF rho r).
  Proof. induction r as [|[k v] r IH]; cbn; constructor; [split; reflexivity|exact IH]. Qed.
  Lemma OR_inv : forall o o', orel_gen Rr o o' -> o' = oren o.
  Proof. intros o o' H. destruct o, o'; cbn in H; try contradiction; try reflexivity. unfold Rr in H. cbn. congruence. Qed.
  Lemma OR_intro : forall o o', o' = oren o -> orel_gen Rr o o'.
  Proof. intros o o' ->. destruct o; cbn; auto. reflexivity. Qed.

  Lemma Rr_inv : forall v v', Rr v v' ->
    match v with
    | VNum x => v' = VNum x
    | VBool b => v' = VBool b
    | VNull => v' = VNull
    | VStr s => v' = VStr s
    | VList l => exists l', v' = VList l' /\ Forall2 Rr l l'
    | VRec r => exists r', v' = VRec r' /\ Forall2 (RRf Rr) r r'
    | VLam _ _ _ _ => exists id' ps' b' sc', v' = VLam id' ps' b' sc'
    | VBuiltin b => v' = VBuiltin b
    | VSpread w => exists w', v' = VSpread w' /\ Rr w w'
    end.
  Proof.
    intros v v' ->. destruct v; cbn [C02Ren.ren]; try reflexivity.
    - eexists. split; [reflexivity|apply RL_map].
    - eexists. split; [reflexivity|apply RR_map].
    - repeat eexists.
    - eexists. split; reflexivity.
  Qed.
  Lemma Rr_list : forall l l', Forall2 Rr l l' -> Rr (VList l) (VList l').
  Proof. intros l l' H. rewrite (RL_inv _ _ H). reflexivity. Qed.
  Lemma Rr_rec : forall r r', Forall2 (RRf Rr) r r' -> Rr (VRec r) (VRec r').
  Proof.
    intros r r' H. unfold Rr. cbn [C02Ren.ren]. f_equal.
    induction H as [|[k v] [k' v'] r r' [E V] _ IH]; cbn; [reflexivity|]. cbn in E, V. unfold Rr in V. congruence.
  Qed.
  Lemma Rr_compare : forall a a' b b', Rr a a' -> Rr b b' -> compare a b = compare a' b'.
  Proof. intros a a' b b' -> ->. symmetry. apply compare_ren. Qed.
  Lemma Rr_equals : forall a a' b b', Rr a a' -> Rr b b' -> equals a b = equals a' b'.
  Proof. intros a a' b b' -> ->. symmetry. apply equals_ren. Qed.

  (* a callback: cb_eqv is RelPure's callback hypothesis with the store invariant *)
  Lemma cb_eqv_MRS : forall cbA cbB, cb_eqv cbA cbB ->
    forall f f' args args', Rr f f' -> Forall2 Rr args args' ->
      MRS store sinv Rr (cbA f f args) (cbB f' f' args').
  Proof.
    intros cbA cbB Hcb f f' args args' -> Ha sA sB Hs. rewrite (RL_inv _ _ Ha).
    destruct (Hcb f f args sA sB Hs) as [H1 H2]. split; [apply OR_intro; exact H1|exact H2].
  Qed.
  Lemma MRS_Mfun : forall (mA mB : store -> outcome value * store), MRS store sinv Rr mA mB -> Mfun ren mA mB.
  Proof. intros mA mB H sA sB Hs. destruct (H sA sB Hs) as [H1 H2]. split; [apply OR_inv; exact H1|exact H2]. Qed.

  (* Hypothesis Hbu of C02Sim.v for the FULL built-in dispatcher *)
  Theorem builtin_full_sim : forall cbA cbB, cb_eqv cbA cbB ->
    forall b args, Mfun ren (builtin_full cbA b args) (builtin_full cbB b (map ren args)).
  Proof.
    intros cbA cbB Hcb b args.
    destruct (pure_arm_of b) as [f|] eqn:E.
    - (* a pure arm of RelPure.v *)
      rewrite !(builtin_full_pure _ b f E). apply pure_bi_Mfun. apply OR_inv.
      apply (pure_arms_R_eq Rr Rr_inv (fun x => eq_refl) (fun x => eq_refl) eq_refl (fun x => eq_refl)
               Rr_list Rr_compare Rr_equals b f E). apply RL_map.
    - destruct (callback_arm b) eqn:C.
      + pose proof (cb_eqv_MRS cbA cbB Hcb) as Hc.
        destruct b; cbn in C; try discriminate C; cbn [builtin_full]; apply MRS_Mfun.
        * apply (bi_sort_by_R Rr Rr_inv Rr_list Rr_compare store sinv cbA cbB Hc). apply RL_map.
        * apply (bi_group_by_R Rr Rr_inv Rr_list Rr_rec store sinv cbA cbB Hc). apply RL_map.
        * apply (bi_count_by_R Rr Rr_inv (fun x => eq_refl) Rr_rec store sinv cbA cbB Hc). apply RL_map.
      + rewrite !(builtin_full_other _ b E C). apply (builtin_impl_sim rho cbA cbB Hcb).
  Qed.
End OpsFull.

(* ---- [ops_commute] for the full dispatcher ---- *)
Theorem ops_commute_full : ops_commute binop_impl builtin_full.
Proof.
  intros rho Hinj. split.
  - apply binop_impl_sim.
  - apply builtin_full_sim.
Qed.

(* the classification RelTable.calls_back is exact for the model: every other arm ignores its callback *)
Lemma builtin_full_ignores_callback : forall b, calls_back b = false ->
  forall cb cb' args st, builtin_full cb b args st = builtin_full cb' b args st.
Proof. intros b H cb cb' args st. destruct b; try discriminate H; reflexivity. Qed.
