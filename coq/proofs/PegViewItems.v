(* proofs/PegViewItems.v — tree-level half of C09_view_items: on a tree all of whose nodes satisfy PegView.C_view, the
   item view PegToItems.conv reads EVERY comment / eol_comment pair: item_comments (conv t) = tree_comments t for every
   pair that can occur in an expression position, and forest_view_ok for the forest of a parse.
   Rule classes, all COMPUTED from the regenerated grammar (PegView.vnames):
     Fb  comment-free rules (greatest set closed under inner-pair names that avoids comment / eol_comment):
         tree_comments = [];
     Vb  rules whose pair the item view reads completely (the ten structural arms of conv, or comment-free);
     Tb  transparent rules: not a comment rule and every inner pair is in Vb (conv reads them through `inner`). *)
From Coq Require Import String Ascii List NArith ZArith Bool Arith Lia.
Require Import Blots.Num Blots.gen.Builtins Blots.Ast Blots.Outcome Blots.PrattTypes Blots.Formatter.
Require Import Blots.Peg Blots.gen.Grammar Blots.PegToItems Blots.PegComments Blots.proofs.PegComments
               Blots.proofs.PegCommentsCompose Blots.proofs.PegGeneric Blots.proofs.PegShape Blots.proofs.PegShapeItems
               Blots.proofs.PegView.
Import ListNotations.
Local Open Scope list_scope.

(* ---------------------------------------------------------------- rule classes *)
Definition gmem (r : grule) (l : list grule) : bool := existsb (grule_eqb r) l.
Definition F_step (S : list grule) : list grule :=
  filter (fun r => negb (is_comment_rule r) && forallb (fun x => gmem x S) (vnames r)) all_grules.
Fixpoint F_iter (n : nat) (S : list grule) : list grule :=
  match n with O => S | S n' => F_iter n' (F_step S) end.
Definition Fset : list grule := Eval vm_compute in F_iter 12 all_grules.
Definition Fb (r : grule) : bool := gmem r Fset.

Definition structb (r : grule) : bool :=
  match r with
  | PG_expression | PG_lambda_expression | PG_list | PG_record | PG_lambda | PG_conditional | PG_do_block
  | PG_assignment | PG_access | PG_call_list => true
  | _ => false
  end.
Definition Vb (r : grule) : bool := structb r || Fb r.
Definition Tb (r : grule) : bool := negb (is_comment_rule r) && forallb Vb (vnames r).

Lemma F_closed : forall r, Fb r = true -> is_comment_rule r = false /\ forallb Fb (vnames r) = true.
Proof. intros r. destruct r; vm_compute; intro H; try discriminate H; split; reflexivity. Qed.

Lemma strs_eqb_refl : forall a, strs_eqb a a = true.
Proof. induction a as [|x a IH]; [reflexivity|]. cbn [strs_eqb]. rewrite String.eqb_refl, IH. reflexivity. Qed.

Lemma rels_comments_app : forall a b, rels_comments (a ++ b) = rels_comments a ++ rels_comments b.
Proof.
  induction a as [|x a IH]; intro b; [reflexivity|].
  destruct x as [c|k v eol|sh eol|g eol]; cbn [app rels_comments]; rewrite IH; rewrite <- ?app_assoc; reflexivity.
Qed.
Lemma dels_comments_app : forall a b, dels_comments (a ++ b) = dels_comments a ++ dels_comments b.
Proof.
  induction a as [|x a IH]; intro b; [reflexivity|].
  destruct x; cbn [app dels_comments]; rewrite IH; rewrite <- ?app_assoc; reflexivity.
Qed.

Section View.
  Variable text : string.
  Notation tcs := (tree_comments text).
  Definition vgood (t : tree grule) : Prop := tree_ok grule text C_view t.
  Definition wgood (f : nat) (t : tree grule) : Prop := vgood t /\ tree_depth t <= f.

  Lemma tcs_node : forall r s e kids,
    tcs (Node r s e kids) = (if is_comment_rule r then [slice text s e] else []) ++ flat_map tcs kids.
  Proof.
    intros r s e kids. cbn [tree_comments].
    assert (E : forall l, (fix go (l : list (tree grule)) : list string :=
                             match l with [] => [] | k :: l' => tcs k ++ go l' end) l = flat_map tcs l).
    { induction l as [|k l IH]; [reflexivity|]. cbn [flat_map]. rewrite <- IH. reflexivity. }
    rewrite E. reflexivity.
  Qed.

  Lemma vgood_node : forall r s e kids, vgood (Node r s e kids) -> vspec r (map trule kids) /\ Forall vgood kids.
  Proof. intros r s e kids H. apply tree_ok_node in H. exact H. Qed.

  Lemma depth_kids : forall r s e kids f, tree_depth (Node r s e kids) <= S f -> Forall (fun k => tree_depth k <= f) kids.
  Proof.
    intros r s e kids f H. cbn [tree_depth] in H. apply le_S_n in H.
    induction kids as [|k kids IH]; [constructor|]. cbn [fold_right] in H. constructor; [lia|apply IH; lia].
  Qed.
  Lemma wgood_kids_S : forall f r s e kids, wgood (S f) (Node r s e kids) -> Forall (wgood f) kids.
  Proof.
    intros f r s e kids [Hg Hd]. destruct (vgood_node _ _ _ _ Hg) as [_ Hk].
    pose proof (depth_kids _ _ _ _ _ Hd) as Hdk. rewrite Forall_forall in *. intros k Hin. split; auto.
  Qed.
  Lemma wgood_mono : forall f t, wgood f t -> wgood (S f) t.
  Proof. intros f t [H1 H2]. split; [exact H1|lia]. Qed.
  Lemma wgood_tkids : forall f t, wgood f t -> Forall (wgood f) (tkids t).
  Proof.
    intros f [r s e kids] H. cbn [tkids]. apply wgood_mono in H. apply wgood_kids_S in H. exact H.
  Qed.
  Lemma wgood_names : forall f t, wgood f t -> Forall (fun x => In x (vnames (trule t))) (map trule (tkids t)).
  Proof. intros f [r s e kids] [Hg _]. destruct (vgood_node _ _ _ _ Hg) as [[Hn _] _]. exact Hn. Qed.

  Lemma names_forall : forall (P : grule -> bool) r kids,
    Forall (fun x => In x (vnames r)) (map trule kids) -> forallb P (vnames r) = true ->
    Forall (fun k => P (trule k) = true) kids.
  Proof.
    intros P r kids Hn Hp. rewrite forallb_forall in Hp. rewrite Forall_forall in *. intros k Hk.
    apply Hp. apply Hn. apply in_map. exact Hk.
  Qed.
  Lemma wgood_enum : forall f t (P : list grule -> bool), wgood f t ->
    match venum (trule t) with Some ls => forallb P ls | None => false end = true -> P (map trule (tkids t)) = true.
  Proof.
    intros f [r s e kids] P [Hg _] H. destruct (vgood_node _ _ _ _ Hg) as [[_ He] _]. cbn [trule tkids] in *.
    destruct (venum r) as [ls|]; [|discriminate H]. rewrite forallb_forall in H. apply H. exact He.
  Qed.

  Lemma flat_map_nil : forall (l : list (tree grule)), Forall (fun k => tcs k = []) l -> flat_map tcs l = [].
  Proof. induction 1 as [|k l Hk _ IH]; [reflexivity|]. cbn [flat_map]. rewrite Hk, IH. reflexivity. Qed.

  (* comment-free rules *)
  Lemma F_free : forall f t, wgood f t -> Fb (trule t) = true -> tcs t = [].
  Proof.
    induction f as [|f IH]; intros [r s e kids] Hw HF.
    { destruct Hw as [_ Hd]. cbn [tree_depth] in Hd. lia. }
    cbn [trule] in HF. destruct (F_closed r HF) as [Hc Hn]. rewrite tcs_node, Hc. cbn [app].
    apply flat_map_nil. pose proof (wgood_kids_S _ _ _ _ _ Hw) as Hk.
    pose proof (names_forall Fb r kids (wgood_names _ _ Hw) Hn) as Hf.
    rewrite Forall_forall in *. intros k Hin. apply IH; auto.
  Qed.

  (* a comment / eol_comment pair has no inner pairs *)
  Definition is_nilb (l : list grule) : bool := match l with [] => true | _ => false end.
  Lemma comment_node : forall f t, wgood f t -> is_comment_rule (trule t) = true -> tcs t = [tspan text t].
  Proof.
    intros f t Hw Hc. assert (Hk : is_nilb (map trule (tkids t)) = true).
    { apply (wgood_enum f t is_nilb Hw). destruct (trule t); try discriminate Hc; vm_compute; reflexivity. }
    destruct t as [r s e kids]. cbn [trule tkids tspan] in *. rewrite tcs_node, Hc.
    destruct kids; [reflexivity|discriminate Hk].
  Qed.

  (* conv of a non-structural rule carries no comment *)
  Lemma leaf_conv : forall f r s e kids, structb r = false -> item_comments (conv text f (Node r s e kids)) = [].
  Proof.
    intros f r s e kids H. destruct f as [|f]; [reflexivity|].
    destruct r; try discriminate H; try reflexivity.
    cbn [conv]. unfold number_item.
    match goal with |- context [match ?X with Some _ => _ | None => _ end] => destruct X end; reflexivity.
  Qed.

  Definition tail_okb (l : list grule) : bool :=
    match l with [] => true | [c] => is_comment_rule c | _ => false end.
  Lemma eol_view : forall f more, Forall (wgood f) more -> tail_okb (map trule more) = true ->
    opt_list (opt_comment text more) = flat_map tcs more.
  Proof.
    intros f more Hg H. destruct more as [|m [|m2 more]]; [reflexivity| |discriminate H].
    cbn [map tail_okb] in H. inversion Hg; subst. cbn [opt_comment opt_list flat_map].
    rewrite (comment_node f m) by assumption. reflexivity.
  Qed.

  Section Cases.
    Variable f : nat.
    Hypothesis IH : forall t, wgood f t -> Vb (trule t) = true -> item_comments (conv text f t) = tcs t.
    Notation inner := (fun k => map (conv text f) (tkids k)).

    Lemma convs_view : forall l, Forall (wgood f) l -> Forall (fun k => Vb (trule k) = true) l ->
      items_comments (map (conv text f) l) = flat_map tcs l.
    Proof.
      induction l as [|k l IHl]; intros Hg Hv; [reflexivity|].
      inversion Hg; subst. inversion Hv; subst. cbn [map items_comments flat_map]. rewrite IH, IHl by assumption.
      reflexivity.
    Qed.
    Lemma inner_view_k : forall r s e kids, Forall (wgood f) kids -> vgood (Node r s e kids) -> Tb r = true ->
      items_comments (map (conv text f) kids) = tcs (Node r s e kids).
    Proof.
      intros r s e kids Hk Hg HT. unfold Tb in HT. apply andb_prop in HT. destruct HT as [Hc Hn].
      apply negb_true_iff in Hc. rewrite tcs_node, Hc. cbn [app]. apply convs_view; [exact Hk|].
      destruct (vgood_node _ _ _ _ Hg) as [[Hnm _] _]. exact (names_forall Vb r kids Hnm Hn).
    Qed.
    Lemma inner_view : forall k, wgood f k -> Tb (trule k) = true -> items_comments (inner k) = tcs k.
    Proof.
      intros k Hw HT. pose proof (wgood_tkids f k Hw) as Hk. destruct k as [r s e kids].
      exact (inner_view_k r s e kids Hk (proj1 Hw) HT).
    Qed.
    Lemma args_view : forall l, Forall (wgood f) l -> Forall (fun k => Tb (trule k) = true) l ->
      args_comments (map inner l) = flat_map tcs l.
    Proof.
      induction l as [|k l IHl]; intros Hg Hv; [reflexivity|].
      inversion Hg; subst. inversion Hv; subst. cbn [map args_comments flat_map].
      rewrite inner_view, IHl by assumption. reflexivity.
    Qed.

    (* ---- list *)
    (* one inner pair of class P, then nothing or one (eol_)comment *)
    Definition item_okb (P : grule -> bool) (l : list grule) : bool :=
      match l with [x] => P x | [x; c] => P x && is_comment_rule c | _ => false end.
    Lemma item_split : forall P l, item_okb P l = true ->
      exists x more, l = x :: more /\ P x = true /\ tail_okb more = true.
    Proof.
      intros P [|x [|c [|? ?]]] H; try discriminate H; cbn [item_okb] in H.
      - exists x, []. auto.
      - apply andb_prop in H. destruct H. exists x, [c]. auto.
    Qed.
    Definition list_kidb (r : grule) : bool := match r with PG_comment | PG_list_item => true | _ => false end.
    Lemma list_elem_view : forall k, wgood f k -> list_kidb (trule k) = true ->
      lels_comments [list_elem text f k] = tcs k.
    Proof.
      intros k Hw Hr. unfold list_elem. destruct (trule k) eqn:Er; try discriminate Hr.
      - cbn [lels_comments]. rewrite (comment_node f k Hw) by (rewrite Er; reflexivity). reflexivity.
      - assert (Hi : item_okb Tb (map trule (tkids k)) = true).
        { apply (wgood_enum f k (item_okb Tb) Hw). rewrite Er. vm_compute. reflexivity. }
        destruct (item_split _ _ Hi) as (x & more0 & E & Hx & Hm).
        pose proof (wgood_tkids f k Hw) as Hk. destruct k as [r s e kids]. cbn [tkids trule] in *. subst r.
        destruct kids as [|first more]; [discriminate E|]. cbn [map] in E. inversion E; subst x more0.
        inversion Hk; subst. cbn [lels_comments]. rewrite tcs_node. cbn [is_comment_rule app flat_map].
        rewrite inner_view by assumption. rewrite (eol_view f more) by assumption. rewrite app_nil_r. reflexivity.
    Qed.
    Lemma lels_comments_cons : forall x l, lels_comments (x :: l) = lels_comments [x] ++ lels_comments l.
    Proof. intros [c|g eol] l; cbn [lels_comments]; rewrite ?app_nil_r, <- ?app_assoc; reflexivity. Qed.
    Lemma list_view : forall l, Forall (wgood f) l -> Forall (fun k => list_kidb (trule k) = true) l ->
      lels_comments (map (list_elem text f) l) = flat_map tcs l.
    Proof.
      induction l as [|k l IHl]; intros Hg Hv; [reflexivity|].
      inversion Hg; subst. inversion Hv; subst. cbn [map flat_map]. rewrite lels_comments_cons.
      rewrite list_elem_view, IHl by assumption. reflexivity.
    Qed.

    (* ---- record *)
    Definition entryb (r : grule) : bool :=
      match r with PG_record_pair | PG_record_shorthand | PG_spread_expression => true | _ => false end.
    Definition keyb (r : grule) : bool :=
      match r with PG_record_key_static | PG_record_key_dynamic => true | _ => false end.
    Definition pair_okb (l : list grule) : bool :=
      match l with [k; v] => keyb k && Tb v | _ => false end.
    Definition rec_kidb (r : grule) : bool := match r with PG_comment | PG_record_item => true | _ => false end.

    Lemma rec_elems_view : forall k, wgood f k -> rec_kidb (trule k) = true ->
      rels_comments (rec_elems text f k) = tcs k.
    Proof.
      intros k Hw Hr. unfold rec_elems. destruct (trule k) eqn:Er; try discriminate Hr.
      - cbn [rels_comments]. rewrite (comment_node f k Hw) by (rewrite Er; reflexivity). reflexivity.
      - assert (Hi : item_okb entryb (map trule (tkids k)) = true).
        { apply (wgood_enum f k (item_okb entryb) Hw). rewrite Er. vm_compute. reflexivity. }
        destruct (item_split _ _ Hi) as (x & more0 & E & Hx & Hm).
        pose proof (wgood_tkids f k Hw) as Hk. destruct k as [r s e kids]. cbn [tkids trule] in *. subst r.
        destruct kids as [|entry more]; [discriminate E|]. cbn [map] in E. inversion E; subst x more0.
        inversion Hk as [|? ? Hwe Hwm]; subst. cbv zeta.
        rewrite tcs_node. cbn [is_comment_rule app flat_map]. rewrite <- (eol_view f more) by assumption.
        destruct (trule entry) eqn:Ee; try discriminate Hx.
        + (* spread_expression *)
          cbn [rels_comments]. rewrite inner_view by (try assumption; rewrite Ee; reflexivity).
          rewrite app_nil_r. reflexivity.
        + (* record_pair *)
          assert (Hp : pair_okb (map trule (tkids entry)) = true).
          { apply (wgood_enum f entry pair_okb Hwe). rewrite Ee. vm_compute. reflexivity. }
          pose proof (wgood_tkids f entry Hwe) as Hke. destruct entry as [r0 s0 e0 ekids]. cbn [tkids trule] in *.
          subst r0. destruct ekids as [|key [|value [|? ?]]]; try discriminate Hp. cbn [map pair_okb] in Hp.
          apply andb_prop in Hp. destruct Hp as [Hkey Hval].
          inversion Hke as [|? ? Hwk Hke']; subst. inversion Hke' as [|? ? Hwv _]; subst.
          rewrite tcs_node. cbn [is_comment_rule app flat_map rels_comments]. rewrite app_nil_r.
          rewrite (inner_view value Hwv Hval). rewrite <- !app_assoc. f_equal.
          destruct (trule key) eqn:Ek; try discriminate Hkey.
          * (* static *)
            rewrite (F_free f key Hwk) by (rewrite Ek; reflexivity).
            destruct (tkids key) as [|ik ?]; [reflexivity|]. destruct (trule ik); reflexivity.
          * (* dynamic *)
            apply inner_view; [exact Hwk|rewrite Ek; reflexivity].
        + (* record_shorthand *)
          cbn [rels_comments]. rewrite (F_free f entry Hwe) by (rewrite Ee; reflexivity). rewrite app_nil_r. reflexivity.
    Qed.
    Lemma rec_view : forall l, Forall (wgood f) l -> Forall (fun k => rec_kidb (trule k) = true) l ->
      rels_comments (flat_map (rec_elems text f) l) = flat_map tcs l.
    Proof.
      induction l as [|k l IHl]; intros Hg Hv; [reflexivity|].
      inversion Hg; subst. inversion Hv; subst. cbn [flat_map]. rewrite rels_comments_app.
      rewrite rec_elems_view, IHl by assumption. reflexivity.
    Qed.

    (* ---- do-block *)
    Definition commentb (r : grule) : bool := match r with PG_comment => true | _ => false end.
    Definition exprcomb (r : grule) : bool := match r with PG_comment | PG_expression => true | _ => false end.
    Definition dostmt_okb (l : list grule) : bool :=
      match l with
      | [a] => exprcomb a
      | [a; b] => exprcomb a && commentb b
      | _ => false
      end.
    Definition ret_okb (l : list grule) : bool := match l with [x] => Tb x | _ => false end.
    Definition do_kidb (r : grule) : bool :=
      match r with PG_comment | PG_do_statement | PG_return_statement => true | _ => false end.
    Lemma is_rule_comment : forall m, trule m = PG_comment -> is_rule PG_comment m = true.
    Proof. intros m H. unfold is_rule. rewrite H. reflexivity. Qed.

    Lemma do_elems_view : forall k, wgood f k -> do_kidb (trule k) = true ->
      dels_comments (do_elems text f k) = tcs k.
    Proof.
      intros k Hw Hr. unfold do_elems. destruct (trule k) eqn:Er; try discriminate Hr.
      - cbn [dels_comments]. rewrite (comment_node f k Hw) by (rewrite Er; reflexivity). reflexivity.
      - (* do_statement *)
        assert (Hi : dostmt_okb (map trule (tkids k)) = true).
        { apply (wgood_enum f k dostmt_okb Hw). rewrite Er. vm_compute. reflexivity. }
        pose proof (wgood_tkids f k Hw) as Hk. destruct k as [r s e kids]. cbn [tkids trule] in *. subst r.
        rewrite tcs_node. cbn [is_comment_rule app].
        destruct kids as [|first [|m [|? ?]]]; try discriminate Hi; cbn [map dostmt_okb] in Hi.
        + inversion Hk as [|? ? Hwf _]; subst. cbv zeta. cbn [flat_map]. rewrite app_nil_r.
          destruct (trule first) eqn:Ef; try discriminate Hi.
          * cbn [dels_comments]. rewrite (comment_node f first Hwf) by (rewrite Ef; reflexivity). reflexivity.
          * cbn [dels_comments opt_list]. rewrite inner_view by (try assumption; rewrite Ef; reflexivity).
            rewrite app_nil_r. reflexivity.
        + inversion Hk as [|? ? Hwf Hk2]; subst. inversion Hk2 as [|? ? Hwm _]; subst. cbv zeta.
          cbn [flat_map]. rewrite app_nil_r. apply andb_prop in Hi. destruct Hi as [Hi Hi2].
          destruct (trule m) eqn:Em; try discriminate Hi2.
          rewrite (is_rule_comment m Em).
          destruct (trule first) eqn:Ef; try discriminate Hi; cbn [dels_comments opt_list];
            rewrite (comment_node f m Hwm) by (rewrite Em; reflexivity).
          * rewrite (comment_node f first Hwf) by (rewrite Ef; reflexivity). reflexivity.
          * rewrite inner_view by (try assumption; rewrite Ef; reflexivity). rewrite app_nil_r. reflexivity.
      - (* return_statement *)
        assert (Hi : ret_okb (map trule (tkids k)) = true).
        { apply (wgood_enum f k ret_okb Hw). rewrite Er. vm_compute. reflexivity. }
        pose proof (wgood_tkids f k Hw) as Hk. destruct k as [r s e kids]. cbn [tkids trule] in *. subst r.
        destruct kids as [|ex [|? ?]]; try discriminate Hi. cbn [map ret_okb] in Hi.
        inversion Hk; subst. rewrite tcs_node. cbn [is_comment_rule app flat_map dels_comments].
        rewrite inner_view by assumption. reflexivity.
    Qed.
    Lemma do_view : forall l, Forall (wgood f) l -> Forall (fun k => do_kidb (trule k) = true) l ->
      dels_comments (flat_map (do_elems text f) l) = flat_map tcs l.
    Proof.
      induction l as [|k l IHl]; intros Hg Hv; [reflexivity|].
      inversion Hg; subst. inversion Hv; subst. cbn [flat_map]. rewrite dels_comments_app.
      rewrite do_elems_view, IHl by assumption. reflexivity.
    Qed.
  End Cases.

  Definition lambda_okb (l : list grule) : bool :=
    match l with [a; b] => Fb a && Tb b | _ => false end.
  Definition cond_okb (l : list grule) : bool :=
    match l with [a; b; c] => Tb a && Tb b && Tb c | _ => false end.

  (* the item view reads every comment pair of a pair in expression position *)
  Theorem conv_view : forall f t, wgood f t -> Vb (trule t) = true -> item_comments (conv text f t) = tcs t.
  Proof.
    induction f as [|f IH]; intros t Hw HV.
    { destruct t as [r s e kids]. destruct Hw as [_ Hd]. cbn [tree_depth] in Hd. lia. }
    destruct (structb (trule t)) eqn:Est.
    2:{ unfold Vb in HV. rewrite Est in HV. cbn [orb] in HV. rewrite (F_free _ t Hw HV).
        destruct t as [r s e kids]. apply leaf_conv. exact Est. }
    pose proof (wgood_names _ _ Hw) as Hn.
    destruct t as [r s e kids]. cbn [trule tkids] in *.
    pose proof (wgood_kids_S _ _ _ _ _ Hw) as Hk. pose proof (proj1 Hw) as Hg.
    destruct r; try discriminate Est; clear Est HV.
    - (* lambda *)
      assert (Hi : lambda_okb (map trule kids) = true).
      { apply (wgood_enum _ _ lambda_okb Hw). vm_compute. reflexivity. }
      destruct kids as [|al [|body [|? ?]]]; try discriminate Hi. cbn [map lambda_okb] in Hi.
      apply andb_prop in Hi. destruct Hi as [Ha Hb].
      inversion Hk as [|? ? Hwa Hk2]; subst. inversion Hk2 as [|? ? Hwb _]; subst.
      cbn [conv]. rewrite item_comments_eq, tcs_node. cbn [is_comment_rule app flat_map].
      rewrite (F_free f al Hwa Ha), (inner_view f IH body Hwb Hb), app_nil_r. reflexivity.
    - (* lambda_expression *)
      cbn [conv]. rewrite item_comments_eq. apply (inner_view_k f IH); [exact Hk|exact Hg|vm_compute; reflexivity].
    - (* access *)
      cbn [conv]. rewrite item_comments_eq. apply (inner_view_k f IH); [exact Hk|exact Hg|vm_compute; reflexivity].
    - (* call_list *)
      cbn [conv]. rewrite item_comments_eq, tcs_node. cbn [is_comment_rule app].
      apply (args_view f IH); [exact Hk|]. apply (names_forall Tb _ _ Hn). vm_compute. reflexivity.
    - (* list *)
      cbn [conv]. rewrite item_comments_eq, tcs_node. cbn [is_comment_rule app].
      change (lels_comments (map _ kids)) with (lels_comments (map (list_elem text f) kids)).
      apply (list_view f IH); [exact Hk|]. apply (names_forall list_kidb _ _ Hn). vm_compute. reflexivity.
    - (* record *)
      cbn [conv]. rewrite item_comments_eq, tcs_node. cbn [is_comment_rule app].
      change (rels_comments (flat_map _ kids)) with (rels_comments (flat_map (rec_elems text f) kids)).
      apply (rec_view f IH); [exact Hk|]. apply (names_forall rec_kidb _ _ Hn). vm_compute. reflexivity.
    - (* conditional *)
      assert (Hi : cond_okb (map trule kids) = true).
      { apply (wgood_enum _ _ cond_okb Hw). vm_compute. reflexivity. }
      destruct kids as [|c [|t1 [|e1 [|? ?]]]]; try discriminate Hi. cbn [map cond_okb] in Hi.
      apply andb_prop in Hi. destruct Hi as [Hi H3]. apply andb_prop in Hi. destruct Hi as [H1 H2].
      inversion Hk as [|? ? W1 Hk2]; subst. inversion Hk2 as [|? ? W2 Hk3]; subst. inversion Hk3 as [|? ? W3 _]; subst.
      cbn [conv]. rewrite item_comments_eq, tcs_node. cbn [is_comment_rule app flat_map].
      rewrite (inner_view f IH c W1 H1), (inner_view f IH t1 W2 H2), (inner_view f IH e1 W3 H3), app_nil_r. reflexivity.
    - (* expression *)
      cbn [conv]. rewrite item_comments_eq. apply (inner_view_k f IH); [exact Hk|exact Hg|vm_compute; reflexivity].
    - (* assignment *)
      assert (Hi : lambda_okb (map trule kids) = true).
      { apply (wgood_enum _ _ lambda_okb Hw). vm_compute. reflexivity. }
      destruct kids as [|x [|v [|? ?]]]; try discriminate Hi. cbn [map lambda_okb] in Hi.
      apply andb_prop in Hi. destruct Hi as [Ha Hb].
      inversion Hk as [|? ? Hwa Hk2]; subst. inversion Hk2 as [|? ? Hwb _]; subst.
      cbn [conv]. rewrite item_comments_eq, tcs_node. cbn [is_comment_rule app flat_map].
      rewrite (F_free f x Hwa Ha), (inner_view f IH v Hwb Hb), app_nil_r. reflexivity.
    - (* do_block *)
      cbn [conv]. rewrite item_comments_eq, tcs_node. cbn [is_comment_rule app].
      change (dels_comments (flat_map _ kids)) with (dels_comments (flat_map (do_elems text f) kids)).
      apply (do_view f IH); [exact Hk|]. apply (names_forall do_kidb _ _ Hn). vm_compute. reflexivity.
  Qed.

  (* ---------------------------------------------------------------- statements and the forest *)
  Lemma wgood_depth : forall t, vgood t -> wgood (tree_depth t) t.
  Proof. intros t H. split; [exact H|lia]. Qed.

  Definition stmt_okb (l : list grule) : bool :=
    match l with
    | [x] => commentb x || Tb x
    | [x; c] => (commentb x || Tb x) && commentb c
    | _ => false
    end.

  Lemma stmt_view : forall t, vgood t -> trule t = PG_statement -> stmt_view_comments text t = tcs t.
  Proof.
    intros t Hg Er. pose proof (wgood_depth t Hg) as Hw.
    assert (Hi : stmt_okb (map trule (tkids t)) = true).
    { apply (wgood_enum _ t stmt_okb Hw). rewrite Er. vm_compute. reflexivity. }
    pose proof (wgood_tkids _ t Hw) as Hk. unfold stmt_view_comments, stmt_eol.
    destruct t as [r s e kids]. cbn [tkids trule] in *. subst r. rewrite tcs_node. cbn [is_comment_rule app].
    set (d := tree_depth (Node PG_statement s e kids)) in *.
    assert (Hfirst : forall first, wgood d first -> commentb (trule first) || Tb (trule first) = true ->
              match trule first with
              | PG_comment => [tspan text first]
              | _ => items_comments (conv_kids text first)
              end = tcs first).
    { intros first Hwf Hx. unfold conv_kids.
      assert (Hin : Tb (trule first) = true ->
                    items_comments (map (conv text (S (tree_depth first))) (tkids first)) = tcs first).
      { intro HT. apply (inner_view (S (tree_depth first)) (conv_view (S (tree_depth first)))); [|exact HT].
        split; [exact (proj1 Hwf)|lia]. }
      destruct (trule first) eqn:Ef; cbn [commentb orb] in Hx; try (apply Hin; exact Hx).
      symmetry. apply (comment_node d first Hwf). rewrite Ef. reflexivity. }
    destruct kids as [|first [|m [|? ?]]]; try discriminate Hi; cbn [map stmt_okb] in Hi.
    - inversion Hk as [|? ? Hwf _]; subst. cbn [flat_map opt_list]. rewrite (Hfirst first Hwf Hi). reflexivity.
    - inversion Hk as [|? ? Hwf Hk2]; subst. inversion Hk2 as [|? ? Hwm _]; subst.
      apply andb_prop in Hi. destruct Hi as [Hi Hi2].
      destruct (trule m) eqn:Em; try discriminate Hi2.
      rewrite (is_rule_comment m Em). cbn [flat_map opt_list]. rewrite (Hfirst first Hwf Hi).
      rewrite (comment_node d m Hwm) by (rewrite Em; reflexivity). rewrite app_nil_r. reflexivity.
  Qed.

  Lemma forest_view : forall l, Forall vgood l ->
    Forall (fun t => trule t = PG_statement \/ trule t = PG_EOI) l ->
    forest_view_comments text l = forest_comments text l.
  Proof.
    intros l Hg Hn. unfold forest_view_comments, forest_comments.
    induction l as [|t l IH]; [reflexivity|]. inversion Hg; subst. inversion Hn as [|? ? Ht Hn']; subst.
    cbn [flat_map]. rewrite IH by assumption. f_equal. unfold is_rule. destruct Ht as [Ht|Ht]; rewrite Ht.
    - cbn. apply stmt_view; assumption.
    - cbn. symmetry. apply (F_free _ t (wgood_depth t ltac:(assumption))). rewrite Ht. reflexivity.
  Qed.
End View.

(* forest_view_ok — the last tested hypothesis of the parser half of C09 — holds of EVERY result of Peg.parse *)
Theorem parse_forest_view_ok : forall fuel text s',
  Peg.parse blots_grammar fuel PG_input text = Peg.Ok s' -> forest_view_ok text (rev (out s')) = true.
Proof.
  intros fuel text s' H. unfold forest_view_ok.
  rewrite (forest_view text (rev (out s')) (view_nodes fuel text s' H) (view_top_names fuel text s' H)).
  apply strs_eqb_refl.
Qed.

Theorem parse_program_c_view_ok : forall text forest p,
  parse_program_c text = PCOk forest p -> forest_view_ok text forest = true.
Proof.
  intros text forest p H. destruct (parse_program_c_ok _ _ _ H) as (s & Hs & -> & _).
  exact (parse_forest_view_ok _ _ _ Hs).
Qed.
