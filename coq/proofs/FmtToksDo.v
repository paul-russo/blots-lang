(* FmtToksDo.v — the do-block family at the TEXT level (property C07).

   format_do_block_multiline against the do-block arm of expr_to_source: if every statement and
   the returned expression have laid-out texts with the chunks of their one-line texts, so has
   the block — same chunks, before `canon`.  protect_leading_minus (decided on the LAID-OUT text,
   `first` = no statement before) agrees with the one-line printer's rule (decided on the one-line
   text, index of the statement) by FmtItems.lead_fmtd: no layout changes how a text starts; this
   needs lam_ok, the repaired do-block rule (fx_dominus) and the repaired policy. *)
From Coq Require Import String Ascii List Bool Arith Lia.
Require Import Blots.Num Blots.Ast Blots.PrattRender Blots.Printer Blots.Formatter Blots.FmtTokens
               Blots.proofs.PrattRT Blots.proofs.FmtItems
               Blots.proofs.FmtdInd Blots.proofs.StringFacts Blots.proofs.FmtToks Blots.proofs.FmtToksDoc Blots.proofs.FmtToksAll Blots.proofs.FmtToksBin.
Import ListNotations.
Local Open Scope list_scope.

Lemma sapp_nil_l : forall s, ("" +++ s) = s.
Proof. reflexivity. Qed.
Lemma is_sep_nl2 : is_sep (PrattRender.nl +++ "  ").
Proof. exact (is_sep_nl_indent 2). Qed.

Section Do.
  Variable oi : opinfo_t.
  Variable fx : fixes.
  Variable numtxt : num -> string.
  Variable keepc : bool.
  Variable w : nat.
  Hypothesis Hdom : fx_dominus fx = true.
  Notation pol := (policy_new oi).
  Notation O := (printer_oracles fx pol numtxt keepc).
  Notation pt := (print_text fx pol numtxt).
  Notation fd := (fmtd O w).

  Lemma lead_eq : forall n j, lam_ok n = true ->
    starts_with_minus (render (fd n j)) = starts_minus (pt n).
  Proof.
    intros n j Hl. rewrite fmt_minus_lead3, prt_minus_lead3.
    assert (E : dlead (fd n j) = lead3 (pt n)) by (apply lead_fmtd; try assumption; try reflexivity).
    unfold dlead in E. rewrite E. reflexivity.
  Qed.

  Definition child_ok (x : expr) : Prop :=
    lam_ok x = true /\ tok_ok O x = true /\ forall j, toks (render (fd x j)) = toks (pt x).

  Fixpoint doT (k : nat) (l : list (commented expr)) : list string :=
    match l with
    | [] => []
    | Cm _ x _ :: l' => wrapT (dominus_text fx k (pt x)) (toks (pt x)) ++ doT (S k) l'
    end.

  Ltac norm := repeat (progress (repeat rewrite <- app_assoc; cbn [app])).

  (* ---------------------------------------------------------------- the layout *)
  Lemma L_protect : forall x inner k, child_ok x ->
    flat_map piece_toks (protect_minus (fd x inner) (Nat.eqb k 0)) =
    wrapT (dominus_text fx k (pt x)) (toks (pt x)).
  Proof.
    intros x inner k [Hl [Hk HS]]. unfold protect_minus, dominus_text.
    rewrite Hdom, (lead_eq x inner Hl). cbn [andb].
    destruct (negb (k =? 0) && starts_minus (pt x)); unfold wrapT.
    - cbn [app]. rewrite fm_code, flat_map_app, (pieces_toks fx pol numtxt keepc w x inner Hk), HS.
      reflexivity.
    - rewrite (pieces_toks fx pol numtxt keepc w x inner Hk), HS. reflexivity.
  Qed.

  Lemma L_stmts : forall stmts k inner, plain_items stmts = true ->
    Forall (fun c => child_ok (cnode c)) stmts ->
    flat_map piece_toks (do_stmts_doc fd stmts inner (Nat.eqb k 0)) = doT k stmts.
  Proof.
    induction stmts as [|[lead x tr] stmts IH]; intros k inner Hp HF; [reflexivity|].
    inversion HF as [|? ? Hx HF']; subst. cbn [cnode] in Hx.
    cbn [plain_items] in Hp. destruct lead; [|discriminate]. destruct tr; [discriminate|].
    cbn [do_stmts_doc leading_doc trailing_doc flat_map doT]. norm.
    rewrite fm_nl, fm_ind, flat_map_app, (L_protect x inner k Hx).
    f_equal. exact (IH (S k) inner Hp HF').
  Qed.

  (* ---------------------------------------------------------------- the one-line text *)
  Local Open Scope string_scope.
  Lemma T_stmts : forall stmts k A ret, plain_items stmts = true ->
    Forall (fun c => child_ok (cnode c)) stmts -> ends_code A = true -> ends_code (pt ret) = true ->
    toks (A ++
          ((fix go (i : nat) (l : list (commented expr)) : string :=
              match l with
              | [] => ""
              | Cm lead x trail :: l' =>
                  sconcat (map (fun c => PrattRender.nl ++ "  " ++ c) lead) ++
                  PrattRender.nl ++ "  " ++ (let s := pt x in paren_s (dominus_text fx i s) s) ++
                  match trail with Some t => "  " ++ t | None => "" end ++
                  go (S i) l'
              end) k stmts ++
           PrattRender.nl ++ "  return " ++ pt ret ++ PrattRender.nl ++ "}"))
    = (toks A ++ doT k stmts ++ ["return"] ++ toks (pt ret) ++ ["}"])%list.
  Proof.
    induction stmts as [|[lead x tr] stmts IH]; intros k A ret Hp HF HA Hret.
    - cbn [doT app].
      change (toks (A ++ (PrattRender.nl ++ "  ") ++ ("return " ++ pt ret ++ (PrattRender.nl ++ "}")))
              = (toks A ++ ["return"] ++ toks (pt ret) ++ ["}"])%list).
      rewrite (toks_app_sep A _ _ HA is_sep_nl2), (toks_app_closed "return " _ eq_refl).
      rewrite (toks_app_break (pt ret) (PrattRender.nl ++ "}") Hret eq_refl). reflexivity.
    - inversion HF as [|? ? Hx HF']; subst. cbn [cnode] in Hx.
      cbn [plain_items] in Hp. destruct lead; [|discriminate]. destruct tr; [discriminate|].
      destruct Hx as [Hl [Hk HS]].
      destruct (node_of fx pol numtxt keepc x Hk) as [_ [Ex _]].
      destruct (paren_facts (dominus_text fx k (pt x)) _ Ex) as [TP EP].
      set (P := paren_s (dominus_text fx k (pt x)) (pt x)) in *.
      set (A' := A ++ (PrattRender.nl ++ "  ") ++ P).
      assert (TA : toks A' = (toks A ++ toks P)%list) by exact (toks_app_sep A _ P HA is_sep_nl2).
      assert (EA : ends_code A' = true).
      { unfold A'. rewrite (ends_code_tst _ P); [exact EP|]. exact (tst_app_sep A _ P HA is_sep_nl2). }
      specialize (IH (S k) A' ret Hp HF' EA Hret).
      cbn [doT]. rewrite <- !app_assoc, <- TP, (app_assoc (toks A)), <- TA, <- IH.
      f_equal. unfold A'. cbn -[String.append paren_s dominus_text toks print_text].
      fold P. rewrite !append_assoc. reflexivity.
  Qed.
  Local Close Scope string_scope.

  (* ---------------------------------------------------------------- the family theorem *)
  Theorem do_family : forall stmts ret i, plain_items stmts = true ->
    tok_ok O (EDo stmts (Cm [] ret None)) = true ->
    Forall (fun c => child_ok (cnode c)) stmts -> child_ok ret ->
    toks (render (fd (EDo stmts (Cm [] ret None)) i)) = toks (pt (EDo stmts (Cm [] ret None))).
  Proof.
    intros stmts ret i Hp Hk HF [Hlr [Hkr HSr]].
    rewrite (proj1 (layout_toks O w _ i Hk)).
    rewrite fmtd_eq. unfold impl_doc, multiline_doc, do_doc.
    cbn [cleading cnode leading_doc flat_map]. norm.
    rewrite fm_code, flat_map_app, (L_stmts stmts 0 _ Hp HF).
    cbn [app]. rewrite fm_nl, fm_ind, fm_code, flat_map_app,
      (pieces_toks fx pol numtxt keepc w ret _ Hkr), HSr, fm_nl, fm_ind.
    destruct (node_of fx pol numtxt keepc ret Hkr) as [_ [Er _]].
    pose proof (T_stmts stmts 0 "do {" ret Hp HF eq_refl Er) as HT.
    cbn [print_text]. cbn [map sconcat fold_right] .
    etransitivity; [|symmetry; etransitivity; [|exact HT]].
    - reflexivity.
    - reflexivity.
  Qed.
End Do.
