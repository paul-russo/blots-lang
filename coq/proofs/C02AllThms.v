(* C02AllThms.v — the evaluator the ALL / TEXT-EVAL streams run (EvalAll.binop_all o / builtin_all o: every row of
   the regenerated built-in table and `^`), for EVERY oracle record o: the hypothesis [lam_str_blind] of
   C02AllOps.v is satisfiable and necessary, and what the model says about the clock.  (C02's theorems for this
   evaluator are the generic theorems of C02Twice.v / C02Wf.v / C02Weak.v / C02LetGen.v / C02LetProg.v with the
   facts of C02AllOps.v: Properties/C02.v.)

   THE CLOCK.  EvalAll models time_now() as the CONSTANT field o_now of the oracle record: one oracle = one
   reading of the clock, so inside the model "evaluate e twice" reads the same instant twice and eval-twice
   holds with no exclusion.  What the model cannot (and must not) say is that two evaluations at DIFFERENT
   instants agree: [eval_twice_across_clock_stmt] (first evaluation under o, second under o with another
   o_now) is refuted by `time_now()` ([eval_twice_across_clock_refuted]).  That is the documented behaviour of
   a clock, not a defect; the eval-twice theorems are statements about evaluations that observe the same clock
   reading (exactly: the same oracle record). *)
From Coq Require Import String Ascii List ZArith Bool Lia.
Require Import Blots.Num Blots.gen.Builtins Blots.Ast Blots.Value Blots.Outcome Blots.Binop
               Blots.Env Blots.Eval Blots.BuiltinsHof Blots.Program Blots.EvalInst Blots.EvalFull
               Blots.EvalAll Blots.AllRun
               Blots.proofs.ValueInd Blots.proofs.StoreMono Blots.proofs.Frames Blots.proofs.Scoping
               Blots.proofs.C02Ren Blots.proofs.C02Sim Blots.proofs.C02Ops Blots.proofs.C02Keep
               Blots.proofs.C02Twice Blots.proofs.C02Let Blots.proofs.C02OpsFull Blots.proofs.C02Wf
               Blots.proofs.C02Weak Blots.proofs.C02LetGen Blots.proofs.C02LetProg Blots.proofs.C02AllOps.
Import ListNotations.
Open Scope list_scope.
Open Scope nat_scope.
Open Scope string_scope.

(* ---- the hypothesis is satisfiable: every lookup-table oracle of AllRun.v, and the trivial oracle ---- *)
Lemma lam_str_blind_tables : forall T, lam_str_blind (oracle_of T).
Proof. intros T rho _ a b sc. reflexivity. Qed.
Lemma lam_str_blind_trivial : lam_str_blind oracle_trivial.
Proof. intros rho _ a b sc. reflexivity. Qed.

Section NoHyp.
  Variable o : oracle.
  Notation bi := (binop_all o).
  Notation bu := (builtin_all o).

  (* assignments allowed: the final chains agree off x *)
  Theorem weakening_general_all : forall release d x w e st k f fr r st' fr',
    String.eqb "inputs" x = false ->
    nocc x e = true -> frames_nm x ((k, f) :: fr) = true -> vnm x w = true ->
    evalD release bi bu d (st, (k, f) :: fr) e = (r, (st', fr')) ->
    exists frB', evalD release bi bu d (st, (k, (x, w) :: f) :: fr) e = (r, (st', frB')) /\
                 (forall y, String.eqb y x = false -> lookup fr' y = lookup frB' y) /\
                 frames_nm x fr' = true /\ (forall v, r = Ok v -> vnm x v = true).
  Proof. intros release. exact (weakening_generic release bi bu (ops_nm_all o)). Qed.
End NoHyp.

(* ================= the hypothesis on the text oracle is NECESSARY ================= *)
(* an oracle whose function text prints the cell index of the first captured function *)
Definition peeking_lam_str (_ : list lamarg) (_ : expr) (sc : list (string * value)) : string :=
  match sc with
  | (_, VLam id _ _ _) :: _ => if Nat.eqb id 0 then "cell0" else "other cell"
  | _ => "no captured function"
  end.
Definition oracle_peeking : oracle := {|
  o_sin := o_sin oracle_trivial; o_cos := o_cos oracle_trivial; o_tan := o_tan oracle_trivial;
  o_asin := o_asin oracle_trivial; o_acos := o_acos oracle_trivial; o_atan := o_atan oracle_trivial;
  o_ln := o_ln oracle_trivial; o_log10 := o_log10 oracle_trivial; o_exp := o_exp oracle_trivial;
  o_powf := o_powf oracle_trivial;
  o_trim := o_trim oracle_trivial; o_upper := o_upper oracle_trivial; o_lower := o_lower oracle_trivial;
  o_lam_str := peeking_lam_str;
  o_powi := o_powi oracle_trivial; o_fmt_prec := o_fmt_prec oracle_trivial; o_fmt_exp14 := o_fmt_exp14 oracle_trivial;
  o_parse_f64 := o_parse_f64 oracle_trivial;
  o_now := o_now oracle_trivial
|}.
Definition peek_inner : value := VLam 0 [] (ENum (num_of_Z 1)) [].
Definition peek_outer : value := VLam 1 [] (EId "g") [("g", peek_inner)].

Lemma oracle_peeking_not_blind : ~ lam_str_blind oracle_peeking.
Proof.
  intros H. specialize (H S (fun a b E => eq_add_S a b E) [] (EId "g") [("g", peek_inner)]).
  vm_compute in H. discriminate H.
Qed.

Lemma ops_commute_all_needs_blind : ~ (forall o, ops_commute (binop_all o) (builtin_all o)).
Proof.
  intros H. destruct (H oracle_peeking S (fun a b E => eq_add_S a b E)) as [_ Hbu].
  set (cb := (fun (_ _ : value) (_ : list value) (s : store) => (Err : outcome value, s)) : callback).
  assert (Hcb : cb_eqv S cb cb).
  { intros this f args sA sB Hs. unfold cb. cbn [fst snd]. split; [reflexivity|exact Hs]. }
  assert (Hs : sinv S [] [None]).
  { split; [|split].
    - intros id. unfold lam_name. cbn [nth_error]. destruct id; reflexivity.
    - intros id Hid. cbn [length] in Hid. lia.
    - intros k. reflexivity. }
  destruct (Hbu cb cb Hcb B_to_string [peek_outer] [] [None] Hs) as [E _].
  vm_compute in E. discriminate E.
Qed.

(* ================= the clock ================= *)
Definition with_now (o : oracle) (t : num) : oracle := {|
  o_sin := o_sin o; o_cos := o_cos o; o_tan := o_tan o; o_asin := o_asin o; o_acos := o_acos o; o_atan := o_atan o;
  o_ln := o_ln o; o_log10 := o_log10 o; o_exp := o_exp o; o_powf := o_powf o;
  o_trim := o_trim o; o_upper := o_upper o; o_lower := o_lower o; o_lam_str := o_lam_str o;
  o_powi := o_powi o; o_fmt_prec := o_fmt_prec o; o_fmt_exp14 := o_fmt_exp14 o; o_parse_f64 := o_parse_f64 o;
  o_now := t
|}.
Lemma with_now_blind : forall o t, lam_str_blind o -> lam_str_blind (with_now o t).
Proof. intros o t H rho Hinj a b sc. exact (H rho Hinj a b sc). Qed.

(* eval-twice with the clock ADVANCING between the two evaluations: not a property of a language with a clock *)
Definition eval_twice_across_clock_stmt : Prop :=
  forall o t, lam_str_blind o ->
  forall release d e c r1 c1 r2 c2,
    no_assign e = true -> cfg_wf c = true ->
    evalD release (binop_all o) (builtin_all o) d c e = (r1, c1) ->
    evalD release (binop_all (with_now o t)) (builtin_all (with_now o t)) d c1 e = (r2, c2) ->
    osame r1 r2.

Definition clock_cfg : cfg := ([], [(FOwned, [])]).
Definition clock_expr : expr := ECall (EBuiltin B_time_now) [].
Lemma eval_twice_across_clock_refuted : ~ eval_twice_across_clock_stmt.
Proof.
  intros H.
  specialize (H oracle_trivial (num_of_Z 2) lam_str_blind_trivial true 5 clock_expr clock_cfg
                (fst (evalD true (binop_all oracle_trivial) (builtin_all oracle_trivial) 5 clock_cfg clock_expr))
                (snd (evalD true (binop_all oracle_trivial) (builtin_all oracle_trivial) 5 clock_cfg clock_expr))
                (fst (evalD true (binop_all (with_now oracle_trivial (num_of_Z 2)))
                            (builtin_all (with_now oracle_trivial (num_of_Z 2))) 5
                            (snd (evalD true (binop_all oracle_trivial) (builtin_all oracle_trivial) 5 clock_cfg clock_expr))
                            clock_expr))
                (snd (evalD true (binop_all (with_now oracle_trivial (num_of_Z 2)))
                            (builtin_all (with_now oracle_trivial (num_of_Z 2))) 5
                            (snd (evalD true (binop_all oracle_trivial) (builtin_all oracle_trivial) 5 clock_cfg clock_expr))
                            clock_expr))
                eq_refl eq_refl (surjective_pairing _) (surjective_pairing _)).
  vm_compute in H. discriminate H.
Qed.

(* the same expression under ONE reading of the clock *)
Example eval_twice_time_now_same_clock :
  let ev := evalD true (binop_all oracle_trivial) (builtin_all oracle_trivial) 5 in
  fst (ev clock_cfg clock_expr) = Ok (VNum (num_of_Z 1)) /\
  fst (ev (snd (ev clock_cfg clock_expr)) clock_expr) = Ok (VNum (num_of_Z 1)).
Proof. vm_compute. split; reflexivity. Qed.
