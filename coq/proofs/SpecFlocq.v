(* SpecFlocq.v — the operations of Coq's SpecFloat (which Num.v uses) are Flocq's
   (IEEE754.BinarySingleNaN) in mode_NE.  Flocq proves the same equations in IEEE754.PrimFloat; they are
   proved again here so that this file, and the files that need only these equations, do not load the
   primitive-float library. *)
From Coq Require Import ZArith Bool Floats.SpecFloat.
From Flocq Require Import Core.Core IEEE754.BinarySingleNaN.
Require Import Blots.Num.

Lemma round_nearest_even_equiv s m l :
  round_nearest_even m l = choice_mode mode_NE s m l.
Proof.
  case l; [reflexivity|intro c].
  case c; [ | reflexivity..].
  now simpl; unfold Round.cond_incr; case Z.even.
Qed.

Section AnyFormat.
  Variables p emx : Z.

  Lemma binary_round_aux_equiv sx mx ex lx :
    SpecFloat.binary_round_aux p emx sx mx ex lx
    = BinarySingleNaN.binary_round_aux p emx mode_NE sx mx ex lx.
  Proof.
    unfold SpecFloat.binary_round_aux, BinarySingleNaN.binary_round_aux.
    set (mrse' := shr_fexp _ _ _ _ _).
    case mrse'; intros mrs' e'; simpl.
    now rewrite (round_nearest_even_equiv sx).
  Qed.

  Lemma binary_round_equiv s m e :
    SpecFloat.binary_round p emx s m e = BinarySingleNaN.binary_round p emx mode_NE s m e.
  Proof.
    unfold SpecFloat.binary_round, BinarySingleNaN.binary_round, shl_align_fexp.
    set (mez := shl_align _ _ _); case mez as [mz ez].
    apply binary_round_aux_equiv.
  Qed.
End AnyFormat.

#[local] Instance Hprec : FLX.Prec_gt_0 prec := eq_refl.
#[local] Instance Hmax : Prec_lt_emax prec emax := eq_refl.

(* for whatever proofs of the two format conditions the Flocq operations are built with *)
Section AnyInstance.
  Context {Hp : FLX.Prec_gt_0 prec} {Hm : Prec_lt_emax prec emax}.

  Lemma binary_normalize_equiv m e szero :
    SpecFloat.binary_normalize prec emax m e szero
    = B2SF (BinarySingleNaN.binary_normalize prec emax Hp Hm mode_NE m e szero).
  Proof.
    case m as [ | p | p].
    - now simpl.
    - simpl; rewrite B2SF_SF2B; apply binary_round_equiv.
    - simpl; rewrite B2SF_SF2B; apply binary_round_equiv.
  Qed.

  Lemma nadd_Bplus (x y : binary_float prec emax) :
    nadd (B2SF x) (B2SF y) = B2SF (Bplus mode_NE x y).
  Proof.
    unfold nadd.
    destruct x as [sx|sx| |sx mx ex Bx], y as [sy|sy| |sy my ey By];
      try reflexivity; try (simpl; now case Bool.eqb).
    apply binary_normalize_equiv.
  Qed.

  Lemma nsub_Bminus (x y : binary_float prec emax) :
    nsub (B2SF x) (B2SF y) = B2SF (Bminus mode_NE x y).
  Proof.
    unfold nsub.
    destruct x as [sx|sx| |sx mx ex Bx], y as [sy|sy| |sy my ey By];
      try reflexivity; try (simpl; now case Bool.eqb).
    simpl. unfold Zminus. rewrite <- cond_Zopp_negb. apply binary_normalize_equiv.
  Qed.

  Lemma nmul_Bmult (x y : binary_float prec emax) :
    nmul (B2SF x) (B2SF y) = B2SF (Bmult mode_NE x y).
  Proof.
    unfold nmul.
    destruct x as [sx|sx| |sx mx ex Bx], y as [sy|sy| |sy my ey By]; try reflexivity.
    simpl. rewrite B2SF_SF2B. apply binary_round_aux_equiv.
  Qed.

  Lemma ndiv_Bdiv (x y : binary_float prec emax) :
    ndiv (B2SF x) (B2SF y) = B2SF (Bdiv mode_NE x y).
  Proof.
    unfold ndiv.
    destruct x as [sx|sx| |sx mx ex Bx], y as [sy|sy| |sy my ey By];
      try reflexivity; try (simpl; now case Bool.eqb).
    simpl. rewrite B2SF_SF2B.
    set (melz := SFdiv_core_binary _ _ _ _ _ _). case melz as [[mz ez] lz].
    apply binary_round_aux_equiv.
  Qed.
End AnyInstance.
