(* PrattRT.v — the round trip: the Pratt parser recovers every well-formed tree from every rendering
   PrattRender.pr produces, i.e. one that carries at least the parentheses the level assignment requires and any
   number of redundant layers, over the real token streams: 26 binary operators, three prefix operators and
   spread, postfix `!`, call / index / field with their nested token streams, and every primary with nested
   expressions.  pr_renders: pr's output is a rendering in the sense of PrattRend.RendK (whose last index is
   the openness that `rmin` computes for pr); PrattRend.forward_gen does the induction over the operators.
   Then: the generated table satisfies the hypotheses; the parser only builds well-formed trees. *)
From Coq Require Import String List Bool Arith Lia.
Require Import Blots.Num Blots.gen.Builtins Blots.Ast Blots.Outcome Blots.PrattTypes Blots.Pratt
               Blots.PrattRender Blots.proofs.PrattAdequacy Blots.proofs.PrattRend.
Require Blots.proofs.ExprInd.
Require Import Blots.gen.PrecTable Blots.proofs.PrattTable Blots.proofs.PrattFuel.
Import ListNotations.
Local Open Scope nat_scope.
Local Open Scope list_scope.

(* ------------------------------------------------------------------ induction on expr: ExprInd's principle with
   the premises about commented nodes spelled by matching *)
Section ExprInd.
  Variable P : expr -> Prop.
  Definition Pkey (k : rkey) : Prop :=
    match k with KDyn e | KSpread e => P e | _ => True end.
  Definition Pentry (c : commented rentry) : Prop :=
    match c with Cm _ (REntry k v) _ => Pkey k /\ P v end.
  Definition Pcm (c : commented expr) : Prop := match c with Cm _ e _ => P e end.
  Hypothesis H_num : forall x, P (ENum x).
  Hypothesis H_str : forall s, P (EStr s).
  Hypothesis H_bool : forall b, P (EBool b).
  Hypothesis H_null : P ENull.
  Hypothesis H_id : forall x, P (EId x).
  Hypothesis H_inref : forall x, P (EInRef x).
  Hypothesis H_builtin : forall b, P (EBuiltin b).
  Hypothesis H_list : forall items, Forall Pcm items -> P (EList items).
  Hypothesis H_rec : forall entries, Forall Pentry entries -> P (ERec entries).
  Hypothesis H_lam : forall args body, P body -> P (ELam args body).
  Hypothesis H_cond : forall c t e, P c -> P t -> P e -> P (ECond c t e).
  Hypothesis H_do : forall stmts ret, Forall Pcm stmts -> Pcm ret -> P (EDo stmts ret).
  Hypothesis H_assign : forall x v, P v -> P (EAssign x v).
  Hypothesis H_output : forall e, P e -> P (EOutput e).
  Hypothesis H_call : forall f args, P f -> Forall P args -> P (ECall f args).
  Hypothesis H_access : forall e i, P e -> P i -> P (EAccess e i).
  Hypothesis H_dot : forall e f, P e -> P (EDot e f).
  Hypothesis H_bin : forall o l r, P l -> P r -> P (EBin o l r).
  Hypothesis H_un : forall u e, P e -> P (EUn u e).
  Hypothesis H_fact : forall e, P e -> P (EFact e).
  Hypothesis H_spread : forall e, P e -> P (ESpread e).

  Lemma expr_ind' : forall e, P e.
  Proof.
    assert (cm : forall l, Forall (fun c => P (cnode c)) l -> Forall Pcm l).
    { intros l H. eapply Forall_impl; [|exact H]. intros [ld n tr] Hn. exact Hn. }
    apply ExprInd.expr_ind'; try assumption.
    - intros items H. apply H_list, cm, H.
    - intros entries H. apply H_rec. eapply Forall_impl; [|exact H]. intros [ld [k v] tr] Hc. exact Hc.
    - intros stmts [ld r tr] Hs Hr. apply H_do; [apply cm, Hs | exact Hr].
  Qed.
End ExprInd.

(* ------------------------------------------------------------------ trees the parser can produce *)
(* pairs_to_expr (comments dropped) never produces: Output (a statement form), UnaryOp::Invert (no
   token maps to it), an Identifier whose name from_ident recognises (it becomes BuiltIn), a
   comment annotation, a shorthand / spread record entry with a value other than the dummy Null. *)
Definition plain_cm {A} (c : commented A) : bool :=
  match c with Cm [] _ None => true | _ => false end.
Definition is_null (e : expr) : bool := match e with ENull => true | _ => false end.

Fixpoint wf (t : expr) : bool :=
  match t with
  | ENum _ | EStr _ | EBool _ | ENull | EInRef _ | EBuiltin _ => true
  | EId x => match builtin_of_name x with None => true | Some _ => false end
  | EList items =>
      (fix go (l : list (commented expr)) : bool :=
         match l with [] => true | c :: l' => plain_cm c && (match c with Cm _ e _ => wf e end) && go l' end) items
  | ERec entries =>
      (fix go (l : list (commented rentry)) : bool :=
         match l with
         | [] => true
         | c :: l' =>
             plain_cm c &&
             (match c with
              | Cm _ (REntry k v) _ =>
                  match k with
                  | KStatic _ => wf v
                  | KDyn e => wf e && wf v
                  | KShort _ => is_null v
                  | KSpread e => wf e && is_null v
                  end
              end) && go l'
         end) entries
  | ELam _ body => wf body
  | ECond c t1 e => wf c && wf t1 && wf e
  | EDo stmts ret =>
      (fix go (l : list (commented expr)) : bool :=
         match l with [] => true | c :: l' => plain_cm c && (match c with Cm _ e _ => wf e end) && go l' end) stmts
      && plain_cm ret && (match ret with Cm _ e _ => wf e end)
  | EAssign _ v => wf v
  | EOutput _ => false
  | ECall f args =>
      wf f && (fix go (l : list expr) : bool := match l with [] => true | a :: l' => wf a && go l' end) args
  | EAccess e i => wf e && wf i
  | EDot e _ => wf e
  | EBin _ l r => wf l && wf r
  | EUn u e => (match u with Invert => false | _ => true end) && wf e
  | EFact e => wf e
  | ESpread e => wf e
  end.

(* the list parts of wf, by name: wf (EList l) = wf_cms l, wf (ERec l) = wf_ents l,
   wf (EDo l r) = wf_cms l && ..., wf (ECall f l) = wf f && wf_args l, all by computation *)
Definition wf_cms (l : list (commented expr)) : bool :=
  (fix go (l : list (commented expr)) : bool :=
     match l with [] => true | c :: l' => plain_cm c && (match c with Cm _ e _ => wf e end) && go l' end) l.
Definition wf_ents (l : list (commented rentry)) : bool :=
  (fix go (l : list (commented rentry)) : bool :=
     match l with
     | [] => true
     | c :: l' =>
         plain_cm c &&
         (match c with
          | Cm _ (REntry k v) _ =>
              match k with
              | KStatic _ => wf v
              | KDyn e => wf e && wf v
              | KShort _ => is_null v
              | KSpread e => wf e && is_null v
              end
          end) && go l'
     end) l.
Definition wf_args (l : list expr) : bool :=
  (fix go (l : list expr) : bool := match l with [] => true | a :: l' => wf a && go l' end) l.

Lemma plain_cm_inv {A} (c : commented A) : plain_cm c = true -> exists n, c = Cm [] n None.
Proof. destruct c as [[|] n [|]]; simpl; try discriminate. eauto. Qed.
Lemma is_null_inv : forall v, is_null v = true -> v = ENull.
Proof. destruct v; simpl; congruence. Qed.

(* one step over the elements of a well-formed list / record, where X is what is being proved of
   well-formed trees: the first element carries no comment, X holds of its sub-trees *)
Lemma wf_cms_inv (X : expr -> Prop) c l :
  Forall (Pcm (fun e => wf e = true -> X e)) (c :: l) -> wf_cms (c :: l) = true ->
  exists e, c = uncommented e /\ wf e = true /\ X e /\
            Forall (Pcm (fun e => wf e = true -> X e)) l /\ wf_cms l = true.
Proof.
  intros HF H. change (plain_cm c && (match c with Cm _ e _ => wf e end) && wf_cms l = true) in H.
  apply andb_prop in H. destruct H as [H Hl]. apply andb_prop in H. destruct H as [Hp Hw].
  destruct (plain_cm_inv c Hp) as [e ->]. inversion HF as [|? ? Hc HF']; subst.
  exists e. repeat split; [exact Hw | exact (Hc Hw) | exact HF' | exact Hl].
Qed.
Lemma wf_ents_inv (X : expr -> Prop) c l :
  Forall (Pentry (fun e => wf e = true -> X e)) (c :: l) -> wf_ents (c :: l) = true ->
  exists k v, c = uncommented (REntry k v) /\
    match k with
    | KStatic _ => X v
    | KDyn e => X e /\ X v
    | KShort _ => v = ENull
    | KSpread e => X e /\ v = ENull
    end /\
    Forall (Pentry (fun e => wf e = true -> X e)) l /\ wf_ents l = true.
Proof.
  intros HF H. apply andb_prop in H. destruct H as [H Hl]. apply andb_prop in H. destruct H as [Hp Hw].
  destruct (plain_cm_inv c Hp) as [[k v] ->]. inversion HF as [|? ? Hc HF']; subst. destruct Hc as [Hk Hv].
  exists k, v. repeat split; [|exact HF' | exact Hl].
  destruct k as [s|e|s|e]; cbn [Pkey] in Hk.
  - exact (Hv Hw).
  - apply andb_prop in Hw. destruct Hw as [He Hv']. split; [exact (Hk He) | exact (Hv Hv')].
  - exact (is_null_inv v Hw).
  - apply andb_prop in Hw. destruct Hw as [He Hv']. split; [exact (Hk He) | exact (is_null_inv v Hv')].
Qed.

Lemma wf_EDo_inv : forall stmts ret, wf (EDo stmts ret) = true ->
  exists r, ret = uncommented r /\ wf_cms stmts = true /\ wf r = true.
Proof.
  intros stmts [rl r rt] H. cbn [wf] in H.
  apply andb_prop in H. destruct H as [H Hr]. apply andb_prop in H. destruct H as [Hs Hpl].
  destruct (plain_cm_inv _ Hpl) as [r' Er]. inversion Er; subst. exists r'. repeat split; assumption.
Qed.

(* ------------------------------------------------------------------ the levels *)
Lemma INF_big : forall Ppre Pfact Ppost,
  Ppre <= INF Ppre Pfact Ppost /\ Pfact <= INF Ppre Pfact Ppost /\ Ppost <= INF Ppre Pfact Ppost.
Proof. intros. unfold INF. lia. Qed.

Section Levels.
  Variable bprec : binop -> nat.
  Variables Ppre Pfact Ppost : nat.
  Hypothesis prec_pos : forall o, 0 < bprec o.
  Hypothesis prec_lt_pre : forall o, bprec o < Ppre.
  Hypothesis pre_lt_fact : Ppre < Pfact.
  Hypothesis pre_lt_post : Ppre < Ppost.

  Lemma lvl_pos : forall t, 0 < lvl bprec Ppre Pfact Ppost t.
  Proof. pose proof (prec_lt_pre Add).   (* hence 0 < Ppre *)
    destruct t; cbn; unfold INF; try lia. apply prec_pos. Qed.
End Levels.

(* ------------------------------------------------------------------ the generic round trip *)
Section RoundTrip.
  Variable tbl : ops_map.
  Variable imap : list (oprule * binop).
  Variable pmap : list (oprule * prefix_ctor).
  Variable bprec : binop -> nat.
  Variable rassoc : binop -> bool.
  Variables Ppre Pfact Ppost : nat.
  Variable par : list nat -> nat.
  Variable wn : list nat -> bool.

  Hypothesis H_infix : forall o,
    ops_get tbl (binop_rule o) = Some (Infix (if rassoc o then ARight else ALeft), bprec o).
  Hypothesis H_imap : forall o, assoc_find (binop_rule o) imap = Some o.
  Hypothesis H_neg : ops_get tbl R_negation = Some (Prefix, Ppre).
  Hypothesis H_inv : ops_get tbl R_invert = Some (Prefix, Ppre).
  Hypothesis H_not : ops_get tbl R_natural_not = Some (Prefix, Ppre).
  Hypothesis H_spr : ops_get tbl R_spread_operator = Some (Prefix, Ppre).
  Hypothesis H_pneg : assoc_find R_negation pmap = Some (PUn Negate).
  Hypothesis H_pinv : assoc_find R_invert pmap = Some (PUn Not).
  Hypothesis H_pnot : assoc_find R_natural_not pmap = Some (PUn Not).
  Hypothesis H_pspr : assoc_find R_spread_operator pmap = Some PSpread.
  Hypothesis H_fact : ops_get tbl R_factorial = Some (Postfix, Pfact).
  Hypothesis H_acc : ops_get tbl R_access = Some (Postfix, Ppost).
  Hypothesis H_dot : ops_get tbl R_dot_access = Some (Postfix, Ppost).
  Hypothesis H_call : ops_get tbl R_call_list = Some (Postfix, Ppost).
  Hypothesis prec_pos : forall o, 0 < bprec o.
  Hypothesis prec_lt_pre : forall o, bprec o < Ppre.
  Hypothesis pre_lt_fact : Ppre < Pfact.
  Hypothesis pre_lt_post : Ppre < Ppost.
  (* all operators of one level share their associativity, as in pest's grouped table *)
  Hypothesis level_assoc : forall o1 o2, bprec o1 = bprec o2 -> rassoc o1 = rassoc o2.
  Hypothesis H_builtins : forall b, builtin_of_name (builtin_name b) = Some b.

  Notation lvl := (lvl bprec Ppre Pfact Ppost).
  Notation INF := (INF Ppre Pfact Ppost).
  Notation needL := (needL bprec rassoc).
  Notation needR := (needR bprec rassoc).
  Notation needPost := (needPost Ppre).
  Notation wrapi := (wrapi bprec Ppre Pfact Ppost par).
  Notation pr := (pr bprec rassoc Ppre Pfact Ppost par wn).
  Notation ExprR := (Expr tbl imap pmap).
  Notation LoopR := (Loop tbl imap pmap).
  Notation ItemsR := (Items tbl imap pmap).

  Definition rbp_of (o : binop) : nat := if rassoc o then bprec o - 1 else bprec o.

  (* does the operand at path q stand in parentheses? *)
  Definition layers (m : nat) (q : list nat) (c : expr) : nat :=
    (if m <=? lvl c then 0 else 1) + (if is_spread c then 0 else par q).

  (* how loosely the right edge of the unparenthesised rendering of t is open: an operator that
     follows binds to the whole of t only if its binding power is at most rmin *)
  Fixpoint rmin (p : list nat) (t : expr) : nat :=
    match t with
    | EBin o _ r =>
        match layers (needR o) (1 :: p) r with
        | O => Nat.min (rbp_of o) (rmin (1 :: p) r)
        | S _ => rbp_of o
        end
    | EUn _ x =>
        match layers Ppre (0 :: p) x with
        | O => Nat.min (Ppre - 1) (rmin (0 :: p) x)
        | S _ => Ppre - 1
        end
    | ESpread _ => Ppre - 1
    | _ => INF
    end.

  Definition follows (k : nat) (rest : list item) : Prop :=
    exists b, lbp tbl rest = Ok b /\ b <= k.

  Lemma lvl_le_INF : forall t, lvl t <= INF.
  Proof.
    destruct t; cbn; unfold PrattRender.INF; try lia.
    pose proof (prec_lt_pre op). lia.
  Qed.

  (* the round trip for one tree, in the terms of this file: the unparenthesised rendering of c, followed
     by anything that may follow it (rmin), is read as c and the loop goes on *)
  Definition RT (c : expr) : Prop :=
    forall p rbp rest u rest',
      rbp < lvl c -> rbp < Ppre -> follows (rmin p c) rest ->
      LoopR rbp c rest u rest' -> ExprR rbp (pr p c ++ rest) u rest'.

  Lemma lbp_nil : lbp tbl [] = Ok 0.
  Proof. reflexivity. Qed.

  Lemma layers_0_le : forall m q c, layers m q c = 0 -> m <= lvl c.
  Proof.
    intros m q c E. unfold layers in E. destruct (Nat.leb_spec m (lvl c)); [assumption|discriminate].
  Qed.

  (* an operand position *)
  Lemma operand : forall c q m rbp rest u rest',
    RT c ->
    (layers m q c = 0 -> rbp < lvl c /\ rbp < Ppre /\ follows (rmin q c) rest) ->
    LoopR rbp c rest u rest' ->
    ExprR rbp (wrapi m q c (pr q c) ++ rest) u rest'.
  Proof using prec_pos prec_lt_pre pre_lt_fact pre_lt_post.
    intros c q m rbp rest u rest' H Hun HL.
    unfold PrattRender.wrapi. fold (layers m q c).
    destruct (layers m q c) as [|n] eqn:E.
    - cbn [parens]. destruct (Hun eq_refl) as (H1 & H2 & H3). apply H; assumption.
    - cbn [parens app]. eapply E_primary; [reflexivity | apply P_expr, items_parens | exact HL].
      eapply I_intro with (rest := []). rewrite <- (app_nil_r (pr q c)).
      pose proof (prec_lt_pre Add).   (* hence 0 < Ppre *)
      apply H; [apply lvl_pos; assumption | lia | apply lbp_le_nil | apply loop_stops, lbp_le_nil].
  Qed.

  (* pr renders its tree (RendK, with the levels of this section and INF as the largest one) and rmin bounds
     the openness from below: the induction only names the table entry and the operand levels at each node *)
  Notation RendK := (RendK tbl imap pmap bprec rassoc Ppre INF).
  Definition PrRend (c : expr) : Prop := forall p, exists k, RendK (lvl c) (pr p c) c k /\ rmin p c <= k.
  (* what the induction over well-formed trees proves *)
  Definition WfPrRend (e : expr) : Prop := wf e = true -> PrRend e.

  Lemma operandK : forall c q m, PrRend c ->
    exists k, RendK m (wrapi m q c (pr q c)) c k /\
              match layers m q c with O => rmin q c | S _ => INF end <= k.
  Proof.
    intros c q m H. destruct (H q) as (k & HK & Hk). unfold PrattRender.wrapi. fold (layers m q c).
    eexists. split.
    - eapply RendK_parens; try eassumption; [apply INF_big | apply lvl_pos; assumption | apply layers_0_le].
    - destruct (layers m q c); [exact Hk | apply le_n].
  Qed.

  Lemma items_wrapi : forall c q m, PrRend c -> ItemsR (wrapi m q c (pr q c)) c.
  Proof.
    intros c q m H. destruct (H q) as (k & HK & _). unfold PrattRender.wrapi. apply items_parens.
    refine (rendK_parses _ _ _ _ _ _ INF prec_pos prec_lt_pre (proj1 (INF_big _ _ _)) level_assoc _ _ _ _ _ HK).
    apply lvl_pos; assumption.
  Qed.

  (* the element loops *)
  Lemma list_els : forall items i p,
    Forall (Pcm WfPrRend) items ->
    wf_cms items = true ->
    LEls tbl imap pmap
      ((fix go (i : nat) (l : list (commented expr)) : list lelem :=
          match l with
          | [] => []
          | Cm _ e _ :: l' => LItem (wrapi 0 (i :: p) e (pr (i :: p) e)) None :: go (S i) l'
          end) i items) items.
  Proof.
    induction items as [|c items IH]; intros i p HF Hwf.
    - constructor.
    - destruct (wf_cms_inv PrRend _ _ HF Hwf) as (e & -> & _ & He & HF' & Hrest).
      apply LE_item; [apply items_wrapi; exact He | apply IH; assumption].
  Qed.

  Lemma args_els : forall args i p,
    Forall WfPrRend args ->
    wf_args args = true ->
    Args tbl imap pmap
      ((fix go (i : nat) (l : list expr) : list (list item) :=
          match l with
          | [] => []
          | a :: l' => wrapi 0 (i :: p) a (pr (i :: p) a) :: go (S i) l'
          end) i args) args.
  Proof.
    induction args as [|a args IH]; intros i p HF Hwf.
    - constructor.
    - apply andb_prop in Hwf. destruct Hwf as [Hw Hrest]. inversion HF as [|? ? Hc HF']; subst.
      apply A_cons; [apply items_wrapi; exact (Hc Hw) | apply IH; assumption].
  Qed.

  Lemma rec_els : forall entries i p,
    Forall (Pentry WfPrRend) entries ->
    wf_ents entries = true ->
    REls tbl imap pmap
      ((fix go (i : nat) (l : list (commented rentry)) : list relem :=
          match l with
          | [] => []
          | Cm _ (REntry k v) _ :: l' =>
              match k with
              | KStatic s => RPairI (RKStr s) (wrapi 0 (2 * i + 1 :: p) v (pr (2 * i + 1 :: p) v)) None
              | KDyn e =>
                  RPairI (RKDyn [IExpr false (wrapi 0 (2 * i :: p) e (pr (2 * i :: p) e))])
                         (wrapi 0 (2 * i + 1 :: p) v (pr (2 * i + 1 :: p) v)) None
              | KShort s => RShortI s None
              | KSpread e => RSpreadI (wrapi 0 (2 * i :: p) e (pr (2 * i :: p) e)) None
              end :: go (S i) l'
          end) i entries) entries.
  Proof.
    induction entries as [|c entries IH]; intros i p HF Hwf.
    - constructor.
    - destruct (wf_ents_inv PrRend _ _ HF Hwf) as (k & v & -> & Hk & HF' & Hrest).
      specialize (IH (S i) p HF' Hrest).
      destruct k as [s|e|s|e].
      + apply RE_pair_str; [apply items_wrapi; exact Hk | exact IH].
      + destruct Hk as [He Hv].
        apply RE_pair_dyn; [apply items_bare, items_wrapi; exact He | apply items_wrapi; exact Hv | exact IH].
      + subst v. apply RE_short. exact IH.
      + destruct Hk as [He ->]. apply RE_spread; [apply items_wrapi; exact He | exact IH].
  Qed.

  Lemma do_els : forall stmts i p acc ret0 ret,
    Forall (Pcm WfPrRend) stmts ->
    wf_cms stmts = true ->
    PrRend ret ->
    DEls tbl imap pmap
      ((fix go (i : nat) (l : list (commented expr)) : list delem :=
          match l with
          | [] => [DRet (wrapi 0 (i :: p) ret (pr (i :: p) ret))]
          | Cm _ e _ :: l' => DStmt (wrapi 0 (i :: p) e (pr (i :: p) e)) None :: go (S i) l'
          end) i stmts) acc ret0 (EDo (acc ++ stmts) (uncommented ret)).
  Proof.
    induction stmts as [|c stmts IH]; intros i p acc ret0 ret HF Hwf Hret.
    - rewrite app_nil_r. eapply DE_ret; [apply items_wrapi; exact Hret | apply DE_nil].
    - destruct (wf_cms_inv PrRend _ _ HF Hwf) as (e & -> & _ & He & HF' & Hrest).
      eapply DE_stmt; [apply items_wrapi; exact He|].
      replace (acc ++ uncommented e :: stmts) with ((acc ++ [uncommented e]) ++ stmts)
        by (rewrite <- app_assoc; reflexivity).
      apply IH; assumption.
  Qed.

  Theorem pr_renders : forall t, WfPrRend t.
  Proof.
    induction t as [x|s|b| |x|x|b|items HF|entries HF|args body IHb|c t1 e IHc IHt IHe|stmts ret HF Hret
                   |x v IHv|e IHe|f args IHf HF|e i IHe IHi|e f IHe|o l r IHl IHr|uo e IHe|e IHe|e IHe]
      using expr_ind';
      intros Hwf p; cbn [PrattRender.pr rmin].
    - eexists. split; [apply Rk_prim; [reflexivity | constructor] | apply le_n].
    - eexists. split; [apply Rk_prim; [reflexivity | constructor] | apply le_n].
    - eexists. split; [apply Rk_prim; [reflexivity | constructor] | apply le_n].
    - eexists. split; [apply Rk_prim; [reflexivity | constructor] | apply le_n].
    - (* EId *)
      cbn [wf] in Hwf. destruct (builtin_of_name x) eqn:E; [discriminate|].
      eexists. split; [apply Rk_prim; [reflexivity | apply P_ident; exact E] | apply le_n].
    - eexists. split; [apply Rk_prim; [reflexivity | constructor] | apply le_n].
    - (* EBuiltin *)
      eexists. split; [apply Rk_prim; [reflexivity | apply P_builtin; apply H_builtins] | apply le_n].
    - (* EList *)
      eexists. split; [apply Rk_prim; [reflexivity | apply P_list; apply list_els; [exact HF | exact Hwf]] | apply le_n].
    - (* ERec *)
      eexists. split; [apply Rk_prim; [reflexivity | apply P_rec; apply rec_els; [exact HF | exact Hwf]] | apply le_n].
    - (* ELam *)
      eexists. split; [apply Rk_prim; [reflexivity | apply P_lam; apply items_wrapi; exact (IHb Hwf)] | apply le_n].
    - (* ECond *)
      cbn [wf] in Hwf. apply andb_prop in Hwf. destruct Hwf as [Hwf H3]. apply andb_prop in Hwf. destruct Hwf as [H1 H2].
      eexists. split; [apply Rk_prim; [reflexivity | apply P_cond; apply items_wrapi; auto] | apply le_n].
    - (* EDo *)
      destruct (wf_EDo_inv _ _ Hwf) as (r & -> & Hs & Hr).
      eexists. split; [apply Rk_prim; [reflexivity|] | apply le_n].
      apply P_do. change stmts with ([] ++ stmts) at 2. apply do_els; [exact HF | exact Hs | exact (Hret Hr)].
    - (* EAssign *)
      eexists. split; [apply Rk_prim; [reflexivity | apply P_assign; apply items_wrapi; exact (IHv Hwf)] | apply le_n].
    - (* EOutput *) discriminate.
    - (* ECall *)
      cbn [wf] in Hwf. apply andb_prop in Hwf. destruct Hwf as [Hwf1 Hwf2].
      destruct (operandK f (0 :: p) needPost (IHf Hwf1)) as (k & HK & _). eexists. split; [|apply le_n].
      eapply Rk_post; [reflexivity | exact H_call | exact pre_lt_post | apply INF_big | apply le_n | | exact HK].
      apply Po_call. apply args_els; assumption.
    - (* EAccess *)
      cbn [wf] in Hwf. apply andb_prop in Hwf. destruct Hwf as [Hwf1 Hwf2].
      destruct (operandK e (0 :: p) needPost (IHe Hwf1)) as (k & HK & _). eexists. split; [|apply le_n].
      eapply Rk_post; [reflexivity | exact H_acc | exact pre_lt_post | apply INF_big | apply le_n | | exact HK].
      apply Po_access. apply items_bare, items_wrapi. exact (IHi Hwf2).
    - (* EDot *)
      cbn [wf] in Hwf. destruct (operandK e (0 :: p) needPost (IHe Hwf)) as (k & HK & _). eexists. split; [|apply le_n].
      eapply Rk_post; [reflexivity | exact H_dot | exact pre_lt_post | apply INF_big | apply le_n | apply Po_dot | exact HK].
    - (* EBin *)
      cbn [wf] in Hwf. apply andb_prop in Hwf. destruct Hwf as [Hwl Hwr].
      destruct (operandK l (0 :: p) (needL o) (IHl Hwl)) as (kl & HL & _).
      destruct (operandK r (1 :: p) (needR o) (IHr Hwr)) as (kr & HR & Hkr). eexists. split.
      + eapply Rk_bin; [reflexivity | apply H_imap | apply H_infix | apply le_n | exact HL | exact HR].
      + pose proof (prec_lt_pre o). pose proof (INF_big Ppre Pfact Ppost). unfold rbp_o, rbp_of in *.
        destruct (layers (needR o) (1 :: p) r); destruct (rassoc o); lia.
    - (* EUn *)
      cbn [wf] in Hwf. apply andb_prop in Hwf. destruct Hwf as [Hu Hwe].
      assert (Hops : ops_get tbl (unop_rule wn uo p) = Some (Prefix, Ppre)).
      { destruct uo; cbn [unop_rule]; [exact H_neg | destruct (wn p); [exact H_not | exact H_inv] | discriminate]. }
      assert (Hmap : map_prefix pmap (unop_rule wn uo p) (Some e) = Ok (Some (EUn uo e))).
      { unfold map_prefix. destruct uo; cbn [unop_rule];
          [rewrite H_pneg; reflexivity | destruct (wn p); [rewrite H_pnot | rewrite H_pinv]; reflexivity | discriminate]. }
      destruct (operandK e (0 :: p) Ppre (IHe Hwe)) as (k & HK & Hk). eexists. split.
      + eapply Rk_pre; [reflexivity | exact Hops | exact Hmap | exact I | apply le_n | exact HK].
      + pose proof (INF_big Ppre Pfact Ppost). destruct (layers Ppre (0 :: p) e); lia.
    - (* EFact *)
      cbn [wf] in Hwf. destruct (operandK e (0 :: p) needPost (IHe Hwf)) as (k & HK & _). eexists. split; [|apply le_n].
      eapply Rk_post; [reflexivity | exact H_fact | exact pre_lt_fact | apply INF_big | apply le_n | apply Po_fact | exact HK].
    - (* ESpread *)
      cbn [wf] in Hwf. eexists. split.
      + eapply Rk_pre; [reflexivity | exact H_spr | unfold map_prefix; rewrite H_pspr; reflexivity | exact I | apply le_n |].
        apply Rk_prim; [reflexivity | apply P_expr; apply items_wrapi; exact (IHe Hwf)].
      + pose proof (INF_big Ppre Pfact Ppost). lia.
  Qed.

  (* the same with the openness written as the function rmin of the tree *)
  Theorem roundtrip_all : forall t, wf t = true -> RT t.
  Proof.
    intros t Hwf p rbp rest u rest' H1 H2 (b & Hb & Hle) HL. destruct (pr_renders t Hwf p) as (k & HK & Hk).
    refine (forward_gen _ _ _ _ _ _ INF prec_pos prec_lt_pre (proj1 (INF_big _ _ _)) level_assoc _ _ _ _ HK
                        _ _ _ _ H1 H2 _ HL).
    exists b. split; [exact Hb | lia].
  Qed.

  (* every rendering of a well-formed tree converts back to the tree *)
  Theorem roundtrip_items : forall t, wf t = true ->
    ItemsR (render bprec rassoc Ppre Pfact Ppost par wn t) t.
  Proof. intros t H. unfold render. apply items_wrapi. apply pr_renders. exact H. Qed.

  Theorem roundtrip_fun : forall t, wf t = true ->
    exists n, forall m, n <= m ->
      parse_items tbl imap pmap m (render bprec rassoc Ppre Pfact Ppost par wn t) = Ok (Some t).
  Proof. intros t H. apply items_sound. apply roundtrip_items. exact H. Qed.
End RoundTrip.

(* ------------------------------------------------------------------ the generated table *)

Lemma impl_infix : forall o,
  ops_get impl_table (binop_rule o) = Some (Infix (if spec_rassoc o then ARight else ALeft), spec_bprec o).
Proof. destruct o; vm_compute; reflexivity. Qed.

(* the parser of the crate: impl_table (built from the generated rows) with the generated arms *)
Definition parse_impl (fuel : nat) (its : list item) : outcome tres :=
  parse_items impl_table infix_map prefix_map fuel its.

Theorem pratt_spec_items : forall par wn t, wf t = true ->
  Items impl_table infix_map prefix_map (spec_render par wn t) t.
Proof.
  intros par wn t H. unfold spec_render.
  apply roundtrip_items; try exact H; try (vm_compute; reflexivity).
  - exact impl_infix.
  - exact infix_map_binop_rule.
  - exact spec_prec_pos.
  - exact spec_prec_lt_pre.
  - exact spec_pre_lt_fact.
  - exact spec_pre_lt_post.
  - exact spec_level_assoc.
  - exact builtin_names_roundtrip.
Qed.

Theorem pratt_spec_roundtrip_all : forall par wn t, wf t = true ->
  exists n, forall m, n <= m -> parse_impl m (spec_render par wn t) = Ok (Some t).
Proof. intros par wn t H. unfold parse_impl. apply items_sound. apply pratt_spec_items. exact H. Qed.

(* with the concrete fuel of `pratt` (4 * token count + 4): no "large enough" *)
Theorem pratt_spec_roundtrip_ample : forall par wn t, wf t = true ->
  pratt_impl (spec_render par wn t) = Ok (Some t).
Proof.
  intros par wn t H. unfold pratt_impl, pratt.
  apply (items_bound impl_table infix_map prefix_map _ t (pratt_spec_items par wn t H)). lia.
Qed.

(* the minimally and the fully parenthesised rendering under spec_table both recover t; hence they
   parse identically *)
Theorem pratt_spec_roundtrip : forall t, wf t = true ->
  exists n, forall m, n <= m ->
    parse_impl m (flat_min t) = Ok (Some t) /\ parse_impl m (flat_full t) = Ok (Some t).
Proof.
  intros t H.
  destruct (pratt_spec_roundtrip_all (fun _ => 0) (fun _ => false) t H) as [n1 H1].
  destruct (pratt_spec_roundtrip_all (fun _ => 1) (fun _ => false) t H) as [n2 H2].
  exists (n1 + n2). intros m Hm. split; [apply H1 | apply H2]; lia.
Qed.

(* redundant parentheses and the spelling of `not` never matter *)
Corollary renderings_parse_identically : forall par1 wn1 par2 wn2 t, wf t = true ->
  exists n, forall m, n <= m ->
    parse_impl m (spec_render par1 wn1 t) = parse_impl m (spec_render par2 wn2 t).
Proof.
  intros par1 wn1 par2 wn2 t H.
  destruct (pratt_spec_roundtrip_all par1 wn1 t H) as [n1 H1].
  destruct (pratt_spec_roundtrip_all par2 wn2 t H) as [n2 H2].
  exists (n1 + n2). intros m Hm. rewrite H1, H2 by lia. reflexivity.
Qed.

Corollary min_full_parse_identically : forall t, wf t = true ->
  exists n, forall m, n <= m -> parse_impl m (flat_min t) = parse_impl m (flat_full t).
Proof. intros t. exact (renderings_parse_identically (fun _ => 0) (fun _ => false) (fun _ => 1) (fun _ => false) t). Qed.

(* the specification table is unambiguous: no token stream is a rendering of two different trees *)
Corollary renderings_unambiguous : forall par1 wn1 par2 wn2 t1 t2,
  wf t1 = true -> wf t2 = true ->
  spec_render par1 wn1 t1 = spec_render par2 wn2 t2 -> t1 = t2.
Proof.
  intros par1 wn1 par2 wn2 t1 t2 H1 H2 E.
  pose proof (pratt_spec_roundtrip_ample par1 wn1 t1 H1) as A.
  pose proof (pratt_spec_roundtrip_ample par2 wn2 t2 H2) as B.
  rewrite E in A. rewrite A in B. congruence.
Qed.

(* ------------------------------------------------------------------ the parser only builds wf trees *)
Section OutputsWf.
  Variable tbl : ops_map.
  Variable imap : list (oprule * binop).
  Variable pmap : list (oprule * prefix_ctor).
  (* no map_prefix arm builds UnaryOp::Invert (checked on the generated arms at instantiation) *)
  Hypothesis no_invert : forall r, assoc_find r pmap <> Some (PUn Invert).

  Lemma wf_cms_app : forall a b, wf_cms (a ++ b) = wf_cms a && wf_cms b.
  Proof.
    induction a as [|c a IH]; intro b; [reflexivity|].
    change (wf_cms ((c :: a) ++ b)) with (plain_cm c && (match c with Cm _ e _ => wf e end) && wf_cms (a ++ b)).
    change (wf_cms (c :: a)) with (plain_cm c && (match c with Cm _ e _ => wf e end) && wf_cms a).
    rewrite IH. rewrite !andb_assoc. reflexivity.
  Qed.

  Theorem outputs_wf :
    (forall rbp its t rest, Expr tbl imap pmap rbp its t rest -> wf t = true) /\
    (forall rbp lhs its t rest, Loop tbl imap pmap rbp lhs its t rest -> wf lhs = true -> wf t = true) /\
    (forall lhs i u, Post tbl imap pmap lhs i u -> wf lhs = true -> wf u = true) /\
    (forall i x, Prim tbl imap pmap i x -> wf x = true) /\
    (forall its t, Items tbl imap pmap its t -> wf t = true) /\
    (forall args es, Args tbl imap pmap args es -> wf_args es = true) /\
    (forall els es, LEls tbl imap pmap els es -> wf_cms es = true) /\
    (forall els es, REls tbl imap pmap els es -> wf_ents es = true) /\
    (forall els stmts ret t, DEls tbl imap pmap els stmts ret t ->
        wf_cms stmts = true -> plain_cm ret = true -> (match ret with Cm _ e _ => wf e end) = true ->
        wf t = true).
  Proof.
    apply parse_rel_mutind.
    - (* E_prefix *)
      intros rbp i r p its x mid u t rest _ _ _ Hx Hpre _ IH. apply IH.
      unfold map_prefix in Hpre. destruct (assoc_find r pmap) as [[uo|]|] eqn:E; inversion Hpre; subst.
      + cbn [wf]. rewrite Hx. destruct uo; try reflexivity. exfalso. exact (no_invert r E).
      + exact Hx.
    - (* E_primary *) intros rbp i its x t rest _ _ Hx _ IH. exact (IH Hx).
    - (* L_stop *) intros. assumption.
    - (* L_infix *)
      intros rbp lhs i r a p its rhs mid u t rest _ _ _ _ Hr Hin _ IH Hl. apply IH.
      unfold map_infix in Hin. destruct (assoc_find r imap); inversion Hin; subst.
      cbn [wf]. rewrite Hl, Hr. reflexivity.
    - (* L_postfix *) intros rbp lhs i r p its u t rest _ _ _ _ IH1 _ IH2 Hl. exact (IH2 (IH1 Hl)).
    - intros lhs Hl. exact Hl.
    - intros lhs inner i _ Hi Hl. cbn [wf]. rewrite Hl, Hi. reflexivity.
    - intros lhs f Hl. exact Hl.
    - intros lhs args es _ Ha Hl. cbn [wf]. rewrite Hl. exact Ha.
    - reflexivity.
    - reflexivity.
    - reflexivity.
    - reflexivity.
    - reflexivity.
    - intros s H. cbn [wf]. rewrite H. reflexivity.
    - reflexivity.
    - intros b g t _ H. exact H.
    - intros els es _ H. exact H.
    - intros els es _ H. exact H.
    - intros args body b _ H. exact H.
    - intros c t e c' t' e' _ H1 _ H2 _ H3. cbn [wf]. rewrite H1, H2, H3. reflexivity.
    - intros els t _ H. apply H; reflexivity.
    - intros x v v' _ H. exact H.
    - intros its t rest _ H. exact H.
    - reflexivity.
    - intros g e gs es _ H1 _ H2. change (wf_args (e :: es)) with (wf e && wf_args es). rewrite H1, H2. reflexivity.
    - reflexivity.
    - intros s els es _ H. exact H.
    - intros g eol e els es _ H1 _ H2.
      change (wf_cms (uncommented e :: es)) with (true && wf e && wf_cms es). rewrite H1, H2. reflexivity.
    - reflexivity.
    - intros s els es _ H. exact H.
    - intros s v eol v' els es _ H1 _ H2.
      change (wf_ents (uncommented (REntry (KStatic s) v') :: es)) with (true && wf v' && wf_ents es).
      rewrite H1, H2. reflexivity.
    - intros s v eol v' els es _ H1 _ H2.
      change (wf_ents (uncommented (REntry (KStatic s) v') :: es)) with (true && wf v' && wf_ents es).
      rewrite H1, H2. reflexivity.
    - intros inner k v eol v' els es _ H0 _ H1 _ H2.
      change (wf_ents (uncommented (REntry (KDyn k) v') :: es)) with (true && (wf k && wf v') && wf_ents es).
      rewrite H0, H1, H2. reflexivity.
    - intros s eol els es _ H.
      change (wf_ents (uncommented (REntry (KShort s) ENull) :: es)) with (true && true && wf_ents es).
      rewrite H. reflexivity.
    - intros g eol e els es _ H1 _ H2.
      change (wf_ents (uncommented (REntry (KSpread e) ENull) :: es)) with (true && (wf e && true) && wf_ents es).
      rewrite H1, H2. reflexivity.
    - (* DE_nil *)
      intros stmts ret Hs Hp Hr. destruct ret as [rl r rt]. cbn [wf]. fold (wf_cms stmts).
      rewrite Hs, Hp, Hr. reflexivity.
    - (* DE_stmt *)
      intros g c e els stmts ret t _ He _ IH Hs Hp Hr. apply IH; try assumption.
      rewrite wf_cms_app, Hs. change (wf_cms [uncommented e]) with (true && wf e && true). rewrite He. reflexivity.
    - intros s c els stmts ret t _ IH Hs Hp Hr. apply IH; assumption.
    - intros s els stmts ret t _ IH Hs Hp Hr. apply IH; assumption.
    - intros g e els stmts ret t _ He _ IH Hs Hp Hr. apply IH; [exact Hs | reflexivity | exact He].
  Qed.
End OutputsWf.

Lemma impl_no_invert : forall r, assoc_find r prefix_map <> Some (PUn Invert).
Proof. destruct r; vm_compute; discriminate. Qed.

(* every tree the crate's parser builds is wf: the round-trip theorems cover all of its outputs *)
Theorem impl_outputs_wf : forall its t, Items impl_table infix_map prefix_map its t -> wf t = true.
Proof.
  intros its t H.
  exact (proj1 (proj2 (proj2 (proj2 (proj2 (outputs_wf impl_table infix_map prefix_map impl_no_invert))))) its t H).
Qed.

(* hence: whatever token stream produced t, the minimal and the fully parenthesised rendering of t
   under spec_table parse back to t *)
Corollary reparse_of_output : forall its t, Items impl_table infix_map prefix_map its t ->
  pratt_impl (flat_min t) = Ok (Some t) /\ pratt_impl (flat_full t) = Ok (Some t).
Proof.
  intros its t H. pose proof (impl_outputs_wf its t H) as W.
  split; apply pratt_spec_roundtrip_ample; exact W.
Qed.
