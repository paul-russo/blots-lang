(* EmitNqHOSim.v — C05: THE SIMULATION (EmitHOSim.v) for the relation of EmitNqHO.v, where NaN and strings
   with both quote kinds may be inlined.  Their literals are operator expressions, so one more
   hypothesis on the operator implementation is needed: [binop_lit_ok] (0/0 is NaN, string + string
   concatenates), from which the leaf condition EmitHOSim.leaves_eval follows. *)
From Coq Require Import String Ascii List ZArith Bool Lia.
Require Import Blots.Num Blots.gen.Builtins Blots.Ast Blots.Value Blots.Outcome Blots.Binop
               Blots.Env Blots.Eval Blots.Emit Blots.EmitNq Blots.proofs.EmitNqLit
               Blots.proofs.EmitHO Blots.proofs.EmitHOSim Blots.proofs.EmitNqHO.
Import ListNotations.
Open Scope list_scope.

(* EmitHOSim.cb_rel_on at the relation EmitNqHO.vrel (convertible), written out *)
Definition cb_rel (opok : binop -> bool) (biok : builtin -> bool) (nanfix : bool) (cb cb' : callback) : Prop :=
  forall this this' f f' args args' st st',
    vrel opok biok nanfix f f' -> lrel opok biok nanfix args args' ->
    orel opok biok nanfix (fst (cb this f args st)) (fst (cb' this' f' args' st')).

Lemma leaves_eval_nq nanfix release binop_impl : binop_lit_ok binop_impl ->
  leaves_eval nanfix (num_nq nanfix) str_any release binop_impl.
Proof.
  intros Hops. split; [intros x H; exact H|split].
  - intros apply x c H. apply num_roundtrip_nq; assumption.
  - intros apply s c _. apply lit_both_quote_evaluates. exact Hops.
Qed.

Section Top.
  Variable opok : binop -> bool.
  Variable biok : builtin -> bool.
  Variable nanfix : bool.
  Notation vrel := (vrel opok biok nanfix).
  Notation lrel := (lrel opok biok nanfix).
  Notation orel := (orel opok biok nanfix).
  Notation cb_rel := (cb_rel opok biok nanfix).

  Variable release : bool.
  Variable binop_impl : callback -> binop -> value -> value -> store -> outcome value * store.
  Variable builtin_impl : callback -> builtin -> list value -> store -> outcome value * store.
  Notation AD := (AD release binop_impl builtin_impl).

  (* EmitHOSim.impl_rel_on at the relation EmitNqHO.vrel (convertible), written out: statements of Properties/C05.v mention it *)
  Definition impl_rel_respecting : Prop :=
    (forall cb cb' op l l' r r' st st', opok op = true -> cb_rel cb cb' -> vrel l l' -> vrel r r' ->
       orel (fst (binop_impl cb op l r st)) (fst (binop_impl cb' op l' r' st'))) /\
    (forall cb cb' b args args' st st', biok b = true -> cb_rel cb cb' -> lrel args args' ->
       orel (fst (builtin_impl cb b args st)) (fst (builtin_impl cb' b args' st'))).
  Hypothesis Himpl : impl_rel_respecting.
  Hypothesis Hops : binop_lit_ok binop_impl.

  Theorem ho_simulation : forall d fr fr' this this' f f' args args' st st',
    vrel f f' -> lrel args args' ->
    orel (fst (AD d fr this f args st)) (fst (AD d fr' this' f' args' st')).
  Proof. exact (ho_simulation_via _ _ _ _ _ _ _ _ _ (vrel_G opok biok nanfix) (leaves_eval_nq _ _ _ Hops) Himpl). Qed.
End Top.
