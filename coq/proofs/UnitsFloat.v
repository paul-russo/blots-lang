(* UnitsFloat.v — binary64 error bound for the linear conversion kind (C17, float level), with Flocq:
   each SpecFloat multiplication / division of valid finite non-zero numbers whose exact result lies in
   the normal range is the exact result times (1 + e), |e| <= 2^-53 (Flocq's Bmult_correct_aux /
   Bdiv_correct_aux + relative_error_N_FLT_ex, bridged to Coq's SpecFloat.binary_round_aux by
   SpecFlocq.v); hence
   there-and-back between two linear units is the identity up to four such factors. *)
From Coq Require Import ZArith Reals Floats.SpecFloat Psatz Lra List.
From Flocq Require Import Core Relative BinarySingleNaN.
Require Import Blots.Num Blots.UnitsBase Blots.gen.UnitsTable Blots.Units.
Require Export Blots.proofs.SpecFlocq.
Open Scope R_scope.

Global Instance prec_gt_0_53 : Prec_gt_0 53. Proof. reflexivity. Qed.
Global Instance prec_lt_emax_53 : Prec_lt_emax 53 1024. Proof. reflexivity. Qed.

Definition Rv (x : num) : R := SF2R radix2 x.
(* a valid, finite, non-zero binary64 *)
Definition fin (x : num) : Prop :=
  match x with S754_finite s m e => SpecFloat.bounded 53 1024 m e = true | _ => False end.
Definition u53 : R := / 2 * bpow radix2 (-53 + 1).
Definition in_range (x : R) : Prop := bpow radix2 (-1022) <= Rabs x <= bpow radix2 1023.

Lemma fexp_eq : fexp 53 1024 = FLT_exp (-1074) 53.
Proof. reflexivity. Qed.

Lemma u53_lt1 : 0 <= u53 < 1.
Proof.
  unfold u53. pose proof (bpow_gt_0 radix2 (-53 + 1)).
  assert (bpow radix2 (-53 + 1) <= bpow radix2 0) by (apply bpow_le; discriminate).
  simpl (bpow radix2 0) in *. lra.
Qed.

(* rounding a real in the normal range: relative error <= 2^-53, no overflow, non-zero *)
Lemma round_in_range x : in_range x ->
  exists e, Rabs e <= u53 /\
    round radix2 (fexp 53 1024) (round_mode mode_NE) x = x * (1 + e) /\
    Rabs (round radix2 (fexp 53 1024) (round_mode mode_NE) x) < bpow radix2 1024 /\
    round radix2 (fexp 53 1024) (round_mode mode_NE) x <> 0.
Proof.
  intros [Hlo Hhi]. rewrite fexp_eq. simpl round_mode.
  destruct (relative_error_N_FLT_ex radix2 (-1074) 53 ltac:(reflexivity) (fun x => negb (Z.even x)) x) as [e [He Hr]].
  { exact Hlo. }
  change (Rabs e <= u53) in He. exists e. split; [exact He|]. split; [exact Hr|].
  pose proof u53_lt1 as Hu.
  assert (Habs : Rabs e < 1) by lra.
  assert (H1e : 0 < 1 + e <= 1 + u53).
  { apply Rabs_def2 in Habs. pose proof (Rle_abs e). split; lra. }
  assert (Hx : 0 < Rabs x).
  { pose proof (bpow_gt_0 radix2 (-1022)). lra. }
  unfold ZnearestE in *. rewrite Hr. split.
  - rewrite Rabs_mult. rewrite (Rabs_pos_eq (1 + e)) by lra.
    apply Rle_lt_trans with (bpow radix2 1023 * (1 + u53)).
    + apply Rmult_le_compat; lra.
    + change 1024%Z with (1023 + 1)%Z. rewrite bpow_plus. simpl (bpow radix2 1).
      pose proof (bpow_gt_0 radix2 1023). nra.
  - intros H0. apply Rmult_integral in H0. destruct H0 as [H0|H0].
    + rewrite H0, Rabs_R0 in Hx. lra.
    + lra.
Qed.

Lemma fin_of_valid z : valid_binary 53 1024 z = true -> is_finite_SF z = true -> Rv z <> 0 -> fin z.
Proof.
  destruct z as [s|s| |s m e]; simpl; intros V F N; try discriminate; try (exfalso; apply N; reflexivity).
  exact V.
Qed.

Lemma fin_nonzero c : fin c -> Rv c <> 0.
Proof.
  destruct c as [| | |s m e]; simpl; try contradiction. intros _. unfold Rv. simpl.
  apply F2R_neq_0. simpl. destruct s; discriminate.
Qed.

Lemma nmul_rel x y : fin x -> fin y -> in_range (Rv x * Rv y) ->
  exists e, Rabs e <= u53 /\ fin (nmul x y) /\ Rv (nmul x y) = Rv x * Rv y * (1 + e).
Proof.
  destruct x as [| | |sx mx ex], y as [| | |sy my ey]; simpl; try contradiction.
  intros Hx Hy HR. unfold nmul, SFmul, Num.prec, Num.emax.
  rewrite binary_round_aux_equiv.
  destruct (Bmult_correct_aux 53 1024 _ _ mode_NE sx mx ex Hx sy my ey Hy) as [V H].
  destruct (round_in_range _ HR) as [e [He [Hr [Hlt Hnz]]]].
  rewrite Rlt_bool_true in H by exact Hlt. destruct H as [HS [HF _]].
  exists e. split; [exact He|]. unfold Rv. split.
  - apply fin_of_valid; auto. unfold Rv. rewrite HS. exact Hnz.
  - rewrite HS. exact Hr.
Qed.

Lemma ndiv_rel x y : fin x -> fin y -> in_range (Rv x / Rv y) ->
  exists e, Rabs e <= u53 /\ fin (ndiv x y) /\ Rv (ndiv x y) = Rv x / Rv y * (1 + e).
Proof.
  destruct x as [| | |sx mx ex], y as [| | |sy my ey]; simpl; try contradiction.
  intros Hx Hy HR. unfold ndiv, SFdiv, Num.prec, Num.emax.
  pose proof (Bdiv_correct_aux 53 1024 _ _ mode_NE sx mx ex sy my ey) as B. cbv zeta in B.
  destruct (SFdiv_core_binary 53 1024 (Z.pos mx) ex (Z.pos my) ey) as [[mz ez] lz].
  rewrite binary_round_aux_equiv. destruct B as [V H].
  destruct (round_in_range _ HR) as [e [He [Hr [Hlt Hnz]]]].
  rewrite Rlt_bool_true in H by exact Hlt. destruct H as [HS [HF _]].
  exists e. split; [exact He|]. unfold Rv. split.
  - apply fin_of_valid; auto. unfold Rv. rewrite HS. exact Hnz.
  - rewrite HS. exact Hr.
Qed.

(* ---------------------------------------------------------------- linear units: there and back *)
Lemma prod_err a b al be : 0 <= al -> 0 <= be -> Rabs (a - 1) <= al -> Rabs (b - 1) <= be ->
  Rabs (a * b - 1) <= (1 + al) * (1 + be) - 1.
Proof.
  intros Ha Hb H1 H2. replace (a * b - 1) with ((a - 1) * (b - 1) + ((a - 1) + (b - 1))) by ring.
  eapply Rle_trans; [apply Rabs_triang|]. rewrite Rabs_mult.
  eapply Rle_trans; [apply Rplus_le_compat_l; apply Rabs_triang|].
  assert (Rabs (a - 1) * Rabs (b - 1) <= al * be).
  { apply Rmult_le_compat; auto using Rabs_pos. }
  lra.
Qed.

Definition finb (x : num) : bool :=
  match x with S754_finite s m e => SpecFloat.bounded 53 1024 m e | _ => false end.
Lemma finb_fin x : finb x = true -> fin x.
Proof. destruct x; simpl; auto; discriminate. Qed.

(* every coefficient of the table is a valid, finite, non-zero binary64 *)
Lemma table_coefficients_finite_ok :
  forallb (fun u => match coef_of u with Some c => finb (num_of_bits (l_bits c)) | None => true end) all_units = true.
Proof. vm_cast_no_check (eq_refl true). Qed.
Theorem table_coefficients_finite : forall u c,
  In u all_units -> coef_of u = Some c -> fin (num_of_bits (l_bits c)).
Proof.
  intros u c Hu Hc. pose proof table_coefficients_finite_ok as H. rewrite forallb_forall in H.
  specialize (H u Hu). rewrite Hc in H. apply finb_fin. exact H.
Qed.

(* binary64, two linear units A and B: v -> B -> A returns v up to four roundings, each of relative
   error at most 2^-53, provided no intermediate result leaves the normal range *)
Theorem there_and_back_float_linear : forall ua ub la lb v,
  u_conv ua = Linear la -> u_conv ub = Linear lb ->
  let ca := num_of_bits (l_bits la) in
  let cb := num_of_bits (l_bits lb) in
  fin v -> fin ca -> fin cb ->
  let r1 := nmul v ca in
  let r2 := through_base fl v ua ub in
  let r3 := nmul r2 cb in
  let r4 := through_base fl r2 ub ua in
  in_range (Rv v * Rv ca) -> in_range (Rv r1 / Rv cb) ->
  in_range (Rv r2 * Rv cb) -> in_range (Rv r3 / Rv ca) ->
  exists e1 e2 e3 e4,
    Rabs e1 <= u53 /\ Rabs e2 <= u53 /\ Rabs e3 <= u53 /\ Rabs e4 <= u53 /\
    Rv r4 = Rv v * ((1 + e1) * (1 + e2) * (1 + e3) * (1 + e4)) /\
    Rabs (Rv r4 - Rv v) <= ((1 + u53) * (1 + u53) * (1 + u53) * (1 + u53) - 1) * Rabs (Rv v).
Proof.
  intros ua ub la lb v Ha Hb ca cb Fv Fa Fb r1 r2 r3 r4.
  assert (E2 : r2 = ndiv r1 cb).
  { unfold r2, through_base, convert_from_base, convert_to_base. rewrite Ha, Hb. reflexivity. }
  assert (E4 : r4 = ndiv r3 ca).
  { unfold r4, through_base, convert_from_base, convert_to_base. rewrite Ha, Hb. reflexivity. }
  rewrite E4. clearbody r2. subst r2. clear E4 r4.
  intros R1 R2 R3 R4.
  destruct (nmul_rel v ca Fv Fa R1) as [e1 [He1 [F1 V1]]]. fold r1 in F1, V1.
  destruct (ndiv_rel r1 cb F1 Fb R2) as [e2 [He2 [F2 V2]]].
  destruct (nmul_rel (ndiv r1 cb) cb F2 Fb R3) as [e3 [He3 [F3 V3]]]. fold r3 in F3, V3.
  destruct (ndiv_rel r3 ca F3 Fa R4) as [e4 [He4 [F4 V4]]].
  exists e1, e2, e3, e4. repeat (split; [assumption|]).
  assert (Na := fin_nonzero ca Fa). assert (Nb := fin_nonzero cb Fb).
  assert (EQ : Rv (ndiv r3 ca) = Rv v * ((1 + e1) * (1 + e2) * (1 + e3) * (1 + e4))).
  { rewrite V4, V3, V2, V1. field. split; assumption. }
  split; [exact EQ|].
  rewrite EQ. replace (Rv v * ((1 + e1) * (1 + e2) * (1 + e3) * (1 + e4)) - Rv v)
    with (((1 + e1) * (1 + e2) * (1 + e3) * (1 + e4) - 1) * Rv v) by ring.
  rewrite Rabs_mult. apply Rmult_le_compat_r; [apply Rabs_pos|].
  pose proof u53_lt1 as Hu.
  assert (P1 : forall e, Rabs e <= u53 -> Rabs ((1 + e) - 1) <= u53).
  { intros e He. replace (1 + e - 1) with e by ring. exact He. }
  pose proof (prod_err (1 + e1) (1 + e2) u53 u53 ltac:(lra) ltac:(lra) (P1 _ He1) (P1 _ He2)) as Q12.
  assert (H12 : 0 <= (1 + u53) * (1 + u53) - 1) by nra.
  pose proof (prod_err _ (1 + e3) _ u53 H12 ltac:(lra) Q12 (P1 _ He3)) as Q123.
  assert (H123 : 0 <= (1 + ((1 + u53) * (1 + u53) - 1)) * (1 + u53) - 1) by nra.
  pose proof (prod_err _ (1 + e4) _ u53 H123 ltac:(lra) Q123 (P1 _ He4)) as Q.
  eapply Rle_trans; [exact Q|]. right. ring.
Qed.
