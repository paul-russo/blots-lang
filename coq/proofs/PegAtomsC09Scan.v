(* proofs/PegAtomsC09Scan.v — C09: the documents the formatter model produces are well-formed for the comment
   scanner (Formatter.wf_doc): no layout merges a comment into code or code into a comment.  With Scan.render_scan
   and Comments.fmtd_comments_preserved this gives
       scan_comments (text the formatter or a driver prints) = comments of the AST / of the program.
   What the proofs need of a comment text c is Formatter.is_comment_text c (scanned from code state the text is
   read as ONE comment that is still open at its end, so the line break the layout emits after it closes exactly c).
   For the scanner (and for the grammar's `comment` rule, which stops only at "\r\n" / "\n") that is [comment_ok_cr]:
       c = "//" ++ r,  r has no "\n",  r does not END in "\r"
   — a bare "\r" INSIDE r is harmless (ScanFmt.comment_ok forbids every "\r").  A comment that ENDS in "\r" is a
   genuine problem, not a proof artefact: the layout appends "\n", the emitted bytes are "\r\n", and a re-scan /
   re-parse reads the comment WITHOUT its final "\r" (finding C09-comment-trailing-cr, see notes/ext-atoms.md).
   Module CR holds the hypotheses on the AST and on statements with this predicate (atoms_ok, stmt_ok) and the
   theorems. *)
From Coq Require Import String Ascii List ZArith Bool Lia.
Require Import Blots.Num Blots.gen.Builtins Blots.Ast Blots.Formatter Blots.proofs.ExprInd Blots.proofs.FmtdInd Blots.proofs.StringFacts
  Blots.proofs.Scan Blots.proofs.Comments Blots.proofs.ScanFmt Blots.proofs.Idempotent.
Import ListNotations.
Open Scope list_scope.

(* r has no line feed and does not end in a carriage return *)
Fixpoint cr_body_ok (r : string) : bool :=
  match r with
  | "" => true
  | String c r' =>
      negb (Ascii.eqb c NLc) &&
      (if Ascii.eqb c CRc then match r' with "" => false | _ => cr_body_ok r' end else cr_body_ok r')
  end.
Definition comment_ok_cr (c : string) : bool :=
  match c with
  | String a (String b r) => Ascii.eqb a "/" && Ascii.eqb b "/" && cr_body_ok r
  | _ => false
  end.

Lemma snoc_app : forall a c, snoc a c = a +++ String c "".
Proof. reflexivity. Qed.

Lemma sstep_com_cr : forall cur, sstep (SCom cur) CRc = ([], SComCR cur).
Proof. reflexivity. Qed.
Lemma sstep_comcr_cr : forall cur, sstep (SComCR cur) CRc = ([], SComCR (snoc cur CRc)).
Proof. reflexivity. Qed.
Lemma sstep_com_other : forall cur c, Ascii.eqb c NLc = false -> Ascii.eqb c CRc = false ->
  sstep (SCom cur) c = ([], SCom (snoc cur c)).
Proof. intros cur c H1 H2. cbn [sstep]. now rewrite H1, H2. Qed.
Lemma sstep_comcr_other : forall cur c, Ascii.eqb c NLc = false -> Ascii.eqb c CRc = false ->
  sstep (SComCR cur) c = ([], SCom (snoc (snoc cur CRc) c)).
Proof. intros cur c H1 H2. cbn [sstep]. now rewrite H1, H2. Qed.
Lemma srun_cons : forall st c r, srun st (String c r) =
  let (o, st') := sstep st c in let (o', st'') := srun st' r in (o ++ o', st'').
Proof. reflexivity. Qed.

Lemma srun_cr_body : forall r cur, cr_body_ok r = true ->
  srun (SCom cur) r = ([], SCom (cur +++ r)) /\
  (r <> "" -> srun (SComCR cur) r = ([], SCom (cur +++ String CRc r))).
Proof.
  induction r as [|c r IH]; intros cur H.
  - split; [cbn [srun]; now rewrite append_nil_r|intros N; now elim N].
  - cbn [cr_body_ok] in H. apply andb_prop in H as [Hn Hr]. rewrite negb_true_iff in Hn.
    destruct (Ascii.eqb c CRc) eqn:Ec.
    + apply Ascii.eqb_eq in Ec. subst c.
      assert (NE : r <> "") by (destruct r; [discriminate|discriminate]).
      assert (Hr' : cr_body_ok r = true) by (destruct r; [discriminate|exact Hr]).
      split; [|intros _]; rewrite srun_cons.
      * rewrite sstep_com_cr. destruct (IH cur Hr') as [_ B]. rewrite (B NE). reflexivity.
      * rewrite sstep_comcr_cr. destruct (IH (snoc cur CRc) Hr') as [_ B]. rewrite (B NE), append_snoc. reflexivity.
    + split; [|intros _]; rewrite srun_cons.
      * rewrite (sstep_com_other _ _ Hn Ec). destruct (IH (snoc cur c) Hr) as [A _]. rewrite A, append_snoc. reflexivity.
      * rewrite (sstep_comcr_other _ _ Hn Ec). destruct (IH (snoc (snoc cur CRc) c) Hr) as [A _].
        rewrite A, !append_snoc. reflexivity.
Qed.

Lemma comment_ok_cr_text : forall c, comment_ok_cr c = true -> is_comment_text c.
Proof.
  intros c H. destruct c as [|a [|b r]]; try discriminate. cbn [comment_ok_cr] in H.
  apply andb_prop in H as [H Hr]. apply andb_prop in H as [Ha Hb].
  apply Ascii.eqb_eq in Ha, Hb. subst a b.
  unfold is_comment_text. cbn [srun sstep]. cbn.
  destruct (srun_cr_body r "//" Hr) as [A _]. rewrite A. reflexivity.
Qed.

Lemma eol_free_cr_body : forall r, all_chars eol_free_char r = true -> cr_body_ok r = true.
Proof.
  induction r as [|c r IH]; intros H; [reflexivity|]. cbn [all_chars] in H. apply andb_prop in H as [Hc Hr].
  unfold eol_free_char in Hc. apply andb_prop in Hc as [H1 H2]. rewrite negb_true_iff in H2.
  cbn [cr_body_ok]. rewrite H1, H2. exact (IH Hr).
Qed.
Lemma comment_ok_weaker : forall c, comment_ok c = true -> comment_ok_cr c = true.
Proof.
  intros [|a [|b r]] H; try discriminate. cbn [comment_ok comment_ok_cr] in *.
  apply andb_prop in H as [H Hr]. rewrite H. exact (eol_free_cr_body r Hr).
Qed.

(* the converse fails exactly on a bare CR inside: satisfiable, and strictly weaker *)
Example comment_ok_cr_bare_cr :
  let c := String "/" (String "/" (String " " (String "a" (String CRc (String "b" ""))))) in
  comment_ok_cr c = true /\ comment_ok c = false.
Proof. split; reflexivity. Qed.
(* ... and a trailing CR is refused: the scanner is then NOT in an open comment holding c *)
Example comment_ok_cr_trailing_cr :
  let c := String "/" (String "/" (String "a" (String CRc ""))) in
  comment_ok_cr c = false /\ srun SCode c = ([], SComCR "//a").
Proof. split; reflexivity. Qed.

Lemma wf_repeat_nl : forall n d, wf_doc d -> wf_doc (repeat Nl n ++ d).
Proof. induction n; intros d H; [exact H|]. cbn [repeat app wf_doc]. now apply IHn. Qed.

Lemma gap_newlines_pos : forall e s, exists n, Z.to_nat (gap_newlines e s) = S n.
Proof.
  intros e s. pose proof (gap_newlines_range e s) as R.
  exists (Z.to_nat (gap_newlines e s - 1)). lia.
Qed.

Lemma forallb_and_split : forall {A} (f g : A -> bool) l,
  forallb (fun x => f x && g x) l = true -> forallb f l = true /\ forallb g l = true.
Proof.
  induction l as [|x r IH]; intros H; [split; reflexivity|].
  cbn [forallb] in *. apply andb_prop in H as [H Hr]. apply andb_prop in H as [Hf Hg].
  destruct (IH Hr) as [A1 A2]. now rewrite Hf, Hg, A1, A2.
Qed.

Lemma Forall_map_first : forall {A B} (P : B -> Prop) (f : bool -> A -> B) l,
  (forall b x, In x l -> P (f b x)) -> Forall P (map_first f l).
Proof.
  intros A B P f [|x r] H; [constructor|]. cbn [map_first]. constructor; [apply H; now left|].
  apply Forall_forall. intros y Hy. apply in_map_iff in Hy as (z & <- & Hz). apply H. now right.
Qed.

(* joining well-formed statement documents (each may end with its end-of-line comment) *)
Lemma wf_join_spacing : forall l, Forall (fun x => wf_doc (fst (fst x))) l -> wf_doc (join_spacing l).
Proof.
  induction l as [|[[d s] e] rest IH]; intros H; [exact I|].
  inversion H as [|? ? Hd Hr]; subst. cbn [fst] in Hd.
  destruct rest as [|[[d2 s2] e2] rest']; [exact Hd|].
  cbn [join_spacing]. destruct (gap_newlines_pos e s2) as [n ->].
  cbn [repeat app]. apply wf_app_nl; [exact Hd|]. cbn [wf_doc]. apply wf_repeat_nl. now apply IH.
Qed.

(* comment_ok, trailing_ok, comments_ok, key_atoms_ok, atoms_ok and stmt_ok below read as their namesakes in
   ScanFmt.v / DriverText.v; the only difference is the comment predicate, comment_ok_cr for comment_ok *)
Module CR.
Definition comment_ok := comment_ok_cr.
Lemma comment_ok_text : forall c, comment_ok c = true -> is_comment_text c.
Proof. exact comment_ok_cr_text. Qed.

(* comment blocks followed by a line break *)
Lemma wf_dcomment_lines_then : forall l Y,
  forallb comment_ok l = true -> wf_doc Y -> starts_nl Y = true -> wf_doc (dcomment_lines l ++ Y).
Proof.
  induction l as [|c r IH]; intros Y H HY HS; [exact HY|].
  cbn [forallb] in H. apply andb_prop in H as [Hc Hr].
  destruct r as [|c2 r'].
  - cbn [dcomment_lines app wf_doc]. split; [now apply comment_ok_text|].
    destruct Y as [|q Y']; [discriminate|]. destruct q; try discriminate. exact HY.
  - change (dcomment_lines (c :: c2 :: r')) with (Comment c :: Nl :: dcomment_lines (c2 :: r')).
    cbn [app wf_doc]. split; [now apply comment_ok_text|]. apply (IH Y Hr HY HS).
Qed.

Definition trailing_ok (tr : option string) : bool :=
  match tr with Some t => forallb comment_ok (split_nl t) | None => true end.

Lemma wf_trailing_then : forall tr Y,
  trailing_ok tr = true -> wf_doc Y -> starts_nl Y = true -> wf_doc (trailing_doc tr ++ Y).
Proof.
  intros [t|] Y H HY HS; [|exact HY].
  cbn [trailing_doc app wf_doc]. split; [reflexivity|]. now apply wf_dcomment_lines_then.
Qed.

Lemma wf_leading_then : forall i lead Y,
  forallb comment_ok lead = true -> wf_doc Y -> starts_nl Y = true ->
  wf_doc (leading_doc i lead ++ Y) /\ starts_nl (leading_doc i lead ++ Y) = true.
Proof.
  intros i lead Y. induction lead as [|c r IH]; intros H HY HS; [split; assumption|].
  cbn [forallb] in H. apply andb_prop in H as [Hc Hr]. destruct (IH Hr HY HS) as [W S].
  unfold leading_doc in *. cbn [flat_map app]. split; [|reflexivity].
  cbn [wf_doc]. split; [apply neutral_indent|]. split; [now apply comment_ok_text|].
  destruct (flat_map (fun c0 : string => [Nl; ind i; Comment c0]) r ++ Y) as [|q Z]; [discriminate|].
  destruct q; try discriminate. exact W.
Qed.

Definition comments_ok {A} (c : commented A) : bool :=
  forallb comment_ok (cleading c) && trailing_ok (ctrailing c).

(* a loop of commented elements: well-formed in front of anything that starts with a line break *)
Definition Then (d : doc) : Prop :=
  opaque_texts_neutral d -> forall Y, wf_doc Y -> starts_nl Y = true ->
  wf_doc (d ++ Y) /\ starts_nl (d ++ Y) = true.

(* one element of a list, record or do-block: its leading comments, the element on a line of its own,
   its trailing comment *)
Lemma commented_then : forall {A} (c : commented A) i body rest,
  comments_ok c = true -> AppendableIfNeutral body -> Then rest ->
  Then (leading_doc i (cleading c) ++ [Nl; ind i] ++ body ++ trailing_doc (ctrailing c) ++ rest).
Proof.
  intros A c i body rest Hc Hb Hr HO Y HY HS. apply andb_prop in Hc as [Hl Ht].
  apply otn_app in HO as [_ HO]. apply otn_app in HO as [_ HO]. apply otn_app in HO as [Ob HO].
  apply otn_app in HO as [_ Or]. destruct (Hr Or Y HY HS) as [Wr Sr]. destruct (Hb Ob) as [Wb Eb].
  rewrite <- !app_assoc. apply wf_leading_then; [exact Hl| |reflexivity].
  apply (wf_app_appendable [Nl; ind i]); [apply appendable_nl_ind|apply appendable_nl_ind|].
  apply wf_app_appendable; [exact Wb|exact Eb|]. now apply wf_trailing_then.
Qed.

(* an opening bracket, a loop of such elements, and a closing part on a line of its own *)
Lemma bracketed_appendable : forall o body Z, neutral o -> Then body -> AppendableIfNeutral Z -> starts_nl Z = true ->
  AppendableIfNeutral ([Code o] ++ body ++ Z).
Proof.
  intros o body Z Ho Hb HZ SZ H. apply otn_app in H as [_ H]. apply otn_app in H as [Ob OZ].
  destruct (HZ OZ) as [WZ EZ]. split; [cbn [app wf_doc]; split; [exact Ho|exact (proj1 (Hb Ob Z WZ SZ))]|].
  rewrite app_assoc. apply ends_with_code_app; [exact EZ|]. destruct Z; discriminate.
Qed.

(* ------------------------------------------------------------------ layouts *)
Section Layouts.
  Variable O : oracles.
  Variable key_ok : string -> bool.
  Hypothesis Hrk : forall k, key_ok k = true -> neutral (o_record_key O k).
  Variable w : nat.
  Variable rec : expr -> nat -> doc.

  Lemma list_items_wf : forall l inner,
    Forall (fun c => rec_appendable rec (cnode c)) l -> forallb comments_ok l = true -> Then (list_items_doc rec l inner).
  Proof.
    induction l as [|[lead n tr] r IH]; intros inner HR HC; [intros _ Y HY HS; split; assumption|].
    inversion HR as [|? ? Hn Hr]; subst. cbn [forallb] in HC. apply andb_prop in HC as [Hc HCr].
    cbn [list_items_doc]. rewrite (app_assoc (rec n inner)).
    apply (commented_then (Cm lead n tr)); [exact Hc| |exact (IH inner Hr HCr)].
    apply ifn_app; [apply Hn|apply ifn_appendable, appendable_code; reflexivity].
  Qed.

  Lemma list_doc_appendable : forall items i,
    Forall (fun c => rec_appendable rec (cnode c)) items -> forallb comments_ok items = true ->
    AppendableIfNeutral (list_doc rec items i).
  Proof.
    intros items i HR HC. destruct items as [|c r]; [apply ifn_appendable, appendable_code; reflexivity|].
    unfold list_doc. apply bracketed_appendable; [reflexivity|exact (list_items_wf _ _ HR HC)| |reflexivity].
    apply ifn_appendable, appendable_pieces. repeat constructor. apply neutral_indent.
  Qed.

  (* record entries *)
  Definition key_atoms_ok (r : rentry) : bool :=
    match r with
    | REntry (KStatic k) _ => key_ok k
    | REntry (KShort name) _ => plain name
    | _ => true
    end.
  Lemma rec_entries_wf : forall l inner,
    Forall (fun c => entry_appendable rec (cnode c)) l ->
    forallb (fun c => comments_ok c && key_atoms_ok (cnode c)) l = true ->
    Then (rec_entries_doc O rec l inner).
  Proof.
    induction l as [|[lead n tr] r IH]; intros inner HR HC; [intros _ Y HY HS; split; assumption|].
    inversion HR as [|? ? Hn Hr]; subst. cbn [forallb] in HC. apply andb_prop in HC as [Hc HCr].
    apply andb_prop in Hc as [Hc Hk]. cbn [rec_entries_doc]. rewrite (app_assoc (entry_doc O rec n inner)).
    apply (commented_then (Cm lead n tr)); [exact Hc| |exact (IH inner Hr HCr)].
    apply ifn_app; [exact (entry_doc_appendable O key_ok Hrk rec n inner Hn Hk)|apply ifn_appendable, appendable_code; reflexivity].
  Qed.

  Lemma record_doc_appendable : forall entries i,
    Forall (fun c => entry_appendable rec (cnode c)) entries ->
    forallb (fun c => comments_ok c && key_atoms_ok (cnode c)) entries = true ->
    AppendableIfNeutral (record_doc O rec entries i).
  Proof.
    intros entries i HR HC. destruct entries as [|c r]; [apply ifn_appendable, appendable_code; reflexivity|].
    unfold record_doc. apply bracketed_appendable; [reflexivity|exact (rec_entries_wf _ _ HR HC)| |reflexivity].
    apply ifn_appendable, appendable_pieces. repeat constructor. apply neutral_indent.
  Qed.

  (* do-blocks *)
  Lemma do_stmts_wf : forall l inner first,
    Forall (fun c => rec_appendable rec (cnode c)) l -> forallb comments_ok l = true -> Then (do_stmts_doc rec l inner first).
  Proof.
    induction l as [|[lead n tr] r IH]; intros inner first HR HC; [intros _ Y HY HS; split; assumption|].
    inversion HR as [|? ? Hn Hr]; subst. cbn [forallb] in HC. apply andb_prop in HC as [Hc HCr].
    cbn [do_stmts_doc].
    apply (commented_then (Cm lead n tr)); [exact Hc|apply ifn_protect, Hn|exact (IH inner false Hr HCr)].
  Qed.

  Lemma do_doc_appendable : forall stmts ret i,
    Forall (fun c => rec_appendable rec (cnode c)) stmts -> rec_appendable rec (cnode ret) ->
    forallb comments_ok stmts = true -> forallb comment_ok (cleading ret) = true ->
    AppendableIfNeutral (do_doc rec stmts ret i).
  Proof.
    intros stmts ret i HS HR HC HL. unfold do_doc. cbv zeta.
    apply bracketed_appendable; [reflexivity|exact (do_stmts_wf _ _ _ HS HC)| |destruct (cleading ret); reflexivity].
    intros HO. apply otn_app in HO as [_ HO].
    assert (T : Appendable ([Nl; ind (i + INDENT_SIZE); Code "return "] ++ rec (cnode ret) (i + INDENT_SIZE) ++ [Nl; ind i; Code "}"]))
      by (revert HO; repeat apply ifn_app; [|apply HR|]; apply ifn_appendable, appendable_pieces; repeat constructor; apply neutral_indent).
    split; [exact (proj1 (wf_leading_then _ _ _ HL (proj1 T) eq_refl))|].
    apply ends_with_code_app; [exact (proj2 T)|discriminate].
  Qed.
End Layouts.

(* ------------------------------------------------------------------ the formatter *)
Section Fmt.
  Variable O : oracles.
  Variable key_ok : string -> bool.
  Hypothesis Hrk : forall k, key_ok k = true -> neutral (o_record_key O k).
  Variable w : nat.
  Let fmtd := fmtd O w.

  (* the strings of the AST that the layouts print themselves: assigned names, parameter
     names, shorthand keys (no quote, no slash), static keys (accepted by key_ok), and the
     comments (each satisfies comment_ok_cr; a trailing field = such lines joined by "\n") *)
  Fixpoint atoms_ok (e : expr) : bool :=
    match e with
    | EList items => forallb (fun c => comments_ok c && atoms_ok (cnode c)) items
    | ERec entries =>
        forallb (fun c => comments_ok c && key_atoms_ok key_ok (cnode c) &&
                          match cnode c with
                          | REntry (KStatic _) v => atoms_ok v
                          | REntry (KDyn k) v => atoms_ok k && atoms_ok v
                          | REntry (KShort _) _ => true
                          | REntry (KSpread x) _ => atoms_ok x
                          end) entries
    | ELam args body => forallb (fun a => plain (arg_name a)) args && atoms_ok body
    | ECond c t f => atoms_ok c && atoms_ok t && atoms_ok f
    | EDo stmts ret =>
        forallb (fun c => comments_ok c && atoms_ok (cnode c)) stmts &&
        forallb comment_ok (cleading ret) && atoms_ok (cnode ret)
    | EAssign x v => plain x && atoms_ok v
    | EOutput x => atoms_ok x
    | ECall f args => atoms_ok f && forallb atoms_ok args
    | EBin _ l r => atoms_ok l && atoms_ok r
    | EAccess a ix => atoms_ok a && atoms_ok ix
    | EDot a field => atoms_ok a && plain field
    | EUn _ a => atoms_ok a
    | EFact a => atoms_ok a
    | ESpread a => atoms_ok a
    | _ => true
    end.

  Lemma fmtd_appendable : forall e, atoms_ok e = true -> rec_appendable fmtd e.
  Proof.
    unfold rec_appendable. apply (fmtd_ind O w (fun e => atoms_ok e = true) (fun _ => AppendableIfNeutral)).
    - intros e s _ _ _. apply ifn_text.
    - intros items i Ha H. cbn [atoms_ok] in Ha. apply forallb_and_split in Ha as [Hc Hs].
      apply list_doc_appendable; [exact (Forall_of_forallb _ _ _ Hs H)|exact Hc].
    - intros entries i Ha H. cbn [atoms_ok] in Ha. apply forallb_and_split in Ha as [Hc Hs].
      apply (record_doc_appendable O key_ok Hrk); [|exact Hc].
      refine (Forall_of_forallb _ _ _ Hs _). eapply Forall_impl; [|exact H].
      intros [lead [k v] tr] [Hk Hv] Hs'; cbn [cnode entry_appendable Pkey] in *.
      destruct k; [exact (Hv Hs')| |exact I|exact (Hk Hs')].
      apply andb_prop in Hs' as [A1 A2]. split; [exact (Hk A1)|exact (Hv A2)].
    - intros args body i Ha H. cbn [atoms_ok] in Ha. apply andb_prop in Ha as [Hargs Hb].
      apply lambda_doc_appendable; [exact Hargs|exact (H Hb)].
    - intros c t el i Ha Hc Ht Hel Cel. cbn [atoms_ok] in Ha.
      apply andb_prop in Ha as [Ha A3]. apply andb_prop in Ha as [A1 A2].
      rewrite cond_doc_eq. apply ifn_app; [|apply ifn_app; [exact (Ht A2 _)|]].
      + match goal with |- context [if ?b then _ else _] => destruct b end;
          (apply ifn_cons; [reflexivity|]; apply ifn_app; [exact (Hc A1 _)|];
           apply ifn_appendable, appendable_pieces; repeat constructor; apply neutral_indent).
      + refine (else_doc_ind O w _ _ AppendableIfNeutral el i A3 Hel Cel _ _); intros d Hd;
          (apply ifn_app; [apply ifn_appendable, appendable_pieces; repeat constructor; apply neutral_indent|exact Hd]).
    - intros stmts ret i Ha Hs Hr. cbn [atoms_ok] in Ha.
      apply andb_prop in Ha as [Ha A3]. apply andb_prop in Ha as [A1 A2].
      apply forallb_and_split in A1 as [Hc Hs'].
      apply do_doc_appendable; [exact (Forall_of_forallb _ _ _ Hs' Hs)|exact (Hr A3)|exact Hc|exact A2].
    - intros x v i Ha H. cbn [atoms_ok] in Ha. apply andb_prop in Ha as [Hx Hv].
      apply ifn_cons; [apply neutral_app; [now apply plain_neutral|reflexivity]|exact (H Hv i)].
    - intros x i Ha H. apply ifn_cons; [reflexivity|exact (H Ha i)].
    - intros f args i Ha Hf H. cbn [atoms_ok] in Ha. apply andb_prop in Ha as [A1 A2].
      apply call_doc_appendable; [exact (Hf A1)|exact (Forall_of_forallb _ _ _ A2 H)].
    - intros op l r i Ha Hl Hr. cbn [atoms_ok] in Ha. apply andb_prop in Ha as [A1 A2].
      apply binop_doc_appendable; [exact (Hl A1)|exact (Hr A2)].
    - intros a ix i Ha _ H1 H2. cbn [atoms_ok] in Ha. apply andb_prop in Ha as [A1 A2].
      apply ifn_app; [apply ifn_wrap, (H1 A1)|]. apply ifn_cons; [reflexivity|].
      apply ifn_app; [exact (H2 A2 i)|apply ifn_appendable, appendable_code; reflexivity].
    - intros a f i Ha _ H. cbn [atoms_ok] in Ha. apply andb_prop in Ha as [A1 A2].
      apply ifn_app; [apply ifn_wrap, (H A1)|].
      apply ifn_appendable, appendable_code, neutral_app; [reflexivity|now apply plain_neutral].
    - intros op x i Ha _ H. apply ifn_cons; [destruct op; reflexivity|apply ifn_wrap, (H Ha)].
    - intros x i Ha _ H. apply ifn_app; [apply ifn_wrap, (H Ha)|apply ifn_appendable, appendable_code; reflexivity].
    - intros x i Ha _ H. apply ifn_cons; [reflexivity|exact (H Ha i)].
  Qed.

  (* no layout merges a comment into code or code into a comment *)
  Theorem fmtd_wf_doc : forall e i,
    atoms_ok e = true -> opaque_texts_neutral (fmtd e i) -> wf_doc (fmtd e i).
  Proof. intros e i Ha HO. exact (proj1 (fmtd_appendable e Ha i HO)). Qed.

  (* the whole chain: the comments found by scanning the text the formatter prints are the
     comments of the AST *)
  Theorem fmtd_text_comments : forall e i,
    wf_ast e = true -> atoms_ok e = true ->
    forallb cfree (doc_opaque (fmtd e i)) = true -> opaque_texts_neutral (fmtd e i) ->
    scan_comments (render (fmtd e i)) = expr_comments e.
  Proof.
    intros e i Hw Ha Hc HO.
    rewrite render_scan by (now apply fmtd_wf_doc).
    now apply fmtd_comments_preserved.
  Qed.
End Fmt.

(* ------------------------------------------------------------------ drivers at text level *)
Section DriverText.
  Variable O : oracles.
  Variable key_ok : string -> bool.
  Hypothesis Hrk : forall k, key_ok k = true -> neutral (o_record_key O k).

  (* a statement whose document is well-formed: its expression satisfies the hypotheses of
     fmtd_text_comments at the driver's width; comments are comment texts; a comment statement
     has no second comment *)
  Definition stmt_ok (mw : option nat) (s : stmt) : Prop :=
    let w := match mw with Some n => n | None => DEFAULT_MAX_COLUMNS end in
    match s with
    | St k eol _ _ =>
        (match k with
         | SComment c => comment_ok c = true
         | SExpr e =>
             wf_ast e = true /\ atoms_ok key_ok e = true /\
             forallb cfree (doc_opaque (fmtd O w e 0)) = true /\
             opaque_texts_neutral (fmtd O w e 0)
         | SOut e =>
             wf_ast e = true /\ atoms_ok key_ok e = true /\
             forallb cfree (doc_opaque (fmtd O w (EOutput e) 0)) = true /\
             opaque_texts_neutral (fmtd O w (EOutput e) 0)
         end) /\
        match eol with
        | Some c => comment_ok c = true /\ match k with SComment _ => False | _ => True end
        | None => True
        end
    end.

  Lemma dc_protect_minus : forall d b, doc_comments (protect_minus d b) = doc_comments d.
  Proof.
    intros d b. unfold protect_minus. destruct (negb b && starts_with_minus (render d)); [|reflexivity].
    rewrite !dc_app. cbn. now rewrite app_nil_r.
  Qed.

  Lemma comment_not_minus : forall c, comment_ok c = true -> starts_with_minus c = false.
  Proof.
    intros [|a [|b r]] H; try discriminate. cbn in H. apply andb_prop in H as [H _].
    apply andb_prop in H as [Ha _]. apply Ascii.eqb_eq in Ha. subst a. reflexivity.
  Qed.

  (* the statement's own document (before the end-of-line comment) *)
  Definition kind_doc (mw : option nat) (k : stmt_kind) : doc :=
    match k with
    | SComment c => [Comment c]
    | SOut e => format_expr_doc O (EOutput e) mw
    | SExpr e => format_expr_doc O e mw
    end.

  Lemma kind_doc_facts : forall mw k eol a b first, stmt_ok mw (St k eol a b) ->
    doc_comments (protect_minus (kind_doc mw k) first) =
      match k with SExpr e | SOut e => expr_comments e | SComment c => [c] end /\
    (Appendable (protect_minus (kind_doc mw k) first) \/
     exists c, k = SComment c /\ comment_ok c = true /\ protect_minus (kind_doc mw k) first = [Comment c]).
  Proof.
    intros mw k eol a b first [Hk He]. rewrite dc_protect_minus. destruct k as [e|e|c].
    - destruct Hk as (Hw & Ha & Hc & Ho). split; [now apply fmtd_comments_preserved|left].
      apply protect_minus_appendable. exact (fmtd_appendable O key_ok Hrk _ e Ha 0 Ho).
    - destruct Hk as (Hw & Ha & Hc & Ho). split.
      + unfold kind_doc, format_expr_doc. rewrite fmtd_comments_preserved; [reflexivity|exact Hw|exact Hc].
      + left. apply protect_minus_appendable. exact (fmtd_appendable O key_ok Hrk _ (EOutput e) Ha 0 Ho).
    - split; [reflexivity|right]. exists c. repeat split; auto.
      unfold protect_minus, kind_doc. cbn [render render_piece]. rewrite append_nil_r, (comment_not_minus c Hk).
      now rewrite andb_false_r.
  Qed.

  Lemma lib_stmt_wf : forall mw first s, stmt_ok mw s ->
    wf_doc (fst (fst (lib_stmt O mw first s))) /\
    doc_comments (fst (fst (lib_stmt O mw first s))) = stmt_comments s.
  Proof.
    intros mw first [k eol a b] Hs. destruct (kind_doc_facts mw k eol a b first Hs) as [C G].
    destruct Hs as [Hk He]. cbn [lib_stmt fst stmt_comments].
    change (match k with
            | SExpr e => format_expr_doc O e mw
            | SOut e => format_expr_doc O (EOutput e) mw
            | SComment c => [Comment c]
            end) with (kind_doc mw k).
    destruct eol as [c|].
    - destruct He as [He Hnc]. rewrite dc_app, C. split; [|reflexivity].
      destruct G as [[W E]|(c0 & -> & Hc0 & _)]; [|contradiction].
      apply wf_app_appendable; [exact W|exact E|]. cbn. repeat split. now apply comment_ok_text.
    - rewrite C, app_nil_r. split; [|reflexivity].
      destruct G as [[W E]|(c0 & -> & Hc0 & ->)]; [exact W|].
      cbn. split; [now apply comment_ok_text|exact I].
  Qed.

  (* C09 for the library driver at text level: the comments a lexer-level scan finds in the text
     format_blots returns are the comments of the program, in order *)
  Theorem lib_driver_text_comments : forall mw p d,
    Forall (stmt_ok mw) p ->
    format_lib O mw p = Some d ->
    scan_comments (render d) = program_comments p.
  Proof.
    intros mw p d Hp Hd. unfold format_lib in Hd.
    assert (d = join_spacing (map_first (lib_stmt O mw) p))
      by (destruct p; [discriminate|now injection Hd]).
    subst d. clear Hd. rewrite Forall_forall in Hp.
    rewrite render_scan.
    - assert (J : forall l, doc_comments (join_spacing l) = flat_map (fun x => doc_comments (fst (fst x))) l).
      { induction l as [|[[d s] e] rest IH]; [reflexivity|].
        destruct rest as [|[[d2 s2] e2] rest']; [cbn; now rewrite app_nil_r|].
        cbn [join_spacing flat_map fst] in *. rewrite !dc_app, IH. f_equal.
        assert (R : forall n, doc_comments (repeat Nl n) = []) by (induction n; [reflexivity|exact IHn]).
        now rewrite R. }
      rewrite J. unfold program_comments. apply flat_map_map_first.
      intros b x Hx. exact (proj2 (lib_stmt_wf mw b x (Hp x Hx))).
    - apply wf_join_spacing. apply Forall_map_first.
      intros b x Hx. exact (proj1 (lib_stmt_wf mw b x (Hp x Hx))).
  Qed.

  (* ... and for blots --format *)
  (* an output declaration starts with "output ": never with "-" *)
  Lemma output_not_minus : forall e mw, starts_with_minus (render (format_expr_doc O (EOutput e) mw)) = false.
  Proof.
    intros e mw. unfold format_expr_doc. rewrite fmtd_eq. unfold impl_doc.
    match goal with |- context [if ?b then _ else _] => destruct b end; reflexivity.
  Qed.

  Lemma cli_stmt_lib : forall first s, stmt_ok None s ->
    cli_stmt O first s = fst (fst (lib_stmt O None first s)) ++ [Nl].
  Proof.
    intros first [k eol a b] Hs; cbn [cli_stmt lib_stmt fst].
    assert (E : match k with
                | SExpr e => protect_minus (format_expr_doc O e None) first
                | SOut e => format_expr_doc O (EOutput e) None
                | SComment c => [Comment c]
                end = protect_minus (kind_doc None k) first).
    { destruct k as [e|e|c]; [reflexivity| |]; unfold protect_minus, kind_doc.
      - now rewrite output_not_minus, andb_false_r.
      - destruct Hs as [Hk _]. cbn [render render_piece].
        now rewrite append_nil_r, (comment_not_minus c Hk), andb_false_r. }
    destruct eol; [rewrite <- app_assoc|]; f_equal; exact E.
  Qed.

  Theorem cli_driver_text_comments : forall p,
    Forall (stmt_ok None) p ->
    scan_comments (render (format_cli O p)) = program_comments p.
  Proof.
    intros p Hp. unfold format_cli. rewrite Forall_forall in Hp. rewrite render_scan.
    - assert (C : forall l, doc_comments (concat l) = flat_map doc_comments l)
        by (induction l as [|d r IH]; [reflexivity|]; cbn [concat flat_map]; now rewrite dc_app, IH).
      rewrite C. apply flat_map_map_first. intros b x Hx.
      rewrite (cli_stmt_lib b x (Hp x Hx)), dc_app, (proj2 (lib_stmt_wf None b x (Hp x Hx))). apply app_nil_r.
    - assert (W : forall l, Forall (fun d => exists d', d = d' ++ [Nl] /\ wf_doc d') l -> wf_doc (concat l)).
      { induction 1 as [|d r (d' & -> & Hd) _ IH]; [exact I|].
        cbn [concat]. rewrite <- app_assoc. now apply wf_app_nl. }
      apply W, Forall_map_first. intros b x Hx. eexists. split; [exact (cli_stmt_lib b x (Hp x Hx))|].
      exact (proj1 (lib_stmt_wf None b x (Hp x Hx))).
  Qed.
End DriverText.
End CR.
