(* EmitLit.v — C05, layer P0 (the layers are listed in Properties/C05.v): the literal of a captured value
   denotes the value.
   lit_roundtrip holds for EVERY implementation of the operators, the built-ins and of
   FunctionDef::call (they are Section variables of the evaluator): literals never reach them. *)
From Coq Require Import String Ascii List ZArith Bool Lia Floats.SpecFloat.
Require Import Blots.Num Blots.gen.Builtins Blots.Ast Blots.Value Blots.Outcome Blots.Binop
               Blots.Env Blots.Eval Blots.Emit Blots.proofs.ValueInd Blots.proofs.StringFacts.
Import ListNotations.
Open Scope list_scope.

(* the generic class: first-order, no NaN, no string/key with both quote characters *)
Definition emittable_gen (v : value) : bool :=
  fo v && negb (has_both_quotes v) && negb (has_nan v).

Lemma value_to_ast_list n d l :
  value_to_ast n d (VList l) = EList (map (fun x => Cm [] (value_to_ast n d x) None) l).
Proof. reflexivity. Qed.
Lemma value_to_ast_rec n d r :
  value_to_ast n d (VRec r) =
  ERec (map (fun kv => Cm [] (REntry (key_to_rkey (fst kv)) (value_to_ast n d (snd kv))) None) r).
Proof. cbn. f_equal. induction r as [|[k x] r IH]; cbn; congruence. Qed.

Lemma nneg_invol x : nneg (nneg x) = x.
Proof. destruct x; cbn; try reflexivity; now rewrite Bool.negb_involutive. Qed.

Fixpoint no_spread (l : list value) : bool :=
  match l with [] => true | VSpread _ :: _ => false | _ :: r => no_spread r end.
Lemma flatten_no_spread l : no_spread l = true -> flatten_spreads l = l.
Proof. induction l as [|v l IH]; cbn; [reflexivity|]. destruct v; intros H; try discriminate; now rewrite IH. Qed.
Lemma fo_no_spread l : forallb fo l = true -> no_spread l = true.
Proof.
  induction l as [|v l IH]; cbn; [reflexivity|]. intros H. apply andb_prop in H as [H1 H2].
  destruct v; cbn in H1; try discriminate; auto.
Qed.

Lemma rec_insert_fresh {A} (acc : list (string * A)) k x :
  rec_get acc k = None -> rec_insert acc k x = acc ++ [(k, x)].
Proof.
  induction acc as [|[k' v'] acc IH]; cbn; [reflexivity|].
  destruct (String.eqb_spec k k'); [discriminate|]. intros H. now rewrite IH.
Qed.
Lemma rec_get_app_none {A} (a b : list (string * A)) k :
  rec_get a k = None -> rec_get (a ++ b) k = rec_get b k.
Proof. induction a as [|[k' v'] a IH]; cbn; [reflexivity|]. destruct (String.eqb k k'); [discriminate|auto]. Qed.

Lemma allow_orb (b p q : bool) : b || negb (p || q) = true -> b || negb p = true /\ b || negb q = true.
Proof. destruct b, p, q; cbn; auto. Qed.

Section Entry.
  Variable release : bool.
  Variable binop_impl : callback -> binop -> value -> value -> store -> outcome value * store.
  Variable apply : frames -> callback.
  Notation evalE := (evalE release binop_impl apply).

  Lemma str_plain_roundtrip s c : both_quotes s = false -> evalE c (str_to_ast s) = (Ok (VStr s), c).
  Proof. intros H. unfold str_to_ast. rewrite H. reflexivity. Qed.

  (* a record entry under the key literal (a static key, or the computed key of a key with both
     quote kinds), once the string literal of the key evaluates to the key *)
  Lemma key_entry_evaluates k e x c c1 acc r :
    evalE c (str_to_ast k) = (Ok (VStr k), c) -> evalE c e = (Ok x, c1) ->
    evalRecL evalE c acc (Cm [] (REntry (key_to_rkey k) e) None :: r) =
    evalRecL evalE c1 (rec_insert acc k x) r.
  Proof.
    intros Hk H. unfold key_to_rkey. destruct (both_quotes k).
    - cbn [evalRecL]. rewrite Hk. cbn [as_string]. rewrite H. reflexivity.
    - cbn [evalRecL]. rewrite H. reflexivity.
  Qed.
End Entry.

(* the literal of first-order data evaluates to exactly that data and changes nothing, given that
   the literals of the numbers and strings (keys) in it do: [nanok] / [bqok] say whether NaN /
   strings with both quote kinds may occur *)
Section Leaves.
  Variable release : bool.
  Variable binop_impl : callback -> binop -> value -> value -> store -> outcome value * store.
  Variable apply : frames -> callback.
  Notation evalE := (evalE release binop_impl apply).
  Variables n nanok bqok : bool.
  Hypothesis Hnum : forall x c, nanok || negb (is_nan x) = true -> evalE c (num_to_ast n x) = (Ok (VNum x), c).
  Hypothesis Hstr : forall s c, bqok || negb (both_quotes s) = true -> evalE c (str_to_ast s) = (Ok (VStr s), c).

  Theorem lit_roundtrip_on : forall d v, fo v = true ->
    nanok || negb (has_nan v) = true -> bqok || negb (has_both_quotes v) = true ->
    forall c, evalE c (value_to_ast n d v) = (Ok v, c).
  Proof.
    intros d. induction v using value_ind'; intros Hfo Hnan Hbq c; try reflexivity; try discriminate.
    - cbn [value_to_ast]. apply Hnum. exact Hnan.
    - cbn [value_to_ast]. apply Hstr. exact Hbq.
    - rewrite value_to_ast_list. cbn [Eval.evalE].
      assert (HL : evalCL evalE c (map (fun x => Cm [] (value_to_ast n d x) None) l) = (Ok l, c)).
      { cbn [fo has_nan has_both_quotes] in Hfo, Hnan, Hbq. clear - H Hfo Hnan Hbq. revert Hfo Hnan Hbq.
        induction H as [|x l Hx Hl IH]; cbn [map evalCL forallb existsb]; [reflexivity|]. intros Hfo Hnan Hbq.
        apply andb_prop in Hfo as [F1 F2]. apply allow_orb in Hnan as [N1 N2]. apply allow_orb in Hbq as [B1 B2].
        rewrite Hx by assumption. rewrite IH by assumption. reflexivity. }
      rewrite HL. cbn. rewrite flatten_no_spread; [reflexivity|]. apply fo_no_spread. exact Hfo.
    - rewrite value_to_ast_rec. cbn [Eval.evalE].
      cbn [fo has_nan has_both_quotes] in Hfo, Hnan, Hbq. apply andb_prop in Hfo as [Hnd Hfo].
      assert (HG : forall acc, (forall k, In k (map fst r) -> rec_get acc k = None) ->
                evalRecL evalE c acc
                  (map (fun kv => Cm [] (REntry (key_to_rkey (fst kv)) (value_to_ast n d (snd kv))) None) r)
                = (Ok (VRec (acc ++ r)), c)).
      { clear - H Hnd Hfo Hnan Hbq Hstr. revert Hnd Hfo Hnan Hbq.
        induction H as [|[k x] r Hx Hr IH]; intros Hnd Hfo Hnan Hbq acc Hacc.
        - cbn. now rewrite app_nil_r.
        - cbn [nodup_keys forallb existsb fst snd] in Hnd, Hfo, Hnan, Hbq, Hx. cbn [map fst snd].
          destruct (rec_get r k) eqn:Ek; [discriminate|].
          apply andb_prop in Hfo as [F1 F2]. apply allow_orb in Hnan as [N1 N2].
          apply allow_orb in Hbq as [B1 B2]. apply allow_orb in B1 as [Bk B1].
          rewrite (key_entry_evaluates release binop_impl apply k _ x c c acc _ (Hstr k c Bk) (Hx F1 N1 B1 c)).
          rewrite rec_insert_fresh by (apply Hacc; now left).
          rewrite IH; try assumption.
          + now rewrite <- app_assoc.
          + intros k' Hk'. rewrite rec_get_app_none by (apply Hacc; now right).
            cbn. destruct (String.eqb_spec k' k) as [->|]; [|reflexivity].
            exfalso. apply rec_get_None_notin in Ek. contradiction. }
      apply (HG []). reflexivity.
  Qed.
End Leaves.

Section Lit.
  Variable release : bool.
  Variable binop_impl : callback -> binop -> value -> value -> store -> outcome value * store.
  Variable apply : frames -> callback.
  Notation evalE := (evalE release binop_impl apply).

  Lemma num_roundtrip n x c : is_nan x = false -> evalE c (num_to_ast n x) = (Ok (VNum x), c).
  Proof.
    destruct x as [s|s| |s m e]; cbn; try discriminate; intros _.
    - destruct s; cbn; reflexivity.
    - destruct s; cbn; reflexivity.
    - destruct s; cbn; reflexivity.
  Qed.

  Theorem lit_roundtrip : forall n d v, emittable_gen v = true ->
    forall c, evalE c (value_to_ast n d v) = (Ok v, c).
  Proof.
    intros n d v Hv. unfold emittable_gen in Hv.
    apply andb_prop in Hv as [Hv Hnan]. apply andb_prop in Hv as [Hfo Hbq].
    apply (lit_roundtrip_on release binop_impl apply n false false); try assumption.
    - intros x c H. apply num_roundtrip. apply negb_true_iff. exact H.
    - intros s c H. apply str_plain_roundtrip. apply negb_true_iff. exact H.
  Qed.
End Lit.

(* nanfix = false: NaN is written as the identifier NaN, unbound when the text is loaded (F10) *)
Lemma lit_nan_current_refuted :
  forall release binop_impl apply st,
    fst (evalE release binop_impl apply (st, [(FOwned, [])]) (value_to_ast false false (VNum nnan))) = Err.
Proof. reflexivity. Qed.

(* built-ins are emitted by name; the name is read back as the same built-in (finite:
   exhaustive over the generated table gen/Builtins.v; PrattTable.builtin_names_roundtrip is the same statement) *)
Theorem builtin_name_roundtrip : forall b, builtin_of_name (builtin_name b) = Some b.
Proof. intros b; destruct b; vm_compute; reflexivity. Qed.

(* ---- the text of a string literal (string_lit_src true) is read back as the string ---- *)
Lemma take_until_app q s rest : has_char q s = false ->
  take_until q (s ++ String q rest) = Some (s, rest).
Proof.
  induction s as [|a s IH]; cbn.
  - now rewrite Ascii.eqb_refl.
  - intros H. apply orb_false_elim in H as [H1 H2]. rewrite H1, IH by assumption. reflexivity.
Qed.

Theorem string_lit_roundtrip : forall s rest, both_quotes s = false ->
  read_string_lit (string_lit_src true s ++ rest)%string = Some (s, rest).
Proof.
  intros s rest H. unfold string_lit_src, both_quotes in *.
  destruct (has_char dq s) eqn:Ed; cbn in H.
  - cbn. rewrite append_assoc. cbn. now apply take_until_app.
  - cbn. rewrite append_assoc. cbn. now apply take_until_app.
Qed.

(* string_lit_src false: a backslash is doubled, a quote escaped, although the grammar has no escapes (F11);
   the two lemmas have the same statement and differ in the witness (backslash, double quote) *)
Lemma string_lit_current_refuted :
  exists s, read_string_lit (string_lit_src false s) <> Some (s, ""%string).
Proof. exists (String bs ""). vm_compute. discriminate. Qed.
Lemma string_lit_current_quote_refuted :
  exists s, read_string_lit (string_lit_src false s) <> Some (s, ""%string).
Proof. exists (String dq ""). vm_compute. discriminate. Qed.
