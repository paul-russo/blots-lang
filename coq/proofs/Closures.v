(* Closures.v — C04: parameter binding, capture at definition time, lookup order in a call. *)
From Coq Require Import String Ascii List ZArith Bool Lia.
Require Import Blots.Num Blots.gen.Builtins Blots.Ast Blots.Value Blots.Outcome Blots.Binop
               Blots.Env Blots.Eval.
Import ListNotations.
Open Scope string_scope.
Open Scope list_scope.
Open Scope nat_scope.

(* ------------------------------------------------------------------ parameter binding *)

(* [min_args] is one past the last Required position *)
Lemma min_args_ge_acc : forall ps i acc, acc <= i -> acc <= min_args ps i acc /\ min_args ps i acc <= i + Datatypes.length ps.
Proof.
  induction ps as [|p ps IH]; intros i acc H; cbn [min_args Datatypes.length]; [lia|].
  destruct (arg_is_req p).
  - destruct (IH (S i) (S i)) as [A B]; lia.
  - destruct (IH (S i) acc) as [A B]; lia.
Qed.

Lemma min_args_covers_required : forall ps i acc k x,
  nth_error ps k = Some (AReq x) -> i + k < min_args ps i acc.
Proof.
  induction ps as [|p ps IH]; intros i acc k x H; [destruct k; discriminate|].
  destruct k as [|k]; cbn [nth_error] in H; cbn [min_args].
  - inversion H; subst. cbn [arg_is_req].
    destruct (min_args_ge_acc ps (S i) (S i)) as [A _]; lia.
  - specialize (IH (S i) (if arg_is_req p then S i else acc) k x H). lia.
Qed.

(* binding never indexes past the argument vector when every Required position is covered *)
Lemma bind_params_total_gen : forall ps idx args acc,
  (forall k x, nth_error ps k = Some (AReq x) -> idx + k < Datatypes.length args) ->
  bind_params ps idx args acc <> None.
Proof.
  induction ps as [|p ps IH]; intros idx args acc H; cbn [bind_params]; [discriminate|].
  destruct p as [x|x|x].
  - assert (Hlt : idx + 0 < Datatypes.length args) by (apply (H 0 x); reflexivity).
    destruct (nth_error args idx) eqn:E.
    + apply IH. intros k y Hk. specialize (H (S k) y Hk). lia.
    + apply nth_error_None in E. lia.
  - apply IH. intros k y Hk. specialize (H (S k) y Hk). lia.
  - apply IH. intros k y Hk. specialize (H (S k) y Hk). lia.
Qed.

Lemma arity_min_le : forall ps n,
  can_accept (lambda_arity ps) n = true -> min_args ps 0 0 <= n.
Proof.
  intros ps n H. unfold can_accept, lambda_arity, arity_can_accept in H.
  destruct (existsb arg_is_rest ps).
  - apply Nat.leb_le in H. exact H.
  - destruct (Nat.eqb (min_args ps 0 0) (Datatypes.length ps)) eqn:E.
    + apply Nat.eqb_eq in H. lia.
    + apply andb_true_iff in H. destruct H as [H _]. apply Nat.leb_le in H. exact H.
Qed.

(* for EVERY parameter list (documented shape or not): once the arity check has passed,
   binding the parameters cannot fail (no index out of bounds) *)
Theorem bind_params_total : forall ps args acc,
  can_accept (lambda_arity ps) (Datatypes.length args) = true ->
  bind_params ps 0 args acc <> None.
Proof.
  intros ps args acc H. apply bind_params_total_gen. intros k x Hk.
  pose proof (min_args_covers_required ps 0 0 k x Hk). pose proof (arity_min_le ps _ H). lia.
Qed.

(* the documented shape: required*, optional*, rest? *)
Fixpoint shape_ok (ps : list lamarg) (stage : nat) : bool :=   (* 0 required, 1 optional, 2 after rest *)
  match ps with
  | [] => true
  | AReq _ :: r => Nat.eqb stage 0 && shape_ok r 0
  | AOpt _ :: r => Nat.leb stage 1 && shape_ok r 1
  | ARest _ :: r => Nat.leb stage 1 && match r with [] => true | _ => false end
  end.
Definition documented_shape (ps : list lamarg) : bool := shape_ok ps 0.

Definition n_required (ps : list lamarg) : nat := Datatypes.length (filter arg_is_req ps).
Definition has_rest (ps : list lamarg) : bool := existsb arg_is_rest ps.

Lemma shape_min_args : forall ps i acc stage, shape_ok ps stage = true ->
  (stage = 0 -> acc = i) ->
  min_args ps i acc = (if Nat.eqb stage 0 then i + n_required ps else acc).
Proof.
  induction ps as [|p ps IH]; intros i acc stage Hs Hacc; cbn [min_args].
  - unfold n_required; cbn. destruct (Nat.eqb stage 0) eqn:E; [apply Nat.eqb_eq in E; rewrite (Hacc E); lia|reflexivity].
  - destruct p as [x|x|x]; cbn [shape_ok] in Hs; cbn [arg_is_req].
    + apply andb_true_iff in Hs. destruct Hs as [Hz Hs]. apply Nat.eqb_eq in Hz. subst stage.
      rewrite (IH (S i) (S i) 0 Hs (fun _ => eq_refl)). cbn [Nat.eqb].
      unfold n_required. cbn [filter arg_is_req Datatypes.length]. lia.
    + apply andb_true_iff in Hs. destruct Hs as [Hz Hs].
      rewrite (IH (S i) acc 1 Hs) by discriminate. cbn [Nat.eqb].
      unfold n_required. cbn [filter arg_is_req].
      destruct (Nat.eqb stage 0) eqn:E; [|reflexivity].
      apply Nat.eqb_eq in E. rewrite (Hacc E).
      (* no Required parameter follows an Optional one in a documented shape *)
      assert (Hn : forall q st, shape_ok q st = true -> 1 <= st -> filter arg_is_req q = []).
      { clear. induction q as [|a q IHq]; intros st Hq Hst; [reflexivity|].
        destruct a; cbn [shape_ok] in Hq; cbn [filter arg_is_req].
        - apply andb_true_iff in Hq. destruct Hq as [Hz _]. apply Nat.eqb_eq in Hz. lia.
        - apply andb_true_iff in Hq. destruct Hq as [_ Hq]. apply (IHq 1 Hq). lia.
        - apply andb_true_iff in Hq. destruct Hq as [_ Hq]. destruct q; [reflexivity|discriminate]. }
      rewrite (Hn ps 1 Hs) by lia. cbn. lia.
    + apply andb_true_iff in Hs. destruct Hs as [Hz Hs]. destruct ps; [|discriminate].
      cbn [min_args]. unfold n_required. cbn.
      destruct (Nat.eqb stage 0) eqn:E; [apply Nat.eqb_eq in E; rewrite (Hacc E); lia|reflexivity].
Qed.

(* ARITY CLASSES of the documented shape: required parameters must be supplied; optional ones
   may be omitted; a rest parameter admits any surplus; any other count is rejected *)
Theorem documented_arity : forall ps n, documented_shape ps = true ->
  can_accept (lambda_arity ps) n =
  (Nat.leb (n_required ps) n && (has_rest ps || Nat.leb n (Datatypes.length ps))).
Proof.
  intros ps n Hs. unfold documented_shape in Hs.
  pose proof (shape_min_args ps 0 0 0 Hs (fun _ => eq_refl)) as Hm. cbn [Nat.eqb] in Hm.
  unfold can_accept, lambda_arity, has_rest. rewrite Hm. cbn [Nat.add].
  destruct (existsb arg_is_rest ps); cbn [arity_can_accept orb].
  - rewrite andb_true_r. reflexivity.
  - destruct (Nat.eqb (n_required ps) (Datatypes.length ps)) eqn:E; cbn [arity_can_accept].
    + apply Nat.eqb_eq in E. rewrite <- E.
      destruct (Nat.eqb n (n_required ps)) eqn:E2.
      * apply Nat.eqb_eq in E2. subst. rewrite Nat.leb_refl. reflexivity.
      * apply Nat.eqb_neq in E2.
        destruct (Nat.leb (n_required ps) n) eqn:L1, (Nat.leb n (n_required ps)) eqn:L2; cbn; auto.
        apply Nat.leb_le in L1, L2. lia.
    + reflexivity.
Qed.

(* what the parameter at position idx is bound to: the argument there (null for an omitted optional),
   the list of the remaining arguments for rest *)
Definition param_value (p : lamarg) (idx : nat) (args : list value) : value :=
  match p with
  | AReq _ | AOpt _ => match nth_error args idx with Some v => v | None => VNull end
  | ARest _ => VList (skipn idx args)
  end.

(* one parameter: its name gets [param_value], in front of what was bound before *)
Lemma bind_params_cons : forall p ps idx args acc fr,
  bind_params (p :: ps) idx args acc = Some fr ->
  bind_params ps (S idx) args ((arg_name p, param_value p idx args) :: acc) = Some fr.
Proof.
  intros [x|x|x] ps idx args acc fr H; cbn [bind_params arg_name param_value] in *; try exact H.
  destruct (nth_error args idx); [exact H|discriminate].
Qed.

Lemma bind_params_keeps : forall ps idx args acc fr y,
  bind_params ps idx args acc = Some fr ->
  ~ In y (map arg_name ps) -> lookup_frame fr y = lookup_frame acc y.
Proof.
  induction ps as [|p ps IH]; intros idx args acc fr y H Hy; [inversion H; reflexivity|].
  apply bind_params_cons in H. cbn [map In] in Hy.
  rewrite (IH _ _ _ _ y H) by tauto. cbn [lookup_frame].
  destruct (String.eqb y (arg_name p)) eqn:E; [apply String.eqb_eq in E; subst y; tauto|reflexivity].
Qed.

(* positional binding, stated through lookup in the resulting frame, for parameter lists with distinct names *)
Theorem bind_params_positional : forall ps idx args acc fr,
  bind_params ps idx args acc = Some fr -> NoDup (map arg_name ps) ->
  forall k p, nth_error ps k = Some p ->
    lookup_frame fr (arg_name p) = Some (param_value p (idx + k) args).
Proof.
  induction ps as [|q ps IH]; intros idx args acc fr H Hnd k p Hk; [destruct k; discriminate|].
  cbn [map] in Hnd. inversion Hnd as [|? ? Hnotin Hnd']; subst. apply bind_params_cons in H.
  destruct k as [|k]; cbn [nth_error] in Hk.
  - inversion Hk; subst p. replace (idx + 0) with idx by lia.
    rewrite (bind_params_keeps _ _ _ _ _ _ H Hnotin). cbn [lookup_frame]. rewrite String.eqb_refl. reflexivity.
  - replace (idx + S k) with (S idx + k) by lia. eapply IH; eauto.
Qed.

(* ------------------------------------------------------------------ capture *)

Lemma capture_acc : forall fr vars acc x v,
  lookup_frame acc x = Some v -> ~ In x vars -> lookup_frame (capture fr vars acc) x = Some v.
Proof.
  intros fr vars; induction vars as [|y vars IH]; intros acc x v Ha Hn; cbn [capture]; [exact Ha|].
  cbn [In] in Hn. assert (y <> x) by tauto. assert (~ In x vars) by tauto.
  destruct (lookup fr y); [|apply IH; auto].
  destruct (is_builtin_name y); [apply IH; auto|].
  apply IH; auto. cbn [lookup_frame].
  destruct (String.eqb x y) eqn:E; [apply String.eqb_eq in E; congruence|exact Ha].
Qed.

(* CAPTURE BY VALUE: every referenced name that is bound when the function is created (and
   is not a built-in name) is in the captured scope with the value it has at that moment *)
Theorem capture_sound : forall fr vars acc x v,
  In x vars -> lookup fr x = Some v -> is_builtin_name x = false ->
  lookup_frame (capture fr vars acc) x = Some v.
Proof.
  intros fr vars; induction vars as [|y vars IH]; intros acc x v Hin Hl Hb; [destruct Hin|].
  cbn [capture]. destruct (string_dec y x) as [->|Hne].
  - rewrite Hl, Hb.
    destruct (in_dec string_dec x vars) as [Hi|Hi].
    + apply IH; auto.
    + apply capture_acc; auto. cbn [lookup_frame]. rewrite String.eqb_refl. reflexivity.
  - destruct Hin as [Heq|Hin]; [congruence|].
    destruct (lookup fr y); [destruct (is_builtin_name y)|]; apply IH; auto.
Qed.

(* nothing else is captured: a captured name was referenced and bound *)
Theorem capture_only : forall fr vars acc x v,
  lookup_frame (capture fr vars acc) x = Some v ->
  lookup_frame acc x = Some v \/ (In x vars /\ lookup fr x = Some v).
Proof.
  intros fr vars; induction vars as [|y vars IH]; intros acc x v H; cbn [capture] in H; [left; exact H|].
  destruct (lookup fr y) as [w|] eqn:El.
  - destruct (is_builtin_name y).
    + destruct (IH _ _ _ H) as [Ha|[Hi Hl]]; [left; exact Ha|right; split; [right; exact Hi|exact Hl]].
    + destruct (IH _ _ _ H) as [Ha|[Hi Hl]].
      * cbn [lookup_frame] in Ha. destruct (String.eqb x y) eqn:E.
        -- apply String.eqb_eq in E; subst. inversion Ha; subst. right; split; [left; reflexivity|exact El].
        -- left; exact Ha.
      * right; split; [right; exact Hi|exact Hl].
  - destruct (IH _ _ _ H) as [Ha|[Hi Hl]]; [left; exact Ha|right; split; [right; exact Hi|exact Hl]].
Qed.

(* ------------------------------------------------------------------ lookup order in a call *)
(* the environment a lambda body runs in: the local frame (parameters, with the function's own name and
   `inputs` bound below them in the same frame), then the captured scope if it is not empty, then the
   caller's chain *)
Definition call_frames (st : store) (id : lam_id) (this : value) (local_params : frame)
           (scope : frame) (fr : frames) (inputs_self : frame) : frames :=
  (FOwned, local_params) :: match scope with [] => fr | _ => (FShared, scope) :: fr end.

Theorem lookup_order : forall (local scope : frame) (fr : frames) x,
  lookup ((FOwned, local) :: match scope with [] => fr | _ => (FShared, scope) :: fr end) x =
  match lookup_frame local x with
  | Some v => Some v
  | None => match lookup_frame scope x with
            | Some v => Some v
            | None => lookup fr x
            end
  end.
Proof.
  intros local scope fr x. cbn [lookup]. destruct (lookup_frame local x); [reflexivity|].
  destruct scope as [|p scope]; [reflexivity|]. cbn [lookup]. reflexivity.
Qed.
