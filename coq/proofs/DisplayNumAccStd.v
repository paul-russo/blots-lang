(* DisplayNumAccStd.v — C20: accuracy of the STANDARD non-integer path for fx = true (the code
   of /repo: decimal_exponent with its correction step), under real-valued specifications of
   the library oracles.  Flocq real-number layer (the four standard-library axioms named in
   DESIGN.md 8). *)
From Coq Require Import ZArith Reals Bool String Ascii List Lia Lra QArith Qreals Qabs Floats.SpecFloat.
From Flocq Require Import Core.Core IEEE754.BinarySingleNaN.
Require Import Flocq.Prop.Relative.
Require Import Blots.Num Blots.Outcome Blots.DisplayNum.
Require Import Blots.proofs.DisplayNumGroup Blots.proofs.DisplayNumSpec Blots.proofs.DisplayNumText
               Blots.proofs.DisplayNumInt Blots.proofs.DisplayNum Blots.proofs.DisplayNumAcc
               Blots.proofs.DisplayNumFloat Blots.proofs.DisplayNumFinite.
Import ListNotations.
Open Scope R_scope.

Definition radix10 : radix := Build_radix 10 eq_refl.
Notation p10 := (bpow radix10).

Lemma vexp : Valid_exp fexp64.
Proof. apply (fexp_correct 53 1024). reflexivity. Qed.
Local Existing Instance vexp.

Lemma p10_pos : forall k, 0 < p10 k. Proof. intros. apply bpow_gt_0. Qed.

Lemma IZR_pow10 : forall n, (0 <= n)%Z -> IZR (10 ^ n) = p10 n.
Proof. intros n H. exact (IZR_Zpower radix10 n H). Qed.

Lemma Q2R_Qmake_pow10 : forall a n, (0 <= n)%Z ->
  Q2R (Qmake a (Z.to_pos (10 ^ n))) = IZR a / p10 n.
Proof.
  intros a n Hn. unfold Q2R. cbn [Qnum Qden].
  rewrite Z2Pos.id by (apply Z.pow_pos_nonneg; lia). now rewrite IZR_pow10.
Qed.

(* 10^j, 0 <= j <= 22, is a double *)
Lemma p10_format : forall j, (0 <= j <= 22)%Z -> generic_format radix2 fexp64 (p10 j).
Proof.
  intros j Hj. rewrite <- IZR_pow10 by lia.
  replace (10 ^ j)%Z with (5 ^ j * 2 ^ j)%Z by (rewrite <- Z.pow_mul_l; reflexivity).
  apply generic_format_FLT.
  apply (FLT_spec radix2 (3 - 1024 - 53) 53 _ (Float radix2 (5 ^ j) j)).
  - unfold F2R. cbn [Fnum Fexp]. rewrite mult_IZR.
    now rewrite IZR_pow2 by lia.
  - cbn [Fnum]. rewrite Z.abs_eq by (apply Z.pow_nonneg; lia).
    apply Z.le_lt_trans with (5 ^ 22)%Z; [apply Z.pow_le_mono_r; lia|reflexivity].
  - cbn [Fexp]. lia.
Qed.

(* relative error of rounding to nearest in the normal range *)
Lemma rnd_rel : forall v, bpow radix2 (-1022) <= Rabs v ->
  Rabs (rnd64 v - v) <= bpow radix2 (-53) * Rabs v.
Proof.
  intros v H.
  pose proof (relative_error_N_FLT radix2 (3 - 1024 - 53) 53 ltac:(lia) (fun x => negb (Z.even x)) v H) as E.
  change (/ 2 * bpow radix2 (- (53) + 1)) with (/ 2 * bpow radix2 (-52)) in E.
  replace (bpow radix2 (-53)) with (/ 2 * bpow radix2 (-52)).
  - exact E.
  - change (-52)%Z with (1 + -53)%Z. rewrite bpow_plus. change (bpow radix2 1) with 2. field.
Qed.

Lemma rnd_cond_Ropp : forall s v, rnd64 (cond_Ropp s v) = cond_Ropp s (rnd64 v).
Proof. intros [|] v; cbn [cond_Ropp]; [apply round_NE_opp|reflexivity]. Qed.

Lemma rnd_id : forall v, generic_format radix2 fexp64 v -> rnd64 v = v.
Proof. intros. apply round_generic; [apply valid_rnd_N|assumption]. Qed.

Lemma rnd_mono : forall a b, a <= b -> rnd64 a <= rnd64 b.
Proof. intros. apply round_le; [exact vexp|apply valid_rnd_N|assumption]. Qed.

Lemma RV_c_one : RV c_one = 1.
Proof.
  unfold RV, c_one. cbn [SF2R]. unfold F2R. cbn [Fnum Fexp cond_Zopp].
  change (bpow radix2 (-52)) with (/ 4503599627370496). lra.
Qed.

Lemma RV_c_1e_4 : p10 (-4) <= RV c_1e_4.
Proof.
  unfold RV, c_1e_4. cbn [SF2R]. unfold F2R. cbn [Fnum Fexp cond_Zopp].
  change (bpow radix2 (-66)) with (/ 73786976294838206464). change (p10 (-4)) with (/ 10000). lra.
Qed.

(* a standard-range double lies in [10^-4, 10^15) *)
Lemma std_range_p10 : forall a, valid a -> Num.is_finite a = true -> scientific_range a = false ->
  p10 (-4) <= RV a < p10 15.
Proof.
  intros a Va Fa Hs. pose proof (std_range_R a Va Fa Hs). pose proof RV_c_1e_4.
  change (p10 15) with 1000000000000000. lra.
Qed.

Section StdAccuracy.
  Variable log10 : num -> num.
  Variable powi : num -> Z -> num.
  Variable fmt_prec : num -> Z -> text.
  Variable fmt_exp14 : num -> text.
  Variable parse_f64 : text -> option num.

  Notation est a := (as_i32 (nfloor (log10 a))).

  (* f64::log10 is off by less than one: floor is the decimal exponent or one more *)
  Hypothesis HL : forall a K, valid a -> Num.is_finite a = true ->
    p10 K <= RV a < p10 (K + 1) -> (K <= est a <= K + 1)%Z.
  (* powi(10, j) is exact for 0 <= j <= 22 *)
  Hypothesis HW0 : forall j, (0 <= j <= 22)%Z ->
    valid (powi c_ten j) /\ (exists s m e, powi c_ten j = S754_finite s m e) /\ RV (powi c_ten j) = p10 j.
  (* powi(10, j), -4 <= j <= -1, is the correctly rounded 10^j, and not below it *)
  Hypothesis HWn : forall j, (-4 <= j <= -1)%Z ->
    valid (powi c_ten j) /\ (exists s m e, powi c_ten j = S754_finite s m e) /\
    RV (powi c_ten j) = rnd64 (p10 j) /\ p10 j <= RV (powi c_ten j).

  Lemma powi_facts : forall j, (-4 <= j <= 22)%Z ->
    valid (powi c_ten j) /\ Num.is_finite (powi c_ten j) = true /\
    RV (powi c_ten j) = rnd64 (p10 j) /\ p10 j <= RV (powi c_ten j).
  Proof.
    intros j Hj. destruct (Z_lt_le_dec j 0).
    - destruct (HWn j ltac:(lia)) as (V & (s & m & e & E) & R1 & R2). repeat split; auto.
      rewrite E. reflexivity.
    - destruct (HW0 j ltac:(lia)) as (V & (s & m & e & E) & R1). repeat split; auto.
      + rewrite E. reflexivity.
      + rewrite R1. symmetry. apply rnd_id. apply p10_format. lia.
      + rewrite R1. lra.
  Qed.

  (* rnd64 (10^j) >= 10^j for -4 <= j <= 22 *)
  Lemma rnd_p10_ge : forall j, (-4 <= j <= 22)%Z -> p10 j <= rnd64 (p10 j).
  Proof. intros j Hj. destruct (powi_facts j Hj) as (_ & _ & E & G). now rewrite <- E. Qed.

  (* decimal_exponent with its correction step is the decimal exponent *)
  Lemma flog10_exact : forall a K, valid a -> Num.is_finite a = true -> (-4 <= K <= 15)%Z ->
    p10 K <= RV a < p10 (K + 1) -> flog10 log10 powi true a = Ok K.
  Proof.
    intros a K Va Fa HK Ha. pose proof (HL a K Va Fa Ha) as He. unfold flog10.
    assert (C : est a = K \/ est a = (K + 1)%Z) by lia.
    destruct C as [C|C]; rewrite C.
    - destruct (powi_facts K ltac:(lia)) as (VP & FP & EP & GP).
      assert (N : nltb a (powi c_ten K) = false).
      { destruct (nltb a (powi c_ten K)) eqn:T; [|reflexivity].
        apply (nltb_correct a _ Va VP Fa FP) in T. exfalso.
        rewrite EP in T. pose proof (rnd_mono _ _ (proj1 Ha)) as M.
        rewrite (rnd_id (RV a)) in M by now apply valid_format. lra. }
      now rewrite N.
    - destruct (powi_facts (K + 1) ltac:(lia)) as (VP & FP & EP & GP).
      assert (N : nltb a (powi c_ten (K + 1)) = true).
      { apply (nltb_correct a _ Va VP Fa FP). lra. }
      rewrite N. unfold i32_sub. rewrite i32_ok_small by lia. f_equal. lia.
  Qed.

  (* numeric facts *)
  Lemma p10_15_le : p10 15 <= bpow radix2 50.
  Proof. change (p10 15) with 1000000000000000. change (bpow radix2 50) with 1125899906842624. lra. Qed.
  Lemma eps_p10_15 : bpow radix2 (-53) * p10 15 <= / 8.
  Proof.
    change (-53)%Z with (- (53))%Z. rewrite bpow_opp.
    change (bpow radix2 53) with 9007199254740992. change (p10 15) with 1000000000000000. lra.
  Qed.

  (* the rounded value, explicitly *)
  Lemma round_sig_explicit : forall x K,
    valid x -> std_nonint_path x = true -> (-4 <= K <= 14)%Z ->
    p10 K <= Rabs (RV x) < p10 (K + 1) ->
    exists r s n, round_to_significant_figures log10 powi true x = Ok r /\
      valid r /\ Num.is_finite r = true /\ (10 ^ 14 <= n <= 10 ^ 15)%Z /\
      RV r = rnd64 (IZR (cond_Zopp s n) * p10 (K - 14)) /\
      Rabs (IZR (cond_Zopp s n) - RV x * p10 (14 - K)) <= 5 / 8.
  Proof.
    intros x K Vx Hp HK HA. destruct (std_nonint_path_inv x Hp) as (Fx & Hz & _).
    assert (El : flog10 log10 powi true (nabs x) = Ok K).
    { apply flog10_exact; [now apply valid_nabs|now rewrite finite_nabs|lia|now rewrite RV_nabs]. }
    rewrite (round_sig_eq log10 powi true x K Hz El) by lia.
    destruct (HW0 (14 - K)%Z ltac:(lia)) as (Vs & Es & Rs).
    set (sc := powi c_ten (14 - K)%Z) in *. set (S := p10 (14 - K)) in *.
    assert (HS : 0 < S) by apply p10_pos.
    set (v := RV x * S).
    assert (Hv : p10 14 <= Rabs v < p10 15).
    { unfold v. rewrite Rabs_mult, (Rabs_pos_eq S) by lra.
      replace (p10 14) with (p10 K * S) by (unfold S; rewrite <- bpow_plus; f_equal; lia).
      replace (p10 15) with (p10 (K + 1) * S) by (unfold S; rewrite <- bpow_plus; f_equal; lia).
      split; [apply Rmult_le_compat_r; lra|apply Rmult_lt_compat_r; lra]. }
    pose proof p10_15_le as P15. pose proof eps_p10_15 as EPS.
    assert (P14 : 100000000000000 = p10 14) by reflexivity.
    (* p = x * scale, n = p.round(), r = n / scale: no overflow *)
    destruct (round_scaled x sc 50 0 Vx Fx Vs Es) as (n & Hn & Vr & Fr & Ep & Dn & Er); try lia.
    { rewrite Rs. fold v. lra. }
    { rewrite Rs, Rabs_pos_eq by lra. change (bpow radix2 (- 0)) with (p10 0). apply bpow_le. lia. }
    set (s := nsign (nmul x sc)) in *. set (N := IZR (cond_Zopp s n)) in *.
    rewrite Rs in Ep, Er. fold v in Ep.
    assert (Erel : Rabs (RV (nmul x sc) - v) <= / 8).
    { rewrite Ep. eapply Rle_trans; [apply rnd_rel|].
      - eapply Rle_trans; [|apply (proj1 Hv)]. rewrite <- P14.
        apply Rle_trans with 1; [|lra]. change 1 with (bpow radix2 0). apply bpow_le. lia.
      - eapply Rle_trans; [|exact EPS]. apply Rmult_le_compat_l; [apply bpow_ge_0|lra]. }
    assert (DN : Rabs (N - v) <= 5 / 8).
    { replace (N - v) with ((N - RV (nmul x sc)) + (RV (nmul x sc) - v)) by ring.
      eapply Rle_trans; [apply Rabs_triang|]. lra. }
    assert (AN : Rabs N = IZR n).
    { unfold N. rewrite IZR_cond_Zopp, abs_cond_Ropp. apply Rabs_pos_eq, IZR_le, Hn. }
    assert (Bn : (10 ^ 14 <= n <= 10 ^ 15)%Z).
    { apply (int_near_range n _ _ (Rabs v)); [|exact Hv].
      rewrite <- AN. eapply Rle_lt_trans; [apply Rabs_triang_inv2|]. lra. }
    (* n < 2^53: q = p.round() is the integer exactly *)
    rewrite (rnd_id N) in Er by (apply int_format; unfold s; destruct (nsign _); cbn [cond_Zopp]; lia).
    replace (N / S) with (N * p10 (K - 14)) in Er
      by (unfold Rdiv, S; rewrite <- bpow_opp; do 2 f_equal; lia).
    eexists _, s, n. split; [reflexivity|]. now repeat split.
  Qed.

  (* ---------- the decade of the rounded value ---------- *)
  Lemma tiny_le_p10 : forall K, (-4 <= K)%Z -> bpow radix2 (-1022) <= p10 K.
  Proof.
    intros K HK. apply Rle_trans with (p10 (-4)); [|apply bpow_le; lia].
    apply Rle_trans with (bpow radix2 (-14)); [apply bpow_le; lia|].
    change (-14)%Z with (- (14))%Z. change (-4)%Z with (- (4))%Z. rewrite !bpow_opp.
    change (bpow radix2 14) with 16384. change (p10 4) with 10000. lra.
  Qed.

  Lemma rounded_decade : forall K n : Z,
    (-4 <= K <= 14)%Z -> (10 ^ 14 <= n <= 10 ^ 15)%Z ->
    let u := p10 (K - 14) in let y := IZR n * u in
    let K' := if (n =? 10 ^ 15)%Z then (K + 1)%Z else K in
    p10 K' <= rnd64 y < p10 (K' + 1) /\ Rabs (rnd64 y - y) <= / 8 * u.
  Proof.
    intros K n HK Hn u y K'.
    assert (Pu : 0 < u) by apply p10_pos.
    assert (E14 : IZR (10 ^ 14) * u = p10 K).
    { unfold u. change (IZR (10 ^ 14)) with (p10 14). rewrite <- bpow_plus. f_equal. lia. }
    assert (E15 : IZR (10 ^ 15) * u = p10 (K + 1)).
    { unfold u. change (IZR (10 ^ 15)) with (p10 15). rewrite <- bpow_plus. f_equal. lia. }
    assert (Ylo : p10 K <= y).
    { rewrite <- E14. apply Rmult_le_compat_r; [lra|apply IZR_le; lia]. }
    assert (Yhi : y <= p10 (K + 1)).
    { rewrite <- E15. apply Rmult_le_compat_r; [lra|apply IZR_le; lia]. }
    assert (Ypos : 0 < y) by (pose proof (p10_pos K); lra).
    assert (Rel : Rabs (rnd64 y - y) <= bpow radix2 (-53) * y).
    { rewrite <- (Rabs_pos_eq y) at 3 by lra. apply rnd_rel. rewrite Rabs_pos_eq by lra.
      eapply Rle_trans; [apply (tiny_le_p10 K); lia|exact Ylo]. }
    pose proof eps_p10_15 as EPS. change (p10 15) with (IZR (10 ^ 15)) in EPS.
    assert (Eps : bpow radix2 (-53) * y <= / 8 * u).
    { unfold y. rewrite <- Rmult_assoc. apply Rmult_le_compat_r; [lra|].
      eapply Rle_trans; [|exact EPS]. apply Rmult_le_compat_l; [apply bpow_ge_0|apply IZR_le; lia]. }
    split; [|lra].
    apply Rabs_le_inv in Rel.
    unfold K'. destruct (n =? 10 ^ 15)%Z eqn:C.
    - apply Z.eqb_eq in C. unfold y. rewrite C, E15. split.
      + apply rnd_p10_ge. lia.
      + unfold y in Rel. rewrite C, E15 in Rel.
        replace (K + 1 + 1)%Z with (1 + (K + 1))%Z by lia. rewrite (bpow_plus radix10 1 (K + 1)).
        change (p10 1) with 10. pose proof (p10_pos (K + 1)).
        assert (bpow radix2 (-53) <= 1).
        { change 1 with (bpow radix2 0). apply bpow_le. lia. }
        assert (bpow radix2 (-53) * p10 (K + 1) <= p10 (K + 1)) by nra. lra.
    - apply Z.eqb_neq in C. split.
      + eapply Rle_trans; [apply (rnd_p10_ge K); lia|]. now apply rnd_mono.
      + assert (Hn1 : IZR n <= IZR (10 ^ 15) - 1).
        { rewrite <- minus_IZR. apply IZR_le. lia. }
        rewrite <- E15.
        assert (y <= (IZR (10 ^ 15) - 1) * u) by (apply Rmult_le_compat_r; lra).
        lra.
  Qed.

  (* decimal places chosen for the rounded value: both branches of the code give 14 - K' *)
  Lemma places_exact : forall r K', valid r -> Num.is_finite r = true -> (-4 <= K' <= 15)%Z ->
    p10 K' <= Rabs (RV r) < p10 (K' + 1) ->
    decimal_places_of log10 powi true r = Ok (Z.max (14 - K') 0).
  Proof.
    intros r K' Vr Fr HK Hr.
    assert (El : flog10 log10 powi true (nabs r) = Ok K').
    { apply flog10_exact; [now apply valid_nabs|now rewrite finite_nabs|exact HK|now rewrite RV_nabs]. }
    rewrite (places_of_eq log10 powi true r K' El) by lia.
    destruct (ngeb (nabs r) c_one); do 2 f_equal; lia.
  Qed.

  (* the rounded value r, the 15-digit integer n behind it (K' = the decade of r: K + 1 in the
     carry case n = 10^15), and the decimal places chosen for r *)
  Lemma round_sig_places : forall x K,
    valid x -> std_nonint_path x = true -> (-4 <= K <= 14)%Z ->
    p10 K <= Rabs (RV x) < p10 (K + 1) ->
    exists r s n, round_to_significant_figures log10 powi true x = Ok r /\
      Num.is_finite r = true /\ (10 ^ 14 <= n <= 10 ^ 15)%Z /\
      Rabs (IZR (cond_Zopp s n) - RV x * p10 (14 - K)) <= 5 / 8 /\
      Rabs (RV r - IZR (cond_Zopp s n) * p10 (K - 14)) <= / 8 * p10 (K - 14) /\
      decimal_places_of log10 powi true r =
        Ok (Z.max (14 - (if (n =? 10 ^ 15)%Z then K + 1 else K)) 0).
  Proof.
    intros x K Vx Hp HK HA.
    destruct (round_sig_explicit x K Vx Hp HK HA) as (r & s & n & Er & Vr & Fr & Bn & ERr & DN).
    destruct (rounded_decade K n HK Bn) as [Dec Dist]. cbv zeta in Dec, Dist.
    rewrite IZR_cond_Zopp, <- cond_Ropp_mult_l, rnd_cond_Ropp in ERr.
    exists r, s, n. do 4 (split; [assumption|]). split.
    - now rewrite ERr, IZR_cond_Zopp, <- cond_Ropp_mult_l, cond_Ropp_minus, abs_cond_Ropp.
    - apply places_exact; [exact Vr|exact Fr|destruct (n =? 10 ^ 15)%Z; lia|].
      rewrite ERr, abs_cond_Ropp, Rabs_pos_eq; [exact Dec|].
      eapply Rle_trans; [|apply Dec]. apply Rlt_le, p10_pos.
  Qed.

  (* ---------- texts with dp fraction digits lie on the 10^-dp grid ---------- *)
  Lemma grid_of_shape : forall dp s, prec_shape dp s = true -> (0 <= dp)%Z ->
    exists z, Q2R (denote_plain s) = IZR z * p10 (- dp).
  Proof.
    intros dp s H Hdp. destruct (prec_shape_grid dp s H Hdp) as (z & ->). exists z.
    now rewrite Q2R_Qmake_pow10, bpow_opp by exact Hdp.
  Qed.

  Lemma grid_eq_R : forall (z1 z2 : Z) (g : R), 0 < g ->
    Rabs (IZR z1 * g - IZR z2 * g) < g -> z1 = z2.
  Proof.
    intros z1 z2 g Hg H.
    replace (IZR z1 * g - IZR z2 * g) with (IZR (z1 - z2) * g) in H by (rewrite minus_IZR; ring).
    rewrite Rabs_mult, (Rabs_pos_eq g) in H by lra.
    assert (L : Rabs (IZR (z1 - z2)) < 1).
    { apply Rmult_lt_reg_r with g; [exact Hg|]. lra. }
    rewrite <- abs_IZR in L. apply lt_IZR in L. lia.
  Qed.

  (* {:.dp$} has the documented shape and prints the nearest multiple of 10^-dp (dp <= 18) *)
  Hypothesis Hprec : forall x n, Num.is_finite x = true -> (0 <= n)%Z -> prec_shape n (fmt_prec x n) = true.
  Hypothesis HF : forall m dp, Num.is_finite m = true -> (0 <= dp <= 18)%Z ->
    Rabs (Q2R (denote_plain (fmt_prec m dp)) - RV m) <= / 2 * p10 (- dp).

  (* the decade of a standard-range double is between -4 and 14 *)
  Lemma std_decade_range : forall x K, valid x -> std_nonint_path x = true ->
    p10 K <= Rabs (RV x) < p10 (K + 1) -> (-4 <= K <= 14)%Z.
  Proof.
    intros x K Vx Hp HA. destruct (std_nonint_path_inv x Hp) as (Fx & _ & Hs & _).
    pose proof (std_range_p10 _ (valid_nabs x Vx) ltac:(now rewrite finite_nabs) Hs) as R.
    rewrite RV_nabs in R.
    assert (A : (K < 15)%Z) by (apply (lt_bpow radix10); lra).
    assert (B : (-4 < K + 1)%Z) by (apply (lt_bpow radix10); lra).
    lia.
  Qed.

  (* ACCURACY on the standard non-integer path, fx = true *)
  Theorem display_standard_accurate' : forall x K t,
    valid x -> std_nonint_path x = true ->
    p10 K <= Rabs (RV x) < p10 (K + 1) ->
    format_display_number log10 powi fmt_prec fmt_exp14 parse_f64 true x = Ok t ->
    Rabs (Q2R (denote t) - RV x) <= 5 / 8 * p10 (K - 14) /\
    Rabs (Q2R (denote t) - RV x) < p10 (K - 14).
  Proof.
    intros x K t Vx Hp HA Ht. pose proof (std_decade_range x K Vx Hp HA) as HK.
    destruct (round_sig_places x K Vx Hp HK HA) as (r & s & n & Er & Fr & Bn & DN & Dist' & Epl).
    set (N := IZR (cond_Zopp s n)) in *. set (u := p10 (K - 14)) in *.
    assert (Pu : 0 < u) by apply p10_pos.
    set (y := N * u) in *.
    set (K' := if (n =? 10 ^ 15)%Z then (K + 1)%Z else K) in *.
    (* the decimal places and the text *)
    set (dp := Z.max (14 - K') 0) in *.
    assert (Hdp : (0 <= dp <= 18)%Z) by (unfold dp, K'; destruct (n =? 10 ^ 15)%Z; lia).
    destruct (display_standard_value log10 powi fmt_prec fmt_exp14 parse_f64 true Hprec x t Hp Ht)
      as (r' & dp' & Er' & Epl' & _ & Hval).
    rewrite Er in Er'. injection Er' as <-. rewrite Epl in Epl'. injection Epl' as <-.
    destruct (Hval Fr) as [_ Vt].
    apply Qeq_eqR in Vt. rewrite Vt.
    set (D := Q2R (denote_plain (fmt_prec r dp))).
    pose proof (HF r dp Fr Hdp) as HD. fold D in HD.
    destruct (grid_of_shape dp _ (Hprec r dp Fr ltac:(lia)) ltac:(lia)) as (z & Gz). fold D in Gz.
    set (g := p10 (- dp)) in *. assert (Pg : 0 < g) by apply p10_pos.
    (* y lies on the same grid, and u <= g *)
    assert (Gy : exists z2, y = IZR z2 * g /\ u <= g).
    { unfold K' in dp. destruct (n =? 10 ^ 15)%Z eqn:C.
      - apply Z.eqb_eq in C. destruct (Z.eq_dec K 14) as [->|NK].
        + exists (cond_Zopp s n). unfold y, N, g, u, dp. change (Z.max (14 - (14 + 1)) 0) with 0%Z.
          change (14 - 14)%Z with 0%Z. change (- 0)%Z with 0%Z. split; [reflexivity|lra].
        + exists (cond_Zopp s (10 ^ 14)).
          assert (Edp : dp = (13 - K)%Z) by (unfold dp; lia).
          assert (Eg : g = 10 * u).
          { unfold g, u. rewrite Edp. replace (- (13 - K))%Z with (1 + (K - 14))%Z by lia.
            rewrite bpow_plus. reflexivity. }
          split; [|lra]. unfold y, N. rewrite Eg, C.
          destruct s; cbn [cond_Zopp]; rewrite ?opp_IZR;
            change (IZR (10 ^ 15)) with 1000000000000000; change (IZR (10 ^ 14)) with 100000000000000; lra.
      - exists (cond_Zopp s n).
        assert (Eg : g = u) by (unfold g, u, dp; f_equal; lia).
        rewrite Eg. split; [reflexivity|lra]. }
    destruct Gy as (z2 & Gy & Ug).
    (* D = y *)
    assert (DY : D = y).
    { assert (Z12 : z = z2).
      { apply (grid_eq_R z z2 g Pg). rewrite <- Gz, <- Gy.
        replace (D - y) with ((D - RV r) + (RV r - y)) by ring.
        eapply Rle_lt_trans; [apply Rabs_triang|]. lra. }
      rewrite Gz, Gy, Z12. reflexivity. }
    rewrite DY.
    (* |y - x| = u * |N - x * S| *)
    set (S := p10 (14 - K)) in *.
    assert (SU : S * u = 1).
    { unfold S, u. rewrite <- bpow_plus. replace (14 - K + (K - 14))%Z with 0%Z by lia. reflexivity. }
    assert (E : y - RV x = (N - RV x * S) * u).
    { unfold y. replace (RV x) with (RV x * (S * u)) at 1 by (rewrite SU; ring). ring. }
    rewrite E, Rabs_mult, (Rabs_pos_eq u) by lra.
    split.
    - apply Rmult_le_compat_r; lra.
    - apply Rle_lt_trans with (5 / 8 * u); [apply Rmult_le_compat_r; lra|lra].
  Qed.
End StdAccuracy.
