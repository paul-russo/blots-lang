(* Broadcast.v — property C11: the transcription [eval_binop] (Binop.v) refines the spec
   [scalar_op] / the broadcasting law [broadcast_spec] (BinopSpec.v).  All theorems are
   unbounded: every operator, all lists of any length, any element values, any state, any
   call / fn_accepts2 / powf oracle. *)
From Coq Require Import String Ascii List ZArith Bool Lia Floats.SpecFloat.
Require Import Blots.Num Blots.gen.Builtins Blots.Ast Blots.Value Blots.Outcome Blots.Binop Blots.BinopSpec.
Require Import Blots.proofs.ValueInd Blots.proofs.Order Blots.proofs.C11ExprSym.
Import ListNotations.
Local Open Scope list_scope.

(* ------------------------------------------------------------------ mapM / mapM2 *)
Lemma mapM_ext {A B} (f g : A -> outcome B) l :
  (forall x, In x l -> f x = g x) -> mapM f l = mapM g l.
Proof.
  induction l as [|x l IH]; cbn; intros H; [reflexivity|].
  rewrite (H x (or_introl eq_refl)). rewrite IH; [reflexivity|]. intros; apply H; now right.
Qed.

Lemma mapM_combine {A B C} (f : A -> B -> outcome C) l m :
  mapM (fun lr => f (fst lr) (snd lr)) (combine l m) = mapM2 f l m.
Proof.
  revert m; induction l as [|x l IH]; intros [|y m]; cbn; try reflexivity. now rewrite IH.
Qed.

(* `for idx in 0..list.len() { let item = list[idx]; ... }` is iteration over the list *)
Lemma mapM_index_seq_gen {B} (f : value -> outcome B) l : forall pre,
  mapM (fun idx => do item <- index (pre ++ l) idx; f item) (seq (length pre) (length l)) = mapM f l.
Proof.
  induction l as [|x l IH]; intros pre; cbn [length seq mapM]; [reflexivity|].
  unfold index at 1. rewrite nth_error_app2 by lia. rewrite Nat.sub_diag. cbn [nth_error obind].
  specialize (IH (pre ++ [x])). rewrite <- app_assoc in IH. cbn [app] in IH.
  rewrite app_length in IH. cbn [length] in IH. rewrite Nat.add_1_r in IH. now rewrite IH.
Qed.
Lemma mapM_index_seq {B} (f : value -> outcome B) l :
  mapM (fun idx => do item <- index l idx; f item) (seq 0 (length l)) = mapM f l.
Proof. exact (mapM_index_seq_gen f l []). Qed.

Lemma mapM2_index_seq_gen {B} (f : value -> value -> outcome B) l : forall m pl pm,
  length l = length m -> length pl = length pm ->
  mapM (fun idx => do a <- index (pl ++ l) idx; do b <- index (pm ++ m) idx; f a b)
       (seq (length pl) (length l)) = mapM2 f l m.
Proof.
  induction l as [|x l IH]; intros [|y m] pl pm Hl Hp; cbn [length seq mapM mapM2]; try discriminate;
    [reflexivity|].
  unfold index at 1 2. rewrite nth_error_app2 by lia. rewrite Nat.sub_diag.
  rewrite (nth_error_app2 pm) by lia. replace (length pl - length pm)%nat with 0%nat by lia. cbn [nth_error obind].
  specialize (IH m (pl ++ [x]) (pm ++ [y])). rewrite <- !app_assoc in IH. cbn [app] in IH.
  rewrite !app_length in IH. cbn [length] in IH. rewrite Nat.add_1_r in IH.
  rewrite IH; [reflexivity| now injection Hl | lia].
Qed.
Lemma mapM2_index_seq {B} (f : value -> value -> outcome B) l m :
  length l = length m ->
  mapM (fun idx => do a <- index l idx; do b <- index m idx; f a b) (seq 0 (length l)) = mapM2 f l m.
Proof. intros H. exact (mapM2_index_seq_gen f l m [] [] H eq_refl). Qed.

(* the specification of mapM: succeeds exactly when every element operation succeeds, with the
   element results in order; otherwise it is the outcome of the FIRST failing element *)
Lemma mapM_ok_iff {A B} (f : A -> outcome B) l ys :
  mapM f l = Ok ys <-> Forall2 (fun x y => f x = Ok y) l ys.
Proof.
  revert ys; induction l as [|x l IH]; intros ys; cbn.
  - split; intros H; [injection H as <-; constructor | inversion H; reflexivity].
  - split.
    + destruct (f x) eqn:E; cbn; try discriminate. destruct (mapM f l) eqn:E2; cbn; try discriminate.
      intros H; injection H as <-. constructor; [assumption|]. now apply IH.
    + intros H. inversion H as [|? y ? ys' Hx Hr]; subst. rewrite Hx. cbn.
      apply IH in Hr. rewrite Hr. reflexivity.
Qed.

Lemma mapM_is_ok {A B} (f : A -> outcome B) l :
  is_ok (mapM f l) = forallb (fun x => is_ok (f x)) l.
Proof.
  induction l as [|x l IH]; cbn; [reflexivity|].
  destruct (f x); cbn; try reflexivity. rewrite <- IH. now destruct (mapM f l).
Qed.

Lemma mapM_first_failure {A B} (f : A -> outcome B) pre x post ys :
  mapM f pre = Ok ys -> is_ok (f x) = false ->
  mapM f (pre ++ x :: post) = obind (f x) (fun _ => Ok []).
Proof.
  revert ys; induction pre as [|p pre IH]; intros ys; cbn.
  - intros _ Hx. destruct (f x); cbn in *; try reflexivity. discriminate.
  - destruct (f p); cbn; try discriminate. destruct (mapM f pre) eqn:E; cbn; try discriminate.
    intros _ Hx. rewrite (IH _ eq_refl Hx). now destruct (f x).
Qed.

Lemma mapM_length {A B} (f : A -> outcome B) l ys : mapM f l = Ok ys -> length ys = length l.
Proof. intros H. apply mapM_ok_iff in H. induction H; cbn; congruence. Qed.

Lemma mapM_nth {A B} (f : A -> outcome B) l ys i x :
  mapM f l = Ok ys -> nth_error l i = Some x -> exists y, nth_error ys i = Some y /\ f x = Ok y.
Proof.
  intros H. apply mapM_ok_iff in H. revert i. induction H as [|a b l ys Hab _ IH]; intros [|i]; cbn; try discriminate.
  - intros E; injection E as <-. eauto.
  - apply IH.
Qed.

Lemma nth_error_combine {A B} (l : list A) (m : list B) i x y :
  nth_error l i = Some x -> nth_error m i = Some y -> nth_error (combine l m) i = Some (x, y).
Proof.
  revert m i. induction l as [|a l IH]; intros [|b m] [|i]; cbn; try discriminate.
  - intros E1 E2; injection E1 as <-; injection E2 as <-; reflexivity.
  - apply IH.
Qed.

Lemma is_ok_list_result {A} (f : A -> outcome value) l :
  is_ok (omap VList (mapM f l)) = forallb (fun x => is_ok (f x)) l.
Proof. rewrite <- mapM_is_ok. now destruct (mapM f l). Qed.

Lemma list_result_elementwise {A} (f : A -> outcome value) l v :
  omap VList (mapM f l) = Ok v ->
  exists r, v = VList r /\ length r = length l /\
    forall i x, nth_error l i = Some x -> exists y, nth_error r i = Some y /\ f x = Ok y.
Proof.
  destruct (mapM f l) as [r| | | |] eqn:E; cbn; intros H; try discriminate.
  injection H as <-. exists r. split; [reflexivity|]. split; [eapply mapM_length; eauto|].
  intros i x Hx. eapply mapM_nth; eauto.
Qed.

(* ------------------------------------------------------------------ numbers *)
Lemma nmul_comm x y : nmul x y = nmul y x.
Proof.
  unfold nmul, SFmul.
  destruct x as [sx|sx| |sx mx ex], y as [sy|sy| |sy my ey]; try reflexivity;
    try (now rewrite xorb_comm).
  now rewrite xorb_comm, Pos.mul_comm, Z.add_comm.
Qed.

(* ------------------------------------------------------------------ the Rust expression shapes = the spec clauses *)
Lemma num2_arith f a b : num2 f a b = arith f a b.
Proof. destruct a, b; reflexivity. Qed.
Lemma and_q_spec a b : and_q a b = logic_and a b.
Proof. destruct a as [| [|] | | | | | | |]; try reflexivity; destruct b; reflexivity. Qed.
Lemma or_q_spec a b : or_q a b = logic_or a b.
Proof. destruct a as [| [|] | | | | | | |]; try reflexivity; destruct b; reflexivity. Qed.
Lemma check_ord_ordered e a b :
  (do r <- check_ord (compare a b) e; Ok (VBool r)) = ordered e a b.
Proof. unfold check_ord, check_ordering, ordered. now destruct (compare a b). Qed.
Lemma coalesce_spec a b : (if is_null a then b else a) = match a with VNull => b | _ => a end.
Proof. now destruct a. Qed.

Section Broadcast.
  Variable St : Type.
  Variable call : value -> value -> list value -> St -> outcome value * St.
  Variable fn_accepts2 : value -> bool.
  Variable powf : num -> num -> num.

  Notation eval := (eval_binop St call fn_accepts2 powf).
  Notation sop := (scalar_op powf).

  Lemma add_match_spec a b : add_match a b = sop Add a b.
  Proof. destruct a, b; reflexivity. Qed.

  (* ---------------------------------------------------------------- P0 scalar arm = spec *)
  Theorem scalar_arm_is_spec op a b st :
    broadcasting op = true -> is_list a = false -> is_list b = false ->
    eval op a b st = (sop op a b, st).
  Proof.
    intros Hop Ha Hb.
    assert (E : eval op a b st = arm_scalar St call powf op a b st).
    { destruct op; try discriminate Hop; destruct a; try discriminate Ha; destruct b; try discriminate Hb;
        reflexivity. }
    rewrite E. clear E.
    destruct op; try discriminate Hop; unfold arm_scalar, lift; cbn [sop];
      rewrite ?check_ord_ordered, ?num2_arith, ?and_q_spec, ?or_q_spec, ?coalesce_spec; try reflexivity.
    (* Add: the scalar arm decides by the LEFT operand's type only *)
    destruct a; try discriminate Ha; destruct b; reflexivity.
  Qed.

  (* ---------------------------------------------------------------- P0 list ∘ scalar, scalar ∘ list *)
  (* what the arm computes, whichever side the list is on: element and scalar in source order,
     except that == and != always compute v.equals(&scalar), the element first *)
  Lemma arm_list_scalar_spec op first l s st :
    broadcasting op = true ->
    arm_list_scalar St call fn_accepts2 powf op first l s st
    = (omap VList (mapM (fun x => if first then sop op x s else
                                  match op with Equal | NotEqual => sop op x s | _ => sop op s x end) l), st).
  Proof.
    intros Hop.
    destruct op; try discriminate Hop; unfold arm_list_scalar, lift; cbn [expected_of obind sop]; f_equal; f_equal;
      try (destruct first; apply mapM_ext; intros x _;
           rewrite ?check_ord_ordered, ?num2_arith, ?and_q_spec, ?or_q_spec, ?coalesce_spec; reflexivity).
    - (* Add: the index loop *)
      rewrite (mapM_index_seq (fun item => if first then add_match item s else add_match s item)).
      destruct first; apply mapM_ext; intros; apply add_match_spec.
    - (* Multiply: v * scalar also for scalar * v *)
      destruct first; apply mapM_ext; intros x _; rewrite num2_arith; [reflexivity|].
      destruct x, s; try reflexivity. cbn. now rewrite nmul_comm.
  Qed.

  Theorem broadcast_list_scalar op l s st :
    broadcasting op = true -> is_list s = false ->
    eval op (VList l) s st = (omap VList (mapM (fun x => sop op x s) l), st).
  Proof.
    intros Hop Hs. rewrite <- (arm_list_scalar_spec op true l s st Hop).
    destruct op; try discriminate Hop; destruct s; try discriminate Hs; reflexivity.
  Qed.

  (* == and != : the arm computes v.equals(&scalar) although the scalar is the LEFT operand;
     this is the law only because Value::equals is symmetric on the values at hand *)
  Definition eq_sym_on (op : binop) (s : value) (l : list value) : Prop :=
    match op with
    | Equal | NotEqual => forall x, In x l -> equals x s = equals s x
    | _ => True
    end.

  Lemma scalar_list_arm op s l st :
    broadcasting op = true -> is_list s = false ->
    eval op s (VList l) st
    = (omap VList (mapM (fun x => match op with Equal | NotEqual => sop op x s | _ => sop op s x end) l), st).
  Proof.
    intros Hop Hs. rewrite <- (arm_list_scalar_spec op false l s st Hop).
    destruct op; try discriminate Hop; destruct s; try discriminate Hs; reflexivity.
  Qed.

  Theorem broadcast_scalar_list op s l st :
    broadcasting op = true -> is_list s = false -> eq_sym_on op s l ->
    eval op s (VList l) st = (omap VList (mapM (fun x => sop op s x) l), st).
  Proof.
    intros Hop Hs Hsym. rewrite scalar_list_arm by assumption. f_equal. f_equal.
    apply mapM_ext; intros x Hx. destruct op; try reflexivity; cbn in Hsym |- *; now rewrite Hsym.
  Qed.

  (* ---------------------------------------------------------------- P0 list ∘ list *)
  Theorem broadcast_list_list op l m st :
    broadcasting op = true -> length l = length m ->
    eval op (VList l) (VList m) st = (omap VList (mapM2 (sop op) l m), st).
  Proof.
    intros Hop Hlen.
    assert (E : eval op (VList l) (VList m) st = arm_list_list St call powf op l m st).
    { destruct op; try discriminate Hop; reflexivity. }
    rewrite E. clear E. unfold arm_list_list. rewrite Hlen, Nat.eqb_refl. cbn [negb]. rewrite <- Hlen.
    destruct op; try discriminate Hop; unfold lift; cbn [expected_of obind]; f_equal; f_equal;
      rewrite <- ?(mapM_combine (sop _));
      try (apply mapM_ext; intros [x y] _; cbn [fst snd sop];
           rewrite ?check_ord_ordered, ?num2_arith, ?and_q_spec, ?or_q_spec, ?coalesce_spec; reflexivity).
    (* Add: the index loop over both lists *)
    rewrite (mapM2_index_seq add_match l m Hlen). rewrite <- mapM_combine.
    apply mapM_ext; intros [x y] _. apply add_match_spec.
  Qed.

  Theorem broadcast_length_mismatch op l m st :
    broadcasting op = true -> length l <> length m ->
    eval op (VList l) (VList m) st = (Err, st).
  Proof.
    intros Hop Hlen.
    assert (E : eval op (VList l) (VList m) st = arm_list_list St call powf op l m st).
    { destruct op; try discriminate Hop; reflexivity. }
    rewrite E. unfold arm_list_list. apply Nat.eqb_neq in Hlen. rewrite Hlen. reflexivity.
  Qed.

  (* ---------------------------------------------------------------- P0 dot operators never broadcast *)
  Theorem dot_never_broadcasts op a b st :
    is_dot op = true -> eval op a b st = (sop op a b, st).
  Proof.
    intros Hop. destruct op; try discriminate Hop; cbn [eval_binop sop];
      rewrite ?check_ord_ordered; reflexivity.
  Qed.
End Broadcast.

(* ================================================================== symmetry of Value::equals
   on well-formed values: the IndexMap invariant (record keys unique) everywhere below; NaN is
   allowed, function values are allowed (their equality is equality of parameter lists and AST
   bodies, symmetric by C11ExprSym.expr_eqb_sym; captured scopes are not compared).  This discharges [eq_sym_on] (the list∘scalar arm computes v.equals(&scalar)
   whichever side the list is on). *)
Fixpoint wf_value (v : value) : bool :=
  match v with
  | VNum _ | VBool _ | VNull | VStr _ | VBuiltin _ => true
  | VList l => forallb wf_value l
  | VRec r => nodup_keys r && forallb (fun kv => wf_value (snd kv)) r
  | VLam _ _ _ _ => true
  | VSpread v => wf_value v
  end.

Lemma equals_sym_wf a : forall b, wf_value a = true -> wf_value b = true -> equals a b = equals b a.
Proof.
  induction a as [x|x| |s|l IH|r IH|id ar bd sc _|bi|v IHv] using value_ind';
    intros [y|y| |t|m|r2|id2 ar2 bd2 sc2|bi2|v2]; try reflexivity; try (cbn; discriminate).
  - intros _ _. apply neqb_sym.
  - intros _ _. cbn. now destruct x, y.
  - intros _ _. cbn. apply String.eqb_sym.
  - exact (eq_list_sym wf_value l IH m).
  - cbn [wf_value]. intros H1 H2. apply andb_prop in H1 as [Hnd1 Hd1]. apply andb_prop in H2 as [Hnd2 Hd2].
    now apply (equals_rec_sym wf_value).
  - intros _ _. cbn. now rewrite (list_eqb_sym lamarg_eqb lamarg_eqb_sym ar ar2), (expr_eqb_sym bd bd2).
  - intros _ _. cbn. apply builtin_eqb_sym'.
  - cbn [wf_value]. intros H1 H2.
    destruct v as [| | |s1|l1|r1| | |], v2 as [| | |s2|l2|r2'| | |]; try reflexivity.
    + exact (IHv (VStr s2) H1 H2).
    + exact (IHv (VList l2) H1 H2).
    + exact (IHv (VRec r2') H1 H2).
Qed.

Lemma eq_sym_on_wf op s l :
  wf_value s = true -> forallb wf_value l = true -> eq_sym_on op s l.
Proof.
  intros Hs Hl. destruct op; cbn; trivial; intros x Hx; apply equals_sym_wf; auto;
    rewrite forallb_forall in Hl; auto.
Qed.

(* ================================================================== the spec itself says what the property says *)
Section SpecFacts.
  Variable powf : num -> num -> num.
  Notation sop := (scalar_op powf).

  (* + - * / compute the IEEE-754 binary64 result (SpecFloat, round to nearest even), % is the exact
     C fmod, ^ is powf; + also concatenates two strings; nothing else is accepted *)
  Lemma scalar_numbers x y :
    sop Add (VNum x) (VNum y) = Ok (VNum (SFadd 53 1024 x y)) /\
    sop Subtract (VNum x) (VNum y) = Ok (VNum (SFsub 53 1024 x y)) /\
    sop Multiply (VNum x) (VNum y) = Ok (VNum (SFmul 53 1024 x y)) /\
    sop Divide (VNum x) (VNum y) = Ok (VNum (SFdiv 53 1024 x y)) /\
    sop Modulo (VNum x) (VNum y) = Ok (VNum (nfmod x y)) /\
    sop Power (VNum x) (VNum y) = Ok (VNum (powf x y)).
  Proof. repeat split. Qed.

  Lemma scalar_string_concat s t : sop Add (VStr s) (VStr t) = Ok (VStr (s ++ t)).
  Proof. reflexivity. Qed.

  Definition is_arith (op : binop) : bool :=
    match op with Add | Subtract | Multiply | Divide | Modulo | Power => true | _ => false end.

  Lemma scalar_arith_domain op a b v :
    is_arith op = true -> sop op a b = Ok v ->
    (exists x y, a = VNum x /\ b = VNum y) \/ (op = Add /\ exists s t, a = VStr s /\ b = VStr t).
  Proof.
    intros Hop H. destruct op; try discriminate Hop; destruct a, b; try discriminate H; eauto 8.
  Qed.

  (* comparisons follow the value ordering Value::compare (C12 shows it is an order) *)
  Lemma scalar_comparisons a b :
    sop Equal a b = Ok (VBool (equals a b)) /\
    sop NotEqual a b = Ok (VBool (negb (equals a b))) /\
    match compare a b with
    | Some o =>
        sop Less a b = Ok (VBool (match o with Lt => true | _ => false end)) /\
        sop LessEq a b = Ok (VBool (match o with Gt => false | _ => true end)) /\
        sop Greater a b = Ok (VBool (match o with Gt => true | _ => false end)) /\
        sop GreaterEq a b = Ok (VBool (match o with Lt => false | _ => true end))
    | None =>
        sop Less a b = Err /\ sop LessEq a b = Err /\ sop Greater a b = Err /\ sop GreaterEq a b = Err
    end.
  Proof.
    repeat split. cbn [scalar_op]. unfold ordered. destruct (compare a b) as [[]|]; repeat split.
  Qed.

  (* and / or require booleans: the left operand must be one; the right one must be one whenever the
     left does not decide; on booleans they are conjunction / disjunction *)
  Lemma scalar_and_or_booleans x y :
    sop And (VBool x) (VBool y) = Ok (VBool (x && y)) /\ sop NaturalAnd (VBool x) (VBool y) = Ok (VBool (x && y)) /\
    sop Or (VBool x) (VBool y) = Ok (VBool (x || y)) /\ sop NaturalOr (VBool x) (VBool y) = Ok (VBool (x || y)).
  Proof. destruct x, y; repeat split. Qed.

  Lemma scalar_and_or_require_booleans op a b v :
    (op = And \/ op = NaturalAnd \/ op = Or \/ op = NaturalOr) -> sop op a b = Ok v ->
    exists x r, a = VBool x /\ v = VBool r /\
      (* the right operand is a boolean unless the left one decided alone *)
      ((exists y, b = VBool y) \/ x = (match op with And | NaturalAnd => false | _ => true end)).
  Proof.
    intros Hop H. destruct Hop as [-> | [-> | [-> | ->]]]; destruct a as [|[|]| | | | | | |]; try discriminate H;
      destruct b; try discriminate H; cbn in H; injection H as <-; eauto 8.
  Qed.

  Lemma scalar_and_or_left_not_boolean op a b :
    (op = And \/ op = NaturalAnd \/ op = Or \/ op = NaturalOr) ->
    (forall x, a <> VBool x) -> sop op a b = Err.
  Proof.
    intros Hop H. destruct Hop as [-> | [-> | [-> | ->]]]; destruct a as [|x| | | | | | |]; try reflexivity;
      exfalso; apply (H x); reflexivity.
  Qed.

  (* ?? returns its right operand exactly when the left is null *)
  Lemma scalar_coalesce a b :
    (a = VNull -> sop Coalesce a b = Ok b) /\ (a <> VNull -> sop Coalesce a b = Ok a).
  Proof. split; intros H; [subst; reflexivity|]. destruct a; try reflexivity. now elim H. Qed.

  (* a broadcasting operator on two values is a value or an ordinary error: never a panic *)
  Lemma scalar_op_ok_or_err op a b :
    broadcasting op = true \/ is_dot op = true -> (exists v, sop op a b = Ok v) \/ sop op a b = Err.
  Proof.
    intros [Hop|Hop]; destruct op; try discriminate Hop; cbn [scalar_op]; unfold arith, ordered, logic_and, logic_or;
      try (left; eexists; reflexivity);
      try (destruct (compare a b); [left; eexists; reflexivity | right; reflexivity]);
      destruct a as [| [|] | | | | | | |]; try (right; reflexivity); try (left; eexists; reflexivity);
      destruct b; try (right; reflexivity); left; eexists; reflexivity.
  Qed.
End SpecFacts.

(* ================================================================== consequences of the law *)
Section Consequences.
  Variable St : Type.
  Variable call : value -> value -> list value -> St -> outcome value * St.
  Variable fn_accepts2 : value -> bool.
  Variable powf : num -> num -> num.
  Notation eval := (eval_binop St call fn_accepts2 powf).
  Notation sop := (scalar_op powf).
  Notation bspec := (broadcast_spec powf).

  (* one statement for all shapes: a broadcasting operator computes [broadcast_spec] *)
  Theorem broadcasting_law op a b st :
    broadcasting op = true ->
    (forall l, b = VList l -> is_list a = false -> eq_sym_on op a l) ->
    eval op a b st = (bspec op a b, st).
  Proof.
    intros Hop Hsym.
    destruct (is_list a) eqn:Ha, (is_list b) eqn:Hb.
    - destruct a as [| | | |l| | | |]; try discriminate Ha. destruct b as [| | | |m| | | |]; try discriminate Hb.
      cbn [broadcast_spec]. destruct (Nat.eqb_spec (length l) (length m)) as [E|N].
      + now apply broadcast_list_list.
      + now apply broadcast_length_mismatch.
    - destruct a as [| | | |l| | | |]; try discriminate Ha.
      rewrite (broadcast_list_scalar St call fn_accepts2 powf op l b st Hop Hb).
      destruct b; try discriminate Hb; reflexivity.
    - destruct b as [| | | |l| | | |]; try discriminate Hb.
      rewrite (broadcast_scalar_list St call fn_accepts2 powf op a l st Hop Ha (Hsym l eq_refl eq_refl)).
      destruct a; try discriminate Ha; reflexivity.
    - rewrite (scalar_arm_is_spec St call fn_accepts2 powf op a b st Hop Ha Hb).
      destruct a; try discriminate Ha; destruct b; try discriminate Hb; reflexivity.
  Qed.

  (* "fails exactly when some element operation fails or the lengths differ" *)
  Theorem list_scalar_ok_iff op l s st :
    broadcasting op = true -> is_list s = false ->
    is_ok (fst (eval op (VList l) s st)) = forallb (fun x => is_ok (sop op x s)) l.
  Proof. intros Hop Hs. rewrite broadcast_list_scalar by assumption. apply is_ok_list_result. Qed.

  Theorem scalar_list_ok_iff op s l st :
    broadcasting op = true -> is_list s = false -> eq_sym_on op s l ->
    is_ok (fst (eval op s (VList l) st)) = forallb (fun x => is_ok (sop op s x)) l.
  Proof. intros Hop Hs Hsym. rewrite broadcast_scalar_list by assumption. apply is_ok_list_result. Qed.

  Theorem list_list_ok_iff op l m st :
    broadcasting op = true ->
    is_ok (fst (eval op (VList l) (VList m) st))
    = Nat.eqb (length l) (length m) && forallb (fun p => is_ok (sop op (fst p) (snd p))) (combine l m).
  Proof.
    intros Hop. destruct (Nat.eqb_spec (length l) (length m)) as [E|N].
    - rewrite broadcast_list_list by assumption. rewrite <- mapM_combine. apply is_ok_list_result.
    - rewrite broadcast_length_mismatch by assumption. reflexivity.
  Qed.

  (* ... and when it succeeds the result is the list of the element results, position by position *)
  Theorem list_scalar_elementwise op l s st v st' :
    broadcasting op = true -> is_list s = false ->
    eval op (VList l) s st = (Ok v, st') ->
    st' = st /\ exists r, v = VList r /\ length r = length l /\
      forall i x, nth_error l i = Some x -> exists y, nth_error r i = Some y /\ sop op x s = Ok y.
  Proof.
    intros Hop Hs. rewrite broadcast_list_scalar by assumption. intros H. injection H as H <-.
    split; [reflexivity|]. now apply list_result_elementwise.
  Qed.

  Theorem scalar_list_elementwise op s l st v st' :
    broadcasting op = true -> is_list s = false -> eq_sym_on op s l ->
    eval op s (VList l) st = (Ok v, st') ->
    st' = st /\ exists r, v = VList r /\ length r = length l /\
      forall i x, nth_error l i = Some x -> exists y, nth_error r i = Some y /\ sop op s x = Ok y.
  Proof.
    intros Hop Hs Hsym. rewrite broadcast_scalar_list by assumption. intros H. injection H as H <-.
    split; [reflexivity|]. now apply list_result_elementwise.
  Qed.

  Theorem list_list_elementwise op l m st v st' :
    broadcasting op = true ->
    eval op (VList l) (VList m) st = (Ok v, st') ->
    st' = st /\ length l = length m /\ exists r, v = VList r /\ length r = length l /\
      forall i x y, nth_error l i = Some x -> nth_error m i = Some y ->
                    exists z, nth_error r i = Some z /\ sop op x y = Ok z.
  Proof.
    intros Hop. destruct (Nat.eq_dec (length l) (length m)) as [E|N].
    - rewrite broadcast_list_list by assumption. rewrite <- mapM_combine. intros H. injection H as H <-.
      split; [reflexivity|]. split; [assumption|].
      destruct (list_result_elementwise _ _ _ H) as (r & -> & Hlen & Hnth). exists r.
      split; [reflexivity|]. split; [rewrite Hlen, combine_length; lia|].
      intros i x y Hx Hy. apply (Hnth i (x, y)). now apply nth_error_combine.
    - rewrite broadcast_length_mismatch by assumption. discriminate.
  Qed.

  (* the first failing element decides: elements after it are not looked at *)
  Theorem list_scalar_first_failure op pre x post s st ys :
    broadcasting op = true -> is_list s = false ->
    mapM (fun e => sop op e s) pre = Ok ys -> is_ok (sop op x s) = false ->
    eval op (VList (pre ++ x :: post)) s st = (Err, st).
  Proof.
    intros Hop Hs Hpre Hx. rewrite broadcast_list_scalar by assumption.
    rewrite (mapM_first_failure _ pre x post ys Hpre Hx).
    destruct (scalar_op_ok_or_err powf op x s (or_introl Hop)) as [[v Hv]|He].
    - rewrite Hv in Hx. discriminate.
    - rewrite He. reflexivity.
  Qed.

  (* no panic, no state change: the 17 broadcasting operators and the 6 dot operators are pure
     and total (a value or an ordinary error) on ALL operands *)
  Theorem pure_ops_total op a b st :
    broadcasting op = true \/ is_dot op = true ->
    snd (eval op a b st) = st /\
    ((exists v, fst (eval op a b st) = Ok v) \/ fst (eval op a b st) = Err).
  Proof.
    intros [Hop|Hop].
    2:{ rewrite dot_never_broadcasts by assumption. split; [reflexivity|].
        apply scalar_op_ok_or_err. now right. }
    assert (G : forall o : outcome (list value), (exists ys, o = Ok ys) \/ o = Err ->
                (exists v, omap VList o = Ok v) \/ omap VList o = Err).
    { intros o [[ys ->] | ->]; cbn; eauto. }
    assert (M1 : forall (A : Type) (f : A -> outcome value) (l : list A),
               (forall x, (exists v, f x = Ok v) \/ f x = Err) -> (exists ys, mapM f l = Ok ys) \/ mapM f l = Err).
    { intros A f l Hf. induction l as [|x l IH]; cbn; [eauto|].
      destruct (Hf x) as [[v ->] | ->]; cbn; [|now right].
      destruct IH as [[ys ->] | ->]; cbn; eauto. }
    destruct (is_list a) eqn:Ha, (is_list b) eqn:Hb.
    - destruct a as [| | | |l| | | |]; try discriminate Ha. destruct b as [| | | |m| | | |]; try discriminate Hb.
      destruct (Nat.eq_dec (length l) (length m)) as [E|N].
      + rewrite broadcast_list_list by assumption. split; [reflexivity|]. cbn [fst]. apply G.
        rewrite <- mapM_combine.
        apply M1. intros [x y]. apply scalar_op_ok_or_err. now left.
      + rewrite broadcast_length_mismatch by assumption. split; [reflexivity|now right].
    - destruct a as [| | | |l| | | |]; try discriminate Ha.
      rewrite broadcast_list_scalar by assumption. split; [reflexivity|]. cbn [fst]. apply G, M1.
      intros x. apply scalar_op_ok_or_err. now left.
    - destruct b as [| | | |l| | | |]; try discriminate Hb.
      rewrite scalar_list_arm by assumption. split; [reflexivity|]. cbn [fst]. apply G, M1.
      intros x. destruct op; apply scalar_op_ok_or_err; now left.
    - rewrite scalar_arm_is_spec by assumption. split; [reflexivity|]. apply scalar_op_ok_or_err. now left.
  Qed.
End Consequences.

(* ================================================================== no operator application aborts
   For ALL 26 operators (including via / into / where and the unreachable!() arms), all operands:
   if the callback oracle never panics, neither does eval_binop — i.e. the unreachable!() arms are
   unreachable (the dot operators return first, `(_, List) if op == Into` precedes the list arms)
   and every `list[idx]` inside a `for idx in 0..list_len` loop is in range. *)
Section NoPanic.
  Variable St : Type.
  Variable call : value -> value -> list value -> St -> outcome value * St.
  Variable fn_accepts2 : value -> bool.
  Variable powf : num -> num -> num.
  Hypothesis call_no_panic : forall t f args st, fst (call t f args st) <> Panic.
  Notation eval := (eval_binop St call fn_accepts2 powf).

  Lemma bindM_no_panic {A B} (m : M St A) (f : A -> M St B) st :
    fst (m st) <> Panic -> (forall a st1, m st = (Ok a, st1) -> fst (f a st1) <> Panic) ->
    fst (bindM St m f st) <> Panic.
  Proof.
    unfold bindM. destruct (m st) as [[a| | | |] st1]; cbn; intros H1 H2; try discriminate; auto.
  Qed.

  Lemma for_each_no_panic {B} idxs (body : nat -> M St B) : forall st,
    (forall i st1, In i idxs -> fst (body i st1) <> Panic) ->
    fst (for_each St idxs body st) <> Panic.
  Proof.
    induction idxs as [|i r IH]; intros st H; cbn [for_each]; [unfold lift; cbn; discriminate|].
    apply bindM_no_panic; [apply H; now left|]. intros y st1 _.
    apply bindM_no_panic; [apply IH; intros; apply H; now right|].
    intros ys st2 _. unfold lift. cbn. discriminate.
  Qed.

  Lemma index_in_range l i : In i (seq 0 (length l)) -> exists v, index l i = Ok v.
  Proof.
    intros H. apply in_seq in H. unfold index. destruct (nth_error l i) eqn:E; [eauto|].
    apply nth_error_None in E. lia.
  Qed.

  Lemma lift_no_panic {A} (o : outcome A) st : o <> Panic -> fst (lift St o st) <> Panic.
  Proof. auto. Qed.

  Definition callback_op (op : binop) : bool :=
    match op with Via | Into | Where => true | _ => false end.

  Lemma arm_scalar_no_panic op a b st :
    callback_op op = true -> fst (arm_scalar St call powf op a b st) <> Panic.
  Proof.
    intros Hop. destruct op; try discriminate Hop; unfold arm_scalar.
    - destruct (negb (is_callable b)); [apply lift_no_panic; discriminate | apply call_no_panic].
    - destruct (negb (is_callable b)); [apply lift_no_panic; discriminate | apply call_no_panic].
    - apply lift_no_panic; discriminate.
  Qed.

  Lemma arm_list_scalar_no_panic op first l s st :
    callback_op op = true -> fst (arm_list_scalar St call fn_accepts2 powf op first l s st) <> Panic.
  Proof.
    (* all three want the list on the left and a callable on the right *)
    intros Hop. destruct op; try discriminate Hop; unfold arm_list_scalar;
      (destruct first; [|apply lift_no_panic; discriminate]);
      (destruct (negb (is_callable s)); [apply lift_no_panic; discriminate|]).
    - (* Via *)
      apply bindM_no_panic; [|intros; apply lift_no_panic; discriminate].
      apply for_each_no_panic. intros i st1 Hi. destruct (index_in_range l i Hi) as [v Hv].
      apply bindM_no_panic; [rewrite Hv; apply lift_no_panic; discriminate|].
      intros; apply call_no_panic.
    - (* Into *) apply call_no_panic.
    - (* Where *)
      apply bindM_no_panic; [|intros; apply lift_no_panic; discriminate].
      apply for_each_no_panic. intros i st1 Hi. destruct (index_in_range l i Hi) as [v Hv].
      apply bindM_no_panic; [rewrite Hv; apply lift_no_panic; discriminate|].
      intros item st2 _. apply bindM_no_panic; [apply call_no_panic|].
      intros result st3 _. apply bindM_no_panic; [apply lift_no_panic; destruct result; discriminate|].
      intros; apply lift_no_panic; discriminate.
  Qed.

  Lemma arm_list_list_no_panic op l m st :
    op = Via \/ op = Where -> fst (arm_list_list St call powf op l m st) <> Panic.
  Proof.
    intros Hop. unfold arm_list_list.
    destruct (negb (length l =? length m)%nat) eqn:El; [apply lift_no_panic; discriminate|].
    apply negb_false_iff, Nat.eqb_eq in El.
    destruct Hop as [-> | ->]; [|apply lift_no_panic; discriminate].
    apply bindM_no_panic; [|intros; apply lift_no_panic; discriminate].
    apply for_each_no_panic. intros i st1 Hi.
    destruct (index_in_range l i Hi) as [v Hv]. rewrite El in Hi. destruct (index_in_range m i Hi) as [w Hw].
    apply bindM_no_panic; [rewrite Hv, Hw; apply lift_no_panic; discriminate|].
    intros [l0 r0] st2 _. cbn [fst snd].
    destruct (negb (is_lambda r0) && negb (is_built_in r0)); [apply lift_no_panic; discriminate | apply call_no_panic].
  Qed.

  Theorem binop_never_panics op a b st : fst (eval op a b st) <> Panic.
  Proof.
    destruct (broadcasting op || is_dot op) eqn:Hpure.
    { apply orb_true_iff in Hpure.
      destruct (pure_ops_total St call fn_accepts2 powf op a b st Hpure) as [_ [[v ->]| ->]]; discriminate. }
    assert (Hcb : callback_op op = true) by (destruct op; try discriminate Hpure; reflexivity).
    assert (E : eval op a b st =
                if is_list b && binop_eqb op Into then (Err, st) else
                match a, b with
                | VList list_l, VList list_r => arm_list_list St call powf op list_l list_r st
                | VList list, scalar => arm_list_scalar St call fn_accepts2 powf op true list scalar st
                | scalar, VList list => arm_list_scalar St call fn_accepts2 powf op false list scalar st
                | _, _ => arm_scalar St call powf op a b st
                end).
    { destruct op; try discriminate Hcb; reflexivity. }
    rewrite E. clear E.
    destruct (is_list b && binop_eqb op Into) eqn:Hinto; [cbn; discriminate|].
    destruct a as [| | | |l| | | |], b as [| | | |m| | | |];
      try (now apply arm_scalar_no_panic); try (now apply arm_list_scalar_no_panic).
    apply arm_list_list_no_panic.
    destruct op; try discriminate Hcb; auto. cbn in Hinto. discriminate.
  Qed.
End NoPanic.

(* ================================================================== the law on well-formed values *)
Section LawWf.
  Variable St : Type.
  Variable call : value -> value -> list value -> St -> outcome value * St.
  Variable fn_accepts2 : value -> bool.
  Variable powf : num -> num -> num.
  Notation eval := (eval_binop St call fn_accepts2 powf).

  Theorem broadcasting_law_wf op a b st :
    broadcasting op = true -> wf_value a = true -> wf_value b = true ->
    eval op a b st = (broadcast_spec powf op a b, st).
  Proof.
    intros Hop Ha Hb. apply broadcasting_law; [assumption|].
    intros l -> _. now apply eq_sym_on_wf.
  Qed.

  Theorem broadcast_scalar_list_wf op s l st :
    broadcasting op = true -> is_list s = false -> wf_value s = true -> forallb wf_value l = true ->
    eval op s (VList l) st = (omap VList (mapM (fun x => scalar_op powf op s x) l), st).
  Proof. intros Hop Hs Hw Hl. apply broadcast_scalar_list; auto. now apply eq_sym_on_wf. Qed.
End LawWf.

(* the symmetry hypothesis cannot simply be dropped in the MODEL: a record term with a repeated
   key (which no IndexMap can hold) makes Value::equals asymmetric, and then `s == [x]` computed as
   x.equals(s) differs from s.equals(x) *)
Lemma scalar_list_eq_needs_unique_keys :
  exists s x, equals x s <> equals s x /\
    forall St call acc powf (st : St),
      eval_binop St call acc powf Equal s (VList [x]) st
      <> (omap VList (mapM (fun y => scalar_op powf Equal s y) [x]), st).
Proof.
  exists (VRec [("a"%string, VNum nzero); ("b"%string, VNum nzero)]),
         (VRec [("a"%string, VNum nzero); ("a"%string, VNum nzero)]).
  split; [vm_compute; discriminate|]. intros. vm_compute. intros H. discriminate H.
Qed.
