(* proofs/NumTextStr.v — string-level lemmas for C16: how the number grammar, the literal
   conversion and Rust's float grammar behave on plain decimal texts  ddd  and  ddd.ddd . *)
From Coq Require Import ZArith Floats.SpecFloat Bool List String Ascii Lia.
Require Import Blots.Num Blots.Outcome Blots.gen.Builtins Blots.Ast Blots.NumText Blots.proofs.StringFacts.
Import ListNotations.
Open Scope string_scope.

(* ---------------------------------------------------------------- characters *)
Ltac ascii_cases c := destruct c as [[|] [|] [|] [|] [|] [|] [|] [|]].

Lemma digit_facts : forall c, is_digit c = true ->
  Ascii.eqb c "+" = false /\ Ascii.eqb c "-" = false /\ Ascii.eqb c "." = false /\
  Ascii.eqb c "_" = false /\ Ascii.eqb "+" c = false /\ Ascii.eqb "-" c = false /\
  Ascii.eqb "b" c = false /\ Ascii.eqb "x" c = false /\ Ascii.eqb "_" c = false /\
  Ascii.eqb "." c = false /\ lower_c c = c /\ Ascii.eqb c "i" = false /\ Ascii.eqb c "n" = false.
Proof. intros c H. ascii_cases c; try discriminate H; repeat split; reflexivity. Qed.

Lemma split_sign_digit : forall c r, is_digit c = true -> split_sign (String c r) = (false, String c r).
Proof. intros c r H. ascii_cases c; try discriminate H; reflexivity. Qed.
Lemma count_neg_digit : forall c r, is_digit c = true -> count_neg (String c r) = (O, String c r).
Proof. intros c r H. ascii_cases c; try discriminate H; reflexivity. Qed.
Lemma dot_not_digit : is_digit "." = false. Proof. reflexivity. Qed.

Definition no_digit_head (r : string) : Prop :=
  match r with String c _ => is_digit c = false | EmptyString => True end.
(* what may follow the integer digits of a plain decimal text: nothing, or ".ddd" *)
Definition dot_or_end (r : string) : Prop :=
  match r with String c _ => c = "."%char | EmptyString => True end.
Lemma dot_or_end_no_digit : forall r, dot_or_end r -> no_digit_head r.
Proof. intros [|c r] H; simpl in *; auto. subst. reflexivity. Qed.

(* ---------------------------------------------------------------- digit strings *)
Lemma span_digits_app : forall d r, all_digits d = true -> no_digit_head r -> span_digits (d ++ r) = (d, r).
Proof.
  induction d as [|c d IH]; intros r Hd Hr; simpl in *.
  - destruct r as [|c r]; simpl in *; [reflexivity | now rewrite Hr].
  - apply andb_prop in Hd. destruct Hd as [Hc Hd]. rewrite Hc, (IH r Hd Hr). reflexivity.
Qed.
Lemma span_digits_all : forall d, all_digits d = true -> span_digits d = (d, "").
Proof. intros d H. rewrite <- (append_nil_r d) at 1. now apply span_digits_app. Qed.
  
Lemma digits_val_app : forall a b acc, digits_val (a ++ b) acc = digits_val b (digits_val a acc).
Proof. induction a; intros; simpl; auto. Qed.

Lemma digits_val_nonneg : forall d acc, all_digits d = true -> (0 <= acc -> 0 <= digits_val d acc)%Z.
Proof.
  induction d as [|c d IH]; intros acc H Ha; simpl in *; auto.
  apply andb_prop in H. destruct H as [Hc Hd]. apply IH; auto.
  unfold is_digit in Hc. cbv zeta in Hc. apply andb_prop in Hc. unfold digit_val. lia.
Qed.

Lemma remove_underscore_digits : forall d, all_digits d = true -> remove_char "_" d = d.
Proof.
  induction d as [|c d IH]; intros H; simpl in *; auto.
  apply andb_prop in H. destruct H as [Hc Hd].
  destruct (digit_facts c Hc) as (_ & _ & _ & E & _). rewrite E, (IH Hd). reflexivity.
Qed.
Lemma remove_char_app : forall x a b, remove_char x (a ++ b) = remove_char x a ++ remove_char x b.
Proof. induction a; intros; simpl; auto. destruct (Ascii.eqb a x); simpl; now rewrite IHa. Qed.
Lemma all_digits_app : forall a b, all_digits (a ++ b) = all_digits a && all_digits b.
Proof. induction a; intros; simpl; auto. now rewrite IHa, andb_assoc. Qed.

Lemma take_all : forall s, take (String.length s) s = s.
Proof. induction s; simpl; auto. now rewrite IHs. Qed.

(* ---------------------------------------------------------------- PEG combinators on digits *)
Lemma p_star_f_digits : forall d r fuel,
  all_digits d = true -> no_digit_head r -> (String.length d < fuel)%nat ->
  p_star_f fuel ASCII_DIGIT (d ++ r) = Some r.
Proof.
  induction d as [|c d IH]; intros r fuel Hd Hr Hf; simpl in *.
  - destruct fuel; [lia|]. simpl. unfold ASCII_DIGIT, p_class.
    destruct r as [|c r]; simpl in *; [reflexivity | now rewrite Hr].
  - apply andb_prop in Hd. destruct Hd as [Hc Hd].
    destruct fuel; [lia|]. simpl. unfold ASCII_DIGIT at 1, p_class. rewrite Hc.
    apply IH; auto. lia.
Qed.
Lemma p_plus_digits : forall d r,
  all_digits d = true -> d <> "" -> no_digit_head r -> p_plus ASCII_DIGIT (d ++ r) = Some r.
Proof.
  intros [|c d] r Hd Hne Hr; [congruence|]. simpl in Hd. apply andb_prop in Hd. destruct Hd as [Hc Hd].
  unfold p_plus, p_seq. simpl. unfold ASCII_DIGIT at 1, p_class. rewrite Hc.
  unfold p_star. apply p_star_f_digits; auto. rewrite length_append. lia.
Qed.
Lemma g_sign_digit : forall c r, is_digit c = true -> g_sign (String c r) = Some (String c r).
Proof.
  intros c r H. destruct (digit_facts c H) as (_ & _ & _ & _ & E1 & E2 & _).
  unfold g_sign, p_opt, p_alt, p_lit. cbn [strip_prefix]. now rewrite E1, E2.
Qed.
Lemma g_integer_digits : forall d r,
  all_digits d = true -> d <> "" -> no_digit_head r -> g_integer (d ++ r) = Some r.
Proof.
  intros d r Hd Hne Hr. unfold g_integer, p_seq. change (p_opt (p_lit "+" </> p_lit "-")) with g_sign.
  destruct d as [|c d]; [congruence|]. simpl in Hd. pose proof Hd as Hd'. apply andb_prop in Hd. destruct Hd as [Hc Hd].
  change (String c d ++ r) with (String c (d ++ r)). rewrite (g_sign_digit c (d ++ r) Hc).
  change (String c (d ++ r)) with (String c d ++ r). apply p_plus_digits; auto.
Qed.

(* no radix mark 0<mk>, -0<mk>, +0<mk> at the head of a text that starts with a digit or '.', and
   where a leading 0 is not followed by mk *)
Lemma no_radix_mark : forall (mk c : ascii) r,
  is_digit c = true \/ c = "."%char ->
  (c = "0"%char -> match r with String c2 _ => c2 <> mk | EmptyString => True end) ->
  starts_with (String "0" (String mk "")) (String c r) = false /\
  starts_with (String "-" (String "0" (String mk ""))) (String c r) = false /\
  starts_with (String "+" (String "0" (String mk ""))) (String c r) = false.
Proof.
  intros mk c r Hc H0. unfold starts_with. cbn [strip_prefix].
  assert (E : Ascii.eqb "-" c = false /\ Ascii.eqb "+" c = false).
  { destruct Hc as [Hc| ->]; [|split; reflexivity]. destruct (digit_facts c Hc) as (_&_&_&_&E1&E2&_). now split. }
  destruct E as [-> ->]. split; [|split; reflexivity].
  destruct (Ascii.eqb "0" c) eqn:E0; [|reflexivity]. apply Ascii.eqb_eq in E0. specialize (H0 (eq_sym E0)).
  destruct r as [|c2 r2]; [reflexivity|]. destruct (Ascii.eqb mk c2) eqn:E2; [|reflexivity].
  apply Ascii.eqb_eq in E2. congruence.
Qed.

(* the fraction of a plain decimal text: "" or ".ddd" *)
Definition frac_text (fp : string) : string := if is_empty fp then "" else "." ++ fp.
Definition plain (ip fp : string) : string := ip ++ frac_text fp.
Lemma frac_text_dot_or_end : forall fp, dot_or_end (frac_text fp).
Proof. intros [|c fp]; simpl; auto. Qed.

(* a plain text starts with a digit, followed by a digit, a '.' or nothing: "0b" / "0x" (or any
   mark that is neither a digit nor '.') cannot start it, with or without a sign *)
Lemma plain_head : forall ip fp, all_digits ip = true -> ip <> "" ->
  exists c r, plain ip fp = String c r /\ is_digit c = true /\
              forall mk : ascii, is_digit mk = false -> mk <> "."%char ->
                match r with String c2 _ => c2 <> mk | EmptyString => True end.
Proof.
  intros ip fp Hi Hne. destruct ip as [|c ip']; [congruence|].
  simpl in Hi. apply andb_prop in Hi as [Hc Hi'].
  exists c, (ip' ++ frac_text fp). split; [reflexivity|]. split; [exact Hc|]. intros mk Hmk Hdot.
  destruct ip' as [|c2 ip'']; cbn [append].
  - destruct fp; cbn; [exact I|congruence].
  - simpl in Hi'. apply andb_prop in Hi' as [Hc2 _]. intros ->. congruence.
Qed.
Lemma plain_unmarked : forall (mk : ascii) ip fp,
  is_digit mk = false -> mk <> "."%char -> all_digits ip = true -> ip <> "" ->
  starts_with (String "0" (String mk "")) (plain ip fp) = false /\
  starts_with (String "-" (String "0" (String mk ""))) (plain ip fp) = false /\
  starts_with (String "+" (String "0" (String mk ""))) (plain ip fp) = false.
Proof.
  intros mk ip fp Hmk Hdot Hi Hne. destruct (plain_head ip fp Hi Hne) as (c & r & -> & Hc & Hr).
  apply no_radix_mark; [now left|intros _; now apply Hr].
Qed.

Lemma g_marked_number_plain : forall (mk : ascii) (q : parser) ip fp,
  is_digit mk = false -> mk <> "."%char -> all_digits ip = true -> ip <> "" ->
  (p_opt (p_lit "+" </> p_lit "-") &> p_lit (String "0" (String mk "")) &> q) (plain ip fp) = None.
Proof.
  intros mk q ip fp Hmk Hdot Hi Hne. change (p_opt (p_lit "+" </> p_lit "-")) with g_sign. destruct (plain_unmarked mk ip fp Hmk Hdot Hi Hne) as (H & _).
  destruct (plain_head ip fp Hi Hne) as (c & r & E & Hc & _). rewrite E in *.
  unfold p_seq at 1. rewrite (g_sign_digit c r Hc). unfold p_seq, p_lit.
  unfold starts_with in H. now destruct (strip_prefix _ (String c r)).
Qed.

Lemma p_star_none : forall p r, p r = None -> p_star p r = Some r.
Proof. intros p r H. unfold p_star. cbn [p_star_f]. now rewrite H. Qed.
Lemma underscore_group_none : forall r, dot_or_end r -> (p_plus (p_lit "_") &> g_integer) r = None.
Proof.
  intros [|c r] H; unfold p_seq, p_plus, p_seq, p_lit; cbn [strip_prefix]; [reflexivity|].
  simpl in H. subst c. reflexivity.
Qed.

Lemma g_decimal_number_plain : forall ip fp,
  all_digits ip = true -> ip <> "" -> all_digits fp = true ->
  g_decimal_number (plain ip fp) = Some "".
Proof.
  intros ip fp Hi Hne Hf. unfold g_decimal_number, plain.
  unfold p_seq at 1. unfold p_alt. unfold p_seq at 1.
  rewrite (g_integer_digits ip (frac_text fp) Hi Hne (dot_or_end_no_digit _ (frac_text_dot_or_end fp))).
  unfold p_seq at 1.
  assert (Hstar : p_star (p_plus (p_lit "_") &> g_integer) (frac_text fp) = Some (frac_text fp)).
  { apply p_star_none, underscore_group_none, frac_text_dot_or_end. }
  rewrite Hstar.
  destruct fp as [|c fp].
  - reflexivity.
  - unfold frac_text. simpl is_empty. cbv iota.
    unfold p_opt at 1, p_seq at 1, p_lit at 1. simpl strip_prefix.
    rewrite <- (append_nil_r (String c fp)).
    rewrite (p_plus_digits (String c fp) "" Hf); [reflexivity | discriminate | exact I].
Qed.

Lemma lex_number_plain : forall ip fp,
  all_digits ip = true -> ip <> "" -> all_digits fp = true ->
  lex g_number (plain ip fp) = Some (plain ip fp, "").
Proof.
  intros ip fp Hi Hne Hf. unfold lex, g_number, p_alt, g_binary_number, g_hex_number.
  rewrite (g_marked_number_plain "b" g_binary_digits ip fp eq_refl ltac:(discriminate) Hi Hne).
  rewrite (g_marked_number_plain "x" g_hex_digits ip fp eq_refl ltac:(discriminate) Hi Hne).
  rewrite (g_decimal_number_plain ip fp Hi Hne Hf).
  simpl String.length. rewrite Nat.sub_0_r, take_all. reflexivity.
Qed.

(* ---------------------------------------------------------------- literal conversion *)
(* decimal literals: `_` is erased and the rest is handed to str::parse::<f64>, in the tree as it
   is and after the repair of the radix arms (literal_value sp = literal_value_rf false sp) *)
Lemma literal_value_rf_erasure : forall rf sp c r,
  is_digit c = true \/ c = "."%char ->
  (c = "0"%char -> match r with String c2 _ => c2 <> "b"%char /\ c2 <> "x"%char | EmptyString => True end) ->
  literal_value_rf rf sp (String c r) = sp (remove_char "_" (String c r)).
Proof.
  intros rf sp c r Hc H0.
  destruct (no_radix_mark "b" c r Hc) as (B1 & B2 & B3); [intros E; specialize (H0 E); destruct r; tauto|].
  destruct (no_radix_mark "x" c r Hc) as (X1 & X2 & X3); [intros E; specialize (H0 E); destruct r; tauto|].
  destruct rf; unfold literal_value_rf, literal_value; now rewrite B1, B2, B3, X1, X2, X3.
Qed.

Lemma remove_underscore_plain : forall ip fp,
  all_digits ip = true -> all_digits fp = true -> remove_char "_" (plain ip fp) = plain ip fp.
Proof.
  intros ip fp Hi Hf. unfold plain. rewrite remove_char_app, (remove_underscore_digits _ Hi). f_equal.
  destruct fp as [|c fp]; [reflexivity|]. unfold frac_text. cbn [is_empty].
  change (remove_char "_" ("." ++ String c fp)) with (String "." (remove_char "_" (String c fp))).
  now rewrite (remove_underscore_digits _ Hf).
Qed.

Lemma literal_value_rf_plain : forall rf sp ip fp,
  all_digits ip = true -> ip <> "" -> all_digits fp = true ->
  literal_value_rf rf sp (plain ip fp) = sp (plain ip fp).
Proof.
  intros rf sp ip fp Hi Hne Hf. rewrite <- (remove_underscore_plain ip fp Hi Hf) at 2.
  destruct (plain_head ip fp Hi Hne) as (c & r & -> & Hc & Hr).
  apply literal_value_rf_erasure; [now left|]. intros _.
  pose proof (Hr "b"%char eq_refl ltac:(discriminate)). pose proof (Hr "x"%char eq_refl ltac:(discriminate)).
  destruct r; tauto.
Qed.

(* ---------------------------------------------------------------- Rust float grammar *)
Lemma lower_s_digits_head : forall c r, is_digit c = true ->
  String.eqb (lower_s (String c r)) "inf" = false /\
  String.eqb (lower_s (String c r)) "infinity" = false /\
  String.eqb (lower_s (String c r)) "nan" = false.
Proof.
  intros c r H. destruct (digit_facts c H) as (_&_&_&_&_&_&_&_&_&_&L&Ei&En).
  simpl. rewrite L, Ei, En. auto.
Qed.

(* ---------------------------------------------------------------- general decimal texts
   ddd | ddd.ddd | .ddd, each optionally followed by e|E [+|-] ddd  — every decimal / scientific /
   leading-dot literal of the documented grammar after `_` erasure *)
Inductive esign := ENone | EPlus | EMinus.
Definition esign_text (s : esign) : string := match s with ENone => "" | EPlus => "+" | EMinus => "-" end.
Definition exp_text (ex : option (bool * esign * string)) : string :=
  match ex with
  | None => ""
  | Some (up, sg, ed) => String (if up then "E" else "e")%char (esign_text sg ++ ed)
  end.
Definition exp_val (ex : option (bool * esign * string)) : Z :=
  match ex with
  | None => 0%Z
  | Some (_, EMinus, ed) => (- digits_val ed 0)%Z
  | Some (_, _, ed) => digits_val ed 0
  end.
Definition exp_ok (ex : option (bool * esign * string)) : Prop :=
  match ex with None => True | Some (_, _, ed) => all_digits ed = true /\ ed <> "" end.
Definition dec_text (ip fp : string) ex : string := ip ++ frac_text fp ++ exp_text ex.

Lemma exp_text_no_digit : forall ex, no_digit_head (exp_text ex).
Proof. intros [[[[|] sg] ed]|]; simpl; auto. Qed.
Lemma exp_text_not_dot : forall ex,
  match exp_text ex with String "." r' => span_digits r' | _ => ("", exp_text ex) end = ("", exp_text ex).
Proof. intros [[[[|] sg] ed]|]; reflexivity. Qed.

Lemma scan_exponent_exp_text : forall ex, exp_ok ex -> scan_exponent (exp_text ex) = Some (exp_val ex).
Proof.
  intros [[[up sg] ed]|] H; [|reflexivity]. destruct H as [Hd Hne].
  unfold exp_text, scan_exponent.
  assert (He : Ascii.eqb (lower_c (if up then "E" else "e")) "e" = true) by (destruct up; reflexivity).
  rewrite He.
  assert (Hs : split_sign (esign_text sg ++ ed) = (match sg with EMinus => true | _ => false end, ed)).
  { destruct sg; cbn [esign_text append]; try reflexivity.
    destruct ed as [|c ed']; [congruence|]. simpl in Hd. apply andb_prop in Hd.
    apply split_sign_digit. tauto. }
  rewrite Hs, (span_digits_all ed Hd).
  destruct ed as [|c ed']; [congruence|]. cbn [is_empty orb negb]. destruct sg; reflexivity.
Qed.

Lemma scan_mantissa_dec_text : forall ip fp ex,
  all_digits ip = true -> all_digits fp = true -> (ip <> "" \/ fp <> "") ->
  scan_mantissa (dec_text ip fp ex) = Some (ip, fp, exp_text ex).
Proof.
  intros ip fp ex Hi Hf Hne. unfold scan_mantissa, dec_text.
  destruct fp as [|c fp'].
  - cbn [frac_text is_empty append].
    rewrite (span_digits_app ip _ Hi (exp_text_no_digit ex)).
    rewrite (exp_text_not_dot ex).
    destruct ip; [destruct Hne; congruence | reflexivity].
  - unfold frac_text. cbn [is_empty]. cbv iota.
    change (("." ++ String c fp') ++ exp_text ex) with (String "." (String c fp' ++ exp_text ex)).
    rewrite (span_digits_app ip _ Hi); [|reflexivity].
    cbv beta iota.
    rewrite (span_digits_app (String c fp') _ Hf (exp_text_no_digit ex)).
    cbn [is_empty]. now rewrite andb_false_r.
Qed.

Lemma dec_text_head : forall ip fp ex, all_digits ip = true -> all_digits fp = true -> (ip <> "" \/ fp <> "") ->
  exists c r, dec_text ip fp ex = String c r /\ (is_digit c = true \/ c = "."%char).
Proof.
  intros ip fp ex Hi Hf Hne. unfold dec_text. destruct ip as [|c ip'].
  - destruct fp as [|c2 fp']; [destruct Hne; congruence|].
    exists "."%char, (String c2 fp' ++ exp_text ex). split; [reflexivity | now right].
  - simpl in Hi. apply andb_prop in Hi. exists c, (ip' ++ frac_text fp ++ exp_text ex).
    split; [reflexivity | left; tauto].
Qed.

Lemma rust_float_unsigned_dec_text : forall s ip fp ex,
  all_digits ip = true -> all_digits fp = true -> (ip <> "" \/ fp <> "") -> exp_ok ex ->
  rust_float_unsigned s (dec_text ip fp ex)
  = Some (FDec s (digits_val (ip ++ fp) 0) (exp_val ex - slen fp)).
Proof.
  intros s ip fp ex Hi Hf Hne Hex. unfold rust_float_unsigned.
  destruct (dec_text_head ip fp ex Hi Hf Hne) as (c & r & Ht & Hc). cbv zeta.
  assert (E : String.eqb (lower_s (dec_text ip fp ex)) "inf" = false /\
              String.eqb (lower_s (dec_text ip fp ex)) "infinity" = false /\
              String.eqb (lower_s (dec_text ip fp ex)) "nan" = false).
  { rewrite Ht. destruct Hc as [Hc|Hc]; [now apply lower_s_digits_head | subst c; repeat split; reflexivity]. }
  destruct E as (E1 & E2 & E3). rewrite E1, E2, E3. cbn [orb].
  rewrite (scan_mantissa_dec_text ip fp ex Hi Hf Hne), (scan_exponent_exp_text ex Hex). reflexivity.
Qed.

(* with an optional leading '-' (what Display, serde_json and to_number texts carry) *)
Lemma rust_float_syntax_signed_dec_text : forall s ip fp ex,
  all_digits ip = true -> all_digits fp = true -> (ip <> "" \/ fp <> "") -> exp_ok ex ->
  rust_float_syntax (sign_str s ++ dec_text ip fp ex)
  = Some (FDec s (digits_val (ip ++ fp) 0) (exp_val ex - slen fp)).
Proof.
  intros s ip fp ex Hi Hf Hne Hex. unfold rust_float_syntax.
  assert (Hs : split_sign (sign_str s ++ dec_text ip fp ex) = (s, dec_text ip fp ex)).
  { destruct s; [reflexivity|]. cbn [sign_str append].
    destruct (dec_text_head ip fp ex Hi Hf Hne) as (c & r & Ht & Hc). rewrite Ht.
    destruct Hc as [Hc|Hc]; [now apply split_sign_digit | subst c; reflexivity]. }
  rewrite Hs. now apply rust_float_unsigned_dec_text.
Qed.

Lemma rust_float_syntax_dec_text : forall ip fp ex,
  all_digits ip = true -> all_digits fp = true -> (ip <> "" \/ fp <> "") -> exp_ok ex ->
  rust_float_syntax (dec_text ip fp ex)
  = Some (FDec false (digits_val (ip ++ fp) 0) (exp_val ex - slen fp)).
Proof. intros. now apply (rust_float_syntax_signed_dec_text false). Qed.

Lemma plain_dec_text : forall ip fp, plain ip fp = dec_text ip fp None.
Proof. intros. unfold plain, dec_text. cbn [exp_text]. now rewrite append_nil_r. Qed.

Lemma rust_float_syntax_plain : forall s ip fp,
  all_digits ip = true -> ip <> "" -> all_digits fp = true ->
  rust_float_syntax (sign_str s ++ plain ip fp)
  = Some (FDec s (digits_val (ip ++ fp) 0) (0 - slen fp)).
Proof.
  intros s ip fp Hi Hne Hf. rewrite plain_dec_text.
  apply (rust_float_syntax_signed_dec_text s ip fp None Hi Hf); [now left|exact I].
Qed.

(* ---------------------------------------------------------------- digits of a radix *)
Local Open Scope Z_scope.
Lemma radix_digit_range : forall radix c d, radix_digit radix c = Some d -> 0 <= d < radix.
Proof.
  intros radix c d. unfold radix_digit. cbv zeta.
  set (v := if is_digit c then acode c - 48
            else if (97 <=? acode c) && (acode c <=? 122) then acode c - 87
            else if (65 <=? acode c) && (acode c <=? 90) then acode c - 55 else 99).
  assert (0 <= v).
  { unfold v, is_digit. cbv zeta.
    destruct ((48 <=? acode c) && (acode c <=? 57)) eqn:E1; [apply andb_prop in E1; lia|].
    destruct ((97 <=? acode c) && (acode c <=? 122)) eqn:E2; [apply andb_prop in E2; lia|].
    destruct ((65 <=? acode c) && (acode c <=? 90)) eqn:E3; [apply andb_prop in E3; lia|]. lia. }
  destruct (v <? radix) eqn:E; [|discriminate].
  intros [= <-]. apply Z.ltb_lt in E. lia.
Qed.
