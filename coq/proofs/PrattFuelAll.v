(* PrattFuelAll.v — the fuel of the Pratt MODEL suffices on EVERY token stream.

   proofs/PrattFuel.v shows: whatever the RELATIONS derive (successful parses only) the function returns with
   fuel >= 3 * items_size its + 2.  Here, for ARBITRARY item lists (nested groups included; also the ones on which
   the code answers Err or panics): with fuel >= 3 * items_size its + 2 [parse_items] never returns [Unmodelled];
   hence [Pratt.pratt] (fuel 4 * items_size its + 4, the function PegToItems.parse_text / TextRun.text_stmt_of
   use) never does, for every table and every closure map.

   Shape of the proof: plain induction on the fuel m with the five mutually recursive functions at once (every
   recursive call is at exactly m - 1); the bound of each function is the one of PrattFuel.rel_bound; the only
   extra fact is that [pexpr] / [ploop] hand back a token stream that is not larger than the one they got
   ([rest_le], any fuel). *)
From Coq Require Import String List Bool Arith Lia.
Require Import Blots.Num Blots.gen.Builtins Blots.Ast Blots.Outcome Blots.PrattTypes Blots.gen.PrecTable Blots.Pratt.
Require Import Blots.proofs.PrattSteps Blots.proofs.PrattFuel.
Import ListNotations.
Local Open Scope nat_scope.
Local Open Scope list_scope.

(* not the out-of-fuel outcome *)
Definition nu {A} (o : outcome A) : Prop := o <> Unmodelled.

Lemma nu_ok {A} (a : A) : nu (Ok a).
Proof. discriminate. Qed.
Lemma nu_panic {A} : nu (@Panic A).
Proof. discriminate. Qed.
Lemma nu_bind {A B} (o : outcome A) (k : A -> outcome B) :
  nu o -> (forall a, o = Ok a -> nu (k a)) -> nu (obind o k).
Proof. intros H K. destruct o; cbn; try discriminate; [apply K; reflexivity|exfalso; apply H; reflexivity]. Qed.

(* ---- the element loops: if the nested conversion has enough fuel for every nested stream, so has the loop ---- *)
Section LoopsNu.
  Variable parse : list item -> outcome tres.
  Variable m : nat.
  Hypothesis parse_nu : forall its, 3 * items_size its + 2 <= m -> nu (parse its).

  Lemma omapM_nu : forall args, 3 * args_size args <= m -> nu (omapM parse args).
  Proof.
    induction args as [|g r IH]; intro L; cbn [omapM]; [apply nu_ok|].
    cbn [args_size] in L. apply nu_bind; [apply parse_nu; lia|].
    intros [y|] _; [|apply nu_ok]. apply nu_bind; [apply IH; lia|]. intros; apply nu_ok.
  Qed.

  Lemma list_loop_nu : forall els, 3 * lels_size els <= m -> nu (list_loop parse els).
  Proof.
    induction els as [|[s|g eol] r IH]; intro L; cbn [list_loop]; [apply nu_ok| |]; cbn [lels_size] in L.
    - apply IH; lia.
    - apply nu_bind; [apply parse_nu; lia|].
      intros [y|] _; [|apply nu_ok]. apply nu_bind; [apply IH; lia|]. intros; apply nu_ok.
  Qed.

  Lemma key_of_nu : forall k, 3 * match k with RKDyn inner => items_size inner | _ => 0 end + 2 <= m ->
    nu (key_of parse k).
  Proof.
    intros [s|s|inner] L; cbn [key_of]; try apply nu_ok.
    apply nu_bind; [apply parse_nu; lia|]. intros; apply nu_ok.
  Qed.

  Lemma rec_loop_nu : forall els, 3 * rels_size els <= m -> nu (rec_loop parse els).
  Proof.
    induction els as [|[s|k v eol|s eol|g eol] r IH]; intro L; cbn [rec_loop]; [apply nu_ok| | | |];
      cbn [rels_size] in L.
    - apply IH; lia.
    - apply nu_bind; [apply key_of_nu; lia|].
      intros [key|] _; [|apply nu_ok]. apply nu_bind; [apply parse_nu; lia|].
      intros [val|] _; [|apply nu_ok]. apply nu_bind; [apply IH; lia|]. intros; apply nu_ok.
    - apply nu_bind; [apply IH; lia|]. intros; apply nu_ok.
    - apply nu_bind; [apply parse_nu; lia|].
      intros [y|] _; [|apply nu_ok]. apply nu_bind; [apply IH; lia|]. intros; apply nu_ok.
  Qed.

  Lemma do_loop_nu : forall els stmts ret, 3 * dels_size els <= m -> nu (do_loop parse els stmts ret).
  Proof.
    induction els as [|[g c|s c|g|s] r IH]; intros stmts ret L; cbn [do_loop]; [apply nu_ok| | | |];
      cbn [dels_size] in L.
    - apply nu_bind; [apply parse_nu; lia|]. intros [y|] _; [|apply nu_ok]. apply IH; lia.
    - apply IH; lia.
    - apply nu_bind; [apply parse_nu; lia|]. intros [y|] _; [|apply nu_ok]. apply IH; lia.
    - apply IH; lia.
  Qed.
End LoopsNu.

Section All.
  Variable tbl : ops_map.
  Variable imap : list (oprule * binop).
  Variable pmap : list (oprule * prefix_ctor).
  Notation pexpr' := (pexpr tbl imap pmap).
  Notation ploop' := (ploop tbl imap pmap).
  Notation mpost' := (map_postfix tbl imap pmap).
  Notation primary' := (primary tbl imap pmap).
  Notation parse' := (parse_items tbl imap pmap).

  (* the nud step of pexpr (prefix operator with its operand, or a primary) hands back no more than it got *)
  Lemma nud_rest_le : forall m pr0 its0 e mid,
    (forall rbp its t rest, pexpr' m rbp its = Ok (t, rest) -> items_size rest <= items_size its) ->
    match item_op pr0 with
    | Some r =>
        match ops_get tbl r with
        | Some (Prefix, p) =>
            do rr <- pexpr' m (p - 1) its0; do e <- map_prefix pmap r (fst rr); Ok (e, snd rr)
        | Some _ => Panic
        | None => Panic
        end
    | None => do e <- primary' m pr0; Ok (e, its0)
    end = Ok (e, mid) ->
    items_size mid <= items_size its0.
  Proof.
    intros m pr0 its0 e mid IHe H1. destruct (item_op pr0) as [r|].
    - destruct (ops_get tbl r) as [[[ | |a] p]|]; try discriminate.
      apply obind_ok in H1. destruct H1 as [[e1 mid1] [H1 H3]]. cbn [fst snd] in H3.
      apply obind_ok in H3. destruct H3 as [e2 [_ H3]]. inversion H3; subst.
      apply IHe in H1. exact H1.
    - apply obind_ok in H1. destruct H1 as [e1 [_ H3]]. inversion H3; subst. apply le_n.
  Qed.

  (* the token stream handed back is not larger than the one received (any fuel) *)
  Lemma rest_le : forall m,
    (forall rbp its t rest, pexpr' m rbp its = Ok (t, rest) -> items_size rest <= items_size its) /\
    (forall rbp lhs its t rest, ploop' m rbp lhs its = Ok (t, rest) -> items_size rest <= items_size its).
  Proof.
    induction m as [|m [IHe IHl]]; [split; intros; discriminate|]. split.
    - intros rbp its t rest H. rewrite pexpr_S in H. destruct its as [|pr0 its0]; [discriminate|].
      rewrite items_size_cons. pose proof (item_size_pos pr0).
      apply obind_ok in H. destruct H as [[e mid] [H1 H2]]. cbn [fst snd] in H2.
      apply IHl in H2. pose proof (nud_rest_le m pr0 its0 e mid IHe H1). lia.
    - intros rbp lhs its t rest H. rewrite ploop_S in H.
      apply obind_ok in H. destruct H as [l [_ H]].
      destruct (Nat.ltb rbp l); [|inversion H; subst; lia].
      destruct its as [|pr0 its0]; [discriminate|].
      rewrite items_size_cons. pose proof (item_size_pos pr0).
      destruct (item_op pr0) as [r|]; [|discriminate].
      destruct (ops_get tbl r) as [[[ | |a] p]|]; try discriminate.
      + apply obind_ok in H. destruct H as [e1 [_ H2]]. apply IHl in H2. lia.
      + apply obind_ok in H. destruct H as [[e1 mid] [H1 H2]]. cbn [fst snd] in H2.
        apply obind_ok in H2. destruct H2 as [e2 [_ H2]].
        apply IHe in H1. apply IHl in H2. lia.
  Qed.

  Lemma lbp_nu : forall its, nu (lbp tbl its).
  Proof.
    intros [|pr0 r]; cbn [lbp]; [apply nu_ok|].
    destruct (item_op pr0) as [o|]; [|apply nu_panic].
    destruct (ops_get tbl o) as [[a p]|]; [apply nu_ok|apply nu_panic].
  Qed.
  Lemma map_prefix_nu : forall r x, nu (map_prefix pmap r x).
  Proof. intros r x. unfold map_prefix. destruct (assoc_find r pmap) as [[u|]|]; discriminate. Qed.
  Lemma map_infix_nu : forall l r x, nu (map_infix imap l r x).
  Proof. intros l r x. unfold map_infix. destruct (assoc_find r imap); discriminate. Qed.

  Theorem all_nu : forall m,
    (forall rbp its, 3 * items_size its + 1 <= m -> nu (pexpr' m rbp its)) /\
    (forall rbp lhs its, 3 * items_size its + 1 <= m -> nu (ploop' m rbp lhs its)) /\
    (forall lhs i, 3 * item_size i <= m -> nu (mpost' m lhs i)) /\
    (forall i, 3 * item_size i <= m -> nu (primary' m i)) /\
    (forall its, 3 * items_size its + 2 <= m -> nu (parse' m its)).
  Proof.
    induction m as [|m (IHe & IHl & IHpo & IHpr & IHpa)].
    { repeat split; intros; try lia. pose proof (item_size_pos i); lia. pose proof (item_size_pos i); lia. }
    destruct (rest_le m) as [RLe RLl].
    repeat split.
    - (* pexpr *)
      intros rbp its L. rewrite pexpr_S. destruct its as [|pr0 its0]; [apply nu_panic|].
      rewrite items_size_cons in L. pose proof (item_size_pos pr0).
      apply nu_bind.
      + destruct (item_op pr0) as [r|].
        * destruct (ops_get tbl r) as [[[ | |a] p]|]; try apply nu_panic.
          apply nu_bind; [apply IHe; lia|]. intros rr _.
          apply nu_bind; [apply map_prefix_nu|]. intros; apply nu_ok.
        * apply nu_bind; [apply IHpr; lia|]. intros; apply nu_ok.
      + intros [e mid] H1. cbn [fst snd]. apply IHl. pose proof (nud_rest_le m pr0 its0 e mid RLe H1). lia.
    - (* ploop *)
      intros rbp lhs its L. rewrite ploop_S. apply nu_bind; [apply lbp_nu|]. intros l _.
      destruct (Nat.ltb rbp l); [|apply nu_ok].
      destruct its as [|pr0 its0]; [apply nu_panic|].
      rewrite items_size_cons in L. pose proof (item_size_pos pr0).
      destruct (item_op pr0) as [r|]; [|apply nu_panic].
      destruct (ops_get tbl r) as [[[ | |a] p]|]; try apply nu_panic.
      + apply nu_bind; [apply IHpo; lia|]. intros e1 _. apply IHl. lia.
      + apply nu_bind; [apply IHe; lia|]. intros [e1 mid] H1. cbn [fst snd].
        apply RLe in H1.
        apply nu_bind; [apply map_infix_nu|]. intros e2 _. apply IHl. lia.
    - (* map_postfix *)
      intros lhs i L. rewrite mpost_S.
      destruct i; try apply nu_panic; try apply nu_ok.
      + destruct r; try apply nu_panic; apply nu_ok.
      + rewrite size_IAccess in L. apply nu_bind; [apply IHpa; lia|]. intros; apply nu_ok.
      + rewrite size_ICall in L. apply nu_bind; [apply omapM_nu with (m := m); [exact IHpa|lia]|].
        intros; apply nu_ok.
    - (* primary *)
      intros i L. rewrite primary_S.
      destruct i; try apply nu_panic; try apply nu_ok.
      + rewrite size_IExpr in L. apply IHpa; lia.
      + rewrite size_IList in L. apply nu_bind; [apply list_loop_nu with (m := m); [exact IHpa|lia]|].
        intros; apply nu_ok.
      + rewrite size_IRecord in L. apply nu_bind; [apply rec_loop_nu with (m := m); [exact IHpa|lia]|].
        intros; apply nu_ok.
      + rewrite size_ILambda in L. apply nu_bind; [apply IHpa; lia|]. intros; apply nu_ok.
      + rewrite size_ICond in L. apply nu_bind; [apply IHpa; lia|].
        intros [c''|] _; [|apply nu_ok]. apply nu_bind; [apply IHpa; lia|].
        intros [t''|] _; [|apply nu_ok]. apply nu_bind; [apply IHpa; lia|]. intros; apply nu_ok.
      + rewrite size_IDo in L. apply do_loop_nu with (m := m); [exact IHpa|lia].
      + rewrite size_IAssign in L. apply nu_bind; [apply IHpa; lia|]. intros; apply nu_ok.
    - (* parse_items *)
      intros its L. rewrite parse_S. apply nu_bind; [apply IHe; lia|]. intros; apply nu_ok.
  Qed.

  Corollary parse_items_fuel_sufficient : forall its m,
    3 * items_size its + 2 <= m -> parse' m its <> Unmodelled.
  Proof. intros its m L. exact (proj2 (proj2 (proj2 (proj2 (all_nu m)))) its L). Qed.
End All.

(* the fuel function the text layer uses: Pratt.pratt's  4 * items_size its + 4 *)
Definition fuel_of (its : list item) : nat := 4 * items_size its + 4.

Theorem pratt_fuel_sufficient : forall tbl imap pmap its,
  parse_items tbl imap pmap (fuel_of its) its <> Unmodelled.
Proof. intros. apply parse_items_fuel_sufficient. unfold fuel_of. lia. Qed.

Lemma pratt_is_fuel_of : forall tbl its, pratt tbl its = parse_items tbl infix_map prefix_map (fuel_of its) its.
Proof. reflexivity. Qed.

Theorem pratt_never_unmodelled : forall tbl its, pratt tbl its <> Unmodelled.
Proof. intros. rewrite pratt_is_fuel_of. apply pratt_fuel_sufficient. Qed.
Corollary pratt_impl_never_unmodelled : forall its, pratt_impl its <> Unmodelled.
Proof. intro its. apply pratt_never_unmodelled. Qed.
