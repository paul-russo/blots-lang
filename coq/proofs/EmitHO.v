(* EmitHO.v — C05, layer P2 (the layers are listed in Properties/C05.v) for HIGHER-ORDER captured values: the value relation "v' is v after
   emit + reload" and its basic properties.

   [vrel v v'] : data equal; a closure  VLam _ ps b sc  related to  VLam _ ps (subst m b) sc'  where
   the inlining map m replaces some captured names by the literal text of their values (which are
   themselves emittable: [emit_ok]) and the other captured names are captured on the right as well,
   with related values.  The reloaded emission is the instance m = scope_map sc, sc' = [];
   closures created while a reloaded body runs are the instances in between.  The relation does
   not mention the store: function names and heap positions are not observable by bodies that are
   closed after capture ([hob] + the free-variable condition).

   Knobs of the development (Section variables): which operators / built-ins a body may
   mention ([opok], [biok]) — the instantiations (EmitHOOps.v) choose them. *)
From Coq Require Import String Ascii List ZArith Bool Lia.
Require Import Blots.Num Blots.gen.Builtins Blots.Ast Blots.Value Blots.Outcome Blots.Binop
               Blots.Env Blots.Eval Blots.Emit Blots.proofs.ValueInd Blots.proofs.ExprInd
               Blots.proofs.EmitLit Blots.proofs.EmitSubst Blots.proofs.EmitClosed
               Blots.proofs.FreeVars Blots.proofs.EmitSound.
Import ListNotations.
Open Scope string_scope.
Open Scope list_scope.

(* identifiers a portable body may mention: not spelled like a built-in (the parser never produces
   such an identifier; `capture` skips them) and not `inputs` (FunctionDef::call rebinds it at
   every call site: finding F9 of C04) *)
Definition idok (x : string) : bool := negb (is_builtin_name x) && negb (String.eqb x "inputs").

Definition scope_names_ok (ps : list string) (names : list string) : bool :=
  forallb (fun x => negb (special_name x) && negb (String.eqb x "inputs") && negb (mem x ps)) names.

(* outcomes related: Ok with related values, otherwise the same error class *)
Definition orel_gen {A B} (R : A -> B -> Prop) (r : outcome A) (r' : outcome B) : Prop :=
  match r, r' with
  | Ok v, Ok v' => R v v'
  | Err, Err | ErrDepth, ErrDepth | Panic, Panic | Unmodelled, Unmodelled => True
  | _, _ => False
  end.

Section Rel.
  Variable opok : binop -> bool.
  Variable biok : builtin -> bool.
  Variable nanfix : bool.       (* Emit.v: how NaN is written, `NaN` (false) or `(0/0)` (true) *)
  Notation lit := (value_to_ast nanfix true).

  (* bodies covered: like Emit.first_order_body but lambdas allowed (any nesting); every operator
     and built-in mentioned is one the instantiation covers; identifiers are [idok];
     no `#input`, no assignment outside do-block statement position (finding F32 of C04), no `output` *)
  Fixpoint hob (e : expr) {struct e} : bool :=
    match e with
    | EId x => idok x
    | EBuiltin b => biok b
    | EInRef _ | EAssign _ _ | EOutput _ => false
    | EList items =>
        (fix go (l : list (commented expr)) : bool :=
           match l with [] => true | Cm _ a _ :: r => hob a && go r end) items
    | ERec entries =>
        (fix go (l : list (commented rentry)) : bool :=
           match l with
           | [] => true
           | Cm _ (REntry k v) _ :: r =>
               (match k with
                | KDyn a => hob a && hob v
                | KSpread a => hob a
                | KStatic _ => hob v
                | KShort x => idok x
                end) && go r
           end) entries
    | ELam _ b => hob b
    | ECond c t f => hob c && hob t && hob f
    | EDo stmts (Cm _ ret _) =>
        (fix go (l : list (commented expr)) : bool :=
           match l with
           | [] => true
           | Cm _ a _ :: r => (match a with EAssign _ v => hob v | _ => hob a end) && go r
           end) stmts && hob ret
    | EUn _ a | EFact a | ESpread a | EDot a _ => hob a
    | ECall f args =>
        hob f && (fix go (l : list expr) : bool :=
                    match l with [] => true | a :: r => hob a && go r end) args
    | EAccess a i => hob a && hob i
    | EBin op l r => opok op && hob l && hob r
    | _ => true
    end.

  (* values whose literal text denotes a related value: data without NaN / both-quote strings
     (their literals are operator expressions), records with unique keys, covered built-ins, and
     closures with a covered body that is closed after capture, whose captured names are not
     parameters / inputs / inf infinity constants and whose captured values are emittable too *)
  Fixpoint emit_ok (v : value) : bool :=
    match v with
    | VNum x => negb (is_nan x)
    | VBool _ | VNull => true
    | VStr s => negb (both_quotes s)
    | VList l => forallb emit_ok l
    | VRec r => nodup_keys r && forallb (fun kv => negb (both_quotes (fst kv)) && emit_ok (snd kv)) r
    | VLam _ ps b sc =>
        hob b && is_nil (free_vars b (map arg_name ps ++ map fst sc)) &&
        scope_names_ok (map arg_name ps) (map fst sc) && forallb (fun kv => emit_ok (snd kv)) sc
    | VBuiltin b => biok b
    | VSpread _ => false
    end.

  (* an inlining scope: every entry is the literal of an emittable value *)
  Definition mlit (m : smap) : Prop :=
    forall x a, rec_get m x = Some a -> exists v, a = lit v /\ emit_ok v = true.

  Inductive vrel : value -> value -> Prop :=
  | R_num x : vrel (VNum x) (VNum x)
  | R_bool b : vrel (VBool b) (VBool b)
  | R_null : vrel VNull VNull
  | R_str s : vrel (VStr s) (VStr s)
  | R_list l l' : Forall2 vrel l l' -> vrel (VList l) (VList l')
  | R_rec r r' :
      Forall2 (fun kv kv' => fst kv = fst kv' /\ vrel (snd kv) (snd kv')) r r' ->
      vrel (VRec r) (VRec r')
  | R_builtin b : biok b = true -> vrel (VBuiltin b) (VBuiltin b)
  | R_spread v v' : vrel v v' -> vrel (VSpread v) (VSpread v')
  | R_lam id id' ps b sc sc' m :
      hob b = true ->
      free_vars b (map arg_name ps ++ map fst sc) = [] ->
      (forall x, special_name x = true -> rec_get m x = None) ->
      (forall x, In x (map arg_name ps) -> rec_get m x = None) ->
      rec_get sc "inputs" = None ->
      (forall x v a, rec_get sc x = Some v -> rec_get m x = Some a -> a = lit v /\ emit_ok v = true) ->
      mlit m ->
      (forall x v, rec_get sc x = Some v -> rec_get m x = None -> ~ In x (map arg_name ps) ->
                   exists v', rec_get sc' x = Some v' /\ vrel v v') ->
      vrel (VLam id ps b sc) (VLam id' ps (subst true m b) sc').

  Definition lrel (l l' : list value) : Prop := Forall2 vrel l l'.
  Definition orel : outcome value -> outcome value -> Prop := orel_gen vrel.
End Rel.

(* ---------------------------------------------------------------- decomposition of hob *)
Section Hob.
  Variable opok : binop -> bool.
  Variable biok : builtin -> bool.
  Notation hob := (hob opok biok).

  Definition hob_entry (k : rkey) (v : expr) : bool :=
    match k with
    | KDyn a => hob a && hob v
    | KSpread a => hob a
    | KStatic _ => hob v
    | KShort x => idok x
    end.
  Lemma hob_EList items : hob (EList items) = true -> Forall (fun c => hob (cnode c) = true) items.
  Proof.
    cbn. induction items as [|[a n t] l IH]; intros H; constructor.
    - apply andb_prop in H as [A _]. exact A.
    - apply andb_prop in H as [_ B]. auto.
  Qed.
  Lemma hob_args f args : hob (ECall f args) = true ->
    hob f = true /\ Forall (fun a => hob a = true) args.
  Proof.
    cbn. intros H. apply andb_prop in H as [A B]. split; [exact A|]. clear A.
    induction args as [|a l IH]; constructor.
    - apply andb_prop in B as [X _]. exact X.
    - apply andb_prop in B as [_ Y]. auto.
  Qed.
  Lemma hob_ERec es : hob (ERec es) = true ->
    Forall (fun c => match cnode c with REntry k v => hob_entry k v = true end) es.
  Proof.
    cbn. induction es as [|[a [k v] t] l IH]; intros H; constructor.
    - apply andb_prop in H as [A _]. exact A.
    - apply andb_prop in H as [_ B]. auto.
  Qed.
  Definition hob_stmts :=
    fix go (l : list (commented expr)) : bool :=
      match l with
      | [] => true
      | Cm _ a _ :: r => (match a with EAssign _ v => hob v | _ => hob a end) && go r
      end.
  Lemma hob_EDo stmts a ret t : hob (EDo stmts (Cm a ret t)) = hob_stmts stmts && hob ret.
  Proof. reflexivity. Qed.
  Lemma hob_na e : hob e = true -> na e = true.
  Proof. destruct e; try reflexivity; discriminate. Qed.
  Lemma hob_stmts_na a s t l : na s = true -> hob_stmts (Cm a s t :: l) = hob s && hob_stmts l.
  Proof. destruct s; try reflexivity; discriminate. Qed.
End Hob.

Lemma Forall2_mono {A B} (R R' : A -> B -> Prop) : (forall a b, R a b -> R' a b) ->
  forall l l', Forall2 R l l' -> Forall2 R' l l'.
Proof. intros H l l'. induction 1; constructor; auto. Qed.
Lemma Forall2_diag {A} (R : A -> A -> Prop) l : (forall a, R a a) -> Forall2 R l l.
Proof. intros H. induction l; constructor; auto. Qed.
Lemma orel_gen_mono {A B} (R R' : A -> B -> Prop) : (forall a b, R a b -> R' a b) ->
  forall o o', orel_gen R o o' -> orel_gen R' o o'.
Proof. intros H [a| | | |] [b| | | |]; cbn; auto. Qed.

Lemma mem_In_true x l : In x l -> mem x l = true.
Proof. intros H. apply mem_In. exact H. Qed.

(* ---------------------------------------------------------------- the leaf conditions left open *)
(* [emit_ok] and [vrel] with the condition on inlined numbers and strings (record keys are strings)
   as parameters: [numok] / [strok] say which of them may be written as a literal.  All that the
   simulation needs of the two is that such a literal is closed text and evaluates to the leaf
   (EmitHOSim.leaves_eval). *)
(* implicit arguments from here on: the shape lemmas are applied to the hypothesis  vrelG .. v v'  alone *)
Set Implicit Arguments.
Section Gen.
  Variable opok : binop -> bool.
  Variable biok : builtin -> bool.
  Variable nanfix : bool.
  Variable numok : num -> bool.
  Variable strok : string -> bool.
  Notation lit := (value_to_ast nanfix true).
  Notation hob := (hob opok biok).

  Fixpoint emit_okG (v : value) : bool :=
    match v with
    | VNum x => numok x
    | VBool _ | VNull => true
    | VStr s => strok s
    | VList l => forallb emit_okG l
    | VRec r => nodup_keys r && forallb (fun kv => strok (fst kv) && emit_okG (snd kv)) r
    | VLam _ ps b sc =>
        hob b && is_nil (free_vars b (map arg_name ps ++ map fst sc)) &&
        scope_names_ok (map arg_name ps) (map fst sc) && forallb (fun kv => emit_okG (snd kv)) sc
    | VBuiltin b => biok b
    | VSpread _ => false
    end.

  Definition mlitG (m : smap) : Prop :=
    forall x a, rec_get m x = Some a -> exists v, a = lit v /\ emit_okG v = true.

  Inductive vrelG : value -> value -> Prop :=
  | G_num x : vrelG (VNum x) (VNum x)
  | G_bool b : vrelG (VBool b) (VBool b)
  | G_null : vrelG VNull VNull
  | G_str s : vrelG (VStr s) (VStr s)
  | G_list l l' : Forall2 vrelG l l' -> vrelG (VList l) (VList l')
  | G_rec r r' :
      Forall2 (fun kv kv' => fst kv = fst kv' /\ vrelG (snd kv) (snd kv')) r r' ->
      vrelG (VRec r) (VRec r')
  | G_builtin b : biok b = true -> vrelG (VBuiltin b) (VBuiltin b)
  | G_spread v v' : vrelG v v' -> vrelG (VSpread v) (VSpread v')
  | G_lam id id' ps b sc sc' m :
      hob b = true ->
      free_vars b (map arg_name ps ++ map fst sc) = [] ->
      (forall x, special_name x = true -> rec_get m x = None) ->
      (forall x, In x (map arg_name ps) -> rec_get m x = None) ->
      rec_get sc "inputs" = None ->
      (forall x v a, rec_get sc x = Some v -> rec_get m x = Some a -> a = lit v /\ emit_okG v = true) ->
      mlitG m ->
      (forall x v, rec_get sc x = Some v -> rec_get m x = None -> ~ In x (map arg_name ps) ->
                   exists v', rec_get sc' x = Some v' /\ vrelG v v') ->
      vrelG (VLam id ps b sc) (VLam id' ps (subst true m b) sc').

  Definition rrelG (r r' : list (string * value)) : Prop :=
    Forall2 (fun kv kv' => fst kv = fst kv' /\ vrelG (snd kv) (snd kv')) r r'.
  Definition lrelG (l l' : list value) : Prop := Forall2 vrelG l l'.
  Definition orelG : outcome value -> outcome value -> Prop := orel_gen vrelG.

  (* ---------------------------------------------------------------- shape lemmas *)
  Lemma vrel_as_bool v v' : vrelG v v' -> as_bool v = as_bool v'.
  Proof. destruct 1; reflexivity. Qed.
  Lemma vrel_as_number v v' : vrelG v v' -> as_number v = as_number v'.
  Proof. destruct 1; reflexivity. Qed.
  Lemma vrel_as_string v v' : vrelG v v' -> as_string v = as_string v'.
  Proof. destruct 1; reflexivity. Qed.
  Lemma vrel_is_function v v' : vrelG v v' -> is_function v = is_function v'.
  Proof. destruct 1; reflexivity. Qed.
  Lemma vrel_type_of v v' : vrelG v v' -> type_of v = type_of v'.
  Proof. destruct 1; reflexivity. Qed.
  Lemma vrel_fn_arity v v' : vrelG v v' -> fn_arity v = fn_arity v'.
  Proof. destruct 1; reflexivity. Qed.

  Lemma rrel_get r r' k : rrelG r r' ->
    match rec_get r k, rec_get r' k with
    | Some v, Some v' => vrelG v v'
    | None, None => True
    | _, _ => False
    end.
  Proof.
    induction 1 as [|[a x] [a' x'] r r' [E V] _ IH]; cbn; [exact I|]. cbn in E, V. subst a'.
    destruct (String.eqb k a); [exact V|exact IH].
  Qed.
  Lemma rrel_get_or_null r r' k : rrelG r r' ->
    vrelG (match rec_get r k with Some x => x | None => VNull end)
          (match rec_get r' k with Some x => x | None => VNull end).
  Proof.
    intros H. pose proof (rrel_get k H) as G.
    destruct (rec_get r k), (rec_get r' k); try contradiction; [exact G|constructor].
  Qed.
  Lemma rrel_insert r r' k v v' : rrelG r r' -> vrelG v v' -> rrelG (rec_insert r k v) (rec_insert r' k v').
  Proof.
    induction 1 as [|[a x] [a' x'] r r' [E V] H IH]; intros Hv; cbn.
    - constructor; [split; [reflexivity|exact Hv]|constructor].
    - cbn in E, V. subst a'. destruct (String.eqb k a).
      + constructor; [split; [reflexivity|exact Hv]|exact H].
      + constructor; [split; [reflexivity|exact V]|apply IH; exact Hv].
  Qed.
  Lemma rrel_insert_all es es' : rrelG es es' -> forall r r', rrelG r r' ->
    rrelG (rec_insert_all r es) (rec_insert_all r' es').
  Proof.
    unfold rec_insert_all. induction 1 as [|[a x] [a' x'] es es' [E V] H IH]; intros r r' Hr; cbn; [exact Hr|].
    cbn in E, V. subst a'. apply IH. apply rrel_insert; assumption.
  Qed.
  Lemma lrel_app a a' b b' : lrelG a a' -> lrelG b b' -> lrelG (a ++ b) (a' ++ b').
  Proof. apply Forall2_app. Qed.
  Lemma lrel_length l l' : lrelG l l' -> Datatypes.length l = Datatypes.length l'.
  Proof. induction 1; cbn; congruence. Qed.
  Lemma lrel_nth l l' k : lrelG l l' -> vrelG (nth k l VNull) (nth k l' VNull).
  Proof.
    intros H. revert k. induction H as [|x x' l l' V _ IH]; intros [|k]; cbn; try constructor; auto.
  Qed.
  Lemma lrel_nth_error l l' k : lrelG l l' ->
    match nth_error l k, nth_error l' k with
    | Some v, Some v' => vrelG v v'
    | None, None => True
    | _, _ => False
    end.
  Proof.
    intros H. revert k. induction H as [|x x' l l' V _ IH]; intros [|k]; cbn; [exact I|exact I|exact V|apply IH].
  Qed.
  Lemma lrel_skipn l l' k : lrelG l l' -> lrelG (skipn k l) (skipn k l').
  Proof.
    intros H. revert k. induction H as [|x x' l l' V H IH]; intros [|k]; cbn; try constructor; auto.
  Qed.
  Lemma lrel_map_str (l : list string) : lrelG (map VStr l) (map VStr l).
  Proof. induction l; cbn; constructor; [constructor|assumption]. Qed.

  Lemma vrel_spread_items v v' : vrelG v v' -> lrelG (spread_items v) (spread_items v').
  Proof.
    destruct 1; cbn; try constructor; try assumption.
    - apply lrel_map_str.
    - induction H as [|[a x] [a' x'] r r' [E V] _ IH]; cbn; constructor; [|exact IH].
      cbn in E, V. subst a'. constructor. constructor; [constructor|]. constructor; [exact V|constructor].
  Qed.
  Lemma lrel_flatten l l' : lrelG l l' -> lrelG (flatten_spreads l) (flatten_spreads l').
  Proof.
    induction 1 as [|x x' l l' V _ IH]; cbn; [constructor|].
    destruct V; cbn;
      try (apply lrel_app; [apply vrel_spread_items; assumption|exact IH]);
      (constructor; [|exact IH]); try (constructor; assumption).
  Qed.

  Lemma vrel_access v v' i i' : vrelG v v' -> vrelG i i' -> orelG (access_val v i) (access_val v' i').
  Proof.
    intros V Vi. destruct V; cbn; try exact I.
    - rewrite <- (vrel_as_number Vi). destruct (as_number i); cbn; try exact I.
      destruct (index_from _ _); [|constructor]. destruct (nth_error _ _); constructor.
    - rewrite <- (vrel_as_number Vi). destruct (as_number i); cbn; try exact I.
      rewrite <- (lrel_length H). destruct (index_from _ _); [|constructor]. apply lrel_nth. exact H.
    - rewrite <- (vrel_as_string Vi). destruct (as_string i); cbn; try exact I.
      apply rrel_get_or_null. exact H.
  Qed.
  Lemma vrel_dot v v' f : vrelG v v' -> orelG (dot_val v f) (dot_val v' f).
  Proof. destruct 1; cbn; try exact I. apply rrel_get_or_null. exact H. Qed.
  Lemma vrel_spread_val v v' : vrelG v v' -> orelG (spread_val v) (spread_val v').
  Proof. intros V. destruct V; cbn; try exact I; constructor; constructor; assumption. Qed.

  (* the entries `...x` contributes to a record: [key] stays a variable, so that nothing below
     looks into the decimal rendering of the indices *)
  Lemma enum_rrel {A A'} (key : nat -> string) (f : A -> value) (f' : A' -> value) l l' :
    Forall2 (fun a a' => vrelG (f a) (f' a')) l l' -> forall n,
    rrelG (map (fun iv => (key (fst iv), f (snd iv))) (enum_from n l))
          (map (fun iv => (key (fst iv), f' (snd iv))) (enum_from n l')).
  Proof.
    induction 1 as [|a a' l l' V _ IH]; intros n; cbn [enum_from map]; constructor;
      [split; [reflexivity|exact V]|apply IH].
  Qed.
  Lemma vrel_record_spread_entries v v' : vrelG v v' ->
    rrelG (record_spread_entries v) (record_spread_entries v').
  Proof.
    destruct 1 as [| | | | | | |w w' V|]; try constructor.
    destruct V; try constructor; unfold record_spread_entries.
    - apply (enum_rrel nat_to_dec VStr VStr). apply Forall2_diag. constructor.
    - apply (enum_rrel nat_to_dec (fun x => x) (fun x => x)). assumption.
    - assumption.
  Qed.

  (* ---------------------------------------------------------------- emittable values *)
  Lemma names_ok_get ps (sc : list (string * value)) x v :
    scope_names_ok ps (map fst sc) = true -> rec_get sc x = Some v ->
    special_name x = false /\ x <> "inputs" /\ mem x ps = false.
  Proof.
    unfold scope_names_ok. intros H E. apply rec_get_In in E. rewrite forallb_forall in H.
    specialize (H x (in_map fst _ _ E)). apply andb_prop in H as [H C]. apply andb_prop in H as [A B].
    apply negb_true_iff in A, B, C. repeat split; auto. now apply String.eqb_neq.
  Qed.

  (* the reloaded emission of an emittable closure is related to it: everything captured is inlined *)
  Lemma reload_rel id id' ps b sc : emit_okG (VLam id ps b sc) = true ->
    vrelG (VLam id ps b sc) (VLam id' ps (subst true (scope_map nanfix true sc) b) []).
  Proof.
    intros Hok. cbn [emit_okG] in Hok. apply andb_prop in Hok as [Hok Hsc]. apply andb_prop in Hok as [Hok Hnm].
    apply andb_prop in Hok as [Hb Hfv].
    assert (Hget : forall x v, rec_get sc x = Some v -> emit_okG v = true).
    { intros x v E. apply rec_get_In in E. rewrite forallb_forall in Hsc. exact (Hsc _ E). }
    constructor.
    - exact Hb.
    - destruct (free_vars b (map arg_name ps ++ map fst sc)); [reflexivity|discriminate].
    - intros x Hx. rewrite scope_map_get. destruct (rec_get sc x) eqn:E; [|reflexivity].
      destruct (names_ok_get _ _ _ Hnm E) as (A & _). congruence.
    - intros x Hx. rewrite scope_map_get. destruct (rec_get sc x) eqn:E; [|reflexivity].
      destruct (names_ok_get _ _ _ Hnm E) as (_ & _ & A). rewrite (mem_In_true _ _ Hx) in A. discriminate.
    - destruct (rec_get sc "inputs") eqn:E; [|reflexivity].
      destruct (names_ok_get _ _ _ Hnm E) as (_ & A & _). congruence.
    - intros x v e E. rewrite scope_map_get, E. cbn. intros X; inversion X. split; [reflexivity|eauto].
    - intros x e. rewrite scope_map_get. destruct (rec_get sc x) eqn:E; cbn; [|discriminate].
      intros X; inversion X. exists v. split; eauto.
    - intros x v E. rewrite scope_map_get, E. discriminate.
  Qed.

  (* an emittable value is related to itself (a closure: with the empty inlining scope) *)
  Lemma emit_ok_refl : forall v, emit_okG v = true -> vrelG v v.
  Proof.
    induction v using value_ind'; intros Hok; try (constructor; fail).
    - constructor. cbn [emit_okG] in Hok. induction H as [|x l Hx _ IH]; [constructor|].
      cbn in Hok. apply andb_prop in Hok as [A B]. constructor; auto.
    - constructor. cbn [emit_okG] in Hok. apply andb_prop in Hok as [_ Hok].
      induction H as [|[k x] l Hx _ IH]; [constructor|].
      cbn in Hok, Hx. apply andb_prop in Hok as [A B]. apply andb_prop in A as [_ A]. constructor; auto.
    - rewrite <- (subst_nil true b) at 2.
      cbn [emit_okG] in Hok. apply andb_prop in Hok as [Hok Hsc]. apply andb_prop in Hok as [Hok Hnm].
      apply andb_prop in Hok as [Hb Hfv].
      constructor; try (intros; reflexivity); try (intros; discriminate).
      + exact Hb.
      + destruct (free_vars b (map arg_name a ++ map fst sc)); [reflexivity|discriminate].
      + destruct (rec_get sc "inputs") eqn:E; [|reflexivity].
        destruct (names_ok_get _ _ _ Hnm E) as (_ & A & _). congruence.
      + intros x v E _ _. exists v. split; [exact E|]. apply rec_get_In in E.
        rewrite Forall_forall in H. rewrite forallb_forall in Hsc. exact (H _ E (Hsc _ E)).
    - constructor. exact Hok.
    - discriminate.
  Qed.

  (* ---------------------------------------------------------------- literals are closed *)
  (* a NaN may be inlined only when it is written (0/0): the other literal is an identifier *)
  Hypothesis Hnan : forall x, numok x = true -> nanfix || negb (is_nan x) = true.

  Lemma lit_closed_ok v : emit_okG v = true ->
    forall bb, free_vars (lit v) bb = [] /\ na (lit v) = true.
  Proof.
    induction v using value_ind'; intros Hok bb; try (split; reflexivity); try discriminate.
    - cbn [value_to_ast]. apply Hnan in Hok. unfold num_to_ast.
      destruct x as [[|]|[|]| |[|] ? ?]; try (split; reflexivity);
        try (split; [cbn; destruct (mem "inf" bb); reflexivity|reflexivity]).
      destruct nanfix; [split; reflexivity|discriminate].
    - cbn [value_to_ast]. apply str_to_ast_closed.
    - split; [|reflexivity]. cbn [value_to_ast free_vars]. cbn [emit_okG] in Hok.
      induction H as [|x l Hx Hl IH]; [reflexivity|]. cbn in Hok. apply andb_prop in Hok as [F1 F2].
      rewrite (proj1 (Hx F1 bb)). cbn. apply IH; auto.
    - split; [|reflexivity]. cbn [value_to_ast free_vars]. cbn [emit_okG] in Hok.
      apply andb_prop in Hok as [_ Hok].
      induction H as [|[k x] l Hx Hl IH]; [reflexivity|]. cbn in Hok, Hx. apply andb_prop in Hok as [F1 F2].
      apply andb_prop in F1 as [_ F1].
      assert (K : match key_to_rkey k with
                  | KDyn a => free_vars a bb ++ free_vars (lit x) bb
                  | KSpread a => free_vars a bb
                  | KStatic _ => free_vars (lit x) bb
                  | KShort y => if mem y bb then [] else [y]
                  end = []).
      { unfold key_to_rkey. destruct (both_quotes k); [rewrite (proj1 (str_to_ast_closed k bb))|];
          now rewrite (proj1 (Hx F1 bb)). }
      cbv beta iota. rewrite K. cbn. apply IH; auto.
    - (* closure: every free name of the body is a parameter or captured, and captured names are inlined *)
      split; [|reflexivity]. rewrite value_to_ast_lam. cbn [free_vars].
      cbn [emit_okG] in Hok. apply andb_prop in Hok as [Hok Hsc]. apply andb_prop in Hok as [Hok Hnm].
      apply andb_prop in Hok as [Hb Hfv].
      assert (Hm : lits_closed (scope_map nanfix true sc)).
      { intros y e. rewrite scope_map_get. destruct (rec_get sc y) eqn:E; cbn; [|discriminate].
        intros Ea; inversion Ea; subst e. apply rec_get_In in E.
        rewrite Forall_forall in H. rewrite forallb_forall in Hsc.
        pose proof (H _ E (Hsc _ E)) as G. cbn in G. split; [intros b0; apply G|apply (G [])]. }
      destruct (free_vars (subst true (scope_map nanfix true sc) b) (map arg_name a ++ bb)) as [|z l] eqn:E;
        [reflexivity|].
      exfalso. destruct (subst_fv b (scope_map nanfix true sc) (map arg_name a ++ bb) z Hm) as (A & B & C).
      { rewrite E. now left. }
      rewrite scope_map_get in B.
      destruct (free_vars b (map arg_name a ++ map fst sc)) eqn:F; [|discriminate].
      destruct (fv_weaken b _ (map arg_name a ++ map fst sc) z A) as [X|X]; [rewrite F in X; destruct X|].
      apply in_app_or in X as [X|X].
      + rewrite mem_app in C. rewrite (mem_In_true _ _ X) in C. discriminate.
      + destruct (rec_get sc z) eqn:G; [discriminate|]. apply rec_get_None_notin in G. contradiction.
  Qed.

  Lemma mlit_closed m : mlitG m -> lits_closed m.
  Proof.
    intros H y a E. destruct (H y a E) as (v & -> & Hv). split; [intros b; apply (lit_closed_ok v Hv b)|apply (lit_closed_ok v Hv [])].
  Qed.
  Lemma mlit_remove m x : mlitG m -> mlitG (smap_remove m x).
  Proof. intros H y a. rewrite rec_get_remove. destruct (String.eqb y x); [discriminate|apply H]. Qed.
  Lemma mlit_remove_all xs : forall m, mlitG m -> mlitG (smap_remove_all m xs).
  Proof. induction xs as [|x xs IH]; cbn; intros m H; [exact H|]. apply IH. now apply mlit_remove. Qed.
End Gen.
Unset Implicit Arguments.

(* allowing more leaves allows more values (closures at any capture depth) *)
Lemma emit_okG_mono opok biok (numok numok' : num -> bool) (strok strok' : string -> bool) :
  (forall x, numok x = true -> numok' x = true) -> (forall s, strok s = true -> strok' s = true) ->
  forall v, emit_okG opok biok numok strok v = true -> emit_okG opok biok numok' strok' v = true.
Proof.
  intros Hn Hs. induction v using value_ind'; intros Hok; try reflexivity; try discriminate.
  - apply Hn. exact Hok.
  - apply Hs. exact Hok.
  - cbn [emit_okG] in *. induction H as [|x l Hx _ IH]; [reflexivity|]. cbn in *.
    apply andb_prop in Hok as [A B]. now rewrite (Hx A), (IH B).
  - cbn [emit_okG] in *. apply andb_prop in Hok as [Hnd Hok]. rewrite Hnd. cbn [andb].
    clear Hnd. induction H as [|[k x] l Hx _ IH]; [reflexivity|]. cbn in *.
    apply andb_prop in Hok as [A B]. apply andb_prop in A as [K A]. now rewrite (Hs _ K), (Hx A), (IH B).
  - cbn [emit_okG] in *.
    apply andb_prop in Hok as [Hok Hsc]. rewrite Hok. cbn [andb].
    clear - H Hsc. induction H as [|[k x] l Hx _ IH]; [reflexivity|]. cbn in *.
    apply andb_prop in Hsc as [A B]. now rewrite (Hx A), (IH B).
  - exact Hok.
Qed.

(* ---------------------------------------------------------------- [emit_ok], [vrel] are an instance *)
Definition num_plain (x : num) : bool := negb (is_nan x).
Definition str_plain (s : string) : bool := negb (both_quotes s).

Lemma num_plain_nan nanfix x : num_plain x = true -> nanfix || negb (is_nan x) = true.
Proof. unfold num_plain. intros ->. apply orb_true_r. Qed.

Lemma Forall2_mono_in {A B} (R R' : A -> B -> Prop) l :
  Forall (fun a => forall b, R a b -> R' a b) l -> forall l', Forall2 R l l' -> Forall2 R' l l'.
Proof. induction 1 as [|a l Ha _ IH]; intros l' H2; inversion H2; subst; constructor; auto. Qed.

(* [vrel_is_vrelG] closes the goal  forall v v', vrel .. v v' <-> vrelG .. v v'  for a relation [vrel] that has
   the rules of [vrelG] with its condition on inlined leaves written
   out, proves  forall v v', vrel .. v v' <-> vrelG .. v v' : induction on the left value; data and
   containers rule by rule; closures: the inlined values are in the same class (by conversion),
   the captured ones are related by induction *)
Ltac vrel_is_vrelG :=
  let v := fresh "v" in
  intros v; induction v as [| | | |? H|? H|? ? ? ? H| |? IHv] using value_ind'; intros v'; split; intros Hv;
    inversion Hv; subst; try (constructor; assumption);
    try (constructor; eapply Forall2_mono_in; [|eassumption]; eapply Forall_impl; [|exact H]);
    try (intros a Ha b0; apply Ha);
    try (intros kv Hkv kv' [E V]; split; [exact E|apply Hkv; exact V]);
    try (constructor; apply IHv; assumption);
    (constructor; try assumption; intros x w E Em Hn;
     match goal with Hsc : forall x v, rec_get _ x = Some v -> rec_get _ x = None -> _ |- _ =>
       destruct (Hsc x w E Em Hn) as (w' & Ew & V); exists w'; split; [exact Ew|];
       apply rec_get_In in E; rewrite Forall_forall in H; apply (H _ E); exact V end).

Section Plain.
  Variable opok : binop -> bool.
  Variable biok : builtin -> bool.
  Variable nanfix : bool.

  Lemma emit_ok_G : emit_ok opok biok = emit_okG opok biok num_plain str_plain.
  Proof. reflexivity. Qed.

  Lemma vrel_G : forall v v', vrel opok biok nanfix v v' <-> vrelG opok biok nanfix num_plain str_plain v v'.
  Proof. vrel_is_vrelG. Qed.
End Plain.
