(* AllHigherOrder.v — C13 at evaluator level for the evaluator with EVERY built-in of the table
   (EvalAll.builtin_all o, operators EvalAll.binop_all o), for every oracle o: the built-in forms
   map / filter are the depth error or exactly the operator forms via / where; `x into f` is `f(x)`.
   HigherOrder.v's Section DepthGen at this dispatcher. *)
From Coq Require Import String Ascii List ZArith Bool Lia.
Require Import Blots.Num Blots.gen.Builtins Blots.Ast Blots.Value Blots.Outcome Blots.Binop
               Blots.Env Blots.Eval Blots.BuiltinsHof Blots.Program Blots.EvalInst Blots.EvalFull Blots.EvalAll
               Blots.proofs.DepthMono Blots.proofs.InstDepth Blots.proofs.HigherOrder
               Blots.proofs.FullInst Blots.proofs.AllInst.
Import ListNotations.
Open Scope list_scope.
Open Scope nat_scope.

Section DepthAll.
  Variable o : oracle.
  Variable release : bool.
  Notation AD := (AD release (binop_all o) (builtin_all o)).

  Theorem map_form_le_via_form_all : forall d fr l f st,
    is_callable f = true ->
    rle (AD d fr (VBuiltin B_map) (VBuiltin B_map) [VList l; f] st)
        (binop_all o (AD d fr) Via (VList l) f st).
  Proof.
    exact (map_form_le_via_form_gen release (binop_all o) (builtin_all o) (binop_all_le o) (builtin_all_le o) (fun _ _ _ _ => eq_refl) (fun _ => eq_refl)).
  Qed.

  Theorem filter_form_le_where_form_all : forall d fr l f st,
    is_callable f = true ->
    rle (AD d fr (VBuiltin B_filter) (VBuiltin B_filter) [VList l; f] st)
        (binop_all o (AD d fr) Where (VList l) f st).
  Proof.
    exact (filter_form_le_where_form_gen release (binop_all o) (builtin_all o) (binop_all_le o) (builtin_all_le o) (fun _ _ _ _ => eq_refl) (fun _ => eq_refl)).
  Qed.

  Theorem into_form_is_call_form_all : forall d fr x f st,
    is_callable f = true ->
    binop_all o (AD d fr) Into x f st = AD d fr f f [x] st.
  Proof. exact (into_form_is_call_form_gen release (binop_all o) (builtin_all o) (fun _ _ _ _ => eq_refl)). Qed.
End DepthAll.
