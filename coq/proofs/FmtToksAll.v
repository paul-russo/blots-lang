(* FmtToksAll.v — the knot: EVERY document format_expr_impl builds (Formatter.v fmtd, any oracle
   record, any width and indentation) passes the seam check `dok` of FmtToksDoc.v, hence
       toks (render (fmtd O w e i)) = flat_map piece_toks (fmtd O w e i)       (layout_toks)
   for every tree with `tok_ok O e`: a decidable predicate saying that
     - no node carries a comment (true of every `wf` tree of PrattRT.v: plain_cm) — so the five
       comment-keeping arms of format_multiline (`-x`, `x!`, `a[i]`, `a.f`, `...x`, whose
       operator is glued to the operand's chunk) are not taken;
     - the texts the layouts take from elsewhere stop in code state (`ends_code`: every string
       literal closed, not inside a comment): expr_to_source's and format_single_line's text of
       every sub-expression, assigned names, lambda parameter lists, record keys. *)
From Coq Require Import String Ascii List Bool Arith Lia.
Require Import Blots.Num Blots.Ast Blots.Formatter Blots.FmtTokens Blots.proofs.FmtdInd
               Blots.proofs.FmtToks Blots.proofs.FmtToksDoc.
Import ListNotations.
Local Open Scope list_scope.

Section Knot.
  Variable O : oracles.
  Variable w : nat.
  Notation fd := (fmtd O w).

  Definition node_ok (e : expr) : bool :=
    ends_code (fsl O e) && ends_code (o_e2s O e) && negb (contains_comments e).

  Fixpoint tok_ok (e : expr) : bool :=
    node_ok e &&
    match e with
    | EList items =>
        (fix go (l : list (commented expr)) : bool :=
           match l with [] => true | Cm [] x None :: l' => tok_ok x && go l' | _ => false end) items
    | ERec entries =>
        (fix go (l : list (commented rentry)) : bool :=
           match l with
           | [] => true
           | Cm [] (REntry k v) None :: l' =>
               match k with
               | KStatic s => ends_code (o_record_key O s)
               | KDyn d => tok_ok d
               | KShort n => ends_code n && nonempty n
               | KSpread x => tok_ok x
               end && tok_ok v && go l'
           | _ => false
           end) entries
    | ELam args body => ends_code (lambda_args_part args) && tok_ok body
    | ECond c t f => tok_ok c && tok_ok t && tok_ok f
    | EDo stmts (Cm rl ret rt) =>
        (fix go (l : list (commented expr)) : bool :=
           match l with [] => true | Cm [] x None :: l' => tok_ok x && go l' | _ => false end) stmts
        && match rl, rt with [], None => true | _, _ => false end && tok_ok ret
    | EAssign x v => ends_code x && tok_ok v
    | EOutput x => tok_ok x
    | ECall f args =>
        tok_ok f && (fix go (l : list expr) : bool :=
                       match l with [] => true | a :: l' => tok_ok a && go l' end) args
    | EAccess x i => tok_ok x && tok_ok i
    | EDot x _ => tok_ok x
    | EBin _ l r => tok_ok l && tok_ok r
    | EUn _ x => tok_ok x
    | EFact x => tok_ok x
    | ESpread x => tok_ok x
    | _ => true
    end.

  Definition fmtd_dok (e : expr) : Prop := forall j, dok true (fd e j) = true.
  Lemma dok_opaque : forall e s, ends_code s = true -> dok true [Opaque e s] = true.
  Proof. intros e s H. cbn [dok render_piece]. rewrite H. reflexivity. Qed.

  Lemma tok_node : forall e, tok_ok e = true ->
    ends_code (fsl O e) = true /\ ends_code (o_e2s O e) = true /\ contains_comments e = false.
  Proof.
    intros e H. assert (Hn : node_ok e = true) by (destruct e; cbn [tok_ok] in H; apply andb_prop in H; tauto).
    unfold node_ok in Hn. apply andb_prop in Hn as [Hn Hcc]. apply andb_prop in Hn as [Hf He].
    apply negb_true_iff in Hcc. auto.
  Qed.

  (* the elements of a list or do-block *)
  Lemma tok_items : forall items,
    (fix go (l : list (commented expr)) : bool :=
       match l with [] => true | Cm [] x None :: l' => tok_ok x && go l' | _ => false end) items = true ->
    Forall (fun c => tok_ok (cnode c) = true -> fmtd_dok (cnode c)) items ->
    plain_items items = true /\ Forall (item_dok fd) items.
  Proof.
    induction items as [|[lead x tr] items IH]; intros Hok H; [split; [reflexivity|constructor]|].
    inversion H as [|? ? Hx H']; subst. destruct lead; [|discriminate]. destruct tr; [discriminate|].
    apply andb_prop in Hok as [Kx Kr]. destruct (IH Kr H') as [A B].
    split; [exact A|]. constructor; [exact (Hx Kx)|exact B].
  Qed.

  Notation dok_rec := (Rec O w (fun e => tok_ok e = true) (fun _ d => dok true d = true)).
  Notation dok_chain := (Chain O w (fun e => tok_ok e = true) (fun _ d => dok true d = true)).

  Theorem dok_fmtd_chain : forall e, dok_rec e /\ dok_chain e.
  Proof.
    assert (NK : forall e, tok_ok e = true -> keeps_layout O e = true -> False).
    { intros e Ha K. destruct (tok_node e Ha) as (_ & _ & Hcc). unfold keeps_layout in K.
      rewrite Hcc, andb_false_r in K. discriminate K. }
    apply fmtd_ind_chain.
    - intros e s Ha _ Hs. destruct (tok_node e Ha) as (Hf & He & _). apply dok_opaque.
      destruct Hs as [->| ->]; assumption.
    - intros items i Ha H. cbn [tok_ok] in Ha. apply andb_prop in Ha as [_ Ha].
      destruct (tok_items items Ha H) as [HP HF].
      apply dok_list_doc; [exact HP|exact HF].
    - intros entries i Ha H. cbn [tok_ok] in Ha. apply andb_prop in Ha as [_ Ha].
      assert (HL : entries_ok O entries = true /\ Forall (fun c => entry_dok fd (cnode c)) entries).
      { revert H Ha. induction entries as [|[lead [k v] tr] entries IHl]; intros IH Hok;
          [split; [reflexivity|constructor]|].
        inversion IH as [|? ? Px IH']; subst. destruct Px as [Pk Pv].
        destruct lead; [|discriminate]. destruct tr; [discriminate|].
        apply andb_prop in Hok as [Hx Hr]. apply andb_prop in Hx as [Hk Hv].
        destruct (IHl IH' Hr) as [A B]. cbn [entries_ok]. rewrite A, andb_true_r.
        destruct k as [s|d|n|x]; cbn [entry_ok cnode entry_dok ExprInd.Pkey] in *.
        - split; [exact Hk|]. constructor; [exact (Pv Hv)|exact B].
        - split; [reflexivity|]. constructor; [split; [exact (Pk Hk)|exact (Pv Hv)]|exact B].
        - split; [exact Hk|]. constructor; [exact I|exact B].
        - split; [reflexivity|]. constructor; [exact (Pk Hk)|exact B]. }
      destruct HL as [HP HF].
      apply dok_record_doc; [exact HP|exact HF].
    - intros args body i Ha H. cbn [tok_ok] in Ha. apply andb_prop in Ha as [_ Ha].
      apply andb_prop in Ha as [Hargs Hb].
      apply dok_lambda_doc; [exact Hargs|exact (H Hb)].
    - intros c t el i Ha Hc Ht Hel Cel. cbn [tok_ok] in Ha. apply andb_prop in Ha as [_ Ha].
      apply andb_prop in Ha as [Ha K3]. apply andb_prop in Ha as [K1 K2].
      assert (E : forall c0, dok c0 (else_doc O w el i) = true).
      { refine (else_doc_ind O w _ _ (fun d => forall c0, dok c0 d = true) el i K3 Hel Cel _ _);
          intros d Hd c0; cbn [app]; rewrite dok_nl_ind.
        - now rewrite (dok_closed_piece "else " _ eq_refl eq_refl).
        - now rewrite (dok_word_nl "else" _ _ true eq_refl eq_refl eq_refl). }
      rewrite cond_doc_eq.
      match goal with |- context [if ?b then _ else _] => destruct b end;
        rewrite <- ?app_assoc; cbn [app]; rewrite (dok_closed_piece "if " _ eq_refl eq_refl).
      + rewrite (dok_child _ (Code " then") _ (Hc K1 _) eq_refl eq_refl),
                (dok_word_nl " then" _ _ true eq_refl eq_refl eq_refl), dok_app, (Ht K2 _). apply E.
      + rewrite (dok_child_nl _ _ _ (Hc K1 _)),
                (dok_word_nl "then" _ _ true eq_refl eq_refl eq_refl), dok_app, (Ht K2 _). apply E.
    - intros stmts [rl ret rt] i Ha Hs Hr. cbn [tok_ok] in Ha. apply andb_prop in Ha as [_ Ha].
      apply andb_prop in Ha as [Ha Kr]. apply andb_prop in Ha as [Ks Kp].
      destruct rl; [|discriminate]. destruct rt; [discriminate|].
      destruct (tok_items stmts Ks Hs) as [HP HF].
      apply dok_do_doc; [exact HP|reflexivity|exact HF|exact (Hr Kr)].
    - intros x v i Ha H. cbn [tok_ok] in Ha. apply andb_prop in Ha as [_ Ha].
      apply andb_prop in Ha as [Hx Hv].
      apply dok_assign; [exact Hx|exact (H Hv)].
    - intros x i Ha H. cbn [tok_ok] in Ha. apply andb_prop in Ha as [_ Ha].
      apply dok_output; [exact (H Ha)].
    - intros f args i Ha Hf H. cbn [tok_ok] in Ha. apply andb_prop in Ha as [_ Ha].
      apply andb_prop in Ha as [Kf Ka].
      apply dok_call_doc; [exact (Hf Kf)|].
      revert H Ka. induction args as [|a args IHl]; intros IH Hok; [constructor|].
      inversion IH as [|? ? Px IH']; subst. apply andb_prop in Hok as [Hx Hr].
      constructor; [exact (Px Hx)|exact (IHl IH' Hr)].
    - intros op l r i Ha Hl Hr. cbn [tok_ok] in Ha. apply andb_prop in Ha as [_ Ha].
      apply andb_prop in Ha as [K1 K2].
      apply dok_binop_doc; [exact (Hl K1)|exact (Hr K2)].
    - intros a ix i Ha K. destruct (NK _ Ha K).
    - intros a f i Ha K. destruct (NK _ Ha K).
    - intros op x i Ha K. destruct (NK _ Ha K).
    - intros x i Ha K. destruct (NK _ Ha K).
    - intros x i Ha K. destruct (NK _ Ha K).
  Qed.

  Theorem dok_fmtd_all : forall e, tok_ok e = true -> fmtd_dok e.
  Proof. intros e H. exact (proj1 (dok_fmtd_chain e) H). Qed.

  Theorem layout_toks : forall e i, tok_ok e = true ->
    toks (render (fd e i)) = flat_map piece_toks (fd e i) /\ ends_code (render (fd e i)) = true.
  Proof. intros e i H. apply doc_toks. exact (dok_fmtd_all e H i). Qed.
End Knot.
