(* C02Weak.v — WEAKENING (C02, LET2 round): a binding of a name that nothing mentions changes nothing.

   The evaluator is late-binding: a lambda body is evaluated in  local :: captured scope :: CALLER'S chain
   (Eval.call_passed), so a function value can observe a binding made after it was created — but only of a
   name that occurs in its body.  "Nothing mentions x":
     [nocc x e]   x does not occur in the expression e: not as an identifier, not as a `{x}` shorthand key,
                  not as an assignment target (`x = ..` anywhere, also inside lambda bodies and do-blocks:
                  Expr::Assignment fails when the name is bound ANYWHERE in the chain, so `g = () => (x = 5)`
                  observes a binding of x without reading it), not as a lambda parameter;
     [vnm x v]    no function value inside v (hereditarily through lists, records, captured scopes) has x
                  among its parameters or occurring in its body.
   Two scope chains are related ([wk x]) when they have the same head-frame kind and every name OTHER than x
   looks up to the same value.  Theorem [evalE_wk] / [AD_wk] / [evalD_wk]: from related chains whose values do
   not mention x, and the SAME store, an expression that does not mention x evaluates to the same outcome,
   the same store, related chains; no value mentioning x is ever created.  All expression forms (assignments,
   do-blocks, lambdas, calls), FunctionDef::call at every depth.  Generic in operators / built-ins with
   [ops_nm]: "with two callbacks that agree on values not mentioning x, and return such values, the operator /
   built-in gives the same result, not mentioning x" — this is exactly GenOps.v's / AllGenClosed.v's unary
   parametricity statement for the store-independent predicate [vok x], so it is discharged for
   binop_impl / builtin_impl / builtin_full by instantiation ([ops_nm_inst], [ops_nm_full]).

   `x <> "inputs"` is needed: FunctionDef::call copies the caller's `inputs` into every call frame, whether the
   body mentions it or not.

   Not covered (the hypothesis is syntactic and conservative): a lambda whose PARAMETER is x, or that captured
   its own x, does not really depend on an outer binding of x; [nocc] / [vnm] exclude it. *)
From Coq Require Import String Ascii List ZArith Bool Lia.
Require Import Blots.Num Blots.gen.Builtins Blots.Ast Blots.Value Blots.Outcome Blots.Binop
               Blots.Env Blots.Eval Blots.BuiltinsHof Blots.Program Blots.EvalInst Blots.EvalFull
               Blots.proofs.ExprInd Blots.proofs.ValueInd Blots.proofs.FreeVars Blots.proofs.GenOps
               Blots.proofs.AllGenClosed Blots.proofs.ValuePred Blots.proofs.Frames Blots.proofs.StoreMono Blots.proofs.Scoping.
Import ListNotations.
Open Scope string_scope.
Open Scope list_scope.
Open Scope nat_scope.

(* ---- the syntactic predicates ---- *)
Definition neqx (x y : string) : bool := negb (String.eqb y x).

Fixpoint nocc (x : string) (e : expr) {struct e} : bool :=
  match e with
  | EId y => neqx x y
  | ELam args body => forallb (fun a => neqx x (arg_name a)) args && nocc x body
  | EList items =>
      (fix go (l : list (commented expr)) : bool :=
         match l with [] => true | Cm _ a _ :: r => nocc x a && go r end) items
  | ERec entries =>
      (fix go (l : list (commented rentry)) : bool :=
         match l with
         | [] => true
         | Cm _ (REntry k v) _ :: r =>
             (match k with
              | KDyn a => nocc x a && nocc x v
              | KSpread a => nocc x a
              | KStatic _ => nocc x v
              | KShort y => neqx x y
              end) && go r
         end) entries
  | ECond c t f => nocc x c && nocc x t && nocc x f
  | EDo stmts (Cm _ ret _) =>
      (fix go (l : list (commented expr)) : bool :=
         match l with [] => true | Cm _ a _ :: r => nocc x a && go r end) stmts && nocc x ret
  | EAssign y v => neqx x y && nocc x v
  | EOutput a | EUn _ a | EFact a | ESpread a | EDot a _ => nocc x a
  | ECall f args =>
      nocc x f && (fix go (l : list expr) : bool :=
                     match l with [] => true | a :: r => nocc x a && go r end) args
  | EAccess a i => nocc x a && nocc x i
  | EBin _ l r => nocc x l && nocc x r
  | _ => true
  end.

Definition params_nm (x : string) (ps : list lamarg) : bool := forallb (fun a => neqx x (arg_name a)) ps.

(* no function value inside v mentions x *)
Fixpoint vnm (x : string) (v : value) : bool :=
  match v with
  | VLam _ ps body sc =>
      params_nm x ps && nocc x body && forallb (fun kv => match kv with (_, w) => vnm x w end) sc
  | VList l => forallb (vnm x) l
  | VRec r => forallb (fun kv => match kv with (_, w) => vnm x w end) r
  | VSpread w => vnm x w
  | _ => true
  end.
Definition frame_nm (x : string) (f : frame) : bool := forallb (fun kv => match kv with (_, w) => vnm x w end) f.
Definition frames_nm (x : string) (fr : frames) : bool := forallb (fun kf => frame_nm x (snd kf)) fr.

(* ---- Prop-level readings ---- *)
Definition vok (n : string) (v : value) : Prop := vnm n v = true.
Definition fok (n : string) (f : frame) : Prop := Forall (fun kv => vok n (snd kv)) f.
Definition frsok (n : string) (fr : frames) : Prop := Forall (fun kf => fok n (snd kf)) fr.

Lemma frame_nm_iff : forall n f, frame_nm n f = true <-> fok n f.
Proof.
  intros n f. unfold frame_nm, fok. rewrite forallb_forall, Forall_forall. split.
  - intros H [k x] Hx. exact (H (k, x) Hx).
  - intros H [k x] Hx. exact (H (k, x) Hx).
Qed.
Lemma frames_nm_iff : forall n fr, frames_nm n fr = true <-> frsok n fr.
Proof.
  intros n fr. unfold frames_nm, frsok. rewrite forallb_forall, Forall_forall. split.
  - intros H kf Hx. apply frame_nm_iff. exact (H kf Hx).
  - intros H kf Hx. apply frame_nm_iff. exact (H kf Hx).
Qed.
Lemma vok_VList : forall n l, vok n (VList l) <-> Forall (vok n) l.
Proof. intros n l. unfold vok. cbn [vnm]. rewrite forallb_forall, Forall_forall. reflexivity. Qed.
Lemma vok_VRec : forall n r, vok n (VRec r) <-> fok n r.
Proof. intros n r. exact (frame_nm_iff n r). Qed.
Lemma vok_VLam : forall n id a b sc,
  vok n (VLam id a b sc) <-> params_nm n a = true /\ nocc n b = true /\ fok n sc.
Proof.
  intros n id a b sc. unfold vok. cbn [vnm]. rewrite !andb_true_iff.
  split.
  - intros [[H1 H2] H3]. split; [exact H1|split; [exact H2|apply (frame_nm_iff n sc); exact H3]].
  - intros [H1 [H2 H3]]. split; [split; assumption|apply (frame_nm_iff n sc); exact H3].
Qed.
Lemma vok_VSpread : forall n x, vok n (VSpread x) <-> vok n x.
Proof. intros; reflexivity. Qed.
Lemma vok_atomic : forall n v, atomic v -> vok n v.
Proof. intros n v H. destruct v; try contradiction; reflexivity. Qed.

Lemma vok_her : forall n, hereditary (vok n).
Proof. intros n. constructor; [apply vok_VList|apply vok_VRec|apply vok_VSpread|apply vok_atomic]. Qed.

(* ---- the predicate as an instance of GenOps.v / AllGenClosed.v: store-independent ---- *)
Definition anyS (_ _ : store) : Prop := True.
Definition Pp (x : string) (_ : store) (v : value) : Prop := vok x v.
Lemma anyS_refl : forall s, anyS s s. Proof. intros; exact I. Qed.
Lemma anyS_trans : forall a b c, anyS a b -> anyS b c -> anyS a c. Proof. intros; exact I. Qed.
Lemma Pp_mono : forall x v st st', anyS st st' -> Pp x st v -> Pp x st' v.
Proof. intros x v st st' _ H; exact H. Qed.
Lemma Pp_VList : forall x st l, Pp x st (VList l) <-> closed_list (Pp x) st l.
Proof. intros x st l. apply vok_VList. Qed.
Lemma Pp_VRec : forall x st r, Pp x st (VRec r) <-> AllGenClosed.closed_frame (Pp x) st r.
Proof. intros x st r. apply vok_VRec. Qed.
Lemma Pp_VSpread : forall x st w, Pp x st (VSpread w) <-> Pp x st w.
Proof. intros; reflexivity. Qed.
Lemma Pp_atomic : forall x st v, atomic v -> Pp x st v.
Proof. intros x st v. apply vok_atomic. Qed.

(* two callbacks agree on values that do not mention x; the first returns such values *)
Definition cb_agr (x : string) (cb1 cb2 : callback) : Prop :=
  forall this f args st, vok x this -> vok x f -> Forall (vok x) args -> cb1 this f args st = cb2 this f args st.
Definition cb_nm (x : string) (cb : callback) : Prop :=
  forall this f args st r st', vok x this -> vok x f -> Forall (vok x) args ->
    cb this f args st = (r, st') -> forall v, r = Ok v -> vok x v.
Lemma cb_agr_gen : forall x cb1 cb2 s0, cb_agr x cb1 cb2 -> cb_agree anyS (Pp x) s0 cb1 cb2.
Proof. intros x cb1 cb2 s0 H this f args st _ Ht Hf Ha. apply H; assumption. Qed.
Lemma cb_nm_gen : forall x cb s0, cb_nm x cb -> cb_closed anyS (Pp x) s0 cb.
Proof. intros x cb s0 H this f args st r st' _ Ht Hf Ha E. split; [exact I|]. intros v Ev. exact (H this f args st r st' Ht Hf Ha E v Ev). Qed.

(* THE HYPOTHESIS ON OPERATORS / BUILT-INS: they create no mention of x and use their callback parametrically *)
Definition binop_nm (x : string) (bi : callback -> binop -> value -> value -> store -> outcome value * store) : Prop :=
  forall cb1 cb2, cb_agr x cb1 cb2 -> cb_nm x cb1 -> forall op l r st, vok x l -> vok x r ->
    bi cb1 op l r st = bi cb2 op l r st /\
    (forall res st', bi cb1 op l r st = (res, st') -> forall v, res = Ok v -> vok x v).
Definition builtin_nm (x : string) (bu : callback -> builtin -> list value -> store -> outcome value * store) : Prop :=
  forall cb1 cb2, cb_agr x cb1 cb2 -> cb_nm x cb1 -> forall b args st, Forall (vok x) args ->
    bu cb1 b args st = bu cb2 b args st /\
    (forall res st', bu cb1 b args st = (res, st') -> forall v, res = Ok v -> vok x v).
Definition ops_nm bi bu : Prop := forall x, binop_nm x bi /\ builtin_nm x bu.

(* ---- x does not occur => x is not a free variable (so `capture` never looks x up) ---- *)
Lemma neqx_eqb : forall x y, neqx x y = true <-> String.eqb y x = false.
Proof. intros x y. unfold neqx. destruct (String.eqb y x); split; intros H; try reflexivity; discriminate H. Qed.

Lemma nocc_ids_ok : forall x, String.eqb "inputs" x = false ->
  forall e, nocc x e = true -> ids_ok (fun y => String.eqb y x = false) e.
Proof.
  intros x Hinp. induction e using expr_ind'; intros Hn; cbn [nocc ids_ok] in *; try exact I.
  - apply neqx_eqb; exact Hn.
  - exact Hinp.
  - match goal with HF : Forall _ items |- _ => induction HF as [|[ld a tr] l Ha _ IHl] end; [exact I|].
    cbn [cnode] in Ha. apply andb_true_iff in Hn. destruct Hn as [H1 H2]. split; [apply Ha; exact H1|apply IHl; exact H2].
  - match goal with HF : Forall _ entries |- _ => induction HF as [|[ld [k v] tr] l Ha _ IHl] end; [exact I|].
    cbn [cnode Pentry] in Ha. destruct Ha as [Hk Hv]. apply andb_true_iff in Hn. destruct Hn as [H1 H2].
    split; [|apply IHl; exact H2].
    destruct k as [key|ke|z|se]; cbn [Pkey] in Hk.
    + apply Hv; exact H1.
    + apply andb_true_iff in H1. destruct H1 as [Ha Hb]. split; [apply Hk; exact Ha|apply Hv; exact Hb].
    + apply neqx_eqb; exact H1.
    + apply Hk; exact H1.
  - apply andb_true_iff in Hn. destruct Hn as [_ Hn]. apply IHe; exact Hn.
  - apply andb_true_iff in Hn. destruct Hn as [Hn H3]. apply andb_true_iff in Hn. destruct Hn as [H1 H2].
    split; [apply IHe1; exact H1|split; [apply IHe2; exact H2|apply IHe3; exact H3]].
  - match goal with HF : Forall _ stmts, HR : _ -> _ |- _ => rename HF into HFs; rename HR into HRet end.
    destruct ret as [ld rt tr]. cbn [cnode] in HRet. apply andb_true_iff in Hn. destruct Hn as [H1 H2].
    split; [|apply HRet; exact H2]. clear HRet H2.
    induction HFs as [|[l1 s t1] l Hs1 _ IHl]; [exact I|].
    cbn [cnode] in Hs1. apply andb_true_iff in H1. destruct H1 as [Ha Hb]. split; [apply Hs1; exact Ha|apply IHl; exact Hb].
  - apply andb_true_iff in Hn. destruct Hn as [_ Hn]. apply IHe; exact Hn.
  - apply IHe; exact Hn.
  - apply andb_true_iff in Hn. destruct Hn as [H1 H2]. split; [apply IHe; exact H1|].
    match goal with HF : Forall _ args |- _ => induction HF as [|a l Ha _ IHl] end; [exact I|].
    apply andb_true_iff in H2. destruct H2 as [Ha' Hb]. split; [apply Ha; exact Ha'|apply IHl; exact Hb].
  - apply andb_true_iff in Hn. destruct Hn as [H1 H2]. split; [apply IHe1; exact H1|apply IHe2; exact H2].
  - apply IHe; exact Hn.
  - apply andb_true_iff in Hn. destruct Hn as [H1 H2]. split; [apply IHe1; exact H1|apply IHe2; exact H2].
  - apply IHe; exact Hn.
  - apply IHe; exact Hn.
  - apply IHe; exact Hn.
Qed.
Lemma nocc_fv : forall x, String.eqb "inputs" x = false ->
  forall e bnd y, nocc x e = true -> In y (free_vars e bnd) -> String.eqb y x = false.
Proof.
  intros x Hinp e bnd y H Hin.
  exact (fv_ids_ok (fun y => String.eqb y x = false) e bnd y (nocc_ids_ok x Hinp e H) Hin).
Qed.

(* nocc of the parts of a list / record / do-block, as Forall *)
Lemma nocc_items : forall x (l : list (commented expr)),
  (fix go (l : list (commented expr)) : bool :=
     match l with [] => true | Cm _ a _ :: r => nocc x a && go r end) l = true ->
  Forall (fun cm => nocc x (cnode cm) = true) l.
Proof.
  intros x l. induction l as [|[ld a tr] l IH]; intros H; [constructor|].
  apply andb_true_iff in H. destruct H as [H1 H2]. constructor; [exact H1|apply IH; exact H2].
Qed.
Lemma nocc_args : forall x (l : list expr),
  (fix go (l : list expr) : bool := match l with [] => true | a :: r => nocc x a && go r end) l = true ->
  Forall (fun a => nocc x a = true) l.
Proof.
  intros x l. induction l as [|a l IH]; intros H; [constructor|].
  apply andb_true_iff in H. destruct H as [H1 H2]. constructor; [exact H1|apply IH; exact H2].
Qed.
Definition nocc_key (x : string) (k : rkey) : bool :=
  match k with KDyn a | KSpread a => nocc x a | KStatic _ => true | KShort y => neqx x y end.
Lemma nocc_entries : forall x (l : list (commented rentry)),
  (fix go (l : list (commented rentry)) : bool :=
     match l with
     | [] => true
     | Cm _ (REntry k v) _ :: r =>
         (match k with
          | KDyn a => nocc x a && nocc x v
          | KSpread a => nocc x a
          | KStatic _ => nocc x v
          | KShort y => neqx x y
          end) && go r
     end) l = true ->
  Forall (fun cm => match cnode cm with REntry k v =>
                      nocc_key x k = true /\ (match k with KDyn _ | KStatic _ => nocc x v = true | _ => True end) end) l.
Proof.
  intros x l. induction l as [|[ld [k v] tr] l IH]; intros H; [constructor|].
  apply andb_true_iff in H. destruct H as [H1 H2]. constructor; [|apply IH; exact H2].
  cbn [cnode]. destruct k; cbn [nocc_key].
  - split; [reflexivity|exact H1].
  - apply andb_true_iff in H1. exact H1.
  - split; [exact H1|exact I].
  - split; [exact H1|exact I].
Qed.

(* ================= the relation on scope chains ================= *)
Definition hdk (fr : frames) : option fkind := match fr with (k, _) :: _ => Some k | [] => None end.

Section Sim.
  Variable x : string.
  Hypothesis Hinp : String.eqb "inputs" x = false.

  Definition wk (frA frB : frames) : Prop :=
    hdk frA = hdk frB /\ forall y, String.eqb y x = false -> lookup frA y = lookup frB y.
  Definition okc (frA frB : frames) : Prop := wk frA frB /\ frsok x frA /\ frsok x frB.

  Lemma wk_refl : forall fr, wk fr fr.
  Proof. intros fr. split; reflexivity. Qed.
  Lemma wk_push : forall k f frA frB, wk frA frB -> wk ((k, f) :: frA) ((k, f) :: frB).
  Proof.
    intros k f frA frB [_ H]. split; [reflexivity|]. intros y Hy. cbn [lookup].
    destruct (lookup_frame f y); [reflexivity|apply H; exact Hy].
  Qed.
  Lemma wk_bind : forall k f w fr, wk ((k, f) :: fr) ((k, (x, w) :: f) :: fr).
  Proof.
    intros k f w fr. split; [reflexivity|]. intros y Hy. cbn [lookup lookup_frame]. rewrite Hy. reflexivity.
  Qed.
  Lemma wk_insert : forall frA frB y v, wk frA frB ->
    match insert_head frA y v, insert_head frB y v with
    | Some a, Some b => wk a b
    | None, None => True
    | _, _ => False
    end.
  Proof.
    intros frA frB y v [Hk H].
    destruct frA as [|[[|] fa] ra]; destruct frB as [|[[|] fb] rb]; cbn [hdk] in Hk; try discriminate Hk;
      cbn [insert_head]; try exact I.
    split; [reflexivity|]. intros z Hz. specialize (H z Hz). cbn [lookup lookup_frame] in *.
    destruct (String.eqb z y); [reflexivity|exact H].
  Qed.
  Lemma wk_contains : forall frA frB y, wk frA frB -> String.eqb y x = false -> contains frA y = contains frB y.
  Proof. intros frA frB y [_ H] Hy. unfold contains. rewrite (H y Hy). reflexivity. Qed.
  Lemma wk_capture : forall frA frB vars, wk frA frB -> (forall y, In y vars -> String.eqb y x = false) ->
    forall acc, capture frA vars acc = capture frB vars acc.
  Proof.
    intros frA frB vars [_ H]. induction vars as [|y vars IH]; intros Hv acc; cbn [capture]; [reflexivity|].
    rewrite (H y (Hv y (or_introl eq_refl))).
    assert (Hv' : forall z, In z vars -> String.eqb z x = false) by (intros z Hz; apply Hv; right; exact Hz).
    destruct (lookup frB y); [destruct (is_builtin_name y)|]; apply IH; exact Hv'.
  Qed.
  Lemma okc_push : forall k f frA frB, okc frA frB -> fok x f -> okc ((k, f) :: frA) ((k, f) :: frB).
  Proof.
    intros k f frA frB (W & FA & FB) Hf. split; [apply wk_push; exact W|].
    split; constructor; assumption.
  Qed.

  (* ---- what one evaluation step guarantees, on the two sides ---- *)
  Definition rel2 (XA XB : result) : Prop :=
    fst XA = fst XB /\ fst (snd XA) = fst (snd XB) /\ okc (snd (snd XA)) (snd (snd XB)) /\
    (forall v, fst XA = Ok v -> vok x v).
  Definition relL (XA XB : outcome (list value) * cfg) : Prop :=
    fst XA = fst XB /\ fst (snd XA) = fst (snd XB) /\ okc (snd (snd XA)) (snd (snd XB)) /\
    (forall vs, fst XA = Ok vs -> Forall (vok x) vs).
  Definition relU (XA XB : outcome unit * cfg) : Prop :=
    fst XA = fst XB /\ fst (snd XA) = fst (snd XB) /\ okc (snd (snd XA)) (snd (snd XB)).
  Definition wk_ok (ev : cfg -> expr -> result) (e : expr) : Prop :=
    forall st frA frB, okc frA frB -> rel2 (ev (st, frA) e) (ev (st, frB) e).

  Lemma rel2_same : forall st frA frB (o : outcome value), okc frA frB -> (forall v, o = Ok v -> vok x v) ->
    rel2 (o, (st, frA)) (o, (st, frB)).
  Proof. intros st frA frB o H Hv. split; [reflexivity|split; [reflexivity|split; [exact H|exact Hv]]]. Qed.
  Lemma rel2_fail : forall st frA frB (o : outcome value), okc frA frB -> is_ok o = false ->
    rel2 (o, (st, frA)) (o, (st, frB)).
  Proof. intros st frA frB o H Ho. apply rel2_same; [exact H|]. intros v E; subst; discriminate Ho. Qed.

  Ltac stp H :=
    match type of H with
    | _ ?XA ?XB =>
        let oA := fresh "oA" in let sA := fresh "sA" in let fA := fresh "fA" in
        let oB := fresh "oB" in let sB := fresh "sB" in let fB := fresh "fB" in
        let E1 := fresh "E" in let E2 := fresh "E" in let W := fresh "W" in let V := fresh "V" in
        destruct XA as [oA [sA fA]]; destruct XB as [oB [sB fB]];
        destruct H as (E1 & E2 & W & V); cbn [fst snd] in E1, E2, W, V; subst oB; subst sB
    end.
  Ltac stpU H :=
    match type of H with
    | _ ?XA ?XB =>
        let oA := fresh "oA" in let sA := fresh "sA" in let fA := fresh "fA" in
        let oB := fresh "oB" in let sB := fresh "sB" in let fB := fresh "fB" in
        let E1 := fresh "E" in let E2 := fresh "E" in let W := fresh "W" in
        destruct XA as [oA [sA fA]]; destruct XB as [oB [sB fB]];
        destruct H as (E1 & E2 & W); cbn [fst snd] in E1, E2, W; subst oB; subst sB
    end.

  Section E.
  Variable release : bool.
  Variable bi : callback -> binop -> value -> value -> store -> outcome value * store.
  Variable bu : callback -> builtin -> list value -> store -> outcome value * store.
  Hypothesis Hbi : binop_nm x bi.
  Variable apply : frames -> callback.
  Hypothesis Hap : forall frA frB, okc frA frB -> cb_agr x (apply frA) (apply frB) /\ cb_nm x (apply frA).
  Notation evalE := (evalE release bi apply).

  Lemma evalL_wk : forall ev l, Forall (wk_ok ev) l ->
    forall st frA frB, okc frA frB -> relL (evalL ev (st, frA) l) (evalL ev (st, frB) l).
  Proof.
    intros ev l HF; induction HF as [|e l He _ IH]; intros st frA frB Hc; cbn [evalL].
    - split; [reflexivity|split; [reflexivity|split; [exact Hc|]]]. intros vs E; inversion E; constructor.
    - pose proof (He st frA frB Hc) as H1. stp H1.
      destruct oA; cbn [cast_fail];
        try (split; [reflexivity|split; [reflexivity|split; [exact W|intros ? E; discriminate E]]]).
      pose proof (IH sA fA fB W) as H2. stp H2.
      destruct oA; (split; [reflexivity|split; [reflexivity|split; [exact W0|]]]); intros vs E; inversion E; subst.
      constructor; [apply V; reflexivity|apply V0; reflexivity].
  Qed.
  Definition entry_ok (ev : cfg -> expr -> result) (r : rentry) : Prop :=
    match r with
    | REntry k v =>
        match k with
        | KDyn a => wk_ok ev a /\ wk_ok ev v
        | KSpread a => wk_ok ev a
        | KStatic _ => wk_ok ev v
        | KShort y => String.eqb y x = false
        end
    end.
  Lemma evalRecL_wk : forall ev (l : list (commented rentry)),
    Forall (fun cm => entry_ok ev (cnode cm)) l ->
    forall st frA frB acc, okc frA frB -> fok x acc ->
      rel2 (evalRecL ev (st, frA) acc l) (evalRecL ev (st, frB) acc l).
  Proof.
    intros ev l HF; induction HF as [|[ld [k v] tr] l Hx _ IH]; intros st frA frB acc Hc Hacc; cbn [evalRecL].
    - apply rel2_same; [exact Hc|]. intros w E; inversion E; subst. apply vok_VRec. exact Hacc.
    - cbn [cnode entry_ok] in Hx. destruct k as [key|ke|y|se].
      + pose proof (Hx st frA frB Hc) as H1. stp H1.
        destruct oA; try (apply rel2_fail; [exact W|reflexivity]).
        apply IH; [exact W|]. apply rec_insert_P; [exact Hacc|apply V; reflexivity].
      + destruct Hx as [Hk Hv]. pose proof (Hk st frA frB Hc) as H1. stp H1.
        destruct oA; try (apply rel2_fail; [exact W|reflexivity]).
        destruct (as_string a); cbn [cast_fail]; try (apply rel2_fail; [exact W|reflexivity]).
        pose proof (Hv sA fA fB W) as H2. stp H2.
        destruct oA; try (apply rel2_fail; [exact W0|reflexivity]).
        apply IH; [exact W0|]. apply rec_insert_P; [exact Hacc|apply V0; reflexivity].
      + cbn [snd]. destruct Hc as (Wk & FA & FB). rewrite (proj2 Wk y Hx).
        destruct (lookup frB y) as [x'|] eqn:El.
        * apply IH; [split; [exact Wk|split; assumption]|]. apply rec_insert_P; [exact Hacc|].
          eapply lookup_P; [exact FB|exact El].
        * apply rel2_fail; [split; [exact Wk|split; assumption]|reflexivity].
      + pose proof (Hx st frA frB Hc) as H1. stp H1.
        destruct oA; try (apply rel2_fail; [exact W|reflexivity]).
        apply IH; [exact W|]. apply rec_insert_all_P; [exact Hacc|].
        apply (record_spread_entries_P _ (vok_her x)). apply V; reflexivity.
  Qed.

  Lemma bind_value_wk : forall n0 st frA frB y v, okc frA frB -> vok x v ->
    rel2 (bind_value n0 (st, frA) y v) (bind_value n0 (st, frB) y v).
  Proof.
    intros n0 st frA frB y v (Wk & FA & FB) Hv. unfold bind_value. cbn [fst snd].
    pose proof (wk_insert frA frB y v Wk) as Hi.
    destruct (insert_head frA y v) as [a|] eqn:Ea; destruct (insert_head frB y v) as [b|] eqn:Eb; try contradiction.
    - split; [reflexivity|split; [reflexivity|split; [|intros w Ew; inversion Ew; subst; exact Hv]]].
      cbn [fst snd]. split; [exact Hi|split; [exact (insert_head_P (vok x) frA y v a FA Hv Ea)|exact (insert_head_P (vok x) frB y v b FB Hv Eb)]].
    - apply rel2_fail; [split; [exact Wk|split; assumption]|reflexivity].
  Qed.
  Lemma assign_value_wk : forall ev y ve, wk_ok ev ve -> forall st frA frB, okc frA frB ->
    rel2 (assign_value ev (st, frA) y ve) (assign_value ev (st, frB) y ve).
  Proof.
    intros ev y ve Hve st frA frB Hc. unfold assign_value. cbn [fst].
    pose proof (Hve st frA frB Hc) as H1. stp H1.
    destruct oA; try (apply rel2_fail; [exact W|reflexivity]).
    apply bind_value_wk; [exact W|apply V; reflexivity].
  Qed.
  Lemma assign_checked_wk : forall ev y ve, String.eqb y x = false -> wk_ok ev ve -> forall st frA frB, okc frA frB ->
    rel2 (assign_checked ev (st, frA) y ve) (assign_checked ev (st, frB) y ve).
  Proof.
    intros ev y ve Hy Hve st frA frB Hc. unfold assign_checked. cbn [fst].
    pose proof (Hve st frA frB Hc) as H1. stp H1.
    destruct oA; try (apply rel2_fail; [exact W|reflexivity]).
    cbn [snd]. rewrite (wk_contains fA fB y (proj1 W) Hy).
    destruct (contains fB y); [apply rel2_fail; [exact W|reflexivity]|].
    apply bind_value_wk; [exact W|apply V; reflexivity].
  Qed.
  (* a do-block statement: direct assignments shadow without the immutability check *)
  Definition stmt_ok (ev : cfg -> expr -> result) (s : expr) : Prop :=
    wk_ok ev s /\ (forall y ve, s = EAssign y ve -> wk_ok ev ve).
  Lemma do_step_wk : forall ev s, stmt_ok ev s -> forall st frA frB, okc frA frB ->
    rel2 (do_step ev (st, frA) s) (do_step ev (st, frB) s).
  Proof.
    intros ev s [Hs Hsub] st frA frB Hc. unfold do_step. destruct s; try (apply Hs; exact Hc).
    destruct (mem x0 do_assign_keywords); [apply rel2_fail; [exact Hc|reflexivity]|].
    apply assign_value_wk; [eapply Hsub; reflexivity|exact Hc].
  Qed.
  Lemma evalDoL_wk : forall ev (l : list (commented expr)), Forall (fun cm => stmt_ok ev (cnode cm)) l ->
    forall st frA frB, okc frA frB -> relU (evalDoL ev (st, frA) l) (evalDoL ev (st, frB) l).
  Proof.
    intros ev l HF; induction HF as [|[ld s tr] l Hs _ IH]; intros st frA frB Hc; cbn [evalDoL].
    - split; [reflexivity|split; [reflexivity|exact Hc]].
    - cbn [cnode] in Hs. pose proof (do_step_wk ev s Hs st frA frB Hc) as H1. stp H1.
      destruct oA; cbn [cast_fail]; try (split; [reflexivity|split; [reflexivity|exact W]]).
      apply IH; exact W.
  Qed.

  Theorem evalE_wk : forall e, nocc x e = true -> stmt_ok evalE e.
  Proof.
    induction e using expr_ind'; intros Hn; cbn [nocc] in Hn;
      (split; [intros st frA frB Hc; cbn [Eval.evalE]|try (intros ? ? Heq; discriminate Heq)]).
    - apply rel2_same; [exact Hc|intros v E; inversion E; reflexivity].
    - apply rel2_same; [exact Hc|intros v E; inversion E; reflexivity].
    - apply rel2_same; [exact Hc|intros v E; inversion E; reflexivity].
    - apply rel2_same; [exact Hc|intros v E; inversion E; reflexivity].
    - (* EId *)
      apply neqx_eqb in Hn.
      destruct (_ || _); [apply rel2_same; [exact Hc|intros v E; inversion E; reflexivity]|].
      destruct (String.eqb x0 "constants"); [apply rel2_same; [exact Hc|intros v E; inversion E; apply (constants_P _ (vok_her x))]|].
      cbn [snd]. destruct Hc as (Wk & FA & FB). rewrite (proj2 Wk x0 Hn).
      apply rel2_same; [split; [exact Wk|split; assumption]|]. intros v E.
      destruct (lookup frB x0) eqn:El; inversion E; subst. eapply lookup_P; [exact FB|exact El].
    - (* EInRef *)
      cbn [snd]. destruct Hc as (Wk & FA & FB). rewrite (proj2 Wk "inputs" Hinp).
      apply rel2_same; [split; [exact Wk|split; assumption]|]. intros v E.
      destruct (lookup frB "inputs") as [w|] eqn:El; [|discriminate E].
      destruct w; try discriminate E. inversion E; subst.
      match goal with |- context [rec_get ?r ?f] => destruct (rec_get r f) eqn:Eg end; [|reflexivity].
      eapply rec_get_P; [|exact Eg]. apply vok_VRec. eapply lookup_P; [exact FB|exact El].
    - apply rel2_same; [exact Hc|intros v E; inversion E; reflexivity].
    - (* EList *)
      match goal with HF : Forall _ items |- _ =>
        assert (HF' : Forall (wk_ok evalE) (map cnode items)) end.
      { pose proof (nocc_items x items Hn) as Hn'. apply Forall_map. rewrite Forall_forall in *.
        intros cm Hcm. apply (H cm Hcm). apply Hn'; exact Hcm. }
      pose proof (evalL_wk evalE _ HF' st frA frB Hc) as H1. rewrite !evalCL_evalL. stp H1. cbn [fst snd].
      split; [reflexivity|split; [reflexivity|split; [exact W|]]]. intros v E. destruct oA; try discriminate E.
      cbn [omap obind] in E. inversion E; subst. apply vok_VList. apply (flatten_spreads_P _ (vok_her x)). apply V; reflexivity.
    - (* ERec *)
      apply evalRecL_wk; [|exact Hc|constructor].
      pose proof (nocc_entries x entries Hn) as Hn'. rewrite Forall_forall in *.
      intros [ld [k v] tr] Hcm. specialize (H _ Hcm). specialize (Hn' _ Hcm). cbn [cnode Pentry entry_ok] in *.
      destruct H as [Hk Hv]. destruct Hn' as [Nk Nv].
      destruct k; cbn [Pkey nocc_key] in *.
      + apply Hv; exact Nv.
      + split; [apply Hk; exact Nk|apply Hv; exact Nv].
      + apply neqx_eqb; exact Nk.
      + apply Hk; exact Nk.
    - (* ELam *)
      apply andb_true_iff in Hn. destruct Hn as [Hps Hbody].
      cbn [snd fst]. destruct Hc as (Wk & FA & FB).
      rewrite (wk_capture frA frB _ Wk (fun y Hy => nocc_fv x Hinp e _ y Hbody Hy) []).
      unfold fresh_lambda. split; [reflexivity|split; [reflexivity|split; [split; [exact Wk|split; assumption]|]]].
      cbn [fst]. intros v E; inversion E; subst. apply vok_VLam.
      split; [exact Hps|split; [exact Hbody|]]. apply capture_P; [exact FB|constructor].
    - (* ECond *)
      apply andb_true_iff in Hn. destruct Hn as [Hn Hn3]. apply andb_true_iff in Hn. destruct Hn as [Hn1 Hn2].
      destruct (IHe1 Hn1) as [IH1 _], (IHe2 Hn2) as [IH2 _], (IHe3 Hn3) as [IH3 _].
      pose proof (IH1 st frA frB Hc) as H1. stp H1.
      destruct oA; try (apply rel2_fail; [exact W|reflexivity]).
      destruct (as_bool a) as [[|]| | | |]; cbn [cast_fail]; try (apply rel2_fail; [exact W|reflexivity]).
      + apply IH2; exact W.
      + apply IH3; exact W.
    - (* EDo *)
      destruct ret as [ld rt tr]. cbn [cnode] in *.
      apply andb_true_iff in Hn. destruct Hn as [Hns Hnr].
      assert (HS : Forall (fun cm => stmt_ok evalE (cnode cm)) stmts).
      { pose proof (nocc_items x stmts Hns) as Hn'. rewrite Forall_forall in *.
        intros cm Hcm. apply (H cm Hcm). apply Hn'; exact Hcm. }
      cbn [fst snd].
      match goal with |- context [evalDoL ?ev (st, (FOwned, []) :: frA) stmts] =>
        assert (H1 : relU (evalDoL ev (st, (FOwned, []) :: frA) stmts) (evalDoL ev (st, (FOwned, []) :: frB) stmts))
          by exact (evalDoL_wk evalE stmts HS st _ _ (okc_push FOwned [] frA frB Hc (Forall_nil _))) end.
      stpU H1.
      destruct oA; cbn [cast_fail fst snd]; try (apply rel2_fail; [exact Hc|reflexivity]).
      match goal with |- context [do_step ?ev (sA, fA) rt] =>
        assert (H2 : rel2 (do_step ev (sA, fA) rt) (do_step ev (sA, fB) rt))
          by exact (do_step_wk evalE rt (IHe Hnr) sA fA fB W) end.
      stp H2. cbn [fst snd].
      split; [reflexivity|split; [reflexivity|split; [exact Hc|exact V]]].
    - (* EAssign *)
      apply andb_true_iff in Hn. destruct Hn as [Hy Hv]. apply neqx_eqb in Hy.
      destruct (IHe Hv) as [IH _].
      destruct (is_builtin_name x0); [apply rel2_fail; [exact Hc|reflexivity]|].
      destruct (mem x0 assign_keywords); [apply rel2_fail; [exact Hc|reflexivity]|].
      cbn [snd]. rewrite (wk_contains frA frB x0 (proj1 Hc) Hy).
      destruct (contains frB x0); [apply rel2_fail; [exact Hc|reflexivity]|].
      apply assign_checked_wk; assumption.
    - (* EAssign, second component *)
      intros y ve Heq. inversion Heq; subst. apply andb_true_iff in Hn. destruct Hn as [_ Hv]. apply IHe; exact Hv.
    - (* EOutput *) destruct (IHe Hn) as [IH _]. apply IH; exact Hc.
    - (* ECall *)
      apply andb_true_iff in Hn. destruct Hn as [Hf Ha].
      destruct (IHe Hf) as [IH _].
      pose proof (IH st frA frB Hc) as H1. stp H1.
      destruct oA; try (apply rel2_fail; [exact W|reflexivity]).
      assert (HF' : Forall (wk_ok evalE) args).
      { pose proof (nocc_args x args Ha) as Hn'. rewrite Forall_forall in *.
        intros a0 Ha0. apply (H a0 Ha0). apply Hn'; exact Ha0. }
      pose proof (evalL_wk evalE args HF' sA fA fB W) as H2. stp H2.
      destruct oA; cbn [cast_fail]; try (apply rel2_fail; [exact W0|reflexivity]).
      destruct (negb (is_function a)); [apply rel2_fail; [exact W0|reflexivity]|].
      destruct (Hap fA0 fB0 W0) as [Hag Hcl].
      assert (Pa : vok x a) by (apply V; reflexivity).
      assert (Pl : Forall (vok x) (flatten_spreads a0)) by (apply (flatten_spreads_P _ (vok_her x)); apply V0; reflexivity).
      rewrite <- (Hag a a (flatten_spreads a0) sA0 Pa Pa Pl).
      destruct (apply fA0 a a (flatten_spreads a0) sA0) as [rr st3] eqn:Ea.
      split; [reflexivity|split; [reflexivity|split; [exact W0|]]]. cbn [fst].
      exact (Hcl a a (flatten_spreads a0) sA0 rr st3 Pa Pa Pl Ea).
    - (* EAccess *)
      apply andb_true_iff in Hn. destruct Hn as [Hn1 Hn2].
      destruct (IHe1 Hn1) as [IH1 _], (IHe2 Hn2) as [IH2 _].
      pose proof (IH1 st frA frB Hc) as H1. stp H1.
      destruct oA; try (apply rel2_fail; [exact W|reflexivity]).
      pose proof (IH2 sA fA fB W) as H2. stp H2.
      destruct oA; try (apply rel2_fail; [exact W0|reflexivity]).
      apply rel2_same; [exact W0|]. intros v E. eapply (access_val_P _ (vok_her x)); [|exact E]. apply V; reflexivity.
    - (* EDot *)
      destruct (IHe Hn) as [IH _].
      pose proof (IH st frA frB Hc) as H1. stp H1.
      destruct oA; try (apply rel2_fail; [exact W|reflexivity]).
      apply rel2_same; [exact W|]. intros v E. eapply (dot_val_P _ (vok_her x)); [|exact E]. apply V; reflexivity.
    - (* EBin *)
      apply andb_true_iff in Hn. destruct Hn as [Hn1 Hn2].
      destruct (IHe1 Hn1) as [IH1 _], (IHe2 Hn2) as [IH2 _].
      pose proof (IH1 st frA frB Hc) as H1. stp H1.
      destruct oA; try (apply rel2_fail; [exact W|reflexivity]).
      pose proof (IH2 sA fA fB W) as H2. stp H2.
      destruct oA; try (apply rel2_fail; [exact W0|reflexivity]).
      destruct (Hap fA0 fB0 W0) as [Hag Hcl].
      destruct (Hbi (apply fA0) (apply fB0) Hag Hcl op a a0 sA0 (V a eq_refl) (V0 a0 eq_refl)) as [Heq Hpost].
      rewrite <- Heq. destruct (bi (apply fA0) op a a0 sA0) as [res st3] eqn:Eb.
      split; [reflexivity|split; [reflexivity|split; [exact W0|]]]. cbn [fst]. exact (Hpost res st3 eq_refl).
    - (* EUn *)
      destruct (IHe Hn) as [IH _].
      pose proof (IH st frA frB Hc) as H1. stp H1.
      destruct oA; try (apply rel2_fail; [exact W|reflexivity]).
      apply rel2_same; [exact W|]. intros v E.
      destruct op; [destruct (as_number a)|destruct (as_bool a)|destruct (as_bool a)]; inversion E; reflexivity.
    - (* EFact *)
      destruct (IHe Hn) as [IH _].
      pose proof (IH st frA frB Hc) as H1. stp H1.
      destruct oA; try (apply rel2_fail; [exact W|reflexivity]).
      apply rel2_same; [exact W|]. intros v E.
      destruct (as_number a); try discriminate E. unfold factorial_val in E.
      destruct (_ && _); inversion E; reflexivity.
    - (* ESpread *)
      destruct (IHe Hn) as [IH _].
      pose proof (IH st frA frB Hc) as H1. stp H1.
      destruct oA; try (apply rel2_fail; [exact W|reflexivity]).
      apply rel2_same; [exact W|]. intros v E. eapply (spread_val_P _ (vok_her x)); [|exact E]. apply V; reflexivity.
  Qed.
  End E.

  (* ---- FunctionDef::call at every depth ---- *)
  Section Call.
  Variable release : bool.
  Variable bi : callback -> binop -> value -> value -> store -> outcome value * store.
  Variable bu : callback -> builtin -> list value -> store -> outcome value * store.
  Hypothesis Hbi : binop_nm x bi.
  Hypothesis Hbu : builtin_nm x bu.

  Lemma too_deep_agr : cb_agr x (fun _ f a s => call_too_deep f a s) (fun _ f a s => call_too_deep f a s).
  Proof. intros this f args st _ _ _. reflexivity. Qed.
  Lemma too_deep_nm : cb_nm x (fun _ f a s => call_too_deep f a s).
  Proof.
    intros this f args st r st' _ _ _ H v E. unfold call_too_deep in H.
    subst r. destruct (check_arity _ _); discriminate H.
  Qed.

  Lemma let_pair3w : forall (XA XB : result), fst XA = fst XB -> fst (snd XA) = fst (snd XB) ->
    (let '(r, (st', _)) := XA in (r, st')) = (let '(r, (st', _)) := XB in (r, st')) /\
    fst (let '(r, (st', _)) := XA in (r, st')) = fst XA.
  Proof. intros [rA [sA fA]] [rB [sB fB]]. cbn [fst snd]. intros; subst. split; reflexivity. Qed.

  Theorem AD_wk : forall d frA frB, okc frA frB ->
    cb_agr x (AD release bi bu d frA) (AD release bi bu d frB) /\ cb_nm x (AD release bi bu d frA).
  Proof.
    intros d. induction d as [d IH] using lt_wf_ind. intros frA frB Hc.
    enough (HH : forall this f args st, vok x this -> vok x f -> Forall (vok x) args ->
              AD release bi bu d frA this f args st = AD release bi bu d frB this f args st /\
              (forall v, fst (AD release bi bu d frA this f args st) = Ok v -> vok x v)).
    { split.
      - intros this f args st Ht Hf Ha. exact (proj1 (HH this f args st Ht Hf Ha)).
      - intros this f args st r st' Ht Hf Ha E v Ev. apply (proj2 (HH this f args st Ht Hf Ha)).
        rewrite E. exact Ev. }
    intros this f args st Hthis Hf Hargs.
    assert (Hsame : forall (o : outcome value), is_ok o = false ->
              (o, st) = (o, st) /\ (forall v, fst (o, st) = Ok v -> vok x v)).
    { intros o Ho. split; [reflexivity|]. cbn [fst]. intros v E; subst; discriminate Ho. }
    destruct d as [|d']; cbn [AD]; unfold apply_at.
    - destruct (negb _); apply Hsame; reflexivity.
    - destruct (negb _); [apply Hsame; reflexivity|].
      unfold call_passed.
      destruct f; try (apply Hsame; reflexivity).
      + (* lambda *)
        apply vok_VLam in Hf. destruct Hf as (Hps & Hbody & Hsc).
        destruct Hc as (Wk & FA & FB).
        rewrite <- (proj2 Wk "inputs" Hinp).
        match goal with |- context [bind_params ?ps 0 args ?acc] =>
          assert (Hacc : fok x acc); [|(destruct (bind_params ps 0 args acc) as [local|] eqn:Eb)] end.
        { apply Forall_app. split.
          - destruct (lookup_frame scope "inputs"); [constructor|].  (* F9 repaired *)
            destruct (lookup frA "inputs") eqn:El; constructor; [|constructor]. cbn [snd]. exact (lookup_P (vok x) frA "inputs" v FA El).
          - destruct (lam_name st id); [|constructor]. destruct (lookup_frame scope s); constructor; [|constructor].
            exact Hthis. }
        2:{ apply Hsame; reflexivity. }
        pose proof (bind_params_P _ (vok_her x) _ _ _ _ _ Hargs Hacc Eb) as Hlocal.
        assert (Hc' : okc ((FOwned, local) :: match scope with [] => frA | _ => (FShared, scope) :: frA end)
                          ((FOwned, local) :: match scope with [] => frB | _ => (FShared, scope) :: frB end)).
        { apply okc_push; [|exact Hlocal]. destruct scope; [split; [exact Wk|split; assumption]|].
          apply okc_push; [split; [exact Wk|split; assumption]|exact Hsc]. }
        pose proof (proj1 (evalE_wk release bi Hbi (AD release bi bu d')
                      (fun fa fb Hfab => IH d' (Nat.lt_succ_diag_r d') fa fb Hfab) body Hbody)
                    st _ _ Hc') as HP.
        destruct HP as (E1 & E2 & _ & V).
        destruct (let_pair3w _ _ E1 E2) as [G1 G2].
        split; [exact G1|]. intros v Ev. apply V. rewrite <- G2. exact Ev.
      + (* built-in *)
        assert (Hcbs : cb_agr x (match d' with O => fun _ f a s => call_too_deep f a s | S d'' => AD release bi bu d'' frA end)
                               (match d' with O => fun _ f a s => call_too_deep f a s | S d'' => AD release bi bu d'' frB end) /\
                       cb_nm x (match d' with O => fun _ f a s => call_too_deep f a s | S d'' => AD release bi bu d'' frA end)).
        { destruct d' as [|d'']; [split; [apply too_deep_agr|apply too_deep_nm]|apply IH; [lia|exact Hc]]. }
        destruct Hcbs as [Hag Hcl].
        destruct (Hbu _ _ Hag Hcl b args st Hargs) as [Heq Hpost].
        split; [exact Heq|]. intros v Ev.
        destruct (bu _ b args st) as [res st'] eqn:Eb. cbn [fst] in Ev. exact (Hpost res st' eq_refl v Ev).
  Qed.

  Corollary evalD_wk : forall d e, nocc x e = true -> wk_ok (evalD release bi bu d) e.
  Proof.
    intros d e Hn. unfold evalD.
    exact (proj1 (evalE_wk release bi Hbi (AD release bi bu d) (fun fa fb H => AD_wk d fa fb H) e Hn)).
  Qed.
  End Call.
End Sim.

(* ================= the operators and built-ins: GenOps.v / AllGenClosed.v instantiated ================= *)
Lemma binop_impl_nm : forall x, binop_nm x binop_impl.
Proof.
  intros x cb1 cb2 Hag Hcl op l r st Hl Hr.
  destruct (binop_impl_agree anyS anyS_refl anyS_trans (Pp x) (Pp_mono x) (Pp_VList x) (Pp_atomic x)
              cb1 cb2 st (cb_agr_gen x _ _ st Hag) (cb_nm_gen x _ st Hcl) op l r st I Hl Hr) as [Heq Hpost].
  split; [exact Heq|intros res st' E v Ev; exact (proj2 (Hpost _ _ E) v Ev)].
Qed.
Lemma builtin_impl_nm : forall x, builtin_nm x builtin_impl.
Proof.
  intros x cb1 cb2 Hag Hcl b args st Ha.
  destruct (builtin_impl_agree anyS anyS_refl anyS_trans (Pp x) (Pp_mono x) (Pp_VList x) (Pp_atomic x)
              cb1 cb2 st (cb_agr_gen x _ _ st Hag) (cb_nm_gen x _ st Hcl) b args st I Ha) as [Heq [_ Hpost]].
  split; [exact Heq|]. intros res st' E v Ev. rewrite E in Hpost. cbn [fst snd] in Hpost. exact (Hpost v Ev).
Qed.
Lemma builtin_full_nm : forall x, builtin_nm x builtin_full.
Proof.
  intros x cb1 cb2 Hag Hcl b args st Ha.
  destruct (builtin_full_agree0_gen anyS anyS_refl anyS_trans (Pp x) (Pp_VList x) (Pp_VRec x) (Pp_VSpread x)
              (Pp_atomic x) (Pp_mono x)
              cb1 cb2 st (cb_agr_gen x _ _ st Hag) (cb_nm_gen x _ st Hcl) b args st I Ha) as [Heq [_ Hpost]].
  split; [exact Heq|]. intros res st' E v Ev. rewrite E in Hpost. cbn [fst snd] in Hpost. exact (Hpost v Ev).
Qed.
Theorem ops_nm_inst : ops_nm binop_impl builtin_impl.
Proof. intros x. split; [apply binop_impl_nm|apply builtin_impl_nm]. Qed.
Theorem ops_nm_full : ops_nm binop_impl builtin_full.
Proof. intros x. split; [apply binop_impl_nm|apply builtin_full_nm]. Qed.

Lemma rel2_inv : forall x XA XB r st' fr', rel2 x XA XB -> XA = (r, (st', fr')) ->
  exists frB', XB = (r, (st', frB')) /\ okc x fr' frB' /\ (forall v, r = Ok v -> vok x v).
Proof.
  intros x XA [rB [sB fB]] r st' fr' (E1 & E2 & W & V) ->. cbn [fst snd] in *. subst.
  exists fB. split; [reflexivity|split; [exact W|exact V]].
Qed.

(* ================= WEAKENING ================= *)
(* general form: any expression not mentioning x (assignments allowed); the final chains agree off x *)
Theorem weakening_generic : forall release bi bu, ops_nm bi bu ->
  forall d x w e st k f fr r st' fr',
    String.eqb "inputs" x = false ->
    nocc x e = true -> frames_nm x ((k, f) :: fr) = true -> vnm x w = true ->
    evalD release bi bu d (st, (k, f) :: fr) e = (r, (st', fr')) ->
    exists frB', evalD release bi bu d (st, (k, (x, w) :: f) :: fr) e = (r, (st', frB')) /\
                 (forall y, String.eqb y x = false -> lookup fr' y = lookup frB' y) /\
                 frames_nm x fr' = true /\ (forall v, r = Ok v -> vnm x v = true).
Proof.
  intros release bi bu Hops d x w e st k f fr r st' fr' Hinp Hn Hfr Hw E.
  destruct (Hops x) as [Hbi Hbu].
  apply frames_nm_iff in Hfr.
  assert (Hc : okc x ((k, f) :: fr) ((k, (x, w) :: f) :: fr)).
  { split; [apply wk_bind|split; [exact Hfr|]]. inversion Hfr; subst. constructor; [|assumption].
    cbn [snd] in *. constructor; [exact Hw|assumption]. }
  destruct (rel2_inv x _ _ r st' fr' (evalD_wk x Hinp release bi bu Hbi Hbu d e Hn st _ _ Hc) E)
    as (frB' & EB & (Wk & FA & _) & V).
  exists frB'. split; [exact EB|split; [exact (proj2 Wk)|split; [apply frames_nm_iff; exact FA|exact V]]].
Qed.

(* assignment-free expressions: the scope chains are what they were *)
Theorem weakening_pure : forall release bi bu, ops_nm bi bu ->
  forall d x w e st k f fr r st' fr',
    String.eqb "inputs" x = false ->
    nocc x e = true -> no_assign e = true -> frames_nm x ((k, f) :: fr) = true -> vnm x w = true ->
    evalD release bi bu d (st, (k, f) :: fr) e = (r, (st', fr')) ->
    fr' = (k, f) :: fr /\
    evalD release bi bu d (st, (k, (x, w) :: f) :: fr) e = (r, (st', (k, (x, w) :: f) :: fr)).
Proof.
  intros release bi bu Hops d x w e st k f fr r st' fr' Hinp Hn Hna Hfr Hw E.
  destruct (weakening_generic release bi bu Hops d x w e st k f fr r st' fr' Hinp Hn Hfr Hw E) as (frB' & EB & _).
  pose proof (evalD_pure_frames release bi bu d e _ _ _ Hna E) as P1.
  pose proof (evalD_pure_frames release bi bu d e _ _ _ Hna EB) as P2. cbn [snd] in P1, P2. subst.
  split; [reflexivity|exact EB].
Qed.
