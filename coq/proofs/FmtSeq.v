(* FmtSeq.v — property C07, statement sequences.  grammar.pest lets an expression continue across line
   breaks, blank lines and comment-only lines (NEWLINE = inline_comment? ~ plain_newline; infix_usage admits
   (WHITESPACE | NEWLINE)* before an operator), so a statement written after another one must not start with
   the one prefix operator that is also an infix operator.  Both statement drivers (Formatter.v: cli_stmt =
   blots/src/main.rs --format loop, lib_stmt = blots-wasm format_blots loop) pass every statement that is
   not the first one written through protect_leading_minus; here: whatever the formatter prints for the
   expression (every oracle record, every width, every expression), the text such a statement contributes
   does not start with "-" — in particular not after a comment statement, which is a statement like any
   other for `is_first`.  Tied to the binary by the SEQUENCES stream of checks/c07.py (format_cli evaluated
   by vm_compute against the text `blots --format` writes, on enumerated statement sequences). *)
From Coq Require Import String Ascii List Bool ZArith.
Require Import Blots.Num Blots.gen.Builtins Blots.Ast Blots.Formatter Blots.proofs.FmtItems.
Import ListNotations.
Local Open Scope list_scope.

Lemma dlead_protect_not_first : forall d, dlead (protect_minus d false) <> LMinus.
Proof.
  intros d. unfold protect_minus. cbn [negb andb].
  destruct (starts_with_minus (render d)) eqn:E.
  - cbn [app]. rewrite dlead_cons. cbn. discriminate.
  - rewrite fmt_minus_lead3 in E. unfold dlead. destruct (lead3 (render d)); congruence.
Qed.

Lemma not_minus_then_other : forall a b, a <> LMinus -> b = LOther -> l3cat a b <> LMinus.
Proof. intros [| |] b Ha ->; cbn; congruence. Qed.

Lemma dlead_eol_nl : forall eol : option string,
  dlead ((match eol with Some c => [Code "  "; Comment c] | None => [] end) ++ [Nl]) = LOther.
Proof. intros [c|]; reflexivity. Qed.

Lemma minus_of_dlead : forall d, dlead d <> LMinus -> starts_with_minus (render d) = false.
Proof. intros d H. rewrite fmt_minus_lead3. fold (dlead d). destruct (dlead d); congruence. Qed.

Section Seq.
  Variable O : oracles.

  (* blots --format: an expression statement that is not the first statement written *)
  Lemma cli_expr_stmt_not_minus : forall e eol sl el,
    starts_with_minus (render (cli_stmt O false (St (SExpr e) eol sl el))) = false.
  Proof.
    intros e eol sl el. apply minus_of_dlead. cbn [cli_stmt]. rewrite dlead_app.
    apply not_minus_then_other; [apply dlead_protect_not_first|apply dlead_eol_nl].
  Qed.

  Definition is_expr_stmt (s : stmt) : bool :=
    match s with St (SExpr _) _ _ _ => true | _ => false end.


  (* format_blots: every statement that is not the first one (the loop protects all kinds) *)
  Theorem lib_statements_not_minus : forall mw s,
    dlead (fst (fst (lib_stmt O mw false s))) <> LMinus.
  Proof.
    intros mw [k eol sl el]. cbn [lib_stmt fst].
    destruct eol as [c|]; [|apply dlead_protect_not_first].
    rewrite dlead_app. apply not_minus_then_other; [apply dlead_protect_not_first|reflexivity].
  Qed.
End Seq.
