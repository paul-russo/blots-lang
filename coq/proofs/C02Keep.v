(* C02Keep.v — with the repaired naming rule (an assignment names a lambda only if the evaluation of its
   right-hand side created it; repo fix of F52) evaluation NEVER WRITES TO A CELL THAT EXISTED BEFORE:
   [store_keep st st'] = the store grew and every old cell has exactly the name (or no name) it had.
   This is the side condition [old_names_kept] of the eval-twice theorems, now a theorem.

   [store_keep] is a preorder that allocation and naming-since-the-assignment-started respect, so it is kept by
   evaluation (StoreMono.v, Section StoreRel) and by the dispatchers (StoreRelOps.v). *)
From Coq Require Import String Ascii List ZArith Bool Lia.
Require Import Blots.Num Blots.gen.Builtins Blots.Ast Blots.Value Blots.Outcome Blots.Binop
               Blots.Env Blots.Eval Blots.BuiltinsHof Blots.Program Blots.EvalInst Blots.EvalFull Blots.EvalAll
               Blots.proofs.StoreMono Blots.proofs.StoreRelOps.
Import ListNotations.
Open Scope string_scope.
Open Scope list_scope.
Open Scope nat_scope.

Definition store_keep (st st' : store) : Prop :=
  Datatypes.length st <= Datatypes.length st' /\
  forall id, id < Datatypes.length st -> lam_name st' id = lam_name st id.

Lemma store_keep_refl : forall st, store_keep st st.
Proof. split; auto. Qed.
Lemma store_keep_trans : forall a b c, store_keep a b -> store_keep b c -> store_keep a c.
Proof. intros a b c [L1 N1] [L2 N2]; split; [lia|]. intros id Hid. rewrite N2 by lia. apply N1; exact Hid. Qed.

Lemma fresh_lambda_keep : forall st args body scope v st',
  fresh_lambda st args body scope = (v, st') -> store_keep st st'.
Proof.
  intros st args body scope v st' H. unfold fresh_lambda in H. inversion H; subst.
  split; [rewrite app_length; cbn; lia|].
  intros id Hid. unfold lam_name. rewrite nth_error_app1 by exact Hid. reflexivity.
Qed.

(* naming at an assignment that started from st0 touches only cells created since *)
Lemma name_if_created_keep : forall st0 st1 v x,
  store_keep st0 st1 -> store_keep st0 (name_if_created (Datatypes.length st0) st1 v x).
Proof.
  intros st0 st1 v x [L N]. destruct v; try (split; assumption). cbn [name_if_created].
  destruct (Nat.leb_spec (Datatypes.length st0) id) as [Hge|Hlt]; [|split; assumption].
  cbn [name_if_lambda]. destruct (lam_name st1 id); [split; assumption|].
  split; [rewrite length_set_nth; exact L|].
  intros j Hj. unfold lam_name. rewrite nth_error_set_nth_other by lia. apply N. exact Hj.
Qed.

(* for every operator table and dispatcher that move the store only through the callback *)
Theorem evalD_store_keep_ops : forall release bi bu,
  binop_R store_keep bi -> builtin_R store_keep bu ->
  forall d c e r c', evalD release bi bu d c e = (r, c') -> store_keep (fst c) (fst c').
Proof. exact (evalD_R store_keep store_keep_refl store_keep_trans fresh_lambda_keep name_if_created_keep). Qed.

Theorem evalD_store_keep : forall release d c e r c',
  evalD release binop_impl builtin_impl d c e = (r, c') -> store_keep (fst c) (fst c').
Proof.
  intros release.
  exact (evalD_store_keep_ops release binop_impl builtin_impl
           (binop_impl_R store_keep store_keep_refl store_keep_trans)
           (builtin_impl_R store_keep store_keep_refl store_keep_trans)).
Qed.
Theorem evalD_store_keep_full : forall release d c e r c',
  evalD release binop_impl builtin_full d c e = (r, c') -> store_keep (fst c) (fst c').
Proof.
  intros release.
  exact (evalD_store_keep_ops release binop_impl builtin_full
           (binop_impl_R store_keep store_keep_refl store_keep_trans)
           (builtin_full_R store_keep store_keep_refl store_keep_trans)).
Qed.
Theorem evalD_store_keep_all : forall o release d c e r c',
  evalD release (binop_all o) (builtin_all o) d c e = (r, c') -> store_keep (fst c) (fst c').
Proof.
  intros o release.
  exact (evalD_store_keep_ops release (binop_all o) (builtin_all o)
           (binop_all_R store_keep store_keep_refl store_keep_trans o)
           (builtin_all_R store_keep store_keep_refl store_keep_trans o)).
Qed.
