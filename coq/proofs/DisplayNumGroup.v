(* DisplayNumGroup.v — C20: the thousands-separator loop.
   - the numeral grammar pieces [wf_groups], [wf_lead], [wf_grouped_int] (d{1,3}(,ddd)* )
   - group3 (the rev/enumerate/flat_map/rev loop of values.rs) produces exactly that shape
   - removing the commas gives the digits back. *)
From Coq Require Import ZArith Bool String Ascii List Lia Arith.
Require Import Blots.Num Blots.Outcome Blots.DisplayNum.
Import ListNotations.
Open Scope char_scope.
Open Scope nat_scope.

(* ---------- grammar pieces (independent of the formatter) ---------- *)
(* (,ddd)* *)
Fixpoint wf_groups (l : text) : bool :=
  match l with
  | [] => true
  | x :: a :: b :: c :: r =>
      Ascii.eqb x "," && is_digit a && is_digit b && is_digit c && wf_groups r
  | _ => false
  end.
(* d^k (,ddd)* *)
Fixpoint wf_lead (k : nat) (l : text) : bool :=
  match k with
  | O => wf_groups l
  | S k' => match l with a :: r => is_digit a && wf_lead k' r | [] => false end
  end.
(* d{1,3}(,ddd)* *)
Definition wf_grouped_int (l : text) : bool := wf_lead 1 l || wf_lead 2 l || wf_lead 3 l.

Definition ungroup (l : text) : text := filter (fun c => negb (Ascii.eqb c ",")) l.

(* ---------- group3 from the left ---------- *)
Lemma enumerate_from_app : forall A (l1 l2 : list A) i,
  enumerate_from i (l1 ++ l2) = enumerate_from i l1 ++ enumerate_from (i + length l1) l2.
Proof.
  induction l1; intros; cbn [enumerate_from app length].
  - now rewrite Nat.add_0_r.
  - rewrite IHl1. now rewrite Nat.add_succ_comm.
Qed.

Definition sep_here (n : nat) : bool := Nat.ltb 0 n && Nat.eqb (Nat.modulo n 3) 0.

Lemma group3_nil : group3 [] = [].
Proof. reflexivity. Qed.

Lemma group3_cons : forall a s,
  group3 (a :: s) = if sep_here (length s) then a :: "," :: group3 s else a :: group3 s.
Proof.
  intros. unfold group3. cbn [rev]. rewrite enumerate_from_app, flat_map_app, rev_app_distr.
  cbn [enumerate_from flat_map]. rewrite app_nil_r, Nat.add_0_l, rev_length.
  unfold sep_step, sep_here. destruct (Nat.ltb 0 (length s) && Nat.eqb (length s mod 3) 0); reflexivity.
Qed.

(* ---------- ungroup (group3 s) = s ---------- *)
Lemma ungroup_group3 : forall s, contains "," s = false -> ungroup (group3 s) = s.
Proof.
  induction s as [|a s IH]; intros H.
  - reflexivity.
  - cbn [contains] in H. apply orb_false_iff in H. destruct H as [Ha Hs].
    rewrite group3_cons. unfold ungroup in *.
    destruct (sep_here (length s)); cbn [filter]; rewrite Ha; cbn [negb].
    + change (Ascii.eqb "," ",") with true. cbn [negb]. now rewrite IH.
    + now rewrite IH.
Qed.

(* ---------- group3 of digits is d{1,3}(,ddd)* ---------- *)
Definition lead (n : nat) : nat := match n with O => O | S m => S (m mod 3) end.

Lemma wf_lead3_groups : forall x, wf_lead 3 x = true -> wf_groups ("," :: x) = true.
Proof.
  intros [|a [|b [|c r]]] H; cbn in H; try discriminate;
    try (rewrite ?andb_false_r in H; discriminate).
  cbn [wf_groups]. change (Ascii.eqb "," ",") with true.
  apply andb_true_iff in H. destruct H as [Ha H].
  apply andb_true_iff in H. destruct H as [Hb H].
  apply andb_true_iff in H. destruct H as [Hc H].
  now rewrite Ha, Hb, Hc, H.
Qed.

Lemma succ_mod3 : forall m, (S m mod 3 = 0 /\ m mod 3 = 2) \/ S m mod 3 = S (m mod 3).
Proof.
  intros m.
  pose proof (Nat.div_mod m 3 ltac:(lia)). pose proof (Nat.div_mod (S m) 3 ltac:(lia)).
  pose proof (Nat.mod_upper_bound m 3 ltac:(lia)). pose proof (Nat.mod_upper_bound (S m) 3 ltac:(lia)).
  lia.
Qed.

(* one more digit in front: the leading group grows, or is full and a comma starts a new one *)
Lemma group3_lead : forall s, forallb is_digit s = true -> wf_lead (lead (length s)) (group3 s) = true.
Proof.
  induction s as [|a s IH]; intros H; [reflexivity|].
  cbn [forallb] in H. apply andb_true_iff in H. destruct H as [Ha Hs]. specialize (IH Hs).
  rewrite group3_cons. cbn [length lead]. unfold sep_here.
  destruct (length s) as [|m] eqn:L.
  - apply length_zero_iff_nil in L. subst s. cbn. now rewrite Ha.
  - cbn [lead] in IH. change (Nat.ltb 0 (S m)) with true. cbn [andb].
    destruct (succ_mod3 m) as [[E0 E2]|E].
    + rewrite E0. cbn [Nat.eqb wf_lead]. rewrite Ha. rewrite E2 in IH. now apply wf_lead3_groups.
    + rewrite E. cbn [Nat.eqb wf_lead]. now rewrite Ha.
Qed.

Lemma lead_range : forall n, n <> O -> lead n = 1 \/ lead n = 2 \/ lead n = 3.
Proof.
  intros [|m] H; [congruence|]. cbn [lead]. pose proof (Nat.mod_upper_bound m 3 ltac:(lia)). lia.
Qed.

Theorem group3_wellformed : forall s,
  s <> [] -> forallb is_digit s = true -> wf_grouped_int (group3 s) = true.
Proof.
  intros s Hne Hd. pose proof (group3_lead s Hd) as H.
  assert (Hl : length s <> O) by (destruct s; cbn; congruence).
  unfold wf_grouped_int.
  destruct (lead_range _ Hl) as [E|[E|E]]; rewrite E in H; rewrite H; rewrite ?orb_true_r; reflexivity.
Qed.

(* group3 keeps digits-or-commas only: every character of the output is a digit or ',' *)
Lemma group3_length_ge : forall s, length s <= length (group3 s).
Proof.
  induction s; [cbn; lia|]. rewrite group3_cons. destruct (sep_here (length s)); cbn [length]; lia.
Qed.

Lemma group3_nonempty : forall s, s <> [] -> group3 s <> [].
Proof.
  intros s H E. pose proof (group3_length_ge s). rewrite E in H0. destruct s; [congruence|cbn in H0; lia].
Qed.

(* no '.', 'e' or '-' is introduced *)
Lemma group3_contains : forall c s, Ascii.eqb "," c = false -> contains c (group3 s) = contains c s.
Proof.
  intros c s Hc. induction s as [|a s IH]; [reflexivity|].
  rewrite group3_cons. destruct (sep_here (length s)); cbn [contains]; rewrite ?Hc, IH; reflexivity.
Qed.
