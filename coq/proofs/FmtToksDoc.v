(* FmtToksDoc.v — compositionality of `toks` over the DOCUMENTS of Formatter.v (property C07).

   `dok closed d` is a decidable check on a document: read from a chunk boundary, every piece
   stops in code state (no string literal or comment left open), and every seam between two
   pieces is a token boundary: the text before it stops with no open chunk, or the piece after
   it starts with a blank, a line break, a bracket, `,`, `:` or a quote.  For such a document
       toks (render d) = flat_map piece_toks d                         (doc_toks)
   — the chunks of the laid-out text are the chunks of its pieces, in order: no chunk straddles
   two pieces and no piece is swallowed by a string literal or a comment.

   Then every layout function of Formatter.v (format_list_multiline, format_call_multiline,
   format_binary_op_multiline incl. the via/into/where arm, format_do_block_multiline, wrap_parens, protect_leading_minus, and — for names that are
   themselves well-behaved texts — format_record_multiline, format_lambda, assignment, output)
   is shown to put its children (any documents with `dok true`) and its own keywords together
   with such seams only.  The recursive calls are a Section variable `rec`, as in Formatter.v.
   format_conditional_multiline, whose else-if chain does not go through `rec`, is in FmtToksAll.v. *)
From Coq Require Import String Ascii List Bool Arith Lia.
Require Import Blots.Ast Blots.Formatter Blots.FmtTokens Blots.proofs.StringFacts Blots.proofs.FmtToks Blots.proofs.Relined.
Import ListNotations.
Local Open Scope list_scope.

Definition piece_toks (p : piece) : list string := toks (render_piece p).

Definition closed_after (closed : bool) (s : string) : bool :=
  match s with EmptyString => closed | _ => ends_closed s end.
Fixpoint dok (closed : bool) (d : doc) : bool :=
  match d with
  | [] => true
  | p :: r =>
      let s := render_piece p in
      ends_code s && (closed || starts_break s) && dok (closed_after closed s) r
  end.
Fixpoint dclosed (closed : bool) (d : doc) : bool :=
  match d with [] => closed | p :: r => dclosed (closed_after closed (render_piece p)) r end.

(* ------------------------------------------------------------------ state across a boundary *)
Lemma tst_boundary : forall a b, boundary a b = true -> b <> EmptyString ->
  tst (a ++ b)%string = tst b.
Proof.
  intros a b H Hne. unfold boundary in H. apply andb_prop in H. destruct H as [Ha H].
  rewrite tst_app. unfold ends_code in Ha. apply mode_eqb_code in Ha. rewrite Ha.
  apply orb_prop in H. destruct H as [H|H].
  - unfold ends_closed in H. apply andb_prop in H. destruct H as [_ H].
    destruct (snd (tst a)); [reflexivity|discriminate].
  - rewrite (trun_break b _ H Hne), snd_pre. reflexivity.
Qed.

Lemma ends_code_tst : forall a b, tst a = tst b -> ends_code a = ends_code b.
Proof. intros a b H. unfold ends_code. now rewrite H. Qed.
Lemma ends_closed_tst : forall a b, tst a = tst b -> ends_closed a = ends_closed b.
Proof. intros a b H. unfold ends_closed, ends_code. now rewrite H. Qed.

Lemma render_cons : forall p r, render (p :: r) = (render_piece p ++ render r)%string.
Proof. reflexivity. Qed.

(* ------------------------------------------------------------------ the document theorem *)
Lemma doc_toks_acc : forall d acc, ends_code acc = true -> dok (ends_closed acc) d = true ->
  toks (acc ++ render d)%string = toks acc ++ flat_map piece_toks d /\
  ends_code (acc ++ render d)%string = true /\
  ends_closed (acc ++ render d)%string = dclosed (ends_closed acc) d.
Proof.
  induction d as [|p r IH]; intros acc Ha H.
  - cbn [render flat_map dclosed]. rewrite append_nil_r, app_nil_r. auto.
  - cbn [dok] in H. apply andb_prop in H. destruct H as [H Hr]. apply andb_prop in H.
    destruct H as [Hs Hb]. rewrite render_cons, <- append_assoc. cbn [flat_map dclosed].
    destruct (render_piece p) as [|c s'] eqn:Es.
    + cbn [closed_after] in Hr |- *. rewrite append_nil_r.
      destruct (IH acc Ha Hr) as [T [C K]]. unfold piece_toks at 1. rewrite Es.
      change (toks "") with (@nil string). cbn [app]. auto.
    + assert (Hbd : boundary acc (String c s') = true).
      { unfold boundary. rewrite Ha. exact Hb. }
      assert (Hne : String c s' <> EmptyString) by discriminate.
      pose proof (tst_boundary acc _ Hbd Hne) as Ht.
      cbn [closed_after] in Hr |- *.
      assert (Ha' : ends_code (acc ++ String c s')%string = true)
        by (rewrite (ends_code_tst _ _ Ht); exact Hs).
      rewrite <- (ends_closed_tst _ _ Ht) in Hr |- *.
      destruct (IH (acc ++ String c s')%string Ha' Hr) as [T [C K]].
      rewrite T, (toks_app_boundary acc _ Hbd), <- app_assoc.
      unfold piece_toks at 2. rewrite Es. auto.
Qed.

Theorem doc_toks : forall d, dok true d = true ->
  toks (render d) = flat_map piece_toks d /\ ends_code (render d) = true.
Proof.
  intros d H. destruct (doc_toks_acc d EmptyString eq_refl H) as [T [C _]].
  cbn [String.append] in T, C. change (toks "") with (@nil string) in T. auto.
Qed.

(* ------------------------------------------------------------------ dok over ++ *)
Lemma dok_app : forall d1 d2 c, dok c (d1 ++ d2) = dok c d1 && dok (dclosed c d1) d2.
Proof.
  induction d1 as [|p r IH]; intros d2 c; [reflexivity|].
  cbn [app dok dclosed]. rewrite IH, !andb_assoc. reflexivity.
Qed.

Definition nonempty (s : string) : bool := match s with EmptyString => false | _ => true end.

(* a piece that starts with a break does not care how the text before it ends *)
Lemma dok_break : forall p r c, nonempty (render_piece p) = true -> starts_break (render_piece p) = true ->
  dok c (p :: r) = dok true (p :: r).
Proof.
  intros p r c Hn Hb. cbn [dok]. rewrite Hb, !orb_true_r.
  destruct (render_piece p); [discriminate|]. reflexivity.
Qed.
(* a child document followed by such a piece *)
Lemma dok_child : forall d p r, dok true d = true ->
  nonempty (render_piece p) = true -> starts_break (render_piece p) = true ->
  dok true (d ++ p :: r) = dok true (p :: r).
Proof. intros d p r H Hn Hb. rewrite dok_app, H. cbn [andb]. apply dok_break; assumption. Qed.
(* a keyword piece that ends with a blank / bracket / comma *)
Lemma dok_closed_piece : forall k r, nonempty k = true -> ends_closed k = true ->
  dok true (Code k :: r) = dok true r.
Proof.
  intros k r Hn Hc. cbn [dok render_piece]. pose proof Hc as Hc'. unfold ends_closed in Hc'.
  apply andb_prop in Hc'. destruct Hc' as [He _]. rewrite He. cbn [orb andb].
  destruct k; [discriminate|]. cbn [closed_after]. now rewrite Hc.
Qed.
Lemma dok_break_closed : forall k r c, nonempty k = true -> starts_break k = true -> ends_closed k = true ->
  dok c (Code k :: r) = dok true r.
Proof.
  intros k r c Hn Hb Hc. rewrite (dok_break (Code k) r c Hn Hb). apply dok_closed_piece; assumption.
Qed.

(* the indentation *)
Lemma indent_facts : forall n,
  ends_closed (make_indent n) = true /\ starts_break (make_indent n) = true.
Proof.
  intro n. split.
  - unfold ends_closed, ends_code, tst.
    pose proof (no_chunk_blank (make_indent n) (all_blank_indent n)) as H. unfold no_chunk in H.
    rewrite H. reflexivity.
  - destruct n; reflexivity.
Qed.
Lemma dok_ind : forall n r, dok true (ind n :: r) = dok true r.
Proof.
  intros n r. destruct (indent_facts n) as [Hc Hb]. unfold ind. cbn [dok render_piece].
  pose proof Hc as Hc'. unfold ends_closed in Hc'. apply andb_prop in Hc'. destruct Hc' as [He _].
  rewrite He. cbn [orb andb]. destruct (make_indent n); [reflexivity|]. cbn [closed_after]. now rewrite Hc.
Qed.
Lemma dok_nl_ind : forall n r c, dok c (Nl :: ind n :: r) = dok true r.
Proof.
  intros n r c. rewrite (dok_break Nl _ c eq_refl eq_refl).
  change (dok true (Nl :: ind n :: r)) with (dok true (ind n :: r)). apply dok_ind.
Qed.
Lemma dok_child_nl : forall d n r, dok true d = true -> dok true (d ++ Nl :: ind n :: r) = dok true r.
Proof. intros d n r H. rewrite (dok_child d Nl _ H eq_refl eq_refl). apply dok_nl_ind. Qed.
(* a keyword with an open end (`then`, `else`) followed by a line break *)
Lemma dok_word_nl : forall k n r c, ends_code k = true -> nonempty k = true ->
  (c || starts_break k) = true -> dok c (Code k :: Nl :: ind n :: r) = dok true r.
Proof.
  intros k n r c He Hn Hb. cbn [dok render_piece]. rewrite He, Hb. cbn [andb].
  destruct k; [discriminate|]. cbn [closed_after].
  exact (dok_nl_ind n r _).
Qed.
Lemma dok_child_end : forall d, dok true d = true -> dok true (d ++ []) = true.
Proof. intros d H. now rewrite app_nil_r. Qed.

(* the operator texts *)
Lemma op_mid_facts : forall op, let k := (" " +++ binary_op_str op +++ " ") in
  nonempty k = true /\ starts_break k = true /\ ends_closed k = true.
Proof. intros []; vm_compute; auto. Qed.
Lemma op_head_facts : forall op, let k := (binary_op_str op +++ " ") in
  nonempty k = true /\ ends_closed k = true.
Proof. intros []; vm_compute; auto. Qed.

(* ================================================================== the layout functions *)
Section Layouts.
  Variable O : oracles.
  Variable w : nat.
  Variable rec : expr -> nat -> doc.
  (* the children whose layout is known to be a dok document (the induction hypothesis when
     rec is fmtd itself) *)
  Definition rec_dok (x : expr) : Prop := forall j, dok true (rec x j) = true.
  Definition item_dok (c : commented expr) : Prop := rec_dok (cnode c).

  Ltac norm := repeat (progress (repeat rewrite <- app_assoc; cbn [app])).

  Lemma dok_wrap : forall b d, dok true d = true -> dok true (wrap_parens b d) = true.
  Proof.
    intros [|] d H; unfold wrap_parens; [|exact H]. norm.
    rewrite (dok_closed_piece "(" _ eq_refl eq_refl).
    rewrite (dok_child d (Code ")") [] H eq_refl eq_refl). reflexivity.
  Qed.

  (* protect_leading_minus *)
  Lemma dok_protect : forall d first, dok true d = true -> dok true (protect_minus d first) = true.
  Proof.
    intros d first H. unfold protect_minus.
    destruct (negb first && starts_with_minus (render d)); [|exact H].
    exact (dok_wrap true d H).
  Qed.

  Fixpoint plain_items {A} (l : list (commented A)) : bool :=
    match l with [] => true | Cm [] _ None :: r => plain_items r | _ => false end.

  (* format_list_multiline *)
  Lemma dok_list_items : forall items inner tail, plain_items items = true -> Forall item_dok items ->
    dok true (list_items_doc rec items inner ++ tail) = dok true tail.
  Proof.
    induction items as [|[lead n tr] items IH]; intros inner tail Hp HG; [reflexivity|].
    inversion HG as [|? ? Gn HG']; subst. unfold item_dok in Gn; cbn [cnode] in Gn.
    cbn [plain_items] in Hp. destruct lead; [|discriminate]. destruct tr; [discriminate|].
    cbn [list_items_doc leading_doc trailing_doc flat_map]. norm.
    rewrite dok_nl_ind, (dok_child _ (Code ",") _ (Gn inner) eq_refl eq_refl).
    rewrite (dok_closed_piece "," _ eq_refl eq_refl). exact (IH inner tail Hp HG').
  Qed.
  Theorem dok_list_doc : forall items i, plain_items items = true -> Forall item_dok items ->
    dok true (list_doc rec items i) = true.
  Proof.
    intros items i Hp HG. unfold list_doc. destruct items as [|c items]; [reflexivity|].
    norm. rewrite (dok_closed_piece "[" _ eq_refl eq_refl), (dok_list_items _ _ _ Hp HG), dok_nl_ind.
    reflexivity.
  Qed.

  (* format_call_multiline *)
  Theorem dok_call_doc : forall f args i, rec_dok f -> Forall rec_dok args ->
    dok true (call_doc O rec f args i) = true.
  Proof.
    intros f args i Gf Ga. unfold call_doc.
    pose proof (dok_wrap (o_postfix_parens O f) _ (Gf i)) as Hf.
    destruct args as [|a args].
    - rewrite (dok_child _ (Code "()") [] Hf eq_refl eq_refl). reflexivity.
    - norm. rewrite (dok_child _ (Code "(") _ Hf eq_refl eq_refl).
      rewrite (dok_closed_piece "(" _ eq_refl eq_refl).
      revert Ga. generalize (a :: args). intros l Ga. induction l as [|x l IH].
      + cbn [flat_map app]. rewrite dok_nl_ind. reflexivity.
      + inversion Ga as [|? ? Gx Ga']; subst. cbn [flat_map]. norm.
        rewrite dok_nl_ind, (dok_child _ (Code ",") _ (Gx _) eq_refl eq_refl).
        rewrite (dok_closed_piece "," _ eq_refl eq_refl). exact (IH Ga').
  Qed.

  (* format_binary_op_multiline, every arm (the re-assembled right operand of via/into/where is
     the document itself, by Relined.relined_identity: the Relined piece is unreachable) *)
  Theorem dok_binop_doc : forall op l r i, rec_dok l -> rec_dok r -> dok true (binop_doc O w rec op l r i) = true.
  Proof.
    intros op l r i Gl Gr. unfold binop_doc.
    pose proof (dok_wrap (o_needs_parens O op l true) _ (Gl i)) as Hl.
    destruct (op_mid_facts op) as [M1 [M2 M3]]. destruct (op_head_facts op) as [H1 H2].
    destruct (is_via_like op && is_lambda r).
    - pose proof (dok_wrap (o_needs_parens O op r false) _ (Gr i)) as Hr.
      match goal with |- context [if ?c then _ else _] => destruct c end.
      + destruct (contains_nl _) eqn:Enl.
        * rewrite (relined_identity _ Enl), String.eqb_refl. norm.
          rewrite (dok_child _ (Code _) _ Hl M1 M2), (dok_closed_piece _ _ M1 M3). exact Hr.
        * norm. rewrite (dok_child _ (Code _) _ Hl M1 M2), (dok_closed_piece _ _ M1 M3). exact Hr.
      + norm. rewrite (dok_child_nl _ _ _ Hl), (dok_closed_piece _ _ H1 H2). exact Hr.
    - pose proof (dok_wrap (o_needs_parens O op r false) _ (Gr (i + INDENT_SIZE))) as Hr.
      norm. rewrite (dok_child_nl _ _ _ Hl), (dok_closed_piece _ _ H1 H2). exact Hr.
  Qed.

  (* format_do_block_multiline *)
  Lemma dok_do_stmts : forall stmts inner first n tail c, plain_items stmts = true -> Forall item_dok stmts ->
    dok c (do_stmts_doc rec stmts inner first ++ Nl :: ind n :: tail) = dok true tail.
  Proof.
    induction stmts as [|[lead x tr] stmts IH]; intros inner first n tail c Hp HG.
    - cbn [do_stmts_doc app]. apply dok_nl_ind.
    - inversion HG as [|? ? Gx HG']; subst. unfold item_dok in Gx; cbn [cnode] in Gx.
      cbn [plain_items] in Hp. destruct lead; [|discriminate]. destruct tr; [discriminate|].
      cbn [do_stmts_doc leading_doc trailing_doc flat_map]. norm.
      rewrite dok_nl_ind, dok_app, (dok_protect _ first (Gx inner)). cbn [andb].
      exact (IH inner false n tail _ Hp HG').
  Qed.
  Theorem dok_do_doc : forall stmts ret i, plain_items stmts = true -> plain_items [ret] = true ->
    Forall item_dok stmts -> item_dok ret -> dok true (do_doc rec stmts ret i) = true.
  Proof.
    intros stmts [lead x tr] i Hp Hr HG Gx. unfold item_dok in Gx; cbn [cnode] in Gx. cbn [plain_items] in Hr.
    destruct lead; [|discriminate]. destruct tr; [discriminate|].
    unfold do_doc. cbn [cleading cnode leading_doc flat_map]. norm.
    rewrite (dok_closed_piece "do {" _ eq_refl eq_refl), (dok_do_stmts _ _ _ _ _ _ Hp HG).
    rewrite (dok_closed_piece "return " _ eq_refl eq_refl), (dok_child_nl _ _ _ (Gx _)).
    reflexivity.
  Qed.

  (* a name / key / parameter list that stops in code state, followed by a keyword that starts
     with a blank *)
  Lemma kw_suffix : forall a k, ends_code a = true -> starts_break k = true -> nonempty k = true ->
    ends_code (a +++ k) = ends_code k /\ ends_closed (a +++ k) = ends_closed k /\ nonempty (a +++ k) = true.
  Proof.
    intros a k Ha Hb Hn.
    assert (Hbd : boundary a k = true) by (unfold boundary; rewrite Ha, Hb; apply orb_true_r).
    assert (Hne : k <> EmptyString) by (destruct k; [discriminate|discriminate]).
    pose proof (tst_boundary a k Hbd Hne) as Ht.
    split; [exact (ends_code_tst _ _ Ht)|]. split; [exact (ends_closed_tst _ _ Ht)|].
    destruct a; [exact Hn|reflexivity].
  Qed.

  (* format_lambda *)
  Theorem dok_lambda_doc : forall args body i, ends_code (lambda_args_part args) = true -> rec_dok body ->
    dok true (lambda_doc O w rec args body i) = true.
  Proof.
    intros args body i Ha Gb. unfold lambda_doc.
    destruct (kw_suffix _ " => " Ha eq_refl eq_refl) as [_ [A2 A3]].
    destruct (kw_suffix _ " =>" Ha eq_refl eq_refl) as [B1 [_ B3]].
    assert (E : ((lambda_args_part args +++ " =>") +++ " ") = (lambda_args_part args +++ " => "))
      by (rewrite append_assoc; reflexivity).
    pose proof (dok_wrap (o_lambda_body_parens O body) _ (Gb i)) as Hb.
    destruct (is_do body).
    - norm. rewrite E, (dok_closed_piece _ _ A3 A2). apply Gb.
    - match goal with |- context [if ?c then _ else _] => destruct c end; norm.
      + rewrite E, (dok_closed_piece _ _ A3 A2). exact Hb.
      + rewrite (dok_word_nl _ _ _ true B1 B3 eq_refl). apply dok_wrap, Gb.
  Qed.

  (* format_record_entry / format_record_multiline *)
  Definition entry_ok (r : rentry) : bool :=
    match r with
    | REntry (KStatic key) _ => ends_code (o_record_key O key)
    | REntry (KShort name) _ => ends_code name && nonempty name
    | _ => true
    end.
  Fixpoint entries_ok (l : list (commented rentry)) : bool :=
    match l with [] => true | Cm [] r None :: l' => entry_ok r && entries_ok l' | _ => false end.

  Definition entry_dok (r : rentry) : Prop :=
    match r with
    | REntry (KDyn k) v => rec_dok k /\ rec_dok v
    | REntry (KSpread x) _ => rec_dok x
    | REntry (KStatic _) v => rec_dok v
    | REntry (KShort _) _ => True
    end.
  Lemma dok_entry_then : forall r i p tail, entry_ok r = true -> entry_dok r ->
    nonempty (render_piece p) = true -> starts_break (render_piece p) = true ->
    dok true (entry_doc O rec r i ++ p :: tail) = dok true (p :: tail).
  Proof.
    intros [[key|ke|name|x] v] i p tail Hk HG Hn Hb; cbn [entry_doc entry_ok entry_dok] in *.
    - destruct (kw_suffix _ ": " Hk eq_refl eq_refl) as [_ [A2 A3]].
      cbn [app]. rewrite (dok_closed_piece _ _ A3 A2). exact (dok_child _ p tail (HG i) Hn Hb).
    - destruct HG as [Gk Gv]. norm. rewrite (dok_closed_piece "[" _ eq_refl eq_refl).
      rewrite (dok_child _ (Code "]: ") _ (Gk i) eq_refl eq_refl).
      rewrite (dok_closed_piece "]: " _ eq_refl eq_refl). exact (dok_child _ p tail (Gv i) Hn Hb).
    - apply andb_prop in Hk. destruct Hk as [Hk Hne]. cbn [app].
      cbn [dok render_piece]. rewrite Hk. cbn [orb andb]. destruct name; [discriminate|].
      cbn [closed_after]. apply dok_break; assumption.
    - exact (dok_child _ p tail (HG i) Hn Hb).
  Qed.
  Lemma dok_rec_entries : forall entries inner tail, entries_ok entries = true ->
    Forall (fun c => entry_dok (cnode c)) entries ->
    dok true (rec_entries_doc O rec entries inner ++ tail) = dok true tail.
  Proof.
    induction entries as [|[lead r tr] entries IH]; intros inner tail Hp HG; [reflexivity|].
    inversion HG as [|? ? Gr HG']; subst. cbn [cnode] in Gr.
    cbn [entries_ok] in Hp. destruct lead; [|discriminate]. destruct tr; [discriminate|].
    apply andb_prop in Hp. destruct Hp as [Hr Hp].
    cbn [rec_entries_doc leading_doc trailing_doc flat_map]. norm.
    rewrite dok_nl_ind, (dok_entry_then r inner (Code ",") _ Hr Gr eq_refl eq_refl).
    rewrite (dok_closed_piece "," _ eq_refl eq_refl). exact (IH inner tail Hp HG').
  Qed.
  Theorem dok_record_doc : forall entries i, entries_ok entries = true ->
    Forall (fun c => entry_dok (cnode c)) entries ->
    dok true (record_doc O rec entries i) = true.
  Proof.
    intros entries i Hp HG. unfold record_doc. destruct entries as [|c entries]; [reflexivity|].
    norm. rewrite (dok_closed_piece "{" _ eq_refl eq_refl), (dok_rec_entries _ _ _ Hp HG), dok_nl_ind.
    reflexivity.
  Qed.

  (* assignment and `output` (format_multiline) *)
  Theorem dok_assign : forall x v i, ends_code x = true -> rec_dok v ->
    dok true (Code (x +++ " = ") :: rec v i) = true.
  Proof.
    intros x v i Hx Gv. destruct (kw_suffix _ " = " Hx eq_refl eq_refl) as [_ [A2 A3]].
    rewrite (dok_closed_piece _ _ A3 A2). apply Gv.
  Qed.
  Theorem dok_output : forall x i, rec_dok x -> dok true (Code "output " :: rec x i) = true.
  Proof. intros x i Gx. rewrite (dok_closed_piece "output " _ eq_refl eq_refl). apply Gx. Qed.
End Layouts.
