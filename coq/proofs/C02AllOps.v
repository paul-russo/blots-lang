(* C02AllOps.v — the three hypotheses of C02's generic theorems for the COMPLETE operator table and
   built-in set (EvalAll.binop_all o / builtin_all o), for EVERY oracle record o:

     ops_wf_all      : ops_wf (binop_all o) (builtin_all o)          no hypothesis on o
     ops_nm_all      : ops_nm (binop_all o) (builtin_all o)          no hypothesis on o
     ops_commute_all : lam_str_blind o -> ops_commute (binop_all o) (builtin_all o)

   All but one oracle field are functions of numbers / strings / a DisplayNum text: they cannot see a
   function-cell index.  The exception is [o_lam_str], the text of a function value, which is applied to the
   captured scope of the lambda — a list of VALUES, which mention cell indices (a captured function).  The
   commutation with renamings therefore needs exactly

     lam_str_blind o := forall injective rho, forall a b sc, o_lam_str o a b (renF rho sc) = o_lam_str o a b sc

   ("the text oracle is blind to cell indices").  It holds of every lookup-table oracle of AllRun.v
   ([lam_str_blind_tables]: AllRun.lam_of ignores the scope altogether) and of [oracle_trivial]; it is NECESSARY:
   [ops_commute_all_needs_blind] exhibits an oracle that prints the cell index of a captured function, for
   which to_string does not commute.

   The 17 new arms return a number, a string or null and touch neither the store nor the callback (wf, nm);
   `^` is Binop.eval_binop with the oracle's powf, for which the arm lemmas of GenOps.v / C02Ops.v are already
   generic in powf.  The rest is builtin_full (C02OpsFull.v, C02Wf.v, C02Weak.v). *)
From Coq Require Import String Ascii List ZArith Bool Lia.
Require Import Blots.Num Blots.gen.Builtins Blots.Ast Blots.Value Blots.Outcome Blots.Binop
               Blots.Env Blots.Eval Blots.BuiltinsHof Blots.Program Blots.EvalInst Blots.EvalFull
               Blots.EvalAll
               Blots.proofs.ValueInd Blots.proofs.GenOps Blots.proofs.AllGenClosed Blots.proofs.StoreMono
               Blots.proofs.C02Ren Blots.proofs.C02Sim Blots.proofs.C02Ops Blots.proofs.C02Keep
               Blots.proofs.C02Twice Blots.proofs.C02OpsFull Blots.proofs.C02Wf Blots.proofs.C02Weak.
Require Blots.BuiltinsList Blots.DisplayNum Blots.NumText.
Import ListNotations.
Open Scope list_scope.
Open Scope nat_scope.

(* ================= ops_wf, ops_nm: AllGenClosed.v instantiated ================= *)
Lemma binop_all_wf : forall o, binop_wf (binop_all o).
Proof.
  intros o cb s0 Hcb op l r st res st' Hs0 Hl Hr H.
  exact (proj2 (binop_all_agree_gen slen_le slen_refl slen_trans wfv wfv_VList wfv_atomic wfv_mono
                  cb cb s0 (cb_agree_refl s0 cb) Hcb o op l r st Hs0 Hl Hr) res st' H).
Qed.
Lemma builtin_all_wf : forall o, builtin_wf (builtin_all o).
Proof.
  intros o cb s0 Hcb b args st res st' Hs0 Ha H.
  destruct (builtin_all_agree_gen slen_le slen_refl slen_trans wfv wfv_VList (fun st => vlt_VRec (length st))
              (fun st => vlt_VSpread (length st)) wfv_atomic wfv_mono
              cb cb s0 (cb_agree_refl s0 cb) Hcb o b args st Hs0 Ha) as [_ [Hle Hpost]].
  rewrite H in Hle, Hpost. cbn [fst snd] in Hle, Hpost. split; assumption.
Qed.
Theorem ops_wf_all : forall o, ops_wf (binop_all o) (builtin_all o).
Proof. intros o. split; [apply binop_all_wf|apply builtin_all_wf]. Qed.

Lemma binop_all_nm : forall o x, binop_nm x (binop_all o).
Proof.
  intros o x cb1 cb2 Hag Hcl op l r st Hl Hr.
  destruct (binop_all_agree_gen anyS anyS_refl anyS_trans (Pp x) (Pp_VList x) (Pp_atomic x) (Pp_mono x)
              cb1 cb2 st (cb_agr_gen x _ _ st Hag) (cb_nm_gen x _ st Hcl) o op l r st I Hl Hr) as [Heq Hpost].
  split; [exact Heq|intros res st' E v Ev; exact (proj2 (Hpost _ _ E) v Ev)].
Qed.
Lemma builtin_all_nm : forall o x, builtin_nm x (builtin_all o).
Proof.
  intros o x cb1 cb2 Hag Hcl b args st Ha.
  destruct (builtin_all_agree_gen anyS anyS_refl anyS_trans (Pp x) (Pp_VList x) (Pp_VRec x) (Pp_VSpread x)
              (Pp_atomic x) (Pp_mono x)
              cb1 cb2 st (cb_agr_gen x _ _ st Hag) (cb_nm_gen x _ st Hcl) o b args st I Ha) as [Heq [_ Hpost]].
  split; [exact Heq|]. intros res st' E v Ev. rewrite E in Hpost. cbn [fst snd] in Hpost. exact (Hpost v Ev).
Qed.
Theorem ops_nm_all : forall o, ops_nm (binop_all o) (builtin_all o).
Proof. intros o x. split; [apply binop_all_nm|apply builtin_all_nm]. Qed.

(* ================= ops_commute ================= *)
(* THE HYPOTHESIS ON THE ORACLE: the text of a function value does not depend on the cell indices its captured
   scope mentions *)
Definition lam_str_blind (o : oracle) : Prop :=
  forall rho, (forall a b : nat, rho a = rho b -> a = b) ->
    forall a b sc, o_lam_str o a b (renF rho sc) = o_lam_str o a b sc.

Section AllSim.
  Variable o : oracle.
  Variable rho : nat -> nat.
  Hypothesis rho_inj : forall a b, rho a = rho b -> a = b.
  Hypothesis Hblind : forall a b sc, o_lam_str o a b (renF rho sc) = o_lam_str o a b sc.
  Notation ren := (ren rho).
  Notation oren := (oren rho).
  Notation Mfun := (Mfun rho).
  Notation cb_eqv := (cb_eqv rho).

  Section Str.
    Variable num_str : num -> string.
    Variable w : bool.
    Notation S := (BuiltinsList.stringify num_str (o_lam_str o) w).
    Notation FS := (fun kv : string * value => (fst kv ++ ": " ++ S (snd kv))%string).

    Definition parts_ren (v : value) : Prop :=
      match v with
      | VList l => map S (map ren l) = map S l
      | VRec r => map FS (renF rho r) = map FS r
      | _ => True
      end.

    Lemma stringify_ren_parts : forall v, S (ren v) = S v /\ parts_ren v.
    Proof.
      induction v using value_ind'; try (split; [reflexivity|exact I]).
      - (* list *)
        assert (Hm : map S (map ren l) = map S l).
        { induction H as [|x l Hx Hl IH]; [reflexivity|]. cbn [map]. rewrite (proj1 Hx), IH. reflexivity. }
        split; [cbn [C02Ren.ren BuiltinsList.stringify]; rewrite Hm; reflexivity|exact Hm].
      - (* record *)
        assert (Hm : map FS (renF rho r) = map FS r).
        { induction H as [|[k x] r Hx Hr IH]; [reflexivity|]. cbn [renF map fst snd] in *.
          rewrite (proj1 Hx). f_equal. exact IH. }
        split; [rewrite ren_VRec; cbn [BuiltinsList.stringify]; rewrite Hm; reflexivity|exact Hm].
      - (* function *)
        split; [|exact I]. rewrite ren_VLam. cbn [BuiltinsList.stringify]. apply Hblind.
      - (* spread *)
        destruct IHv as [_ Hp]. split; [|exact I].
        destruct v; try reflexivity; cbn [parts_ren] in Hp.
        + cbn [C02Ren.ren BuiltinsList.stringify]. rewrite Hp. reflexivity.
        + change (C02Ren.ren rho (VSpread (VRec r))) with (VSpread (VRec (renF rho r))).
          cbn [BuiltinsList.stringify]. rewrite Hp. reflexivity.
    Qed.
    Lemma stringify_ren : forall v, S (ren v) = S v.
    Proof. intros v. exact (proj1 (stringify_ren_parts v)). Qed.
    Lemma map_stringify_ren : forall l, map S (map ren l) = map S l.
    Proof. intros l. exact (proj2 (stringify_ren_parts (VList l))). Qed.
  End Str.

  Lemma stringify_internal_all_ren : forall v, stringify_internal_all o (ren v) = stringify_internal_all o v.
  Proof. intros v. unfold stringify_internal_all. apply stringify_ren. Qed.

  Lemma nums_in_ren : forall v, nums_in (ren v) = nums_in v.
  Proof.
    induction v using value_ind'; try reflexivity.
    - cbn [C02Ren.ren nums_in]. induction H as [|x l Hx Hl IH]; [reflexivity|].
      cbn [map flat_map]. rewrite Hx, IH. reflexivity.
    - rewrite ren_VRec. cbn [nums_in]. induction H as [|[k x] r Hx Hr IH]; [reflexivity|].
      cbn [renF map flat_map fst snd] in *. rewrite Hx. f_equal. exact IH.
    - cbn [C02Ren.ren nums_in]. exact IHv.
  Qed.
  Lemma stringify_display_all_ren : forall v, stringify_display_all o (ren v) = stringify_display_all o v.
  Proof.
    intros v. unfold stringify_display_all, display_panics. rewrite nums_in_ren, stringify_ren. reflexivity.
  Qed.

  Lemma barg_ren : forall l i, BuiltinsList.arg (map ren l) i = omap ren (BuiltinsList.arg l i).
  Proof. exact (arg_ren rho). Qed.
  Lemma bas_string_ren : forall v, BuiltinsList.as_string (ren v) = BuiltinsList.as_string v.
  Proof. destruct v; reflexivity. Qed.

  Lemma str1_ren : forall (g : string -> string) args,
    (do a0 <- BuiltinsList.arg (map ren args) 0; do s <- BuiltinsList.as_string a0; Ok (VStr (g s))) =
    oren (do a0 <- BuiltinsList.arg args 0; do s <- BuiltinsList.as_string a0; Ok (VStr (g s))).
  Proof.
    intros g args. rewrite barg_ren. destruct (BuiltinsList.arg args 0) as [a| | | |]; try reflexivity.
    cbn [omap obind]. rewrite bas_string_ren. destruct (BuiltinsList.as_string a); reflexivity.
  Qed.

  Lemma to_string_arm_ren : forall a,
    (match ren a with VStr _ => Ok (ren a) | _ => Ok (VStr (stringify_internal_all o (ren a))) end) =
    oren (match a with VStr _ => Ok a | _ => Ok (VStr (stringify_internal_all o a)) end).
  Proof. intros a. rewrite stringify_internal_all_ren. destruct a; reflexivity. Qed.
  Lemma bi_to_string_all_ren : forall args, bi_to_string_all o (map ren args) = oren (bi_to_string_all o args).
  Proof.
    intros args. unfold bi_to_string_all. rewrite arg_ren. destruct (arg args 0) as [a| | | |]; try reflexivity.
    cbn [omap obind]. apply to_string_arm_ren.
  Qed.
  Lemma bi_join_all_ren : forall args, bi_join_all o (map ren args) = oren (bi_join_all o args).
  Proof.
    intros args. unfold bi_join_all. rewrite !arg_ren.
    destruct (arg args 1) as [a1| | | |]; try reflexivity. cbn [omap obind].
    rewrite as_string_ren. destruct (as_string a1) as [dl| | | |]; try reflexivity. cbn [omap obind].
    destruct (arg args 0) as [a0| | | |]; try reflexivity. cbn [omap obind].
    rewrite as_list_ren. destruct (as_list a0) as [l| | | |]; try reflexivity. cbn [omap obind].
    unfold stringify_internal_all. rewrite map_stringify_ren. reflexivity.
  Qed.
  Lemma slice_from_ren : forall (l : list value) n, slice_from (map ren l) n = omap (map ren) (slice_from l n).
  Proof.
    intros l n. unfold slice_from. rewrite map_length. destruct (Nat.leb n (length l)); [|reflexivity].
    cbn [omap]. rewrite skipn_map. reflexivity.
  Qed.
  Lemma mapM_display_ren : forall l, mapM (stringify_display_all o) (map ren l) = mapM (stringify_display_all o) l.
  Proof.
    induction l as [|x l IH]; [reflexivity|]. cbn [map mapM]. rewrite stringify_display_all_ren, IH. reflexivity.
  Qed.
  Lemma bi_format_ren : forall args, bi_format o (map ren args) = oren (bi_format o args).
  Proof.
    intros args. unfold bi_format. rewrite arg_ren.
    destruct (arg args 0) as [a0| | | |]; try reflexivity. cbn [omap obind].
    rewrite as_string_ren. destruct (as_string a0) as [fs| | | |]; try reflexivity. cbn [omap obind].
    rewrite slice_from_ren. destruct (slice_from args 1) as [rest| | | |]; try reflexivity. cbn [omap obind].
    rewrite mapM_display_ren. destruct (mapM (stringify_display_all o) rest) as [fa| | | |]; try reflexivity.
    cbn [omap obind]. destruct (dyn_format fs fa); reflexivity.
  Qed.
  Lemma print_line_ren : forall args, print_line o (map ren args) = print_line o args.
  Proof.
    intros args.
    assert (Hgen : (do a0 <- arg (map ren args) 0; do format_str <- as_string a0;
                    do rest <- slice_from (map ren args) 1;
                    dyn_format format_str (map (stringify_internal_all o) rest)) =
                   (do a0 <- arg args 0; do format_str <- as_string a0;
                    do rest <- slice_from args 1;
                    dyn_format format_str (map (stringify_internal_all o) rest))).
    { rewrite arg_ren. destruct (arg args 0) as [a0| | | |]; try reflexivity. cbn [omap obind].
      rewrite as_string_ren. destruct (as_string a0) as [fs| | | |]; try reflexivity. cbn [omap obind].
      rewrite slice_from_ren. destruct (slice_from args 1) as [rest| | | |]; try reflexivity. cbn [omap obind].
      unfold stringify_internal_all. rewrite map_stringify_ren. reflexivity. }
    destruct args as [|x [|y r]]; try exact Hgen.
    unfold print_line. cbn [map BuiltinsHof.arg nth_error omap obind].
    rewrite stringify_internal_all_ren. reflexivity.
  Qed.
  Lemma bi_print_ren : forall args, bi_print o (map ren args) = oren (bi_print o args).
  Proof. intros args. unfold bi_print. rewrite print_line_ren. destruct (print_line o args); reflexivity. Qed.

  Theorem binop_all_sim : forall cbA cbB, cb_eqv cbA cbB ->
    forall op l r, Mfun ren (binop_all o cbA op l r) (binop_all o cbB op (ren l) (ren r)).
  Proof.
    intros cbA cbB Hcb op l r. unfold binop_all.
    destruct op; try (apply binop_impl_sim; assumption).
    apply eval_binop_sim; [assumption|apply fn_accepts2_ren].
  Qed.

  Theorem builtin_all_sim : forall cbA cbB, cb_eqv cbA cbB ->
    forall b args, Mfun ren (builtin_all o cbA b args) (builtin_all o cbB b (map ren args)).
  Proof.
    intros cbA cbB Hcb b args.
    destruct b; cbn [builtin_all];
      try (apply builtin_full_sim; assumption);
      apply (pure_bi_Mfun rho);
      first [ apply num1_ren | apply str1_ren | apply bi_to_string_all_ren | apply bi_join_all_ren
            | apply bi_format_ren | apply bi_print_ren | reflexivity ].
  Qed.
End AllSim.

Theorem ops_commute_all : forall o, lam_str_blind o -> ops_commute (binop_all o) (builtin_all o).
Proof.
  intros o Hb rho Hinj. split.
  - apply binop_all_sim.
  - apply builtin_all_sim; first [exact Hinj|exact (Hb rho Hinj)].
Qed.
