(* proofs/PegCommentsWf.v — `wf_ast` (Comments.v: the return expression of every do-block carries no trailing
   comment), a hypothesis of the formatter-half theorems inside `stmt_ok`, DERIVED from the parser model: every
   expression `pairs_to_expr_with_comments` (PegComments.pratt_c) returns is wf_ast, for EVERY token stream — no
   shape hypothesis needed (do_loop_c builds the return element as `Cm pending e None` or leaves the initial
   `uncommented ENull`; attach_after_last only rewrites trailing fields of list / record elements). *)
From Coq Require Import String Ascii List NArith ZArith Bool Arith Lia.
Require Import Blots.Num Blots.gen.Builtins Blots.Ast Blots.Outcome Blots.PrattTypes Blots.gen.PrecTable
               Blots.Pratt Blots.Formatter Blots.proofs.Comments.
Require Import Blots.Peg Blots.gen.Grammar Blots.PegToItems Blots.PegComments Blots.proofs.PegComments.
Import ListNotations.
Local Open Scope string_scope.
Local Open Scope list_scope.
Local Open Scope nat_scope.
Local Notation expr := Ast.expr.

Definition wf_items (l : list (commented expr)) : bool := forallb (fun c => wf_ast (cnode c)) l.
Definition wf_entry (r : rentry) : bool :=
  match r with
  | REntry (KStatic _) v => wf_ast v
  | REntry (KDyn k) v => wf_ast k && wf_ast v
  | REntry (KShort _) _ => true
  | REntry (KSpread x) _ => wf_ast x
  end.
Definition wf_entries (l : list (commented rentry)) : bool := forallb (fun c => wf_entry (cnode c)) l.

Lemma wf_ast_EList l : wf_ast (EList l) = wf_items l.
Proof. reflexivity. Qed.
Lemma forallb_ext' {A} (f g : A -> bool) : (forall x, f x = g x) -> forall l, forallb f l = forallb g l.
Proof. intros H l. induction l as [|x r IH]; [reflexivity|]. cbn. rewrite H, IH. reflexivity. Qed.

Lemma wf_ast_ERec l : wf_ast (ERec l) = wf_entries l.
Proof.
  cbn [wf_ast]. unfold wf_entries. apply forallb_ext'. intros [ld [[k|k|k|k] v] tr]; reflexivity.
Qed.

(* attach_after_last keeps the nodes *)
Lemma attach_after_last_nodes {A} (P : A -> bool) (els : list (commented A)) pending :
  forallb (fun c => P (cnode c)) els = true ->
  forallb (fun c => P (cnode c)) (attach_after_last els pending) = true.
Proof.
  intro H. unfold attach_after_last. destruct pending as [|p ps]; [exact H|].
  destruct (rev els) as [|[l x tr] before] eqn:Hr; [exact H|].
  assert (He : els = rev before ++ [Cm l x tr]).
  { apply (f_equal (@rev _)) in Hr. rewrite rev_involutive in Hr. cbn in Hr. exact Hr. }
  rewrite He in H. rewrite forallb_app in H. apply andb_prop in H as [H1 H2].
  rewrite forallb_app, H1. cbn [forallb cnode andb] in *. exact H2.
Qed.

(* the loops append an element whose node was just parsed *)
Lemma nodes_snoc {A} (P : A -> bool) (els : list (commented A)) ld x tr :
  forallb (fun c => P (cnode c)) els = true -> P x = true ->
  forallb (fun c => P (cnode c)) (els ++ [Cm ld x tr]) = true.
Proof. intros H Hx. rewrite forallb_app, H. cbn. rewrite Hx. reflexivity. Qed.

Section Loops.
  Variable parse : list item -> outcome tres.
  Hypothesis parse_wf : forall g e, parse g = Outcome.Ok (Some e) -> wf_ast e = true.

  Lemma list_loop_wf : forall els pending elements el' pd',
    wf_items elements = true ->
    list_loop_c parse els pending elements = Outcome.Ok (Some (el', pd')) -> wf_items el' = true.
  Proof.
    induction els as [|[c|g eol] r IH]; intros pending elements el' pd' Hw H; cbn [list_loop_c] in H.
    - inversion H; subst. exact Hw.
    - eapply IH; [exact Hw|exact H].
    - destruct (parse g) as [[e|]| | | |] eqn:Hp; cbn [obind] in H; try discriminate H.
      eapply IH; [|exact H]. apply nodes_snoc; [exact Hw|exact (parse_wf g e Hp)].
  Qed.

  Lemma key_of_wf : forall k key val, key_of parse k = Outcome.Ok (Some key) -> wf_ast val = true ->
    wf_entry (REntry key val) = true.
  Proof.
    intros [s|s|inner] key val H Hv; cbn [key_of] in H; try (inversion H; exact Hv).
    destruct (parse inner) as [[d|]| | | |] eqn:Hp; cbn in H; try discriminate H.
    inversion H; subst key. cbn [wf_entry]. rewrite (parse_wf _ _ Hp), Hv. reflexivity.
  Qed.

  Lemma rec_loop_wf : forall els pending entries el' pd',
    wf_entries entries = true ->
    rec_loop_c parse els pending entries = Outcome.Ok (Some (el', pd')) -> wf_entries el' = true.
  Proof.
    induction els as [|[c|k v eol|s eol|g eol] r IH]; intros pending entries el' pd' Hw H; cbn [rec_loop_c] in H.
    - inversion H; subst. exact Hw.
    - eapply IH; [exact Hw|exact H].
    - destruct (key_of parse k) as [[key|]| | | |] eqn:Hk; cbn [obind] in H; try discriminate H.
      destruct (parse v) as [[val|]| | | |] eqn:Hv; cbn [obind] in H; try discriminate H.
      eapply IH; [|exact H]. apply nodes_snoc; [exact Hw|exact (key_of_wf k key val Hk (parse_wf v val Hv))].
    - eapply IH; [|exact H]. apply nodes_snoc; [exact Hw|reflexivity].
    - destruct (parse g) as [[e|]| | | |] eqn:Hp; cbn [obind] in H; try discriminate H.
      eapply IH; [|exact H]. apply nodes_snoc; [exact Hw|exact (parse_wf g e Hp)].
  Qed.

  Lemma list_arm_wf : forall els t, list_arm_c parse els = Outcome.Ok (Some t) -> wf_ast t = true.
  Proof.
    intros els t H. unfold list_arm_c in H.
    destruct (list_loop_c parse els [] []) as [[[el' pd']|]| | | |] eqn:Hl; cbn in H; try discriminate H.
    inversion H. rewrite wf_ast_EList. unfold wf_items. apply attach_after_last_nodes.
    exact (list_loop_wf els [] [] el' pd' eq_refl Hl).
  Qed.
  Lemma rec_arm_wf : forall els t, rec_arm_c parse els = Outcome.Ok (Some t) -> wf_ast t = true.
  Proof.
    intros els t H. unfold rec_arm_c in H.
    destruct (rec_loop_c parse els [] []) as [[[el' pd']|]| | | |] eqn:Hl; cbn in H; try discriminate H.
    inversion H. rewrite wf_ast_ERec. unfold wf_entries. apply attach_after_last_nodes.
    exact (rec_loop_wf els [] [] el' pd' eq_refl Hl).
  Qed.

  Lemma do_loop_wf : forall els pending stmts ret t,
    wf_items stmts = true -> wf_ast (cnode ret) = true -> ctrailing ret = None ->
    do_loop_c parse els pending stmts ret = Outcome.Ok (Some t) -> wf_ast t = true.
  Proof.
    induction els as [|[g c|s c|g|s] r IH]; intros pending stmts ret t Hw Hr Ht H.
    - cbn in H. inversion H; subst t. cbn [wf_ast]. fold (wf_items stmts). rewrite Hw, Hr, Ht. reflexivity.
    - cbn [do_loop_c] in H. destruct (parse g) as [[e|]| | | |] eqn:Hp; cbn [obind] in H; try discriminate H.
      eapply IH; [|exact Hr|exact Ht|exact H]. apply nodes_snoc; [exact Hw|exact (parse_wf g e Hp)].
    - cbn [do_loop_c] in H. eapply IH; eassumption.
    - cbn [do_loop_c] in H. destruct (parse g) as [[e|]| | | |] eqn:Hp; cbn [obind] in H; try discriminate H.
      eapply IH; [exact Hw| | |exact H]; [exact (parse_wf g e Hp)|reflexivity].
    - cbn [do_loop_c] in H. eapply IH; eassumption.
  Qed.

  Lemma do_arm_wf : forall els t, do_arm_c parse els = Outcome.Ok (Some t) -> wf_ast t = true.
  Proof.
    intros els t H. unfold do_arm_c in H.
    exact (do_loop_wf els [] [] (uncommented ENull) t eq_refl eq_refl eq_refl H).
  Qed.

  Lemma omapM_wf : forall args es, omapM parse args = Outcome.Ok (Some es) -> forallb wf_ast es = true.
  Proof.
    induction args as [|g r IH]; intros es H.
    - cbn in H. inversion H; reflexivity.
    - cbn [omapM] in H. destruct (parse g) as [[e|]| | | |] eqn:Hp; cbn [obind] in H; try discriminate H.
      destruct (omapM parse r) as [[es'|]| | | |] eqn:Hm; cbn [obind option_map] in H; try discriminate H.
      inversion H; subst es. cbn [forallb]. rewrite (parse_wf g e Hp), (IH es' eq_refl). reflexivity.
  Qed.
End Loops.

Section Main.
  Variable tbl : ops_map.
  Variable imap : list (oprule * binop).
  Variable pmap : list (oprule * prefix_ctor).
  Local Notation PE := (pexpr_c tbl imap pmap).
  Local Notation PL := (ploop_c tbl imap pmap).
  Local Notation PO := (map_postfix_c tbl imap pmap).
  Local Notation PR := (primary_c tbl imap pmap).
  Local Notation PI := (parse_items_c tbl imap pmap).

  Definition wfS (f : nat) : Prop :=
    (forall rbp its t rest, PE f rbp its = Outcome.Ok (Some t, rest) -> wf_ast t = true)
    /\ (forall rbp lhs its t rest, wf_ast lhs = true -> PL f rbp (Some lhs) its = Outcome.Ok (Some t, rest) ->
                                   wf_ast t = true)
    /\ (forall lhs pr0 t, wf_ast lhs = true -> PO f (Some lhs) pr0 = Outcome.Ok (Some t) -> wf_ast t = true)
    /\ (forall pr0 t, PR f pr0 = Outcome.Ok (Some t) -> wf_ast t = true)
    /\ (forall its t, PI f its = Outcome.Ok (Some t) -> wf_ast t = true).

  Lemma wf_all : forall f, wfS f.
  Proof.
    induction f as [|f (IHa & IHb & IHc & IHd & IHe)].
    { repeat split; intros; discriminate. }
    assert (Hpk : forall g e, PI f g = Outcome.Ok (Some e) -> wf_ast e = true) by exact IHe.
    split; [|split; [|split; [|split]]].
    - (* pexpr *)
      intros rbp its t rest H. rewrite (PE_S tbl imap pmap) in H.
      destruct its as [|pr0 rest0]; [discriminate H|].
      bind_ok H lr Hlr. destruct lr as [e mid]. cbn [fst snd] in H.
      destruct e as [e|]; [|apply (PL_none tbl imap pmap) in H; discriminate H].
      refine (IHb _ _ _ _ _ _ H).
      destruct (item_op pr0) as [r|] eqn:Hop.
      + destruct (ops_get tbl r) as [[[| |a] p]|] eqn:Hops; try discriminate Hlr.
        bind_ok Hlr rr Hrr. destruct rr as [x mid']. cbn [fst snd] in Hlr.
        bind_ok Hlr e' He'. inversion Hlr; subst e' mid'. clear Hlr.
        unfold map_prefix in He'.
        destruct x as [x|]; [|destruct (assoc_find r pmap) as [[u|]|]; inversion He'].
        pose proof (IHa _ _ _ _ Hrr) as Hx.
        destruct (assoc_find r pmap) as [[u|]|]; inversion He'; subst e; cbn [wf_ast]; exact Hx.
      + bind_ok Hlr e' He'. inversion Hlr; subst e' mid. exact (IHd _ _ He').
    - (* ploop *)
      intros rbp lhs its t rest Hl H. rewrite (PL_S tbl imap pmap) in H. bind_ok H l Hlb.
      destruct (Nat.ltb rbp l).
      2:{ inversion H; subst. exact Hl. }
      destruct its as [|pr0 rest0]; [discriminate H|].
      destruct (item_op pr0) as [r|] eqn:Hop; [|discriminate H].
      destruct (ops_get tbl r) as [[[| |a] p]|] eqn:Hops; try discriminate H.
      + bind_ok H e He. destruct e as [e|]; [|apply (PL_none tbl imap pmap) in H; discriminate H].
        exact (IHb _ _ _ _ _ (IHc _ _ _ Hl He) H).
      + bind_ok H rr Hrr. destruct rr as [x mid]. cbn [fst snd] in H.
        bind_ok H e He. destruct e as [e|]; [|apply (PL_none tbl imap pmap) in H; discriminate H].
        unfold map_infix in He. destruct (assoc_find r imap) as [o|]; [|discriminate He].
        destruct x as [x|]; [|inversion He]. inversion He; subst e. clear He.
        refine (IHb _ _ _ _ _ _ H). cbn [wf_ast]. rewrite Hl, (IHa _ _ _ _ Hrr). reflexivity.
    - (* map_postfix *)
      intros lhs pr0 t Hl H. cbn [map_postfix_c] in H.
      destruct pr0; try discriminate H.
      + destruct r; try discriminate H. inversion H; subst t. exact Hl.
      + bind_ok H i Hi. destruct i as [i|]; inversion H; subst t. cbn [wf_ast]. rewrite Hl, (Hpk _ _ Hi). reflexivity.
      + inversion H; subst t. exact Hl.
      + bind_ok H a Ha. destruct a as [a|]; inversion H; subst t. cbn [wf_ast].
        rewrite Hl, (omapM_wf _ Hpk _ _ Ha). reflexivity.
    - (* primary *)
      intros pr0 t H. cbn [primary_c] in H.
      destruct pr0; try discriminate H; try (inversion H; subst t; reflexivity).
      + inversion H; try subst t. destruct (builtin_of_name s); reflexivity.
      + exact (Hpk _ _ H).
      + exact (list_arm_wf _ Hpk _ _ H).
      + exact (rec_arm_wf _ Hpk _ _ H).
      + bind_ok H b Hb. destruct b as [b|]; inversion H; try subst t. cbn [wf_ast]. exact (Hpk _ _ Hb).
      + bind_ok H c' Hc. destruct c' as [c'|]; [|inversion H].
        bind_ok H t' Ht. destruct t' as [t'|]; [|inversion H].
        bind_ok H e' He. destruct e' as [e'|]; inversion H; try subst t.
        cbn [wf_ast]. rewrite (Hpk _ _ Hc), (Hpk _ _ Ht), (Hpk _ _ He). reflexivity.
      + exact (do_arm_wf _ Hpk _ _ H).
      + bind_ok H v' Hv. destruct v' as [v'|]; inversion H; try subst t. cbn [wf_ast]. exact (Hpk _ _ Hv).
    - (* parse_items *)
      intros its t H. rewrite (PI_S tbl imap pmap) in H. bind_ok H r Hr. destruct r as [x rest]. cbn [fst] in H.
      inversion H; subst x. exact (IHa _ _ _ _ Hr).
  Qed.
End Main.

(* every expression pairs_to_expr_with_comments returns is wf_ast *)
Theorem pratt_c_wf_ast : forall its t, pratt_c its = Outcome.Ok (Some t) -> wf_ast t = true.
Proof.
  intros its t H.
  destruct (wf_all impl_table infix_map prefix_map (4 * items_size its + 4)) as (_ & _ & _ & _ & He).
  exact (He _ _ H).
Qed.

(* ... hence every statement of every program the statement loop builds *)
Definition stmt_wf_ast (s : stmt) : bool :=
  match s with St (SExpr e) _ _ _ | St (SOut e) _ _ _ => wf_ast e | St (SComment _) _ _ _ => true end.

Lemma stmt_of_tree_wf : forall text t s,
  stmt_of_tree text t = Outcome.Ok (Some (Some s)) -> stmt_wf_ast s = true.
Proof.
  intros text [r s0 e0 kids] s H. cbn [stmt_of_tree] in H.
  destruct kids as [|first more]; [inversion H|].
  destruct (trule first);
    try (destruct (pratt_c (conv_kids text first)) as [[x|]| | | |] eqn:Hp; cbn [obind] in H; try discriminate H;
         inversion H; subst s; cbn [stmt_wf_ast]; exact (pratt_c_wf_ast _ _ Hp)).
  inversion H; subst s. reflexivity.
Qed.

Theorem program_of_forest_wf : forall text l p,
  program_of_forest text l = Outcome.Ok (Some p) -> forallb stmt_wf_ast p = true.
Proof.
  intros text. induction l as [|t l IH]; intros p H.
  - cbn in H. inversion H; reflexivity.
  - cbn [program_of_forest] in H. destruct (is_rule PG_statement t); [|exact (IH p H)].
    destruct (stmt_of_tree text t) as [[s|]| | | |] eqn:Hst; cbn [obind] in H; try discriminate H.
    destruct (program_of_forest text l) as [[p'|]| | | |] eqn:Hp; cbn [obind option_map] in H; try discriminate H.
    inversion H; subst p. destruct s as [x|]; [|exact (IH p' eq_refl)].
    cbn [forallb]. rewrite (stmt_of_tree_wf text t x Hst), (IH p' eq_refl). reflexivity.
Qed.

(* the forest / program pair parse_program_c returns is a run of the statement loop *)
Lemma parse_program_c_inv : forall text forest p,
  parse_program_c text = PCOk forest p -> program_of_forest text forest = Outcome.Ok (Some p).
Proof. intros text forest p H. destruct (parse_program_c_ok _ _ _ H) as (s & _ & _ & Hp). exact Hp. Qed.

Theorem parse_program_c_wf : forall text forest p,
  parse_program_c text = PCOk forest p -> forallb stmt_wf_ast p = true.
Proof.
  intros text forest p H. exact (program_of_forest_wf _ _ _ (parse_program_c_inv _ _ _ H)).
Qed.

(* ------------------------------------------------------------------ the formatter-half hypothesis with wf_ast discharged
   [stmt_ok_parsed] = DriverText.stmt_ok without its `wf_ast e = true` conjunct; for a program that comes out of the
   parser model the two are equivalent, so the end-to-end theorems (tree -> emitted text) need one hypothesis less. *)
Require Import Blots.proofs.Scan Blots.proofs.ScanFmt Blots.proofs.DriverText Blots.proofs.PegCommentsCompose.

Definition stmt_ok_parsed (O : oracles) (key_ok : string -> bool) (mw : option nat) (s : stmt) : Prop :=
  let w := match mw with Some n => n | None => DEFAULT_MAX_COLUMNS end in
  match s with
  | St k eol _ _ =>
      (match k with
       | SComment c => comment_ok c = true
       | SExpr e =>
           atoms_ok key_ok e = true /\
           forallb cfree (doc_opaque (fmtd O w e 0)) = true /\
           opaque_texts_neutral (fmtd O w e 0)
       | SOut e =>
           atoms_ok key_ok e = true /\
           forallb cfree (doc_opaque (fmtd O w (EOutput e) 0)) = true /\
           opaque_texts_neutral (fmtd O w (EOutput e) 0)
       end) /\
      match eol with
      | Some c => comment_ok c = true /\ match k with SComment _ => False | _ => True end
      | None => True
      end
  end.

Lemma stmt_ok_of_parsed : forall O key_ok mw s,
  stmt_wf_ast s = true -> stmt_ok_parsed O key_ok mw s -> stmt_ok O key_ok mw s.
Proof.
  intros O key_ok mw [k eol sl el] Hw H. unfold stmt_ok, stmt_ok_parsed in *. destruct H as [Hk He]. split; [|exact He].
  destruct k; cbn [stmt_wf_ast] in Hw; try exact Hk; (split; [exact Hw|exact Hk]).
Qed.

Lemma program_ok_of_parsed : forall O key_ok mw p,
  forallb stmt_wf_ast p = true -> Forall (stmt_ok_parsed O key_ok mw) p -> Forall (stmt_ok O key_ok mw) p.
Proof.
  intros O key_ok mw p Hw H. induction H as [|s p Hs _ IH]; [constructor|].
  cbn [forallb] in Hw. apply andb_prop in Hw as [H1 H2]. constructor; [apply stmt_ok_of_parsed; assumption|exact (IH H2)].
Qed.

Theorem tree_to_text_lib_parsed :
  forall O key_ok, (forall k, key_ok k = true -> neutral (o_record_key O k)) ->
  forall text forest p mw d,
  forest_view_ok text forest = true -> forest_shape_ok text forest = true ->
  forest_no_empty_container text forest = true ->
  program_of_forest text forest = Outcome.Ok (Some p) ->
  Forall (stmt_ok_parsed O key_ok mw) p -> format_lib O mw p = Some d ->
  scan_comments (render d) = forest_comments text forest.
Proof.
  intros O key_ok Hk text forest p mw d Hv Hs Hn Hp Hok Hd.
  apply (tree_to_text_lib O key_ok Hk text forest p mw d Hv Hs Hn Hp); [|exact Hd].
  apply program_ok_of_parsed; [exact (program_of_forest_wf _ _ _ Hp)|exact Hok].
Qed.

Theorem tree_to_text_cli_parsed :
  forall O key_ok, (forall k, key_ok k = true -> neutral (o_record_key O k)) ->
  forall text forest p,
  forest_view_ok text forest = true -> forest_shape_ok text forest = true ->
  forest_no_empty_container text forest = true ->
  program_of_forest text forest = Outcome.Ok (Some p) ->
  Forall (stmt_ok_parsed O key_ok None) p ->
  scan_comments (render (format_cli O p)) = forest_comments text forest.
Proof.
  intros O key_ok Hk text forest p Hv Hs Hn Hp Hok.
  apply (tree_to_text_cli O key_ok Hk text forest p Hv Hs Hn Hp).
  apply program_ok_of_parsed; [exact (program_of_forest_wf _ _ _ Hp)|exact Hok].
Qed.
