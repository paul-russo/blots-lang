(* DisplayNumText.v — C20: post-processing of the library's digit strings.
   Every text of shape  -? d+ (. d+)?  is [mk_plain neg ip ofp]; trimming and separator
   insertion are computed on that form, and shown to keep the shape and the value. *)
From Coq Require Import ZArith Bool String Ascii List Lia QArith.
Require Import Blots.Num Blots.Outcome Blots.DisplayNum.
Require Import Blots.proofs.DisplayNumGroup Blots.proofs.DisplayNumSpec.
Import ListNotations.
Open Scope char_scope.
Open Scope Z_scope.

Definition sign_text (neg : bool) : text := if neg then ["-"] else [].
Definition frac_text (ofp : option text) : text :=
  match ofp with Some fp => "." :: fp | None => [] end.
Definition mk_plain (neg : bool) (ip : text) (ofp : option text) : text :=
  sign_text neg ++ ip ++ frac_text ofp.
Definition ok_frac (ofp : option text) : bool :=
  match ofp with Some fp => all_digits fp | None => true end.

Lemma all_digits_cons : forall l, all_digits l = true ->
  exists a r, l = a :: r /\ is_digit a = true /\ forallb is_digit r = true.
Proof.
  intros [|a r] H; [discriminate|]. unfold all_digits in H. cbn in H.
  apply andb_true_iff in H. destruct H. now exists a, r.
Qed.
Lemma all_digits_forallb : forall l, all_digits l = true -> forallb is_digit l = true.
Proof. intros l H. unfold all_digits in H. now apply andb_true_iff in H. Qed.
Lemma all_digits_nonempty : forall l, all_digits l = true -> l <> [].
Proof. intros [|] H; [discriminate|congruence]. Qed.
Lemma all_digits_intro : forall l, l <> [] -> forallb is_digit l = true -> all_digits l = true.
Proof. intros [|a r] H1 H2; [congruence|]. unfold all_digits. now rewrite H2. Qed.

Lemma digits_no : forall c l, is_digit c = false -> all_digits l = true -> contains c l = false.
Proof. intros. apply forallb_digit_contains; auto. now apply all_digits_forallb. Qed.

Lemma starts_with_digits_app : forall c l r,
  is_digit c = false -> all_digits l = true -> starts_with c (l ++ r) = false.
Proof.
  intros c l r Hc H. destruct (all_digits_cons l H) as (a & l' & -> & Ha & _).
  cbn. now apply is_digit_not.
Qed.

Lemma starts_with_digits : forall c l, is_digit c = false -> all_digits l = true -> starts_with c l = false.
Proof. intros c l. rewrite <- (app_nil_r l) at 2. apply starts_with_digits_app. Qed.

Lemma strip_sign_signed : forall neg l, starts_with "-" l = false -> strip_sign (sign_text neg ++ l) = l.
Proof. intros [|] l H; [reflexivity|]. unfold strip_sign. cbn [sign_text app]. now rewrite H. Qed.

(* ---------- decomposition of shaped text ---------- *)
Lemma starts_with_mk_plain : forall neg ip ofp,
  all_digits ip = true -> starts_with "-" (mk_plain neg ip ofp) = neg.
Proof. intros [|] ip ofp H; [reflexivity|]. exact (starts_with_digits_app "-" ip _ eq_refl H). Qed.

Lemma strip_sign_mk_plain_app : forall neg ip ofp rest,
  all_digits ip = true -> strip_sign (mk_plain neg ip ofp ++ rest) = mk_plain false ip ofp ++ rest.
Proof.
  intros neg ip ofp rest H. unfold mk_plain. rewrite <- app_assoc. apply strip_sign_signed.
  cbn [sign_text app]. rewrite <- app_assoc. now apply starts_with_digits_app.
Qed.

Lemma strip_sign_mk_plain : forall neg ip ofp,
  all_digits ip = true -> strip_sign (mk_plain neg ip ofp) = mk_plain false ip ofp.
Proof.
  intros neg ip ofp H. rewrite <- (app_nil_r (mk_plain neg ip ofp)), strip_sign_mk_plain_app by exact H.
  apply app_nil_r.
Qed.

Lemma break_at_mk_plain : forall ip ofp,
  all_digits ip = true ->
  break_at "." (mk_plain false ip ofp) = (ip, match ofp with Some fp => Some ("." :: fp) | None => None end).
Proof.
  intros ip ofp H. unfold mk_plain, sign_text. cbn [app].
  assert (Hc : contains "." ip = false) by (apply digits_no; auto).
  destruct ofp as [fp|]; cbn [frac_text].
  - now apply break_at_app.
  - rewrite app_nil_r. now apply break_at_none.
Qed.

Lemma wf_plain_body_mk_plain : forall ip ofp,
  all_digits ip = true -> ok_frac ofp = true -> wf_plain_body (mk_plain false ip ofp) = true.
Proof.
  intros ip ofp Hi Hf. unfold wf_plain_body. rewrite break_at_mk_plain by assumption. rewrite Hi.
  destruct ofp; cbn; auto.
Qed.

Lemma plain_shape_mk_plain : forall neg ip ofp,
  all_digits ip = true -> ok_frac ofp = true -> plain_shape (mk_plain neg ip ofp) = true.
Proof.
  intros. unfold plain_shape. rewrite strip_sign_mk_plain by assumption. now apply wf_plain_body_mk_plain.
Qed.

Lemma prec_shape_mk_plain : forall n neg ip ofp,
  all_digits ip = true -> ok_frac ofp = true ->
  (n = 0 -> ofp = None) -> (0 < n -> exists fp, ofp = Some fp /\ Z.of_nat (length fp) = n) -> 0 <= n ->
  prec_shape n (mk_plain neg ip ofp) = true.
Proof.
  intros n neg ip ofp Hi Hf H0 H1 Hn. unfold prec_shape. rewrite strip_sign_mk_plain by exact Hi.
  unfold prec_body_shape. rewrite break_at_mk_plain by exact Hi. rewrite Hi. cbn [andb].
  destruct (Z.eq_dec n 0) as [Z0|NZ].
  - rewrite (H0 Z0). now apply Z.eqb_eq.
  - destruct (H1 ltac:(lia)) as (fp & -> & Hl). cbn [ok_frac] in Hf. rewrite Hf.
    assert (A : (0 <? n) = true) by (apply Z.ltb_lt; lia). rewrite A. cbn [andb]. now apply Z.eqb_eq.
Qed.

Lemma wf_plain_body_inv : forall b, wf_plain_body b = true ->
  exists ip ofp, b = mk_plain false ip ofp /\ all_digits ip = true /\ ok_frac ofp = true.
Proof.
  intros b H. unfold wf_plain_body in H. pose proof (break_at_spec "." b) as S.
  destruct (break_at "." b) as [ip [d|]].
  - destruct S as (-> & _ & r & ->). apply andb_true_iff in H. destruct H as [Hi Hf].
    cbn [wf_fraction] in Hf. exists ip, (Some r). repeat split; auto.
  - destruct S as (-> & _). apply andb_true_iff in H. destruct H as [Hi _].
    exists ip, None. unfold mk_plain. cbn. rewrite app_nil_r. auto.
Qed.

Lemma strip_sign_inv : forall s, s = sign_text (starts_with "-" s) ++ strip_sign s.
Proof.
  intros [|a r]; [reflexivity|]. unfold strip_sign. cbn [starts_with].
  destruct (Ascii.eqb_spec a "-") as [->|]; reflexivity.
Qed.

Lemma plain_shape_inv : forall s, plain_shape s = true ->
  exists neg ip ofp, s = mk_plain neg ip ofp /\ all_digits ip = true /\ ok_frac ofp = true.
Proof.
  intros s H. destruct (wf_plain_body_inv _ H) as (ip & ofp & Hb & Hi & Hf).
  exists (starts_with "-" s), ip, ofp. repeat split; auto.
  rewrite (strip_sign_inv s) at 1. now rewrite Hb.
Qed.

Lemma prec_shape_inv : forall n s, prec_shape n s = true ->
  exists neg ip ofp, s = mk_plain neg ip ofp /\ all_digits ip = true /\ ok_frac ofp = true /\
    (0 < n -> exists fp, ofp = Some fp /\ Z.of_nat (length fp) = n) /\ (n = 0 -> ofp = None).
Proof.
  intros n s H.
  assert (P : plain_shape s = true /\
              match break_at "." (strip_sign s) with
              | (_, None) => n = 0
              | (_, Some (_ :: fp)) => 0 < n /\ Z.of_nat (length fp) = n
              | _ => False end).
  { unfold prec_shape, prec_body_shape in H. unfold plain_shape, wf_plain_body.
    destruct (break_at "." (strip_sign s)) as [ip [[|c fp]|]].
    - now rewrite andb_false_r in H.
    - apply andb_true_iff in H. destruct H as [Hi H]. apply andb_true_iff in H. destruct H as [H Hl].
      apply andb_true_iff in H. destruct H as [Hn Hf]. rewrite Hi. cbn [wf_fraction]. rewrite Hf.
      split; [reflexivity|]. split; lia.
    - apply andb_true_iff in H. destruct H as [Hi Hn]. rewrite Hi. split; [reflexivity|]. lia. }
  destruct P as [P Q]. destruct (plain_shape_inv s P) as (neg & ip & ofp & -> & Hi & Hf).
  rewrite strip_sign_mk_plain, break_at_mk_plain in Q by assumption.
  exists neg, ip, ofp. repeat split; auto.
  - intros Hn. destruct ofp as [fp|]; [|lia]. exists fp. split; [reflexivity|tauto].
  - intros Hn. destruct ofp as [fp|]; [lia|reflexivity].
Qed.

(* -? d . d+ with its single integer digit exposed *)
Lemma mant_inv1 : forall s, mant_shape s = true ->
  exists neg d fp, s = mk_plain neg [d] (Some fp) /\ is_digit d = true /\ all_digits fp = true.
Proof.
  intros s H. unfold mant_shape in H.
  assert (P : exists d fp, strip_sign s = d :: "." :: fp /\ is_digit d = true /\ all_digits fp = true).
  { destruct (strip_sign s) as [|d [|dot fp]]; try discriminate.
    apply andb_true_iff in H. destruct H as [H Hf].
    apply andb_true_iff in H. destruct H as [Hd Hdot]. apply Ascii.eqb_eq in Hdot. subst dot.
    now exists d, fp. }
  destruct P as (d & fp & E & Hd & Hf).
  exists (starts_with "-" s), d, fp. repeat split; auto.
  rewrite (strip_sign_inv s) at 1. now rewrite E.
Qed.

(* ---------- value of shaped text ---------- *)
Lemma denote_plain_mk_plain : forall neg ip ofp,
  all_digits ip = true ->
  denote_plain (mk_plain neg ip ofp) =
  (let v := dec_value ip (match ofp with Some fp => fp | None => [] end) in if neg then - v else v)%Q.
Proof.
  intros neg ip ofp H. unfold denote_plain. rewrite starts_with_mk_plain by assumption.
  assert (E : denote_body (mk_plain false ip ofp) = dec_value ip (match ofp with Some fp => fp | None => [] end)).
  { unfold denote_body. rewrite break_at_mk_plain by assumption. destruct ofp; reflexivity. }
  destruct neg; cbn zeta; [|exact E].
  change (tl (mk_plain true ip ofp)) with (mk_plain false ip ofp). now rewrite E.
Qed.

(* ---------- trimming ---------- *)
Definition trim_ofp (ofp : option text) : option text :=
  match ofp with
  | Some fp => match trim_end "0" fp with [] => None | fp' => Some fp' end
  | None => None
  end.

Lemma ends_with_app_last : forall c l x, ends_with c (l ++ [x]) = Ascii.eqb x c.
Proof. intros. unfold ends_with. rewrite rev_app_distr. reflexivity. Qed.

(* a text whose last part is a digit string does not end with a non-digit *)
Lemma ends_with_app_digits : forall c pre l,
  is_digit c = false -> all_digits l = true -> ends_with c (pre ++ l) = false.
Proof.
  intros c pre l Hc H. destruct (@exists_last _ l (all_digits_nonempty l H)) as (l' & x & ->).
  rewrite app_assoc, ends_with_app_last. apply is_digit_not; auto.
  apply all_digits_forallb in H. rewrite forallb_app in H. apply andb_true_iff in H.
  destruct H as [_ H]. cbn in H. now rewrite andb_true_r in H.
Qed.

(* the two trimming steps on a text with a fraction *)
Lemma trim_zeros_mk_plain : forall neg ip fp,
  trim_end "0" (mk_plain neg ip (Some fp)) = sign_text neg ++ ip ++ "." :: trim_end "0" fp.
Proof.
  intros. unfold mk_plain. cbn [frac_text]. rewrite !app_assoc.
  rewrite trim_end_app_ne by reflexivity. reflexivity.
Qed.

Lemma trim_both_mk_plain : forall neg ip fp,
  all_digits ip = true -> all_digits fp = true ->
  trim_end "." (trim_end "0" (mk_plain neg ip (Some fp))) = mk_plain neg ip (trim_ofp (Some fp)) /\
  ends_with "." (trim_end "0" (mk_plain neg ip (Some fp))) = is_nil (trim_end "0" fp).
Proof.
  intros neg ip fp Hi Hf. rewrite trim_zeros_mk_plain. cbn [trim_ofp].
  pose proof (forallb_trim_end "0" fp (all_digits_forallb fp Hf)) as Hd.
  destruct (trim_end "0" fp) as [|x r] eqn:E.
  - (* the fraction was all zeros: the '.' goes too *)
    rewrite (app_assoc (sign_text neg) ip ["."]), ends_with_app_last, trim_end_snoc.
    rewrite trim_end_id by (now apply ends_with_app_digits).
    unfold mk_plain. cbn [frac_text]. now rewrite app_nil_r.
  - (* a non-zero digit remains last *)
    assert (Hl : ends_with "." (sign_text neg ++ ip ++ "." :: x :: r) = false).
    { replace (sign_text neg ++ ip ++ "." :: x :: r) with ((sign_text neg ++ ip ++ ["."]) ++ x :: r)
        by (rewrite <- !app_assoc; reflexivity).
      apply ends_with_app_digits; [reflexivity|]. apply all_digits_intro; [congruence|exact Hd]. }
    rewrite Hl, trim_end_id by exact Hl. now split.
Qed.

Lemma contains_dot_mk_plain : forall neg ip ofp,
  all_digits ip = true -> contains "." (mk_plain neg ip ofp) = match ofp with Some _ => true | None => false end.
Proof.
  intros neg ip ofp H. unfold mk_plain. rewrite !contains_app.
  rewrite (digits_no "." ip eq_refl H).
  destruct neg, ofp; cbn; rewrite ?orb_true_r; reflexivity.
Qed.

Lemma trim_fraction_mk_plain : forall neg ip ofp,
  all_digits ip = true -> ok_frac ofp = true ->
  trim_fraction (mk_plain neg ip ofp) = mk_plain neg ip (trim_ofp ofp).
Proof.
  intros neg ip ofp Hi Hf. unfold trim_fraction. rewrite contains_dot_mk_plain by assumption.
  destruct ofp as [fp|]; [|reflexivity].
  destruct (trim_both_mk_plain neg ip fp Hi Hf) as [T E]. rewrite E.
  destruct (is_nil (trim_end "0" fp)) eqn:N.
  - exact T.
  - rewrite trim_zeros_mk_plain. cbn [trim_ofp]. destruct (trim_end "0" fp); [discriminate|reflexivity].
Qed.

(* format_mantissa's two trims (no '.'-guard in the code: needs a fraction to be present) *)
Lemma trim_mantissa_mk_plain : forall neg ip fp,
  all_digits ip = true -> all_digits fp = true ->
  trim_end "." (trim_end "0" (mk_plain neg ip (Some fp))) = mk_plain neg ip (trim_ofp (Some fp)).
Proof. intros. now apply trim_both_mk_plain. Qed.

Lemma ok_frac_trim : forall ofp, ok_frac ofp = true -> ok_frac (trim_ofp ofp) = true.
Proof.
  intros [fp|] H; [|reflexivity]. cbn [trim_ofp ok_frac] in *.
  pose proof (forallb_trim_end "0" fp (all_digits_forallb fp H)) as Hd.
  destruct (trim_end "0" fp) as [|x r] eqn:E; [reflexivity|].
  cbn [ok_frac]. apply all_digits_intro; [congruence|exact Hd].
Qed.

(* trimming changes no value *)
Lemma trim_ofp_value : forall ip ofp,
  (dec_value ip (match trim_ofp ofp with Some fp => fp | None => [] end) ==
   dec_value ip (match ofp with Some fp => fp | None => [] end))%Q.
Proof.
  intros ip [fp|]; [|reflexivity]. cbn [trim_ofp].
  destruct (trim_end_spec "0" fp) as [k Hk].
  destruct (trim_end "0" fp) as [|x r] eqn:E.
  - rewrite Hk at 1. cbn [app]. symmetry. apply (dec_value_trailing_zeros ip [] k).
  - rewrite Hk. symmetry. apply dec_value_trailing_zeros.
Qed.

Theorem trim_fraction_preserves_value : forall s,
  plain_shape s = true ->
  plain_shape (trim_fraction s) = true /\ (denote_plain (trim_fraction s) == denote_plain s)%Q.
Proof.
  intros s H. destruct (plain_shape_inv s H) as (neg & ip & ofp & -> & Hi & Hf).
  rewrite trim_fraction_mk_plain by assumption. split.
  - apply plain_shape_mk_plain; auto. now apply ok_frac_trim.
  - rewrite !denote_plain_mk_plain by assumption. cbn zeta.
    pose proof (trim_ofp_value ip ofp) as V. destruct neg; rewrite V; reflexivity.
Qed.

(* ---------- separators ---------- *)
Lemma group3_head : forall a s, exists r, group3 (a :: s) = a :: r.
Proof. intros. rewrite group3_cons. destruct (sep_here (length s)); eauto. Qed.

Lemma add_thousand_separators_mk_plain : forall neg ip ofp,
  all_digits ip = true ->
  add_thousand_separators (mk_plain neg ip ofp) = sign_text neg ++ group3 ip ++ frac_text ofp.
Proof.
  intros neg ip ofp H. unfold add_thousand_separators.
  rewrite starts_with_mk_plain by assumption.
  assert (E : (if neg then tl (mk_plain neg ip ofp) else mk_plain neg ip ofp) = mk_plain false ip ofp)
    by (destruct neg; reflexivity).
  rewrite E, break_at_mk_plain by assumption.
  destruct neg, ofp; cbn [sign_text frac_text app]; rewrite ?app_nil_r; reflexivity.
Qed.

Lemma group3_digits_head_app : forall ip rest,
  all_digits ip = true -> starts_with "-" (group3 ip ++ rest) = false.
Proof.
  intros ip rest H. destruct (all_digits_cons ip H) as (a & r & -> & Ha & _).
  destruct (group3_head a r) as (r' & ->). cbn. now apply is_digit_not.
Qed.

Lemma group3_digits_head : forall ip, all_digits ip = true -> starts_with "-" (group3 ip ++ []) = false.
Proof. intros ip. apply group3_digits_head_app. Qed.

Lemma strip_sign_grouped : forall neg ip rest,
  all_digits ip = true -> strip_sign (sign_text neg ++ group3 ip ++ rest) = group3 ip ++ rest.
Proof. intros neg ip rest H. now apply strip_sign_signed, group3_digits_head_app. Qed.

Lemma break_at_grouped : forall ip ofp,
  all_digits ip = true ->
  break_at "." (group3 ip ++ frac_text ofp) =
  (group3 ip, match ofp with Some fp => Some ("." :: fp) | None => None end).
Proof.
  intros ip ofp H.
  assert (Hc : contains "." (group3 ip) = false).
  { rewrite group3_contains by reflexivity. now apply digits_no. }
  destruct ofp as [fp|]; cbn [frac_text].
  - now apply break_at_app.
  - rewrite app_nil_r. now apply break_at_none.
Qed.

Lemma wf_standard_grouped : forall ip ofp,
  all_digits ip = true -> ok_frac ofp = true -> wf_standard_body (group3 ip ++ frac_text ofp) = true.
Proof.
  intros ip ofp Hi Hf. unfold wf_standard_body. rewrite break_at_grouped by assumption.
  rewrite group3_wellformed; [|now apply all_digits_nonempty|now apply all_digits_forallb].
  destruct ofp; cbn; auto.
Qed.

Lemma wf_numeral_of_standard : forall t, wf_standard_body (strip_sign t) = true -> wf_numeral t = true.
Proof. intros t H. unfold wf_numeral. rewrite H. now rewrite !orb_true_r. Qed.
Lemma wf_numeral_of_sci : forall t, wf_sci_body (strip_sign t) = true -> wf_numeral t = true.
Proof. intros t H. unfold wf_numeral. rewrite H. now rewrite !orb_true_r. Qed.

Lemma ungroup_app : forall a b, ungroup (a ++ b) = ungroup a ++ ungroup b.
Proof. intros. unfold ungroup. apply filter_app. Qed.

Lemma ungroup_id : forall l, contains "," l = false -> ungroup l = l.
Proof.
  induction l as [|a l IH]; intros H; [reflexivity|].
  cbn [contains] in H. apply orb_false_iff in H. destruct H as [Ha Hl].
  unfold ungroup in *. cbn [filter]. rewrite Ha. cbn [negb]. now rewrite IH.
Qed.

Lemma ungroup_separated : forall neg ip ofp,
  all_digits ip = true -> ok_frac ofp = true ->
  ungroup (sign_text neg ++ group3 ip ++ frac_text ofp) = mk_plain neg ip ofp.
Proof.
  intros neg ip ofp Hi Hf. rewrite !ungroup_app.
  rewrite ungroup_group3 by (apply digits_no; auto).
  rewrite (ungroup_id (sign_text neg)) by (destruct neg; reflexivity).
  rewrite (ungroup_id (frac_text ofp)); [reflexivity|].
  destruct ofp as [fp|]; [|reflexivity]. cbn [frac_text contains ok_frac] in *.
  change (Ascii.eqb "." ",") with false. cbn [orb]. now apply digits_no.
Qed.

Lemma contains_e_mk_plain : forall neg ip ofp,
  all_digits ip = true -> ok_frac ofp = true -> contains "e" (mk_plain neg ip ofp) = false.
Proof.
  intros neg ip ofp Hi Hf. unfold mk_plain. rewrite !contains_app.
  rewrite (digits_no "e" ip eq_refl Hi).
  destruct neg, ofp as [fp|]; cbn [sign_text frac_text contains ok_frac orb] in *;
    try change (Ascii.eqb "-" "e") with false; try change (Ascii.eqb "." "e") with false; cbn [orb];
    try reflexivity; now apply digits_no.
Qed.

Lemma contains_e_separated : forall neg ip ofp,
  all_digits ip = true -> ok_frac ofp = true ->
  contains "e" (sign_text neg ++ group3 ip ++ frac_text ofp) = false.
Proof.
  intros neg ip ofp Hi Hf. rewrite !contains_app, group3_contains, <- !contains_app by reflexivity.
  now apply contains_e_mk_plain.
Qed.

(* a grouped text is a well-formed standard numeral with the value of the ungrouped one *)
Lemma grouped_result_wf : forall neg ip ofp,
  all_digits ip = true -> ok_frac ofp = true ->
  wf_numeral (sign_text neg ++ group3 ip ++ frac_text ofp) = true.
Proof.
  intros. apply wf_numeral_of_standard. rewrite strip_sign_grouped by assumption.
  now apply wf_standard_grouped.
Qed.

Lemma grouped_result_value : forall neg ip ofp,
  all_digits ip = true -> ok_frac ofp = true ->
  denote (sign_text neg ++ group3 ip ++ frac_text ofp) = denote_plain (mk_plain neg ip ofp).
Proof.
  intros. unfold denote. rewrite contains_e_separated by assumption.
  unfold denote_std. now rewrite ungroup_separated.
Qed.

Theorem separators_preserve_value : forall s,
  plain_shape s = true ->
  wf_numeral (add_thousand_separators s) = true /\
  (denote (add_thousand_separators s) == denote_plain s)%Q.
Proof.
  intros s H. destruct (plain_shape_inv s H) as (neg & ip & ofp & -> & Hi & Hf).
  rewrite add_thousand_separators_mk_plain by assumption. split.
  - now apply grouped_result_wf.
  - now rewrite grouped_result_value.
Qed.
