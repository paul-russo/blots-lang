(* FreeVars.v — two facts about collect_free_variables (Env.free_vars): a collected name is
   not in the bound set, and the result only shrinks when the bound set grows. *)
From Coq Require Import String Ascii List ZArith Bool Lia.
Require Import Blots.Num Blots.gen.Builtins Blots.Ast Blots.Value Blots.Outcome Blots.Binop
               Blots.Env Blots.proofs.ExprInd.
Import ListNotations.
Open Scope string_scope.
Open Scope list_scope.

Lemma mem_In : forall x l, mem x l = true <-> In x l.
Proof.
  intros x l. unfold mem. rewrite existsb_exists. split.
  - intros [y [Hy He]]. apply String.eqb_eq in He. subst. exact Hy.
  - intros H. exists x. split; [exact H|apply String.eqb_refl].
Qed.
Lemma mem_false_notin : forall x l, mem x l = false <-> ~ In x l.
Proof. intros x l. rewrite <- mem_In. destruct (mem x l); split; intros; try congruence; tauto. Qed.

(* with the bound set b, exactly the names are collected that are collected with no bound set and
   are not in b *)
Definition fv_char (e : expr) : Prop :=
  forall b x, In x (free_vars e b) <-> In x (free_vars e []) /\ ~ In x b.

Lemma fv_leaf y b x : In x (if mem y b then [] else [y]) <-> In x [y] /\ ~ In x b.
Proof.
  destruct (mem y b) eqn:E; cbn.
  - split; [tauto|]. intros [[<-|[]] H]. apply H. apply mem_In. exact E.
  - split; [intros [<-|[]]; split; [now left|apply mem_false_notin; exact E]|tauto].
Qed.

Lemma fv_char_app (A B A0 B0 : list string) y (nb : Prop) :
  (In y A <-> In y A0 /\ nb) -> (In y B <-> In y B0 /\ nb) -> (In y (A ++ B) <-> In y (A0 ++ B0) /\ nb).
Proof. intros H1 H2. rewrite !in_app_iff, H1, H2. tauto. Qed.

Lemma fv_char_all : forall e, fv_char e.
Proof.
  induction e using expr_ind'; intros bnd y; cbn [free_vars]; try (cbn; tauto).
  - (* identifier: inf / infinity / constants are never collected *)
    cbn [mem existsb]. rewrite <- !orb_assoc, orb_false_l.
    destruct (String.eqb x "infinity" || (String.eqb x "inf" || String.eqb x "constants")).
    + rewrite orb_true_r. cbn. tauto.
    + rewrite orb_false_r. apply fv_leaf.
  - (* `#field` reads `inputs` *) apply fv_leaf.
  - induction H as [|[ld a tr] l Ha _ IHl]; [cbn; tauto|]. apply fv_char_app; [apply Ha|apply IHl].
  - induction H as [|[ld [k v] tr] l [Hk Hv] _ IHl]; [cbn; tauto|]. apply fv_char_app; [|apply IHl].
    destruct k as [key|ke|z|se]; cbn [Pkey] in Hk.
    + apply Hv.
    + apply fv_char_app; [apply Hk|apply Hv].
    + apply fv_leaf.
    + apply Hk.
  - (* lambda: the parameters join the bound set *)
    rewrite (IHe (map arg_name args ++ bnd) y), (IHe (map arg_name args ++ []) y), !in_app_iff. cbn. tauto.
  - apply fv_char_app; [apply IHe1|apply fv_char_app; [apply IHe2|apply IHe3]].
  - (* do-block: an assigned name joins the bound set for what follows *)
    destruct ret as [ld rt tr]. cbn [cnode] in IHe.
    revert bnd. induction H as [|[l1 s t1] l Hs _ IHl]; intros bnd; [apply IHe|].
    cbn [cnode] in Hs.
    destruct s; try (apply fv_char_app; [apply Hs|apply IHl]).
    apply fv_char_app; [apply Hs|]. rewrite (IHl (x :: bnd)), (IHl [x]). cbn. tauto.
  - apply IHe.
  - apply fv_char_app; [apply IHe|].
    induction H as [|a l Ha _ IHl]; [cbn; tauto|]. apply fv_char_app; [apply Ha|apply IHl].
  - apply fv_char_app; [apply IHe1|apply IHe2].
  - apply IHe.
  - apply fv_char_app; [apply IHe1|apply IHe2].
  - apply IHe.
  - apply IHe.
  - apply IHe.
Qed.

(* a collected name stays collected, or becomes bound, when the bound set changes *)
Lemma fv_weaken : forall e b1 b2 x, In x (free_vars e b1) -> In x (free_vars e b2) \/ In x b2.
Proof.
  intros e b1 b2 x H. apply fv_char_all in H as [H _].
  destruct (in_dec string_dec x b2) as [Hb|Hb]; [right; exact Hb|left; apply fv_char_all; split; assumption].
Qed.
Lemma fv_not_bound : forall e b x, In x (free_vars e b) -> ~ In x b.
Proof. intros e b x H. apply fv_char_all in H. apply H. Qed.

(* every collected name passes P when every identifier / shorthand key of the expression does *)
Section FvAll.
  Variable P : string -> Prop.
  Fixpoint ids_ok (e : expr) {struct e} : Prop :=
    match e with
    | EId x => P x
    | EInRef _ => P "inputs"
    | ELam _ body => ids_ok body
    | EList items =>
        (fix go (l : list (commented expr)) : Prop :=
           match l with [] => True | Cm _ a _ :: r => ids_ok a /\ go r end) items
    | ERec entries =>
        (fix go (l : list (commented rentry)) : Prop :=
           match l with
           | [] => True
           | Cm _ (REntry k v) _ :: r =>
               (match k with
                | KDyn a => ids_ok a /\ ids_ok v
                | KSpread a => ids_ok a
                | KStatic _ => ids_ok v
                | KShort x => P x
                end) /\ go r
           end) entries
    | ECond c t f => ids_ok c /\ ids_ok t /\ ids_ok f
    | EDo stmts (Cm _ ret _) =>
        (fix go (l : list (commented expr)) : Prop :=
           match l with [] => True | Cm _ a _ :: r => ids_ok a /\ go r end) stmts /\ ids_ok ret
    | EAssign _ v => ids_ok v
    | EOutput a | EUn _ a | EFact a | ESpread a | EDot a _ => ids_ok a
    | ECall f args =>
        ids_ok f /\ (fix go (l : list expr) : Prop :=
                       match l with [] => True | a :: r => ids_ok a /\ go r end) args
    | EAccess a i => ids_ok a /\ ids_ok i
    | EBin _ l r => ids_ok l /\ ids_ok r
    | _ => True
    end.

  Lemma fv_ids_ok : forall e bnd x, ids_ok e -> In x (free_vars e bnd) -> P x.
  Proof.
    induction e using expr_ind'; intros bnd y Hok Hin; cbn [free_vars ids_ok] in *; try contradiction.
    - destruct (_ || _) in Hin; [contradiction|]. destruct Hin as [<-|[]]. exact Hok.
    - destruct (mem "inputs" bnd) in Hin; [contradiction|]. destruct Hin as [<-|[]]. exact Hok.
    - match goal with HF : Forall _ items |- _ => induction HF as [|[ld a tr] l Ha _ IHl] end; [contradiction|].
      cbn [cnode] in Ha. destruct Hok as [H1 H2]. apply in_app_or in Hin. destruct Hin as [Hin|Hin]; eauto.
    - match goal with HF : Forall _ entries |- _ => induction HF as [|[ld [k v] tr] l Ha _ IHl] end; [contradiction|].
      cbn [cnode Pentry] in Ha. destruct Ha as [Hk Hv]. destruct Hok as [H1 H2].
      apply in_app_or in Hin. destruct Hin as [Hin|Hin]; [|eauto].
      destruct k as [key|ke|z|se]; cbn [Pkey] in Hk.
      + eauto.
      + destruct H1 as [H1a H1b]. apply in_app_or in Hin. destruct Hin as [Hin|Hin]; eauto.
      + destruct (mem z bnd); [contradiction|]. destruct Hin as [<-|[]]. exact H1.
      + eauto.
    - eauto.
    - destruct Hok as (H1 & H2 & H3). apply in_app_or in Hin. destruct Hin as [Hin|Hin]; [eauto|].
      apply in_app_or in Hin. destruct Hin as [Hin|Hin]; eauto.
    - match goal with HF : Forall _ stmts, HR : forall _ _, _ |- _ => rename HF into HFs; rename HR into HRet end.
      destruct ret as [ld rt tr]. cbn [cnode] in HRet. destruct Hok as [Hs Hr].
      revert bnd Hin. induction HFs as [|[l1 s t1] l Hs1 _ IHl]; intros bnd Hin; [eauto|].
      cbn [cnode] in Hs1. destruct Hs as [Ha Hb].
      destruct s; apply in_app_or in Hin; (destruct Hin as [Hin|Hin]; [eauto|eapply IHl; eauto]).
    - eauto.
    - destruct Hok as [H1 H2]. apply in_app_or in Hin. destruct Hin as [Hin|Hin]; [eauto|].
      match goal with HF : Forall _ args |- _ => induction HF as [|a l Ha _ IHl] end; [contradiction|].
      destruct H2 as [H2a H2b]. apply in_app_or in Hin. destruct Hin as [Hin|Hin]; eauto.
    - destruct Hok as [H1 H2]. apply in_app_or in Hin. destruct Hin as [Hin|Hin]; eauto.
    - eauto.
    - destruct Hok as [H1 H2]. apply in_app_or in Hin. destruct Hin as [Hin|Hin]; eauto.
    - eauto.
    - eauto.
    - eauto.
  Qed.
End FvAll.
