(* proofs/PegViewCompose.v — the parser-half and end-to-end theorems of C09 with BOTH tree hypotheses discharged:
   forest_shape_ok (PegShapeItems) and forest_view_ok (PegViewItems.parse_program_c_view_ok) hold of every Peg.parse
   result.  Remaining hypotheses: the exclusion forest_no_empty_container (finding C09-empty-container) and the
   formatter-half hypotheses stmt_ok_parsed. *)
From Coq Require Import String Ascii List NArith ZArith Bool Arith Lia.
Require Import Blots.Num Blots.gen.Builtins Blots.Ast Blots.Outcome Blots.Formatter
               Blots.proofs.Scan Blots.proofs.ScanFmt Blots.proofs.DriverText.
Require Import Blots.Peg Blots.gen.Grammar Blots.PegToItems Blots.PegComments Blots.proofs.PegComments
               Blots.proofs.PegCommentsCompose Blots.proofs.PegCommentsWf Blots.proofs.PegShape
               Blots.proofs.PegShapeItems Blots.proofs.PegShapeCompose Blots.proofs.PegViewItems.
Import ListNotations.

Theorem parse_keeps_comments_text_total : forall text forest p,
  parse_program_c text = PCOk forest p ->
  forest_no_empty_container text forest = true ->
  program_comments p = forest_comments text forest.
Proof.
  intros text forest p H Hn.
  exact (parse_keeps_comments_text text forest p H (parse_program_c_view_ok text forest p H) Hn).
Qed.

Theorem parsed_program_comment_texts_total : forall text forest p,
  parse_program_c text = PCOk forest p ->
  forest_no_empty_container text forest = true ->
  Forall comment_text_ok (program_comments p).
Proof.
  intros text forest p H Hn.
  exact (parsed_program_comment_texts_text text forest p H (parse_program_c_view_ok text forest p H) Hn).
Qed.

Theorem text_to_text_lib_total :
  forall O key_ok, (forall k, key_ok k = true -> neutral (o_record_key O k)) ->
  forall text forest p mw d,
  parse_program_c text = PCOk forest p ->
  forest_no_empty_container text forest = true ->
  Forall (stmt_ok_parsed O key_ok mw) p -> format_lib O mw p = Some d ->
  scan_comments (render d) = forest_comments text forest.
Proof.
  intros O key_ok Hk text forest p mw d H Hn Hok Hd.
  exact (text_to_text_lib O key_ok Hk text forest p mw d H (parse_program_c_view_ok text forest p H) Hn Hok Hd).
Qed.

Theorem text_to_text_cli_total :
  forall O key_ok, (forall k, key_ok k = true -> neutral (o_record_key O k)) ->
  forall text forest p,
  parse_program_c text = PCOk forest p ->
  forest_no_empty_container text forest = true ->
  Forall (stmt_ok_parsed O key_ok None) p ->
  scan_comments (render (format_cli O p)) = forest_comments text forest.
Proof.
  intros O key_ok Hk text forest p H Hn Hok.
  exact (text_to_text_cli O key_ok Hk text forest p H (parse_program_c_view_ok text forest p H) Hn Hok).
Qed.

(* the hypotheses of the _total theorems are satisfiable on a text with comments at every position class the item view
   reads (statement, list leading / end-of-line / after the last item, record, do-block comment and do_statement) *)
Local Open Scope string_scope.
Definition view_witness : string :=
  "// top" +++ nl +++ "x = [ // lead" +++ nl +++ "  1, // eol" +++ nl +++ "  ...y // e2" +++ nl +++ "] // stmt" +++ nl +++
  "r = {a: 1, // ra" +++ nl +++ "  b}" +++ nl +++ "f = do {" +++ nl +++ "  // dc" +++ nl +++ "  z = 1 // ds" +++ nl +++
  "  return z" +++ nl +++ "}" +++ nl +++ "g = k(1, 2)[0]".
Lemma total_hypotheses_satisfiable :
  exists forest p,
    parse_program_c view_witness = PCOk forest p
    /\ forest_no_empty_container view_witness forest = true
    /\ forest_comments view_witness forest =
       ["// top"; "// lead"; "// eol"; "// e2"; "// stmt"; "// ra"; "// dc"; "// ds"]
    /\ program_comments p = forest_comments view_witness forest.
Proof. apply parse_program_c_witness. vm_compute. repeat split; reflexivity. Qed.
