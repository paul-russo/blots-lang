(* AllNoPanic.v — C01 for the complete built-in set: after the arity check no arm of
   EvalAll.builtin_all panics, for EVERY oracle, under two named side conditions that concern
   things outside the transcription (the third, time_now's clock, is gone: repo fix bf56486 made the arm
   total and the model followed):
     percentile   AggPanics.args_ok: p is a genuine double and the list has at most 2^53 elements
                  (spec_float has non-canonical inhabitants no f64 corresponds to);
     format       the display of the numbers among the arguments does not overflow its i32 / i64
                  arithmetic (DisplayNum.v; holds for every genuine double when floor(log10 a) is
                  within +-2000: display_safe_of_valid, from C20's display_no_panic);
   Everything else is unconditional: every args[i], `&args[1..]`, the dyn-fmt state machine incl. its
   `unreachable_unchecked()` arm.  Also: `^` through the oracle's powf never panics. *)
From Coq Require Import String Ascii List ZArith Bool Lia Floats.SpecFloat.
Require Import Blots.Num Blots.gen.Builtins Blots.Ast Blots.Value Blots.Outcome Blots.Binop
               Blots.Env Blots.Eval Blots.BuiltinsHof Blots.Program Blots.EvalInst Blots.EvalFull
               Blots.EvalAll Blots.BuiltinsList Blots.BuiltinsAgg Blots.BuiltinsText Blots.DisplayNum
               Blots.proofs.Avoid Blots.proofs.NoPanic Blots.proofs.NoPanicList
               Blots.proofs.Aggregates Blots.proofs.AggPanics Blots.proofs.DisplayNum.
Import ListNotations.
Open Scope list_scope.
Open Scope nat_scope.

(* the arm IS live code of the model: without the `if fmt.is_empty() { break }` guard the state
   machine would run off the end *)
Example dyn_unreachable_arm_is_modelled : dyn_go DArg EmptyString [] = Panic.
Proof. reflexivity. Qed.

Lemma slice_from_ok : forall {A} (l : list A) n, n <= length l -> slice_from l n = Ok (skipn n l).
Proof. intros A l n H. unfold slice_from. apply Nat.leb_le in H. rewrite H. reflexivity. Qed.
Lemma slice_from_np : forall {A} (l : list A) n, n <= length l -> slice_from l n <> Panic.
Proof. intros A l n H. rewrite slice_from_ok by exact H. discriminate. Qed.

Definition format_display_safe (o : oracle) (args : list value) : Prop :=
  mapM (stringify_display_all o) (skipn 1 args) <> Panic.

Ltac arity_facts Ha :=
  cbn [builtin_arity] in Ha; unfold can_accept, arity_can_accept in Ha;
  repeat match type of Ha with
         | (_ && _)%bool = true => let H1 := fresh "Hb" in apply andb_true_iff in Ha; destruct Ha as [Ha H1];
                                   try apply Nat.leb_le in H1
         end;
  try apply Nat.eqb_eq in Ha; try apply Nat.leb_le in Ha.

(* ---------------- the arms, for either failure (Avoid.v) ---------------- *)
Section Avoided.
  Variable k : failure.

  (* dyn-fmt: the unreachable_unchecked() arm is unreachable *)
  Lemma dyn_go_nf : forall fmt s args,
    (s = DArg -> fmt <> EmptyString) -> dyn_go s fmt args <> fail k.
  Proof.
    induction fmt as [|b rest IH]; intros s args Hs.
    - destruct s; cbn [dyn_go]; try apply ok_nf. exfalso. apply Hs; reflexivity.
    - assert (HP : forall a, dyn_go DPiece rest a <> fail k) by (intros a; apply IH; discriminate).
      assert (Hlit : forall a, (do t <- dyn_go DPiece rest a; Ok (String b t)) <> fail k).
      { intros a. apply obind_nf; [apply HP|]. intros; apply ok_nf. }
      destruct s; cbn [dyn_go].
      + destruct (is_lbrace b).
        * destruct rest; [first [apply ok_nf|apply err_nf]|]. apply IH. discriminate.
        * destruct (is_rbrace b); [|apply Hlit].
          destruct rest; [first [apply ok_nf|apply err_nf]|]. apply IH. discriminate.
      + destruct (is_rbrace b); [|apply Hlit].
        destruct args as [|a args']; [apply HP|].
        apply obind_nf; [apply HP|]. intros; apply ok_nf.
      + apply Hlit.
  Qed.
  Lemma dyn_format_nf : forall fmt args, dyn_format fmt args <> fail k.
  Proof. intros. unfold dyn_format. apply dyn_go_nf. discriminate. Qed.

  Section Arms.
    Variable o : oracle.

    Lemma to_string_all_nf : forall args, 1 <= length args -> bi_to_string_all o args <> fail k.
    Proof. intros args H. unfold bi_to_string_all. nf_auto. Qed.
    Lemma join_all_nf : forall args, 2 <= length args -> bi_join_all o args <> fail k.
    Proof. intros args H. unfold bi_join_all. nf_auto. Qed.
    Lemma format_nf : forall args, 1 <= length args ->
      mapM (stringify_display_all o) (skipn 1 args) <> fail k -> bi_format o args <> fail k.
    Proof.
      intros args H Hd. unfold bi_format.
      apply obind_nf; [apply arg_nf; lia|]. intros a0 _.
      apply obind_nf; [apply as_string_nf|]. intros f _.
      rewrite slice_from_ok by lia. cbn [obind].
      apply obind_nf; [exact Hd|]. intros fa _.
      apply obind_nf; [apply dyn_format_nf|]. intros; apply ok_nf.
    Qed.
    Lemma print_line_nf : forall args, 1 <= length args -> print_line o args <> fail k.
    Proof.
      intros args H. unfold print_line.
      assert (Hgen : (do a0 <- arg args 0; do format_str <- as_string a0; do rest <- slice_from args 1;
                      dyn_format format_str (map (stringify_internal_all o) rest)) <> fail k).
      { apply obind_nf; [apply arg_nf; lia|]. intros a0 _.
        apply obind_nf; [apply as_string_nf|]. intros f _.
        rewrite slice_from_ok by lia. cbn [obind]. apply dyn_format_nf. }
      destruct args as [|x [|y r]]; try exact Hgen.
      apply obind_nf; [apply arg_nf; cbn; lia|]. intros; apply ok_nf.
    Qed.
    Lemma print_nf : forall args, 1 <= length args -> bi_print o args <> fail k.
    Proof.
      intros args H. unfold bi_print. apply obind_nf; [apply print_line_nf; exact H|]. intros; apply ok_nf.
    Qed.
  End Arms.

  (* the arms of builtin_full that NoPanicList.v does not have *)
  Lemma convert_nf : forall args, 3 <= length args -> bi_convert args <> fail k.
  Proof. intros args H. unfold bi_convert, convert_result. nf_auto. Qed.
  Lemma round_nf : forall args, 1 <= length args -> length args <= 2 -> bi_round args <> fail k.
  Proof.
    intros args H H2. unfold bi_round. do 2 nf_step.
    destruct args as [|p0 [|q0 [|r0 s0]]]; cbn [length] in *; try lia; nf_auto.
  Qed.
  Lemma random_nf : forall args, 1 <= length args -> bi_random args <> fail k.
  Proof. intros args H. unfold bi_random. nf_auto. Qed.
  Lemma to_number_nf : forall args, 1 <= length args -> bi_to_number args <> fail k.
  Proof. intros args H. unfold bi_to_number, parse_result. nf_auto. Qed.
  Lemma range_nf : forall args, bi_range args <> fail k.
  Proof.
    assert (B : forall s e, range_body s e <> fail k).
    { intros. unfold range_body. destruct (ngtb s e); [apply err_nf|].
      destruct (_ || _); [apply err_nf|]. destruct (_ <? _)%Z; [apply err_nf|apply ok_nf]. }
    intros args. destruct args as [|a1 [|a2 [|a3 r]]]; cbn [bi_range]; try apply err_nf;
      destruct a1; try apply err_nf; try apply B; destruct a2; try apply err_nf; apply B.
  Qed.
  (* the aggregates other than percentile return a value or an error (AggPanics.bi_agg_total);
     percentile is the only one that needs args_ok and, through the bound on the rounded index, the reals *)
  Lemma agg_nf : forall a args, a <> APercentile ->
    can_accept (builtin_arity (agg_builtin a)) (length args) = true -> bi_agg a args <> fail k.
  Proof.
    intros a args Hne Ha.
    destruct (bi_agg_total a args Hne Ha) as [(v & ->)| ->]; [apply ok_nf|apply err_nf].
  Qed.

End Avoided.

(* the arms of EvalFull.builtin_full that answer neither failure on their own: all of its own ones but
   to_string / join (Unmodelled for a value that contains a function) *)
Ltac full_arm k Hcb Ha Hp :=
  unfold pure_bi; cbn [fst];
  first [ exact (agg_nf k AMin _ ltac:(discriminate) Ha) | exact (agg_nf k AMax _ ltac:(discriminate) Ha)
        | exact (agg_nf k AAvg _ ltac:(discriminate) Ha) | exact (agg_nf k ASum _ ltac:(discriminate) Ha)
        | exact (agg_nf k AProd _ ltac:(discriminate) Ha) | exact (agg_nf k AMedian _ ltac:(discriminate) Ha)
        | exact (agg_nf k ADot _ ltac:(discriminate) Ha) | exact (Hp eq_refl) | apply (range_nf k)
        | arity_facts Ha;
          first [apply (bi_sort_by_nf k)|apply (bi_group_by_nf k)|apply (bi_count_by_nf k)]; [exact Hcb|lia]
        | solve [refine (list_builtins_nf k _ _ _ _ Ha); unfold list_builtin_arms; cbn [In];
                 repeat (first [left; reflexivity | right])]
        | arity_facts Ha;
          first [apply (round_nf k)|apply (random_nf k)|apply (to_number_nf k)|apply (convert_nf k)]; lia ].

(* ---------------- EvalAll.builtin_all: every built-in of the table ---------------- *)
(* percentile's own arm and the display of format's numbers are the hypotheses *)
Theorem builtin_all_nf : forall k o cb b args st,
  cb_nf k cb -> can_accept (builtin_arity b) (length args) = true ->
  (b = B_percentile -> bi_percentile args <> fail k) ->
  (b = B_format -> mapM (stringify_display_all o) (skipn 1 args) <> fail k) ->
  fst (builtin_all o cb b args st) <> fail k.
Proof.
  intros k o cb b args st Hcb Ha Hp Hf.
  destruct b; cbn [builtin_all builtin_full];
    try (apply builtin_impl_nf; [exact Hcb|exact Ha|reflexivity]);
    try (full_arm k Hcb Ha Hp; fail);
    unfold pure_bi; cbn [fst];
    try (apply trim_nf; exact Ha); try (apply uppercase_nf; exact Ha); try (apply lowercase_nf; exact Ha);
    arity_facts Ha;
    try (apply num1_nf; lia).
  - apply join_all_nf; lia.
  - apply to_string_all_nf; lia.
  - apply format_nf; [lia|exact (Hf eq_refl)].
  - apply print_nf; lia.
  - apply ok_nf.
Qed.

(* `^` through the oracle's powf *)
Theorem binop_all_nf : forall k o cb op l r st, cb_nf k cb -> fst (binop_all o cb op l r st) <> fail k.
Proof.
  intros k o cb op l r st Hcb. unfold binop_all.
  destruct op; try (apply binop_impl_nf; [exact Hcb|discriminate]).
  apply (eval_binop_nf k store cb Hcb).
Qed.

(* ---------------- EvalFull.builtin_full: every transcribed built-in ---------------- *)
Lemma stringify_internal_np : forall v, stringify_internal v <> Panic.
Proof. intros v. unfold stringify_internal. destruct (has_function v); discriminate. Qed.
Lemma to_string_full_np : forall args, 1 <= length args -> bi_to_string args <> Panic.
Proof.
  intros args H. unfold bi_to_string. apply (obind_nf FPanic); [apply barg_nf; lia|]. intros a0 _.
  destruct a0; try discriminate; (apply (obind_nf FPanic); [apply stringify_internal_np|]; discriminate).
Qed.
Lemma join_full_np : forall args, 2 <= length args -> bi_join_full args <> Panic.
Proof.
  intros args H. unfold bi_join_full.
  apply (obind_nf FPanic); [apply barg_nf; lia|]. intros a1 _. apply (obind_nf FPanic); [apply bas_string_nf|]. intros d _.
  apply (obind_nf FPanic); [apply barg_nf; lia|]. intros a0 _. apply (obind_nf FPanic); [apply bas_list_nf|]. intros l _.
  apply (obind_nf FPanic); [apply (mapM_nf FPanic); intros; apply stringify_internal_np|]. discriminate.
Qed.

(* axiom-free core: percentile's own arm is the hypothesis (AggPanics discharges it from args_ok through
   a bound on the rounded index proved over the reals, i.e. with the standard library's real-number axioms) *)
Theorem builtin_full_no_panic_gen : forall cb b args st,
  cb_safe cb -> can_accept (builtin_arity b) (length args) = true ->
  (b = B_percentile -> bi_percentile args <> Panic) ->
  fst (builtin_full cb b args st) <> Panic.
Proof.
  intros cb b args st Hcb Ha Hp.
  destruct b; cbn [builtin_full];
    try (apply builtin_impl_no_panic; assumption);
    try (full_arm FPanic Hcb Ha Hp; fail);
    arity_facts Ha; [apply join_full_np|apply to_string_full_np]; lia.
Qed.
Lemma percentile_np : forall args, can_accept (builtin_arity B_percentile) (length args) = true ->
  args_ok args -> bi_percentile args <> Panic.
Proof.
  intros args Ha Hok. pose proof (no_panic APercentile args Hok) as H. unfold checked_call in H.
  replace (arity_ok _ _) with true in H by (symmetry; exact Ha). exact H.
Qed.

Theorem builtin_full_no_panic : forall cb b args st,
  cb_safe cb -> can_accept (builtin_arity b) (length args) = true ->
  (b = B_percentile -> args_ok args) ->
  fst (builtin_full cb b args st) <> Panic.
Proof.
  intros cb b args st Hcb Ha Hp. apply builtin_full_no_panic_gen; [exact Hcb|exact Ha|].
  intros ->. exact (percentile_np args Ha (Hp eq_refl)).
Qed.

(* ---------------- EvalAll.builtin_all at Panic ---------------- *)
Theorem builtin_all_no_panic_gen : forall o cb b args st,
  cb_safe cb -> can_accept (builtin_arity b) (length args) = true ->
  (b = B_percentile -> bi_percentile args <> Panic) ->
  (b = B_format -> format_display_safe o args) ->
  fst (builtin_all o cb b args st) <> Panic.
Proof. exact (builtin_all_nf FPanic). Qed.

Theorem builtin_all_no_panic : forall o cb b args st,
  cb_safe cb -> can_accept (builtin_arity b) (length args) = true ->
  (b = B_percentile -> args_ok args) ->
  (b = B_format -> format_display_safe o args) ->
  fst (builtin_all o cb b args st) <> Panic.
Proof.
  intros o cb b args st Hcb Ha Hp Hf. apply builtin_all_no_panic_gen; try assumption.
  intros ->. exact (percentile_np args Ha (Hp eq_refl)).
Qed.

(* time_now is total for every clock reading (repo fix bf56486; the model's former None arm is gone) *)
Example time_now_total : forall o cb st,
  fst (builtin_all o cb B_time_now [] st) = Ok (VNum (o_now o)).
Proof. reflexivity. Qed.

Theorem binop_all_no_panic : forall o cb op l r st,
  cb_safe cb -> fst (binop_all o cb op l r st) <> Panic.
Proof. exact (binop_all_nf FPanic). Qed.

(* ---------------- the format side condition holds for genuine doubles ---------------- *)
Definition nums_valid (o : oracle) (v : value) : Prop :=
  Forall (fun x => valid_binary prec emax x = true) (nums_in v).
Definition log10_in_range (o : oracle) : Prop :=
  forall a, (Z.abs (as_i32 (nfloor (o_log10 o a))) <= 2000)%Z.

(* format displays the numbers among its arguments and nothing else of them *)
Lemma format_safe_of_display : forall o args,
  (forall v x, In v (skipn 1 args) -> In x (nums_in v) -> display_text o x <> Panic) ->
  format_display_safe o args.
Proof.
  intros o args Hd. unfold format_display_safe. apply (mapM_nf FPanic). intros v Hin.
  unfold stringify_display_all. destruct (display_panics o v) eqn:E; [exfalso|discriminate].
  unfold display_panics in E. apply existsb_exists in E. destruct E as [x [Hx Hpx]].
  specialize (Hd v x Hin Hx). destruct (display_text o x); try discriminate Hpx. apply Hd. reflexivity.
Qed.

Lemma display_safe_of_valid : forall o args,
  log10_in_range o -> Forall (nums_valid o) (skipn 1 args) -> format_display_safe o args.
Proof.
  intros o args Hlog Hv. apply format_safe_of_display. intros v x Hin Hx.
  rewrite Forall_forall in Hv. specialize (Hv v Hin). unfold nums_valid in Hv. rewrite Forall_forall in Hv.
  destruct (display_no_panic (o_log10 o) (o_powi o) (o_fmt_prec o) (o_fmt_exp14 o) (o_parse_f64 o) true
              Hlog x (Hv x Hx)) as [t Ht].
  unfold display_text. rewrite Ht. discriminate.
Qed.

Theorem builtin_all_no_panic_genuine : forall o cb b args st,
  cb_safe cb -> can_accept (builtin_arity b) (length args) = true ->
  log10_in_range o ->
  args_ok args -> Forall (nums_valid o) (skipn 1 args) ->
  fst (builtin_all o cb b args st) <> Panic.
Proof.
  intros o cb b args st Hcb Ha Hl Hok Hv.
  apply builtin_all_no_panic; auto. intros _. apply display_safe_of_valid; assumption.
Qed.
