(* EmitNqHO.v — C05: the class [emit_ok] and the relation [vrel] of EmitHO.v where the inlined data may hold NaN
   (when its literal is `(0/0)`: nanfix) and strings / record keys with both quote kinds (see
   notes/ext-c05nan.md).  The definitions are written out in full; [vrel_G] identifies them with the
   instance ([num_nq nanfix], [str_any]) of EmitHO.emit_okG / EmitHO.vrelG, which is where everything
   about them is proved. *)
From Coq Require Import String Ascii List ZArith Bool Lia.
Require Import Blots.Num Blots.gen.Builtins Blots.Ast Blots.Value Blots.Outcome Blots.Binop
               Blots.Env Blots.Eval Blots.Emit Blots.proofs.ValueInd Blots.proofs.ExprInd
               Blots.proofs.EmitLit Blots.proofs.EmitSubst Blots.proofs.EmitClosed
               Blots.proofs.FreeVars Blots.proofs.EmitSound Blots.proofs.EmitHO.
Import ListNotations.
Open Scope string_scope.
Open Scope list_scope.

(* [idok], [scope_names_ok], [orel_gen] and [hob] below are those of EmitHO.v, written out again under this
   module's name (EmitHO.hob and hob are convertible: [vrel_G] relies on it) *)
(* identifiers a portable body may mention: not spelled like a built-in (the parser never produces
   such an identifier; `capture` skips them) and not `inputs` (FunctionDef::call rebinds it at
   every call site: finding F9 of C04) *)
Definition idok (x : string) : bool := negb (is_builtin_name x) && negb (String.eqb x "inputs").

Definition scope_names_ok (ps : list string) (names : list string) : bool :=
  forallb (fun x => negb (special_name x) && negb (String.eqb x "inputs") && negb (mem x ps)) names.

(* outcomes related: Ok with related values, otherwise the same error class *)
Definition orel_gen {A B} (R : A -> B -> Prop) (r : outcome A) (r' : outcome B) : Prop :=
  match r, r' with
  | Ok v, Ok v' => R v v'
  | Err, Err | ErrDepth, ErrDepth | Panic, Panic | Unmodelled, Unmodelled => True
  | _, _ => False
  end.

Section Rel.
  Variable opok : binop -> bool.
  Variable biok : builtin -> bool.
  Variable nanfix : bool.
  Notation lit := (value_to_ast nanfix true).

  (* bodies covered: like Emit.first_order_body but lambdas allowed (any nesting); every operator
     and built-in mentioned is one the instantiation covers; identifiers are [idok];
     no `#input`, no assignment outside do-block statement position (finding F32 of C04), no `output` *)
  Fixpoint hob (e : expr) {struct e} : bool :=
    match e with
    | EId x => idok x
    | EBuiltin b => biok b
    | EInRef _ | EAssign _ _ | EOutput _ => false
    | EList items =>
        (fix go (l : list (commented expr)) : bool :=
           match l with [] => true | Cm _ a _ :: r => hob a && go r end) items
    | ERec entries =>
        (fix go (l : list (commented rentry)) : bool :=
           match l with
           | [] => true
           | Cm _ (REntry k v) _ :: r =>
               (match k with
                | KDyn a => hob a && hob v
                | KSpread a => hob a
                | KStatic _ => hob v
                | KShort x => idok x
                end) && go r
           end) entries
    | ELam _ b => hob b
    | ECond c t f => hob c && hob t && hob f
    | EDo stmts (Cm _ ret _) =>
        (fix go (l : list (commented expr)) : bool :=
           match l with
           | [] => true
           | Cm _ a _ :: r => (match a with EAssign _ v => hob v | _ => hob a end) && go r
           end) stmts && hob ret
    | EUn _ a | EFact a | ESpread a | EDot a _ => hob a
    | ECall f args =>
        hob f && (fix go (l : list expr) : bool :=
                    match l with [] => true | a :: r => hob a && go r end) args
    | EAccess a i => hob a && hob i
    | EBin op l r => opok op && hob l && hob r
    | _ => true
    end.

  (* values whose literal text denotes a related value: data (NaN only when its literal is `(0/0)`;
     strings and keys with both quote kinds included), records with unique keys, covered built-ins, and
     closures with a covered body that is closed after capture, whose captured names are not
     parameters / inputs / inf infinity constants and whose captured values are emittable too *)
  Fixpoint emit_ok (v : value) : bool :=
    match v with
    | VNum x => nanfix || negb (is_nan x)   (* NaN: only with the literal (0/0) *)
    | VBool _ | VNull => true
    | VStr s => true                          (* both quote kinds included: the literal is a + chain *)
    | VList l => forallb emit_ok l
    | VRec r => nodup_keys r && forallb (fun kv => emit_ok (snd kv)) r
    | VLam _ ps b sc =>
        hob b && is_nil (free_vars b (map arg_name ps ++ map fst sc)) &&
        scope_names_ok (map arg_name ps) (map fst sc) && forallb (fun kv => emit_ok (snd kv)) sc
    | VBuiltin b => biok b
    | VSpread _ => false
    end.

  (* an inlining scope: every entry is the literal of an emittable value *)
  Definition mlit (m : smap) : Prop :=
    forall x a, rec_get m x = Some a -> exists v, a = lit v /\ emit_ok v = true.

  Inductive vrel : value -> value -> Prop :=
  | R_num x : vrel (VNum x) (VNum x)
  | R_bool b : vrel (VBool b) (VBool b)
  | R_null : vrel VNull VNull
  | R_str s : vrel (VStr s) (VStr s)
  | R_list l l' : Forall2 vrel l l' -> vrel (VList l) (VList l')
  | R_rec r r' :
      Forall2 (fun kv kv' => fst kv = fst kv' /\ vrel (snd kv) (snd kv')) r r' ->
      vrel (VRec r) (VRec r')
  | R_builtin b : biok b = true -> vrel (VBuiltin b) (VBuiltin b)
  | R_spread v v' : vrel v v' -> vrel (VSpread v) (VSpread v')
  | R_lam id id' ps b sc sc' m :
      hob b = true ->
      free_vars b (map arg_name ps ++ map fst sc) = [] ->
      (forall x, special_name x = true -> rec_get m x = None) ->
      (forall x, In x (map arg_name ps) -> rec_get m x = None) ->
      rec_get sc "inputs" = None ->
      (forall x v a, rec_get sc x = Some v -> rec_get m x = Some a -> a = lit v /\ emit_ok v = true) ->
      mlit m ->
      (forall x v, rec_get sc x = Some v -> rec_get m x = None -> ~ In x (map arg_name ps) ->
                   exists v', rec_get sc' x = Some v' /\ vrel v v') ->
      vrel (VLam id ps b sc) (VLam id' ps (subst true m b) sc').

  Definition lrel (l l' : list value) : Prop := Forall2 vrel l l'.
  Definition orel : outcome value -> outcome value -> Prop := orel_gen vrel.
End Rel.

(* ---------------------------------------------------------------- [emit_ok], [vrel] are an instance *)
Definition num_nq (nanfix : bool) (x : num) : bool := nanfix || negb (is_nan x).
Definition str_any (s : string) : bool := true.

Section Nq.
  Variable opok : binop -> bool.
  Variable biok : builtin -> bool.
  Variable nanfix : bool.

  Lemma emit_ok_G : emit_ok opok biok nanfix = emit_okG opok biok (num_nq nanfix) str_any.
  Proof. reflexivity. Qed.

  Lemma vrel_G : forall v v', vrel opok biok nanfix v v' <-> vrelG opok biok nanfix (num_nq nanfix) str_any v v'.
  Proof. vrel_is_vrelG. Qed.
End Nq.
