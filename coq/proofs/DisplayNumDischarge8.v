(* DisplayNumDischarge8.v — C20 / C16: two models of str::parse::<f64> agree.
   The display model parses decimals with DisplayNum.rn_ratio (quotient shifted to >= 64 bits, then
   SpecFloat's binary_round_aux); C16's reference is NumText.rn_decimal (SFdiv_core_binary /
   binary_round, with guards).  Both are IEEE round-to-nearest-even of the same rational, both are
   valid finite doubles with the sign of the text, hence the SAME double — for every decimal
   N / 10^k whose rounding does not overflow (every text the display path parses: values below 10).
   So the C16 NUMTEXT stream (Rust's from_str against rn_decimal) also supports the C20 model, and the
   C20 ORACLE-parse stream supports C16's reference. *)
From Coq Require Import ZArith Reals Bool Lia Lra Floats.SpecFloat.
From Flocq Require Import Core.Core IEEE754.BinarySingleNaN.
Require Import Blots.Num Blots.NumText Blots.proofs.NumTextFloat Blots.proofs.NumTextRef.
Require Import Blots.DisplayNum Blots.proofs.DisplayNumSpec Blots.proofs.DisplayNumText
               Blots.proofs.DisplayNumFloat Blots.proofs.DisplayNumFinite Blots.proofs.DisplayNumAccStd
               Blots.proofs.DisplayNumDischarge1 Blots.proofs.DisplayNumDischarge2
               Blots.proofs.DisplayNumDischarge6.
From Coq Require Import List Ascii.
Import ListNotations.
Open Scope R_scope.

Lemma dec_R_neg_pow : forall p k, (0 <= k)%Z -> dec_R (Zpos p) (- k) = IZR (Zpos p) / IZR (10 ^ k).
Proof.
  intros p k Hk. unfold dec_R. destruct (0 <=? - k)%Z eqn:E.
  - apply Z.leb_le in E. assert (k = 0%Z) by lia. subst k.
    change (- 0)%Z with 0%Z. rewrite Z.pow_0_r, Z.mul_1_r. unfold Rdiv. rewrite Rinv_1. ring.
  - replace (- - k)%Z with k by lia. reflexivity.
Qed.

Theorem rn_ratio_is_rn_decimal : forall s N k, (0 < N)%Z -> (0 <= k)%Z ->
  Rabs (rnd64 (IZR N / IZR (10 ^ k))) < bpow radix2 1024 ->
  DisplayNum.rn_ratio s N (10 ^ k) = rn_decimal s N (- k).
Proof.
  intros s N k HN Hk B. destruct N as [|p|p]; try lia.
  pose proof (rn_decimal_correct s p (- k)) as C. cbv zeta in C. destruct C as [Vd Cd].
  rewrite (dec_R_neg_pow p k Hk) in Cd. unfold rne in Cd.
  rewrite Rlt_bool_true in Cd by exact B. destruct Cd as (Rd & Fd & Sd).
  assert (PD : (0 < 10 ^ k)%Z) by (apply Z.pow_pos_nonneg; lia).
  destruct (rn_ratio_correct_full s (Zpos p) (10 ^ k) HN PD) as [Vr Cr]. cbv zeta in Cr.
  destruct (Cr B) as (Rr & Fr & Sr).
  apply SF_eq.
  - exact Vr.
  - exact Vd.
  - rewrite finite_SF. exact Fr.
  - exact Fd.
  - unfold RV in Rr. rewrite Rr, Rd. destruct s; reflexivity.
  - now rewrite Sr, Sd.
Qed.

(* the zero case: both give the zero of the text's sign *)
Lemma rn_ratio_zero_is_rn_decimal : forall s D k, DisplayNum.rn_ratio s 0 D = rn_decimal s 0 k.
Proof. reflexivity. Qed.

(* text level: on every mantissa text -?d.d+ the display model's parser returns C16's reference value *)
Theorem parse_f64_exec_is_rn_decimal : forall neg d fp,
  Blots.DisplayNum.is_digit d = true -> all_digits fp = true ->
  parse_f64_exec (mk_plain neg [d] (Some fp)) =
  Some (rn_decimal neg (digits_value (d :: fp)) (- Z.of_nat (length fp))).
Proof.
  intros neg d fp Hd Hf. rewrite (parse_f64_exec_mant neg d fp Hd Hf). f_equal.
  pose proof (mant_digits_bound d fp Hd Hf) as Bn. set (Nn := digits_value (d :: fp)) in *.
  destruct (Z.eq_dec Nn 0) as [->|NZ]; [reflexivity|].
  apply rn_ratio_is_rn_decimal; [lia|lia|]. apply small_decimal_bound; lia.
Qed.
