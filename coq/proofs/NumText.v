(* proofs/NumText.v — C16 lemmas that need no real-number reasoning: sign symmetry of the
   reference, radix literals, the refutations by computation. *)
From Coq Require Import ZArith Floats.SpecFloat Bool List String Ascii Lia.
Require Import Blots.Num Blots.Outcome Blots.gen.Builtins Blots.Ast Blots.NumText.
Import ListNotations.
Open Scope Z_scope.

(* ---------------------------------------------------------------- rn_decimal: sign symmetry *)
Lemma rn_decimal_sign : forall s m e,
  0 <= m -> rn_decimal s m e = with_sign s (rn_decimal false m e).
Proof.
  intros s m e Hm. destruct m as [|p|p]; [ | | lia ]; destruct s; reflexivity.
Qed.

(* with exponent 0 neither guard of rn_pos fires: the integer itself is rounded *)
Lemma rn_pos_exp0 : forall p, rn_pos p 0 = SpecFloat.binary_round prec emax false p 0.
Proof.
  intros p. unfold rn_pos. change (400 <? 0) with false. cbv iota.
  replace (0 <? - (400 + Z.log2 (Z.pos p))) with false
    by (symmetry; apply Z.ltb_ge; pose proof (Z.log2_nonneg (Zpos p)); lia).
  change (0 <=? 0) with true. cbv iota. now rewrite Z.pow_0_r, Z.mul_1_r.
Qed.

Lemma with_sign_true_nneg : forall x, with_sign true x = nneg x.
Proof. reflexivity. Qed.

(* ---------------------------------------------------------------- to_string -> to_number *)
Section ToStringToNumber.
  Variable display : num -> string.
  Variable str_parse : string -> option num.
  Lemma to_string_to_number : forall x,
    str_parse (display x) = ref_str_parse (display x) ->      (* str::parse correctly rounded here *)
    ref_str_parse (display x) = Some x ->                       (* Display text denotes x *)
    to_number_str str_parse (to_string_num display x) = Ok x.
  Proof. intros x Hp Hd. unfold to_number_str, to_string_num. rewrite Hp, Hd. reflexivity. Qed.
End ToStringToNumber.

(* ---------------------------------------------------------------- refutations by computation *)
Lemma radix_literal_ge_2p63_refuted :
  forall sp, literal_value sp "0xFFFFFFFFFFFFFFFF" = None
          /\ parse_numexpr sp "0xFFFFFFFFFFFFFFFF" = PLitErr
          /\ parse_numexpr sp "0x8000000000000000" = PLitErr
          /\ parse_numexpr sp "0b1000000000000000000000000000000000000000000000000000000000000000" = PLitErr.
Proof. intros sp. repeat split; vm_compute; reflexivity. Qed.

(* the shipped serde_json number parser (no float_roundtrip) reads the JSON text of 1e-39
   one ulp high; the correctly rounded reading is the number itself *)
Lemma json_shipped_refuted :
  let x := num_of_bits 0x37d5c72fb1552d83 in
  is_finite x = true
  /\ json_out ref_ryu x = "1e-39"%string
  /\ ref_str_parse "1e-39" = Some x
  /\ json_in true (json_out ref_ryu x) = Ok x
  /\ json_in false (json_out ref_ryu x) = Ok (num_of_bits 0x37d5c72fb1552d84).
Proof. vm_compute. repeat split; reflexivity. Qed.
