(* EmitHOSim.v — C05, layer P2 (the layers are listed in Properties/C05.v) for higher-order captured values:
   THE SIMULATION.

   Related functions (EmitHO.vrelG) applied to related arguments, at every call depth, from any two
   scope chains and any two stores, produce related outcomes: Ok with related values, otherwise the
   same error class (the depth error on both sides or on neither: both runs are at the same depth
   and consume it identically — the inlined literals call nothing).

   Proved for EVERY implementation of the operators and built-ins that respects the relation
   (hypotheses Hbin_rel / Hbi_rel of the Sections; the binary counterpart of EmitSound's
   cb_lf_equiv hypotheses), for all expression forms: bodies that create closures, closures capturing
   closures to any depth, functions returned as results.  EmitHOOps.v discharges the hypotheses for
   the transcribed operators and built-ins arm by arm.  What may be inlined as a number / string
   literal is a parameter; the simulation uses of it only [leaves_eval].  [ho_simulation_via] carries
   the result to any relation that coincides with an instance of vrelG: EmitHO.vrel (end of this
   file), EmitNqHO.vrel (EmitNqHOSim.v). *)
From Coq Require Import String Ascii List ZArith Bool Lia.
Require Import Blots.Num Blots.gen.Builtins Blots.Ast Blots.Value Blots.Outcome Blots.Binop
               Blots.Env Blots.Eval Blots.Emit Blots.proofs.ValueInd Blots.proofs.ExprInd
               Blots.proofs.EmitLit Blots.proofs.EmitSubst Blots.proofs.EmitClosed
               Blots.proofs.FreeVars Blots.proofs.Frames Blots.proofs.Closures Blots.proofs.EmitSound
               Blots.proofs.EmitHO.
Import ListNotations.
Open Scope string_scope.
Open Scope list_scope.

(* two callbacks take related functions and arguments to related outcomes, whatever the stores
   and the self values *)
Definition cb_rel_on (R : value -> value -> Prop) (cb cb' : callback) : Prop :=
  forall this this' f f' args args' st st',
    R f f' -> Forall2 R args args' ->
    orel_gen R (fst (cb this f args st)) (fst (cb' this' f' args' st')).
(* [cb_rel_on] at the relation EmitHO.vrel (convertible), written out: statements of Properties/C05.v mention it *)
Definition cb_rel (opok : binop -> bool) (biok : builtin -> bool) (nanfix : bool) (cb cb' : callback) : Prop :=
  forall this this' f f' args args' st st',
    vrel opok biok nanfix f f' -> lrel opok biok nanfix args args' ->
    orel opok biok nanfix (fst (cb this f args st)) (fst (cb' this' f' args' st')).

Lemma cb_rel_on_iff (R R' : value -> value -> Prop) : (forall v v', R v v' <-> R' v v') ->
  forall cb cb', cb_rel_on R cb cb' -> cb_rel_on R' cb cb'.
Proof.
  intros HR cb cb' H this this' f f' args args' st st' Hf Ha.
  apply (orel_gen_mono R R' (fun v v' => proj1 (HR v v'))). apply H.
  - apply HR. exact Hf.
  - exact (Forall2_mono R' R (fun v v' => proj2 (HR v v')) args args' Ha).
Qed.

(* ---------------------------------------------------------------- capture *)
Lemma capture_get_notin F vars : forall acc x, ~ In x vars ->
  rec_get (capture F vars acc) x = rec_get acc x.
Proof.
  induction vars as [|y vars IH]; intros acc x Hn; [reflexivity|]. cbn [capture].
  assert (Hx : ~ In x vars) by (intros X; apply Hn; now right).
  assert (Hxy : String.eqb x y = false) by (apply String.eqb_neq; intros ->; apply Hn; now left).
  destruct (lookup F y); [|apply IH; exact Hx].
  destruct (is_builtin_name y); [apply IH; exact Hx|]. rewrite IH by exact Hx. cbn. now rewrite Hxy.
Qed.
Lemma capture_get_in F vars : forall acc x v, In x vars -> is_builtin_name x = false ->
  lookup F x = Some v -> rec_get (capture F vars acc) x = Some v.
Proof.
  induction vars as [|y vars IH]; intros acc x v Hin Hb Hl; [destruct Hin|]. cbn [capture].
  destruct (in_dec string_dec x vars) as [Hi|Hni].
  - destruct (lookup F y); [destruct (is_builtin_name y)|]; apply IH; auto.
  - destruct Hin as [->|Hin]; [|contradiction]. rewrite Hl, Hb.
    rewrite capture_get_notin by exact Hni. cbn. now rewrite String.eqb_refl.
Qed.
Lemma capture_get_some F vars : forall acc x v, rec_get (capture F vars acc) x = Some v ->
  (In x vars /\ lookup F x = Some v /\ is_builtin_name x = false) \/ rec_get acc x = Some v.
Proof.
  induction vars as [|y vars IH]; intros acc x v H; [right; exact H|]. cbn [capture] in H.
  destruct (lookup F y) as [w|] eqn:El.
  - destruct (is_builtin_name y) eqn:Eb.
    + destruct (IH _ _ _ H) as [(A & B & C)|A]; [left; repeat split; auto; now right|right; exact A].
    + destruct (IH _ _ _ H) as [(A & B & C)|A]; [left; repeat split; auto; now right|].
      cbn in A. destruct (String.eqb_spec x y) as [->|]; [|right; exact A].
      inversion A; subst. left. repeat split; auto. now left.
  - destruct (IH _ _ _ H) as [(A & B & C)|A]; [left; repeat split; auto; now right|right; exact A].
Qed.

(* ---------------------------------------------------------------- identifiers of covered bodies *)
Section Ids.
  Variable opok : binop -> bool.
  Variable biok : builtin -> bool.
  Notation hob := (hob opok biok).
  Definition hob_stmt (s : expr) : bool := match s with EAssign _ v => hob v | _ => hob s end.
  Definition idokP (x : string) : Prop := idok x = true.
  Lemma hob_ids_ok_gen : forall e,
    (hob e = true -> ids_ok idokP e) /\ (hob_stmt e = true -> ids_ok idokP e).
  Proof.
    induction e using expr_ind';
      (match goal with |- (hob ?e0 = true -> _) /\ _ =>
         assert (Hmain : hob_stmt e0 = true -> ids_ok idokP e0);
         [|split; [first [exact Hmain|intros Hx; discriminate Hx]|exact Hmain]] end);
      unfold hob_stmt; intros Hn; cbn [EmitHO.hob ids_ok] in *; try exact I; try discriminate.
    - exact Hn.
    - match goal with HF : Forall _ items |- _ => induction HF as [|[ld a tr] l Ha _ IHl] end; [exact I|].
      cbn [cnode] in Ha. apply andb_true_iff in Hn. destruct Hn as [H1 H2]. split; [apply (proj1 Ha); exact H1|apply IHl; exact H2].
    - match goal with HF : Forall _ entries |- _ => induction HF as [|[ld [k v] tr] l Ha _ IHl] end; [exact I|].
      cbn [cnode Pentry] in Ha. destruct Ha as [Hk Hv]. apply andb_true_iff in Hn. destruct Hn as [H1 H2].
      split; [|apply IHl; exact H2]. destruct k as [key|ke|z|se]; cbn [Pkey] in Hk.
      + apply (proj1 Hv); exact H1.
      + apply andb_true_iff in H1. destruct H1; split; [apply (proj1 Hk)|apply (proj1 Hv)]; assumption.
      + exact H1.
      + apply (proj1 Hk); exact H1.
    - apply (proj1 IHe); exact Hn.
    - apply andb_true_iff in Hn. destruct Hn as [Hn H3]. apply andb_true_iff in Hn. destruct Hn as [H1 H2].
      split; [apply (proj1 IHe1); exact H1|split; [apply (proj1 IHe2); exact H2|apply (proj1 IHe3); exact H3]].
    - match goal with HF : Forall _ stmts, HR : _ /\ _ |- _ => rename HF into HFs; rename HR into HRet end.
      destruct ret as [ld rt tr]. cbn [cnode] in HRet. apply andb_true_iff in Hn. destruct Hn as [Hs Hr]. split.
      + clear Hr HRet. induction HFs as [|[l1 s t1] l Hs1 _ IHl]; [exact I|].
        cbn [cnode] in Hs1. apply andb_true_iff in Hs. destruct Hs as [Ha Hb]. split; [|apply IHl; exact Hb].
        apply (proj2 Hs1). exact Ha.
      + apply (proj1 HRet). exact Hr.
    - (* EAssign as a statement *) apply (proj1 IHe); exact Hn.
    - apply andb_true_iff in Hn. destruct Hn as [H1 H2]. split; [apply (proj1 IHe); exact H1|].
      match goal with HF : Forall _ args |- _ => induction HF as [|a l Ha _ IHl] end; [exact I|].
      apply andb_true_iff in H2. destruct H2 as [H2a H2b]; split; [apply (proj1 Ha); assumption|apply IHl; exact H2b].
    - apply andb_true_iff in Hn. destruct Hn; split; [apply (proj1 IHe1)|apply (proj1 IHe2)]; assumption.
    - apply (proj1 IHe); exact Hn.
    - apply andb_true_iff in Hn. destruct Hn as [Hn H3]. apply andb_true_iff in Hn. destruct Hn as [H1 H2].
      split; [apply (proj1 IHe1)|apply (proj1 IHe2)]; assumption.
    - apply (proj1 IHe); exact Hn.
    - apply (proj1 IHe); exact Hn.
    - apply (proj1 IHe); exact Hn.
  Qed.
  Lemma hob_fv_idok e b x : hob e = true -> In x (free_vars e b) -> idok x = true.
  Proof. intros H. apply (fv_ids_ok idokP). exact (proj1 (hob_ids_ok_gen e) H). Qed.
End Ids.

Lemma idok_spec x : idok x = true -> is_builtin_name x = false /\ x <> "inputs".
Proof.
  unfold idok. intros H. apply andb_prop in H as [A B]. apply negb_true_iff in A, B.
  split; [exact A|]. now apply String.eqb_neq.
Qed.

(* ---------------------------------------------------------------- the simulation over expressions *)
Section Sim.
  Variable opok : binop -> bool.
  Variable biok : builtin -> bool.
  Variable nanfix : bool.
  Variable numok : num -> bool.
  Variable strok : string -> bool.
  Notation lit := (value_to_ast nanfix true).
  Notation vrel := (vrelG opok biok nanfix numok strok).
  Notation lrel := (lrelG opok biok nanfix numok strok).
  Notation rrel := (rrelG opok biok nanfix numok strok).
  Notation orel := (orelG opok biok nanfix numok strok).
  Notation hob := (hob opok biok).
  Notation emit_ok := (emit_okG opok biok numok strok).
  Notation mlit := (mlitG opok biok nanfix numok strok).
  Notation cb_rel := (cb_rel_on vrel).

  Variable release : bool.
  Variable binop_impl : callback -> binop -> value -> value -> store -> outcome value * store.
  Variable apply : frames -> callback.
  Notation evalE := (evalE release binop_impl apply).

  Hypothesis Hbin_rel : forall cb cb' op l l' r r' st st', opok op = true -> cb_rel cb cb' ->
    vrel l l' -> vrel r r' ->
    orel (fst (binop_impl cb op l r st)) (fst (binop_impl cb' op l' r' st')).
  Hypothesis Happ_rel : forall fr fr', cb_rel (apply fr) (apply fr').
  (* the literal of a number / string that may be inlined is closed text and evaluates to it *)
  Hypothesis Hnan : forall x, numok x = true -> nanfix || negb (is_nan x) = true.
  Hypothesis Hnum : forall x c, numok x = true -> evalE c (num_to_ast nanfix x) = (Ok (VNum x), c).
  Hypothesis Hstr : forall s c, strok s = true -> evalE c (str_to_ast s) = (Ok (VStr s), c).

  (* ---- literals: the literal of an emittable value evaluates to a related value ---- *)
  Lemma emit_ok_not_spread l l' : lrel l l' -> forallb emit_ok l = true -> no_spread l' = true.
  Proof.
    induction 1 as [|x x' l l' V _ IH]; cbn; [reflexivity|]. intros H. apply andb_prop in H as [A B].
    destruct V; cbn in A; try discriminate; auto.
  Qed.
  Lemma lit_rel : forall v, emit_ok v = true -> forall c, exists v' st1,
    evalE c (lit v) = (Ok v', (st1, snd c)) /\ vrel v v'.
  Proof.
    induction v using value_ind'; intros Hok [st fr]; cbn [snd].
    - cbn [value_to_ast]. rewrite (Hnum x (st, fr) Hok).
      exists (VNum x), st. split; [reflexivity|constructor].
    - exists (VBool b), st. split; [reflexivity|constructor].
    - exists VNull, st. split; [reflexivity|constructor].
    - cbn [value_to_ast]. rewrite (Hstr s (st, fr) Hok).
      exists (VStr s), st. split; [reflexivity|constructor].
    - rewrite value_to_ast_list. cbn [Eval.evalE]. cbn [emit_okG] in Hok.
      assert (HL : forall st0, exists vs st1,
                 evalCL evalE (st0, fr) (map (fun x => Cm [] (lit x) None) l) = (Ok vs, (st1, fr)) /\ lrel l vs).
      { clear - H Hok. revert Hok. induction H as [|x l Hx Hl IH]; cbn; intros Hok st0.
        - exists [], st0. split; [reflexivity|constructor].
        - apply andb_prop in Hok as [F1 F2]. destruct (Hx F1 (st0, fr)) as (x' & s1 & E & V). cbn [snd] in E.
          rewrite E. destruct (IH F2 s1) as (vs & s2 & E2 & V2). rewrite E2.
          exists (x' :: vs), s2. split; [reflexivity|constructor; assumption]. }
      destruct (HL st) as (vs & s1 & E & V). rewrite E. cbn.
      rewrite flatten_no_spread by (eapply emit_ok_not_spread; eauto).
      exists (VList vs), s1. split; [reflexivity|constructor; exact V].
    - rewrite value_to_ast_rec. cbn [Eval.evalE]. cbn [emit_okG] in Hok. apply andb_prop in Hok as [Hnd Hok].
      assert (HG : forall st0 acc, (forall k, In k (map fst r) -> rec_get acc k = None) ->
                exists r' st1,
                evalRecL evalE (st0, fr) acc
                  (map (fun kv => Cm [] (REntry (key_to_rkey (fst kv)) (lit (snd kv))) None) r)
                = (Ok (VRec (acc ++ r')), (st1, fr)) /\ rrel r r').
      { clear - H Hnd Hok Hstr. revert Hnd Hok.
        induction H as [|[k x] r Hx Hr IH]; intros Hnd Hok st0 acc Hacc.
        - cbn. exists [], st0. rewrite app_nil_r. split; [reflexivity|constructor].
        - cbn in Hnd, Hok, Hx. cbn [map fst snd].
          destruct (rec_get r k) eqn:Ek; [discriminate|].
          apply andb_prop in Hok as [F1 F2]. apply andb_prop in F1 as [Bk F1].
          destruct (Hx F1 (st0, fr)) as (x' & s1 & E & V). cbn [snd] in E.
          rewrite (key_entry_evaluates release binop_impl apply k _ x' _ _ acc _ (Hstr k _ Bk) E).
          rewrite rec_insert_fresh by (apply Hacc; now left).
          destruct (IH Hnd F2 s1 (acc ++ [(k, x')])) as (r' & s2 & E2 & V2).
          + intros k' Hk'. rewrite rec_get_app_none by (apply Hacc; now right).
            cbn. destruct (String.eqb_spec k' k) as [->|]; [|reflexivity].
            exfalso. apply rec_get_None_notin in Ek. contradiction.
          + rewrite E2. exists ((k, x') :: r'), s2. rewrite <- app_assoc. split; [reflexivity|].
            constructor; [split; [reflexivity|exact V]|exact V2]. }
      destruct (HG st []) as (r' & s1 & E & V); [reflexivity|]. rewrite E.
      exists (VRec r'), s1. split; [reflexivity|constructor; exact V].
    - (* a captured closure: its literal is the lambda with its own scope inlined; evaluating it
         captures nothing (the inlined body is closed) *)
      pose proof (lit_closed_ok _ _ _ _ _ Hnan _ Hok []) as [Hcl _].
      rewrite value_to_ast_lam in *. cbn [free_vars] in Hcl. rewrite app_nil_r in Hcl.
      cbn [Eval.evalE]. rewrite Hcl. cbn [capture fresh_lambda fst snd].
      eexists _, _. split; [reflexivity|]. apply reload_rel. exact Hok.
    - cbn in Hok. exists (VBuiltin b), st. split; [reflexivity|constructor; exact Hok].
    - discriminate.
  Qed.

  (* ---- the invariant relating the two environments and the inlining scope ---- *)
  (* (names with R: the relational counterparts of Inv, Sim, Q, P ... of EmitSound.v, where the two runs give
     EQUAL outcomes) *)
  Definition RInv (bound : list string) (F1 F2 : frames) (m : smap) : Prop :=
    (forall x, special_name x = true -> rec_get m x = None) /\
    mlit m /\
    (forall x, mem x bound = true ->
       exists v, lookup F1 x = Some v /\
         match rec_get m x with
         | Some a => a = lit v /\ emit_ok v = true
         | None => exists v', lookup F2 x = Some v' /\ vrel v v'
         end).

  Definition RSim (F1 F2 : frames) (e : expr) (m : smap) : Prop :=
    forall st st', exists r st1 r' st1',
      evalE (st, F1) e = (r, (st1, F1)) /\
      evalE (st', F2) (subst true m e) = (r', (st1', F2)) /\ orel r r'.
  Definition RQ (e : expr) : Prop :=
    hob e = true -> forall F1 F2 m bound,
      RInv bound F1 F2 m -> free_vars e bound = [] -> RSim F1 F2 e m.
  (* an assignment is not a covered body, but as a do-block statement its right-hand side is evaluated:
     the induction carries RQ of that right-hand side as a second conjunct *)
  Definition RP (e : expr) : Prop := RQ e /\ (forall x v, e = EAssign x v -> RQ v).

  (* rfin: both runs are already values; give the four witnesses, leaving the relation between the outcomes.
     failc: the same when both outcomes are the same failure.  same r r' Hr: related outcomes r r' are both Ok
     (related values v v') or the same failure *)
  Ltac rfin := do 4 eexists; split; [reflexivity|split; [reflexivity|]].
  Ltac failc := try (cbn [cast_fail]; rfin; exact I).
  Ltac same r r' Hr := destruct r as [?v| | | |], r' as [?v'| | | |]; cbn in Hr; try contradiction.

  (* an identifier (also a shorthand key): the original finds v, the inlined text evaluates to a related v' *)
  Lemma ident_rsim F1 F2 m bound x : RInv bound F1 F2 m -> mem x bound = true ->
    exists v, lookup F1 x = Some v /\
      match rec_get m x with
      | Some a => a = lit v /\ emit_ok v = true
      | None => exists v', lookup F2 x = Some v' /\ vrel v v'
      end.
  Proof. intros (_ & _ & H) Hm. exact (H x Hm). Qed.

  Lemma constants_rel : vrel (VRec constants_record) (VRec constants_record).
  Proof. constructor. repeat (constructor; [split; [reflexivity|constructor]|]). constructor. Qed.

  Lemma RQ_id x : RQ (EId x).
  Proof.
    intros Hf F1 F2 m bound HE HFV st st'. cbn [free_vars] in HFV. cbn [subst].
    destruct (special_name x) eqn:Hsp.
    - assert (Hm : rec_get m x = None) by (destruct HE as (Hs & _); exact (Hs x Hsp)).
      rewrite Hm. cbn [Eval.evalE]. unfold special_name in Hsp.
      destruct (String.eqb x "infinity" || String.eqb x "inf")%bool eqn:E1.
      + rfin. constructor.
      + try rewrite E1 in Hsp. cbn [orb] in Hsp. rewrite Hsp. rfin. apply constants_rel.
    - assert (Hmem : mem x bound = true).
      { unfold special_name in Hsp. destruct (mem x bound); [reflexivity|].
        cbn [orb] in HFV. rewrite Hsp in HFV. discriminate. }
      destruct (ident_rsim F1 F2 m bound x HE Hmem) as (v & E1 & Hm).
      unfold special_name in Hsp. apply orb_false_elim in Hsp as [Hsp E3].
      destruct (rec_get m x) eqn:Em.
      + destruct Hm as [-> Hem]. cbn [Eval.evalE snd fst]. rewrite Hsp, E3, E1.
        destruct (lit_rel v Hem (st', F2)) as (v' & s1 & E & V). rewrite E. cbn. rfin. exact V.
      + destruct Hm as (v' & E2 & V). cbn [Eval.evalE snd fst]. rewrite Hsp, E3, E1, E2. cbn. rfin. exact V.
  Qed.

  (* ---- lists of sub-expressions ---- *)
  Lemma evalL_rsim args : Forall RQ args ->
    Forall (fun a => hob a = true) args ->
    forall F1 F2 m bound, RInv bound F1 F2 m ->
    Forall (fun a => free_vars a bound = []) args ->
    forall st st', exists r st1 r' st1',
      evalL evalE (st, F1) args = (r, (st1, F1)) /\
      evalL evalE (st', F2) (subst_args m args) = (r', (st1', F2)) /\
      orel_gen lrel r r'.
  Proof.
    intros HQ. induction HQ as [|n l Hn Hl IH]; intros Hf F1 F2 m bound HE HV st st'.
    - cbn. rfin. constructor.
    - pose proof (Forall_inv Hf) as Hf1. pose proof (Forall_inv_tail Hf) as Hf2.
      pose proof (Forall_inv HV) as HV1. pose proof (Forall_inv_tail HV) as HV2.
      cbn [evalL subst_args].
      destruct (Hn Hf1 F1 F2 m bound HE HV1 st st') as (r & s1 & r' & s1' & E1 & E2 & Hr). rewrite E1, E2.
      same r r' Hr; failc.
      destruct (IH Hf2 F1 F2 m bound HE HV2 s1 s1') as (r2 & s2 & r2' & s2' & E3 & E4 & Hr2). rewrite E3, E4.
      same r2 r2' Hr2; try (rfin; exact I).
      rfin. constructor; assumption.
  Qed.

  Lemma evalCL_rsim items : Forall (fun c => RQ (cnode c)) items ->
    Forall (fun c => hob (cnode c) = true) items ->
    forall F1 F2 m bound, RInv bound F1 F2 m ->
    Forall (fun c => free_vars (cnode c) bound = []) items ->
    forall st st', exists r st1 r' st1',
      evalCL evalE (st, F1) items = (r, (st1, F1)) /\
      evalCL evalE (st', F2) (subst_items m items) = (r', (st1', F2)) /\
      orel_gen lrel r r'.
  Proof.
    intros HQ Hf F1 F2 m bound HE HV st st'. rewrite !evalCL_evalL, subst_items_nodes.
    apply evalL_rsim with (bound := bound); try assumption; apply Forall_map; assumption.
  Qed.

  Definition RQentry (c : commented rentry) : Prop :=
    match cnode c with
    | REntry k v => (match k with KDyn e | KSpread e => RQ e | _ => True end) /\ RQ v
    end.

  Lemma evalRec_rsim es : Forall RQentry es ->
    Forall (fun c => match cnode c with REntry k v => hob_entry opok biok k v = true end) es ->
    forall F1 F2 m bound, RInv bound F1 F2 m ->
    Forall (fun c => match cnode c with REntry k v => fv_entry bound k v = [] end) es ->
    forall acc acc' st st', rrel acc acc' ->
    exists r st1 r' st1',
      evalRecL evalE (st, F1) acc es = (r, (st1, F1)) /\
      evalRecL evalE (st', F2) acc' (subst_entries m es) = (r', (st1', F2)) /\
      orel r r'.
  Proof.
    intros HQ. induction HQ as [|[a [k v] t] l Hn Hl IH]; intros Hf F1 F2 m bound HE HV acc acc' st st' Hacc.
    - cbn. rfin. constructor. exact Hacc.
    - pose proof (Forall_inv Hf) as Hf1. pose proof (Forall_inv_tail Hf) as Hf2.
      pose proof (Forall_inv HV) as HV1. pose proof (Forall_inv_tail HV) as HV2.
      unfold RQentry in Hn. cbn [cnode] in Hn, Hf1, HV1. destruct Hn as [Hk Hv].
      cbn [evalRecL subst_entries]. destruct k as [key|ke|x|se]; cbn [subst_entry hob_entry fv_entry] in *.
      + destruct (Hv Hf1 F1 F2 m bound HE HV1 st st') as (r & s1 & r' & s1' & E1 & E2 & Hr). rewrite E1, E2.
        same r r' Hr; try (rfin; exact I).
        apply (IH Hf2 F1 F2 m bound HE HV2). apply rrel_insert; auto.
      + apply andb_prop in Hf1 as [Fa Fb]. apply app_eq_nil in HV1 as [Va Vb].
        destruct (Hk Fa F1 F2 m bound HE Va st st') as (r & s1 & r' & s1' & E1 & E2 & Hr). rewrite E1, E2.
        same r r' Hr; try (rfin; exact I).
        rewrite <- (vrel_as_string Hr).
        destruct (as_string v0) as [key| | | |]; failc.
        destruct (Hv Fb F1 F2 m bound HE Vb s1 s1') as (r2 & s2 & r2' & s2' & E3 & E4 & Hr2). rewrite E3, E4.
        same r2 r2' Hr2; try (rfin; exact I).
        apply (IH Hf2 F1 F2 m bound HE HV2). apply rrel_insert; auto.
      + assert (Hmem : mem x bound = true) by (destruct (mem x bound); [reflexivity|discriminate]).
        destruct (ident_rsim F1 F2 m bound x HE Hmem) as (w & E1 & Hm).
        cbn [snd]. rewrite E1. destruct (rec_get m x) eqn:Em.
        * destruct Hm as [-> Hem]. cbn [evalRecL].
          destruct (lit_rel w Hem (st', F2)) as (w' & s1 & E & V). rewrite E. cbn [snd].
          apply (IH Hf2 F1 F2 m bound HE HV2). apply rrel_insert; auto.
        * destruct Hm as (w' & E2 & V). cbn [evalRecL snd]. rewrite E2.
          apply (IH Hf2 F1 F2 m bound HE HV2). apply rrel_insert; auto.
      + destruct (Hk Hf1 F1 F2 m bound HE HV1 st st') as (r & s1 & r' & s1' & E1 & E2 & Hr). rewrite E1, E2.
        same r r' Hr; try (rfin; exact I).
        apply (IH Hf2 F1 F2 m bound HE HV2). apply rrel_insert_all; auto.
        apply vrel_record_spread_entries. exact Hr.
  Qed.

  (* ---- do-blocks ---- *)
  Notation do_body := (EmitSound.do_body release binop_impl apply).

  Lemma RInv_bind bound f1 f2 G1 G2 m x v v' : vrel v v' ->
    RInv bound ((FOwned, f1) :: G1) ((FOwned, f2) :: G2) m ->
    RInv (x :: bound) ((FOwned, (x, v) :: f1) :: G1) ((FOwned, (x, v') :: f2) :: G2) (smap_remove m x).
  Proof.
    intros Hv (Hs & Hm & HI). repeat split.
    - intros y Hy. rewrite rec_get_remove. destruct (String.eqb y x); auto.
    - apply mlit_remove. exact Hm.
    - intros y Hy. rewrite rec_get_remove. cbn [lookup lookup_frame].
      destruct (String.eqb y x) eqn:E.
      + exists v. split; [reflexivity|]. exists v'. split; [reflexivity|exact Hv].
      + cbn [mem existsb] in Hy. rewrite E in Hy. exact (HI y Hy).
  Qed.
  Lemma RInv_push bound F1 F2 m : RInv bound F1 F2 m ->
    RInv bound ((FOwned, []) :: F1) ((FOwned, []) :: F2) m.
  Proof. intros (Hs & Hm & HI). repeat split; auto. Qed.

  Lemma do_rsim stmts : Forall (fun c => RP (cnode c)) stmts ->
    forall ret, RQ ret -> hob ret = true -> hob_stmts opok biok stmts = true ->
    forall f1 f2 G1 G2 m bound, RInv bound ((FOwned, f1) :: G1) ((FOwned, f2) :: G2) m ->
      fv_do ret stmts bound = [] ->
      forall st st', exists r st1 g1 r' st1' g2,
        do_body (st, (FOwned, f1) :: G1) stmts ret = (r, (st1, (FOwned, g1) :: G1)) /\
        do_body (st', (FOwned, f2) :: G2) (subst_stmts stmts m)
                (subst true (do_final_map true m stmts) ret) = (r', (st1', (FOwned, g2) :: G2)) /\
        orel r r'.
  Proof.
    intros HP. induction HP as [|[a s t] l Hs Hl IH]; intros ret HQr Hfr Hfs f1 f2 G1 G2 m bound HE HV st st'.
    - cbn [fv_do] in HV. unfold EmitSound.do_body. cbn [evalDoL subst_stmts do_final_map].
      rewrite na_do_step by (now apply hob_na with (opok := opok) (biok := biok)).
      rewrite na_do_step by (apply subst_na; [exact (mlit_closed Hnan (proj1 (proj2 HE)))|now apply hob_na with (opok := opok) (biok := biok)]).
      destruct (HQr Hfr _ _ m bound HE HV st st') as (r & s1 & r' & s1' & E1 & E2 & Hr).
      exists r, s1, f1, r', s1', f2. split; [exact E1|split; [exact E2|exact Hr]].
    - cbn [cnode] in Hs. destruct Hs as [HQs HAs].
      destruct (assign_or_na s) as [(x & v & ->)|Hna].
      + cbn [hob_stmts] in Hfs. apply andb_prop in Hfs as [Hf1 Hf2].
        cbn [fv_do] in HV. apply app_eq_nil in HV as [HV1 HV2].
        unfold EmitSound.do_body. cbn [evalDoL subst_stmts do_final_map do_step_map subst do_step].
        destruct (mem x do_assign_keywords).
        { cbn [cast_fail]. exists Err, st, f1, Err, st', f2. repeat split. }
        unfold assign_value.
        destruct (HAs x v eq_refl Hf1 _ _ m bound HE HV1 st st') as (r & s1 & r' & s1' & E1 & E2 & Hr).
        change (@pair store (list (prod fkind frame))) with (@pair store frames).
        rewrite E1, E2.
        same r r' Hr; try solve [cbn [cast_fail]; eexists _, s1, f1, _, s1', f2; repeat split].
        unfold bind_value. cbn [snd fst insert_head].
        destruct (IH ret HQr Hfr Hf2 ((x, v0) :: f1) ((x, v') :: f2) G1 G2 (smap_remove m x) (x :: bound)
                     (RInv_bind bound f1 f2 G1 G2 m x v0 v' Hr HE) HV2
                     (name_if_created (Datatypes.length st) s1 v0 x) (name_if_created (Datatypes.length st') s1' v' x))
          as (r & s2 & g1 & r2' & s2' & g2 & E3 & E4 & Hr2).
        unfold EmitSound.do_body in E3, E4. do 6 eexists. split; [exact E3|split; [exact E4|exact Hr2]].
      + rewrite (hob_stmts_na opok biok a s t l Hna) in Hfs. apply andb_prop in Hfs as [Hf1 Hf2].
        rewrite (na_fv_do ret a s t l bound Hna) in HV. apply app_eq_nil in HV as [HV1 HV2].
        unfold EmitSound.do_body. cbn [evalDoL subst_stmts do_final_map]. rewrite (na_step_map m s Hna).
        rewrite na_do_step by exact Hna.
        rewrite na_do_step by (apply subst_na; [exact (mlit_closed Hnan (proj1 (proj2 HE)))|exact Hna]).
        destruct (HQs Hf1 _ _ m bound HE HV1 st st') as (r & s1 & r' & s1' & E1 & E2 & Hr).
        change (@pair store (list (prod fkind frame))) with (@pair store frames).
        rewrite E1, E2.
        same r r' Hr; try solve [cbn [cast_fail]; eexists _, s1, f1, _, s1', f2; repeat split].
        destruct (IH ret HQr Hfr Hf2 f1 f2 G1 G2 m bound HE HV2 s1 s1') as (r & s2 & g1 & r2' & s2' & g2 & E3 & E4 & Hr2).
        unfold EmitSound.do_body in E3, E4. do 6 eexists. split; [exact E3|split; [exact E4|exact Hr2]].
  Qed.

  (* ---- creating a closure: related closures ---- *)
  Lemma lam_sim args body : hob body = true ->
    forall F1 F2 m bound, RInv bound F1 F2 m -> free_vars (ELam args body) bound = [] ->
    forall id id',
    vrel (VLam id args body (capture F1 (free_vars body (map arg_name args)) []))
         (VLam id' args (subst true (smap_remove_all m (map arg_name args)) body)
               (capture F2 (free_vars (subst true (smap_remove_all m (map arg_name args)) body) (map arg_name args)) [])).
  Proof.
    intros Hb F1 F2 m bound HE HV id id'. cbn [free_vars] in HV.
    set (m' := smap_remove_all m (map arg_name args)).
    destruct HE as (Hs & Hm & HI).
    assert (Hm' : mlit m') by (apply mlit_remove_all; exact Hm).
    (* every free name of the body outside the parameters is a tracked name *)
    assert (Hvars : forall z, In z (free_vars body (map arg_name args)) -> mem z bound = true /\ ~ In z (map arg_name args) /\ is_builtin_name z = false /\ z <> "inputs").
    { intros z Hz. pose proof (fv_not_bound _ _ _ Hz) as Hnp.
      destruct (fv_weaken body (map arg_name args) ((map arg_name args) ++ bound) z Hz) as [X|X]; [rewrite HV in X; destruct X|].
      apply in_app_or in X as [X|X]; [contradiction|].
      destruct (idok_spec z (hob_fv_idok opok biok body (map arg_name args) z Hb Hz)) as [A B].
      repeat split; auto. apply mem_In_true. exact X. }
    constructor.
    - exact Hb.
    - destruct (free_vars body ((map arg_name args) ++ map fst (capture F1 (free_vars body (map arg_name args)) []))) as [|z l] eqn:E; [reflexivity|].
      exfalso. assert (Hz : In z (free_vars body ((map arg_name args) ++ map fst (capture F1 (free_vars body (map arg_name args)) [])))) by (rewrite E; now left).
      pose proof (fv_not_bound _ _ _ Hz) as Hnb.
      destruct (fv_weaken body _ (map arg_name args) z Hz) as [X|X]; [|apply Hnb; apply in_or_app; now left].
      destruct (Hvars z X) as (A & B & C & D). destruct (HI z A) as (v & El & _).
      apply Hnb. apply in_or_app. right.
      pose proof (capture_get_in F1 (free_vars body (map arg_name args)) [] z v X C El) as G.
      apply rec_get_In in G. exact (in_map fst _ _ G).
    - intros x Hx. apply remove_all_get_none. exact (Hs x Hx).
    - intros x Hx. apply remove_all_get_in. exact Hx.
    - destruct (rec_get (capture F1 (free_vars body (map arg_name args)) []) "inputs") eqn:E; [|reflexivity].
      destruct (capture_get_some _ _ _ _ _ E) as [(A & _)|A]; [|discriminate].
      destruct (Hvars _ A) as (_ & _ & _ & D). congruence.
    - intros x v e E Em. destruct (capture_get_some _ _ _ _ _ E) as [(A & B & C)|A]; [|discriminate].
      destruct (Hvars _ A) as (Hb1 & Hnp & _ & _).
      unfold m' in Em. rewrite remove_all_get_notin in Em by exact Hnp.
      destruct (HI x Hb1) as (w & El & Hw). rewrite Em in Hw. rewrite B in El. inversion El; subst w. exact Hw.
    - exact Hm'.
    - intros x v E Em Hnp. destruct (capture_get_some _ _ _ _ _ E) as [(A & B & C)|A]; [|discriminate].
      destruct (Hvars _ A) as (Hb1 & _ & _ & _).
      assert (Em0 : rec_get m x = None) by (unfold m' in Em; rewrite remove_all_get_notin in Em by exact Hnp; exact Em).
      destruct (HI x Hb1) as (w & El & Hw). rewrite Em0 in Hw. rewrite B in El. inversion El; subst w.
      destruct Hw as (v' & E2 & V). exists v'. split; [|exact V].
      apply capture_get_in; [|exact C|exact E2].
      apply subst_fv_conv; [exact (mlit_closed Hnan Hm')|exact A|exact Em].
  Qed.

  Theorem rsim_all : forall e, RP e.
  Proof.
    induction e using expr_ind'; (split; [|intros x0 v0 Heq; try discriminate]).
    - intros _ F1 F2 m bound _ _ st st'. cbn. rfin. constructor.
    - intros _ F1 F2 m bound _ _ st st'. cbn. rfin. constructor.
    - intros _ F1 F2 m bound _ _ st st'. cbn. rfin. constructor.
    - intros _ F1 F2 m bound _ _ st st'. cbn. rfin. constructor.
    - apply RQ_id.
    - intros Hf; discriminate.
    - intros Hf F1 F2 m bound _ _ st st'. cbn in *. rfin. constructor. exact Hf.
    - (* list *)
      intros Hf F1 F2 m bound HE HV st st'. rewrite subst_EList. cbn [Eval.evalE].
      assert (HQ : Forall (fun c => RQ (cnode c)) items).
      { eapply Forall_impl; [|exact H]. intros c Hc. exact (proj1 Hc). }
      destruct (evalCL_rsim items HQ (hob_EList opok biok items Hf) F1 F2 m bound HE (fv_EList items bound HV) st st')
        as (r & s1 & r' & s1' & E1 & E2 & Hr).
      rewrite E1, E2. cbn [fst snd]. rfin.
      same r r' Hr; cbn; try exact I. constructor. apply lrel_flatten. exact Hr.
    - (* record *)
      intros Hf F1 F2 m bound HE HV st st'. rewrite subst_ERec. cbn [Eval.evalE].
      assert (HQ : Forall RQentry entries).
      { eapply Forall_impl; [|exact H]. intros [a [k v] t] Hc. unfold RQentry. cbn in *.
        destruct Hc as [Hk Hv]. split; [|exact (proj1 Hv)]. destruct k; auto; exact (proj1 Hk). }
      apply (evalRec_rsim entries HQ (hob_ERec opok biok entries Hf) F1 F2 m bound HE (fv_ERec entries bound HV)).
      constructor.
    - (* lambda: related closures *)
      intros Hf F1 F2 m bound HE HV st st'. cbn [subst Eval.evalE fresh_lambda fst snd]. rfin.
      cbn [EmitHO.hob] in Hf. apply (lam_sim args e Hf F1 F2 m bound HE HV).
    - (* conditional *)
      intros Hf F1 F2 m bound HE HV st st'. cbn [EmitHO.hob] in Hf. cbn [free_vars] in HV.
      apply andb_prop in Hf as [Hf Hf3]. apply andb_prop in Hf as [Hf1 Hf2].
      apply app_eq_nil in HV as [HV1 HV]. apply app_eq_nil in HV as [HV2 HV3].
      cbn [subst Eval.evalE].
      destruct (proj1 IHe1 Hf1 F1 F2 m bound HE HV1 st st') as (r & s1 & r' & s1' & E1 & E2 & Hr). rewrite E1, E2.
      same r r' Hr; try (rfin; exact I).
      rewrite <- (vrel_as_bool Hr).
      destruct (as_bool v) as [[|]| | | |]; failc.
      + apply (proj1 IHe2 Hf2 F1 F2 m bound HE HV2).
      + apply (proj1 IHe3 Hf3 F1 F2 m bound HE HV3).
    - (* do-block *)
      intros Hf F1 F2 m bound HE HV st st'. destruct ret as [rl ret rt]. cbn [cnode] in IHe.
      rewrite hob_EDo in Hf. apply andb_prop in Hf as [Hfs Hfr]. rewrite fv_EDo in HV.
      rewrite subst_EDo. rewrite !evalE_EDo. cbn [fst snd].
      destruct (do_rsim stmts H ret (proj1 IHe) Hfr Hfs [] [] F1 F2 m bound (RInv_push bound F1 F2 m HE) HV st st')
        as (r & s1 & g1 & r' & s1' & g2 & E1 & E2 & Hr).
      exists r, s1, r', s1'. split; [exact (pair_proj _ _ _ _ _ E1)|split; [exact (pair_proj _ _ _ _ _ E2)|exact Hr]].
    - intros Hf; discriminate.
    - inversion Heq; subst. exact (proj1 IHe).
    - intros Hf; discriminate.
    - (* call *)
      intros Hf F1 F2 m bound HE HV st st'. rewrite subst_ECall. cbn [Eval.evalE].
      destruct (hob_args opok biok _ _ Hf) as [Hff Hfa]. destruct (fv_args _ _ _ HV) as [HVf HVa].
      destruct (proj1 IHe Hff F1 F2 m bound HE HVf st st') as (r & s1 & r' & s1' & E1 & E2 & Hr). rewrite E1, E2.
      same r r' Hr; try (rfin; exact I).
      assert (HQ : Forall RQ args) by (eapply Forall_impl; [|exact H]; intros c Hc; exact (proj1 Hc)).
      destruct (evalL_rsim args HQ Hfa F1 F2 m bound HE HVa s1 s1') as (r2 & s2 & r2' & s2' & E3 & E4 & Hr2).
      rewrite E3, E4. same r2 r2' Hr2; failc.
      rewrite <- (vrel_is_function Hr).
      destruct (negb (is_function v)); [rfin; exact I|].
      pose proof (Happ_rel F1 F2 v v' v v' (flatten_spreads v0) (flatten_spreads v'0) s2 s2' Hr
                    (lrel_flatten Hr2)) as Hc.
      destruct (apply F1 v v (flatten_spreads v0) s2) as [res s3].
      destruct (apply F2 v' v' (flatten_spreads v'0) s2') as [res' s3'].
      rfin. exact Hc.
    - (* index *)
      intros Hf F1 F2 m bound HE HV st st'. cbn [EmitHO.hob] in Hf. cbn [free_vars] in HV.
      apply andb_prop in Hf as [Hf1 Hf2]. apply app_eq_nil in HV as [HV1 HV2].
      cbn [subst Eval.evalE].
      destruct (proj1 IHe1 Hf1 F1 F2 m bound HE HV1 st st') as (r & s1 & r' & s1' & E1 & E2 & Hr). rewrite E1, E2.
      same r r' Hr; try (rfin; exact I).
      destruct (proj1 IHe2 Hf2 F1 F2 m bound HE HV2 s1 s1') as (r2 & s2 & r2' & s2' & E3 & E4 & Hr2). rewrite E3, E4.
      same r2 r2' Hr2; try (rfin; exact I).
      rfin. apply vrel_access; assumption.
    - (* field *)
      intros Hf F1 F2 m bound HE HV st st'. cbn [EmitHO.hob] in Hf. cbn [free_vars] in HV.
      cbn [subst Eval.evalE].
      destruct (proj1 IHe Hf F1 F2 m bound HE HV st st') as (r & s1 & r' & s1' & E1 & E2 & Hr). rewrite E1, E2.
      same r r' Hr; try (rfin; exact I).
      rfin. apply vrel_dot; assumption.
    - (* binary operator *)
      intros Hf F1 F2 m bound HE HV st st'. cbn [EmitHO.hob] in Hf. cbn [free_vars] in HV.
      apply andb_prop in Hf as [Hf Hf2]. apply andb_prop in Hf as [Hop Hf1]. apply app_eq_nil in HV as [HV1 HV2].
      cbn [subst Eval.evalE].
      destruct (proj1 IHe1 Hf1 F1 F2 m bound HE HV1 st st') as (r & s1 & r' & s1' & E1 & E2 & Hr). rewrite E1, E2.
      same r r' Hr; try (rfin; exact I).
      destruct (proj1 IHe2 Hf2 F1 F2 m bound HE HV2 s1 s1') as (r2 & s2 & r2' & s2' & E3 & E4 & Hr2). rewrite E3, E4.
      same r2 r2' Hr2; try (rfin; exact I).
      pose proof (Hbin_rel (apply F1) (apply F2) op v v' v0 v'0 s2 s2' Hop (Happ_rel F1 F2) Hr Hr2) as Hc.
      destruct (binop_impl (apply F1) op v v0 s2) as [res s3].
      destruct (binop_impl (apply F2) op v' v'0 s2') as [res' s3'].
      rfin. exact Hc.
    - (* unary operator *)
      intros Hf F1 F2 m bound HE HV st st'. cbn [EmitHO.hob] in Hf. cbn [free_vars] in HV.
      cbn [subst Eval.evalE].
      destruct (proj1 IHe Hf F1 F2 m bound HE HV st st') as (r & s1 & r' & s1' & E1 & E2 & Hr). rewrite E1, E2.
      same r r' Hr; try (rfin; exact I).
      rfin. destruct op; [rewrite <- (vrel_as_number Hr); destruct (as_number v)
                        |rewrite <- (vrel_as_bool Hr); destruct (as_bool v)
                        |rewrite <- (vrel_as_bool Hr); destruct (as_bool v)]; cbn; try exact I; constructor.
    - (* factorial *)
      intros Hf F1 F2 m bound HE HV st st'. cbn [EmitHO.hob] in Hf. cbn [free_vars] in HV.
      cbn [subst Eval.evalE].
      destruct (proj1 IHe Hf F1 F2 m bound HE HV st st') as (r & s1 & r' & s1' & E1 & E2 & Hr). rewrite E1, E2.
      same r r' Hr; try (rfin; exact I).
      rfin. rewrite <- (vrel_as_number Hr). destruct (as_number v); cbn; try exact I.
      unfold factorial_val. destruct (_ && _); cbn; [constructor|exact I].
    - (* spread *)
      intros Hf F1 F2 m bound HE HV st st'. cbn [EmitHO.hob] in Hf. cbn [free_vars] in HV.
      cbn [subst Eval.evalE].
      destruct (proj1 IHe Hf F1 F2 m bound HE HV st st') as (r & s1 & r' & s1' & E1 & E2 & Hr). rewrite E1, E2.
      same r r' Hr; try (rfin; exact I).
      rfin. apply vrel_spread_val; assumption.
  Qed.
End Sim.

(* what is assumed of the operator / built-in implementations: related callbacks, related
   operands -> related outcomes (for the operators / built-ins that covered bodies may mention) *)
Definition impl_rel_on (opok : binop -> bool) (biok : builtin -> bool) (R : value -> value -> Prop)
    (binop_impl : callback -> binop -> value -> value -> store -> outcome value * store)
    (builtin_impl : callback -> builtin -> list value -> store -> outcome value * store) : Prop :=
  (forall cb cb' op l l' r r' st st', opok op = true -> cb_rel_on R cb cb' -> R l l' -> R r r' ->
     orel_gen R (fst (binop_impl cb op l r st)) (fst (binop_impl cb' op l' r' st'))) /\
  (forall cb cb' b args args' st st', biok b = true -> cb_rel_on R cb cb' -> Forall2 R args args' ->
     orel_gen R (fst (builtin_impl cb b args st)) (fst (builtin_impl cb' b args' st'))).

Lemma impl_rel_on_iff opok biok (R R' : value -> value -> Prop) binop_impl builtin_impl :
  (forall v v', R v v' <-> R' v v') ->
  impl_rel_on opok biok R binop_impl builtin_impl -> impl_rel_on opok biok R' binop_impl builtin_impl.
Proof.
  intros HR [Hbin Hbi].
  assert (HR' : forall v v', R' v v' <-> R v v') by (intros v v'; symmetry; apply HR).
  split.
  - intros cb cb' op l l' r r' st st' Hop Hcb Hl Hr.
    apply (orel_gen_mono R R' (fun v v' => proj1 (HR v v'))).
    apply Hbin; [exact Hop|exact (cb_rel_on_iff R' R HR' cb cb' Hcb)|apply HR; exact Hl|apply HR; exact Hr].
  - intros cb cb' b args args' st st' Hb Hcb Ha.
    apply (orel_gen_mono R R' (fun v v' => proj1 (HR v v'))).
    apply Hbi; [exact Hb|exact (cb_rel_on_iff R' R HR' cb cb' Hcb)|].
    exact (Forall2_mono R' R (fun v v' => proj2 (HR v v')) args args' Ha).
Qed.

(* what is assumed of the numbers and strings that may be inlined: their literal is closed text
   and, under this operator implementation, evaluates to the leaf and changes nothing *)
Definition leaves_eval (nanfix : bool) (numok : num -> bool) (strok : string -> bool) (release : bool)
    (binop_impl : callback -> binop -> value -> value -> store -> outcome value * store) : Prop :=
  (forall x, numok x = true -> nanfix || negb (is_nan x) = true) /\
  (forall apply x c, numok x = true ->
     evalE release binop_impl apply c (num_to_ast nanfix x) = (Ok (VNum x), c)) /\
  (forall apply s c, strok s = true ->
     evalE release binop_impl apply c (str_to_ast s) = (Ok (VStr s), c)).

(* ---------------------------------------------------------------- binding the parameters *)
Section Bind.
  Variable opok : binop -> bool.
  Variable biok : builtin -> bool.
  Variable nanfix : bool.
  Variable numok : num -> bool.
  Variable strok : string -> bool.
  Notation vrel := (vrelG opok biok nanfix numok strok).
  Notation lrel := (lrelG opok biok nanfix numok strok).

  Definition relP (a a' : frame) (x : string) : Prop :=
    exists v v', lookup_frame a x = Some v /\ lookup_frame a' x = Some v' /\ vrel v v'.

  Lemma bind_params_rel ps : forall idx args args' acc acc', lrel args args' ->
    match bind_params ps idx args acc, bind_params ps idx args' acc' with
    | Some fr, Some fr' => forall x, (In x (map arg_name ps) \/ relP acc acc' x) -> relP fr fr' x
    | None, None => True
    | _, _ => False
    end.
  Proof.
    induction ps as [|p ps IH]; intros idx args args' acc acc' Ha; cbn [bind_params].
    - intros x [[]|H]. exact H.
    - assert (Hgen : forall pv pv', vrel pv pv' ->
        match bind_params ps (S idx) args ((arg_name p, pv) :: acc),
              bind_params ps (S idx) args' ((arg_name p, pv') :: acc') with
        | Some fr, Some fr' => forall x, (In x (map arg_name (p :: ps)) \/ relP acc acc' x) -> relP fr fr' x
        | None, None => True
        | _, _ => False
        end).
      { intros pv pv' Hpv. specialize (IH (S idx) args args' ((arg_name p, pv) :: acc) ((arg_name p, pv') :: acc') Ha).
        destruct (bind_params ps (S idx) args _), (bind_params ps (S idx) args' _); try exact IH.
        intros x Hx. apply IH. cbn [map In] in Hx.
        destruct (String.eqb_spec x (arg_name p)) as [->|Hne].
        - destruct (in_dec string_dec (arg_name p) (map arg_name ps)) as [Hi|Hi]; [left; exact Hi|].
          right. exists pv, pv'. cbn [lookup_frame]. rewrite String.eqb_refl. auto.
        - destruct Hx as [[E|Hin]|(v & v' & A & B & C)]; [congruence|left; exact Hin|].
          right. exists v, v'. cbn [lookup_frame]. apply String.eqb_neq in Hne. rewrite Hne. auto. }
      pose proof (lrel_nth_error idx Ha) as Hn.
      destruct p as [y|y|y]; cbn [arg_name] in *.
      + destruct (nth_error args idx), (nth_error args' idx); try contradiction; [|exact I].
        apply Hgen. exact Hn.
      + apply Hgen. destruct (nth_error args idx), (nth_error args' idx); try contradiction; [exact Hn|constructor].
      + apply Hgen. constructor. apply lrel_skipn. exact Ha.
  Qed.
End Bind.

(* ---------------------------------------------------------------- the evaluator at depth d *)
Section Top.
  Variable opok : binop -> bool.
  Variable biok : builtin -> bool.
  Variable nanfix : bool.
  Variable numok : num -> bool.
  Variable strok : string -> bool.
  Notation lit := (value_to_ast nanfix true).
  Notation vrel := (vrelG opok biok nanfix numok strok).
  Notation lrel := (lrelG opok biok nanfix numok strok).
  Notation orel := (orelG opok biok nanfix numok strok).
  Notation hob := (hob opok biok).
  Notation cb_rel := (cb_rel_on vrel).

  Variable release : bool.
  Variable binop_impl : callback -> binop -> value -> value -> store -> outcome value * store.
  Variable builtin_impl : callback -> builtin -> list value -> store -> outcome value * store.
  Notation AD := (AD release binop_impl builtin_impl).

  Hypothesis Himpl : impl_rel_on opok biok vrel binop_impl builtin_impl.
  Hypothesis Hleaves : leaves_eval nanfix numok strok release binop_impl.

  Definition ADrel (d : nat) : Prop := forall fr fr', cb_rel (AD d fr) (AD d fr').

  Lemma lookup_parent (sc : frame) (fr : frames) x :
    lookup (match sc with [] => fr | _ => (FShared, sc) :: fr end) x =
    match rec_get sc x with Some v => Some v | None => lookup fr x end.
  Proof. destruct sc as [|kv sc]; [reflexivity|]. cbn [lookup]. now rewrite lookup_frame_rec_get. Qed.
  Lemma in_fst_get (sc : frame) x : In x (map fst sc) -> exists v, rec_get sc x = Some v.
  Proof.
    intros H. destruct (rec_get sc x) eqn:E; [eauto|]. apply rec_get_None_notin in E. contradiction.
  Qed.
  (* the names that AD's closure arm adds in front of the parameters (`inputs`, the function's own name) hide no
     captured name *)
  Lemma acc_none (fr : frames) (st : store) id this (sc : frame) x :
    x <> "inputs" -> rec_get sc x <> None ->
    lookup_frame (match lookup_frame sc "inputs" with   (* Eval.call_passed: the caller's inputs only when none is captured (F9) *)
                  | Some _ => []
                  | None => match lookup fr "inputs" with Some i => [("inputs", i)] | None => [] end
                  end ++
                  match lam_name st id with
                  | Some n => match lookup_frame sc n with Some _ => [] | None => [(n, this)] end
                  | None => []
                  end) x = None.
  Proof.
    intros Hi Hs. apply String.eqb_neq in Hi.
    destruct (lookup_frame sc "inputs") as [?|] eqn:Esi; [|destruct (lookup fr "inputs")];
      destruct (lam_name st id) as [n|]; cbn; rewrite ?Hi; try reflexivity;
      (destruct (lookup_frame sc n) eqn:E; cbn; rewrite ?Hi; try reflexivity;
       destruct (String.eqb_spec x n) as [->|]; [|reflexivity];
       rewrite lookup_frame_rec_get in E; congruence).
  Qed.

  (* the closure arm returns outcome and store of the body and drops its scope chain, on both sides *)
  Lemma call_tail2 (X X' : result) r s (F : frames) r' s' (F' : frames) (R : outcome value -> outcome value -> Prop) :
    X = (r, (s, F)) -> X' = (r', (s', F')) -> R r r' ->
    R (fst (let '(r0, (st0, _)) := X in (r0, st0))) (fst (let '(r0, (st0, _)) := X' in (r0, st0))).
  Proof. intros -> -> H. exact H. Qed.

  (* AD (S (S d)) runs the body with evalE (AD (S d)) and hands AD d to the built-ins as their callback:
     a step of the induction needs two consecutive depths, so they are proved together *)
  Lemma AD_rel_two : forall d, ADrel d /\ ADrel (S d).
  Proof.
    destruct Himpl as (Hbin & Hbi). destruct Hleaves as (Hnan & Hnum & Hstr).
    assert (Hstep : forall d' (cbf : frames -> callback),
               (forall fr fr', cb_rel (cbf fr) (cbf fr')) -> ADrel d' ->
               (forall fr, AD (S d') fr = apply_at builtin_impl (Some (evalE release binop_impl (AD d'), cbf fr)) fr) ->
               ADrel (S d')).
    { intros d' cbf Hcb Hd Hdef fr fr' this this' f f' args args' st st' Hf Ha. rewrite !Hdef. unfold apply_at.
      unfold check_arity, accepts. rewrite <- (vrel_fn_arity Hf), <- (lrel_length Ha).
      destruct (negb match fn_arity f with Some a => can_accept a (Datatypes.length args) | None => false end);
        [exact I|].
      destruct Hf; cbn [call_passed fst]; try exact I.
      - (* built-in *) apply Hbi; auto.
      - (* closure *)
        set (acc := (match lookup_frame sc "inputs" with
                     | Some _ => []
                     | None => match lookup fr "inputs" with Some i => [("inputs", i)] | None => [] end
                     end ++
                     match lam_name st id with
                     | Some n => match lookup_frame sc n with Some _ => [] | None => [(n, this)] end
                     | None => [] end)).
        set (acc' := (match lookup_frame sc' "inputs" with
                      | Some _ => []
                      | None => match lookup fr' "inputs" with Some i => [("inputs", i)] | None => [] end
                      end ++
                      match lam_name st' id' with
                      | Some n => match lookup_frame sc' n with Some _ => [] | None => [(n, this')] end
                      | None => [] end)).
        pose proof (bind_params_rel opok biok nanfix numok strok ps 0 args args' acc acc' Ha) as HB.
        destruct (bind_params ps 0 args acc) as [local|] eqn:EB;
          destruct (bind_params ps 0 args' acc') as [local'|] eqn:EB'; try contradiction; [|exact I].
        set (F1 := (FOwned, local) :: match sc with [] => fr | _ => (FShared, sc) :: fr end).
        set (F2 := (FOwned, local') :: match sc' with [] => fr' | _ => (FShared, sc') :: fr' end).
        set (bound := map arg_name ps ++ map fst sc).
        assert (HInv : RInv opok biok nanfix numok strok bound F1 F2 m).
        { repeat split; [assumption|assumption|].
          intros x Hx. unfold bound in Hx. rewrite mem_app in Hx.
          destruct (in_dec string_dec x (map arg_name ps)) as [Hin|Hnp].
          - destruct (HB x (or_introl Hin)) as (v & v' & A & B & C).
            exists v. unfold F1, F2. cbn [lookup]. rewrite A, B. split; [reflexivity|].
            rewrite (H2 x Hin). eauto.
          - assert (Hsc : In x (map fst sc)).
            { apply orb_prop in Hx as [Hx|Hx]; apply mem_In in Hx; [contradiction|exact Hx]. }
            destruct (in_fst_get sc x Hsc) as (v & Ev).
            assert (Hxi : x <> "inputs") by (intros ->; congruence).
            exists v. unfold F1. cbn [lookup].
            rewrite (bind_params_keeps ps 0 args acc local x EB Hnp). unfold acc.
            rewrite acc_none by (auto; congruence). rewrite lookup_parent, Ev. split; [reflexivity|].
            destruct (rec_get m x) as [a|] eqn:Em.
            + exact (H4 x v a Ev Em).
            + destruct (H6 x v Ev Em Hnp) as (v' & Ev' & V). exists v'. split; [|exact V].
              unfold F2. cbn [lookup]. rewrite (bind_params_keeps ps 0 args' acc' local' x EB' Hnp). unfold acc'.
              rewrite acc_none by (auto; congruence). rewrite lookup_parent, Ev'. reflexivity. }
        destruct (proj1 (rsim_all opok biok nanfix numok strok release binop_impl (AD d') Hbin Hd Hnan (Hnum (AD d')) (Hstr (AD d')) b) H F1 F2 m bound HInv H0 st st')
          as (r & s1 & r' & s1' & E1 & E2 & Hr).
        exact (call_tail2 _ _ _ _ _ _ _ _ orel E1 E2 Hr). }
    induction d as [|d [IH0 IH1]].
    - split.
      + intros fr fr' this this' f f' args args' st st' Hf Ha. cbn. unfold apply_at.
        unfold check_arity, accepts. rewrite <- (vrel_fn_arity Hf), <- (lrel_length Ha).
        destruct (negb _); exact I.
      + apply (Hstep O (fun _ => fun _ f a s => call_too_deep f a s)).
        * intros fr fr' this this' f f' args args' st st' Hf Ha. unfold call_too_deep.
          unfold check_arity, accepts. rewrite <- (vrel_fn_arity Hf), <- (lrel_length Ha).
          destruct (match fn_arity f with Some a => can_accept a (Datatypes.length args) | None => false end); exact I.
        * intros fr fr' this this' f f' args args' st st' Hf Ha. cbn. unfold apply_at.
          unfold check_arity, accepts. rewrite <- (vrel_fn_arity Hf), <- (lrel_length Ha).
          destruct (negb _); exact I.
        * intros fr. reflexivity.
    - split; [exact IH1|].
      apply (Hstep (S d) (fun fr => AD d fr)).
      + exact IH0.
      + exact IH1.
      + intros fr. reflexivity.
  Qed.

  (* THE SIMULATION: related functions applied to related arguments, at every depth, from any two
     scope chains, any two stores, any self values: related outcomes *)
  Theorem ho_simulationG : forall d fr fr', cb_rel (AD d fr) (AD d fr').
  Proof. intros d. exact (proj1 (AD_rel_two d)). Qed.
End Top.

(* the same for any relation that coincides with an instance of [vrelG] *)
Theorem ho_simulation_via (R : value -> value -> Prop) opok biok nanfix numok strok release binop_impl builtin_impl :
  (forall v v', R v v' <-> vrelG opok biok nanfix numok strok v v') ->
  leaves_eval nanfix numok strok release binop_impl ->
  impl_rel_on opok biok R binop_impl builtin_impl ->
  forall d fr fr', cb_rel_on R (AD release binop_impl builtin_impl d fr) (AD release binop_impl builtin_impl d fr').
Proof.
  intros HR Hleaves Himpl d fr fr'.
  apply (cb_rel_on_iff _ R (fun v v' => iff_sym (HR v v'))).
  apply ho_simulationG; [|exact Hleaves]. exact (impl_rel_on_iff _ _ _ _ _ _ HR Himpl).
Qed.

(* ---------------------------------------------------------------- [vrel]: no NaN, no string with both quote kinds *)
Lemma leaves_eval_plain nanfix release binop_impl : leaves_eval nanfix num_plain str_plain release binop_impl.
Proof.
  split; [exact (num_plain_nan nanfix)|split].
  - intros apply x c H. apply num_roundtrip. apply negb_true_iff. exact H.
  - intros apply s c H. apply str_plain_roundtrip. apply negb_true_iff. exact H.
Qed.

Section Plain.
  Variable opok : binop -> bool.
  Variable biok : builtin -> bool.
  Variable nanfix : bool.
  Notation vrel := (vrel opok biok nanfix).
  Notation lrel := (lrel opok biok nanfix).
  Notation orel := (orel opok biok nanfix).
  Notation cb_rel := (cb_rel opok biok nanfix).

  Variable release : bool.
  Variable binop_impl : callback -> binop -> value -> value -> store -> outcome value * store.
  Variable builtin_impl : callback -> builtin -> list value -> store -> outcome value * store.
  Notation AD := (AD release binop_impl builtin_impl).

  (* [impl_rel_on] at the relation EmitHO.vrel (convertible), written out: statements of Properties/C05.v mention it *)
  Definition impl_rel_respecting : Prop :=
    (forall cb cb' op l l' r r' st st', opok op = true -> cb_rel cb cb' -> vrel l l' -> vrel r r' ->
       orel (fst (binop_impl cb op l r st)) (fst (binop_impl cb' op l' r' st'))) /\
    (forall cb cb' b args args' st st', biok b = true -> cb_rel cb cb' -> lrel args args' ->
       orel (fst (builtin_impl cb b args st)) (fst (builtin_impl cb' b args' st'))).
  Hypothesis Himpl : impl_rel_respecting.

  Theorem ho_simulation : forall d fr fr' this this' f f' args args' st st',
    vrel f f' -> lrel args args' ->
    orel (fst (AD d fr this f args st)) (fst (AD d fr' this' f' args' st')).
  Proof. exact (ho_simulation_via _ _ _ _ _ _ _ _ _ (vrel_G opok biok nanfix) (leaves_eval_plain _ _ _) Himpl). Qed.
End Plain.
