(* Comments.v — C09: the documents produced by the formatter model account for every comment
   of the commented AST, in order.  See coq/Formatter.v for the model. *)
From Coq Require Import String Ascii List ZArith Bool Lia.
Require Import Blots.Num Blots.gen.Builtins Blots.Ast Blots.Formatter Blots.proofs.ExprInd Blots.proofs.FmtdInd.
Import ListNotations.
Open Scope list_scope.

(* ------------------------------------------------------------------ document algebra *)
Lemma dac_app : forall a b, doc_all_comments (a ++ b) = doc_all_comments a ++ doc_all_comments b.
Proof. intros; unfold doc_all_comments; apply flat_map_app. Qed.
Lemma dc_app : forall a b, doc_comments (a ++ b) = doc_comments a ++ doc_comments b.
Proof. intros; unfold doc_comments; apply flat_map_app. Qed.
Lemma dop_app : forall a b, doc_opaque (a ++ b) = doc_opaque a ++ doc_opaque b.
Proof. intros; unfold doc_opaque; apply flat_map_app. Qed.
Lemma dac_cons : forall p d, doc_all_comments (p :: d) = piece_all_comments p ++ doc_all_comments d.
Proof. reflexivity. Qed.

Lemma dac_dcomment_lines : forall l, doc_all_comments (dcomment_lines l) = l.
Proof.
  induction l as [|c r IH]; [reflexivity|].
  destruct r as [|c2 r']; [reflexivity|].
  change (dcomment_lines (c :: c2 :: r')) with (Comment c :: Nl :: dcomment_lines (c2 :: r')).
  rewrite !dac_cons, IH. reflexivity.
Qed.
Lemma dac_trailing_doc : forall tr, doc_all_comments (trailing_doc tr) = trailing_comments tr.
Proof. destruct tr as [t|]; [|reflexivity]. cbn [trailing_doc]. rewrite dac_cons. apply dac_dcomment_lines. Qed.
Lemma dac_leading_doc : forall i l, doc_all_comments (leading_doc i l) = l.
Proof.
  intros i l; induction l as [|c r IH]; [reflexivity|].
  unfold leading_doc in *; cbn [flat_map]. rewrite dac_app, IH. reflexivity.
Qed.
Lemma dac_repeat_nl : forall n, doc_all_comments (repeat Nl n) = [].
Proof. induction n; [reflexivity|]. cbn [repeat]. rewrite dac_cons, IHn. reflexivity. Qed.
Lemma dac_wrap_parens : forall b d, doc_all_comments (wrap_parens b d) = doc_all_comments d.
Proof. intros [] d; [|reflexivity]. unfold wrap_parens. rewrite !dac_app. cbn. now rewrite app_nil_r. Qed.
Lemma dac_protect_minus : forall d b, doc_all_comments (protect_minus d b) = doc_all_comments d.
Proof.
  intros d b. unfold protect_minus. destruct (negb b && starts_with_minus (render d)); [|reflexivity].
  rewrite !dac_app. cbn. now rewrite app_nil_r.
Qed.

(* a document shows every comment it accounts for as soon as what it printed opaquely is comment-free *)
Lemma dc_eq_dac : forall d, forallb cfree (doc_opaque d) = true -> doc_comments d = doc_all_comments d.
Proof.
  induction d as [|p d IH]; [reflexivity|]. intros H.
  change (p :: d) with ([p] ++ d) in *. rewrite dop_app in H. rewrite forallb_app in H.
  apply andb_prop in H as [Hp Hd]. rewrite dc_app, dac_app, (IH Hd). f_equal.
  destruct p; try reflexivity; cbn in Hp; cbn; unfold cfree in Hp;
    (destruct (expr_comments e); [reflexivity|discriminate]).
Qed.

(* ------------------------------------------------------------------ well-formed comment attachment *)
(* What the parser always produces and the formatter relies on: the return expression of a
   do-block carries no trailing comment (expressions.rs:2208-2212 sets None). *)
Fixpoint wf_ast (e : expr) : bool :=
  match e with
  | EList items => forallb (fun c => wf_ast (cnode c)) items
  | ERec entries =>
      forallb (fun c => match cnode c with
                        | REntry (KStatic _) v => wf_ast v
                        | REntry (KDyn k) v => wf_ast k && wf_ast v
                        | REntry (KShort _) _ => true
                        | REntry (KSpread x) _ => wf_ast x
                        end) entries
  | ELam _ body => wf_ast body
  | ECond c t f => wf_ast c && wf_ast t && wf_ast f
  | EDo stmts ret =>
      forallb (fun c => wf_ast (cnode c)) stmts && wf_ast (cnode ret)
      && match ctrailing ret with None => true | Some _ => false end
  | EAssign _ v => wf_ast v
  | EOutput x => wf_ast x
  | ECall f args => wf_ast f && forallb wf_ast args
  | EAccess a i => wf_ast a && wf_ast i
  | EDot a _ => wf_ast a
  | EBin _ l r => wf_ast l && wf_ast r
  | EUn _ a => wf_ast a
  | EFact a => wf_ast a
  | ESpread a => wf_ast a
  | _ => true
  end.

(* ------------------------------------------------------------------ layouts *)
Section Layouts.
  Variable O : oracles.
  Variable w : nat.
  Variable rec : expr -> nat -> doc.

  (* "the recursive call accounts for the comments of x" *)
  Definition keeps (x : expr) : Prop := forall i, doc_all_comments (rec x i) = expr_comments x.

  Lemma list_items_keeps : forall l inner,
    Forall (fun c => keeps (cnode c)) l ->
    doc_all_comments (list_items_doc rec l inner) = items_comments expr_comments l.
  Proof.
    induction l as [|[lead n tr] r IH]; intros inner H; [reflexivity|].
    inversion H as [|? ? Hn Hr]; subst. cbn [cnode] in Hn. cbn [list_items_doc items_comments].
    rewrite !dac_app, dac_leading_doc, dac_trailing_doc, (Hn inner), (IH inner Hr). reflexivity.
  Qed.

  Lemma list_doc_keeps : forall items i,
    Forall (fun c => keeps (cnode c)) items ->
    doc_all_comments (list_doc rec items i) = items_comments expr_comments items.
  Proof.
    intros items i H. destruct items as [|c r]; [reflexivity|].
    unfold list_doc. rewrite !dac_app, (list_items_keeps _ _ H). cbn. now rewrite app_nil_r.
  Qed.

  Definition keeps_entry (r : rentry) : Prop :=
    match r with
    | REntry (KStatic _) v => keeps v
    | REntry (KDyn k) v => keeps k /\ keeps v
    | REntry (KShort _) _ => True
    | REntry (KSpread x) _ => keeps x
    end.

  Lemma entry_doc_keeps : forall r i, keeps_entry r ->
    doc_all_comments (entry_doc O rec r i) = entry_comments expr_comments r.
  Proof.
    intros [[key|k|name|x] v] i H; cbn [entry_doc entry_comments keeps_entry] in *.
    - rewrite dac_cons. apply H.
    - destruct H as [Hk Hv]. rewrite !dac_app, (Hk i), (Hv i). reflexivity.
    - reflexivity.
    - apply H.
  Qed.

  Lemma rec_entries_keeps : forall l inner,
    Forall (fun c => keeps_entry (cnode c)) l ->
    doc_all_comments (rec_entries_doc O rec l inner) = entries_comments expr_comments l.
  Proof.
    induction l as [|[lead n tr] r IH]; intros inner H; [reflexivity|].
    inversion H as [|? ? Hn Hr]; subst. cbn [cnode] in Hn. cbn [rec_entries_doc entries_comments].
    rewrite !dac_app, dac_leading_doc, dac_trailing_doc, (entry_doc_keeps _ inner Hn), (IH inner Hr).
    reflexivity.
  Qed.

  Lemma record_doc_keeps : forall entries i,
    Forall (fun c => keeps_entry (cnode c)) entries ->
    doc_all_comments (record_doc O rec entries i) = entries_comments expr_comments entries.
  Proof.
    intros entries i H. destruct entries as [|c r]; [reflexivity|].
    unfold record_doc. rewrite !dac_app, (rec_entries_keeps _ _ H). cbn. now rewrite app_nil_r.
  Qed.

  Lemma lambda_doc_keeps : forall args body i, keeps body ->
    doc_all_comments (lambda_doc O w rec args body i) = expr_comments body.
  Proof.
    intros args body i H. unfold lambda_doc. cbv zeta.
    destruct (is_do body); [rewrite dac_app; apply H|].
    match goal with |- context [if ?b then _ else _] => destruct b end;
      rewrite dac_app, dac_wrap_parens; apply H.
  Qed.

  Lemma do_stmts_keeps : forall l inner first,
    Forall (fun c => keeps (cnode c)) l ->
    doc_all_comments (do_stmts_doc rec l inner first) = items_comments expr_comments l.
  Proof.
    induction l as [|[lead n tr] r IH]; intros inner first H; [reflexivity|].
    inversion H as [|? ? Hn Hr]; subst. cbn [cnode] in Hn. cbn [do_stmts_doc items_comments].
    rewrite !dac_app, dac_leading_doc, dac_trailing_doc, dac_protect_minus, (Hn inner), (IH inner false Hr).
    reflexivity.
  Qed.

  Lemma do_doc_keeps : forall stmts ret i,
    Forall (fun c => keeps (cnode c)) stmts -> keeps (cnode ret) -> ctrailing ret = None ->
    doc_all_comments (do_doc rec stmts ret i) = expr_comments (EDo stmts ret).
  Proof.
    intros stmts [rl rn rt] i Hs Hr Ht. cbn in Ht; subst rt.
    unfold do_doc. cbn [cleading cnode expr_comments trailing_comments].
    rewrite !dac_app, (do_stmts_keeps _ _ _ Hs), dac_leading_doc, (Hr _). cbn. now rewrite !app_nil_r.
  Qed.

  Lemma call_doc_keeps : forall f args i, keeps f -> Forall keeps args ->
    doc_all_comments (call_doc O rec f args i) = expr_comments (ECall f args).
  Proof.
    intros f args i Hf Ha. unfold call_doc. cbv zeta. cbn [expr_comments].
    assert (Hargs : forall inner,
      doc_all_comments (flat_map (fun a => [Nl; ind inner] ++ rec a inner ++ [Code ","]) args)
      = flat_map expr_comments args).
    { intro inner. induction Ha as [|x l Hx Hl IH]; [reflexivity|].
      cbn [flat_map]. rewrite !dac_app, (Hx _), IH. cbn. now rewrite app_nil_r. }
    destruct args;
      rewrite ?dac_app, ?dac_wrap_parens, ?Hargs, ?(Hf _); cbn; rewrite ?app_nil_r; reflexivity.
  Qed.

  Lemma binop_doc_keeps : forall op l r i, keeps l -> keeps r ->
    doc_all_comments (binop_doc O w rec op l r i) = expr_comments (EBin op l r).
  Proof.
    intros op l r i Hl Hr. unfold binop_doc. cbv zeta. cbn [expr_comments].
    repeat match goal with |- context [if ?b then _ else _] =>
      lazymatch b with
      | o_needs_parens _ _ _ _ => fail
      | _ => destruct b
      end end;
    rewrite ?dac_app, ?dac_wrap_parens, ?(Hl _), ?(Hr _); cbn; rewrite ?app_nil_r; reflexivity.
  Qed.
End Layouts.

(* ------------------------------------------------------------------ the formatter *)
Section Fmt.
  Variable O : oracles.
  Variable w : nat.
  Notation fmtd := (fmtd O w).

  (* Every comment of the AST is either shown by the document or sits under an expression the
     formatter printed opaquely — nothing else happens to comments, for every layout. *)
  Theorem fmtd_accounts_for_all_comments : forall e i,
    wf_ast e = true -> doc_all_comments (fmtd e i) = expr_comments e.
  Proof.
    intros e i Hw. revert e Hw i. apply (fmtd_ind O w (fun e => wf_ast e = true) (fun e d => doc_all_comments d = expr_comments e)).
    - intros e s _ _ _. cbn. apply app_nil_r.
    - intros items i Hw H. apply list_doc_keeps. exact (Forall_of_forallb _ _ _ Hw H).
    - intros entries i Hw H. apply record_doc_keeps. cbn [wf_ast] in Hw.
      refine (Forall_of_forallb _ _ _ Hw _). eapply Forall_impl; [|exact H].
      intros [lead [k v] tr] [Hk Hv] Hwe; cbn [cnode keeps_entry Pkey] in *.
      destruct k; [exact (Hv Hwe)| |exact I|exact (Hk Hwe)].
      apply andb_prop in Hwe as [W1 W2]. split; [exact (Hk W1)|exact (Hv W2)].
    - intros args body i Hw H. exact (lambda_doc_keeps O w fmtd args body i (H Hw)).
    - (* the else-if chain *)
      intros c t el i Hw Hc Ht Hel Cel. cbn [wf_ast] in Hw.
      apply andb_prop in Hw as [Hw W3]. apply andb_prop in Hw as [W1 W2].
      rewrite cond_doc_eq, !dac_app, (Ht W2). cbn [expr_comments]. f_equal; [|f_equal].
      + match goal with |- context [if ?b then _ else _] => destruct b end;
          rewrite !dac_app, (Hc W1); apply app_nil_r.
      + refine (else_doc_ind O w _ _ (fun d => doc_all_comments d = expr_comments el) el i W3 Hel Cel _ _);
          intros d Hd; rewrite dac_app; exact Hd.
    - intros stmts ret i Hw Hs Hr. cbn [wf_ast] in Hw.
      apply andb_prop in Hw as [Hw W3]. apply andb_prop in Hw as [W1 W2].
      apply do_doc_keeps; [exact (Forall_of_forallb _ _ _ W1 Hs)|exact (Hr W2)|].
      destruct (ctrailing ret); [discriminate|reflexivity].
    - intros x v i Hw H. rewrite dac_cons. exact (H Hw i).
    - intros x i Hw H. rewrite dac_cons. exact (H Hw i).
    - intros f args i Hw Hf Ha. cbn [wf_ast] in Hw. apply andb_prop in Hw as [W1 W2].
      apply call_doc_keeps; [exact (Hf W1)|exact (Forall_of_forallb _ _ _ W2 Ha)].
    - intros op l r i Hw Hl Hr. cbn [wf_ast] in Hw. apply andb_prop in Hw as [W1 W2].
      apply binop_doc_keeps; [exact (Hl W1)|exact (Hr W2)].
    - intros a ix i Hw _ H1 H2. cbn [wf_ast] in Hw. apply andb_prop in Hw as [W1 W2].
      rewrite !dac_app, dac_wrap_parens, (H1 W1), (H2 W2). cbn. now rewrite app_nil_r.
    - intros a f i Hw _ H. rewrite !dac_app, dac_wrap_parens, (H Hw). cbn. now rewrite app_nil_r.
    - intros op x i Hw _ H. rewrite !dac_app, dac_wrap_parens, (H Hw). reflexivity.
    - intros x i Hw _ H. rewrite !dac_app, dac_wrap_parens, (H Hw). cbn. now rewrite app_nil_r.
    - intros x i Hw _ H. rewrite !dac_app, (H Hw). reflexivity.
  Qed.

  (* doc_comments_preserved: the shown comments are exactly the AST's, whenever what was printed
     opaquely is comment-free *)
  Theorem fmtd_comments_preserved : forall e i,
    wf_ast e = true -> forallb cfree (doc_opaque (fmtd e i)) = true ->
    doc_comments (fmtd e i) = expr_comments e.
  Proof. intros e i Hw Ho. rewrite (dc_eq_dac _ Ho). now apply fmtd_accounts_for_all_comments. Qed.
End Fmt.

(* ------------------------------------------------------------------ statement drivers *)
Definition wf_stmt (s : stmt) : bool :=
  match s with St (SExpr e) _ _ _ | St (SOut e) _ _ _ => wf_ast e | St (SComment _) _ _ _ => true end.

Lemma dac_join_spacing : forall l,
  doc_all_comments (join_spacing l) = flat_map (fun x => doc_all_comments (fst (fst x))) l.
Proof.
  induction l as [|[[d s] e] rest IH]; [reflexivity|].
  destruct rest as [|[[d2 s2] e2] rest'].
  - cbn. now rewrite app_nil_r.
  - cbn [join_spacing flat_map fst] in *. rewrite !dac_app, dac_repeat_nl, IH. reflexivity.
Qed.

Lemma dac_concat : forall l, doc_all_comments (concat l) = flat_map doc_all_comments l.
Proof. induction l as [|d r IH]; [reflexivity|]. cbn [concat flat_map]. now rewrite dac_app, IH. Qed.

Lemma flat_map_map_first : forall {A B C} (f : bool -> A -> B) (g : B -> list C) (h : A -> list C) l,
  (forall b x, In x l -> g (f b x) = h x) -> flat_map g (map_first f l) = flat_map h l.
Proof.
  intros A B C f g h l H. destruct l as [|x r]; [reflexivity|].
  cbn [map_first flat_map]. rewrite (H true x (or_introl eq_refl)). f_equal.
  assert (H' : forall y, In y r -> g (f false y) = h y) by (intros; apply H; now right).
  clear H. induction r as [|y r IH]; [reflexivity|].
  cbn [map flat_map]. rewrite (H' y (or_introl eq_refl)), IH; [reflexivity|]. intros; apply H'; now right.
Qed.

Section Drivers.
  Variable O : oracles.

  Lemma format_expr_accounts : forall e mw, wf_ast e = true ->
    doc_all_comments (format_expr_doc O e mw) = expr_comments e.
  Proof. intros. unfold format_expr_doc. now apply fmtd_accounts_for_all_comments. Qed.

  Lemma lib_stmt_accounts : forall mw first s, wf_stmt s = true ->
    doc_all_comments (fst (fst (lib_stmt O mw first s))) = stmt_comments s.
  Proof.
    intros mw first [k eol sl el] Hw. cbn [lib_stmt fst stmt_comments].
    assert (Hk : doc_all_comments
                   (protect_minus
                      match k with
                      | SComment c => [Comment c]
                      | SOut e => format_expr_doc O (EOutput e) mw
                      | SExpr e => format_expr_doc O e mw
                      end first)
                 = match k with SExpr e | SOut e => expr_comments e | SComment c => [c] end).
    { rewrite dac_protect_minus.
      destruct k; cbn in Hw; [now apply format_expr_accounts| |reflexivity].
      rewrite format_expr_accounts; [reflexivity|exact Hw]. }
    destruct eol as [c|]; [rewrite dac_app|]; rewrite Hk; [reflexivity|now rewrite app_nil_r].
  Qed.

  Lemma cli_stmt_accounts : forall first s, wf_stmt s = true ->
    doc_all_comments (cli_stmt O first s) = stmt_comments s.
  Proof.
    intros first [k eol sl el] Hs. cbn [cli_stmt stmt_comments]. rewrite !dac_app.
    replace (doc_all_comments [Nl]) with (@nil string) by reflexivity. rewrite app_nil_r. f_equal.
    - destruct k; cbn in Hs; [rewrite dac_protect_minus; now apply format_expr_accounts| |reflexivity].
      rewrite format_expr_accounts; [reflexivity|exact Hs].
    - now destruct eol.
  Qed.

End Drivers.
