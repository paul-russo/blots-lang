(* CallSite.v — C04: a function that is closed after capture (hereditarily, Closed.v) returns
   the same outcome and store for the same arguments from EVERY call site: FunctionDef::call
   does not depend on the caller's scope chain except through `inputs`.

   Structure: (1) evaluating an expression in a chain H ++ T, where every name the expression
   can look up is bound in the prefix H, does not depend on T except through T's `inputs`
   binding, and leaves T untouched; (2) by induction on the depth budget, the same for
   FunctionDef::call on closed functions and closed arguments. *)
From Coq Require Import String Ascii List ZArith Bool Lia.
Require Import Blots.Num Blots.gen.Builtins Blots.Ast Blots.Value Blots.Outcome Blots.Binop
               Blots.Env Blots.Eval Blots.BuiltinsHof Blots.Program Blots.EvalInst
               Blots.proofs.ExprInd Blots.proofs.ValueInd Blots.proofs.StoreMono
               Blots.proofs.ValuePred Blots.proofs.Closed Blots.proofs.ClosedOps Blots.proofs.FreeVars Blots.proofs.Closures
               Blots.proofs.Frames.
Import ListNotations.
Open Scope string_scope.
Open Scope list_scope.
Open Scope nat_scope.

(* ------------------------------------------------------------------ chains H ++ T *)
Lemma lookup_app : forall H T x,
  lookup (H ++ T) x = match lookup H x with Some v => Some v | None => lookup T x end.
Proof.
  induction H as [|[k f] H IH]; intros T x; cbn [app lookup]; [reflexivity|].
  destruct (lookup_frame f x); [reflexivity|apply IH].
Qed.

Definition inputs_of (T : frames) : option value := lookup T "inputs".
Definition covered (H : frames) (vars : list string) : Prop := forall x, In x vars -> lookup H x <> None.

(* the head frame got some bindings added; everything else is as it was *)
Definition grows (H H' : frames) : Prop :=
  exists k f added rest, H = (k, f) :: rest /\ H' = (k, added ++ f) :: rest.
Lemma grows_refl : forall H, H <> [] -> grows H H.
Proof. intros [|[k f] r] Hne; [congruence|]. exists k, f, [], r. split; reflexivity. Qed.
Lemma grows_trans : forall A B C, grows A B -> grows B C -> grows A C.
Proof.
  intros A B C (k & f & a1 & r & -> & ->) (k' & f' & a2 & r' & E & ->). inversion E; subst.
  exists k', f, (a2 ++ a1), r'. split; [reflexivity|rewrite app_assoc; reflexivity].
Qed.
Lemma grows_ne : forall H H', grows H H' -> H' <> [].
Proof. intros H H' (k & f & a & r & _ & ->). discriminate. Qed.
Lemma lookup_frame_app_some : forall a f x, lookup_frame f x <> None -> lookup_frame (a ++ f) x <> None.
Proof.
  induction a as [|[y v] a IH]; intros f x Hx; cbn [app lookup_frame]; [exact Hx|].
  destruct (String.eqb x y); [discriminate|apply IH; exact Hx].
Qed.
Lemma grows_covered : forall H H' vars, grows H H' -> covered H vars -> covered H' vars.
Proof.
  intros H H' vars (k & f & a & r & -> & ->) Hc x Hx. specialize (Hc x Hx). cbn [lookup] in *.
  destruct (lookup_frame f x) eqn:E.
  - assert (Hn : lookup_frame (a ++ f) x <> None) by (apply lookup_frame_app_some; congruence).
    destruct (lookup_frame (a ++ f) x); [discriminate|congruence].
  - destruct (lookup_frame (a ++ f) x); [discriminate|exact Hc].
Qed.

Lemma insert_head_app : forall H T x v,
  H <> [] ->
  insert_head (H ++ T) x v =
  match insert_head H x v with Some H' => Some (H' ++ T) | None => None end.
Proof. intros [|[[|] f] r] T x v Hne; [congruence| |]; reflexivity. Qed.
Lemma insert_head_grows : forall H x v H', insert_head H x v = Some H' -> grows H H' /\ lookup H' x <> None.
Proof.
  intros [|[[|] f] r] x v H' E; try discriminate. inversion E; subst. split.
  - exists FOwned, f, [(x, v)], r. split; reflexivity.
  - cbn [lookup lookup_frame]. rewrite String.eqb_refl. discriminate.
Qed.

Lemma capture_covered : forall H T vars acc,
  covered H vars -> capture (H ++ T) vars acc = capture H vars acc.
Proof.
  intros H T vars; induction vars as [|x vars IH]; intros acc Hc; [reflexivity|].
  cbn [capture]. rewrite lookup_app.
  assert (Hx : lookup H x <> None) by (apply Hc; left; reflexivity).
  assert (Hc' : covered H vars) by (intros y Hy; apply Hc; right; exact Hy).
  destruct (lookup H x); [|congruence]. destruct (is_builtin_name x); apply IH; exact Hc'.
Qed.

Lemma closed_frames_app_grow : forall st k f a r,
  closed_frames st ((k, f) :: r) -> closed_frame st a -> closed_frames st ((k, a ++ f) :: r).
Proof.
  intros st k f a r HH Ha. inversion HH; subst. constructor; [|assumption]. cbn [snd] in *.
  apply Forall_app; split; assumption.
Qed.

(* nca implies that every identifier and shorthand key has a non-built-in name *)
Definition nonbuiltin (x : string) : Prop := is_builtin_name x = false.
Definition nca_stmt (s : expr) : bool := match s with EAssign _ v => nca v | _ => nca s end.
Lemma nca_ids_ok_gen : forall e,
  (nca e = true -> ids_ok nonbuiltin e) /\ (nca_stmt e = true -> ids_ok nonbuiltin e).
Proof.
  (* The nca_stmt form is proved (Hmain); the nca form follows from it, since nca_stmt e is nca e except
     at e = EAssign x v, where nca e = false. *)
  induction e using expr_ind';
    (match goal with |- (nca ?e0 = true -> _) /\ _ =>
       assert (Hmain : nca_stmt e0 = true -> ids_ok nonbuiltin e0);
       [|split; [first [exact Hmain|intros Hx; discriminate Hx]|exact Hmain]] end);
    unfold nca_stmt; intros Hn; cbn [nca ids_ok] in *; try exact I; try discriminate;
    (* one or two sub-expressions, nothing else *)
    try (apply (proj1 IHe); exact Hn);
    try (apply andb_true_iff in Hn; destruct Hn; split; [apply (proj1 IHe1)|apply (proj1 IHe2)]; assumption).
  - unfold nonbuiltin. destruct (is_builtin_name x); [discriminate|reflexivity].
  - (* EInRef: reads `inputs`, which is not the name of a built-in *) reflexivity.
  - match goal with HF : Forall _ items |- _ => induction HF as [|[ld a tr] l Ha _ IHl] end; [exact I|].
    cbn [cnode] in Ha. apply andb_true_iff in Hn. destruct Hn as [H1 H2]. split; [apply (proj1 Ha); exact H1|apply IHl; exact H2].
  - match goal with HF : Forall _ entries |- _ => induction HF as [|[ld [k v] tr] l Ha _ IHl] end; [exact I|].
    cbn [cnode Pentry] in Ha. destruct Ha as [Hk Hv]. apply andb_true_iff in Hn. destruct Hn as [H1 H2].
    split; [|apply IHl; exact H2]. destruct k as [key|ke|z|se]; cbn [Pkey] in Hk.
    + apply (proj1 Hv); exact H1.
    + apply andb_true_iff in H1. destruct H1; split; [apply (proj1 Hk)|apply (proj1 Hv)]; assumption.
    + unfold nonbuiltin. destruct (is_builtin_name z); [discriminate|reflexivity].
    + apply (proj1 Hk); exact H1.
  - apply andb_true_iff in Hn. destruct Hn as [Hn H3]. apply andb_true_iff in Hn. destruct Hn as [H1 H2].
    split; [apply (proj1 IHe1); exact H1|split; [apply (proj1 IHe2); exact H2|apply (proj1 IHe3); exact H3]].
  - match goal with HF : Forall _ stmts, HR : _ /\ _ |- _ => rename HF into HFs; rename HR into HRet end.
    destruct ret as [ld rt tr]. cbn [cnode] in HRet. apply andb_true_iff in Hn. destruct Hn as [Hs Hr]. split.
    + clear Hr HRet. induction HFs as [|[l1 s t1] l Hs1 _ IHl]; [exact I|].
      cbn [cnode] in Hs1. apply andb_true_iff in Hs. destruct Hs as [Ha Hb]. split; [|apply IHl; exact Hb].
      apply (proj2 Hs1). exact Ha.
    + apply (proj2 HRet). exact Hr.
  - apply andb_true_iff in Hn. destruct Hn as [H1 H2]. split; [apply (proj1 IHe); exact H1|].
    match goal with HF : Forall _ args |- _ => induction HF as [|a l Ha _ IHl] end; [exact I|].
    apply andb_true_iff in H2. destruct H2 as [H2a H2b]; split; [apply (proj1 Ha); assumption|apply IHl; exact H2b].
Qed.
Lemma nca_ids_ok : forall e, nca e = true -> ids_ok nonbuiltin e.
Proof. intros e. exact (proj1 (nca_ids_ok_gen e)). Qed.

(* ------------------------------------------------------------------ the simulation *)
Definition closed_res (st : store) (r : outcome value) : Prop := forall v, r = Ok v -> closed_value st v.

Section Sim.
  Variable release : bool.
  Variable bi : callback -> binop -> value -> value -> store -> outcome value * store.
  Variable bu : callback -> builtin -> list value -> store -> outcome value * store.
  Hypothesis Hbi : GenOps.binop_agrees store_le closed_value bi.
  Hypothesis Hbu : GenOps.builtin_agrees store_le closed_value bu.

  Definition inputs_closed (st : store) (fr : frames) : Prop :=
    forall v, lookup fr "inputs" = Some v -> closed_value st v.

  Section E.
  Variable apply : frames -> callback.
  Hypothesis Hap_agree : forall fr1 fr2 s0, lookup fr1 "inputs" = lookup fr2 "inputs" ->
    inputs_closed s0 fr1 -> cb_agree s0 (apply fr1) (apply fr2).
  Hypothesis Hap_closed : forall fr s0, inputs_closed s0 fr -> cb_closed s0 (apply fr).
  Notation evalE := (evalE release bi apply).

  (* the state in which an expression is evaluated: prefix H (non-empty, closed values) and the
     `inputs` binding [oi] of whatever tail follows (closed) *)
  Record st_ok (st : store) (H : frames) (oi : option value) : Prop := {
    ok_ne : H <> [];
    ok_closed : closed_frames st H;
    ok_inputs : forall v, oi = Some v -> closed_value st v }.

  Lemma st_ok_mono : forall st st' H oi, store_le st st' -> st_ok st H oi -> st_ok st' H oi.
  Proof.
    intros st st' H oi Hle [A B C]. split; [exact A|eapply closed_frames_mono; eauto|].
    intros v Hv. eapply closed_mono; eauto.
  Qed.

  (* RESULT of evaluating e from (st, H ++ T): independent of T, T untouched *)
  Definition indep (ev : cfg -> expr -> result) (st : store) (H : frames) (oi : option value) (e : expr) : Prop :=
    exists r st' H',
      (forall T, inputs_of T = oi -> ev (st, H ++ T) e = (r, (st', H' ++ T))) /\
      store_le st st' /\ grows H H' /\ closed_frames st' H' /\ closed_res st' r.

  Definition sim_ok (e : expr) : Prop :=
    forall bound st H oi, st_ok st H oi -> nca e = true ->
      covered H (free_vars e bound) -> covered H bound -> indep evalE st H oi e.

  Lemma inputs_closed_app : forall st H T oi, st_ok st H oi -> inputs_of T = oi -> inputs_closed st (H ++ T).
  Proof.
    intros st H T oi Hok HT v Hv. rewrite lookup_app in Hv. destruct (lookup H "inputs") eqn:E.
    - inversion Hv; subst. eapply lookup_P; [apply (ok_closed _ _ _ Hok)|exact E].
    - apply (ok_inputs _ _ _ Hok). unfold inputs_of in HT. congruence.
  Qed.

  (* a canonical tail with a given inputs binding *)
  Definition tail_of (oi : option value) : frames :=
    match oi with Some v => [(FOwned, [("inputs", v)])] | None => [] end.
  Lemma inputs_tail_of : forall oi, inputs_of (tail_of oi) = oi.
  Proof. intros [v|]; reflexivity. Qed.

  (* the callbacks of the chains H ++ T agree with the one of the canonical tail, which is closed *)
  Lemma apply_app_agree : forall st H oi T,
    st_ok st H oi -> inputs_of T = oi -> cb_agree st (apply (H ++ tail_of oi)) (apply (H ++ T)).
  Proof.
    intros st H oi T Hok HT. apply Hap_agree.
    - rewrite !lookup_app. unfold inputs_of in HT. rewrite HT.
      pose proof (inputs_tail_of oi) as Hc. unfold inputs_of in Hc. rewrite Hc. reflexivity.
    - eapply inputs_closed_app; [exact Hok|apply inputs_tail_of].
  Qed.
  Lemma apply_app_closed : forall st H oi, st_ok st H oi -> cb_closed st (apply (H ++ tail_of oi)).
  Proof. intros st H oi Hok. apply Hap_closed. eapply inputs_closed_app; [exact Hok|apply inputs_tail_of]. Qed.

  (* calls made from H ++ T do not depend on T *)
  Lemma apply_indep : forall st H oi this f args,
    st_ok st H oi -> closed_value st this -> closed_value st f -> closed_list st args ->
    exists r st',
      (forall T, inputs_of T = oi -> apply (H ++ T) this f args st = (r, st')) /\
      store_le st st' /\ closed_res st' r.
  Proof.
    intros st H oi this f args Hok Ht Hf Ha.
    destruct (apply (H ++ tail_of oi) this f args st) as [r st'] eqn:E.
    exists r, st'. split.
    - intros T HT. rewrite <- E. symmetry.
      apply (apply_app_agree st H oi T Hok HT); auto. apply store_le_refl.
    - exact (apply_app_closed st H oi Hok this f args st r st' (store_le_refl st) Ht Hf Ha E).
  Qed.

  Lemma indep_const : forall st H oi e v,
    st_ok st H oi -> (forall c, evalE c e = (Ok v, c)) -> closed_value st v -> indep evalE st H oi e.
  Proof.
    intros st H oi e v Hok He Hv. exists (Ok v), st, H. split; [intros T _; apply He|].
    split; [apply store_le_refl|split; [apply grows_refl; apply (ok_ne _ _ _ Hok)|]].
    split; [apply (ok_closed _ _ _ Hok)|]. intros w Hw. inversion Hw; subst. exact Hv.
  Qed.

  Lemma indep_fail : forall st H oi e o,
    st_ok st H oi -> (forall a, o <> Ok a) -> (forall T, evalE (st, H ++ T) e = (o, (st, H ++ T))) ->
    indep evalE st H oi e.
  Proof.
    intros st H oi e o Hok Ho He. exists o, st, H. split; [intros T _; apply He|].
    split; [apply store_le_refl|split; [apply grows_refl; apply (ok_ne _ _ _ Hok)|]].
    split; [apply (ok_closed _ _ _ Hok)|]. intros w Hw. exfalso. apply (Ho w). exact Hw.
  Qed.

  Lemma covered_app : forall H a b, covered H (a ++ b) -> covered H a /\ covered H b.
  Proof. intros H a b Hc. split; intros x Hx; apply Hc; apply in_or_app; [left|right]; exact Hx. Qed.

  (* one sub-evaluation, with the bookkeeping needed to continue from its result *)
  Lemma step : forall e bound st H oi,
    sim_ok e -> st_ok st H oi -> nca e = true ->
    covered H (free_vars e bound) -> covered H bound ->
    exists r st1 H1,
      (forall T, inputs_of T = oi -> evalE (st, H ++ T) e = (r, (st1, H1 ++ T))) /\
      store_le st st1 /\ grows H H1 /\ st_ok st1 H1 oi /\ closed_res st1 r.
  Proof.
    intros e bound st H oi He Hok Hn Hc Hb.
    destruct (He bound st H oi Hok Hn Hc Hb) as (r & st1 & H1 & E & Hle & Hg & Hcl & Hr).
    exists r, st1, H1. split; [exact E|split; [exact Hle|split; [exact Hg|split; [|exact Hr]]]].
    split; [eapply grows_ne; eauto|exact Hcl|].
    intros v Hv. eapply closed_mono; [exact Hle|]. apply (ok_inputs _ _ _ Hok). exact Hv.
  Qed.

  Lemma st_ok_grow : forall st H H1 oi, st_ok st H oi -> grows H H1 -> closed_frames st H1 -> st_ok st H1 oi.
  Proof. intros st H H1 oi [A B C] Hg Hc. split; [eapply grows_ne; eauto|exact Hc|exact C]. Qed.

  (* The evaluator's state-and-outcome monad, seen from a chain H ++ T: running m gives a result that
     does not depend on T (except through its `inputs`) and leaves T untouched, the prefix stays ok,
     and an Ok result satisfies Q in the store and prefix reached.  [indep], the statement about one
     expression, is [sim cval] with closed_frames in place of st_ok: that the prefix is non-empty and
     `inputs` closed is not a result of evaluating, [step] restores it from the precondition, so that
     the next sub-evaluation can start from st_ok again.  [step] is this for a sub-expression;
     [sim_bind] follows the evaluator's `match m c with (Ok a, c1) => k a c1 | (o, c1) => (o, c1) end`. *)
  Definition sim {A} (Q : store -> frames -> A -> Prop) (m : cfg -> outcome A * cfg)
             (st : store) (H : frames) (oi : option value) : Prop :=
    exists r st1 H1,
      (forall T, inputs_of T = oi -> m (st, H ++ T) = (r, (st1, H1 ++ T))) /\
      store_le st st1 /\ grows H H1 /\ st_ok st1 H1 oi /\ (forall a, r = Ok a -> Q st1 H1 a).
  Definition cval (st : store) (_ : frames) (v : value) : Prop := closed_value st v.
  Definition clist (st : store) (_ : frames) (vs : list value) : Prop := closed_list st vs.

  Lemma sim_ret : forall A (Q : store -> frames -> A -> Prop) m r st H oi,
    st_ok st H oi -> (forall T, inputs_of T = oi -> m (st, H ++ T) = (r, (st, H ++ T))) ->
    (forall a, r = Ok a -> Q st H a) -> sim Q m st H oi.
  Proof.
    intros A Q m r st H oi Hok Hm HQ. exists r, st, H. split; [exact Hm|].
    split; [apply store_le_refl|split; [apply grows_refl; apply (ok_ne _ _ _ Hok)|split; [exact Hok|exact HQ]]].
  Qed.

  (* [f] is how the evaluator passes a failure on: as it is, or through cast_fail at another type *)
  Lemma sim_bind_f : forall A B (Q : store -> frames -> A -> Prop) (Q' : store -> frames -> B -> Prop)
                            m k (f : outcome A -> outcome B) st H oi,
    (forall o b, f o = Ok b -> exists a, o = Ok a) ->
    sim Q m st H oi ->
    (forall a st1 H1, store_le st st1 -> grows H H1 -> st_ok st1 H1 oi -> Q st1 H1 a -> sim Q' (k a) st1 H1 oi) ->
    sim Q' (fun c => match m c with (Ok a, c1) => k a c1 | (o, c1) => (f o, c1) end) st H oi.
  Proof.
    intros A B Q Q' m k f st H oi Hf (r & st1 & H1 & E1 & Hle1 & Hg1 & Hok1 & Hr1) Hk.
    destruct r as [a| | | |];
      try (eexists _, st1, H1; split; [intros T HT; rewrite (E1 T HT); reflexivity|];
           split; [exact Hle1|split; [exact Hg1|split; [exact Hok1|]]];
           intros b Hq; destruct (Hf _ _ Hq) as [? Hx]; discriminate Hx).
    destruct (Hk a st1 H1 Hle1 Hg1 Hok1 (Hr1 a eq_refl)) as (r2 & st2 & H2 & E2 & Hle2 & Hg2 & Hok2 & Hr2).
    exists r2, st2, H2. split; [intros T HT; rewrite (E1 T HT); apply (E2 T HT)|].
    split; [eapply store_le_trans; eauto|split; [eapply grows_trans; eauto|split; [exact Hok2|exact Hr2]]].
  Qed.
  Lemma sim_bind : forall A (Q Q' : store -> frames -> A -> Prop) m k st H oi,
    sim Q m st H oi ->
    (forall a st1 H1, store_le st st1 -> grows H H1 -> st_ok st1 H1 oi -> Q st1 H1 a -> sim Q' (k a) st1 H1 oi) ->
    sim Q' (fun c => match m c with (Ok a, c1) => k a c1 | (o, c1) => (o, c1) end) st H oi.
  Proof. intros A Q Q' m k st H oi. apply sim_bind_f. intros o b ->. exists b; reflexivity. Qed.
  Lemma sim_bind_cast : forall A B (Q : store -> frames -> A -> Prop) (Q' : store -> frames -> B -> Prop) m k st H oi,
    sim Q m st H oi ->
    (forall a st1 H1, store_le st st1 -> grows H H1 -> st_ok st1 H1 oi -> Q st1 H1 a -> sim Q' (k a) st1 H1 oi) ->
    sim Q' (fun c => match m c with (Ok a, c1) => k a c1 | (o, c1) => (cast_fail o, c1) end) st H oi.
  Proof. intros A B Q Q' m k st H oi. apply sim_bind_f. intros [] b Hq; discriminate Hq. Qed.

  Lemma sim_weaken : forall A (Q Q' : store -> frames -> A -> Prop) m st H oi,
    sim Q m st H oi -> (forall s h a, Q s h a -> Q' s h a) -> sim Q' m st H oi.
  Proof.
    intros A Q Q' m st H oi (r & st1 & H1 & E & Hle & Hg & Hok1 & Hr) HQ. exists r, st1, H1.
    split; [exact E|split; [exact Hle|split; [exact Hg|split; [exact Hok1|]]]]. intros a Ha. apply HQ, Hr, Ha.
  Qed.

  Lemma sim_indep : forall e st H oi, sim cval (fun c => evalE c e) st H oi -> indep evalE st H oi e.
  Proof.
    intros e st H oi (r & st1 & H1 & E & Hle & Hg & Hok1 & Hr). exists r, st1, H1.
    split; [exact E|split; [exact Hle|split; [exact Hg|split; [apply (ok_closed _ _ _ Hok1)|exact Hr]]]].
  Qed.

  Lemma evalL_sim : forall l, Forall sim_ok l ->
    forall bound st H oi, st_ok st H oi ->
      (fix go (l : list expr) : bool := match l with [] => true | a :: r => nca a && go r end) l = true ->
      covered H ((fix go (l : list expr) : list string :=
                    match l with [] => [] | a :: r => free_vars a bound ++ go r end) l) ->
      covered H bound ->
      sim clist (fun c => evalL evalE c l) st H oi.
  Proof.
    intros l HF; induction HF as [|x l Hx _ IH]; intros bound st H oi Hok Hn Hc Hb; cbn [evalL].
    - apply sim_ret with (r := Ok []); [exact Hok|reflexivity|]. intros vs Hv. inversion Hv; constructor.
    - apply andb_true_iff in Hn. destruct Hn as [Hn1 Hn2]. apply covered_app in Hc. destruct Hc as [Hc1 Hc2].
      eapply sim_bind_cast; [exact (step x bound st H oi Hx Hok Hn1 Hc1 Hb)|].
      intros v st1 H1 _ Hg1 Hok1 Hv.
      eapply sim_bind; [exact (IH bound st1 H1 oi Hok1 Hn2 (grows_covered _ _ _ Hg1 Hc2) (grows_covered _ _ _ Hg1 Hb))|].
      intros vs st2 H2 Hle2 _ Hok2 Hvs. apply sim_ret with (r := Ok (v :: vs)); [exact Hok2|reflexivity|].
      intros ws Hw. inversion Hw; subst. constructor; [eapply closed_mono; [exact Hle2|exact Hv]|exact Hvs].
  Qed.

  (* a list literal: the items without their comments *)
  Lemma nca_items_nodes : forall l : list (commented expr),
    (fix go (l : list (commented expr)) : bool := match l with [] => true | Cm _ a _ :: r => nca a && go r end) l =
    (fix go (l : list expr) : bool := match l with [] => true | a :: r => nca a && go r end) (map cnode l).
  Proof. induction l as [|[ld a tr] l IH]; [reflexivity|]. cbn [map cnode]. rewrite IH. reflexivity. Qed.
  Lemma fv_items_nodes : forall bound (l : list (commented expr)),
    (fix go (l : list (commented expr)) : list string :=
       match l with [] => [] | Cm _ a _ :: r => free_vars a bound ++ go r end) l =
    (fix go (l : list expr) : list string :=
       match l with [] => [] | a :: r => free_vars a bound ++ go r end) (map cnode l).
  Proof. intros bound l. induction l as [|[ld a tr] l IH]; [reflexivity|]. cbn [map cnode]. rewrite IH. reflexivity. Qed.

  Lemma lookup_covered_app : forall H T x, lookup H x <> None -> lookup (H ++ T) x = lookup H x.
  Proof. intros H T x Hx. rewrite lookup_app. destruct (lookup H x); [reflexivity|congruence]. Qed.

  Definition rec_fv (bound : list string) :=
    fix go (l : list (commented rentry)) : list string :=
      match l with
      | [] => []
      | Cm _ (REntry k v) _ :: r =>
          (match k with
           | KDyn a => free_vars a bound ++ free_vars v bound
           | KSpread a => free_vars a bound
           | KStatic _ => free_vars v bound
           | KShort x => if mem x bound then [] else [x]
           end) ++ go r
      end.
  Definition rec_nca :=
    fix go (l : list (commented rentry)) : bool :=
      match l with
      | [] => true
      | Cm _ (REntry k v) _ :: r =>
          (match k with
           | KDyn a => nca a && nca v
           | KSpread a => nca a
           | KStatic _ => nca v
           | KShort x => negb (is_builtin_name x)
           end) && go r
      end.

  Lemma evalRecL_sim : forall (l : list (commented rentry)),
    Forall (fun cm => Pentry sim_ok (cnode cm)) l ->
    forall bound st H oi acc, st_ok st H oi -> closed_frame st acc ->
      rec_nca l = true -> covered H (rec_fv bound l) -> covered H bound ->
      sim cval (fun c => evalRecL evalE c acc l) st H oi.
  Proof.
    intros l HF; induction HF as [|[ld [k v] tr] l Hx _ IH]; intros bound st H oi acc Hok Hacc Hn Hc Hb;
      cbn [evalRecL].
    - apply sim_ret with (r := Ok (VRec acc)); [exact Hok|reflexivity|].
      intros w Hw. inversion Hw; subst. apply closed_VRec. exact Hacc.
    - cbn [cnode Pentry] in Hx. destruct Hx as [Hk Hv].
      cbn [rec_nca] in Hn. apply andb_true_iff in Hn. destruct Hn as [Hn1 Hn2].
      cbn [rec_fv] in Hc. apply covered_app in Hc. destruct Hc as [Hc1 Hc2].
      (* the rest of the entries, from a later state and a longer accumulator *)
      assert (Hrest : forall st1 H1 acc1, store_le st st1 -> grows H H1 -> st_ok st1 H1 oi -> closed_frame st1 acc1 ->
                sim cval (fun c => evalRecL evalE c acc1 l) st1 H1 oi).
      { intros st1 H1 acc1 _ Hg1 Hok1 Hacc1.
        exact (IH bound st1 H1 oi acc1 Hok1 Hacc1 Hn2 (grows_covered _ _ _ Hg1 Hc2) (grows_covered _ _ _ Hg1 Hb)). }
      destruct k as [key|ke|x|se]; cbn [Pkey] in Hk.
      + (* static key *)
        eapply sim_bind; [exact (step v bound st H oi Hv Hok Hn1 Hc1 Hb)|].
        intros w st1 H1 Hle1 Hg1 Hok1 Hw. apply Hrest; try assumption.
        apply rec_insert_P; [eapply closed_frame_mono; eauto|exact Hw].
      + (* dynamic key *)
        apply andb_true_iff in Hn1. destruct Hn1 as [Hna Hnv]. apply covered_app in Hc1. destruct Hc1 as [Hca Hcv].
        eapply sim_bind; [exact (step ke bound st H oi Hk Hok Hna Hca Hb)|].
        intros kv st1 H1 Hle1 Hg1 Hok1 _.
        destruct (as_string kv) as [key| | | |];
          try (eapply sim_ret; [exact Hok1|reflexivity|intros ? Hq; discriminate Hq]).
        eapply sim_bind;
          [exact (step v bound st1 H1 oi Hv Hok1 Hnv (grows_covered _ _ _ Hg1 Hcv) (grows_covered _ _ _ Hg1 Hb))|].
        intros w st2 H2 Hle2 Hg2 Hok2 Hw.
        apply Hrest; [eapply store_le_trans; eauto|eapply grows_trans; eauto|exact Hok2|].
        apply rec_insert_P; [|exact Hw].
        exact (closed_frame_mono _ _ _ (store_le_trans _ _ _ Hle1 Hle2) Hacc).
      + (* shorthand *)
        assert (Hx : lookup H x <> None).
        { destruct (mem x bound) eqn:Em; [apply Hb; apply mem_In; exact Em|apply Hc1; left; reflexivity]. }
        destruct (lookup H x) as [w|] eqn:El; [|congruence].
        assert (Hw : closed_value st w) by (eapply lookup_P; [apply (ok_closed _ _ _ Hok)|exact El]).
        destruct (Hrest st H (rec_insert acc x w) (store_le_refl _) (grows_refl _ (ok_ne _ _ _ Hok)) Hok
                    (rec_insert_P _ _ _ _ Hacc Hw)) as (r2 & st2 & H2 & E2 & Hpost).
        exists r2, st2, H2. split; [|exact Hpost].
        intros T HT. cbn [snd]. rewrite lookup_covered_app by congruence. rewrite El. apply (E2 T HT).
      + (* spread *)
        eapply sim_bind; [exact (step se bound st H oi Hk Hok Hn1 Hc1 Hb)|].
        intros sv st1 H1 Hle1 Hg1 Hok1 Hsv. apply Hrest; try assumption.
        apply rec_insert_all_P; [eapply closed_frame_mono; eauto|apply (record_spread_entries_P _ (closed_hereditary st1)); exact Hsv].
  Qed.

  Lemma name_if_created_closed : forall n0 st v x, closed_value st v -> closed_value (name_if_created n0 st v x) v.
  Proof. intros n0 st v x Hv. eapply closed_mono; [apply name_if_created_le|exact Hv]. Qed.

  (* binding x leaves it bound in the prefix *)
  Lemma bind_value_sim : forall n0 st H oi x v,
    st_ok st H oi -> closed_value st v ->
    sim (fun s h w => closed_value s w /\ lookup h x <> None) (fun c => bind_value n0 c x v) st H oi.
  Proof.
    intros n0 st H oi x v Hok Hv. pose proof (ok_ne _ _ _ Hok) as Hne.
    pose proof (name_if_created_le n0 st v x) as Hle.
    destruct (insert_head H x v) as [H'|] eqn:Ei.
    - destruct (insert_head_grows _ _ _ _ Ei) as [Hg Hl].
      exists (Ok v), (name_if_created n0 st v x), H'.
      split; [intros T _; unfold bind_value; cbn [fst snd]; rewrite insert_head_app by exact Hne; rewrite Ei; reflexivity|].
      split; [exact Hle|split; [exact Hg|]].
      assert (Hcf : closed_frames (name_if_created n0 st v x) H').
      { eapply insert_head_P; [|apply name_if_created_closed; exact Hv|exact Ei].
        eapply closed_frames_mono; [exact Hle|apply (ok_closed _ _ _ Hok)]. }
      split; [split; [eapply grows_ne; eauto|exact Hcf|]|].
      + intros w Hw. eapply closed_mono; [exact Hle|]. apply (ok_inputs _ _ _ Hok). exact Hw.
      + intros w Hw; inversion Hw; subst. split; [apply name_if_created_closed; exact Hv|exact Hl].
    - exists Panic, (name_if_created n0 st v x), H.
      split; [intros T _; unfold bind_value; cbn [fst snd]; rewrite insert_head_app by exact Hne; rewrite Ei; reflexivity|].
      split; [exact Hle|split; [apply grows_refl; exact Hne|split; [eapply st_ok_mono; eauto|]]].
      intros ? Hq; discriminate Hq.
  Qed.

  Definition sim_stmt (s : expr) : Prop := sim_ok s /\ (forall x v, s = EAssign x v -> sim_ok v).

  (* a do-block statement; an assignment leaves its name bound in the prefix *)
  Lemma do_step_sim : forall s bound st H oi,
    sim_stmt s -> st_ok st H oi -> nca_stmt s = true ->
    covered H (free_vars s bound) -> covered H bound ->
    sim (fun st1 H1 w => closed_value st1 w /\ (forall x v, s = EAssign x v -> lookup H1 x <> None))
        (fun c => do_step evalE c s) st H oi.
  Proof.
    intros s bound st H oi [Hs Hsub] Hok Hn Hc Hb.
    assert (Hplain : (forall x v, s <> EAssign x v) -> nca s = true -> (forall c, do_step evalE c s = evalE c s) ->
      sim (fun st1 H1 w => closed_value st1 w /\ (forall x v, s = EAssign x v -> lookup H1 x <> None))
          (fun c => do_step evalE c s) st H oi).
    { intros Hne Hn' Heq. destruct (step s bound st H oi Hs Hok Hn' Hc Hb) as (r & st1 & H1 & E1 & Hle1 & Hg1 & Hok1 & Hr1).
      exists r, st1, H1. split; [intros T HT; rewrite Heq; apply (E1 T HT)|].
      split; [exact Hle1|split; [exact Hg1|split; [exact Hok1|]]].
      intros w Hw. split; [apply Hr1; exact Hw|]. intros x v Hx. exfalso; eapply Hne; exact Hx. }
    destruct s; try (apply Hplain; [intros ? ? Hq; discriminate Hq|exact Hn|reflexivity]).
    (* EAssign x s *)
    cbn [nca_stmt] in Hn. cbn [free_vars] in Hc. unfold do_step.
    destruct (mem x do_assign_keywords).
    - eapply sim_ret; [exact Hok|reflexivity|intros ? Hq; discriminate Hq].
    - unfold assign_value.
      destruct (step s bound st H oi (Hsub x s eq_refl) Hok Hn Hc Hb) as (r & st1 & H1 & E1 & Hle1 & Hg1 & Hok1 & Hr1).
      destruct r as [w| | | |];
        try (eexists _, st1, H1; split; [intros T HT; rewrite (E1 T HT); reflexivity|];
             split; [exact Hle1|split; [exact Hg1|split; [exact Hok1|intros ? Hq; discriminate Hq]]]).
      destruct (bind_value_sim (Datatypes.length st) st1 H1 oi x w Hok1 (Hr1 w eq_refl))
        as (r2 & st2 & H2 & E2 & Hle2 & Hg2 & Hok2 & Hr2).
      exists r2, st2, H2. split; [intros T HT; rewrite (E1 T HT); apply (E2 T HT)|].
      split; [eapply store_le_trans; eauto|split; [eapply grows_trans; eauto|split; [exact Hok2|]]].
      intros a Ha. destruct (Hr2 a Ha) as [Hca Hl]. split; [exact Hca|].
      intros x0 v0 Heq. inversion Heq; subst. exact Hl.
  Qed.

  (* free variables / nca of a do-block body, as computed by free_vars and nca *)
  Definition do_fv (rt : expr) :=
    fix go (l : list (commented expr)) (bnd : list string) {struct l} : list string :=
      match l with
      | [] => free_vars rt bnd
      | Cm _ s _ :: r =>
          match s with
          | EAssign x v => free_vars v bnd ++ go r (x :: bnd)
          | _ => free_vars s bnd ++ go r bnd
          end
      end.
  Definition do_nca :=
    fix go (l : list (commented expr)) : bool :=
      match l with
      | [] => true
      | Cm _ s _ :: r => (match s with EAssign _ v => nca v | _ => nca s end) && go r
      end.

  Lemma do_all_sim : forall (l : list (commented expr)) rt,
    Forall (fun cm => sim_stmt (cnode cm)) l -> sim_stmt rt ->
    forall bound st H oi, st_ok st H oi ->
      do_nca l = true -> nca_stmt rt = true ->
      covered H (do_fv rt l bound) -> covered H bound ->
      sim cval (fun c => match evalDoL evalE c l with
                         | (Ok _, c1) => do_step evalE c1 rt
                         | (o, c1) => (cast_fail o, c1)
                         end) st H oi.
  Proof.
    intros l rt HF Hrt; induction HF as [|[ld s tr] l Hs _ IH]; intros bound st H oi Hok Hn Hnr Hc Hb.
    - cbn [do_fv] in Hc. cbn [evalDoL].
      eapply sim_weaken; [exact (do_step_sim rt bound st H oi Hrt Hok Hnr Hc Hb)|]. intros s0 h a [Ha _]. exact Ha.
    - cbn [cnode] in Hs. cbn [do_nca] in Hn. apply andb_true_iff in Hn. destruct Hn as [Hn1 Hn2].
      assert (Hcs : covered H (free_vars s bound) /\
                    covered H (do_fv rt l (match s with EAssign x _ => x :: bound | _ => bound end))).
      { cbn [do_fv] in Hc. destruct s; apply covered_app in Hc; exact Hc. }
      destruct Hcs as [Hc1 Hc2].
      destruct (do_step_sim s bound st H oi Hs Hok Hn1 Hc1 Hb) as (r & st1 & H1 & E1 & Hle1 & Hg1 & Hok1 & Hr1).
      destruct r as [w| | | |];
        try (eexists _, st1, H1; split; [intros T HT; cbn [evalDoL]; rewrite (E1 T HT); reflexivity|];
             split; [exact Hle1|split; [exact Hg1|split; [exact Hok1|intros ? Hq; discriminate Hq]]]).
      assert (Hb' : covered H1 (match s with EAssign x _ => x :: bound | _ => bound end)).
      { destruct s; try (apply (grows_covered _ _ _ Hg1 Hb)).
        intros y [<-|Hy]; [apply (proj2 (Hr1 w eq_refl) _ _ eq_refl)|apply (grows_covered _ _ _ Hg1 Hb); exact Hy]. }
      destruct (IH _ st1 H1 oi Hok1 Hn2 Hnr (grows_covered _ _ _ Hg1 Hc2) Hb') as (r2 & st2 & H2 & E2 & Hle2 & Hg2 & Hpost).
      exists r2, st2, H2. split; [intros T HT; cbn [evalDoL]; rewrite (E1 T HT); apply (E2 T HT)|].
      split; [eapply store_le_trans; eauto|split; [eapply grows_trans; eauto|exact Hpost]].
  Qed.

  Lemma id_indep : forall x bound st Hf oi,
    st_ok st Hf oi -> covered Hf (free_vars (EId x) bound) -> covered Hf bound -> indep evalE st Hf oi (EId x).
  Proof.
    intros x bound st Hf oi Hok Hc Hb.
    cbn [free_vars] in Hc.
    destruct (String.eqb x "infinity" || String.eqb x "inf") eqn:Einf.
    { apply (indep_const st Hf oi _ (VNum npinf) Hok); [intros c; cbn [Eval.evalE]; rewrite Einf; reflexivity|exact I]. }
    destruct (String.eqb x "constants") eqn:Ec.
    { apply (indep_const st Hf oi _ (VRec constants_record) Hok);
        [intros c; cbn [Eval.evalE]; rewrite Einf, Ec; reflexivity|exact (constants_P _ (closed_hereditary st))]. }
    assert (Hx : lookup Hf x <> None).
    { destruct (mem x bound) eqn:Em; [apply Hb; apply mem_In; exact Em|].
      apply Hc. apply orb_false_iff in Einf. destruct Einf as [E1 E2]. rewrite ?Em, ?E1, ?E2, ?Ec. cbn [orb]. left; reflexivity. }
    destruct (lookup Hf x) as [w|] eqn:El; [|congruence].
    apply sim_indep. apply sim_ret with (r := Ok w); [exact Hok| |].
    - intros T HT. cbn [Eval.evalE snd]. rewrite Einf, Ec. rewrite lookup_covered_app by congruence. rewrite El. reflexivity.
    - intros v Hv; inversion Hv; subst. eapply lookup_P; [apply (ok_closed _ _ _ Hok)|exact El].
  Qed.

  Lemma inref_indep : forall x st Hf oi, st_ok st Hf oi -> indep evalE st Hf oi (EInRef x).
  Proof.
    intros x st Hf oi Hok.
    apply sim_indep. eapply sim_ret; [exact Hok| |].
    - intros T HT. cbn [Eval.evalE snd]. rewrite lookup_app. unfold inputs_of in HT. rewrite HT. reflexivity.
    - intros v Hv.
      assert (Hin : forall w, match lookup Hf "inputs" with Some v0 => Some v0 | None => oi end = Some w -> closed_value st w).
      { intros w Hw. destruct (lookup Hf "inputs") eqn:El.
        - inversion Hw; subst. eapply lookup_P; [apply (ok_closed _ _ _ Hok)|exact El].
        - apply (ok_inputs _ _ _ Hok). exact Hw. }
      destruct (match lookup Hf "inputs" with Some v0 => Some v0 | None => oi end) as [[]|]; try discriminate.
      inversion Hv; subst. destruct (rec_get r x) eqn:Eg; [|exact I].
      eapply rec_get_P; [|exact Eg]. apply closed_VRec. apply Hin. reflexivity.
  Qed.

  (* a lambda value is closed where it is created: what its body refers to is captured *)
  Lemma lam_indep : forall args e bound st Hf oi,
    st_ok st Hf oi -> nca e = true ->
    covered Hf (free_vars (ELam args e) bound) -> covered Hf bound -> indep evalE st Hf oi (ELam args e).
  Proof.
    intros args e bound st Hf oi Hok Hn Hc Hb.
    cbn [free_vars] in Hc.
    set (vars := free_vars e (map arg_name args)).
    assert (Hcv : covered Hf vars).
    { intros x Hx. destruct (fv_weaken e _ (map arg_name args ++ bound) x Hx) as [A|A]; [apply Hc; exact A|].
      apply in_app_or in A. destruct A as [A|A]; [exfalso; exact (fv_not_bound _ _ _ Hx A)|apply Hb; exact A]. }
    pose proof (ok_closed _ _ _ Hok) as HcH.
    exists (Ok (VLam (Datatypes.length st) args e (capture Hf vars []))), (st ++ [None]), Hf.
    assert (Hle : store_le st (st ++ [None])).
    { apply (fresh_lambda_le st args e (capture Hf vars []) _ _ eq_refl). }
    split.
    - intros T HT. cbn [Eval.evalE snd fst]. fold vars. rewrite capture_covered by exact Hcv. reflexivity.
    - split; [exact Hle|split; [apply grows_refl; apply (ok_ne _ _ _ Hok)|split; [eapply closed_frames_mono; eauto|]]].
      intros v Hv. inversion Hv; subst. apply closed_VLam. split; [exact Hn|split].
      + intros x Hx. left. specialize (Hcv x Hx). destruct (lookup Hf x) as [w|] eqn:El; [|congruence].
        rewrite (capture_sound Hf vars [] x w Hx El); [discriminate|].
        exact (fv_ids_ok nonbuiltin e _ x (nca_ids_ok e Hn) Hx).
      + apply capture_P; [eapply closed_frames_mono; eauto|constructor].
  Qed.

  (* the block runs in a fresh frame, which is dropped afterwards *)
  Lemma do_indep : forall stmts ld rt tr bound st Hf oi,
    Forall (fun cm => sim_stmt (cnode cm)) stmts -> sim_stmt rt ->
    st_ok st Hf oi -> nca (EDo stmts (Cm ld rt tr)) = true ->
    covered Hf (free_vars (EDo stmts (Cm ld rt tr)) bound) -> covered Hf bound ->
    indep evalE st Hf oi (EDo stmts (Cm ld rt tr)).
  Proof.
    intros stmts ld rt tr bound st Hf oi HFs HRet Hok Hn Hc Hb. cbn [nca] in Hn.
    apply andb_true_iff in Hn. destruct Hn as [Hns Hnr].
    cbn [free_vars] in Hc.
    assert (Hok0 : st_ok st ((FOwned, []) :: Hf) oi).
    { split; [discriminate|constructor; [constructor|apply (ok_closed _ _ _ Hok)]|apply (ok_inputs _ _ _ Hok)]. }
    assert (Hcov0 : forall vars, covered Hf vars -> covered ((FOwned, []) :: Hf) vars).
    { intros vars Hv x Hx. cbn [lookup lookup_frame]. apply Hv. exact Hx. }
    destruct (do_all_sim stmts rt HFs HRet bound st ((FOwned, []) :: Hf) oi Hok0 Hns Hnr (Hcov0 _ Hc) (Hcov0 _ Hb))
      as (r & st1 & H1 & E1 & Hle1 & _ & _ & Hr1).
    exists r, st1, Hf. split.
    - intros T HT. specialize (E1 T HT). cbn [app] in E1. cbn [Eval.evalE]. cbn [fst snd].
      match goal with |- (fst ?X, (fst (snd ?X), _)) = _ =>
        assert (Hx : X = (r, (st1, H1 ++ T))) by exact E1; rewrite Hx end.
      reflexivity.
    - split; [exact Hle1|split; [apply grows_refl; apply (ok_ne _ _ _ Hok)|split;
        [eapply closed_frames_mono; [exact Hle1|apply (ok_closed _ _ _ Hok)]|exact Hr1]]].
  Qed.

  (* an operator called from H ++ T does not depend on T *)
  Lemma binop_indep : forall st H oi op lv rv,
    st_ok st H oi -> closed_value st lv -> closed_value st rv ->
    exists r st',
      (forall T, inputs_of T = oi -> bi (apply (H ++ T)) op lv rv st = (r, st')) /\
      store_le st st' /\ closed_res st' r.
  Proof.
    intros st H oi op lv rv Hok Hlv Hrv.
    destruct (bi (apply (H ++ tail_of oi)) op lv rv st) as [res st3] eqn:Eb.
    exists res, st3. split.
    - intros T HT.
      destruct (Hbi _ _ st (apply_app_agree st H oi T Hok HT) (apply_app_closed st H oi Hok)
                    op lv rv st (store_le_refl _) Hlv Hrv) as [Heq _].
      rewrite <- Heq. exact Eb.
    - destruct (Hbi _ _ st (apply_app_agree st H oi _ Hok (inputs_tail_of oi)) (apply_app_closed st H oi Hok)
                    op lv rv st (store_le_refl _) Hlv Hrv) as [_ Hpost].
      exact (Hpost res st3 Eb).
  Qed.

  (* a call or an operator at the end of an expression: the store moves, the chain does not *)
  Lemma sim_store : forall (g : frames -> store -> outcome value * store) st H oi,
    st_ok st H oi ->
    (exists r st', (forall T, inputs_of T = oi -> g (H ++ T) st = (r, st')) /\ store_le st st' /\ closed_res st' r) ->
    sim cval (fun c => let '(st2, fr2) := c in let '(r, st3) := g fr2 st2 in (r, (st3, fr2))) st H oi.
  Proof.
    intros g st H oi Hok (r & st' & E & Hle & Hr). exists r, st', H.
    split; [intros T HT; rewrite (E T HT); reflexivity|].
    split; [exact Hle|split; [apply grows_refl; apply (ok_ne _ _ _ Hok)|split; [eapply st_ok_mono; eauto|exact Hr]]].
  Qed.

  Theorem evalE_sim : forall e, sim_stmt e.
  Proof.
    (* sim_stmt e has two components; the second is only about e = EAssign x v.  An assignment or an
       output expression in expression position has nca = false, which closes their first component. *)
    induction e using expr_ind';
      (split; [intros bound st Hf oi Hok Hn Hc Hb|try (intros ? ? Heq; discriminate Heq)]);
      cbn [nca] in *; try discriminate.
    - apply (indep_const st Hf oi _ (VNum x) Hok); [reflexivity|exact I].
    - apply (indep_const st Hf oi _ (VStr s) Hok); [reflexivity|exact I].
    - apply (indep_const st Hf oi _ (VBool b) Hok); [reflexivity|exact I].
    - apply (indep_const st Hf oi _ VNull Hok); [reflexivity|exact I].
    - exact (id_indep x bound st Hf oi Hok Hc Hb).
    - exact (inref_indep x st Hf oi Hok).
    - apply (indep_const st Hf oi _ (VBuiltin b) Hok); [reflexivity|exact I].
    - (* EList *)
      cbn [free_vars] in Hc. rewrite nca_items_nodes in Hn. rewrite fv_items_nodes in Hc.
      assert (HF : Forall sim_ok (map cnode items)).
      { apply Forall_map. eapply Forall_impl; [|eassumption]. intros a Ha; apply Ha. }
      destruct (evalL_sim _ HF bound st Hf oi Hok Hn Hc Hb) as (r & st1 & H1 & E1 & Hle1 & Hg1 & Hok1 & Hr1).
      exists (omap (fun vs => VList (flatten_spreads vs)) r), st1, H1.
      split; [intros T HT; cbn [Eval.evalE]; rewrite evalCL_evalL, (E1 T HT); reflexivity|].
      split; [exact Hle1|split; [exact Hg1|split; [apply (ok_closed _ _ _ Hok1)|]]].
      intros v Hv. destruct r; try discriminate. cbn in Hv. inversion Hv; subst.
      apply closed_VList. apply (flatten_spreads_P _ (closed_hereditary st1)). apply Hr1. reflexivity.
    - (* ERec *)
      assert (HF : Forall (fun cm => Pentry sim_ok (cnode cm)) entries).
      { eapply Forall_impl; [|eassumption]. intros [ld [k v] tr] Ha. cbn [cnode Pentry] in *.
        destruct Ha as [Hk Hv]. split; [|apply Hv]. destruct k; cbn [Pkey] in *; auto; apply Hk. }
      apply sim_indep. exact (evalRecL_sim entries HF bound st Hf oi [] Hok (Forall_nil _) Hn Hc Hb).
    - exact (lam_indep args e bound st Hf oi Hok Hn Hc Hb).
    - (* ECond *)
      destruct IHe1 as [IH1 _], IHe2 as [IH2 _], IHe3 as [IH3 _].
      apply andb_true_iff in Hn. destruct Hn as [Hn H3]. apply andb_true_iff in Hn. destruct Hn as [H1 H2].
      cbn [free_vars] in Hc. apply covered_app in Hc. destruct Hc as [Hc1 Hc23].
      apply covered_app in Hc23. destruct Hc23 as [Hc2 Hc3].
      apply sim_indep. cbn [Eval.evalE].
      eapply sim_bind; [exact (step e1 bound st Hf oi IH1 Hok H1 Hc1 Hb)|].
      intros cv st1 Hh1 _ Hg1 Hok1 _.
      destruct (as_bool cv) as [[|]| | | |];
        try (eapply sim_ret; [exact Hok1|reflexivity|intros ? Hq; discriminate Hq]).
      + exact (step e2 bound st1 Hh1 oi IH2 Hok1 H2 (grows_covered _ _ _ Hg1 Hc2) (grows_covered _ _ _ Hg1 Hb)).
      + exact (step e3 bound st1 Hh1 oi IH3 Hok1 H3 (grows_covered _ _ _ Hg1 Hc3) (grows_covered _ _ _ Hg1 Hb)).
    - (* EDo *)
      destruct ret as [ld rt tr]. apply (do_indep stmts ld rt tr bound st Hf oi); assumption.
    - (* EAssign: second component *)
      intros x0 v0 Heq. inversion Heq; subst. apply IHe.
    - (* ECall *)
      destruct IHe as [IH _].
      apply andb_true_iff in Hn. destruct Hn as [Hn1 Hn2].
      cbn [free_vars] in Hc. apply covered_app in Hc. destruct Hc as [Hc1 Hc2].
      assert (HF : Forall sim_ok args).
      { eapply Forall_impl; [|eassumption]. intros a0 Ha; apply Ha. }
      apply sim_indep. cbn [Eval.evalE].
      eapply sim_bind; [exact (step e bound st Hf oi IH Hok Hn1 Hc1 Hb)|].
      intros fv st1 Hh1 _ Hg1 Hok1 Hfv1.
      eapply sim_bind_cast;
        [exact (evalL_sim args HF bound st1 Hh1 oi Hok1 Hn2 (grows_covered _ _ _ Hg1 Hc2) (grows_covered _ _ _ Hg1 Hb))|].
      intros raw st2 Hh2 Hle2 _ Hok2 Hraw.
      destruct (negb (is_function fv)).
      { eapply sim_ret; [exact Hok2|reflexivity|intros ? Hq; discriminate Hq]. }
      assert (Hfv : closed_value st2 fv) by (eapply closed_mono; [exact Hle2|exact Hfv1]).
      apply (sim_store (fun fr s => apply fr fv fv (flatten_spreads raw) s)); [exact Hok2|].
      exact (apply_indep st2 Hh2 oi fv fv (flatten_spreads raw) Hok2 Hfv Hfv (flatten_spreads_P _ (closed_hereditary st2) _ Hraw)).
    - (* EAccess *)
      destruct IHe1 as [IH1 _], IHe2 as [IH2 _].
      apply andb_true_iff in Hn. destruct Hn as [Hn1 Hn2].
      cbn [free_vars] in Hc. apply covered_app in Hc. destruct Hc as [Hc1 Hc2].
      apply sim_indep. cbn [Eval.evalE].
      eapply sim_bind; [exact (step e1 bound st Hf oi IH1 Hok Hn1 Hc1 Hb)|].
      intros v st1 Hh1 _ Hg1 Hok1 Hv.
      eapply sim_bind;
        [exact (step e2 bound st1 Hh1 oi IH2 Hok1 Hn2 (grows_covered _ _ _ Hg1 Hc2) (grows_covered _ _ _ Hg1 Hb))|].
      intros i st2 Hh2 Hle2 _ Hok2 _. apply sim_ret with (r := access_val v i); [exact Hok2|reflexivity|].
      intros w Hw. eapply (access_val_P _ (closed_hereditary st2)); [|exact Hw]. eapply closed_mono; [exact Hle2|exact Hv].
    - (* EDot *)
      destruct IHe as [IH _]. cbn [free_vars] in Hc. apply sim_indep. cbn [Eval.evalE].
      eapply sim_bind; [exact (step e bound st Hf oi IH Hok Hn Hc Hb)|].
      intros v st1 Hh1 _ _ Hok1 Hv. apply sim_ret with (r := dot_val v f); [exact Hok1|reflexivity|].
      intros w Hw. exact (dot_val_P _ (closed_hereditary st1) _ _ _ Hv Hw).
    - (* EBin *)
      destruct IHe1 as [IH1 _], IHe2 as [IH2 _].
      apply andb_true_iff in Hn. destruct Hn as [Hn1 Hn2].
      cbn [free_vars] in Hc. apply covered_app in Hc. destruct Hc as [Hc1 Hc2].
      apply sim_indep. cbn [Eval.evalE].
      eapply sim_bind; [exact (step e1 bound st Hf oi IH1 Hok Hn1 Hc1 Hb)|].
      intros lv st1 Hh1 _ Hg1 Hok1 Hlv1.
      eapply sim_bind;
        [exact (step e2 bound st1 Hh1 oi IH2 Hok1 Hn2 (grows_covered _ _ _ Hg1 Hc2) (grows_covered _ _ _ Hg1 Hb))|].
      intros rv st2 Hh2 Hle2 _ Hok2 Hrv.
      apply (sim_store (fun fr s => bi (apply fr) op lv rv s)); [exact Hok2|].
      apply binop_indep; [exact Hok2|eapply closed_mono; [exact Hle2|exact Hlv1]|exact Hrv].
    - (* EUn *)
      destruct IHe as [IH _]. cbn [free_vars] in Hc. apply sim_indep. cbn [Eval.evalE].
      eapply sim_bind; [exact (step e bound st Hf oi IH Hok Hn Hc Hb)|].
      intros v st1 Hh1 _ _ Hok1 _. eapply sim_ret; [exact Hok1|reflexivity|].
      intros w Hw. destruct op; [destruct (as_number v)|destruct (as_bool v)|destruct (as_bool v)];
        try discriminate; inversion Hw; exact I.
    - (* EFact *)
      destruct IHe as [IH _]. cbn [free_vars] in Hc. apply sim_indep. cbn [Eval.evalE].
      eapply sim_bind; [exact (step e bound st Hf oi IH Hok Hn Hc Hb)|].
      intros v st1 Hh1 _ _ Hok1 _. eapply sim_ret; [exact Hok1|reflexivity|].
      intros w Hw. destruct (as_number v) as [n| | | |]; try discriminate.
      unfold factorial_val in Hw. destruct (_ && _); [|discriminate]. inversion Hw; exact I.
    - (* ESpread *)
      destruct IHe as [IH _]. cbn [free_vars] in Hc. apply sim_indep. cbn [Eval.evalE].
      eapply sim_bind; [exact (step e bound st Hf oi IH Hok Hn Hc Hb)|].
      intros v st1 Hh1 _ _ Hok1 Hv. apply sim_ret with (r := spread_val v); [exact Hok1|reflexivity|].
      intros w Hw. exact (spread_val_P _ (closed_hereditary st1) _ _ Hv Hw).
  Qed.
  End E.

  (* ------------------------------------------------------------------ FunctionDef::call *)
  Lemma bind_params_binds : forall ps idx args acc fr,
    bind_params ps idx args acc = Some fr ->
    (forall p, In p ps -> lookup_frame fr (arg_name p) <> None) /\
    (forall y, lookup_frame acc y <> None -> lookup_frame fr y <> None).
  Proof.
    induction ps as [|p ps IH]; intros idx args acc fr Hb.
    - inversion Hb; subst. split; [intros p []|auto].
    - apply bind_params_cons in Hb. destruct (IH _ _ _ _ Hb) as [A B]. split.
      + intros q [<-|Hq]; [|apply A; exact Hq]. apply B. cbn [lookup_frame]. rewrite String.eqb_refl. discriminate.
      + intros y Hy. apply B. cbn [lookup_frame]. destruct (String.eqb y (arg_name p)); [discriminate|exact Hy].
  Qed.
  Lemma let_pair3 : forall (X : result) r st' (fr' : frames),
    X = (r, (st', fr')) -> (let '(r0, (st'0, _)) := X in (r0, st'0)) = (r, st').
  Proof. intros X r st' fr' ->. reflexivity. Qed.

  Notation AD := (AD release bi bu).

  Definition indep_at (d : nat) : Prop :=
    (forall fr1 fr2 s0, lookup fr1 "inputs" = lookup fr2 "inputs" -> inputs_closed s0 fr1 ->
                        cb_agree s0 (AD d fr1) (AD d fr2)) /\
    (forall fr s0, inputs_closed s0 fr -> cb_closed s0 (AD d fr)).

  Lemma too_deep_agree : forall s0, cb_agree s0 (fun _ f a s => call_too_deep f a s) (fun _ f a s => call_too_deep f a s).
  Proof. intros ? ? ? ? ? ? ? ? ?; reflexivity. Qed.
  Lemma too_deep_closed : forall s0, cb_closed s0 (fun _ f a s => call_too_deep f a s).
  Proof.
    intros s0 this f args st r st' _ _ _ _ Hc. unfold call_too_deep in Hc.
    destruct (check_arity f (Datatypes.length args)); inversion Hc; subst;
      (split; [apply store_le_refl|intros ? Hq; discriminate Hq]).
  Qed.

  (* the lambda arm of FunctionDef::call, for a closed function, in two chains with equal inputs *)
  Lemma lambda_call_indep : forall d' id params body scope this args st,
    indep_at d' ->
    closed_value st (VLam id params body scope) -> closed_value st this -> closed_list st args ->
    forall oi, (forall v, oi = Some v -> closed_value st v) ->
    exists r st',
      (forall fr cb, lookup fr "inputs" = oi ->
         call_passed bu (evalE release bi (AD d')) cb fr this (VLam id params body scope) args st = (r, st')) /\
      store_le st st' /\ closed_res st' r.
  Proof.
    intros d' id params body scope this args st [IHa IHc] Hf Hthis Hargs oi Hoi.
    apply closed_VLam in Hf. destruct Hf as (Hn & Hfv & Hsc).
    set (self := match lam_name st id with
                 | Some n => match lookup_frame scope n with Some _ => [] | None => [(n, this)] end
                 | None => []
                 end).
    (* the caller's `inputs` is passed on only when the scope did not capture the name *)
    set (inp := match lookup_frame scope "inputs" with
                | Some _ => []
                | None => match oi with Some i => [("inputs", i)] | None => [] end
                end).
    destruct (bind_params params 0 args (inp ++ self)) as [local|] eqn:Eb.
    2:{ exists Panic, st. split; [|split; [apply store_le_refl|intros ? Hq; discriminate Hq]].
        intros fr cb Hfr. unfold call_passed. rewrite Hfr. fold inp. fold self. rewrite Eb. reflexivity. }
    set (Hh := (FOwned, local) :: match scope with [] => [] | _ => [(FShared, scope)] end).
    assert (Hacc : closed_frame st (inp ++ self)).
    { apply Forall_app; split.
      - unfold inp. destruct (lookup_frame scope "inputs"); [constructor|].
        destruct oi; [constructor; [apply Hoi; reflexivity|constructor]|constructor].
      - unfold self. destruct (lam_name st id) as [nm|]; [|constructor].
        destruct (lookup_frame scope nm); [constructor|constructor; [exact Hthis|constructor]]. }
    assert (Hlocal : closed_frame st local) by (eapply (bind_params_P _ (closed_hereditary st)); eauto).
    assert (Hok : st_ok st Hh oi).
    { split; [discriminate| |exact Hoi]. unfold Hh. constructor; [exact Hlocal|].
      destruct scope; [constructor|constructor; [exact Hsc|constructor]]. }
    destruct (bind_params_binds _ _ _ _ _ Eb) as [Hbp Hkeep].
    assert (Hcb : covered Hh (map arg_name params)).
    { intros x Hx. apply in_map_iff in Hx. destruct Hx as [p [<- Hp]]. unfold Hh. cbn [lookup].
      specialize (Hbp p Hp). destruct (lookup_frame local (arg_name p)); [discriminate|congruence]. }
    assert (Hcf : covered Hh (free_vars body (map arg_name params))).
    { intros x Hx. unfold Hh. cbn [lookup]. destruct (lookup_frame local x) eqn:El; [discriminate|].
      assert (Hcase : lookup_frame scope x <> None \/ (lookup_frame scope x = None /\ lam_name st id = Some x)).
      { destruct (Hfv x Hx) as [Hs|Hs]; [left; exact Hs|].
        destruct (lookup_frame scope x) eqn:Esc; [left; discriminate|right; split; [reflexivity|exact Hs]]. }
      destruct Hcase as [Hs|[Esc Hs]].
      - destruct scope as [|kv sc]; [exfalso; apply Hs; reflexivity|]. cbn [lookup].
        destruct (lookup_frame (kv :: sc) x); [discriminate|congruence].
      - exfalso. assert (Hl : lookup_frame (inp ++ self) x <> None).
        { unfold self. rewrite Hs, Esc. clear. induction inp as [|[y v] r IH]; cbn [app lookup_frame].
          - rewrite String.eqb_refl. discriminate.
          - destruct (String.eqb x y); [discriminate|exact IH]. }
        apply Hkeep in Hl. congruence. }
    destruct (evalE_sim (AD d') IHa IHc body) as [Hsim _].
    destruct (Hsim (map arg_name params) st Hh oi Hok Hn Hcf Hcb) as (r & st' & H' & E & Hle & _ & _ & Hr).
    exists r, st'. split; [|split; [exact Hle|exact Hr]].
    intros fr cb Hfr. unfold call_passed. rewrite Hfr. fold inp. fold self. rewrite Eb.
    specialize (E fr Hfr). unfold Hh in E.
    destruct scope as [|kv sc]; cbn [app] in E; apply (let_pair3 _ r st' (H' ++ fr)); exact E.
  Qed.

  Theorem AD_indep : forall d, indep_at d.
  Proof.
    intros d. induction d as [d IH] using lt_wf_ind.
    assert (Hcommon : forall fr oi this f args st,
              lookup fr "inputs" = oi -> (forall v, oi = Some v -> closed_value st v) ->
              closed_value st this -> closed_value st f -> closed_list st args ->
              exists r st', (forall fr', lookup fr' "inputs" = oi -> AD d fr' this f args st = (r, st')) /\
                            store_le st st' /\ closed_res st' r).
    { intros fr oi this f args st Hfr Hoi Hthis Hf Hargs.
      destruct (negb (check_arity f (Datatypes.length args))) eqn:Har.
      { exists Err, st. split; [|split; [apply store_le_refl|intros ? Hq; discriminate Hq]].
        intros fr' _. destruct d; cbn [Eval.AD]; unfold apply_at; rewrite Har; reflexivity. }
      destruct d as [|d'].
      { exists ErrDepth, st. split; [|split; [apply store_le_refl|intros ? Hq; discriminate Hq]].
        intros fr' _. cbn [Eval.AD]. unfold apply_at. rewrite Har. reflexivity. }
      destruct f; try (exists Err, st; split; [|split; [apply store_le_refl|intros ? Hq; discriminate Hq]];
                       intros fr' _; cbn [Eval.AD]; unfold apply_at; rewrite Har; reflexivity).
      - (* lambda *)
        destruct (lambda_call_indep d' id args0 body scope this args st (IH d' (Nat.lt_succ_diag_r d')) Hf Hthis Hargs oi Hoi)
          as (r & st' & E & Hle & Hr).
        exists r, st'. split; [|split; assumption].
        intros fr' Hfr'. cbn [Eval.AD]. unfold apply_at. rewrite Har. apply E. exact Hfr'.
      - (* built-in *)
        set (cbof := fun fr0 : frames => match d' with
                                        | O => fun _ f a s => call_too_deep f a s
                                        | S d'' => AD d'' fr0
                                        end).
        assert (Hag : forall fr1 fr2, lookup fr1 "inputs" = oi -> lookup fr2 "inputs" = oi -> cb_agree st (cbof fr1) (cbof fr2)).
        { intros fr1 fr2 Hi1 Hi2. unfold cbof. destruct d' as [|d'']; [apply too_deep_agree|].
          apply (proj1 (IH d'' ltac:(lia))); [congruence|]. intros v Hv. apply Hoi. congruence. }
        assert (Hcl : forall fr0, lookup fr0 "inputs" = oi -> cb_closed st (cbof fr0)).
        { intros fr0 Hi. unfold cbof. destruct d' as [|d'']; [apply too_deep_closed|].
          apply (proj2 (IH d'' ltac:(lia))). intros v Hv. apply Hoi. congruence. }
        destruct (bu (cbof fr) b args st) as [r st'] eqn:Eb.
        destruct (Hbu (cbof fr) (cbof fr) st (Hag fr fr Hfr Hfr) (Hcl fr Hfr) b args st (store_le_refl _) Hargs) as [_ Hpost].
        rewrite Eb in Hpost. destruct Hpost as [Hle Hr].
        exists r, st'. split; [|split; assumption].
        intros fr' Hfr'. cbn [Eval.AD]. unfold apply_at. rewrite Har. unfold call_passed. fold (cbof fr').
        destruct (Hbu (cbof fr) (cbof fr') st (Hag fr fr' Hfr Hfr') (Hcl fr Hfr) b args st (store_le_refl _) Hargs) as [Heq _].
        rewrite <- Heq. exact Eb. }
    split.
    - intros fr1 fr2 s0 Hi Hic this f args st Hs0 Hthis Hf Hargs.
      destruct (Hcommon fr1 (lookup fr1 "inputs") this f args st eq_refl) as (r0 & st0 & E & _ & _); auto.
      { intros v Hv. eapply closed_mono; [exact Hs0|]. apply Hic. exact Hv. }
      rewrite (E fr1 eq_refl), (E fr2 (eq_sym Hi)). reflexivity.
    - intros fr s0 Hic this f args st r st' Hs0 Hthis Hf Hargs Hc.
      destruct (Hcommon fr (lookup fr "inputs") this f args st eq_refl) as (r0 & st0 & E & Hle & Hr); auto.
      { intros v Hv. eapply closed_mono; [exact Hs0|]. apply Hic. exact Hv. }
      rewrite (E fr eq_refl) in Hc. inversion Hc; subst. split; assumption.
  Qed.
  (* FunctionDef::call of a hereditarily closed function on closed arguments gives the same outcome and
     the same store from every scope chain with the same `inputs`, at every call depth, and what it
     returns is again closed *)
  Theorem call_site_independent_gen : forall d fr1 fr2 this f args st,
    lookup fr1 "inputs" = lookup fr2 "inputs" ->
    (forall v, lookup fr1 "inputs" = Some v -> closed_value st v) ->
    closed_value st this -> closed_value st f -> closed_list st args ->
    AD d fr1 this f args st = AD d fr2 this f args st.
  Proof.
    intros d fr1 fr2 this f args st Hi Hic Hthis Hf Hargs.
    exact (proj1 (AD_indep d) fr1 fr2 st Hi Hic this f args st (store_le_refl st) Hthis Hf Hargs).
  Qed.
  Theorem call_result_closed_gen : forall d fr this f args st r st',
    (forall v, lookup fr "inputs" = Some v -> closed_value st v) ->
    closed_value st this -> closed_value st f -> closed_list st args ->
    AD d fr this f args st = (r, st') ->
    store_le st st' /\ (forall v, r = Ok v -> closed_value st' v).
  Proof.
    intros d fr this f args st r st' Hic Hthis Hf Hargs H.
    exact (proj2 (AD_indep d) fr st Hic this f args st r st' (store_le_refl st) Hthis Hf Hargs H).
  Qed.
End Sim.

(* ------------------------------------------------------------------ the concrete evaluator *)
(* CALL-SITE INDEPENDENCE (C04) *)
Theorem call_site_independent : forall release d fr1 fr2 this f args st,
  lookup fr1 "inputs" = lookup fr2 "inputs" ->
  (forall v, lookup fr1 "inputs" = Some v -> closed_value st v) ->
  closed_value st this -> closed_value st f -> closed_list st args ->
  AD release binop_impl builtin_impl d fr1 this f args st =
  AD release binop_impl builtin_impl d fr2 this f args st.
Proof.
  intros release. exact (call_site_independent_gen release binop_impl builtin_impl binop_impl_agree builtin_impl_agree).
Qed.

(* ... and what it returns is again closed *)
Theorem call_result_closed : forall release d fr this f args st r st',
  (forall v, lookup fr "inputs" = Some v -> closed_value st v) ->
  closed_value st this -> closed_value st f -> closed_list st args ->
  AD release binop_impl builtin_impl d fr this f args st = (r, st') ->
  store_le st st' /\ (forall v, r = Ok v -> closed_value st' v).
Proof.
  intros release. exact (call_result_closed_gen release binop_impl builtin_impl binop_impl_agree builtin_impl_agree).
Qed.
