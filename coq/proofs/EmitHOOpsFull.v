(* EmitHOOpsFull.v — C05: EVERY transcribed built-in of EvalFull.builtin_full except the two that apply
   Value::equals to argument elements (unique, includes: finding F53) respects the emit/reload value
   relation [vrelG] (hence EmitHO.vrel and EmitNqHO.vrel): related callbacks, related argument vectors ->
   related outcomes.  The arms are instances of proofs/RelPure.v (the relation-generic arm lemmas) with R := vrelG and no state
   relation; the arms of EvalInst.builtin_impl come from EmitHOOps.builtin_impl_rel; the remaining
   built-ins are Unmodelled on both sides.  With this, EmitHOSim.ho_simulation and the emission
   equivalence hold for bodies that may mention any built-in other than unique / includes
   ([biok_full]); the refutation below shows that the exclusion is necessary for `includes`
   (and the same witness with `unique` in place: see [f53_unique_refuted]). *)
From Coq Require Import String Ascii List ZArith Bool Lia.
Require Import Blots.Num Blots.gen.Builtins Blots.Ast Blots.Value Blots.Outcome Blots.Binop
               Blots.Env Blots.Eval Blots.Emit Blots.BuiltinsHof Blots.Program Blots.EvalInst Blots.EvalFull
               Blots.proofs.ValueInd Blots.proofs.EmitLit Blots.proofs.EmitSubst Blots.proofs.EmitSound
               Blots.proofs.EmitHO Blots.proofs.EmitHOSim Blots.proofs.EmitHOOps Blots.proofs.RelPure
               Blots.proofs.EmitHOTop.
Import ListNotations.
Open Scope string_scope.
Open Scope list_scope.

(* every built-in except the two whose arm applies Value::equals to argument elements *)
Definition biok_full (b : builtin) : bool :=
  match b with B_unique | B_includes => false | _ => true end.

Section Full.
  Variable opok : binop -> bool.
  Variable biok : builtin -> bool.
  Variable nanfix : bool.
  Variable numok : num -> bool.
  Variable strok : string -> bool.
  Notation vrel := (vrelG opok biok nanfix numok strok).
  Notation lrel := (lrelG opok biok nanfix numok strok).
  Notation orel := (orelG opok biok nanfix numok strok).
  Notation vrel_inv := (vrel_inv opok biok nanfix numok strok).
  Notation vrel_list := (vrel_list opok biok nanfix numok strok).
  Notation vrel_rec := (vrel_rec opok biok nanfix numok strok).
  Notation vrel_num := (G_num opok biok nanfix numok strok).

  Variable cb cb' : callback.
  Hypothesis Hcb : cb_rel_on vrel cb cb'.

  Lemma cb_rel_MRS : forall f f' args args', vrel f f' -> Forall2 vrel args args' ->
    MRS store (fun _ _ => True) vrel (cb f f args) (cb' f' f' args').
  Proof. intros f f' args args' Hf Ha st st' _. split; [apply Hcb; assumption|exact I]. Qed.

  (* every arm of builtin_full that does not apply Value::equals, and every built-in that is not
     transcribed (Unmodelled on both sides) *)
  Theorem builtin_full_rel_all b args args' st st' : biok_full b = true -> lrel args args' ->
    orel (fst (builtin_full cb b args st)) (fst (builtin_full cb' b args' st')).
  Proof.
    intros Hb Ha.
    destruct (pure_arm_of b) as [f|] eqn:E.
    - rewrite !(builtin_full_pure _ b f E). unfold pure_bi. cbn [fst].
      apply (pure_arms_R vrel vrel_inv vrel_num (G_null opok biok nanfix numok strok)
               (G_str opok biok nanfix numok strok) vrel_list (@compare_rel opok biok nanfix numok strok) b f E); [|exact Ha].
      destruct b; try discriminate Hb; reflexivity.
    - destruct (callback_arm b) eqn:C.
      + destruct b; cbn in C; try discriminate C; cbn [builtin_full].
        * apply (bi_sort_by_R vrel vrel_inv vrel_list (@compare_rel opok biok nanfix numok strok) store (fun _ _ => True) cb cb' cb_rel_MRS
                   args args' Ha st st' I).
        * apply (bi_group_by_R vrel vrel_inv vrel_list vrel_rec store (fun _ _ => True) cb cb' cb_rel_MRS
                   args args' Ha st st' I).
        * apply (bi_count_by_R vrel vrel_inv vrel_num vrel_rec store (fun _ _ => True)
                   cb cb' cb_rel_MRS args args' Ha st st' I).
      + rewrite !(builtin_full_other _ b E C).
        destruct (biok_inst b) eqn:Bi; [apply (builtin_impl_rel opok biok nanfix numok strok cb cb' Hcb); assumption|].
        destruct b; cbn in E, C, Bi; try discriminate; exact I.
  Qed.
End Full.

(* operators without Value::equals, every built-in but unique / includes *)
Lemma impl_rel_full_allG nanfix numok strok :
  impl_rel_on eqfree biok_full (vrelG eqfree biok_full nanfix numok strok) binop_impl builtin_full.
Proof.
  split.
  - intros. apply binop_impl_rel; assumption.
  - intros. apply builtin_full_rel_all; assumption.
Qed.

(* ---- the exclusion is necessary: F53 through `includes` and through `unique` ----
   mk = a => (y => y + a); k1 = mk(1); k2 = mk(2)
   f = x => includes([k1], k2):  true  (Value::equals: same parameter list, same body `y + a`);
   the reloaded emission (x) => includes([(y) => y + 1], (y) => y + 2) returns false.
   g = x => len(unique([k1, k2])): 1 before, 2 after. *)
Definition call_on_full (f : value) (arg : value) : outcome value :=
  fst (AD true binop_impl builtin_full LIMIT [(FOwned, [])] f f [arg] [None; None]).
Definition f53_includes_fun : value :=
  VLam 0%nat [AReq "x"]
    (ECall (EBuiltin B_includes) [EList [Cm [] (EId "k1") None]; EId "k2"])
    [("k1", f52_k 1%Z); ("k2", f52_k 2%Z)].
Definition f53_unique_fun : value :=
  VLam 0%nat [AReq "x"]
    (ECall (EBuiltin B_len) [ECall (EBuiltin B_unique) [EList [Cm [] (EId "k1") None; Cm [] (EId "k2") None]]])
    [("k1", f52_k 1%Z); ("k2", f52_k 2%Z)].
Lemma f53_includes_refuted :
  closed_after_capture f53_includes_fun = true /\
  call_on_full f53_includes_fun (VNum nzero) = Ok (VBool true) /\
  call_on_full (reloaded true true f53_includes_fun) (VNum nzero) = Ok (VBool false).
Proof. vm_compute. repeat split; reflexivity. Qed.
Lemma f53_unique_refuted :
  closed_after_capture f53_unique_fun = true /\
  call_on_full f53_unique_fun (VNum nzero) = Ok (VNum (num_of_Z 1)) /\
  call_on_full (reloaded true true f53_unique_fun) (VNum nzero) = Ok (VNum (num_of_Z 2)).
Proof. vm_compute. repeat split; reflexivity. Qed.

(* the statement without the exclusion (every built-in allowed in bodies) is FALSE, whichever numbers
   and strings may be inlined (the witness inlines 1 and 2) *)
Lemma all_builtins_unrestricted_refutedG numok strok :
  emit_okG eqfree (fun _ => true) numok strok f53_includes_fun = true ->
  leaves_eval true numok strok true binop_impl ->
  ~ impl_rel_on eqfree (fun _ => true) (vrelG eqfree (fun _ => true) true numok strok) binop_impl builtin_full.
Proof.
  intros Hok Hleaves H.
  pose proof (EmitHO.reload_rel eqfree (fun _ => true) true numok strok 0%nat 1%nat _ _ _ Hok) as Hrel.
  assert (Hargs : lrelG eqfree (fun _ => true) true numok strok [VNum nzero] [VNum nzero]) by (repeat constructor).
  set (f' := VLam 1%nat [AReq "x"]
                   (subst true (scope_map true true [("k1", f52_k 1%Z); ("k2", f52_k 2%Z)])
                      (ECall (EBuiltin B_includes) [EList [Cm [] (EId "k1") None]; EId "k2"])) []) in *.
  pose proof (ho_simulationG eqfree (fun _ => true) true numok strok true binop_impl builtin_full H Hleaves LIMIT
                [(FOwned, [])] [(FOwned, [])] f53_includes_fun f' f53_includes_fun f'
                [VNum nzero] [VNum nzero] [None; None] [None; None] Hrel Hargs) as G.
  destruct f53_includes_refuted as (_ & E1 & E2). unfold call_on_full in E1, E2.
  assert (Er : reloaded true true f53_includes_fun = f') by (vm_compute; reflexivity).
  rewrite Er in E2. rewrite E1, E2 in G. cbn in G. inversion G.
Qed.

(* ---------------------------------------------------------------- [vrel]: no NaN, no string with both quote kinds *)
Notation vrelF := (vrel eqfree biok_full).
Notation orelF := (orel eqfree biok_full).
Notation lrelF := (lrel eqfree biok_full).
Notation emit_okF := (emit_ok eqfree biok_full).

Theorem vrel_nofun_eq opok biok nanfix : forall v v',
  vrel opok biok nanfix v v' -> BuiltinsText.has_function v = false -> v = v'.
Proof. intros v v' H. apply (EmitHOTop.vrel_nofun_eq opok biok nanfix num_plain str_plain). apply vrel_G. exact H. Qed.

Theorem impl_rel_full_all nanfix : impl_rel_respecting eqfree biok_full nanfix binop_impl builtin_full.
Proof. exact (impl_rel_on_iff _ _ _ _ _ _ (fun v v' => iff_sym (vrel_G _ _ _ v v')) (impl_rel_full_allG _ _ _)). Qed.

(* the simulation for the evaluator with every transcribed built-in, bodies may mention all but two *)
Theorem ho_simulation_all : forall release nanfix d fr fr' this this' f f' args args' st st',
  vrelF nanfix f f' -> lrelF nanfix args args' ->
  orelF nanfix (fst (AD release binop_impl builtin_full d fr this f args st))
               (fst (AD release binop_impl builtin_full d fr' this' f' args' st')).
Proof. intros release nanfix. apply ho_simulation. apply impl_rel_full_all. Qed.

Theorem emit_equiv_higher_order_all : forall release nanfix d fr fr' this this' id id' ps b sc args args' st st',
  emit_okF (VLam id ps b sc) = true -> lrelF nanfix args args' ->
  orelF nanfix (fst (AD release binop_impl builtin_full d fr this (VLam id ps b sc) args st))
               (fst (AD release binop_impl builtin_full d fr' this'
                        (VLam id' ps (subst true (scope_map nanfix true sc) b) []) args' st')).
Proof.
  intros. apply ho_simulation_all; [|assumption]. apply reload_rel. assumption.
Qed.

(* emittable values are related to themselves *)
Lemma emit_ok_refl_gen opok biok nanfix : forall v, emit_ok opok biok v = true -> vrel opok biok nanfix v v.
Proof. intros v Hok. apply vrel_G. apply emit_ok_refl. exact Hok. Qed.

Theorem emit_equiv_ho_same_args_all : forall release nanfix d fr fr' this this' id id' ps b sc args st st' r,
  emit_okF (VLam id ps b sc) = true -> forallb emit_okF args = true ->
  fst (AD release binop_impl builtin_full d fr this (VLam id ps b sc) args st) = r ->
  exists r', fst (AD release binop_impl builtin_full d fr' this'
                     (VLam id' ps (subst true (scope_map nanfix true sc) b) []) args st') = r' /\
    orelF nanfix r r' /\ (forall v, r = Ok v -> lf v = true -> r' = Ok v) /\ (r = ErrDepth <-> r' = ErrDepth).
Proof.
  intros release nanfix.
  exact (emit_equiv_same_args_via _ _ _ _ _ _ _ _ _ (vrel_G _ _ nanfix) (leaves_eval_plain _ _ _) (impl_rel_full_all nanfix)).
Qed.

Definition all_builtins_rel_unrestricted : Prop :=
  forall nanfix, impl_rel_respecting eqfree (fun _ => true) nanfix binop_impl builtin_full.
Lemma all_builtins_rel_unrestricted_refuted : ~ all_builtins_rel_unrestricted.
Proof.
  intros H. apply (all_builtins_unrestricted_refutedG num_plain str_plain); [reflexivity|apply leaves_eval_plain|].
  exact (impl_rel_on_iff _ _ _ _ _ _ (vrel_G _ _ _) (H true)).
Qed.
