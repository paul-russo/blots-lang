(* ScanFmt.v — C09: what makes a document well-formed for the comment scanner (Formatter.wf_doc):
   every literal layout piece is lexically self-contained and every comment is followed by a line
   break.  Here: neutral strings, how documents that may be followed by anything (Appendable) compose, the layouts that print no comment of
   their own, and the hypotheses on the AST (atoms_ok, with the strict comment predicate comment_ok).
   The layouts that print comments and the theorem about the formatter are in PegAtomsC09Scan.v, for
   the weaker comment predicate that the scanner really needs; DriverText.v carries them over to
   atoms_ok.  The texts printed through expr_to_source are opaque: their lexical self-containment
   is a hypothesis on the produced document (opaque_texts_neutral). *)
From Coq Require Import String Ascii List ZArith Bool Lia.
Require Import Blots.Num Blots.gen.Builtins Blots.Ast Blots.Formatter Blots.proofs.ExprInd
  Blots.proofs.StringFacts Blots.proofs.Scan Blots.proofs.Comments.
Import ListNotations.
Open Scope list_scope.

(* ------------------------------------------------------------------ neutral strings *)
Lemma neutral_app : forall a b, neutral a -> neutral b -> neutral (a +++ b).
Proof. unfold neutral. intros a b Ha Hb. rewrite srun_app, Ha, Hb. reflexivity. Qed.

Definition plain_char (c : ascii) : bool := negb (is_quote c) && negb (Ascii.eqb c "/").
Definition plain (s : string) : bool := all_chars plain_char s.

Lemma plain_neutral : forall s, plain s = true -> neutral s.
Proof.
  unfold neutral, plain. induction s as [|c r IH]; intros H; [reflexivity|].
  cbn [all_chars] in H. apply andb_prop in H as [Hc Hr]. cbn [srun sstep].
  unfold plain_char in Hc. apply andb_prop in Hc as [Hq Hs].
  rewrite negb_true_iff in Hq, Hs. rewrite Hq, Hs, (IH Hr). reflexivity.
Qed.

Lemma plain_app : forall a b, plain (a +++ b) = plain a && plain b.
Proof. unfold plain. induction a; intros; cbn; [reflexivity|]. now rewrite IHa, andb_assoc. Qed.

Lemma plain_make_indent : forall n, plain (make_indent n) = true.
Proof. induction n; [reflexivity|]. cbn. exact IHn. Qed.
Lemma neutral_indent : forall n, neutral (make_indent n).
Proof. intros; apply plain_neutral, plain_make_indent. Qed.

Lemma plain_sjoin : forall sep l, plain sep = true -> forallb plain l = true -> plain (sjoin sep l) = true.
Proof.
  intros sep l Hs. induction l as [|x r IH]; intros H; [reflexivity|].
  cbn [forallb] in H. apply andb_prop in H as [Hx Hr].
  destruct r as [|y r']; [exact Hx|].
  change (sjoin sep (x :: y :: r')) with (x +++ sep +++ sjoin sep (y :: r')).
  rewrite !plain_app, Hx, Hs, (IH Hr). reflexivity.
Qed.

Lemma neutral_binop_infix : forall op, neutral (" " +++ binary_op_str op +++ " ").
Proof. destruct op; reflexivity. Qed.
Lemma neutral_binop_lead : forall op, neutral (binary_op_str op +++ " ").
Proof. destruct op; reflexivity. Qed.

(* ------------------------------------------------------------------ comment texts *)
Definition eol_free_char (c : ascii) : bool := negb (Ascii.eqb c NLc) && negb (Ascii.eqb c CRc).
Definition comment_ok (c : string) : bool :=
  match c with
  | String a (String b r) => Ascii.eqb a "/" && Ascii.eqb b "/" && all_chars eol_free_char r
  | _ => false
  end.

Lemma append_snoc : forall cur c r, snoc cur c +++ r = cur +++ String c r.
Proof. unfold snoc. induction cur; intros; cbn; [reflexivity|]. now rewrite IHcur. Qed.

(* ------------------------------------------------------------------ composing documents *)
Fixpoint ends_with_code (d : doc) : bool :=
  match d with
  | [] => true
  | [Comment _] => false
  | _ :: r => ends_with_code r
  end.
Definition starts_nl (d : doc) : bool := match d with Nl :: _ => true | _ => false end.
(* well-formed and not ending in a comment: any well-formed document may follow *)
Definition Appendable (d : doc) : Prop := wf_doc d /\ ends_with_code d = true.

Lemma ends_with_code_app : forall a b, ends_with_code b = true -> b <> [] -> ends_with_code (a ++ b) = true.
Proof.
  induction a as [|p r IH]; intros b Hb NE; [exact Hb|].
  cbn [app]. specialize (IH b Hb NE).
  destruct (r ++ b) eqn:E; [destruct r; [contradiction|discriminate]|].
  destruct p; cbn [ends_with_code]; exact IH.
Qed.

Lemma ends_with_code_app2 : forall a b, ends_with_code a = true -> ends_with_code b = true -> ends_with_code (a ++ b) = true.
Proof.
  intros a b Ha Hb. destruct b as [|q b']; [now rewrite app_nil_r|].
  apply ends_with_code_app; [exact Hb|discriminate].
Qed.

Lemma wf_app_appendable : forall a b, wf_doc a -> ends_with_code a = true -> wf_doc b -> wf_doc (a ++ b).
Proof.
  induction a as [|p r IH]; intros b Ha He Hb; [exact Hb|].
  destruct p as [s|e s|c| |e s]; cbn [app wf_doc] in *.
  - destruct Ha as [Hn Hr]. split; [exact Hn|]. apply IH; auto.
  - destruct Ha as [Hn Hr]. split; [exact Hn|]. apply IH; auto.
  - destruct Ha as [Hc Hr]. split; [exact Hc|].
    destruct r as [|q r']; [discriminate|]. destruct q; try contradiction.
    cbn [app]. apply (IH b Hr); [|exact Hb]. exact He.
  - apply IH; auto.
  - destruct Ha as [Hn Hr]. split; [exact Hn|]. apply IH; auto.
Qed.

Lemma wf_app_nl : forall a b, wf_doc a -> wf_doc (Nl :: b) -> wf_doc (a ++ Nl :: b).
Proof.
  induction a as [|p r IH]; intros b Ha Hb; [exact Hb|].
  destruct p as [s|e s|c| |e s]; cbn [app wf_doc] in *.
  - destruct Ha; split; auto.
  - destruct Ha; split; auto.
  - destruct Ha as [Hc Hr]. split; [exact Hc|].
    destruct r as [|q r']; [exact Hb|]. destruct q; try contradiction.
    cbn [app]. apply (IH b Hr Hb).
  - auto.
  - destruct Ha; split; auto.
Qed.

Lemma appendable_app : forall a b, Appendable a -> Appendable b -> Appendable (a ++ b).
Proof.
  intros a b [Ha Ea] [Hb Eb]. split; [now apply wf_app_appendable|now apply ends_with_code_app2].
Qed.
Lemma appendable_code : forall s, neutral s -> Appendable [Code s].
Proof. intros s H. split; [cbn; auto|reflexivity]. Qed.
(* layout text: line breaks and self-contained code *)
Lemma appendable_pieces : forall d,
  Forall (fun p => match p with Code s => neutral s | Nl => True | _ => False end) d -> Appendable d.
Proof.
  induction 1 as [|p d Hp _ IH]; [split; [exact I|reflexivity]|].
  destruct p; try contradiction; [apply (appendable_app [Code s]); [now apply appendable_code|exact IH]|].
  destruct IH as [W E]. split; [exact W|]. destruct d; [reflexivity|exact E].
Qed.
Lemma appendable_nil : Appendable [].
Proof. split; [exact I|reflexivity]. Qed.
Lemma appendable_nl_ind : forall i, Appendable [Nl; ind i].
Proof. intros i. split; [cbn; split; [apply neutral_indent|exact I]|reflexivity]. Qed.

Definition trailing_ok (tr : option string) : bool :=
  match tr with Some t => forallb comment_ok (split_nl t) | None => true end.

Definition comments_ok {A} (c : commented A) : bool :=
  forallb comment_ok (cleading c) && trailing_ok (ctrailing c).

(* the texts printed through expr_to_source are lexically self-contained *)
Definition opaque_texts_neutral (d : doc) : Prop :=
  Forall (fun p => match p with Opaque _ s | Relined _ s => neutral s | _ => True end) d.
Lemma otn_app : forall a b, opaque_texts_neutral (a ++ b) <-> opaque_texts_neutral a /\ opaque_texts_neutral b.
Proof. intros; unfold opaque_texts_neutral; apply Forall_app. Qed.

(* ------------------------------------------------------------------ layouts *)
(* appendable as soon as its opaque texts are neutral: closed under ++ *)
Definition AppendableIfNeutral (d : doc) : Prop := opaque_texts_neutral d -> Appendable d.

Lemma ifn_app : forall a b, AppendableIfNeutral a -> AppendableIfNeutral b -> AppendableIfNeutral (a ++ b).
Proof. intros a b Ha Hb H. apply otn_app in H as [H1 H2]. apply appendable_app; auto. Qed.
Lemma ifn_appendable : forall d, Appendable d -> AppendableIfNeutral d.
Proof. intros d H _. exact H. Qed.
Lemma ifn_cons : forall s d, neutral s -> AppendableIfNeutral d -> AppendableIfNeutral (Code s :: d).
Proof. intros s d Hs Hd. exact (ifn_app [Code s] d (ifn_appendable _ (appendable_code s Hs)) Hd). Qed.
Lemma ifn_text : forall e s, AppendableIfNeutral [Opaque e s] /\ AppendableIfNeutral [Relined e s].
Proof. intros e s. split; intros H; inversion H as [|? ? N _]; subst; (split; [cbn; auto|reflexivity]). Qed.
Lemma ifn_wrap : forall b d, AppendableIfNeutral d -> AppendableIfNeutral (wrap_parens b d).
Proof.
  intros [] d H; [|exact H].
  exact (ifn_cons "(" _ eq_refl (ifn_app d _ H (ifn_appendable _ (appendable_code ")" eq_refl)))).
Qed.
Lemma ifn_protect : forall d b, AppendableIfNeutral d -> AppendableIfNeutral (protect_minus d b).
Proof.
  intros d b H. unfold protect_minus.
  destruct (negb b && starts_with_minus (render d)); [exact (ifn_wrap true d H)|exact H].
Qed.
Lemma protect_minus_appendable : forall d b, Appendable d -> Appendable (protect_minus d b).
Proof.
  intros d b H. unfold protect_minus. destruct (negb b && starts_with_minus (render d)); [|exact H].
  repeat apply appendable_app; try (apply appendable_code; reflexivity). exact H.
Qed.

Section Layouts.
  Variable O : oracles.
  Variable key_ok : string -> bool.
  Hypothesis Hrk : forall k, key_ok k = true -> neutral (o_record_key O k).
  Variable w : nat.
  Variable rec : expr -> nat -> doc.

  Definition rec_appendable (x : expr) : Prop := forall j, AppendableIfNeutral (rec x j).

  (* record entries *)
  Definition key_atoms_ok (r : rentry) : bool :=
    match r with
    | REntry (KStatic k) _ => key_ok k
    | REntry (KShort name) _ => plain name
    | _ => true
    end.
  Definition entry_appendable (r : rentry) : Prop :=
    match r with
    | REntry (KStatic _) v => rec_appendable v
    | REntry (KDyn k) v => rec_appendable k /\ rec_appendable v
    | REntry (KShort _) _ => True
    | REntry (KSpread x) _ => rec_appendable x
    end.

  Lemma entry_doc_appendable : forall r i, entry_appendable r -> key_atoms_ok r = true -> AppendableIfNeutral (entry_doc O rec r i).
  Proof.
    intros [[k|ke|name|x] v] i HR HK; cbn [entry_doc entry_appendable key_atoms_ok app] in *.
    - apply ifn_cons; [apply neutral_app; [now apply Hrk|reflexivity]|apply HR].
    - destruct HR as [Rk Rv]. apply ifn_cons; [reflexivity|]. apply ifn_app; [apply Rk|].
      apply ifn_cons; [reflexivity|apply Rv].
    - apply ifn_appendable, appendable_code. now apply plain_neutral.
    - apply HR.
  Qed.

  (* lambda *)
  Lemma lambda_doc_appendable : forall args body i,
    forallb (fun a => plain (arg_name a)) args = true -> rec_appendable body -> AppendableIfNeutral (lambda_doc O w rec args body i).
  Proof.
    intros args body i HA HR.
    assert (NA : forall suffix, plain suffix = true -> neutral (lambda_args_part args +++ suffix)).
    { intros suffix Hs. apply plain_neutral. rewrite plain_app, Hs, andb_true_r.
      unfold lambda_args_part.
      assert (G : plain ("(" +++ sjoin ", " (map lambda_arg_to_str args) +++ ")") = true).
      { rewrite !plain_app. change (plain "(") with true. change (plain ")") with true.
        rewrite andb_true_r. cbn [andb].
        apply plain_sjoin; [reflexivity|]. clear -HA.
        induction args as [|a r IH]; [reflexivity|]. cbn [map forallb] in *.
        apply andb_prop in HA as [Ha Hr]. rewrite (IH Hr), andb_true_r.
        destruct a; cbn [lambda_arg_to_str arg_name] in *; rewrite ?plain_app, ?Ha; reflexivity. }
      destruct args as [|[x|x|x] [|b r]]; try exact G.
      cbn [forallb arg_name] in HA. now rewrite andb_true_r in HA. }
    unfold lambda_doc. cbv zeta.
    destruct (is_do body); [cbn [app]; apply ifn_cons; [rewrite append_assoc; now apply NA|apply HR]|].
    match goal with |- context [if negb ?a && ?b then _ else _] => destruct (negb a && b) end.
    - cbn [app]. apply ifn_cons; [rewrite append_assoc; now apply NA|apply ifn_wrap, HR].
    - apply ifn_app; [|apply ifn_wrap, HR].
      apply ifn_appendable, appendable_pieces. repeat constructor; [now apply NA|apply neutral_indent].
  Qed.

  (* call *)
  Lemma call_doc_appendable : forall f args i, rec_appendable f -> Forall rec_appendable args -> AppendableIfNeutral (call_doc O rec f args i).
  Proof.
    intros f args i Hf Ha. unfold call_doc. cbv zeta.
    destruct args as [|a r]; (apply ifn_app; [apply ifn_wrap, Hf|]); [apply ifn_appendable, appendable_code; reflexivity|].
    cbn [app]. apply ifn_cons; [reflexivity|].
    apply ifn_app; [|apply ifn_appendable, appendable_pieces; repeat constructor; apply neutral_indent].
    revert Ha. generalize (a :: r). induction 1 as [|x l Hx _ IH]; [exact (ifn_appendable _ appendable_nil)|].
    cbn [flat_map]. apply ifn_app; [|exact IH].
    apply (ifn_app [Nl; ind (i + INDENT_SIZE)]); [apply ifn_appendable, appendable_nl_ind|].
    apply ifn_app; [apply Hx|apply ifn_appendable, appendable_code; reflexivity].
  Qed.

  (* binary operator *)
  Lemma binop_doc_appendable : forall op l r i, rec_appendable l -> rec_appendable r -> AppendableIfNeutral (binop_doc O w rec op l r i).
  Proof.
    intros op l r i Hl Hr. unfold binop_doc. cbv zeta.
    assert (GN : forall k, AppendableIfNeutral [Nl; ind k; Code (binary_op_str op +++ " ")])
      by (intro k; apply ifn_appendable, appendable_pieces; repeat constructor; [apply neutral_indent|apply neutral_binop_lead]).
    assert (M : AppendableIfNeutral [Code (" " +++ binary_op_str op +++ " ")]) by apply ifn_appendable, appendable_code, neutral_binop_infix.
    (* every arm is left ++ separator ++ right, the right operand re-assembled or not *)
    repeat match goal with |- context [if ?b then _ else _] => destruct b end;
      repeat apply ifn_app;
      first [apply ifn_wrap; first [apply Hl|apply Hr]|apply GN|exact M|apply ifn_text].
  Qed.
End Layouts.

(* ------------------------------------------------------------------ the strings of the AST *)
Section Atoms.
  Variable key_ok : string -> bool.

  (* the strings of the AST that the layouts print themselves: assigned names, parameter
     names, shorthand keys (no quote, no slash), static keys (accepted by key_ok), and the
     comments (each "//" + text without line break; a trailing field = such lines joined by "\n") *)
  Fixpoint atoms_ok (e : expr) : bool :=
    match e with
    | EList items => forallb (fun c => comments_ok c && atoms_ok (cnode c)) items
    | ERec entries =>
        forallb (fun c => comments_ok c && key_atoms_ok key_ok (cnode c) &&
                          match cnode c with
                          | REntry (KStatic _) v => atoms_ok v
                          | REntry (KDyn k) v => atoms_ok k && atoms_ok v
                          | REntry (KShort _) _ => true
                          | REntry (KSpread x) _ => atoms_ok x
                          end) entries
    | ELam args body => forallb (fun a => plain (arg_name a)) args && atoms_ok body
    | ECond c t f => atoms_ok c && atoms_ok t && atoms_ok f
    | EDo stmts ret =>
        forallb (fun c => comments_ok c && atoms_ok (cnode c)) stmts &&
        forallb comment_ok (cleading ret) && atoms_ok (cnode ret)
    | EAssign x v => plain x && atoms_ok v
    | EOutput x => atoms_ok x
    | ECall f args => atoms_ok f && forallb atoms_ok args
    | EBin _ l r => atoms_ok l && atoms_ok r
    | EAccess a ix => atoms_ok a && atoms_ok ix
    | EDot a field => atoms_ok a && plain field
    | EUn _ a => atoms_ok a
    | EFact a => atoms_ok a
    | ESpread a => atoms_ok a
    | _ => true
    end.
End Atoms.

(* the executable format_record_key satisfies the key hypothesis for identifier keys *)
Lemma ident_char_plain : forall c,
  (ascii_alpha c || ascii_digit c || Ascii.eqb c "_")%bool = true -> plain_char c = true.
Proof. intros c. destruct c as [[] [] [] [] [] [] [] []]; vm_compute; intros; try reflexivity; discriminate. Qed.

Lemma record_key_impl_neutral : forall k, is_valid_identifier k = true -> neutral (record_key_impl k).
Proof.
  intros k H. unfold record_key_impl. rewrite H. apply plain_neutral.
  destruct k as [|c r]; [discriminate|]. cbn [is_valid_identifier] in H.
  apply andb_prop in H as [H Hr]. apply andb_prop in H as [_ Hc].
  unfold plain. cbn [all_chars]. apply andb_true_intro. split.
  - apply ident_char_plain. apply orb_prop in Hc as [Hc|Hc]; rewrite Hc; [reflexivity|now rewrite orb_true_r].
  - clear -Hr. induction r as [|d r IH]; [reflexivity|]. cbn [all_chars] in *.
    apply andb_prop in Hr as [Hd Hr]. rewrite (ident_char_plain d Hd), (IH Hr). reflexivity.
Qed.
