(* FmtItems.v — layout_preserves_items (property C07): at every width and indentation, every layout
   of formatter.rs (Formatter.v: format_expr_impl, format_single_line, format_multiline and all the
   layout functions) denotes the SAME pest token stream as the one-line printer expr_to_source
   (Printer.v print_items): the layouts call needs_parens_in_binop / needs_parens_in_postfix /
   lambda_body_needs_parens / needs_parens_in_unary for the same parent/child pairs as
   expr_to_source does, and protect_leading_minus (decided on the laid-out TEXT) agrees with the
   one-line printer's do-block rule (decided on the one-line text), because no layout changes the
   first character class of what it prints (`lead3`).

   Two points where a layout decides on its own and the proof needs a fact about the oracles:
   - format_lambda does not ask lambda_body_needs_parens when the body is a do-block
     (hypothesis HBdo: the oracle answers false there; true of lbnp by computation);
   - format_call_multiline / format_single_line ask needs_parens_in_postfix for a callee where
     Printer.v's policy has the separate field pC (hypothesis HC: pC = pP; true of policy_new). *)
From Coq Require Import String Ascii List Bool Arith Lia.
Require Import Blots.Num Blots.gen.Builtins Blots.Ast Blots.Outcome Blots.PrattTypes Blots.gen.PrecTable
               Blots.Pratt Blots.PrattRender Blots.Printer Blots.Formatter Blots.FmtTokens
               Blots.proofs.PrattAdequacy Blots.proofs.PrattRT Blots.proofs.PrintText Blots.proofs.PrintRT
               Blots.proofs.FmtdInd Blots.proofs.StringFacts.
Import ListNotations.
Local Open Scope list_scope.

(* ------------------------------------------------------------------ how a text starts *)
Inductive l3 := LEmpty | LMinus | LOther.
Definition lead3 (s : string) : l3 :=
  match s with
  | EmptyString => LEmpty
  | String c _ => if Ascii.eqb c "-" then LMinus else LOther
  end.
Definition l3cat (a b : l3) : l3 := match a with LEmpty => b | _ => a end.

Lemma lead3_app : forall a b, lead3 (a ++ b)%string = l3cat (lead3 a) (lead3 b).
Proof. intros [|c a] b; [reflexivity|]. cbn. destruct (Ascii.eqb c "-"); reflexivity. Qed.
Lemma l3cat_other : forall b, l3cat LOther b = LOther.
Proof. reflexivity. Qed.
Lemma l3cat_assoc : forall a b c, l3cat (l3cat a b) c = l3cat a (l3cat b c).
Proof. intros [| |] b c; reflexivity. Qed.

Lemma fmt_minus_lead3 : forall s,
  Formatter.starts_with_minus s = match lead3 s with LMinus => true | _ => false end.
Proof. intros [|c s]; [reflexivity|]. cbn. destruct (Ascii.eqb c "-"); reflexivity. Qed.
Lemma prt_minus_lead3 : forall s,
  Printer.starts_minus s = match lead3 s with LMinus => true | _ => false end.
Proof.
  intros [|c s]; [reflexivity|]. cbn [starts_minus lead3].
  change a_minus with "-"%char. destruct (Ascii.eqb c "-"); reflexivity.
Qed.

Lemma render_app : forall a b, render (a ++ b) = (render a ++ render b)%string.
Proof.
  induction a as [|p a IH]; intro b; [reflexivity|].
  cbn [app render]. rewrite IH. symmetry. apply append_assoc.
Qed.
Definition dlead (d : doc) : l3 := lead3 (render d).
Lemma dlead_app : forall a b, dlead (a ++ b) = l3cat (dlead a) (dlead b).
Proof. intros a b. unfold dlead. rewrite render_app. apply lead3_app. Qed.
Lemma dlead_cons : forall p d, dlead (p :: d) = l3cat (lead3 (render_piece p)) (dlead d).
Proof. intros p d. unfold dlead. cbn [render]. apply lead3_app. Qed.
Lemma dlead_wrap : forall b d, dlead (wrap_parens b d) = if b then LOther else dlead d.
Proof. intros [|] d; reflexivity. Qed.
Lemma lead3_paren_s : forall b s, lead3 (paren_s b s) = if b then LOther else lead3 s.
Proof. intros [|] s; reflexivity. Qed.

(* ------------------------------------------------------------------ list helpers *)
Lemma map_fix_exprs : forall (f : expr -> list item) (g : expr -> list item) args,
  Forall (fun a => f a = g a) args ->
  map f args = (fix go (l : list expr) : list (list item) :=
                  match l with [] => [] | a :: l' => g a :: go l' end) args.
Proof.
  intros f g args H. induction H as [|a l Ha _ IH]; [reflexivity|].
  cbn [map]. rewrite Ha, IH. reflexivity.
Qed.

Lemma has_comments_plain : forall A (c : commented A), plain_cm c = true -> has_comments c = false.
Proof. intros A [[|] n [|]]; cbn; try discriminate; reflexivity. Qed.

Section Generic.
  Variable fx : fixes.
  Variable pol : policy.
  Variable numtxt : num -> string.
  Variable O : oracles.
  Variable w : nat.
  Variable orl : expr -> string -> list item.
  Notation pt := (print_text fx pol numtxt).
  Notation pi := (print_items fx pol numtxt).
  Notation fsi := (fsl_items O pi key_item).
  Notation fi := (fmt_items O pi key_item true orl w).
  Notation fd := (fmtd O w).

  (* the interface: what the formatter's imports must be for the theorem *)
  Hypothesis Hdom : fx_dominus fx = true.
  Hypothesis HL : forall op c, o_needs_parens O op c true = pL pol op c.
  Hypothesis HR : forall op c, o_needs_parens O op c false = pR pol op c.
  Hypothesis HP : forall c, o_postfix_parens O c = pP pol c.
  Hypothesis HC : forall c, pC pol c = pP pol c.
  Hypothesis HB : forall c, o_lambda_body_parens O c = pB pol c.
  Hypothesis HBdo : forall s r, pB pol (EDo s r) = false.
  Hypothesis HU : forall c, o_unary_parens O c = pU pol c.
  Hypothesis Hlead : forall e, lead3 (o_e2s O e) = lead3 (pt e).

  (* ---------------------------------------------------------------- first character: single line *)
  Lemma lead_args_part : forall args body,
    (match args with [AReq x] => name_ok x | _ => true end && lam_ok body)%bool = true ->
    forall rest, lead3 (lambda_args_part args ++ rest)%string = LOther \/
                 (lambda_args_part args = EmptyString).
  Proof.
    intros args body H rest. apply andb_prop in H. destruct H as [H _].
    destruct args as [|[x|x|x] [|b args']]; try (left; reflexivity).
    cbn [lambda_args_part]. destruct x as [|c x]; [right; reflexivity|left].
    unfold name_ok in H. rewrite prt_minus_lead3 in H. cbn in H |- *.
    destruct (Ascii.eqb c "-"); [discriminate|reflexivity].
  Qed.

  Lemma lead_fsl : forall e, lam_ok e = true -> lead3 (fsl O e) = lead3 (pt e).
  Proof.
    induction e as [x|s|b| |x|x|b|items HF|entries HF|args body IHb|c t1 e IHc IHt IHe|stmts ret HF Hret
                   |x v IHv|e IHe|f args IHf HF|e i IHe IHi|e f IHe|o l r IHl IHr|uo e IHe|e IHe|e IHe]
      using expr_ind'; intro Hl; try (apply Hlead).
    - (* EList *) cbn [fsl]. destruct (existsb has_comments items); reflexivity.
    - (* ERec *) cbn [fsl]. destruct (existsb has_comments entries); reflexivity.
    - (* ELam *)
      cbn [fsl]. cbn [lam_ok] in Hl.
      destruct (lead_args_part args body Hl (" => " ++
        (if o_lambda_body_parens O body then "(" ++ fsl O body ++ ")" else fsl O body))%string) as [E|E].
      + exact E.
      + rewrite E. reflexivity.
    - (* EAssign *)
      cbn [fsl print_text]. rewrite !lead3_app. destruct (lead3 x); reflexivity.
    - (* EOutput *) reflexivity.
    - (* ECall *)
      cbn [lam_ok] in Hl. apply andb_prop in Hl. destruct Hl as [Hf _].
      cbn [fsl print_text]. rewrite !lead3_app.
      rewrite HP, HC.
      change (if pP pol f then ("(" ++ fsl O f ++ ")")%string else fsl O f) with (paren_s (pP pol f) (fsl O f)).
      rewrite !lead3_paren_s, (IHf Hf). reflexivity.
  Qed.

  (* ---------------------------------------------------------------- first character: every layout *)
  Lemma lead_fmtd : forall e, lam_ok e = true -> forall j, dlead (fd e j) = lead3 (pt e).
  Proof.
    assert (OP : forall e s, dlead [Opaque e s] = lead3 s)
      by (intros e s; unfold dlead; cbn [render render_piece]; now rewrite append_nil_r).
    apply (fmtd_ind O w (fun e => lam_ok e = true) (fun e d => dlead d = lead3 (pt e))).
    - intros e s Hl _ [->| ->]; rewrite OP; [exact (lead_fsl e Hl)|apply Hlead].
    - intros items i _ _. unfold list_doc. destruct items; reflexivity.
    - intros entries i _ _. unfold record_doc. destruct entries; reflexivity.
    - intros args body i Hl _. unfold lambda_doc. cbn [lam_ok] in Hl.
      assert (A : forall rest d, lead3 rest = LOther ->
                  dlead (Code (lambda_args_part args ++ rest)%string :: d) = LOther).
      { intros rest d Hr. rewrite dlead_cons. cbn [render_piece].
        destruct (lead_args_part args body Hl rest) as [E|E]; rewrite E; [reflexivity|].
        cbn [append]. now rewrite Hr. }
      destruct (is_do body); [cbn [app]; rewrite append_assoc; now apply A|].
      match goal with |- context [if ?b then _ else _] => destruct b end; cbn [app];
        rewrite ?append_assoc; now apply A.
    - intros c t el i _ _ _ _ _. rewrite cond_doc_eq.
      match goal with |- context [if ?b then _ else _] => destruct b end; reflexivity.
    - intros stmts [rl r rt] i _ _ _. reflexivity.
    - intros x v i _ _. rewrite dlead_cons. cbn [render_piece print_text].
      rewrite !lead3_app. destruct (lead3 x); reflexivity.
    - reflexivity.
    - intros f args i Hl Hf _. cbn [lam_ok] in Hl. apply andb_prop in Hl as [Lf _].
      unfold call_doc. cbn [print_text]. rewrite !lead3_app, lead3_paren_s, HC.
      destruct args; rewrite dlead_app, dlead_wrap, HP, (Hf Lf); destruct (pP pol f); reflexivity.
    - intros o l r i Hl Hl' _. cbn [lam_ok] in Hl. apply andb_prop in Hl as [Ll _].
      unfold binop_doc. cbn [print_text]. rewrite !lead3_app, lead3_paren_s.
      repeat match goal with |- context [if ?b then _ else _] =>
               lazymatch b with
               | pL _ _ _ => fail
               | _ => destruct b
               end end;
        rewrite dlead_app, dlead_wrap, HL, (Hl' Ll); destruct (pL pol o l); reflexivity.
    - intros a ix i Hl _ Ha _. cbn [lam_ok] in Hl. apply andb_prop in Hl as [La _].
      cbn [print_text]. rewrite !lead3_app, lead3_paren_s, dlead_app, dlead_wrap, HP, (Ha La).
      destruct (pP pol a); reflexivity.
    - intros a f i Hl _ Ha. cbn [print_text].
      rewrite !lead3_app, lead3_paren_s, dlead_app, dlead_wrap, HP, (Ha Hl). destruct (pP pol a); reflexivity.
    - intros op x i _ _ _. destruct op; reflexivity.
    - intros x i Hl _ Hx. cbn [print_text].
      rewrite !lead3_app, lead3_paren_s, dlead_app, dlead_wrap, HP, (Hx Hl). destruct (pP pol x); reflexivity.
    - reflexivity.
  Qed.

  Lemma protect_agrees : forall n inner its k,
    lam_ok n = true ->
    protect_items (fd n inner) its (Nat.eqb k 0) = wrapb (dominus_text fx k (pt n)) its.
  Proof.
    intros n inner its k Hl. unfold protect_items, dominus_text.
    rewrite Hdom, fmt_minus_lead3, prt_minus_lead3.
    change (lead3 (render (fd n inner))) with (dlead (fd n inner)).
    rewrite (lead_fmtd n Hl inner). reflexivity.
  Qed.

  (* ---------------------------------------------------------------- items: single line *)
  Definition SI (e : expr) : Prop := wf e = true -> fsi e = pi e.

  Lemma fsl_items_all : forall e, SI e.
  Proof.
    induction e as [x|s|b| |x|x|b|items HF|entries HF|args body IHb|c t1 e IHc IHt IHe|stmts ret HF Hret
                   |x v IHv|e IHe|f args IHf HF|e i IHe IHi|e f IHe|o l r IHl IHr|uo e IHe|e IHe|e IHe]
      using expr_ind'; intro Hwf; try reflexivity.
    - (* EList *)
      cbn [wf] in Hwf. cbn [fsl_items print_items].
      assert (E : existsb has_comments items = false /\
                  map (fun c => LItem (fsi (cnode c)) None) items
                  = (fix go (l : list (commented expr)) : list lelem :=
                       match l with [] => [] | Cm _ x _ :: l' => LItem (pi x) None :: go l' end) items).
      { induction items as [|c items IH]; [split; reflexivity|].
        apply andb_prop in Hwf. destruct Hwf as [Hwf Hrest]. apply andb_prop in Hwf. destruct Hwf as [Hpl Hw].
        inversion HF as [|? ? Hc HF']; subst. destruct (IH HF' Hrest) as [E1 E2].
        destruct c as [ld x tr]. cbn [Pcm] in Hc. split.
        - cbn [existsb]. rewrite (has_comments_plain _ _ Hpl), E1. reflexivity.
        - cbn [map cnode]. rewrite (Hc Hw), E2. reflexivity. }
      destruct E as [E1 E2]. rewrite E1, E2. reflexivity.
    - (* ERec *)
      cbn [wf] in Hwf. cbn [fsl_items print_items].
      assert (E : existsb has_comments entries = false /\
                  map (fun c => entry_relem key_item fsi (cnode c)) entries
                  = (fix go (l : list (commented rentry)) : list relem :=
                       match l with
                       | [] => []
                       | Cm _ (REntry k v) _ :: l' =>
                           match k with
                           | KStatic s => RPairI (key_item s) (pi v) None
                           | KDyn d => RPairI (RKDyn [IExpr false (pi d)]) (pi v) None
                           | KShort s => RShortI s None
                           | KSpread x => RSpreadI (pi x) None
                           end :: go l'
                       end) entries).
      { induction entries as [|c entries IH]; [split; reflexivity|].
        apply andb_prop in Hwf. destruct Hwf as [Hwf Hrest]. apply andb_prop in Hwf. destruct Hwf as [Hpl Hw].
        inversion HF as [|? ? Hc HF']; subst. destruct (IH HF' Hrest) as [E1 E2].
        destruct c as [ld [k v] tr]. cbn [Pentry Pkey] in Hc. destruct Hc as [Hk Hv]. split.
        - cbn [existsb]. rewrite (has_comments_plain _ _ Hpl), E1. reflexivity.
        - cbn [map cnode entry_relem]. rewrite E2.
          destruct k as [s|d|s|x].
          + rewrite (Hv Hw). reflexivity.
          + apply andb_prop in Hw. destruct Hw as [Hd Hv']. rewrite (Hk Hd), (Hv Hv'). reflexivity.
          + reflexivity.
          + apply andb_prop in Hw. destruct Hw as [Hx _]. rewrite (Hk Hx). reflexivity. }
      destruct E as [E1 E2]. rewrite E1, E2. reflexivity.
    - (* ELam *) cbn [wf] in Hwf. cbn [fsl_items print_items]. rewrite HB, (IHb Hwf). reflexivity.
    - (* EAssign *) cbn [wf] in Hwf. cbn [fsl_items print_items]. rewrite (IHv Hwf). reflexivity.
    - (* EOutput *) discriminate.
    - (* ECall *)
      cbn [wf] in Hwf. apply andb_prop in Hwf. destruct Hwf as [Hwf1 Hwf2].
      cbn [fsl_items print_items]. rewrite HP, HC, (IHf Hwf1). do 3 f_equal.
      apply map_fix_exprs.
      clear - HF Hwf2. induction args as [|a args IH]; [constructor|].
      apply andb_prop in Hwf2. destruct Hwf2 as [Ha Hr]. inversion HF as [|? ? Hc HF']; subst.
      constructor; [exact (Hc Ha) | exact (IH HF' Hr)].
  Qed.

  (* ---------------------------------------------------------------- items: every layout *)
  Lemma fmt_items_unfold : forall e i, fi e i = impl_items O pi key_item true orl w fd fi e i.
  Proof. intros e i. destruct e; reflexivity. Qed.

  (* A e: the layouts of e denote print_items e; B e: so does e as the else-branch of a conditional *)
  Definition A (e : expr) : Prop := forall i, fi e i = pi e.
  Definition B (e : expr) : Prop :=
    forall fcd fc ft c t i, (forall j, fc j = pi c) -> (forall j, ft j = pi t) ->
      cond_items w fd fi fcd fc ft e i = [ICond (pi c) (pi t) (pi e)].
  Definition AB (e : expr) : Prop := wf e = true -> lam_ok e = true -> A e /\ B e.

  Lemma B_of_A : forall e, (forall c t e2, e <> ECond c t e2) -> A e -> B e.
  Proof.
    intros e Hne HA fcd fc ft c t i Hc Ht.
    destruct e; try (exfalso; eapply Hne; reflexivity);
      cbn [cond_items];
      match goal with |- context [if ?b then _ else _] => destruct b end;
      rewrite ?Hc, ?Ht, HA; reflexivity.
  Qed.

  Lemma AB_plain : forall e, (forall c t e2, e <> ECond c t e2) ->
    (wf e = true -> lam_ok e = true -> A e) -> AB e.
  Proof. intros e Hne H Hwf Hl. split; [|apply B_of_A; [exact Hne|]]; exact (H Hwf Hl). Qed.

  (* the single-line test of format_expr_impl *)
  Ltac items_fits Hwf :=
    rewrite fmt_items_unfold; unfold impl_items;
    match goal with |- context [if ?b then _ else _] => destruct b end;
    [exact (fsl_items_all _ Hwf)|].

  Ltac leaf_items :=
    unfold multiline_items;
    match goal with
    | |- context [if ?b then _ else _] => destruct b; reflexivity
    | _ => reflexivity
    end.

  Ltac not_cond := let c := fresh in let t := fresh in let e := fresh in intros c t e; discriminate.

  Lemma fmt_items_all : forall e, AB e.
  Proof.
    induction e as [x|s|b| |x|x|b|items HF|entries HF|args body IHb|c t1 e IHc IHt IHe|stmts ret HF Hret
                   |x v IHv|e IHe|f args IHf HF|e i IHe IHi|e f IHe|o l r IHl IHr|uo e IHe|e IHe|e IHe]
      using expr_ind';
      try (apply AB_plain; [not_cond|]; intros Hwf Hl i; items_fits Hwf; leaf_items).
    - (* EList *)
      apply AB_plain; [not_cond|]. intros Hwf Hl.
      intro i. items_fits Hwf. unfold multiline_items, list_items.
      cbn [wf] in Hwf. cbn [lam_ok] in Hl. cbn [print_items].
      assert (E : forall inner,
                list_lelems fi items inner
                = (fix go (l : list (commented expr)) : list lelem :=
                     match l with [] => [] | Cm _ x _ :: l' => LItem (pi x) None :: go l' end) items).
      { intro inner. induction items as [|c items IH]; [reflexivity|].
        apply andb_prop in Hwf. destruct Hwf as [Hwf Hrest]. apply andb_prop in Hwf. destruct Hwf as [Hpl Hw].
        inversion HF as [|? ? Hc HF']; subst. destruct c as [ld x tr]. cbn [Pcm] in Hc.
        apply andb_prop in Hl. destruct Hl as [Hlx Hlr].
        cbn [list_lelems]. rewrite (IH HF' Hrest Hlr). destruct (Hc Hw Hlx) as [Ha _]. rewrite Ha. reflexivity. }
      destruct items as [|c items]; [reflexivity|]. rewrite E. reflexivity.
    - (* ERec *)
      apply AB_plain; [not_cond|]. intros Hwf Hl.
      intro i. items_fits Hwf. unfold multiline_items, record_items.
      cbn [wf] in Hwf. cbn [lam_ok] in Hl. cbn [print_items].
      assert (E : forall inner,
                rec_relems key_item fi entries inner
                = (fix go (l : list (commented rentry)) : list relem :=
                     match l with
                     | [] => []
                     | Cm _ (REntry k v) _ :: l' =>
                         match k with
                         | KStatic s => RPairI (key_item s) (pi v) None
                         | KDyn d => RPairI (RKDyn [IExpr false (pi d)]) (pi v) None
                         | KShort s => RShortI s None
                         | KSpread x => RSpreadI (pi x) None
                         end :: go l'
                     end) entries).
      { intro inner. induction entries as [|c entries IH]; [reflexivity|].
        apply andb_prop in Hwf. destruct Hwf as [Hwf Hrest]. apply andb_prop in Hwf. destruct Hwf as [Hpl Hw].
        inversion HF as [|? ? Hc HF']; subst. destruct c as [ld [k v] tr]. cbn [Pentry Pkey] in Hc.
        destruct Hc as [Hk Hv].
        apply andb_prop in Hl. destruct Hl as [Hl1 Hlr]. apply andb_prop in Hl1. destruct Hl1 as [Hlk Hlv].
        cbn [rec_relems entry_relem]. rewrite (IH HF' Hrest Hlr).
        destruct k as [s|d|s|x].
        - destruct (Hv Hw Hlv) as [Ha _]. rewrite Ha. reflexivity.
        - apply andb_prop in Hw. destruct Hw as [Hd Hv'].
          destruct (Hk Hd Hlk) as [Ha1 _]. destruct (Hv Hv' Hlv) as [Ha2 _]. rewrite Ha1, Ha2. reflexivity.
        - reflexivity.
        - apply andb_prop in Hw. destruct Hw as [Hx _]. destruct (Hk Hx Hlk) as [Ha _]. rewrite Ha. reflexivity. }
      destruct entries as [|c entries]; [reflexivity|]. rewrite E. reflexivity.
    - (* ELam *)
      apply AB_plain; [not_cond|]. intros Hwf Hl.
      intro i. rewrite fmt_items_unfold. unfold impl_items, lambda_items.
      cbn [wf] in Hwf. cbn [lam_ok] in Hl. apply andb_prop in Hl. destruct Hl as [_ Hlb].
      destruct (IHb Hwf Hlb) as [Ha _]. cbn [print_items].
      destruct (is_do body) eqn:Ed.
      + destruct body; try discriminate. rewrite HBdo, Ha. reflexivity.
      + match goal with |- context [if ?b then _ else _] => destruct b end; rewrite HB, Ha; reflexivity.
    - (* ECond *)
      intros Hwf Hl. pose proof Hwf as Hw'. cbn [wf] in Hwf.
      apply andb_prop in Hwf. destruct Hwf as [Hwf H3]. apply andb_prop in Hwf. destruct Hwf as [H1 H2].
      cbn [lam_ok] in Hl. apply andb_prop in Hl. destruct Hl as [Hl L3]. apply andb_prop in Hl. destruct Hl as [L1 L2].
      destruct (IHc H1 L1) as [Ac _]. destruct (IHt H2 L2) as [At _]. destruct (IHe H3 L3) as [_ Be].
      split.
      + intro i. items_fits Hw'. unfold multiline_items.
        rewrite (Be (fd c) (fi c) (fi t1) c t1 i Ac At). reflexivity.
      + intros fcd fc ft c0 t0 i Hc Ht. cbn [cond_items].
        match goal with |- context [if ?b then _ else _] => destruct b end;
          rewrite ?Hc, ?Ht, (Be (fd c) (fi c) (fi t1) c t1 i Ac At); reflexivity.
    - (* EDo *)
      apply AB_plain; [not_cond|]. intros Hwf Hl.
      intro i. rewrite fmt_items_unfold. unfold impl_items, multiline_items, do_items.
      destruct ret as [rl r rt]. cbn [wf] in Hwf. cbn [lam_ok] in Hl. cbn [print_items cnode].
      apply andb_prop in Hwf. destruct Hwf as [Hwf Hr]. apply andb_prop in Hwf. destruct Hwf as [Hs Hpl].
      apply andb_prop in Hl. destruct Hl as [Hls Hlr].
      cbn [Pcm] in Hret. destruct (Hret Hr Hlr) as [Ar _].
      set (inner := i + INDENT_SIZE).
      assert (E : forall k,
                do_delems fd fi stmts [DRet (fi r inner)] inner (Nat.eqb k 0)
                = (fix go (i : nat) (l : list (commented expr)) : list delem :=
                     match l with
                     | [] => [DRet (pi r)]
                     | Cm _ x _ :: l' =>
                         PrattTypes.DStmt (wrapb (dominus_text fx i (pt x)) (pi x)) None :: go (S i) l'
                     end) k stmts).
      { clear Hpl. induction stmts as [|c stmts IH]; intro k.
        + cbn [do_delems]. rewrite Ar. reflexivity.
        + apply andb_prop in Hs. destruct Hs as [Hs Hrest]. apply andb_prop in Hs. destruct Hs as [Hplc Hw].
          inversion HF as [|? ? Hc HF']; subst. destruct c as [ld x tr]. cbn [Pcm] in Hc.
          apply andb_prop in Hls. destruct Hls as [Hlx Hlrest].
          destruct (Hc Hw Hlx) as [Ax _].
          cbn [do_delems]. rewrite (protect_agrees x inner (fi x inner) k Hlx), Ax.
          f_equal. exact (IH HF' Hrest Hlrest (S k)). }
      specialize (E 0). cbn [Nat.eqb] in E. rewrite E. reflexivity.
    - (* EAssign *)
      apply AB_plain; [not_cond|]. intros Hwf Hl.
      intro i. items_fits Hwf. unfold multiline_items.
      cbn [wf] in Hwf. cbn [lam_ok] in Hl. destruct (IHv Hwf Hl) as [Ha _]. rewrite Ha. reflexivity.
    - intro Hwf. discriminate Hwf.
    - (* ECall *)
      apply AB_plain; [not_cond|]. intros Hwf Hl.
      intro i. items_fits Hwf. unfold multiline_items, call_items.
      cbn [wf] in Hwf. apply andb_prop in Hwf. destruct Hwf as [Hwf1 Hwf2].
      cbn [lam_ok] in Hl. apply andb_prop in Hl. destruct Hl as [Hl1 Hl2].
      destruct (IHf Hwf1 Hl1) as [Af _]. cbn [print_items]. rewrite HP, HC, Af.
      assert (EA : forall j, Forall (fun a0 => fi a0 j = pi a0) args).
      { intro j. clear - HF Hwf2 Hl2. induction args as [|a args IH]; [constructor|].
        apply andb_prop in Hwf2. destruct Hwf2 as [Ha Hr]. apply andb_prop in Hl2. destruct Hl2 as [La Lr].
        inversion HF as [|? ? Hc HF']; subst.
        constructor; [destruct (Hc Ha La) as [Aa _]; apply Aa | exact (IH HF' Hr Lr)]. }
      destruct args as [|a args]; [reflexivity|]. do 3 f_equal.
      apply (map_fix_exprs (fun a0 => fi a0 (i + INDENT_SIZE)) pi). apply EA.
    - (* EAccess *)
      apply AB_plain; [not_cond|]. intros Hwf Hl.
      intro j. items_fits Hwf. unfold multiline_items.
      cbn [wf] in Hwf. apply andb_prop in Hwf. destruct Hwf as [Hwf1 Hwf2].
      cbn [lam_ok] in Hl. apply andb_prop in Hl. destruct Hl as [Hl1 Hl2].
      destruct (IHe Hwf1 Hl1) as [Ae _]. destruct (IHi Hwf2 Hl2) as [Ai _].
      match goal with |- context [if ?b then _ else _] => destruct b end; [|reflexivity].
      rewrite HP, Ae, Ai. reflexivity.
    - (* EDot *)
      apply AB_plain; [not_cond|]. intros Hwf Hl.
      intro j. items_fits Hwf. unfold multiline_items.
      cbn [wf] in Hwf. cbn [lam_ok] in Hl. destruct (IHe Hwf Hl) as [Ae _].
      match goal with |- context [if ?b then _ else _] => destruct b end; [|reflexivity].
      rewrite HP, Ae. reflexivity.
    - (* EBin *)
      apply AB_plain; [not_cond|]. intros Hwf Hl.
      intro j. items_fits Hwf. unfold multiline_items, binop_items.
      cbn [wf] in Hwf. apply andb_prop in Hwf. destruct Hwf as [Hwl Hwr].
      cbn [lam_ok] in Hl. apply andb_prop in Hl. destruct Hl as [Hll Hlr].
      destruct (IHl Hwl Hll) as [Al _]. destruct (IHr Hwr Hlr) as [Ar _].
      cbn [print_items negb andb]. rewrite HL, HR, !Al, !Ar.
      repeat match goal with |- context [if ?b then _ else _] => destruct b end; reflexivity.
    - (* EUn *)
      apply AB_plain; [not_cond|]. intros Hwf Hl.
      intro j. items_fits Hwf. unfold multiline_items.
      cbn [wf] in Hwf. apply andb_prop in Hwf. destruct Hwf as [_ Hwe]. cbn [lam_ok] in Hl.
      destruct (IHe Hwe Hl) as [Ae _].
      match goal with |- context [if ?b then _ else _] => destruct b end; [|reflexivity].
      rewrite HU, Ae. reflexivity.
    - (* EFact *)
      apply AB_plain; [not_cond|]. intros Hwf Hl.
      intro j. items_fits Hwf. unfold multiline_items.
      cbn [wf] in Hwf. cbn [lam_ok] in Hl. destruct (IHe Hwf Hl) as [Ae _].
      match goal with |- context [if ?b then _ else _] => destruct b end; [|reflexivity].
      rewrite HP, Ae. reflexivity.
    - (* ESpread *)
      apply AB_plain; [not_cond|]. intros Hwf Hl.
      intro j. items_fits Hwf. unfold multiline_items.
      cbn [wf] in Hwf. cbn [lam_ok] in Hl. destruct (IHe Hwf Hl) as [Ae _].
      match goal with |- context [if ?b then _ else _] => destruct b end; [|reflexivity].
      rewrite Ae. reflexivity.
  Qed.

  Theorem layout_items_generic : forall e i,
    wf e = true -> lam_ok e = true -> fi e i = pi e.
  Proof. intros e i Hw Hl. destruct (fmt_items_all e Hw Hl) as [Ha _]. apply Ha. Qed.

  (* statements: `output …` is handed to format_expr as Expr::Output *)
  Theorem layout_stmt_items_generic : forall e i,
    wf (stmt_body e) = true -> lam_ok e = true -> fi e i = stmt_items fx pol numtxt e.
  Proof.
    intros e i Hw Hl.
    assert (D : (exists x, e = EOutput x) \/ (stmt_body e = e /\ stmt_items fx pol numtxt e = pi e)).
    { destruct e; try (right; split; reflexivity). left. eexists. reflexivity. }
    destruct D as [[x ->]|[E1 E2]].
    - cbn [stmt_body] in Hw. cbn [lam_ok] in Hl. cbn [stmt_items].
      rewrite fmt_items_unfold. unfold impl_items.
      match goal with |- context [if ?b then _ else _] => destruct b end.
      + cbn [fsl_items]. exact (fsl_items_all x Hw).
      + unfold multiline_items. apply layout_items_generic; assumption.
    - rewrite E1 in Hw. rewrite E2. apply layout_items_generic; assumption.
  Qed.
End Generic.

(* ------------------------------------------------------------------ the printer of Printer.v *)
Theorem layout_preserves_items : forall oi fx numtxt keepc orl w e i,
  fx_dominus fx = true ->
  wf e = true -> lam_ok e = true ->
  fmt_items (printer_oracles fx (policy_new oi) numtxt keepc)
            (print_items fx (policy_new oi) numtxt) key_item true orl w e i
  = print_items fx (policy_new oi) numtxt e.
Proof.
  intros oi fx numtxt keepc orl w e i Hd Hw Hl.
  apply layout_items_generic; try assumption; try reflexivity.
Qed.

Theorem layout_preserves_stmt_items : forall oi fx numtxt keepc orl w e i,
  fx_dominus fx = true ->
  wf (stmt_body e) = true -> lam_ok e = true ->
  fmt_items (printer_oracles fx (policy_new oi) numtxt keepc)
            (print_items fx (policy_new oi) numtxt) key_item true orl w e i
  = stmt_items fx (policy_new oi) numtxt e.
Proof.
  intros oi fx numtxt keepc orl w e i Hd Hw Hl.
  apply layout_stmt_items_generic; try assumption; try reflexivity.
Qed.


(* composing with the round trip of the one-line printer (PrintRT.new_policy_roundtrip_fun) *)
Theorem format_roundtrip_items : forall oi fx numtxt keepc orl w e i,
  opinfo_consistent oi spec_bprec spec_rassoc = true ->
  fx_dominus fx = true ->
  wf e = true -> lam_ok e = true ->
  exists n, forall m, n <= m ->
    parse_items impl_table infix_map prefix_map m
      (fmt_items (printer_oracles fx (policy_new oi) numtxt keepc)
                 (print_items fx (policy_new oi) numtxt) key_item true orl w e i) = Ok (Some e).
Proof.
  intros oi fx numtxt keepc orl w e i Hc Hd Hw Hl.
  rewrite (layout_preserves_items oi fx numtxt keepc orl w e i Hd Hw Hl).
  apply new_policy_roundtrip_fun; assumption.
Qed.
