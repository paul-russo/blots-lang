(* C02Let.v — LET-ABSTRACTION (C02): in a configuration where the name x holds the value that the
   assignment-free expression s evaluates to, using x in place of s gives the same outcome up to the
   function cells the evaluations allocate.

   HEAD CONTEXTS ([hctx]) — the occurrence of s is the first thing the context evaluates apart from atoms
   (literals and identifiers), it is not under a lambda or do-block, and it occurs once — are defined here;
   they are sequential contexts, and the theorem for those (C02LetGen.v, for s evaluating to a CELL-FREE
   value: no function inside) covers them.  The proof there walks down the spine of the context to the hole
   (where C[x] reads x and C[s] evaluates s, allocating |st1| - |st| cells that C[x] never sees) and from
   there on uses the store-extension invariance of C02Sim.v with the renaming that skips those cells.

   Kept as a stated Prop ([let_abstraction_full_stmt]): arbitrary contexts, several occurrences.  What is
   missing is (a) the Kripke version of the simulation (each later occurrence of s inserts another block
   of unseen cells, so the renaming has to grow during the run; with well-formedness of every
   intermediate value threaded through), and (b) "binding an unmentioned name changes nothing", needed to
   derive the hypothesis [Hs] from the evaluation of `x = s` itself.
   What CANNOT hold (so it is excluded from the full statement too): s evaluating to a function and
   occurring twice — C[s] then has two cells where C[x] has one, and naming one of them (a do-block
   assignment) is visible through the other only in C[x]. *)
From Coq Require Import String Ascii List ZArith Bool Lia.
Require Import Blots.Num Blots.gen.Builtins Blots.Ast Blots.Value Blots.Outcome Blots.Binop
               Blots.Env Blots.Eval Blots.BuiltinsHof Blots.Program Blots.EvalInst
               Blots.proofs.ExprInd Blots.proofs.ValueInd Blots.proofs.Frames Blots.proofs.StoreMono
               Blots.proofs.Scoping Blots.proofs.InstMono
               Blots.proofs.C02Ren Blots.proofs.C02Sim Blots.proofs.C02Ops Blots.proofs.C02Keep Blots.proofs.C02Twice.
Import ListNotations.
Open Scope string_scope.
Open Scope list_scope.
Open Scope nat_scope.

(* literals and identifiers: evaluated without touching the store, value taken from the scope chain *)
Definition atom (e : expr) : Prop :=
  match e with ENum _ | EStr _ | EBool _ | ENull | EId _ | EBuiltin _ => True | _ => False end.
Definition cell_free (v : value) : bool := ids_lt 0 v.

(* eA = C[x], eB = C[s] for a head context C *)
Inductive hctx (x : string) (s : expr) : expr -> expr -> Prop :=
| H_hole : hctx x s (EId x) s
| H_binl : forall op a b e, hctx x s a b -> hctx x s (EBin op a e) (EBin op b e)
| H_binr : forall op t a b, atom t -> hctx x s a b -> hctx x s (EBin op t a) (EBin op t b)
| H_accl : forall a b e, hctx x s a b -> hctx x s (EAccess a e) (EAccess b e)
| H_dot : forall a b f, hctx x s a b -> hctx x s (EDot a f) (EDot b f)
| H_un : forall op a b, hctx x s a b -> hctx x s (EUn op a) (EUn op b)
| H_out : forall a b, hctx x s a b -> hctx x s (EOutput a) (EOutput b)
| H_cond : forall a b t f, hctx x s a b -> hctx x s (ECond a t f) (ECond b t f)
| H_call : forall t a b rest, atom t -> hctx x s a b -> hctx x s (ECall t (a :: rest)) (ECall t (b :: rest))
| H_list : forall l tr a b rest, hctx x s a b ->
    hctx x s (EList (Cm l a tr :: rest)) (EList (Cm l b tr :: rest)).

Lemma ids_lt_mono : forall n m, n <= m -> forall v, ids_lt n v = true -> ids_lt m v = true.
Proof.
  intros n m Hnm. induction v as [y|y| |y|l IH|r IH|id ar bd sc IH|bi|y IH] using value_ind';
    intros H; cbn [ids_lt] in *; try reflexivity.
  - rewrite forallb_forall in *. rewrite Forall_forall in IH. intros y Hy. apply IH; [exact Hy|apply H; exact Hy].
  - rewrite forallb_forall in *. rewrite Forall_forall in IH. intros [k y] Hy. apply (IH (k, y) Hy). apply (H (k, y) Hy).
  - apply andb_true_iff in H. destruct H as [Hid H]. apply andb_true_iff. split.
    + apply Nat.ltb_lt in Hid. apply Nat.ltb_lt. lia.
    + rewrite forallb_forall in *. rewrite Forall_forall in IH. intros [k y] Hy. apply (IH (k, y) Hy). apply (H (k, y) Hy).
  - apply IH. exact H.
Qed.
(* ---- the full statement (kept, not proved): arbitrary positions outside lambdas and do-blocks, any
   number of occurrences ---- *)
Inductive gctx (x : string) (s : expr) : expr -> expr -> Prop :=
| G_hole : gctx x s (EId x) s
| G_same : forall e, gctx x s e e
| G_bin : forall op a a' b b', gctx x s a a' -> gctx x s b b' -> gctx x s (EBin op a b) (EBin op a' b')
| G_un : forall op a a', gctx x s a a' -> gctx x s (EUn op a) (EUn op a')
| G_fact : forall a a', gctx x s a a' -> gctx x s (EFact a) (EFact a')
| G_spread : forall a a', gctx x s a a' -> gctx x s (ESpread a) (ESpread a')
| G_out : forall a a', gctx x s a a' -> gctx x s (EOutput a) (EOutput a')
| G_dot : forall a a' f, gctx x s a a' -> gctx x s (EDot a f) (EDot a' f)
| G_access : forall a a' b b', gctx x s a a' -> gctx x s b b' -> gctx x s (EAccess a b) (EAccess a' b')
| G_cond : forall a a' b b' c c', gctx x s a a' -> gctx x s b b' -> gctx x s c c' ->
    gctx x s (ECond a b c) (ECond a' b' c')
| G_call : forall f f' args args', gctx x s f f' -> Forall2 (gctx x s) args args' ->
    gctx x s (ECall f args) (ECall f' args')
| G_list : forall items items',
    Forall2 (fun c c' => cleading c = cleading c' /\ ctrailing c = ctrailing c' /\ gctx x s (cnode c) (cnode c'))
            items items' ->
    gctx x s (EList items) (EList items').

Definition let_abstraction_full_stmt : Prop :=
  forall release d x s st st1 fr v eA eB rA cA rB cB,
    frames_lt (length st) fr = true -> no_assign s = true -> no_assign eA = true ->
    evalD release binop_impl builtin_impl d (st, fr) (EId x) = (Ok v, (st, fr)) ->
    evalD release binop_impl builtin_impl d (st, fr) s = (Ok v, (st1, fr)) ->
    cell_free v = true ->
    gctx x s eA eB ->
    evalD release binop_impl builtin_impl d (st, fr) eA = (rA, cA) ->
    evalD release binop_impl builtin_impl d (st, fr) eB = (rB, cB) ->
    osame rA rB.

