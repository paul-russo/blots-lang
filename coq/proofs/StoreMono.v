(* StoreMono.v — the lambda-name store only grows: new cells are appended, and a cell that has
   a name keeps it (write-once).  Together with Frames.v this is "values are immutable":
   nothing that evaluation can do changes what an existing value is or how it behaves.

   The evaluator moves the store in three ways only: it appends a cell (fresh_lambda), it names a cell that the
   running assignment created (name_if_created), and it calls operators / built-ins, which move it only through
   their callback (StoreRelOps.v).  So every preorder on stores closed under the first two is kept by evaluation
   at every depth ([evalD_R]: EvalParam.v at the predicate true of every value, which leaves the statement about
   the store); [store_le] is one instance, C02Keep.store_keep another. *)
From Coq Require Import String Ascii List ZArith Bool Lia.
Require Import Blots.Num Blots.gen.Builtins Blots.Ast Blots.Value Blots.Outcome Blots.Binop
               Blots.Env Blots.Eval Blots.BuiltinsHof Blots.proofs.GenOps Blots.proofs.ValuePred Blots.proofs.EvalParam.
Import ListNotations.
Open Scope string_scope.
Open Scope list_scope.
Open Scope nat_scope.

Definition store_le (st st' : store) : Prop :=
  Datatypes.length st <= Datatypes.length st' /\
  forall id n, lam_name st id = Some n -> lam_name st' id = Some n.

Lemma store_le_refl : forall st, store_le st st.
Proof. split; auto. Qed.
Lemma store_le_trans : forall a b c, store_le a b -> store_le b c -> store_le a c.
Proof. intros a b c [L1 N1] [L2 N2]; split; [lia|auto]. Qed.

Lemma nth_error_set_nth_same : forall {A} (l : list A) n a,
  n < Datatypes.length l -> nth_error (set_nth l n a) n = Some a.
Proof.
  induction l as [|x l IH]; intros [|n] a Hn; cbn in *; try lia; auto. apply IH; lia.
Qed.
Lemma nth_error_set_nth_other : forall {A} (l : list A) n m a,
  n <> m -> nth_error (set_nth l n a) m = nth_error l m.
Proof.
  induction l as [|x l IH]; intros [|n] [|m] a Hne; cbn; auto; try congruence.
Qed.
Lemma length_set_nth : forall {A} (l : list A) n a,
  Datatypes.length (set_nth l n a) = Datatypes.length l.
Proof. induction l as [|x l IH]; intros [|n] a; cbn; auto. Qed.

Lemma name_if_lambda_le : forall st v x, store_le st (name_if_lambda st v x).
Proof.
  intros st v x. destruct v; try apply store_le_refl. cbn [name_if_lambda].
  destruct (lam_name st id) eqn:E; [apply store_le_refl|].
  split; [rewrite length_set_nth; lia|].
  intros id' n Hn. unfold lam_name in *.
  destruct (Nat.eq_dec id id') as [->|Hne].
  - rewrite Hn in E. discriminate.
  - rewrite nth_error_set_nth_other; auto.
Qed.

Lemma name_if_created_le : forall n0 st v x, store_le st (name_if_created n0 st v x).
Proof.
  intros n0 st v x. destruct v; try apply store_le_refl. cbn [name_if_created].
  destruct (Nat.leb n0 id); [apply name_if_lambda_le|apply store_le_refl].
Qed.

Lemma fresh_lambda_le : forall st args body scope v st',
  fresh_lambda st args body scope = (v, st') -> store_le st st'.
Proof.
  intros st args body scope v st' H. unfold fresh_lambda in H. inversion H; subst.
  split; [rewrite app_length; cbn; lia|].
  intros id n Hn. unfold lam_name in *.
  destruct (nth_error st id) eqn:E; [|discriminate].
  rewrite nth_error_app1; [rewrite E; auto|]. apply nth_error_Some. congruence.
Qed.

(* ---- the predicate true of every value ---- *)
Definition anyV (_ : store) (_ : value) : Prop := True.
Lemma anyV_all : forall st (l : list value), Forall (anyV st) l.
Proof. intros st l. apply Forall_forall. intros v _. exact I. Qed.
Lemma anyV_frame : forall st (f : frame), Pframe (anyV st) f.
Proof. intros st f. apply Forall_forall. intros kv _. exact I. Qed.
Lemma anyV_frames : forall st (fr : frames), Pframes (anyV st) fr.
Proof. intros st fr. apply Forall_forall. intros kf _. apply anyV_frame. Qed.
Lemma anyV_her : forall st, hereditary (anyV st).
Proof.
  intros st. constructor; [intros l|intros r|intros w|intros v _; exact I]; split; intros _;
    first [exact I|apply anyV_all|apply anyV_frame].
Qed.

(* ---- any preorder on stores that allocation and naming respect ---- *)
Section StoreRel.
  Variable R : store -> store -> Prop.
  Hypothesis R_refl : forall s, R s s.
  Hypothesis R_trans : forall a b c, R a b -> R b c -> R a c.

  (* a callback keeps R from every store above s0 *)
  Definition cb_R (s0 : store) (cb : callback) : Prop :=
    forall this f args st r st', R s0 st -> cb this f args st = (r, st') -> R st st'.
  (* operators / built-ins move the store only through their callback *)
  Definition binop_R (bi : callback -> binop -> value -> value -> store -> outcome value * store) :=
    forall cb s0, cb_R s0 cb -> forall op l r st res st', R s0 st -> bi cb op l r st = (res, st') -> R st st'.
  Definition builtin_R (bu : callback -> builtin -> list value -> store -> outcome value * store) :=
    forall cb s0, cb_R s0 cb -> forall b args st res st', R s0 st -> bu cb b args st = (res, st') -> R st st'.

  Lemma cb_keeps_R : forall s0 cb, cb_keeps R anyV s0 cb -> cb_R s0 cb.
  Proof. intros s0 cb H this f args st r st' Hs E. exact (proj1 (H this f args st r st' Hs I I (anyV_all st args) E)). Qed.

  Hypothesis R_fresh : forall st args body scope v st',
    fresh_lambda st args body scope = (v, st') -> R st st'.
  (* naming at an assignment that started from st0 touches only cells created since *)
  Hypothesis R_name : forall st0 st1 v x,
    R st0 st1 -> R st0 (name_if_created (Datatypes.length st0) st1 v x).

  Theorem evalD_R : forall release bi bu, binop_R bi -> builtin_R bu ->
    forall d c e r c', evalD release bi bu d c e = (r, c') -> R (fst c) (fst c').
  Proof.
    intros release bi bu Hbi Hbu d c e r c' H.
    assert (Kbi : binop_keeps R anyV bi).
    { intros cb s0 Hcb op l r0 st res st' Hs _ _ E. split; [exact (Hbi cb s0 (cb_keeps_R s0 cb Hcb) op l r0 st res st' Hs E)|intros; exact I]. }
    assert (Kbu : builtin_keeps R anyV bu).
    { intros cb s0 Hcb b args st res st' Hs _ E. split; [exact (Hbu cb s0 (cb_keeps_R s0 cb Hcb) b args st res st' Hs E)|intros; exact I]. }
    destruct (evalD_keeps R R_refl R_trans R_fresh R_name anyV anyV_her (fun _ _ _ _ _ => I) (fun _ _ => I)
                (fun _ _ _ _ _ _ => I) (fun st _ _ _ sc _ => anyV_frame st sc) (fun _ _ _ _ _ _ _ _ _ => I)
                release bi bu Kbi Kbu d e c (anyV_frames (fst c) (snd c))) as (L & _).
    rewrite H in L. exact L.
  Qed.
End StoreRel.

(* ================= store_le ================= *)
Definition binop_mono := binop_R store_le.
Definition builtin_mono := builtin_R store_le.

Theorem evalD_store_le : forall release binop_impl builtin_impl,
  binop_mono binop_impl -> builtin_mono builtin_impl ->
  forall d c e r c',
    evalD release binop_impl builtin_impl d c e = (r, c') -> store_le (fst c) (fst c').
Proof.
  apply (evalD_R store_le store_le_refl store_le_trans fresh_lambda_le).
  intros st0 st1 v x H. eapply store_le_trans; [exact H|apply name_if_created_le].
Qed.
