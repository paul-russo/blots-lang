(* FmtdInd.v — the recursion of format_expr_impl (Formatter.fmtd) as an induction principle.
   A property P of (expression, document) holds of every document the formatter builds for a tree
   satisfying A as soon as every layout function yields it from the documents of the children, and
   the one-piece documents (the text of format_single_line or expr_to_source) have it.  The
   conditional layout walks down its else-if chain without going through format_expr_impl: `Chain el`
   is the property for the document of such a tail. *)
From Coq Require Import String List Bool Arith.
Require Import Blots.Num Blots.gen.Builtins Blots.Ast Blots.Formatter Blots.proofs.ExprInd.
Import ListNotations.
Open Scope list_scope.

(* children that satisfy a boolean side condition: drop the condition from what is known of them *)
Lemma Forall_of_forallb : forall {X} (a : X -> bool) (Q : X -> Prop) l,
  forallb a l = true -> Forall (fun x => a x = true -> Q x) l -> Forall Q l.
Proof.
  intros X a Q l Ha H. induction H as [|x l Hx _ IH]; [constructor|].
  cbn [forallb] in Ha. apply andb_prop in Ha as [A1 A2]. constructor; [exact (Hx A1)|exact (IH A2)].
Qed.

Section FmtdInd.
  Variable O : oracles.
  Variable w : nat.
  Notation fd := (fmtd O w).

  Lemma fmtd_eq : forall e i, fd e i = impl_doc O w fd e i.
  Proof. intros e i; destruct e; reflexivity. Qed.

  (* an expression that contains comments is laid out even if it fits on one line
     (formatter.rs with fixes/C09-nested-comments.diff; o_keep_nested_comments = false switches it off) *)
  Definition keeps_layout (e : expr) : bool := o_keep_nested_comments O && contains_comments e.

  Variable A : expr -> Prop.
  Variable P : expr -> doc -> Prop.
  Definition Rec (e : expr) : Prop := A e -> forall i, P e (fd e i).
  Definition Chain (e : expr) : Prop :=
    match e with
    | ECond c t el => A e -> forall i, P e (cond_doc w fd (fd c) (fd t) el i)
    | _ => True
    end.

  (* format_conditional_multiline: the `if` part (either form), the then-branch, and what follows it *)
  Definition else_doc (el : expr) (i : nat) : doc :=
    match el with
    | ECond c2 t2 e2 => [Nl; ind i; Code "else "] ++ cond_doc w fd (fd c2) (fd t2) e2 i
    | _ => [Nl; ind i; Code "else"; Nl; ind (i + INDENT_SIZE)] ++ fd el (i + INDENT_SIZE)
    end.
  Lemma cond_doc_eq : forall fc ft el i,
    cond_doc w fd fc ft el i =
    (if (i + String.length (render ([Code "if "] ++ fc i ++ [Code " then"])) <=? w)%nat
     then [Code "if "] ++ fc i ++ [Code " then"; Nl; ind (i + INDENT_SIZE)]
     else [Code "if "] ++ fc (i + INDENT_SIZE) ++ [Nl; ind i; Code "then"; Nl; ind (i + INDENT_SIZE)])
    ++ ft (i + INDENT_SIZE) ++ else_doc el i.
  Proof.
    intros fc ft el i.
    destruct el; cbn [cond_doc else_doc];
      (match goal with |- context [if ?b then _ else _] => destruct b end;
       rewrite <- ?app_assoc; reflexivity).
  Qed.
  Lemma else_doc_plain : forall el i, match el with ECond _ _ _ => False | _ => True end ->
    else_doc el i = [Nl; ind i; Code "else"; Nl; ind (i + INDENT_SIZE)] ++ fd el (i + INDENT_SIZE).
  Proof. intros el i H. destruct el; try contradiction; reflexivity. Qed.
  Lemma else_doc_ind : forall (Q : doc -> Prop) el i, A el -> Rec el -> Chain el ->
    (forall d, P el d -> Q ([Nl; ind i; Code "else "] ++ d)) ->
    (forall d, P el d -> Q ([Nl; ind i; Code "else"; Nl; ind (i + INDENT_SIZE)] ++ d)) ->
    Q (else_doc el i).
  Proof. intros Q el i Ha Hr Hc Q1 Q2. destruct el; try (apply Q2, Hr, Ha). apply Q1, (Hc Ha). Qed.

  Hypothesis Hopaque : forall e s, A e -> keeps_layout e = false ->
    s = fsl O e \/ s = o_e2s O e -> P e [Opaque e s].
  Hypothesis Hlist : forall items i, A (EList items) ->
    Forall (fun c => Rec (cnode c)) items -> P (EList items) (list_doc fd items i).
  Hypothesis Hrecord : forall entries i, A (ERec entries) ->
    Forall (fun c => Pentry Rec (cnode c)) entries -> P (ERec entries) (record_doc O fd entries i).
  Hypothesis Hlambda : forall args body i, A (ELam args body) ->
    Rec body -> P (ELam args body) (lambda_doc O w fd args body i).
  Hypothesis Hcond : forall c t el i, A (ECond c t el) ->
    Rec c -> Rec t -> Rec el -> Chain el -> P (ECond c t el) (cond_doc w fd (fd c) (fd t) el i).
  Hypothesis Hdo : forall stmts ret i, A (EDo stmts ret) ->
    Forall (fun c => Rec (cnode c)) stmts -> Rec (cnode ret) -> P (EDo stmts ret) (do_doc fd stmts ret i).
  Hypothesis Hassign : forall x v i, A (EAssign x v) ->
    Rec v -> P (EAssign x v) (Code (x +++ " = ") :: fd v i).
  Hypothesis Houtput : forall x i, A (EOutput x) -> Rec x -> P (EOutput x) (Code "output " :: fd x i).
  Hypothesis Hcall : forall f args i, A (ECall f args) ->
    Rec f -> Forall Rec args -> P (ECall f args) (call_doc O fd f args i).
  Hypothesis Hbinop : forall op l r i, A (EBin op l r) ->
    Rec l -> Rec r -> P (EBin op l r) (binop_doc O w fd op l r i).
  (* the operators that format_multiline lays out only to keep the comments inside their operand *)
  Hypothesis Haccess : forall a ix i, A (EAccess a ix) -> keeps_layout (EAccess a ix) = true ->
    Rec a -> Rec ix ->
    P (EAccess a ix) (wrap_parens (o_postfix_parens O a) (fd a i) ++ [Code "["] ++ fd ix i ++ [Code "]"]).
  Hypothesis Hdot : forall a field i, A (EDot a field) -> keeps_layout (EDot a field) = true ->
    Rec a -> P (EDot a field) (wrap_parens (o_postfix_parens O a) (fd a i) ++ [Code ("." +++ field)]).
  Hypothesis Hun : forall op x i, A (EUn op x) -> keeps_layout (EUn op x) = true ->
    Rec x -> P (EUn op x) ([Code (unary_op_str op)] ++ wrap_parens (o_unary_parens O x) (fd x i)).
  Hypothesis Hfact : forall x i, A (EFact x) -> keeps_layout (EFact x) = true ->
    Rec x -> P (EFact x) (wrap_parens (o_postfix_parens O x) (fd x i) ++ [Code "!"]).
  Hypothesis Hspread : forall x i, A (ESpread x) -> keeps_layout (ESpread x) = true ->
    Rec x -> P (ESpread x) ([Code "..."] ++ fd x i).

  (* format_expr_impl for everything but lambdas and do-blocks: the single line if it fits *)
  Lemma single_or_multiline : forall e,
    match e with ELam _ _ | EDo _ _ => False | _ => True end ->
    A e -> (forall i, P e (multiline_doc O w fd e i)) -> forall i, P e (fd e i).
  Proof.
    intros e Hk Ha Hm i. rewrite fmtd_eq.
    destruct e; try contradiction; unfold impl_doc;
      (match goal with |- context [if ?b then _ else _] => destruct b eqn:F end; [|apply Hm]);
      (apply Hopaque; [exact Ha| |now left]);
      apply andb_prop in F as [_ F]; now apply negb_true_iff in F.
  Qed.

  (* ... so that the multi-line form is what is left to show *)
  Lemma multiline_case : forall e,
    match e with ELam _ _ | EDo _ _ | ECond _ _ _ => False | _ => True end ->
    (A e -> forall i, P e (multiline_doc O w fd e i)) -> Rec e /\ Chain e.
  Proof.
    intros e Hk H. split; [|destruct e; try exact I; contradiction].
    intros Ha. apply single_or_multiline; [destruct e; try exact I; contradiction|exact Ha|exact (H Ha)].
  Qed.

  (* the default arm of format_multiline: expr_to_source, unless comments are to be kept *)
  Lemma layout_or_e2s : forall e d, A e -> (keeps_layout e = true -> P e d) ->
    P e (if keeps_layout e then d else [Opaque e (o_e2s O e)]).
  Proof.
    intros e d Ha H. destruct (keeps_layout e) eqn:K; [now apply H|].
    apply Hopaque; [exact Ha|exact K|now right].
  Qed.

  Theorem fmtd_ind_chain : forall e, Rec e /\ Chain e.
  Proof.
    apply expr_ind';
      try (intros; apply multiline_case; [exact I|]; intros Ha i;
           cbn [multiline_doc contains_comments]; rewrite andb_false_r;
           apply Hopaque; [exact Ha|apply andb_false_r|now right]).
    - intros items H. apply multiline_case; [exact I|]. intros Ha i.
      apply Hlist; [exact Ha|]. eapply Forall_impl; [|exact H]. intros c Hc. apply Hc.
    - intros entries H. apply multiline_case; [exact I|]. intros Ha i.
      apply Hrecord; [exact Ha|]. eapply Forall_impl; [|exact H].
      intros [lead [k v] tr] [Hk Hv]. split; [destruct k; try exact I; apply Hk|apply Hv].
    - intros args body [Hb _]. split; [|exact I]. intros Ha i. rewrite fmtd_eq. now apply Hlambda.
    - intros c t el [Hc _] [Ht _] [Hel Cel].
      assert (C : Chain (ECond c t el)) by (intros Ha i; now apply Hcond).
      split; [|exact C]. intros Ha. apply single_or_multiline; [exact I|exact Ha|exact (C Ha)].
    - intros stmts ret H [Hr _]. split; [|exact I]. intros Ha i. rewrite fmtd_eq.
      apply Hdo; [exact Ha| |exact Hr]. eapply Forall_impl; [|exact H]. intros c Hc. apply Hc.
    - intros x v [Hv _]. apply multiline_case; [exact I|]. intros Ha i. now apply Hassign.
    - intros x [Hx _]. apply multiline_case; [exact I|]. intros Ha i. now apply Houtput.
    - intros f args [Hf _] H. apply multiline_case; [exact I|]. intros Ha i.
      apply Hcall; [exact Ha|exact Hf|]. eapply Forall_impl; [|exact H]. intros a Hc. apply Hc.
    - intros a ix [H1 _] [H2 _]. apply multiline_case; [exact I|]. intros Ha i.
      apply layout_or_e2s; [exact Ha|]. intro K. now apply Haccess.
    - intros a field [H1 _]. apply multiline_case; [exact I|]. intros Ha i.
      apply layout_or_e2s; [exact Ha|]. intro K. now apply Hdot.
    - intros op l r [Hl _] [Hr _]. apply multiline_case; [exact I|]. intros Ha i. now apply Hbinop.
    - intros op x [Hx _]. apply multiline_case; [exact I|]. intros Ha i.
      apply layout_or_e2s; [exact Ha|]. intro K. now apply Hun.
    - intros x [Hx _]. apply multiline_case; [exact I|]. intros Ha i.
      apply layout_or_e2s; [exact Ha|]. intro K. now apply Hfact.
    - intros x [Hx _]. apply multiline_case; [exact I|]. intros Ha i.
      apply layout_or_e2s; [exact Ha|]. intro K. now apply Hspread.
  Qed.

  Theorem fmtd_ind : forall e, Rec e.
  Proof. intro e. apply fmtd_ind_chain. Qed.
End FmtdInd.
