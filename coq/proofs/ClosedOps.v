(* ClosedOps.v — operators (Binop.v) and callback-taking built-ins (BuiltinsHof.v) treat their
   callback parametrically on closed values: with two callbacks that agree on closed inputs
   (and return closed results) they return the same outcome and store, and their result is
   closed.  GenOps.v at (store_le, closed_value); needed by CallSite.v. *)
From Coq Require Import String Ascii List ZArith Bool Lia.
Require Import Blots.Num Blots.gen.Builtins Blots.Ast Blots.Value Blots.Outcome Blots.Binop
               Blots.Env Blots.Eval Blots.BuiltinsHof Blots.Program Blots.EvalInst
               Blots.proofs.ValueInd Blots.proofs.GenOps Blots.proofs.StoreMono Blots.proofs.Closed.
Import ListNotations.
Open Scope list_scope.
Open Scope nat_scope.

(* GenOps.v's notions at (store_le, closed_value) *)
Definition cb_agree : store -> callback -> callback -> Prop := GenOps.cb_agree store_le closed_value.
Definition cb_closed : store -> callback -> Prop := GenOps.cb_closed store_le closed_value.

(* GenOps.post at store_le, written out *)
Definition post {A} (Q : store -> A -> Prop) (st : store) (x : outcome A * store) : Prop :=
  store_le st (snd x) /\ (forall a, fst x = Ok a -> Q (snd x) a).

(* the operator table and the built-in dispatcher of EvalInst.v *)
Theorem binop_impl_agree : binop_agrees store_le closed_value binop_impl.
Proof.
  exact (GenOps.binop_impl_agree store_le store_le_refl store_le_trans closed_value
           closed_mono closed_VList atomic_closed).
Qed.

Theorem builtin_impl_agree : builtin_agrees store_le closed_value builtin_impl.
Proof.
  exact (GenOps.builtin_impl_agree store_le store_le_refl store_le_trans closed_value
           closed_mono closed_VList atomic_closed).
Qed.
