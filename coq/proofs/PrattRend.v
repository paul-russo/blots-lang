(* PrattRend.v — every token stream that renders a tree with at least the parentheses the level
   assignment requires is converted to that tree.  RendK m its t k: `its` renders t where an operand of
   level >= m is required, and an operator that follows binds to the whole of t only if its binding
   power is at most k (the openness of the right edge).  Primaries are atoms: any single non-operator
   pair whose own conversion gives t.  Each operator node carries the table entries it uses, so the
   theorem needs nothing of the table beyond the order of the levels. *)
From Coq Require Import String List Bool Arith Lia.
Require Import Blots.Num Blots.gen.Builtins Blots.Ast Blots.Outcome Blots.PrattTypes Blots.Pratt
               Blots.PrattRender.
Import ListNotations.
Local Open Scope nat_scope.
Local Open Scope list_scope.

(* the operator that follows (if any) has binding power at most k *)
Definition lbp_le (tbl : ops_map) (rest : list item) (k : nat) : Prop :=
  exists b, lbp tbl rest = Ok b /\ b <= k.

Section Stops.
  Variable tbl : ops_map.
  Variable imap : list (oprule * binop).
  Variable pmap : list (oprule * prefix_ctor).

  Lemma loop_stops : forall rbp lhs rest, lbp_le tbl rest rbp -> Loop tbl imap pmap rbp lhs rest lhs rest.
  Proof. intros rbp lhs rest (b & Hb & Hle). eapply L_stop; eauto. Qed.
  Lemma lbp_le_nil : forall k, lbp_le tbl [] k.
  Proof. intro k. exists 0. split; [reflexivity|lia]. Qed.

  (* a nested token stream: any number of parenthesis layers *)
  Lemma items_parens : forall n its t, Items tbl imap pmap its t -> Items tbl imap pmap (parens n its) t.
  Proof.
    intros n its t H. induction n as [|n IH]; cbn [parens]; [exact H|].
    eapply I_intro with (rest := []).
    eapply E_primary; [reflexivity | apply P_expr; exact IH | apply loop_stops, lbp_le_nil].
  Qed.

  (* the bare `expression` pair of a spread / dynamic key / index *)
  Lemma items_bare : forall g c, Items tbl imap pmap g c -> Items tbl imap pmap [IExpr false g] c.
  Proof.
    intros g c H. eapply I_intro with (rest := []).
    eapply E_primary; [reflexivity | apply P_expr; exact H | apply loop_stops, lbp_le_nil].
  Qed.
End Stops.

Section Rend.
  Variable tbl : ops_map.
  Variable imap : list (oprule * binop).
  Variable pmap : list (oprule * prefix_ctor).
  Variable bprec : binop -> nat.
  Variable rassoc : binop -> bool.
  Variables Ppre Pmax : nat.

  Hypothesis prec_pos : forall o, 0 < bprec o.
  Hypothesis prec_lt_pre : forall o, bprec o < Ppre.
  Hypothesis pre_le_max : Ppre <= Pmax.
  (* all operators of one level share their associativity, as in pest's grouped table *)
  Hypothesis level_assoc : forall o1 o2, bprec o1 = bprec o2 -> rassoc o1 = rassoc o2.

  Notation needL := (needL bprec rassoc).
  Notation needR := (needR bprec rassoc).
  Notation ExprR := (Expr tbl imap pmap).
  Notation LoopR := (Loop tbl imap pmap).
  Notation ItemsR := (Items tbl imap pmap).

  Definition rbp_o (o : binop) : nat := if rassoc o then bprec o - 1 else bprec o.

  Inductive RendK : nat -> list item -> expr -> nat -> Prop :=
  | Rk_prim m i x : item_op i = None -> Prim tbl imap pmap i x -> RendK m [i] x Pmax
  | Rk_bin m i r o l x il ir kl kr :
      item_op i = Some r -> assoc_find r imap = Some o ->
      ops_get tbl r = Some (Infix (if rassoc o then ARight else ALeft), bprec o) -> m <= bprec o ->
      RendK (needL o) il l kl -> RendK (needR o) ir x kr ->
      RendK m (il ++ i :: ir) (EBin o l x) (Nat.min (rbp_o o) kr)
  | Rk_pre m i r x u ix kx :
      item_op i = Some r ->
      ops_get tbl r = Some (Prefix, Ppre) -> map_prefix pmap r (Some x) = Ok (Some u) ->
      (* a prefix closure never builds a binary node: KB's facts about an EBin root need not cover this case *)
      match u with EBin _ _ _ => False | _ => True end -> m <= Ppre ->
      RendK Ppre ix x kx -> RendK m (i :: ix) u (Nat.min (Ppre - 1) kx)
  | Rk_post m i r p lhs u il kl :
      item_op i = Some r -> ops_get tbl r = Some (Postfix, p) -> Ppre < p -> p <= Pmax -> m <= p ->
      Post tbl imap pmap lhs i u -> RendK (S Ppre) il lhs kl -> RendK m (il ++ [i]) u Pmax.

  Lemma RendK_mono : forall m its t k m', RendK m its t k -> m' <= m -> RendK m' its t k.
  Proof.
    intros m its t k m' H Hm. destruct H.
    - apply Rk_prim; assumption.
    - eapply Rk_bin; eauto. eapply Nat.le_trans; eassumption.
    - eapply Rk_pre; eauto. eapply Nat.le_trans; eassumption.
    - eapply Rk_post; eauto. eapply Nat.le_trans; eassumption.
  Qed.

  (* lower bounds of the openness k of a rendering of t at level m: (1) a parent asking for level m may go on with
     rbp m - 1; (2),(3) a binary root is open by at least its own rbp, and is either closed or of level >= m (the left
     operand of a left-associative operator of the same level); (4) a non-binary root is open by at least Ppre - 1;
     (5) the operand of a postfix operator (m > Ppre) is closed *)
  Definition KB (m : nat) (t : expr) (k : nat) : Prop :=
    (m <= S Ppre -> m - 1 <= k) /\
    (forall o l x, t = EBin o l x -> rbp_o o <= k) /\
    (forall o l x, t = EBin o l x -> Pmax <= k \/ m <= bprec o) /\
    (match t with EBin _ _ _ => True | _ => Ppre - 1 <= k end) /\
    (Ppre < m -> Pmax <= k).

  Lemma rbp_o_lt : forall o, rbp_o o < Ppre.
  Proof. intro o. pose proof (prec_lt_pre o). unfold rbp_o. destruct (rassoc o); lia. Qed.

  (* the right operand of o is open by at least o's own rbp *)
  Lemma KB_right : forall o x kr, KB (needR o) x kr -> rbp_o o <= kr.
  Proof.
    intros o x kr (B1 & _). assert (Hn : needR o <= S Ppre).
    { pose proof (prec_lt_pre o). unfold PrattRender.needR. destruct (rassoc o); lia. }
    specialize (B1 Hn). unfold PrattRender.needR, rbp_o in *. destruct (rassoc o); lia.
  Qed.

  Lemma RendK_bounds : forall m its t k, RendK m its t k -> KB m t k.
  Proof.
    intros m its t k H. induction H.
    - (* primary: Pmax *)
      split; [|split; [|split; [|split]]].
      + intros Hm. lia.
      + intros o l y E. pose proof (rbp_o_lt o). lia.
      + intros o l y E. left. apply le_n.
      + destruct x; try exact I; lia.
      + intros _. apply le_n.
    - (* binary *)
      pose proof (KB_right _ _ _ IHRendK2) as Hkr. rewrite (Nat.min_l _ _ Hkr).
      split; [|split; [|split; [|split]]].
      + intros _. unfold rbp_o. destruct (rassoc o); lia.
      + intros o' l' x' E. inversion E; subst. apply le_n.
      + intros o' l' x' E. inversion E; subst. right. assumption.
      + exact I.
      + intro Hm. pose proof (prec_lt_pre o). lia.
    - (* prefix *)
      destruct IHRendK as (B1 & _).
      assert (Hkx : Ppre - 1 <= kx) by (apply B1; lia).
      rewrite (Nat.min_l _ _ Hkx).
      split; [|split; [|split; [|split]]].
      + intros _. lia.
      + intros o l y E. subst u. contradiction.
      + intros o l y E. subst u. contradiction.
      + destruct u; try apply le_n. exact I.
      + intro Hm. lia.
    - (* postfix: Pmax *)
      split; [|split; [|split; [|split]]].
      + intros Hm. lia.
      + intros o l y E. pose proof (rbp_o_lt o). lia.
      + intros o l y E. left. apply le_n.
      + destruct u; try exact I; lia.
      + intros _. apply le_n.
  Qed.

  (* `expr rbp` run on a rendering of t followed by anything that may follow it (binding power <= k) reads exactly the
     rendering as t and enters the loop with it.  rbp < Ppre (true of every call of `expr`): the operand of a postfix
     operator is rendered at level Ppre + 1 whatever the operator's own level, and rbp has to lie below that.  KB (1)
     pays for the right-operand and prefix cases, (1)-(4) for the left operand of a binary operator, (5) for postfix *)
  Lemma forward_gen : forall m its t k, RendK m its t k ->
    forall rbp rest u rest', rbp < m -> rbp < Ppre -> lbp_le tbl rest k ->
      LoopR rbp t rest u rest' -> ExprR rbp (its ++ rest) u rest'.
  Proof.
    intros m its t k H. induction H as [m i x Hop HP|m i r o l x il ir kl kr Hop Him Hops Hm Hl IHl Hr IHr
                                        |m i r x u ix kx Hop Hops Hmp Hu Hm Hx IHx
                                        |m i r p lhs u il kl Hop Hops Hp1 Hp2 Hm HP Hl IHl];
      intros rbp rest res rest' Hlt Hpre Hf HL.
    - cbn [app]. eapply E_primary; [assumption | eassumption | exact HL].
    - (* binary *)
      pose proof (KB_right _ _ _ (RendK_bounds _ _ _ _ Hr)) as Hkr. rewrite (Nat.min_l _ _ Hkr) in Hf.
      rewrite <- app_assoc. cbn [app].
      assert (Hright : ExprR (rbp_o o) (ir ++ rest) x rest).
      { apply IHr.
        - unfold PrattRender.needR, rbp_o. pose proof (prec_pos o). destruct (rassoc o); lia.
        - apply rbp_o_lt.
        - destruct Hf as (b & Hb & Hle). exists b. split; [exact Hb | lia].
        - apply loop_stops. exact Hf. }
      assert (Hstep : LoopR rbp l (i :: ir ++ rest) res rest').
      { eapply L_infix; [exact Hop | exact Hops | lia | | | exact HL].
        - unfold rbp_o in Hright. destruct (rassoc o); exact Hright.
        - unfold map_infix. rewrite Him. reflexivity. }
      apply IHl; [unfold PrattRender.needL; destruct (rassoc o); lia | exact Hpre | | exact Hstep].
      (* the operator may follow the left operand *)
      exists (bprec o). split.
      { unfold lbp. rewrite Hop, Hops. reflexivity. }
      pose proof (RendK_bounds _ _ _ _ Hl) as (Bl1 & Bl2 & Bl3 & Bl4 & _).
      assert (HnL : needL o <= S Ppre).
      { pose proof (prec_lt_pre o). unfold PrattRender.needL. destruct (rassoc o); lia. }
      specialize (Bl1 HnL).
      destruct (rassoc o) eqn:Ha.
      + unfold PrattRender.needL in Bl1. rewrite Ha in Bl1. lia.
      + destruct l; try (cbn in Bl4; pose proof (prec_lt_pre o); lia).
        specialize (Bl2 _ _ _ eq_refl). destruct (Bl3 _ _ _ eq_refl) as [Hbig | Hle].
        * pose proof (prec_lt_pre o). lia.
        * unfold PrattRender.needL in Hle. rewrite Ha in Hle.
          destruct (Nat.eq_dec (bprec op) (bprec o)) as [E|E].
          -- pose proof (level_assoc _ _ E) as Hs. rewrite Ha in Hs. unfold rbp_o in Bl2. rewrite Hs in Bl2. lia.
          -- unfold rbp_o in Bl2. destruct (rassoc op); lia.
    - (* prefix *)
      pose proof (RendK_bounds _ _ _ _ Hx) as (Bx1 & _).
      assert (Hkx : Ppre - 1 <= kx) by (apply Bx1; lia).
      rewrite (Nat.min_l _ _ Hkx) in Hf.
      cbn [app]. eapply E_prefix; [exact Hop | exact Hops | | exact Hmp | exact HL].
      apply IHx; [lia | lia | | apply loop_stops; exact Hf].
      destruct Hf as (b & Hb & Hle). exists b. split; [exact Hb | lia].
    - (* postfix *)
      rewrite <- app_assoc. cbn [app].
      apply IHl; [lia | exact Hpre | |].
      + pose proof (RendK_bounds _ _ _ _ Hl) as (_ & _ & _ & _ & B5).
        exists p. split; [unfold lbp; rewrite Hop, Hops; reflexivity|]. specialize (B5 ltac:(lia)). lia.
      + eapply L_postfix; [exact Hop | exact Hops | lia | exact HP | exact HL].
  Qed.

  (* every rendering is converted to the tree it renders *)
  Theorem rendK_parses : forall m its t k, 0 < m -> RendK m its t k -> ItemsR its t.
  Proof.
    intros m its t k Hm HK. pose proof (prec_lt_pre Add) as Hp.   (* 0 <= bprec Add < Ppre: the prefix level is positive *)
    eapply I_intro with (rest := []). rewrite <- (app_nil_r its).
    eapply forward_gen; [exact HK | exact Hm | lia | apply lbp_le_nil | apply loop_stops, lbp_le_nil].
  Qed.

  (* an operand position: bare if its level suffices, else in parentheses (and then closed) *)
  Lemma RendK_parens : forall n m0 m its t k,
    RendK m0 its t k -> 0 < m0 -> (n = 0 -> m <= m0) ->
    RendK m (parens n its) t (match n with O => k | S _ => Pmax end).
  Proof.
    intros [|n] m0 m its t k H Hpos Hn.
    - eapply RendK_mono; [exact H | auto].
    - cbn [parens]. apply Rk_prim; [reflexivity|].
      apply P_expr, items_parens. eapply rendK_parses; eassumption.
  Qed.
End Rend.

(* ------------------------------------------------------------------ the levels of the specification table *)
Lemma spec_prec_pos : forall o, 0 < spec_bprec o.
Proof. intro o. unfold spec_bprec, pest_scale. lia. Qed.
Lemma spec_prec_lt_pre : forall o, spec_bprec o < spec_Ppre.
Proof. destruct o; vm_compute; repeat constructor. Qed.
Lemma spec_pre_lt_fact : spec_Ppre < spec_Pfact.
Proof. vm_compute. repeat constructor. Qed.
Lemma spec_pre_lt_post : spec_Ppre < spec_Ppost.
Proof. vm_compute. repeat constructor. Qed.
Lemma spec_level_assoc : forall o1 o2, spec_bprec o1 = spec_bprec o2 -> spec_rassoc o1 = spec_rassoc o2.
Proof. destruct o1, o2; vm_compute; intro H; try reflexivity; discriminate H. Qed.
