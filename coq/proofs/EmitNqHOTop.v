(* EmitNqHOTop.v — C05: the higher-order portability theorems of EmitHOTop.v for the relation of EmitNqHO.v
   (NaN, when its literal is `(0/0)`, and strings / keys with both quote kinds may be inlined): the
   transcribed operators satisfy [binop_lit_ok], so the statements are the same. *)
From Coq Require Import String Ascii List ZArith Bool Lia.
Require Import Blots.Num Blots.gen.Builtins Blots.Ast Blots.Value Blots.Outcome Blots.Binop
               Blots.Env Blots.Eval Blots.Emit Blots.BuiltinsHof Blots.Program Blots.EvalInst Blots.EvalFull
               Blots.proofs.EmitSubst Blots.proofs.EmitSound
               Blots.proofs.EmitHO Blots.proofs.EmitHOSim Blots.proofs.EmitHOOps
               Blots.EmitNq Blots.proofs.EmitNqLit Blots.proofs.EmitNqHO Blots.proofs.EmitNqHOSim.
Require Blots.proofs.EmitHOTop.
Import ListNotations.
Open Scope string_scope.
Open Scope list_scope.

Lemma reload_rel opok biok nanfix id id' ps b sc : emit_ok opok biok nanfix (VLam id ps b sc) = true ->
  vrel opok biok nanfix (VLam id ps b sc) (VLam id' ps (subst true (scope_map nanfix true sc) b) []).
Proof. intros Hok. apply vrel_G. apply EmitHO.reload_rel. exact Hok. Qed.

(* ---- the instance: transcribed operators without Value::equals, built-ins of biok_inst ---- *)
Definition opok_inst : binop -> bool := eqfree.
Notation vrelI := (vrel opok_inst biok_inst).
Notation orelI := (orel opok_inst biok_inst).
Notation lrelI := (lrel opok_inst biok_inst).
Notation emit_okI := (emit_ok opok_inst biok_inst).

Theorem impl_rel_inst nanfix : impl_rel_respecting opok_inst biok_inst nanfix binop_impl builtin_impl.
Proof. exact (impl_rel_on_iff _ _ _ _ _ _ (fun v v' => iff_sym (vrel_G _ _ _ v v')) (EmitHOTop.impl_rel_instG _ _ _)). Qed.
Theorem impl_rel_full nanfix : impl_rel_respecting opok_inst biok_inst nanfix binop_impl builtin_full.
Proof. exact (impl_rel_on_iff _ _ _ _ _ _ (fun v v' => iff_sym (vrel_G _ _ _ v v')) (EmitHOTop.impl_rel_fullG _ _ _)). Qed.

(* the simulation for the evaluator with every transcribed built-in *)
Theorem ho_simulation_full : forall release nanfix d fr fr' this this' f f' args args' st st',
  vrelI nanfix f f' -> lrelI nanfix args args' ->
  orelI nanfix (fst (AD release binop_impl builtin_full d fr this f args st))
               (fst (AD release binop_impl builtin_full d fr' this' f' args' st')).
Proof. intros release nanfix. apply ho_simulation; [apply impl_rel_full|apply binop_lit_ok_inst]. Qed.

(* results: equal when first-order, related when functions; same error class; same depth verdict *)
Theorem emit_equiv_ho_same_args : forall release nanfix d fr fr' this this' id id' ps b sc args st st' r,
  emit_okI nanfix (VLam id ps b sc) = true -> forallb (emit_okI nanfix) args = true ->
  fst (AD release binop_impl builtin_full d fr this (VLam id ps b sc) args st) = r ->
  exists r', fst (AD release binop_impl builtin_full d fr' this'
                     (VLam id' ps (subst true (scope_map nanfix true sc) b) []) args st') = r' /\
    orelI nanfix r r' /\ (forall v, r = Ok v -> lf v = true -> r' = Ok v) /\ (r = ErrDepth <-> r' = ErrDepth).
Proof.
  intros release nanfix.
  exact (EmitHOTop.emit_equiv_same_args_via _ _ _ _ _ _ _ _ _ (vrel_G _ _ nanfix)
           (leaves_eval_nq _ _ _ binop_lit_ok_inst) (impl_rel_full nanfix)).
Qed.

(* re-emission: emitting the reloaded function again and reloading that gives a function related to
   the ORIGINAL (so chains of any length stay equivalent to the original) *)
Theorem reemit_related : forall nanfix id id1 id2 ps b sc e1 f1 e2 f2,
  emit_okI nanfix (VLam id ps b sc) = true ->
  emit_ast nanfix true (VLam id ps b sc) = Some e1 -> reload_ast id1 e1 = Some f1 ->
  emit_ast nanfix true f1 = Some e2 -> reload_ast id2 e2 = Some f2 ->
  e2 = e1 /\ vrelI nanfix (VLam id ps b sc) f1 /\ vrelI nanfix (VLam id ps b sc) f2.
Proof.
  intros nanfix id id1 id2 ps b sc e1 f1 e2 f2 Hok E1 R1 E2 R2.
  destruct (reemit_twice _ _ _ _ _ _ _ _ _ _ _ E1 R1 E2 R2) as (-> & -> & ->).
  split; [reflexivity|]. split; apply reload_rel; assumption.
Qed.

(* ---- finding F53 (the witness is named f52): Value::equals on functions ignores captured values and looks at the body text ----
   mk = a => (y => y + a); k1 = mk(1); k2 = mk(2); f = x => k1 == k2
   f(0) is true (same parameter list, same body AST `y + a`); the emission is
   (x) => ((y) => y + 1) == ((y) => y + 2), whose reloaded form returns false. *)
Definition f52_k (a : Z) : value :=
  VLam 1%nat [AReq "y"] (EBin Add (EId "y") (EId "a")) [("a", VNum (num_of_Z a))].
Definition f52_fun : value :=
  VLam 0%nat [AReq "x"] (EBin Equal (EId "k1") (EId "k2")) [("k1", f52_k 1%Z); ("k2", f52_k 2%Z)].
Lemma f52_refuted :
  closed_after_capture f52_fun = true /\
  call_on f52_fun (VNum nzero) = Ok (VBool true) /\
  call_on (reloaded true true f52_fun) (VNum nzero) = Ok (VBool false).
Proof. vm_compute. repeat split; reflexivity. Qed.
