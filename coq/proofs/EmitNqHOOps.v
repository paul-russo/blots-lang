(* EmitNqHOOps.v — C05: that the transcribed operators and built-ins respect the relation of EmitNqHO.v is
   EmitHOOps.v read at the leaf conditions ([num_nq nanfix], [str_any]): nothing there looks at which
   numbers and strings are inlined. *)
From Coq Require Import String Ascii List ZArith Bool Lia.
Require Import Blots.Num Blots.gen.Builtins Blots.Ast Blots.Value Blots.Outcome Blots.Binop
               Blots.BuiltinsHof Blots.proofs.EmitNqHO.
Import ListNotations.
Open Scope list_scope.

Section Builtins.
  Variable opok : binop -> bool.
  Variable biok : builtin -> bool.
  Variable nanfix : bool.
  Notation vrel := (vrel opok biok nanfix).
  Notation lrel := (lrel opok biok nanfix).

  Lemma as_list_rel v v' : vrel v v' -> orel_gen lrel (as_list v) (as_list v').
  Proof. destruct 1; cbn; auto. Qed.
End Builtins.
