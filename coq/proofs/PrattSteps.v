(* PrattSteps.v — one step of each of the five mutually recursive functions of Pratt.v as an equation
   (cbn on one member of the block leaves its siblings as raw fixes), and inversion of a successful bind. *)
From Coq Require Import String List Bool Arith.
Require Import Blots.Num Blots.gen.Builtins Blots.Ast Blots.Outcome Blots.PrattTypes Blots.Pratt.
Import ListNotations.
Local Open Scope nat_scope.
Local Open Scope list_scope.

Lemma obind_ok {A B} (x : outcome A) (f : A -> outcome B) v :
  obind x f = Ok v -> exists a, x = Ok a /\ f a = Ok v.
Proof. destruct x; cbn; intro H; try discriminate H. eexists; split; [reflexivity|exact H]. Qed.

Section Steps.
  Variable tbl : ops_map.
  Variable imap : list (oprule * binop).
  Variable pmap : list (oprule * prefix_ctor).
  Notation pexpr' := (pexpr tbl imap pmap).
  Notation ploop' := (ploop tbl imap pmap).
  Notation mpost' := (map_postfix tbl imap pmap).
  Notation primary' := (primary tbl imap pmap).
  Notation parse' := (parse_items tbl imap pmap).

  Lemma pexpr_S : forall m rbp its,
    pexpr' (S m) rbp its =
    match its with
    | [] => Panic
    | pr0 :: rest =>
        do lr <-
           match item_op pr0 with
           | Some r =>
               match ops_get tbl r with
               | Some (Prefix, p) =>
                   do rr <- pexpr' m (p - 1) rest;
                   do e <- map_prefix pmap r (fst rr);
                   Ok (e, snd rr)
               | Some _ => Panic
               | None => Panic
               end
           | None => do e <- primary' m pr0; Ok (e, rest)
           end;
        ploop' m rbp (fst lr) (snd lr)
    end.
  Proof. reflexivity. Qed.

  Lemma ploop_S : forall m rbp lhs its,
    ploop' (S m) rbp lhs its =
    do l <- lbp tbl its;
    if Nat.ltb rbp l then
      match its with
      | [] => Panic
      | pr0 :: rest =>
          match item_op pr0 with
          | Some r =>
              match ops_get tbl r with
              | Some (Infix a, p) =>
                  do rr <- pexpr' m (match a with ALeft => p | ARight => p - 1 end) rest;
                  do e <- map_infix imap lhs r (fst rr);
                  ploop' m rbp e (snd rr)
              | Some (Postfix, _) =>
                  do e <- mpost' m lhs pr0;
                  ploop' m rbp e rest
              | _ => Panic
              end
          | None => Panic
          end
      end
    else Ok (lhs, its).
  Proof. reflexivity. Qed.

  Lemma mpost_S : forall m lhs pr0,
    mpost' (S m) lhs pr0 =
    match pr0 with
    | IOp R_factorial => Ok (option_map EFact lhs)
    | IAccess inner =>
        do i <- parse' m inner;
        Ok (match i, lhs with Some i', Some l => Some (EAccess l i') | _, _ => None end)
    | IDot fld => Ok (option_map (fun l => EDot l fld) lhs)
    | ICall args =>
        do a <- omapM (parse' m) args;
        Ok (match a, lhs with Some a', Some l => Some (ECall l a') | _, _ => None end)
    | _ => Panic
    end.
  Proof. reflexivity. Qed.

  Lemma primary_S : forall m pr0,
    primary' (S m) pr0 =
    match pr0 with
    | INum x => Ok (Some (ENum x))
    | IBadNum => Ok None
    | IStr s => Ok (Some (EStr s))
    | IBool b => Ok (Some (EBool b))
    | INull => Ok (Some ENull)
    | IIdent s => Ok (Some (match builtin_of_name s with Some b => EBuiltin b | None => EId s end))
    | IInRef s => Ok (Some (EInRef s))
    | IExpr _ g => parse' m g
    | IList els => do r <- list_loop (parse' m) els; Ok (option_map EList r)
    | IRecord els => do r <- rec_loop (parse' m) els; Ok (option_map ERec r)
    | ILambda args body => do b <- parse' m body; Ok (option_map (ELam args) b)
    | ICond c t e =>
        do c' <- parse' m c;
        match c' with
        | None => Ok None
        | Some c'' =>
            do t' <- parse' m t;
            match t' with
            | None => Ok None
            | Some t'' => do e' <- parse' m e; Ok (option_map (ECond c'' t'') e')
            end
        end
    | IDo els => do_loop (parse' m) els [] (uncommented ENull)
    | IAssign x v => do v' <- parse' m v; Ok (option_map (EAssign x) v')
    | IOp _ | IAccess _ | IDot _ | ICall _ => Panic
    end.
  Proof. reflexivity. Qed.

  Lemma parse_S : forall m its, parse' (S m) its = do r <- pexpr' m 0 its; Ok (fst r).
  Proof. reflexivity. Qed.
End Steps.
