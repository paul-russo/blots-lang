(* DisplayNumDischarge6.v — C20: WELL-FORMEDNESS for the executable library models.
   display_wellformed_total (proofs/DisplayNumFinite.v) assumes of the library: the shapes of
   {:.N$} and {:.14e}, finiteness of parse::<f64> on mantissa texts, coarse bounds on
   floor(log10) in the standard range and on powi(10, -2..21).  All of them are proved here for
   the executable models (the log10 bound from log10_sane), so every valid double is displayed
   as a well-formed numeral by the model that the DISPLAY correspondence runs — the only
   hypothesis left is log10_sane.
   {:.14e}'s shape holds for valid doubles only (see DisplayNumAccAll.v), which is enough:
   format_display_number applies fmt_exp14 to its argument only
   (display_wellformed_total_at). *)
From Coq Require Import ZArith Reals Bool String Ascii List Lia Lra QArith Qreals Qabs Qpower Floats.SpecFloat.
From Flocq Require Import Core.Core IEEE754.BinarySingleNaN.
Require Import Blots.Num Blots.Outcome Blots.DisplayNum.
Require Import Blots.proofs.DisplayNumGroup Blots.proofs.DisplayNumSpec Blots.proofs.DisplayNumText
               Blots.proofs.DisplayNumInt Blots.proofs.DisplayNum Blots.proofs.DisplayNumAcc
               Blots.proofs.DisplayNumFloat Blots.proofs.DisplayNumFinite Blots.proofs.DisplayNumAccStd
               Blots.proofs.DisplayNumAccAll Blots.proofs.DisplayNumExec
               Blots.proofs.DisplayNumDischarge1 Blots.proofs.DisplayNumDischarge2.
Import ListNotations.
Open Scope R_scope.

(* ---------- every valid finite non-zero double lies in a decade ---------- *)
Lemma valid_decade : forall s m e, valid (S754_finite s m e) ->
  exists k, p10 k <= Rabs (RV (S754_finite s m e)) < p10 (k + 1) /\ (-340 <= k <= 320)%Z.
Proof.
  intros s m e V. destruct (mag_frac m e) as [N D] eqn:E.
  destruct (e10_frac_spec s m e N D V E) as [Dk Rk].
  destruct (RV_mag_frac s m e N D E) as [_ RA].
  exists (e10_frac N D). now rewrite RA.
Qed.

(* ---------- {:.14e}: shape ---------- *)
Theorem fmt_exp14_exec_shape : forall x, valid x -> Num.is_finite x = true ->
  exp_shape (fmt_exp14_exec x) = true.
Proof.
  intros x V F. destruct x as [s|s| |s m e]; try discriminate F.
  - destruct s; reflexivity.
  - destruct (valid_decade s m e V) as (k & Hk & _). apply in_decade_of_R in Hk.
    destruct (fmt_exp14_exec_correct_strong _ k V F Hk) as (ms & es & kk & Sp & Hm & _ & _ & He).
    unfold exp_shape. rewrite Sp, (mant14_is_mant _ Hm), He. reflexivity.
Qed.

(* ---------- parse::<f64> on mantissa texts -?d.d+ is finite ---------- *)
(* a decimal below 10 does not overflow *)
Lemma small_decimal_bound : forall N k, (0 <= N < 10 * 10 ^ k)%Z -> (0 <= k)%Z ->
  Rabs (rnd64 (IZR N / IZR (10 ^ k))) < bpow radix2 1024.
Proof.
  intros N k [HN HU] Hk.
  assert (PD : (0 < 10 ^ k)%Z) by (apply Z.pow_pos_nonneg; lia).
  assert (DD : 0 < IZR (10 ^ k)) by now apply (IZR_lt 0).
  assert (Bv : 0 <= IZR N / IZR (10 ^ k) <= 16).
  { split.
    - apply Rmult_le_pos; [apply IZR_le; lia|]. left. now apply Rinv_0_lt_compat.
    - apply Rmult_le_reg_r with (IZR (10 ^ k)); [exact DD|].
      unfold Rdiv. rewrite Rmult_assoc, Rinv_l, Rmult_1_r by lra.
      apply IZR_lt in HU. rewrite mult_IZR in HU. lra. }
  apply (rnd_lt_emax _ 4); [lia|]. rewrite Rabs_pos_eq by tauto. change (bpow radix2 4) with 16. tauto.
Qed.

Theorem parse_f64_exec_finite : forall s m,
  mant_shape s = true -> parse_f64_exec s = Some m -> Num.is_finite m = true.
Proof.
  intros s m H P. destruct (mant_inv1 s H) as (neg & d & fp & -> & Hd & Hf).
  rewrite (parse_f64_exec_mant neg d fp Hd Hf) in P. injection P as <-.
  pose proof (mant_digits_bound d fp Hd Hf) as Bn. set (Nn := digits_value (d :: fp)) in *.
  destruct (Z.eq_dec Nn 0) as [->|NZ]; [reflexivity|].
  destruct (rn_ratio_correct neg Nn (10 ^ Z.of_nat (length fp)) ltac:(lia)) as [_ C].
  - apply Z.pow_pos_nonneg; lia.
  - apply C. apply small_decimal_bound; lia.
Qed.

(* ---------- powi(10, j), -2 <= j <= 21: finite, non-zero, between 2^-80 and 2^80 ---------- *)
Lemma p10_21_le : p10 21 <= bpow radix2 80.
Proof. apply (bpow_leb_correct radix10 radix2). vm_compute. reflexivity. Qed.
Lemma p10_m2_ge : bpow radix2 (-80) <= p10 (-2).
Proof. apply (bpow_leb_correct radix2 radix10). vm_compute. reflexivity. Qed.

Theorem powi_exec_std_bounds : forall j, (-2 <= j <= 21)%Z ->
  exists s m e, powi_exec c_ten j = S754_finite s m e /\ valid (powi_exec c_ten j) /\
                bpow radix2 (-80) <= Rabs (RV (powi_exec c_ten j)) <= bpow radix2 80.
Proof.
  intros j Hj. destruct (Z_le_gt_dec 0 j) as [P|N].
  - destruct (powi_exec_exact j ltac:(lia)) as (V & (s & m & e & E) & R).
    exists s, m, e. split; [exact E|]. split; [exact V|]. rewrite R.
    rewrite Rabs_pos_eq by (left; apply p10_pos). split.
    + apply Rle_trans with (p10 (-2)); [exact p10_m2_ge|apply bpow_le; lia].
    + apply Rle_trans with (p10 21); [apply bpow_le; lia|exact p10_21_le].
  - destruct (powi_exec_neg j ltac:(lia)) as (V & (s & m & e & E) & R & G).
    exists s, m, e. split; [exact E|]. split; [exact V|].
    assert (Pj : 0 < p10 j) by apply p10_pos.
    rewrite Rabs_pos_eq by lra. split.
    + apply Rle_trans with (p10 j); [|exact G].
      apply Rle_trans with (p10 (-2)); [exact p10_m2_ge|apply bpow_le; lia].
    + rewrite R. apply Rle_trans with (bpow radix2 0); [|apply bpow_le; lia].
      rewrite <- (Rabs_pos_eq (rnd64 (p10 j))).
      * apply rnd_abs_le_bpow; [lia|]. rewrite Rabs_pos_eq by lra.
        change (bpow radix2 0) with (p10 0). apply bpow_le. lia.
      * rewrite <- R. lra.
Qed.

(* ---------- log10_sane on the reals, and its coarse consequence in the standard range ---------- *)
Definition log10_sane_R (log10 : num -> num) : Prop :=
  forall a K, valid a -> Num.is_finite a = true -> p10 K <= RV a < p10 (K + 1) ->
              (K <= as_i32 (nfloor (log10 a)) <= K + 1)%Z.

(* log10 is only ever applied to absolute values, so its sanity is needed on POSITIVE doubles only
   (the real f64::log10 returns NaN on negative arguments) *)
Lemma log10_sane_to_R : forall log10,
  (forall a k, valid_binary prec emax a = true -> nsign a = false -> in_decade a k ->
               (k <= as_i32 (nfloor (log10 a)) <= k + 1)%Z) -> log10_sane_R log10.
Proof.
  intros log10 HL a K Va Fa HA. pose proof (p10_pos K) as PK. apply (HL a K Va).
  - apply RV_pos_nsign. lra.
  - apply in_decade_of_R. rewrite Rabs_pos_eq; [exact HA|lra].
Qed.

Lemma log10_sane_std : forall log10, log10_sane_R log10 ->
  forall a, valid a -> Num.is_finite a = true -> scientific_range a = false ->
  (-5 <= as_i32 (nfloor (log10 a)) <= 15)%Z.
Proof.
  intros log10 HL a Va Fa Hs.
  pose proof (std_range_p10 a Va Fa Hs) as R. pose proof (p10_pos (-4)) as P4.
  destruct a as [s|s| |s m e]; try discriminate Fa.
  - exfalso. unfold RV in R. cbn [SF2R] in R. lra.
  - destruct (valid_decade s m e Va) as (k & Hk & _). rewrite Rabs_pos_eq in Hk by lra.
    pose proof (HL _ k Va Fa Hk) as B.
    assert (A1 : (k < 15)%Z) by (apply (lt_bpow radix10); lra).
    assert (A2 : (-4 < k + 1)%Z) by (apply (lt_bpow radix10); lra).
    lia.
Qed.

(* ====================================================================================
   every valid double is displayed as a well-formed numeral by the executable model
   ==================================================================================== *)
Theorem display_wellformed_exec_pos : forall log10 fx,
  (forall a k, valid_binary prec emax a = true -> nsign a = false -> in_decade a k ->
               (k <= as_i32 (nfloor (log10 a)) <= k + 1)%Z) ->
  forall x t, valid_binary 53 1024 x = true ->
  format_display_number log10 powi_exec fmt_prec_exec fmt_exp14_exec parse_f64_exec fx x = Ok t ->
  wf_numeral t = true.
Proof.
  intros log10 fx HL x t V H.
  apply (display_wellformed_total_at log10 powi_exec fmt_prec_exec fmt_exp14_exec parse_f64_exec fx
           fmt_prec_exec_shape parse_f64_exec_finite
           (log10_sane_std log10 (log10_sane_to_R log10 HL)) powi_exec_std_bounds x t V);
    [now apply fmt_exp14_exec_shape|exact H].
Qed.

Theorem display_wellformed_exec : forall log10 fx,
  (forall a k, valid_binary prec emax a = true -> in_decade a k ->
               (k <= as_i32 (nfloor (log10 a)) <= k + 1)%Z) ->
  forall x t, valid_binary 53 1024 x = true ->
  format_display_number log10 powi_exec fmt_prec_exec fmt_exp14_exec parse_f64_exec fx x = Ok t ->
  wf_numeral t = true.
Proof. intros log10 fx HL. apply display_wellformed_exec_pos. intros a k V _ D. exact (HL a k V D). Qed.
