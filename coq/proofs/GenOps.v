(* GenOps.v — operators (Binop.v) and callback-taking built-ins (BuiltinsHof.v, the EvalInst dispatcher)
   treat their callback parametrically on values satisfying a predicate: with two callbacks that agree on
   such inputs (and return such results) they return the same outcome and store, and their result
   satisfies the predicate.  For an ARBITRARY predicate on values and an arbitrary preorder on stores,
   provided the predicate holds of every atomic value, of a list exactly when it holds of its elements,
   and is kept along the preorder.  ClosedOps.v is the instance (store_le, closed_value) used by C04;
   LfInst.v is the instance (the full relation, "contains no function") that discharges C05's hypothesis
   on the operator and built-in implementations. *)
From Coq Require Import String Ascii List ZArith Bool Lia.
Require Import Blots.Num Blots.gen.Builtins Blots.Ast Blots.Value Blots.Outcome Blots.Binop
               Blots.Env Blots.Eval Blots.BuiltinsHof Blots.Program Blots.EvalInst
               Blots.proofs.ValueInd Blots.proofs.BinopShape.
Import ListNotations.
Open Scope list_scope.
Open Scope nat_scope.

Definition atomic (v : value) : Prop :=
  match v with VNum _ | VBool _ | VStr _ | VNull => True | _ => False end.

Section Abstract.
  Variable store_le : store -> store -> Prop.
  Hypothesis store_le_refl : forall s, store_le s s.
  Hypothesis store_le_trans : forall a b c, store_le a b -> store_le b c -> store_le a c.
  Variable closed_value : store -> value -> Prop.
  (* Closed.closed_list for the abstract predicate *)
  Definition closed_list (st : store) (l : list value) : Prop := Forall (closed_value st) l.
  Hypothesis closed_mono : forall v st st', store_le st st' -> closed_value st v -> closed_value st' v.
  Hypothesis closed_VList : forall st l, closed_value st (VList l) <-> closed_list st l.
  Hypothesis atomic_closed : forall st v, atomic v -> closed_value st v.

  Ltac triv := first [exact I | apply atomic_closed; exact I].

  Lemma closed_list_mono : forall l st st', store_le st st' -> closed_list st l -> closed_list st' l.
  Proof. intros l st st' Hle H. unfold closed_list in *. eapply Forall_impl; [|exact H]. intros a. apply closed_mono; exact Hle. Qed.

(* Two callbacks agree on inputs satisfying the predicate, and the first returns such results and grows the
   store — from every store above s0 (below s0 the values the callback closes over, e.g. the caller's
   `inputs`, need not satisfy it yet). *)
Definition cb_agree (s0 : store) (cb1 cb2 : callback) : Prop :=
  forall this f args st, store_le s0 st ->
    closed_value st this -> closed_value st f -> closed_list st args ->
    cb1 this f args st = cb2 this f args st.
Definition cb_closed (s0 : store) (cb : callback) : Prop :=
  forall this f args st r st', store_le s0 st ->
    closed_value st this -> closed_value st f -> closed_list st args ->
    cb this f args st = (r, st') -> store_le st st' /\ (forall v, r = Ok v -> closed_value st' v).

Section Framework.
  Variable cb1 cb2 : callback.
  Variable s0 : store.
  Hypothesis Hag : cb_agree s0 cb1 cb2.
  Hypothesis Hcl : cb_closed s0 cb1.

  (* from every store above s: same computation, store grows, Ok results satisfy Q there *)
  Definition MIs {A} (s : store) (Q : store -> A -> Prop) (m1 m2 : M store A) : Prop :=
    forall st, store_le s st ->
      m1 st = m2 st /\
      (forall r st', m1 st = (r, st') -> store_le st st' /\ (forall a, r = Ok a -> Q st' a)).

  Definition monoQ {A} (Q : store -> A -> Prop) : Prop :=
    forall a st st', store_le st st' -> Q st a -> Q st' a.

  Lemma lift_MIs : forall A s (Q : store -> A -> Prop) (o : outcome A),
    (forall a st, store_le s st -> o = Ok a -> Q st a) -> MIs s Q (lift store o) (lift store o).
  Proof.
    intros A s Q o HQ st Hst. split; [reflexivity|]. intros r st' H. inversion H; subst.
    split; [apply store_le_refl|]. intros a Ha. apply HQ; auto.
  Qed.

  Lemma bindM_MIs : forall A B s (Q : store -> A -> Prop) (Q' : store -> B -> Prop)
                          (m1 m2 : M store A) (f1 f2 : A -> M store B),
    MIs s Q m1 m2 ->
    (forall a s1, store_le s s1 -> Q s1 a -> MIs s1 Q' (f1 a) (f2 a)) ->
    MIs s Q' (bindM store m1 f1) (bindM store m2 f2).
  Proof.
    intros A B s Q Q' m1 m2 f1 f2 Hm Hf st Hst. destruct (Hm st Hst) as [Heq Hpost].
    unfold bindM. rewrite <- Heq. destruct (m1 st) as [o st1] eqn:E.
    destruct (Hpost o st1 eq_refl) as [Hle HQ].
    destruct o; try (split; [reflexivity|intros r st' H; inversion H; subst; split; [exact Hle|intros ? Hx; discriminate Hx]]).
    assert (Hs1 : store_le s st1) by (eapply store_le_trans; eauto).
    destruct (Hf a st1 Hs1 (HQ a eq_refl) st1 (store_le_refl _)) as [Heq2 Hpost2].
    split; [exact Heq2|]. intros r st' H. destruct (Hpost2 r st' H) as [Hle2 HQ2].
    split; [eapply store_le_trans; eauto|exact HQ2].
  Qed.

  Lemma for_each_MIs : forall B s (Q : store -> B -> Prop) idxs (b1 b2 : nat -> M store B),
    monoQ Q ->
    (forall i s1, store_le s s1 -> MIs s1 Q (b1 i) (b2 i)) ->
    MIs s (fun st l => Forall (Q st) l) (for_each store idxs b1) (for_each store idxs b2).
  Proof.
    intros B s Q idxs b1 b2 HmQ Hb. revert s Hb. induction idxs as [|i r IH]; intros s Hb; cbn [for_each].
    - apply lift_MIs. intros a st _ Ha. inversion Ha; subst. constructor.
    - eapply bindM_MIs; [apply Hb; apply store_le_refl|].
      intros y s1 Hs1 Hy. eapply bindM_MIs.
      + apply IH. intros i0 s2 Hs2. apply Hb. eapply store_le_trans; eauto.
      + intros ys s2 Hs2 Hys. apply lift_MIs. intros a st Hst Ha. inversion Ha; subst.
        constructor.
        * eapply HmQ; [|exact Hy]. eapply store_le_trans; eauto.
        * eapply Forall_impl; [|exact Hys]. intros b Hb'. eapply HmQ; eauto.
  Qed.

  Definition Qc : store -> value -> Prop := closed_value.
  Lemma Qc_mono : monoQ Qc.
  Proof. intros a st st' Hle H. eapply closed_mono; eauto. Qed.

  Lemma call_fn_MIs : forall s f args,
    store_le s0 s -> closed_value s f -> closed_list s args ->
    MIs s Qc (call_fn store cb1 f args) (call_fn store cb2 f args).
  Proof.
    intros s f args Hs0 Hf Ha st Hst. unfold call_fn.
    assert (Hf' : closed_value st f) by (eapply closed_mono; eauto).
    assert (Ha' : closed_list st args) by (eapply closed_list_mono; eauto).
    assert (Hs0st : store_le s0 st) by (eapply store_le_trans; eauto).
    split; [apply Hag; assumption|].
    intros r st' H. eapply Hcl in H; eauto.
  Qed.
End Framework.

(* ---- closedness of purely computed results ---- *)
Lemma mapM_Forall : forall {A B} (P : B -> Prop) (f : A -> outcome B) l ys,
  (forall x y, In x l -> f x = Ok y -> P y) -> mapM f l = Ok ys -> Forall P ys.
Proof.
  intros A B P f l; induction l as [|x l IH]; intros ys Hf H; cbn [mapM] in H.
  - inversion H; constructor.
  - destruct (f x) eqn:E; try discriminate. cbn [obind] in H.
    destruct (mapM f l) eqn:E2; try discriminate. cbn [obind] in H. inversion H; subst.
    constructor; [eapply Hf; [left; reflexivity|exact E]|].
    apply IH; auto. intros x0 y Hin Hy. eapply Hf; [right; exact Hin|exact Hy].
Qed.
Lemma omap_VList_closed : forall st (o : outcome (list value)) a,
  (forall ys, o = Ok ys -> closed_list st ys) -> omap VList o = Ok a -> closed_value st a.
Proof.
  intros st o a H Ha. destruct o; try discriminate. cbn in Ha. inversion Ha; subst.
  apply closed_VList. apply H. reflexivity.
Qed.
Lemma num2_atomic : forall f a b y, num2 f a b = Ok y -> atomic y.
Proof. intros f a b y H. unfold num2 in H. destruct (as_number a); try discriminate. cbn [obind] in H.
  destruct (as_number b); try discriminate. inversion H; exact I. Qed.
Lemma and_q_atomic : forall a b y, and_q a b = Ok y -> atomic y.
Proof. intros a b y H. unfold and_q in H. destruct (as_bool a) as [[|]| | | |]; try discriminate; cbn [obind] in H.
  - destruct (as_bool b); try discriminate. inversion H; exact I.
  - inversion H; exact I. Qed.
Lemma or_q_atomic : forall a b y, or_q a b = Ok y -> atomic y.
Proof. intros a b y H. unfold or_q in H. destruct (as_bool a) as [[|]| | | |]; try discriminate; cbn [obind] in H.
  - inversion H; exact I.
  - destruct (as_bool b); try discriminate. inversion H; exact I. Qed.
Lemma add_match_atomic : forall a b y, add_match a b = Ok y -> atomic y.
Proof. intros a b y H. unfold add_match in H. destruct a; try discriminate; destruct b; try discriminate.
  - eapply num2_atomic; exact H.
  - cbn in H. inversion H; exact I. Qed.
Lemma check_ord_bool_atomic : forall o e y, (do r <- check_ord o e; Ok (VBool r)) = Ok y -> atomic y.
Proof. intros o e y H. destruct (check_ord o e); try discriminate. inversion H; exact I. Qed.
Lemma index_closed : forall st l i v, closed_list st l -> index l i = Ok v -> closed_value st v.
Proof.
  intros st l i v Hc H. unfold index in H. destruct (nth_error l i) eqn:E; inversion H; subst.
  unfold closed_list in Hc. rewrite Forall_forall in Hc. apply Hc. eapply nth_error_In; eauto.
Qed.
Lemma filter_some_closed : forall st (l : list (option value)),
  Forall (fun o => match o with Some v => closed_value st v | None => True end) l ->
  closed_list st (filter_some l).
Proof.
  intros st l H; induction H as [|o l Ho _ IH]; cbn [filter_some]; [constructor|].
  destruct o; [constructor; assumption|assumption].
Qed.

Section Arms.
  Variable cb1 cb2 : callback.
  Variable s0 : store.
  Hypothesis Hag : cb_agree s0 cb1 cb2.
  Hypothesis Hcl : cb_closed s0 cb1.
  Variable fa2 : value -> bool.      (* Binop's fn_accepts2: does the callback take the index too *)
  Variable powf : num -> num -> num.

  (* the closedness obligations of purely computed results *)
  Ltac atom_goal H :=
    apply atomic_closed;
    first [ eapply num2_atomic; exact H | eapply and_q_atomic; exact H | eapply or_q_atomic; exact H
          | eapply check_ord_bool_atomic; exact H | eapply add_match_atomic; exact H
          | inversion H; exact I ].

  Lemma arm_scalar_MIs : forall s op l r,
    store_le s0 s -> closed_value s l -> closed_value s r ->
    MIs s Qc (arm_scalar store cb1 powf op l r) (arm_scalar store cb2 powf op l r).
  Proof.
    intros s op l r Hs0 Hl Hr. unfold arm_scalar.
    destruct op;
      try (apply lift_MIs; intros a st Hst Ha; atom_goal Ha).
    - (* Add *) destruct (is_string l); apply lift_MIs; intros a st Hst Ha.
      + apply atomic_closed. destruct (as_string l); try discriminate. cbn [obind] in Ha.
        destruct (as_string r); try discriminate. inversion Ha; exact I.
      + atom_goal Ha.
    - (* Via *) destruct (negb (is_callable r)); [apply lift_MIs; intros a st Hst Ha; discriminate|].
      apply (call_fn_MIs cb1 cb2 s0 Hag Hcl); auto. constructor; [exact Hl|constructor].
    - (* Into *) destruct (negb (is_callable r)); [apply lift_MIs; intros a st Hst Ha; discriminate|].
      apply (call_fn_MIs cb1 cb2 s0 Hag Hcl); auto. constructor; [exact Hl|constructor].
    - (* Coalesce *) apply lift_MIs; intros a st Hst Ha. inversion Ha; subst.
      destruct (is_null l); eapply closed_mono; eauto.
  Qed.

  Ltac pure_list Ha :=
    eapply omap_VList_closed; [|exact Ha];
    let ys := fresh "ys" in let Hys := fresh "Hys" in intros ys Hys;
    eapply mapM_Forall; [|exact Hys];
    let x := fresh "x" in let y := fresh "y" in let Hin := fresh "Hin" in let Hy := fresh "Hy" in
    intros x y Hin Hy; cbv beta in Hy.

  Lemma arm_list_scalar_MIs : forall s op b l sc,
    store_le s0 s -> closed_list s l -> closed_value s sc ->
    MIs s Qc (arm_list_scalar store cb1 fa2 powf op b l sc) (arm_list_scalar store cb2 fa2 powf op b l sc).
  Proof.
    intros s op b l sc Hs0 Hl Hsc. unfold arm_list_scalar.
    (* The operators without a callback map a function with atomic results over the list.  The three
       `try` lines close, in order: the dot operators (no list arm: lift Panic); the comparisons and the
       arithmetic operators except Add (b only chooses the argument order); and / or (b chooses between two
       mapM).  Left over: Add, Via, Into, Where, Coalesce. *)
    destruct op;
      try (apply lift_MIs; intros a st Hst Ha; discriminate);
      try (apply lift_MIs; intros a st Hst Ha; cbn [expected_of obind] in Ha; pure_list Ha;
           first [atom_goal Hy | destruct b; atom_goal Hy]);
      try (apply lift_MIs; intros a st Hst Ha; destruct b; pure_list Ha; atom_goal Hy).
    - (* Add *) apply lift_MIs; intros a st Hst Ha. pure_list Ha.
      destruct (index l x) eqn:Ei; try rewrite Ei in Hy; try discriminate. cbn [obind] in Hy.
      destruct b; atom_goal Hy.
    - (* Via *)
      destruct b; [|apply lift_MIs; intros a st Hst Ha; discriminate].
      destruct (negb (is_callable sc)); [apply lift_MIs; intros a st Hst Ha; discriminate|].
      eapply bindM_MIs.
      + apply for_each_MIs; [apply Qc_mono|]. intros i s1 Hs1.
        eapply bindM_MIs with (Q := fun st v => closed_value st v).
        * apply lift_MIs. intros a st Hst Ha. eapply index_closed; [|exact Ha].
          eapply closed_list_mono; [|exact Hl]. eapply store_le_trans; eauto.
        * intros a s2 Hs2 Ha. apply (call_fn_MIs cb1 cb2 s0 Hag Hcl).
          -- eapply store_le_trans; [exact Hs0|]. eapply store_le_trans; eauto.
          -- eapply closed_mono; [|exact Hsc]. eapply store_le_trans; eauto.
          -- destruct (fa2 sc); repeat (first [constructor | apply atomic_closed; exact I]); auto.
      + intros mapped s1 Hs1 Hm. apply lift_MIs. intros a st Hst Ha. inversion Ha; subst.
        apply closed_VList. eapply closed_list_mono; [exact Hst|exact Hm].
    - (* Into *)
      destruct b; [|apply lift_MIs; intros a st Hst Ha; discriminate].
      destruct (negb (is_callable sc)); [apply lift_MIs; intros a st Hst Ha; discriminate|].
      apply (call_fn_MIs cb1 cb2 s0 Hag Hcl); auto. constructor; [apply closed_VList; exact Hl|constructor].
    - (* Where *)
      destruct b; [|apply lift_MIs; intros a st Hst Ha; discriminate].
      destruct (negb (is_callable sc)); [apply lift_MIs; intros a st Hst Ha; discriminate|].
      eapply bindM_MIs with
        (Q := fun st l0 => Forall (fun o => match o with Some v => closed_value st v | None => True end) l0).
      + apply for_each_MIs.
        { intros o st st' Hle Ho. destruct o; [eapply closed_mono; eauto|exact I]. }
        intros i s1 Hs1.
        eapply bindM_MIs with (Q := fun st v => closed_value st v).
        * apply lift_MIs. intros a st Hst Ha. eapply index_closed; [|exact Ha].
          eapply closed_list_mono; [|exact Hl]. eapply store_le_trans; eauto.
        * intros item s2 Hs2 Hitem.
          eapply bindM_MIs with (Q := fun st v => closed_value st v).
          -- apply (call_fn_MIs cb1 cb2 s0 Hag Hcl).
             ++ eapply store_le_trans; [exact Hs0|]. eapply store_le_trans; eauto.
             ++ eapply closed_mono; [|exact Hsc]. eapply store_le_trans; eauto.
             ++ destruct (fa2 sc); repeat (first [constructor | apply atomic_closed; exact I]); auto.
          -- intros result s3 Hs3 Hres.
             eapply bindM_MIs with (Q := fun _ (_ : bool) => True).
             ++ apply lift_MIs. intros; exact I.
             ++ intros keep s4 Hs4 _. apply lift_MIs. intros a st Hst Ha. inversion Ha; subst.
                destruct keep; [|exact I]. eapply closed_mono; [|exact Hitem].
                eapply store_le_trans; [exact Hs3|]. eapply store_le_trans; eauto.
      + intros kept s1 Hs1 Hk. apply lift_MIs. intros a st Hst Ha. inversion Ha; subst.
        apply closed_VList. apply filter_some_closed.
        eapply Forall_impl; [|exact Hk]. intros o Ho. destruct o; [eapply closed_mono; eauto|exact I].
    - (* Coalesce *) apply lift_MIs; intros a st Hst Ha. pure_list Ha. inversion Hy; subst.
      assert (Hx : closed_value st x).
      { unfold closed_list in Hl. rewrite Forall_forall in Hl. eapply closed_mono; [exact Hst|]. apply Hl; exact Hin. }
      assert (Hs' : closed_value st sc) by (eapply closed_mono; eauto).
      destruct b; [destruct (is_null x)|destruct (is_null sc)]; assumption.
  Qed.

  Lemma arm_list_list_MIs : forall s op l r,
    store_le s0 s -> closed_list s l -> closed_list s r ->
    MIs s Qc (arm_list_list store cb1 powf op l r) (arm_list_list store cb2 powf op l r).
  Proof.
    intros s op l r Hs0 Hl Hr. unfold arm_list_list.
    destruct (negb (Nat.eqb (Datatypes.length l) (Datatypes.length r)));
      [apply lift_MIs; intros a st Hst Ha; discriminate|].
    destruct op;
      try (apply lift_MIs; intros a st Hst Ha; discriminate);
      try (apply lift_MIs; intros a st Hst Ha; cbn [expected_of obind] in Ha; pure_list Ha; atom_goal Hy).
    - (* Add *) apply lift_MIs; intros a st Hst Ha. pure_list Ha.
      destruct (index l x) eqn:Ei; try rewrite Ei in Hy; try discriminate. cbn [obind] in Hy.
      destruct (index r x) eqn:Ej; try rewrite Ej in Hy; try discriminate. cbn [obind] in Hy.
      atom_goal Hy.
    - (* Via *)
      eapply bindM_MIs.
      + apply for_each_MIs; [apply Qc_mono|]. intros i s1 Hs1.
        eapply bindM_MIs with (Q := fun st (lr : value * value) => closed_value st (fst lr) /\ closed_value st (snd lr)).
        * apply lift_MIs. intros a st Hst Ha.
          destruct (index l i) eqn:Ei; try discriminate. cbn [obind] in Ha.
          destruct (index r i) eqn:Ej; try discriminate. cbn [obind] in Ha. inversion Ha; subst. cbn [fst snd].
          assert (Hss : store_le s st) by (eapply store_le_trans; eauto).
          split; eapply index_closed; try eassumption; eapply closed_list_mono; eauto.
        * intros lr s2 Hs2 [Hlr1 Hlr2].
          destruct (negb (is_lambda (snd lr)) && negb (is_built_in (snd lr)));
            [apply lift_MIs; intros a st Hst Ha; discriminate|].
          apply (call_fn_MIs cb1 cb2 s0 Hag Hcl); auto.
          -- eapply store_le_trans; [exact Hs0|]. eapply store_le_trans; eauto.
          -- constructor; [exact Hlr1|constructor].
      + intros mapped s1 Hs1 Hm. apply lift_MIs. intros a st Hst Ha. inversion Ha; subst.
        apply closed_VList. eapply closed_list_mono; [exact Hst|exact Hm].
    - (* Coalesce *) apply lift_MIs; intros a st Hst Ha. pure_list Ha. inversion Hy; subst.
      destruct x as [xl xr]. cbn [fst snd].
      assert (Hxl : closed_value st xl).
      { unfold closed_list in Hl. rewrite Forall_forall in Hl. eapply closed_mono; [exact Hst|].
        apply Hl. eapply in_combine_l; exact Hin. }
      assert (Hxr : closed_value st xr).
      { unfold closed_list in Hr. rewrite Forall_forall in Hr. eapply closed_mono; [exact Hst|].
        apply Hr. eapply in_combine_r; exact Hin. }
      destruct (is_null xl); assumption.
  Qed.

  Lemma broadcast_MIs : forall s op l r,
    store_le s0 s -> closed_value s l -> closed_value s r ->
    MIs s Qc (broadcast store cb1 fa2 powf op l r) (broadcast store cb2 fa2 powf op l r).
  Proof.
    intros s op l r Hs0. pattern l, r. apply operands_cases; clear l r.
    - intros a b Hl Hr. apply arm_list_list_MIs; [assumption|apply closed_VList; assumption|apply closed_VList; assumption].
    - intros a sc Hsc Hl Hr. rewrite !broadcast_list_l by exact Hsc.
      apply arm_list_scalar_MIs; [assumption|apply closed_VList; assumption|assumption].
    - intros sc a Hsc Hl Hr. rewrite !broadcast_list_r by exact Hsc.
      apply arm_list_scalar_MIs; [assumption|apply closed_VList; assumption|assumption].
    - intros l r Hnl Hnr Hl Hr. rewrite !broadcast_scalar by assumption. apply arm_scalar_MIs; assumption.
  Qed.

  (* the whole operator function *)
  Theorem eval_binop_agree : forall op l r st,
    store_le s0 st -> closed_value st l -> closed_value st r ->
    eval_binop store cb1 fa2 powf op l r st = eval_binop store cb2 fa2 powf op l r st /\
    (forall res st', eval_binop store cb1 fa2 powf op l r st = (res, st') ->
       store_le st st' /\ (forall v, res = Ok v -> closed_value st' v)).
  Proof.
    intros op l r st Hs0 Hl Hr. rewrite !eval_binop_shape.
    destruct (undot op) as [op'|]; [exact (arm_scalar_MIs st op' l r Hs0 Hl Hr st (store_le_refl st))|].
    destruct (is_list r && binop_eqb op Into).
    - refine (lift_MIs _ st Qc Err _ st (store_le_refl st)). intros a st1 Hst Ha; discriminate Ha.
    - exact (broadcast_MIs st op l r Hs0 Hl Hr st (store_le_refl st)).
  Qed.

End Arms.

(* ---- the callback-taking built-ins ---- *)
Section Agree.
  Variable cb1 cb2 : callback.
  Variable s0 : store.
  Hypothesis Hag : cb_agree s0 cb1 cb2.
  Hypothesis Hcl : cb_closed s0 cb1.

  (* the second half of [MIs], at one store: the store grows and an Ok result satisfies Q *)
  Definition post {A} (Q : store -> A -> Prop) (st : store) (x : outcome A * store) : Prop :=
    store_le st (snd x) /\ (forall a, fst x = Ok a -> Q (snd x) a).

  Lemma cb_args_closed : forall st two x i, closed_value st x -> closed_list st (cb_args two x i).
  Proof. intros st two x i Hx. unfold cb_args. destruct two; repeat (first [constructor | apply atomic_closed; exact I]); auto. Qed.

  (* The loops below are written `match m st with (Ok a, s1) => k a s1 | (o, s1) => (f o, s1) end`, with f
     the identity or cast_fail: if the two sides agree on m and then on k, they agree on the whole. *)
  Lemma agree_bind : forall A B (Q : store -> A -> Prop) (Q' : store -> B -> Prop)
                            (x1 x2 : outcome A * store) (k1 k2 : A -> store -> outcome B * store)
                            (f : outcome A -> outcome B) st,
    (forall o b, f o = Ok b -> exists a, o = Ok a) ->
    x1 = x2 /\ post Q st x1 ->
    (forall a s1, store_le st s1 -> Q s1 a -> k1 a s1 = k2 a s1 /\ post Q' s1 (k1 a s1)) ->
    match x1 with (Ok a, s1) => k1 a s1 | (o, s1) => (f o, s1) end =
    match x2 with (Ok a, s1) => k2 a s1 | (o, s1) => (f o, s1) end /\
    post Q' st match x1 with (Ok a, s1) => k1 a s1 | (o, s1) => (f o, s1) end.
  Proof.
    intros A B Q Q' [o s1] x2 k1 k2 f st Hf [<- [Hle HQ]] Hk. cbn [fst snd] in Hle, HQ.
    destruct o as [a| | | |];
      try (split; [reflexivity|split; [exact Hle|]]; cbn [fst];
           intros b Hb; destruct (Hf _ _ Hb) as [? Hx]; discriminate Hx).
    destruct (Hk a s1 Hle (HQ a eq_refl)) as [Heq [Hle2 HQ2]].
    split; [exact Heq|split; [eapply store_le_trans; eauto|exact HQ2]].
  Qed.
  Lemma id_reflects_ok : forall A (o : outcome A) b, o = Ok b -> exists a, o = Ok a.
  Proof. intros A o b ->. exists b; reflexivity. Qed.
  Lemma cast_fail_reflects_ok : forall A B (o : outcome A) (b : B), cast_fail o = Ok b -> exists a, o = Ok a.
  Proof. intros A B [] b H; discriminate H. Qed.
  (* a step without a callback, in the shape of [agree_bind]'s conclusion (both sides are the same term) *)
  Lemma agree_ret : forall A (Q : store -> A -> Prop) (o : outcome A) st,
    (forall a, o = Ok a -> Q st a) -> (o, st) = (o, st) /\ post Q st (o, st).
  Proof. intros A Q o st HQ. split; [reflexivity|split; [apply store_le_refl|exact HQ]]. Qed.

  (* one callback step *)
  Lemma cb_step : forall f args st,
    store_le s0 st -> closed_value st f -> closed_list st args ->
    cb1 f f args st = cb2 f f args st /\ post (fun s v => closed_value s v) st (cb1 f f args st).
  Proof.
    intros f args st Hs0 Hf Ha. split; [apply Hag; assumption|].
    destruct (cb1 f f args st) as [o s1] eqn:E. exact (Hcl f f args st o s1 Hs0 Hf Hf Ha E).
  Qed.

  Lemma map_loop_agree : forall f two l i st,
    store_le s0 st -> closed_value st f -> closed_list st l ->
    map_loop cb1 f two l i st = map_loop cb2 f two l i st /\
    post (fun s ys => closed_list s ys) st (map_loop cb1 f two l i st).
  Proof.
    intros f two l; induction l as [|x l IH]; intros i st Hs0 Hf Hl; cbn [map_loop].
    - apply agree_ret. intros a Ha; inversion Ha; constructor.
    - inversion Hl as [|? ? Hx Hl']; subst.
      eapply agree_bind; [apply cast_fail_reflects_ok|apply cb_step; [assumption|assumption|apply cb_args_closed; exact Hx]|].
      intros y s1 Hs Hy.
      eapply agree_bind; [apply id_reflects_ok| |].
      + apply IH; [eapply store_le_trans; eauto|eapply closed_mono; eauto|eapply closed_list_mono; eauto].
      + intros ys s2 Hs2 Hys. apply agree_ret. intros a Ha; inversion Ha; subst.
        constructor; [eapply closed_mono; eauto|exact Hys].
  Qed.

  Lemma filter_loop_agree : forall f two l i st,
    store_le s0 st -> closed_value st f -> closed_list st l ->
    filter_loop cb1 f two l i st = filter_loop cb2 f two l i st /\
    post (fun s ys => closed_list s ys) st (filter_loop cb1 f two l i st).
  Proof.
    intros f two l; induction l as [|x l IH]; intros i st Hs0 Hf Hl; cbn [filter_loop].
    - apply agree_ret. intros a Ha; inversion Ha; constructor.
    - inversion Hl as [|? ? Hx Hl']; subst.
      eapply agree_bind; [apply cast_fail_reflects_ok|apply cb_step; [assumption|assumption|apply cb_args_closed; exact Hx]|].
      intros y s1 Hs _.
      destruct (as_bool y) as [keep| | | |]; try (apply agree_ret; intros a Ha; discriminate Ha).
      eapply agree_bind; [apply id_reflects_ok| |].
      + apply IH; [eapply store_le_trans; eauto|eapply closed_mono; eauto|eapply closed_list_mono; eauto].
      + intros ys s2 Hs2 Hys. apply agree_ret. intros a Ha; inversion Ha; subst.
        destruct keep; [constructor|]; try exact Hys.
        eapply closed_mono; [|exact Hx]. eapply store_le_trans; eauto.
  Qed.

  Lemma reduce_loop_agree : forall f three l i acc st,
    store_le s0 st -> closed_value st f -> closed_list st l -> closed_value st acc ->
    reduce_loop cb1 f three l i acc st = reduce_loop cb2 f three l i acc st /\
    post (fun s v => closed_value s v) st (reduce_loop cb1 f three l i acc st).
  Proof.
    intros f three l; induction l as [|x l IH]; intros i acc st Hs0 Hf Hl Hacc; cbn [reduce_loop].
    - apply agree_ret. intros a Ha; inversion Ha; subst; exact Hacc.
    - inversion Hl as [|? ? Hx Hl']; subst.
      eapply agree_bind; [apply id_reflects_ok|apply cb_step; [assumption|assumption|]|].
      + destruct three; repeat (first [constructor | apply atomic_closed; exact I]); auto.
      + intros acc' s1 Hs Hacc'.
        apply IH; [eapply store_le_trans; eauto|eapply closed_mono; eauto|eapply closed_list_mono; eauto|exact Hacc'].
  Qed.

  Lemma every_loop_agree : forall f two l i st,
    store_le s0 st -> closed_value st f -> closed_list st l ->
    every_loop cb1 f two l i st = every_loop cb2 f two l i st /\
    post (fun s v => closed_value s v) st (every_loop cb1 f two l i st).
  Proof.
    intros f two l; induction l as [|x l IH]; intros i st Hs0 Hf Hl; cbn [every_loop].
    - apply agree_ret. intros a Ha; inversion Ha; triv.
    - inversion Hl as [|? ? Hx Hl']; subst.
      eapply agree_bind; [apply id_reflects_ok|apply cb_step; [assumption|assumption|apply cb_args_closed; exact Hx]|].
      intros y s1 Hs _.
      destruct (as_bool y) as [[|]| | | |]; try (apply agree_ret; intros a Ha; inversion Ha; triv).
      apply IH; [eapply store_le_trans; eauto|eapply closed_mono; eauto|eapply closed_list_mono; eauto].
  Qed.

  Lemma some_loop_agree : forall f two l i st,
    store_le s0 st -> closed_value st f -> closed_list st l ->
    some_loop cb1 f two l i st = some_loop cb2 f two l i st /\
    post (fun s v => closed_value s v) st (some_loop cb1 f two l i st).
  Proof.
    intros f two l; induction l as [|x l IH]; intros i st Hs0 Hf Hl; cbn [some_loop].
    - apply agree_ret. intros a Ha; inversion Ha; triv.
    - inversion Hl as [|? ? Hx Hl']; subst.
      eapply agree_bind; [apply id_reflects_ok|apply cb_step; [assumption|assumption|apply cb_args_closed; exact Hx]|].
      intros y s1 Hs _.
      destruct (as_bool y) as [[|]| | | |]; try (apply agree_ret; intros a Ha; inversion Ha; triv).
      apply IH; [eapply store_le_trans; eauto|eapply closed_mono; eauto|eapply closed_list_mono; eauto].
  Qed.

  Lemma arg_closed : forall st args i v, closed_list st args -> arg args i = Ok v -> closed_value st v.
  Proof.
    intros st args i v Hc H. unfold arg in H. destruct (nth_error args i) eqn:E; inversion H; subst.
    unfold closed_list in Hc. rewrite Forall_forall in Hc. apply Hc. eapply nth_error_In; eauto.
  Qed.
  Lemma hof_prelude_closed : forall st args f l, closed_list st args ->
    hof_prelude args = Ok (f, l) -> closed_value st f /\ closed_list st l.
  Proof.
    intros st args f l Hc H. unfold hof_prelude in H.
    destruct (arg args 1) as [f0| | | |] eqn:E1; try discriminate. cbn [obind] in H.
    destruct (arg args 0) as [l0| | | |] eqn:E0; try discriminate. cbn [obind] in H.
    destruct (as_list l0) as [l1| | | |] eqn:El; try discriminate. cbn [obind] in H.
    unfold as_function in H. destruct (is_function f0); try discriminate. cbn [obind] in H.
    inversion H; subst. split; [eapply arg_closed; eauto|].
    pose proof (arg_closed _ _ _ _ Hc E0) as Hl0. destruct l0; try discriminate. inversion El; subst.
    apply closed_VList. exact Hl0.
  Qed.

  (* the built-in dispatcher of EvalInst.v *)
  Theorem builtin_impl_agree : forall b args st,
    store_le s0 st -> closed_list st args ->
    builtin_impl cb1 b args st = builtin_impl cb2 b args st /\
    post (fun s v => closed_value s v) st (builtin_impl cb1 b args st).
  Proof.
    intros b args st Hs0 Hc.
    assert (Hnum1 : forall g v, num1 g args = Ok v -> closed_value st v).
    { intros g v H. unfold num1 in H. destruct (arg args 0); try discriminate. cbn [obind] in H.
      destruct (as_number a); try discriminate. inversion H; triv. }
    assert (Hcmp : forall g v, cmp2 g args = Ok v -> closed_value st v).
    { intros g v H. unfold cmp2 in H. destruct (arg args 0); try discriminate. cbn [obind] in H.
      destruct (arg args 1); try discriminate. inversion H; triv. }
    destruct b; cbn [builtin_impl]; unfold pure_bi;
      try (apply agree_ret; first [apply Hnum1|apply Hcmp|intros ? Hq; discriminate Hq]).
    - (* any *) apply agree_ret. intros v H. unfold bi_any in H. destruct (arg args 0); try discriminate. cbn [obind] in H.
      destruct (as_list a); try discriminate. inversion H; triv.
    - (* all *) apply agree_ret. intros v H. unfold bi_all in H. destruct (arg args 0); try discriminate. cbn [obind] in H.
      destruct (as_list a); try discriminate. inversion H; triv.
    - (* map *) unfold bi_map. destruct (hof_prelude args) as [[f l]| | | |] eqn:E;
        try (apply agree_ret; intros ? Hq; discriminate Hq).
      destruct (hof_prelude_closed _ _ _ _ Hc E) as [Hf Hl].
      destruct (map_loop_agree f (accepts f 2) l 0 st Hs0 Hf Hl) as [Heq [Hle Hq]]. rewrite <- Heq.
      destruct (map_loop cb1 f (accepts f 2) l 0 st) as [o s1]. cbn [fst snd] in *.
      split; [reflexivity|split; [exact Hle|]]. intros v Hv. destruct o; try discriminate.
      inversion Hv; subst. apply closed_VList. apply Hq; reflexivity.
    - (* reduce *) unfold bi_reduce.
      match goal with |- context [match ?x with _ => _ end] => destruct x as [[[f i0] l]| | | |] eqn:E end;
        try (apply agree_ret; intros ? Hq; discriminate Hq).
      destruct (arg args 1) as [f0| | | |] eqn:E1; try discriminate. cbn [obind] in E.
      destruct (arg args 2) as [i1| | | |] eqn:E2; try discriminate. cbn [obind] in E.
      destruct (arg args 0) as [l0| | | |] eqn:E0; try discriminate. cbn [obind] in E.
      destruct (as_list l0) as [l1| | | |] eqn:El; try discriminate. cbn [obind] in E.
      unfold as_function in E. destruct (is_function f0); try discriminate. cbn [obind] in E.
      inversion E; subst.
      pose proof (arg_closed _ _ _ _ Hc E0) as Hl0. destruct l0; try discriminate. inversion El; subst.
      apply reduce_loop_agree; [assumption|eapply arg_closed; eauto|apply closed_VList; exact Hl0|eapply arg_closed; eauto].
    - (* filter *) unfold bi_filter. destruct (hof_prelude args) as [[f l]| | | |] eqn:E;
        try (apply agree_ret; intros ? Hq; discriminate Hq).
      destruct (hof_prelude_closed _ _ _ _ Hc E) as [Hf Hl].
      destruct (filter_loop_agree f (accepts f 2) l 0 st Hs0 Hf Hl) as [Heq [Hle Hq]]. rewrite <- Heq.
      destruct (filter_loop cb1 f (accepts f 2) l 0 st) as [o s1]. cbn [fst snd] in *.
      split; [reflexivity|split; [exact Hle|]]. intros v Hv. destruct o; try discriminate.
      inversion Hv; subst. apply closed_VList. apply Hq; reflexivity.
    - (* every *) unfold bi_every. destruct (hof_prelude args) as [[f l]| | | |] eqn:E;
        try (apply agree_ret; intros ? Hq; discriminate Hq).
      destruct (hof_prelude_closed _ _ _ _ Hc E) as [Hf Hl]. apply every_loop_agree; assumption.
    - (* some *) unfold bi_some. destruct (hof_prelude args) as [[f l]| | | |] eqn:E;
        try (apply agree_ret; intros ? Hq; discriminate Hq).
      destruct (hof_prelude_closed _ _ _ _ Hc E) as [Hf Hl]. apply some_loop_agree; assumption.
    - (* to_bool *) apply agree_ret. intros v H. unfold bi_to_bool in H.
      destruct (arg args 0) eqn:E0; try discriminate. cbn [obind] in H.
      destruct a; inversion H; triv.
    - (* typeof *) apply agree_ret. intros v H. unfold bi_typeof in H. destruct (arg args 0); try discriminate. inversion H; triv.
    - (* arity *) apply agree_ret. intros v H. unfold bi_arity in H. destruct (arg args 0); try discriminate. cbn [obind] in H.
      destruct (fn_arity a) as [[?|?|? ?]|]; inversion H; triv.
  Qed.
  (* the operator table of EvalInst.v *)
  Theorem binop_impl_agree : forall op l r st,
    store_le s0 st -> closed_value st l -> closed_value st r ->
    binop_impl cb1 op l r st = binop_impl cb2 op l r st /\
    (forall res st', binop_impl cb1 op l r st = (res, st') ->
       store_le st st' /\ (forall v, res = Ok v -> closed_value st' v)).
  Proof.
    intros op l r st Hs0 Hl Hr. unfold binop_impl.
    destruct op; try (apply (eval_binop_agree cb1 cb2 s0 Hag Hcl); assumption).
    split; [reflexivity|]. intros res st' H. inversion H; subst.
    split; [apply store_le_refl|intros ? Hq; discriminate Hq].
  Qed.
End Agree.

(* An operator table / a built-in dispatcher treats its callback parametrically on values satisfying the
   predicate: what [binop_impl_agree] and [builtin_impl_agree] say of EvalInst.v's, as a property of any bi / bu.
   These are the hypotheses of CallSite.v's simulation (at store_le, closed_value) and, at "contains no
   function", EmitSound.impl_lf_respecting (LfInst.v).  The operator form spells the postcondition out as
   [eval_binop_agree] does, the built-in form uses [post]: the same condition on the pair reached. *)
Definition binop_agrees (bi : callback -> binop -> value -> value -> store -> outcome value * store) : Prop :=
  forall cb1 cb2 s0, cb_agree s0 cb1 cb2 -> cb_closed s0 cb1 ->
  forall op l r st, store_le s0 st -> closed_value st l -> closed_value st r ->
    bi cb1 op l r st = bi cb2 op l r st /\
    (forall res st', bi cb1 op l r st = (res, st') -> store_le st st' /\ (forall v, res = Ok v -> closed_value st' v)).
Definition builtin_agrees (bu : callback -> builtin -> list value -> store -> outcome value * store) : Prop :=
  forall cb1 cb2 s0, cb_agree s0 cb1 cb2 -> cb_closed s0 cb1 ->
  forall b args st, store_le s0 st -> closed_list st args ->
    bu cb1 b args st = bu cb2 b args st /\ post (fun s v => closed_value s v) st (bu cb1 b args st).


End Abstract.
