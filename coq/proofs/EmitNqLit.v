(* EmitNqLit.v — C05: the literals of NaN and of both-quote strings / keys denote the value.
   Generic in the operator implementation up to [binop_lit_ok] (0/0 = NaN, string + string =
   concatenation); [binop_lit_ok_inst] / [binop_lit_ok_all]: the transcribed operators satisfy it. *)
From Coq Require Import String Ascii List ZArith Bool Lia Floats.SpecFloat.
Require Import Blots.Num Blots.gen.Builtins Blots.Ast Blots.Value Blots.Outcome Blots.Binop
               Blots.Env Blots.Eval Blots.Emit Blots.EmitNq Blots.proofs.ValueInd
               Blots.proofs.StringFacts Blots.proofs.EmitLit.
Import ListNotations.
Open Scope list_scope.

Lemma chain_str_app l : forall x p, chain_str (x ++ p) l = (x ++ chain_str p l)%string.
Proof.
  induction l as [|q l IH]; intros x p; [reflexivity|].
  unfold chain_str in *. cbn [fold_left]. rewrite <- IH. f_equal.
  now rewrite !append_assoc.
Qed.

(* joining the pieces of s.split(double quote) with the double quote gives back s *)
Lemma split_dq_chain s : forall cur,
  exists p r, split_dq s cur = p :: r /\ chain_str p r = (cur ++ s)%string.
Proof.
  induction s as [|a s IH]; intros cur; cbn [split_dq].
  - exists cur, []. split; [reflexivity|]. cbn. now rewrite append_nil_r.
  - destruct (Ascii.eqb_spec a dq) as [->|N].
    + destruct (IH ""%string) as (p & r & E & C). exists cur, (p :: r). rewrite E.
      split; [reflexivity|].
      change (chain_str cur (p :: r)) with (chain_str ((cur ++ String dq "") ++ p) r).
      rewrite chain_str_app, C. cbn. rewrite append_assoc. reflexivity.
    + destruct (IH (cur ++ String a "")%string) as (p & r & E & C). exists p, r.
      split; [exact E|]. rewrite C, append_assoc. reflexivity.
Qed.

Section LitNq.
  Variable release : bool.
  Variable binop_impl : callback -> binop -> value -> value -> store -> outcome value * store.
  Variable apply : frames -> callback.
  Hypothesis Hops : binop_lit_ok binop_impl.
  Notation evalE := (evalE release binop_impl apply).

  Lemma concat_ast_evaluates l : forall acc a c, evalE c acc = (Ok (VStr a), c) ->
    evalE c (concat_ast acc l) = (Ok (VStr (chain_str a l)), c).
  Proof.
    induction l as [|p l IH]; intros acc a c H; cbn [concat_ast]; [exact H|].
    apply IH. destruct c as [st fr]. cbn [Eval.evalE]. rewrite H. cbn [Eval.evalE].
    rewrite (proj2 Hops). rewrite (proj2 Hops). reflexivity.
  Qed.

  (* (1) the `+` chain written for ANY string evaluates to the string, at every depth (the depth
     lives in [apply]), in every scope chain and store, and leaves both unchanged *)
  Theorem lit_both_quote_evaluates : forall s c, evalE c (str_to_ast s) = (Ok (VStr s), c).
  Proof.
    intros s c. unfold str_to_ast. destruct (both_quotes s); [|reflexivity].
    destruct (split_dq_chain s ""%string) as (p & r & E & C). rewrite E.
    rewrite (concat_ast_evaluates r (EStr p) p c) by reflexivity. rewrite C. reflexivity.
  Qed.

  Theorem lit_nan_evaluates : forall c, evalE c (num_to_ast true nnan) = (Ok (VNum nnan), c).
  Proof. intros [st fr]. cbn. rewrite (proj1 Hops). reflexivity. Qed.

  Lemma num_roundtrip_nq n x c : (n || negb (is_nan x)) = true ->
    evalE c (num_to_ast n x) = (Ok (VNum x), c).
  Proof.
    destruct (is_nan x) eqn:E.
    - destruct x; try discriminate. rewrite orb_false_r. intros ->. apply lit_nan_evaluates.
    - intros _. now apply num_roundtrip.
  Qed.

  Theorem lit_roundtrip_nq : forall n d v, emittable_nq n v = true ->
    forall c, evalE c (value_to_ast n d v) = (Ok v, c).
  Proof.
    intros n d v Hv. unfold emittable_nq in Hv. apply andb_prop in Hv as [Hfo Hnan].
    apply (lit_roundtrip_on release binop_impl apply n n true); try assumption; try reflexivity.
    - intros x c. apply num_roundtrip_nq.
    - intros s c _. apply lit_both_quote_evaluates.
  Qed.
End LitNq.

Lemma emittable_gen_nq n v : emittable_gen v = true -> emittable_nq n v = true.
Proof.
  unfold emittable_gen, emittable_nq. intros H. apply andb_prop in H as [H N].
  apply andb_prop in H as [F _]. rewrite F, N. now destruct n.
Qed.

(* ---- the transcribed operators satisfy the hypothesis ---- *)
Require Import Blots.EvalInst Blots.EvalAll.

Lemma binop_lit_ok_inst : binop_lit_ok binop_impl.
Proof. split; intros; reflexivity. Qed.
Lemma binop_lit_ok_all : forall o, binop_lit_ok (binop_all o).
Proof. intros o. split; intros; reflexivity. Qed.
