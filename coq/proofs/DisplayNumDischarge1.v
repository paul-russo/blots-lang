(* DisplayNumDischarge1.v — C20: the executable library models of coq/DisplayNum.v, text and
   integer level (axiom-free part).
     - div_rhe n d is n/d rounded to the nearest integer (|q*d - n| <= d/2)
     - nat_digits q has no leading zero (its length is the number of decimal digits of q)
     - fixed_digits q n is the decimal  q / 10^n  written with exactly n fraction digits
     - hence: the shape and the exact rational value of fmt_prec_exec x n, for every finite x
     - parse_i32 reads back what int_to_text (i32 Display) printed
     - parse_f64_exec on a 15-digit mantissa text  -?d.d{14}  is rn_ratio of its digits over 10^14
   The real-number statements (error bounds, decade of a double, rounding of rn_ratio) are in
   DisplayNumDischarge2.v. *)
From Coq Require Import ZArith Bool String Ascii List Lia QArith Floats.SpecFloat.
Require Import Blots.Num Blots.Outcome Blots.DisplayNum.
Require Import Blots.proofs.DisplayNumGroup Blots.proofs.DisplayNumSpec Blots.proofs.DisplayNumText
               Blots.proofs.DisplayNumInt Blots.proofs.DisplayNum Blots.proofs.DisplayNumAcc.
Import ListNotations.
Open Scope char_scope.
Open Scope Z_scope.

(* ---------- round-half-even integer division ---------- *)
Lemma div_rhe_spec : forall n d, 0 <= n -> 0 < d ->
  0 <= div_rhe n d /\ Z.abs (2 * (div_rhe n d * d - n)) <= d.
Proof.
  intros n d Hn Hd. unfold div_rhe.
  pose proof (Z_div_mod n d ltac:(lia)) as H.
  destruct (Z.div_eucl n d) as [q r]. destruct H as [E R].
  assert (Hq : 0 <= q) by nia.
  destruct (2 * r ?= d) eqn:C.
  - apply Z.compare_eq in C. destruct (Z.even q); split; try lia; subst n; lia.
  - rewrite Z.compare_lt_iff in C. split; [lia|]. subst n. lia.
  - rewrite Z.compare_gt_iff in C. split; [lia|]. subst n. lia.
Qed.

(* ties go to the even integer *)
Lemma div_rhe_half_even : forall n d, 0 <= n -> 0 < d -> 2 * (n mod d) = d ->
  Z.even (div_rhe n d) = true.
Proof.
  intros n d Hn Hd T. unfold div_rhe. unfold Z.modulo in T.
  destruct (Z.div_eucl n d) as [q r] eqn:DE.
  assert (C : (2 * r ?= d) = Eq) by (apply Z.compare_eq_iff; exact T). rewrite C.
  destruct (Z.even q) eqn:Ev; [exact Ev|].
  rewrite Z.add_1_r, Z.even_succ, <- Z.negb_even, Ev. reflexivity.
Qed.

(* ---------- digit strings ---------- *)
Lemma zeros_repeat : forall k, zeros k = repeat "0" k.
Proof. induction k; [reflexivity|]. cbn [zeros repeat]. now rewrite IHk. Qed.

Lemma zeros_length : forall k, length (zeros k) = k.
Proof. intros. rewrite zeros_repeat. apply repeat_length. Qed.

Lemma zeros_digits : forall k, forallb is_digit (zeros k) = true.
Proof. induction k; [reflexivity|]. cbn [zeros forallb]. now rewrite IHk. Qed.

Lemma digits_value_leading_zeros : forall k l, digits_value (zeros k ++ l) = digits_value l.
Proof. intros. rewrite digits_value_app, zeros_repeat, digits_value_zeros. lia. Qed.

Lemma digit_val_range : forall a, is_digit a = true -> 0 <= digit_val a <= 9.
Proof.
  intros a H. unfold is_digit in H. unfold digit_val.
  apply andb_true_iff in H. destruct H as [H1 H2].
  apply Z.leb_le in H1. apply Z.leb_le in H2. lia.
Qed.

Lemma digits_value_bound : forall l, forallb is_digit l = true -> 0 <= digits_value l < pow10 (length l).
Proof.
  induction l as [|a l IH]; intros H.
  - unfold digits_value, pow10. cbn. lia.
  - cbn [forallb] in H. apply andb_true_iff in H. destruct H as [Ha Hl].
    change (a :: l) with ([a] ++ l). rewrite digits_value_app.
    change (length ([a] ++ l)) with (S (length l)). rewrite pow10_S.
    assert (E : digits_value [a] = digit_val a) by (unfold digits_value; cbn; lia).
    rewrite E. pose proof (digit_val_range a Ha). specialize (IH Hl). nia.
Qed.

Lemma pow10_lt_inv : forall a b, pow10 a < pow10 b -> (a < b)%nat.
Proof.
  intros a b H. unfold pow10 in H.
  apply Z.pow_lt_mono_r_iff in H; lia.
Qed.

Lemma nat_digits_length : forall n k, pow10 k <= n < pow10 (S k) -> length (nat_digits n) = S k.
Proof.
  intros n k [Hl Hu]. pose proof (pow10_pos k) as Pk.
  destruct (nat_digits_full n ltac:(lia)) as (Ha & Hv & L). specialize (L ltac:(lia)).
  pose proof (digits_value_bound _ (all_digits_forallb _ Ha)) as B. rewrite Hv in B.
  assert (A : (k < length (nat_digits n))%nat) by (apply pow10_lt_inv; lia).
  assert (C : (length (nat_digits n) < S (S k))%nat).
  { apply pow10_lt_inv. rewrite (pow10_S (S k)). lia. }
  lia.
Qed.

(* ---------- fixed_digits: q / 10^n with exactly n fraction digits ---------- *)
(* the digits of q, padded to n + 1, split before the last n; no '.' when n = 0 *)
Lemma fixed_digits_spec : forall q n, 0 <= q -> 0 <= n ->
  exists ip fp, fixed_digits q n = mk_plain false ip (if n =? 0 then None else Some fp) /\
    all_digits ip = true /\ forallb is_digit fp = true /\ Z.of_nat (length fp) = n /\
    digits_value (ip ++ fp) = q.
Proof.
  intros q n Hq Hn. unfold fixed_digits.
  destruct (nat_digits_spec q Hq) as [Ha Hv].
  set (nn := Z.to_nat n). set (ds := zeros (S nn - length (nat_digits q)) ++ nat_digits q).
  assert (Fd : forallb is_digit ds = true).
  { unfold ds. rewrite forallb_app, zeros_digits. now apply all_digits_forallb. }
  assert (Vd : digits_value ds = q) by (unfold ds; now rewrite digits_value_leading_zeros).
  assert (Ld : (S nn <= length ds)%nat).
  { unfold ds. rewrite app_length, zeros_length. lia. }
  set (k := (length ds - nn)%nat).
  rewrite <- (firstn_skipn k ds) in Fd, Vd. rewrite forallb_app in Fd.
  apply andb_true_iff in Fd. destruct Fd as [F1 F2].
  exists (firstn k ds), (skipn k ds). split; [|split; [|split; [exact F2|split; [|exact Vd]]]].
  - destruct (Z.eqb_spec n 0) as [Z0|NZ]; [|reflexivity].
    assert (E : k = length ds) by (unfold k, nn; rewrite Z0; cbn; lia).
    rewrite E, firstn_all. unfold mk_plain. cbn [sign_text frac_text app]. now rewrite app_nil_r.
  - apply all_digits_intro; [|exact F1]. intros Z0. apply (f_equal (@length _)) in Z0.
    rewrite firstn_length in Z0. cbn [length] in Z0. lia.
  - rewrite skipn_length. unfold k, nn. lia.
Qed.

(* the text  sign ++ fixed_digits q n : its shape and the rational it denotes *)
Lemma signed_fixed_digits : forall s q n, 0 <= q -> 0 <= n ->
  prec_shape n (sign_text s ++ fixed_digits q n) = true /\
  denote_plain (sign_text s ++ fixed_digits q n) = Qmake (cond_Zopp s q) (Z.to_pos (10 ^ n)).
Proof.
  intros s q n Hq Hn.
  destruct (fixed_digits_spec q n Hq Hn) as (ip & fp & -> & Hi & Hf & Hl & Hv).
  change (sign_text s ++ mk_plain false ip ?o) with (mk_plain s ip o).
  destruct (Z.eqb_spec n 0) as [Z0|NZ].
  - assert (fp = []) as -> by (destruct fp; [reflexivity|cbn [length] in Hl; lia]).
    split; [now apply prec_shape_mk_plain; try lia|].
    rewrite denote_plain_mk_plain by exact Hi. cbn zeta. unfold dec_value. rewrite Hv, Z0.
    destruct s; reflexivity.
  - assert (Af : all_digits fp = true).
    { apply all_digits_intro; [|exact Hf]. intros ->. cbn [length] in Hl. lia. }
    split; [apply prec_shape_mk_plain; try lia; [exact Hi|exact Af|]; intros _; now exists fp|].
    rewrite denote_plain_mk_plain by exact Hi. cbn zeta. unfold dec_value, pow10. rewrite Hv, Hl.
    destruct s; reflexivity.
Qed.

(* ---------- |m * 2^e| as a fraction ---------- *)
Lemma mag_frac_cases : forall m e N D, mag_frac m e = (N, D) ->
  (0 <= e /\ N = Zpos m * 2 ^ e /\ D = 1) \/ (e < 0 /\ N = Zpos m /\ D = 2 ^ (- e)).
Proof.
  intros m e N D H. unfold mag_frac in H.
  destruct (0 <=? e) eqn:E; [left; apply Z.leb_le in E|right; apply Z.leb_gt in E];
    pose proof (f_equal fst H) as H1; pose proof (f_equal snd H) as H2; cbn [fst snd] in H1, H2;
    repeat split; auto.
Qed.

Lemma mag_frac_pos : forall m e N D, mag_frac m e = (N, D) -> 0 < N /\ 0 < D.
Proof.
  intros m e N D H.
  destruct (mag_frac_cases _ _ _ _ H) as [(E & -> & ->)|(E & -> & ->)].
  - split; [|lia]. assert (0 < 2 ^ e) by (apply Z.pow_pos_nonneg; lia). nia.
  - split; [lia|]. apply Z.pow_pos_nonneg; lia.
Qed.

(* ---------- format!("{:.n$}", x): shape and exact value of the executable model ---------- *)
(* the integer  round_half_even(|x| * 10^n) *)
Definition prec_q (x : num) (n : Z) : Z :=
  match x with
  | S754_finite _ m e => let '(N, D) := mag_frac m e in div_rhe (N * 10 ^ n) D
  | _ => 0
  end.

Lemma prec_q_nonneg : forall x n, 0 <= n -> 0 <= prec_q x n.
Proof.
  intros [s|s| |s m e] n Hn; cbn [prec_q]; try lia.
  destruct (mag_frac m e) as [N D] eqn:E. destruct (mag_frac_pos _ _ _ _ E) as [HN HD].
  apply div_rhe_spec; [|exact HD]. apply Z.mul_nonneg_nonneg; [lia|]. apply Z.pow_nonneg. lia.
Qed.

(* when |x| * 10^n is exactly halfway between two integers the even one is printed *)
Theorem fmt_prec_exec_half_even : forall s m e n N D, 0 <= n -> mag_frac m e = (N, D) ->
  2 * ((N * 10 ^ n) mod D) = D -> Z.even (prec_q (S754_finite s m e) n) = true.
Proof.
  intros s m e n N D Hn E T. cbn [prec_q]. rewrite E.
  destruct (mag_frac_pos _ _ _ _ E) as [HN HD].
  apply div_rhe_half_even; [|exact HD|exact T].
  apply Z.mul_nonneg_nonneg; [lia|]. apply Z.pow_nonneg. lia.
Qed.

Lemma fmt_prec_exec_text : forall x n, is_finite x = true ->
  fmt_prec_exec x n = sign_text (nsign x) ++ fixed_digits (prec_q x n) n.
Proof.
  intros [s|s| |s m e] n F; try discriminate F; cbn [fmt_prec_exec prec_q nsign].
  - destruct s; reflexivity.
  - destruct (mag_frac m e) as [N D]. destruct s; reflexivity.
Qed.

Theorem fmt_prec_exec_shape : forall x n, is_finite x = true -> 0 <= n ->
  prec_shape n (fmt_prec_exec x n) = true.
Proof.
  intros x n F Hn. rewrite fmt_prec_exec_text by exact F.
  now apply signed_fixed_digits; [apply prec_q_nonneg|].
Qed.

Theorem fmt_prec_exec_value : forall x n, is_finite x = true -> 0 <= n ->
  denote_plain (fmt_prec_exec x n) = Qmake (cond_Zopp (nsign x) (prec_q x n)) (Z.to_pos (10 ^ n)).
Proof.
  intros x n F Hn. rewrite fmt_prec_exec_text by exact F.
  now apply signed_fixed_digits; [apply prec_q_nonneg|].
Qed.

(* ---------- a 15-digit integer printed with 14 fraction digits is  d.d{14} ---------- *)
Lemma fixed_digits_15 : forall q, 10 ^ 14 <= q < 10 ^ 15 ->
  exists d fp, fixed_digits q 14 = d :: "." :: fp /\ is_digit d = true /\ all_digits fp = true /\
               length fp = 14%nat /\ digits_value (d :: fp) = q.
Proof.
  intros q Hq.
  assert (L : length (nat_digits q) = 15%nat) by (apply (nat_digits_length q 14); exact Hq).
  destruct (nat_digits_spec q ltac:(lia)) as [Ha Hv].
  unfold fixed_digits. rewrite L.
  destruct (nat_digits q) as [|d fp] eqn:E; [discriminate L|].
  cbn [length] in L. injection L as L.
  change (Z.to_nat 14) with 14%nat. change (14 =? 0) with false. cbv iota.
  change (15 - 15)%nat with 0%nat. cbn [zeros app length]. rewrite L.
  change (15 - 14)%nat with 1%nat. cbn [firstn skipn app].
  pose proof (all_digits_forallb _ Ha) as F. cbn [forallb] in F. apply andb_true_iff in F.
  destruct F as [Fd Ff].
  exists d, fp. repeat split; auto.
  apply all_digits_intro; [|exact Ff]. intros Z0. rewrite Z0 in L. discriminate L.
Qed.

(* ---------- characters ---------- *)
Lemma is_digit_cases : forall a, is_digit a = true ->
  a = "0" \/ a = "1" \/ a = "2" \/ a = "3" \/ a = "4" \/ a = "5" \/ a = "6" \/ a = "7" \/ a = "8" \/ a = "9".
Proof.
  intros [b0 b1 b2 b3 b4 b5 b6 b7] H.
  destruct b0, b1, b2, b3, b4, b5, b6, b7; try discriminate H; tauto.
Qed.

Ltac digit_cases a Ha :=
  let C := fresh "C" in
  pose proof (is_digit_cases a Ha) as C;
  repeat (destruct C as [C|C]; [subst a|]); [..|subst a].

(* ---------- parse::<i32> reads back i32 Display ---------- *)
Definition parse_i32_body (neg : bool) (ds : text) : option Z :=
  match ds with
  | [] => None
  | _ => if forallb is_digit ds then
           let v := if neg then - digits_value ds else digits_value ds in
           if (I32_MIN <=? v) && (v <=? I32_MAX) then Some v else None
         else None
  end.

Lemma parse_i32_unsigned : forall a r, is_digit a = true -> parse_i32 (a :: r) = parse_i32_body false (a :: r).
Proof. intros a r Ha. digit_cases a Ha; reflexivity. Qed.

Lemma parse_i32_body_nat_digits : forall (neg : bool) n, 0 <= n ->
  I32_MIN <= (if neg then - n else n) <= I32_MAX ->
  parse_i32_body neg (nat_digits n) = Some (if neg then - n else n).
Proof.
  intros neg n Hn Hr. destruct (nat_digits_spec n Hn) as [Ha Hv].
  unfold parse_i32_body. destruct (all_digits_cons _ Ha) as (a & r & Er & _).
  rewrite (all_digits_forallb _ Ha), Hv. rewrite Er at 1.
  now rewrite (proj2 (Z.leb_le _ _) (proj1 Hr)), (proj2 (Z.leb_le _ _) (proj2 Hr)).
Qed.

Lemma parse_i32_int_to_text : forall k, I32_MIN <= k <= I32_MAX -> parse_i32 (int_to_text k) = Some k.
Proof.
  intros k Hk. unfold int_to_text. destruct (Z.ltb_spec k 0) as [N|P].
  - change (parse_i32 ("-" :: nat_digits (- k))) with (parse_i32_body true (nat_digits (- k))).
    rewrite parse_i32_body_nat_digits by lia. f_equal. lia.
  - destruct (nat_digits_spec k P) as [Ha _]. destruct (all_digits_cons _ Ha) as (a & r & Er & Hd & _).
    rewrite Er, (parse_i32_unsigned a r Hd), <- Er. now apply (parse_i32_body_nat_digits false).
Qed.

(* ---------- parse::<f64> model on mantissa texts ---------- *)
Definition parse_f64_body (neg : bool) (body : text) : option num :=
  let '(ip, rest) := break_at "." body in
  let fp := match rest with Some (_ :: f) => f | _ => [] end in
  if forallb is_digit ip && forallb is_digit fp && negb (Nat.eqb (List.length ip + List.length fp) 0) then
    Some (rn_ratio neg (digits_value (ip ++ fp)) (10 ^ Z.of_nat (List.length fp)))
  else None.

Lemma parse_f64_exec_unsigned : forall a r, is_digit a = true ->
  parse_f64_exec (a :: r) = parse_f64_body false (a :: r).
Proof. intros a r Ha. digit_cases a Ha; reflexivity. Qed.

Lemma parse_f64_exec_negative : forall r, parse_f64_exec ("-" :: r) = parse_f64_body true r.
Proof. reflexivity. Qed.

(* on a mantissa text -? d . d+ the parser takes the nearest double of digits / 10^(fraction length) *)
Lemma parse_f64_exec_mant : forall neg d fp,
  is_digit d = true -> all_digits fp = true ->
  parse_f64_exec (mk_plain neg [d] (Some fp)) =
  Some (rn_ratio neg (digits_value (d :: fp)) (10 ^ Z.of_nat (length fp))).
Proof.
  intros neg d fp Hd Hf. pose proof (all_digits_single d Hd) as Hi.
  assert (B : parse_f64_body neg (mk_plain false [d] (Some fp)) =
              Some (rn_ratio neg (digits_value (d :: fp)) (10 ^ Z.of_nat (length fp)))).
  { unfold parse_f64_body. rewrite break_at_mk_plain by exact Hi.
    now rewrite (all_digits_forallb _ Hf), (all_digits_forallb _ Hi). }
  destruct neg.
  - change (mk_plain true [d] (Some fp)) with ("-" :: mk_plain false [d] (Some fp)).
    rewrite parse_f64_exec_negative. exact B.
  - change (mk_plain false [d] (Some fp)) with (d :: "." :: fp) in *.
    rewrite (parse_f64_exec_unsigned d _ Hd). exact B.
Qed.

Theorem parse_f64_exec_mant14 : forall neg d fp,
  is_digit d = true -> all_digits fp = true -> length fp = 14%nat ->
  parse_f64_exec (mk_plain neg [d] (Some fp)) = Some (rn_ratio neg (digits_value (d :: fp)) (10 ^ 14)).
Proof. intros neg d fp Hd Hf Hl. rewrite parse_f64_exec_mant by assumption. now rewrite Hl. Qed.

(* the digits d.d+ read as an integer: below 10 * 10^(fraction length) *)
Lemma mant_digits_bound : forall d fp, is_digit d = true -> all_digits fp = true ->
  0 <= digits_value (d :: fp) < 10 * 10 ^ Z.of_nat (length fp).
Proof.
  intros d fp Hd Hf.
  assert (Fa : forallb is_digit (d :: fp) = true).
  { cbn [forallb]. rewrite Hd. now apply all_digits_forallb. }
  pose proof (digits_value_bound (d :: fp) Fa) as Bv. cbn [length] in Bv. now rewrite pow10_S in Bv.
Qed.
