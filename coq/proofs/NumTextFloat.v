(* proofs/NumTextFloat.v — the facts about binary64 rounding that C16 needs, obtained from
   Flocq (IEEE754.BinarySingleNaN).  These lemmas depend on the standard library's classical
   real-number axioms (the four names of AXIOM_ALLOW); nothing else. *)
From Coq Require Import ZArith Reals Floats.SpecFloat Bool Lia Lra.
From Flocq Require Import Core.Core IEEE754.BinarySingleNaN.
Require Import Blots.Num Blots.NumText Blots.proofs.NumText Blots.proofs.SpecFlocq.
Open Scope Z_scope.

Local Instance Hprec : Prec_gt_0 53 := eq_refl.
Local Instance Hmax : Prec_lt_emax 53 1024 := eq_refl.

Notation vb := (valid_binary 53 1024).
Notation fexp64 := (SpecFloat.fexp 53 1024).

Lemma F2R_int : forall z, @F2R radix2 (Float radix2 z 0) = IZR z.
Proof. intros. unfold F2R. cbn [Fnum Fexp bpow]. ring. Qed.

(* two valid finite doubles with the same real value and the same sign are the same datum *)
Lemma SF_eq : forall x y : spec_float,
  vb x = true -> vb y = true -> is_finite_SF x = true -> is_finite_SF y = true ->
  SF2R radix2 x = SF2R radix2 y -> sign_SF x = sign_SF y -> x = y.
Proof.
  intros x y Hx Hy Fx Fy HR Hs.
  rewrite <- (B2SF_SF2B 53 1024 x Hx), <- (B2SF_SF2B 53 1024 y Hy). f_equal.
  apply B2R_Bsign_inj.
  - now rewrite is_finite_SF2B.
  - now rewrite is_finite_SF2B.
  - now rewrite !B2R_SF2B.
  - now rewrite !Bsign_SF2B.
Qed.

(* the value of a valid finite double is representable, and below 2^1024 *)
Lemma valid_finite_format : forall s m e,
  vb (S754_finite s m e) = true ->
  let x := F2R (Float radix2 (cond_Zopp s (Zpos m)) e) in
  generic_format radix2 fexp64 x /\ (Rabs x < bpow radix2 1024)%R.
Proof.
  intros s m e Hv x.
  pose (b := @SF2B 53 1024 (S754_finite s m e) Hv).
  assert (Hb : B2R b = x) by (unfold b; now rewrite B2R_SF2B).
  split.
  - rewrite <- Hb. apply generic_format_B2R.
  - rewrite <- Hb. apply abs_B2R_lt_emax.
Qed.

(* rounding any (m1, e1) whose value is that of a valid double gives that double *)
Lemma binary_round_value : forall s m1 e1 m e,
  vb (S754_finite s m e) = true ->
  F2R (Float radix2 (Zpos m1) e1) = F2R (Float radix2 (Zpos m) e) ->
  SpecFloat.binary_round 53 1024 s m1 e1 = S754_finite s m e.
Proof.
  intros s m1 e1 m e Hv HR.
  rewrite binary_round_equiv.
  destruct (valid_finite_format s m e Hv) as [Hg Hlt].
  generalize (binary_round_correct 53 1024 Hprec Hmax mode_NE s m1 e1).
  cbv zeta. intros [Hvz Hz].
  assert (HX : F2R (Float radix2 (cond_Zopp s (Zpos m1)) e1)
             = F2R (Float radix2 (cond_Zopp s (Zpos m)) e)).
  { rewrite !F2R_cond_Zopp. now rewrite HR. }
  rewrite HX in Hz.
  rewrite round_generic in Hz by (auto with typeclass_instances).
  rewrite Rlt_bool_true in Hz by exact Hlt.
  destruct Hz as (HR' & HF & HS).
  apply SF_eq; auto.
Qed.

(* in particular, rounding a representable value gives the double itself *)
Lemma binary_round_exact : forall s m e,
  vb (S754_finite s m e) = true ->
  SpecFloat.binary_round 53 1024 s m e = S754_finite s m e.
Proof. intros s m e Hv. now apply binary_round_value. Qed.

Lemma with_sign_finite : forall s m e, with_sign s (S754_finite false m e) = S754_finite s m e.
Proof. now intros [|] m e. Qed.

(* an integral finite double is the correctly rounded value of its own integer *)
Lemma rn_decimal_integral : forall x,
  vb x = true -> is_finite x = true -> nfract_is_zero x = true ->
  rn_decimal (nsign x) (int_abs x) 0 = x.
Proof.
  intros [s|s| |s m e] Hv Hf Hz; try discriminate; try reflexivity.
  unfold nfract_is_zero, int_abs, nsign, split_int in *.
  (* it is enough that |x| is a positive integer q with the value of (m, e) *)
  assert (Hfin : forall q, F2R (Float radix2 (Zpos q) 0) = F2R (Float radix2 (Zpos m) e) ->
                           rn_decimal s (Zpos q) 0 = S754_finite s m e).
  { intros q HR. unfold rn_decimal. rewrite rn_pos_exp0. unfold Num.prec, Num.emax.
    rewrite (binary_round_value false q 0 m e); [apply with_sign_finite|destruct s; exact Hv|exact HR]. }
  destruct (0 <=? e) eqn:He.
  - (* e >= 0 : |x| = m * 2^e *)
    apply Z.leb_le in He.
    assert (0 < Zpos m * 2 ^ e) by (apply Z.mul_pos_pos; [lia | apply Z.pow_pos_nonneg; lia]).
    destruct (Zpos m * 2 ^ e) as [|q|q] eqn:E; try lia. apply Hfin.
    rewrite <- E, (F2R_change_exp radix2 0 (Zpos m) e) by lia. now rewrite Z.sub_0_r.
  - (* e < 0 : the fraction bits are all zero *)
    apply Z.leb_gt in He. apply Z.eqb_eq in Hz. set (d := - e) in *.
    assert (Hd : 0 < 2 ^ d) by (apply Z.pow_pos_nonneg; lia).
    assert (Hm : Zpos m = 2 ^ d * (Zpos m / 2 ^ d)) by (pose proof (Z.div_mod (Zpos m) (2 ^ d)); lia).
    destruct (Zpos m / 2 ^ d) as [|q|q] eqn:E; try nia. apply Hfin.
    rewrite (F2R_change_exp radix2 e (Zpos q) 0) by lia.
    f_equal. f_equal. rewrite Hm. replace (0 - e) with d by (unfold d; lia).
    change (radix2 ^ d) with (2 ^ d). ring.
Qed.

(* 1.0 * y = y for every double *)
Lemma n_one_eq : n_one = S754_finite false 4503599627370496 (-52).
Proof. reflexivity. Qed.
Lemma nmul_one_l : forall y, vb y = true -> nmul n_one y = y.
Proof.
  intros [s|s| |s m e] Hv; try reflexivity; try (now destruct s).
  rewrite n_one_eq. unfold nmul, Num.prec, Num.emax. cbv beta iota delta [SFmul].
  rewrite Bool.xorb_false_l.
  rewrite binary_round_aux_equiv.
  assert (H1 : SpecFloat.bounded 53 1024 4503599627370496 (-52) = true) by reflexivity.
  assert (Hy : SpecFloat.bounded 53 1024 m e = true) by exact Hv.
  generalize (Bmult_correct_aux 53 1024 Hprec Hmax mode_NE false 4503599627370496 (-52) H1 s m e Hy).
  cbv zeta. rewrite Bool.xorb_false_l. intros [Hvz Hz].
  destruct (valid_finite_format s m e Hv) as [Hg Hlt].
  assert (HX : (F2R (Float radix2 (cond_Zopp false (Zpos 4503599627370496)) (-52)) *
                F2R (Float radix2 (cond_Zopp s (Zpos m)) e))%R
             = F2R (Float radix2 (cond_Zopp s (Zpos m)) e)).
  { replace (F2R (Float radix2 (cond_Zopp false (Zpos 4503599627370496)) (-52))) with 1%R.
    - ring.
    - unfold F2R, cond_Zopp, Fnum, Fexp. simpl bpow.
      change (IZR (Zpos 4503599627370496)) with (IZR (Z.pow_pos 2 52)).
      rewrite Rinv_r; [reflexivity | apply IZR_neq; discriminate]. }
  rewrite HX in Hz.
  rewrite round_generic in Hz by (auto with typeclass_instances).
  rewrite Rlt_bool_true in Hz by exact Hlt.
  destruct Hz as (HR' & HF & HS).
  apply SF_eq; auto.
Qed.

(* num_of_Z always produces a valid double *)
Lemma num_of_Z_valid : forall z, vb (num_of_Z z) = true.
Proof.
  intros [|p|p]; [reflexivity | | ];
    cbv beta iota delta [num_of_Z SpecFloat.binary_normalize Num.prec Num.emax];
    rewrite binary_round_equiv;
    apply (binary_round_correct 53 1024 Hprec Hmax mode_NE).
Qed.
