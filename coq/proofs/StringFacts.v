(* StringFacts.v — the monoid laws of String.append and the length of an append, which Coq 8.16's
   Strings.String does not state. *)
From Coq Require Import String.
Local Open Scope string_scope.

Lemma append_nil_l : forall s : string, "" ++ s = s.
Proof. reflexivity. Qed.
Lemma append_nil_r : forall s : string, s ++ "" = s.
Proof. induction s; cbn; [reflexivity | rewrite IHs; reflexivity]. Qed.
Lemma append_assoc : forall a b c : string, (a ++ b) ++ c = a ++ (b ++ c).
Proof. induction a; intros; cbn; [reflexivity | rewrite IHa; reflexivity]. Qed.
Lemma length_append : forall a b : string, length (a ++ b) = length a + length b.
Proof. induction a; intro b; cbn; [reflexivity | rewrite IHa; reflexivity]. Qed.
