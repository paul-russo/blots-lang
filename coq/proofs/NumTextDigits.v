(* proofs/NumTextDigits.v — the executable `{:.0}` reference satisfies its contract for every
   integral double: Z_to_dec produces a non-empty digit string whose value is the integer. *)
From Coq Require Import ZArith Floats.SpecFloat Bool List String Ascii Lia.
Require Import Blots.Num Blots.Outcome Blots.gen.Builtins Blots.Ast Blots.NumText.
Require Import Blots.proofs.NumTextStr.
Open Scope string_scope.
Open Scope Z_scope.

Lemma dchar_digit : forall d, 0 <= d <= 9 -> is_digit (dchar d) = true /\ digit_val (dchar d) = d.
Proof.
  intros d H.
  assert (C : d = 0 \/ d = 1 \/ d = 2 \/ d = 3 \/ d = 4 \/ d = 5 \/ d = 6 \/ d = 7 \/ d = 8 \/ d = 9) by lia.
  destruct C as [->|[->|[->|[->|[->|[->|[->|[->|[->| ->]]]]]]]]]; split; reflexivity.
Qed.

(* reading the produced digits continues the accumulator: D(z) ++ acc read from k *)
Lemma Z_digits_fuel_val : forall fuel z acc,
  0 <= z < 10 ^ Z.of_nat fuel -> (1 <= fuel)%nat ->
  digits_val (Z_digits_fuel fuel z acc) 0 = digits_val acc z.
Proof.
  induction fuel as [|f IH]; intros z acc Hz Hf; [lia|].
  cbn [Z_digits_fuel]. cbv zeta.
  assert (Hm : 0 <= z mod 10 <= 9) by (pose proof (Z.mod_pos_bound z 10); lia).
  destruct (dchar_digit _ Hm) as [_ Hv].
  destruct (z <? 10) eqn:E.
  - apply Z.ltb_lt in E. cbn [digits_val]. rewrite Hv. rewrite Z.mod_small by lia. f_equal.
  - apply Z.ltb_ge in E.
    assert (Hf' : (1 <= f)%nat).
    { destruct f; [|lia]. simpl in Hz. lia. }
    rewrite IH; [| |exact Hf'].
    + cbn [digits_val]. rewrite Hv. f_equal. pose proof (Z.div_mod z 10). lia.
    + rewrite Nat2Z.inj_succ, Z.pow_succ_r in Hz by lia.
      split; [apply Z.div_pos; lia | apply Z.div_lt_upper_bound; lia].
Qed.

Lemma Z_digits_fuel_digits : forall fuel z acc,
  0 <= z -> all_digits acc = true -> all_digits (Z_digits_fuel fuel z acc) = true.
Proof.
  induction fuel as [|f IH]; intros z acc Hz Ha; [exact Ha|].
  cbn [Z_digits_fuel]. cbv zeta.
  assert (Hm : 0 <= z mod 10 <= 9) by (pose proof (Z.mod_pos_bound z 10); lia).
  destruct (dchar_digit _ Hm) as [Hd _].
  assert (Ha' : all_digits (String (dchar (z mod 10)) acc) = true) by (cbn [all_digits]; now rewrite Hd).
  destruct (z <? 10); [exact Ha'|]. apply IH; [apply Z.div_pos; lia | exact Ha'].
Qed.

Lemma Z_digits_fuel_nonempty : forall fuel z acc, (1 <= fuel)%nat -> Z_digits_fuel fuel z acc <> "".
Proof.
  induction fuel as [|f IH]; intros z acc Hf; [lia|].
  cbn [Z_digits_fuel]. cbv zeta. destruct (z <? 10); [discriminate|].
  destruct f.
  - cbn [Z_digits_fuel]. discriminate.
  - apply IH. lia.
Qed.

(* the fuel of Z_to_dec (and of JsonExact.big_digits) suffices *)
Lemma pow10_fuel z : 0 <= z -> z < 10 ^ Z.of_nat (S (Z.to_nat (Z.log2 z))).
Proof.
  intros Hz. pose proof (Z.log2_nonneg z) as HL.
  replace (Z.of_nat (S (Z.to_nat (Z.log2 z)))) with (Z.log2 z + 1) by lia.
  destruct (Z.eq_dec z 0) as [->|Hnz]; [reflexivity|].
  destruct (Z.log2_spec z ltac:(lia)) as [_ H2]. replace (Z.succ (Z.log2 z)) with (Z.log2 z + 1) in H2 by lia.
  assert (2 ^ (Z.log2 z + 1) <= 10 ^ (Z.log2 z + 1)) by (apply Z.pow_le_mono_l; lia). lia.
Qed.

Lemma Z_to_dec_spec : forall z, 0 <= z ->
  all_digits (Z_to_dec z) = true /\ Z_to_dec z <> "" /\ digits_val (Z_to_dec z) 0 = z.
Proof.
  intros z Hz. unfold Z_to_dec. repeat split.
  - apply Z_digits_fuel_digits; auto.
  - apply Z_digits_fuel_nonempty. lia.
  - rewrite Z_digits_fuel_val; [reflexivity | | lia].
    split; [lia|now apply pow10_fuel].
Qed.

Lemma int_abs_nonneg : forall x, 0 <= int_abs x.
Proof.
  intros [s|s| |s m e]; simpl; try lia. unfold split_int.
  destruct (0 <=? e) eqn:E.
  - apply Z.leb_le in E. apply Z.mul_nonneg_nonneg; [lia | apply Z.pow_nonneg; lia].
  - apply Z.div_pos; [lia | apply Z.pow_pos_nonneg; apply Z.leb_gt in E; lia].
Qed.

(* the exact-integer printer satisfies the `{:.0}` contract for every number *)
Theorem ref_prec0_contract : forall x,
  exists ip, ref_prec0 x = sign_str (nsign x) ++ ip /\ all_digits ip = true /\ ip <> "" /\
             digits_val ip 0 = int_abs x.
Proof.
  intros x. exists (Z_to_dec (int_abs x)).
  destruct (Z_to_dec_spec (int_abs x) (int_abs_nonneg x)) as (H1 & H2 & H3).
  repeat split; auto.
Qed.
