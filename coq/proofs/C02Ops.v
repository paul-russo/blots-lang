(* C02Ops.v — the transcribed operators (Binop.v: evaluate_binary_op_ast, all three arms) and the
   callback-taking / simple built-ins of EvalInst.builtin_impl commute with the renaming of
   function-cell indices whenever their callback does: the two hypotheses of C02Sim.v, discharged
   arm by arm.  Nothing in these functions observes a cell index: Value::equals compares functions
   by parameters and body, Value::compare gives None, typeof/arity read the definition only. *)
From Coq Require Import String Ascii List ZArith Bool Lia.
Require Import Blots.Num Blots.gen.Builtins Blots.Ast Blots.Value Blots.Outcome Blots.Binop
               Blots.Env Blots.Eval Blots.BuiltinsHof Blots.Program Blots.EvalInst
               Blots.proofs.ValueInd Blots.proofs.BinopShape Blots.proofs.StoreMono Blots.proofs.C02Ren Blots.proofs.C02Sim.
Import ListNotations.
Open Scope list_scope.
Open Scope nat_scope.

Section Ops.
  Variable rho : nat -> nat.
  Hypothesis rho_inj : forall a b, rho a = rho b -> a = b.
  Notation ren := (ren rho).
  Notation oren := (oren rho).
  Notation sinv := (sinv rho).
  Notation Mfun := (Mfun rho).
  Notation cb_eqv := (cb_eqv rho).

  Ltac stepM H :=
    match type of H with _ = omap _ (fst ?XA) /\ C02Ren.sinv _ (snd ?XA) (snd ?XB) =>
      revert H; destruct XA as [?rA ?sA]; destruct XB as [?rB ?sB];
      intros (?E & ?Hs); cbn [fst snd] in *; subst end.
  Ltac fin := split; [reflexivity|assumption].

  (* ---- the monad of Binop.v ---- *)
  Lemma lift_Mfun : forall A B (f : A -> B) (oa : outcome A) (ob : outcome B),
    ob = omap f oa -> Mfun f (lift store oa) (lift store ob).
  Proof. intros A B f oa ob -> sA sB Hs. unfold lift. fin. Qed.

  Lemma bindM_Mfun : forall A A' B B' (f : A -> A') (g : B -> B') mA mB kA kB,
    Mfun f mA mB -> (forall a, Mfun g (kA a) (kB (f a))) ->
    Mfun g (bindM store mA kA) (bindM store mB kB).
  Proof.
    intros A A' B B' f g mA mB kA kB Hm Hk sA sB Hs. unfold bindM.
    pose proof (Hm sA sB Hs) as H1. stepM H1.
    destruct rA; cbn [omap obind]; try fin. apply Hk; assumption.
  Qed.

  Lemma for_each_Mfun : forall B B' (f : B -> B') idxs bA bB,
    (forall i, Mfun f (bA i) (bB i)) ->
    Mfun (map f) (for_each store idxs bA) (for_each store idxs bB).
  Proof.
    intros B B' f idxs bA bB Hb. induction idxs as [|i r IH]; cbn [for_each].
    - apply lift_Mfun. reflexivity.
    - eapply bindM_Mfun; [apply Hb|]. intros y.
      eapply bindM_Mfun; [apply IH|]. intros ys. apply lift_Mfun. reflexivity.
  Qed.

  Lemma call_fn_Mfun : forall cbA cbB f args, cb_eqv cbA cbB ->
    Mfun ren (call_fn store cbA f args) (call_fn store cbB (ren f) (map ren args)).
  Proof. intros cbA cbB f args Hcb. unfold call_fn. apply Hcb. Qed.

  (* ---- scalar pieces ---- *)
  Lemma num2_ren : forall f a b, num2 f (ren a) (ren b) = oren (num2 f a b).
  Proof.
    intros f a b. unfold num2. rewrite !as_number_ren. destruct (as_number a); try reflexivity.
    cbn [obind]. destruct (as_number b); reflexivity.
  Qed.
  Lemma and_q_ren : forall a b, and_q (ren a) (ren b) = oren (and_q a b).
  Proof.
    intros a b. unfold and_q. rewrite !as_bool_ren. destruct (as_bool a) as [[|]| | | |]; try reflexivity.
    cbn [obind]. destruct (as_bool b); reflexivity.
  Qed.
  Lemma or_q_ren : forall a b, or_q (ren a) (ren b) = oren (or_q a b).
  Proof.
    intros a b. unfold or_q. rewrite !as_bool_ren. destruct (as_bool a) as [[|]| | | |]; try reflexivity.
    cbn [obind]. destruct (as_bool b); reflexivity.
  Qed.
  Lemma add_match_ren : forall a b, add_match (ren a) (ren b) = oren (add_match a b).
  Proof. intros a b. destruct a; try reflexivity; destruct b; reflexivity. Qed.
  Lemma ord_ren : forall a b e,
    (do r <- check_ord (compare (ren a) (ren b)) e; Ok (VBool r)) =
    oren (do r <- check_ord (compare a b) e; Ok (VBool r)).
  Proof. intros a b e. rewrite compare_ren. destruct (check_ord (compare a b) e); reflexivity. Qed.
  Lemma strcat_ren : forall a b,
    (do l_str <- as_string (ren a); do r_str <- as_string (ren b); Ok (VStr (l_str ++ r_str))) =
    oren (do l_str <- as_string a; do r_str <- as_string b; Ok (VStr (l_str ++ r_str))).
  Proof.
    intros a b. rewrite !as_string_ren. destruct (as_string a); try reflexivity. cbn [obind].
    destruct (as_string b); reflexivity.
  Qed.

  Lemma omap_VList_ren : forall (o : outcome (list value)),
    omap VList (omap (map ren) o) = oren (omap VList o).
  Proof. destruct o; reflexivity. Qed.
  Definition ren2 (lr : value * value) : value * value := (ren (fst lr), ren (snd lr)).
  Lemma combine_ren : forall l r, combine (map ren l) (map ren r) = map ren2 (combine l r).
  Proof. induction l as [|x l IH]; intros [|y r]; try reflexivity. cbn [map combine]. f_equal. apply IH. Qed.
  Lemma filter_some_ren : forall (l : list (option value)),
    filter_some (map (option_map ren) l) = map ren (filter_some l).
  Proof. induction l as [|[x|] l IH]; cbn [map filter_some option_map]; [reflexivity|f_equal; exact IH|exact IH]. Qed.

  (* a pure list result: `lift (omap VList (mapM g xs))` *)
  Lemma pure_list_Mfun : forall {X X'} (h : X -> X') (gA : X -> outcome value) (gB : X' -> outcome value) xs,
    (forall x, gB (h x) = oren (gA x)) ->
    Mfun ren (lift store (omap VList (mapM gA xs))) (lift store (omap VList (mapM gB (map h xs)))).
  Proof.
    intros X X' h gA gB xs Hg. apply lift_Mfun.
    rewrite (mapM_ren h ren gA gB xs Hg). apply omap_VList_ren.
  Qed.
  Lemma pure_list_same_Mfun : forall {X} (gA gB : X -> outcome value) xs,
    (forall x, gB x = oren (gA x)) ->
    Mfun ren (lift store (omap VList (mapM gA xs))) (lift store (omap VList (mapM gB xs))).
  Proof.
    intros X gA gB xs Hg. pose proof (pure_list_Mfun (fun x : X => x) gA gB xs Hg) as H.
    rewrite map_id in H. exact H.
  Qed.
  Lemma pure_list_exp_Mfun : forall {X X'} (h : X -> X') (gA : list comparison -> X -> outcome value)
      (gB : list comparison -> X' -> outcome value) xs (oe : outcome (list comparison)),
    (forall e x, gB e (h x) = oren (gA e x)) ->
    Mfun ren (lift store (do e <- oe; omap VList (mapM (gA e) xs)))
             (lift store (do e <- oe; omap VList (mapM (gB e) (map h xs)))).
  Proof.
    intros X X' h gA gB xs oe Hg. apply lift_Mfun. destruct oe; try reflexivity. cbn [obind].
    rewrite (mapM_ren h ren (gA a) (gB a) xs (Hg a)). apply omap_VList_ren.
  Qed.

  Section Arms.
    Variable cbA cbB : callback.
    Hypothesis Hcb : cb_eqv cbA cbB.
    Variable fa2 : value -> bool.
    Hypothesis fa2_ren : forall v, fa2 (ren v) = fa2 v.
    Variable powf : num -> num -> num.

    Lemma arm_scalar_sim : forall op l r,
      Mfun ren (arm_scalar store cbA powf op l r) (arm_scalar store cbB powf op (ren l) (ren r)).
    Proof.
      intros op l r. unfold arm_scalar.
      destruct op;
        try (apply lift_Mfun;
             first [ rewrite equals_ren; reflexivity | apply ord_ren | apply and_q_ren | apply or_q_ren
                   | apply num2_ren | reflexivity ]).
      - (* Add *) rewrite is_string_ren. destruct (is_string l); apply lift_Mfun; [apply strcat_ren|apply num2_ren].
      - (* Via *) rewrite is_callable_ren. destruct (negb (is_callable r)); [apply lift_Mfun; reflexivity|].
        apply (call_fn_Mfun cbA cbB r [l] Hcb).
      - (* Into *) rewrite is_callable_ren. destruct (negb (is_callable r)); [apply lift_Mfun; reflexivity|].
        apply (call_fn_Mfun cbA cbB r [l] Hcb).
      - (* Coalesce *) apply lift_Mfun. rewrite is_null_ren. destruct (is_null l); reflexivity.
    Qed.

    Ltac elt :=
      intros; cbn [fst snd ren2];
      rewrite ?equals_ren, ?compare_ren, ?is_null_ren;
      first [ reflexivity | apply num2_ren | apply and_q_ren | apply or_q_ren | apply add_match_ren
            | match goal with |- context [check_ord ?c ?e] => destruct (check_ord c e); reflexivity end
            | match goal with |- context [is_null ?c] => destruct (is_null c); reflexivity end ].

    Lemma arm_list_scalar_sim : forall op b l sc,
      Mfun ren (arm_list_scalar store cbA fa2 powf op b l sc)
               (arm_list_scalar store cbB fa2 powf op b (map ren l) (ren sc)).
    Proof.
      intros op b l sc. unfold arm_list_scalar. rewrite map_length.
      destruct op;
        try (apply lift_Mfun; reflexivity);
        try (apply (pure_list_Mfun ren); elt);
        try (apply (pure_list_exp_Mfun ren (fun e v => do result <- check_ord (if b then compare v sc else compare sc v) e; Ok (VBool result)));
             intros e x; destruct b; elt);
        try (destruct b; apply (pure_list_Mfun ren); elt).
      - (* Add *) apply (pure_list_same_Mfun
                     (fun idx => do item <- index l idx; if b then add_match item sc else add_match sc item)).
        intros idx. rewrite index_ren. destruct (index l idx); try reflexivity. cbn [omap obind].
        destruct b; apply add_match_ren.
      - (* Via *)
        destruct b; [|apply lift_Mfun; reflexivity].
        rewrite is_callable_ren. destruct (negb (is_callable sc)); [apply lift_Mfun; reflexivity|].
        rewrite fa2_ren.
        eapply bindM_Mfun with (f := map ren).
        + apply for_each_Mfun. intros i. eapply bindM_Mfun with (f := ren).
          * apply lift_Mfun. apply index_ren.
          * intros item. destruct (fa2 sc); [apply (call_fn_Mfun cbA cbB sc [item; VNum (num_of_idx i)] Hcb)
                                            |apply (call_fn_Mfun cbA cbB sc [item] Hcb)].
        + intros mapped. apply lift_Mfun. reflexivity.
      - (* Into *)
        destruct b; [|apply lift_Mfun; reflexivity].
        rewrite is_callable_ren. destruct (negb (is_callable sc)); [apply lift_Mfun; reflexivity|].
        apply (call_fn_Mfun cbA cbB sc [VList l] Hcb).
      - (* Where *)
        destruct b; [|apply lift_Mfun; reflexivity].
        rewrite is_callable_ren. destruct (negb (is_callable sc)); [apply lift_Mfun; reflexivity|].
        rewrite fa2_ren.
        eapply bindM_Mfun with (f := map (option_map ren)).
        + apply for_each_Mfun. intros i. eapply bindM_Mfun with (f := ren).
          * apply lift_Mfun. apply index_ren.
          * intros item. eapply bindM_Mfun with (f := ren).
            -- destruct (fa2 sc); [apply (call_fn_Mfun cbA cbB sc [item; VNum (num_of_idx i)] Hcb)
                                  |apply (call_fn_Mfun cbA cbB sc [item] Hcb)].
            -- intros result. eapply bindM_Mfun with (f := fun k : bool => k).
               ++ apply lift_Mfun. rewrite as_bool_ren. destruct (as_bool result); reflexivity.
               ++ intros keep. apply lift_Mfun. destruct keep; reflexivity.
        + intros kept. apply lift_Mfun. cbn [omap obind C02Ren.ren]. rewrite filter_some_ren. reflexivity.
    Qed.

    Lemma arm_list_list_sim : forall op l r,
      Mfun ren (arm_list_list store cbA powf op l r)
               (arm_list_list store cbB powf op (map ren l) (map ren r)).
    Proof.
      intros op l r. unfold arm_list_list. rewrite !map_length, combine_ren.
      destruct (negb (Nat.eqb (length l) (length r))); [apply lift_Mfun; reflexivity|].
      destruct op;
        try (apply lift_Mfun; reflexivity);
        try (apply (pure_list_Mfun ren2); elt);
        try (apply (pure_list_exp_Mfun ren2 (fun e lr => do result <- check_ord (compare (fst lr) (snd lr)) e; Ok (VBool result)));
             elt).
      - (* Add *) apply (pure_list_same_Mfun
                     (fun idx => do a <- index l idx; do b <- index r idx; add_match a b)).
        intros idx. rewrite !index_ren. destruct (index l idx); try reflexivity. cbn [omap obind].
        destruct (index r idx); try reflexivity. cbn [omap obind]. apply add_match_ren.
      - (* Via *)
        eapply bindM_Mfun with (f := map ren).
        + apply for_each_Mfun. intros i. eapply bindM_Mfun with (f := ren2).
          * apply lift_Mfun. rewrite !index_ren. destruct (index l i); try reflexivity. cbn [omap obind].
            destruct (index r i); reflexivity.
          * intros lr. cbn [ren2 fst snd]. rewrite is_lambda_ren, is_built_in_ren.
            destruct (negb (is_lambda (snd lr)) && negb (is_built_in (snd lr))); [apply lift_Mfun; reflexivity|].
            apply (call_fn_Mfun cbA cbB (snd lr) [fst lr] Hcb).
        + intros mapped. apply lift_Mfun. reflexivity.
    Qed.

    Lemma broadcast_sim : forall op l r,
      Mfun ren (broadcast store cbA fa2 powf op l r) (broadcast store cbB fa2 powf op (ren l) (ren r)).
    Proof.
      intros op l r. pattern l, r. apply operands_cases; clear l r.
      - intros a b. apply arm_list_list_sim.
      - intros a sc Hsc. cbn [C02Ren.ren].
        rewrite !broadcast_list_l by (rewrite ?is_list_ren; exact Hsc). apply arm_list_scalar_sim.
      - intros sc a Hsc. cbn [C02Ren.ren].
        rewrite !broadcast_list_r by (rewrite ?is_list_ren; exact Hsc). apply arm_list_scalar_sim.
      - intros l r Hl Hr. rewrite !broadcast_scalar by (rewrite ?is_list_ren; assumption). apply arm_scalar_sim.
    Qed.

    Theorem eval_binop_sim : forall op l r,
      Mfun ren (eval_binop store cbA fa2 powf op l r) (eval_binop store cbB fa2 powf op (ren l) (ren r)).
    Proof.
      intros op l r sA sB Hs. rewrite !eval_binop_shape, is_list_ren.
      destruct (undot op) as [op'|]; [apply arm_scalar_sim; exact Hs|].
      destruct (is_list r && binop_eqb op Into); [fin|apply broadcast_sim; exact Hs].
    Qed.
  End Arms.

  (* Hypothesis Hbi of C02Sim.v for the operator implementation of EvalInst.v *)
  Theorem binop_impl_sim : forall cbA cbB, cb_eqv cbA cbB ->
    forall op l r, Mfun ren (binop_impl cbA op l r) (binop_impl cbB op (ren l) (ren r)).
  Proof.
    intros cbA cbB Hcb op l r. unfold binop_impl.
    destruct op; try (apply eval_binop_sim; [exact Hcb|apply fn_accepts2_ren]).
    intros sA sB Hs. fin.
  Qed.

  (* ---- the callback-taking built-ins ---- *)
  Section Hof.
    Variable cbA cbB : callback.
    Hypothesis Hcb : cb_eqv cbA cbB.

    Lemma cb_args_ren : forall two x i, cb_args two (ren x) i = map ren (cb_args two x i).
    Proof. intros [|] x i; reflexivity. Qed.

    Lemma map_loop_sim : forall f two l i,
      Mfun (map ren) (map_loop cbA f two l i) (map_loop cbB (ren f) two (map ren l) i).
    Proof.
      intros f two l; induction l as [|x l IH]; intros i sA sB Hs; cbn [map_loop map]; [fin|].
      rewrite cb_args_ren. pose proof (Hcb f f (cb_args two x i) sA sB Hs) as H1. stepM H1.
      destruct rA; cbn [omap obind cast_fail]; try fin.
      pose proof (IH (S i) sA0 sB0 Hs0) as H2. stepM H2. destruct rA; cbn [omap obind]; fin.
    Qed.
    Lemma filter_loop_sim : forall f two l i,
      Mfun (map ren) (filter_loop cbA f two l i) (filter_loop cbB (ren f) two (map ren l) i).
    Proof.
      intros f two l; induction l as [|x l IH]; intros i sA sB Hs; cbn [filter_loop map]; [fin|].
      rewrite cb_args_ren. pose proof (Hcb f f (cb_args two x i) sA sB Hs) as H1. stepM H1.
      destruct rA; cbn [omap obind cast_fail]; try fin.
      rewrite as_bool_ren. destruct (as_bool a) as [keep| | | |]; cbn [cast_fail]; try fin.
      pose proof (IH (S i) sA0 sB0 Hs0) as H2. stepM H2. destruct rA; cbn [omap obind]; try fin.
      destruct keep; fin.
    Qed.
    Lemma reduce_loop_sim : forall f three l i acc,
      Mfun ren (reduce_loop cbA f three l i acc) (reduce_loop cbB (ren f) three (map ren l) i (ren acc)).
    Proof.
      intros f three l; induction l as [|x l IH]; intros i acc sA sB Hs; cbn [reduce_loop map]; [fin|].
      assert (Ea : (if three then [ren acc; ren x; idx_num i] else [ren acc; ren x]) =
                   map ren (if three then [acc; x; idx_num i] else [acc; x])) by (destruct three; reflexivity).
      rewrite Ea. pose proof (Hcb f f (if three then [acc; x; idx_num i] else [acc; x]) sA sB Hs) as H1. stepM H1.
      destruct rA; cbn [omap obind]; try fin. apply IH; assumption.
    Qed.
    Lemma every_loop_sim : forall f two l i,
      Mfun ren (every_loop cbA f two l i) (every_loop cbB (ren f) two (map ren l) i).
    Proof.
      intros f two l; induction l as [|x l IH]; intros i sA sB Hs; cbn [every_loop map]; [fin|].
      rewrite cb_args_ren. pose proof (Hcb f f (cb_args two x i) sA sB Hs) as H1. stepM H1.
      destruct rA; cbn [omap obind]; try fin.
      rewrite as_bool_ren. destruct (as_bool a) as [[|]| | | |]; cbn [cast_fail]; try fin. apply IH; assumption.
    Qed.
    Lemma some_loop_sim : forall f two l i,
      Mfun ren (some_loop cbA f two l i) (some_loop cbB (ren f) two (map ren l) i).
    Proof.
      intros f two l; induction l as [|x l IH]; intros i sA sB Hs; cbn [some_loop map]; [fin|].
      rewrite cb_args_ren. pose proof (Hcb f f (cb_args two x i) sA sB Hs) as H1. stepM H1.
      destruct rA; cbn [omap obind]; try fin.
      rewrite as_bool_ren. destruct (as_bool a) as [[|]| | | |]; cbn [cast_fail]; try fin. apply IH; assumption.
    Qed.

    Definition renFL (p : value * list value) : value * list value := (ren (fst p), map ren (snd p)).
    Lemma hof_prelude_ren : forall args, hof_prelude (map ren args) = omap renFL (hof_prelude args).
    Proof.
      intros args. unfold hof_prelude. rewrite !arg_ren.
      destruct (arg args 1) as [f| | | |]; try reflexivity. cbn [omap obind].
      destruct (arg args 0) as [l0| | | |]; try reflexivity. cbn [omap obind].
      rewrite as_list_ren. destruct (as_list l0); try reflexivity. cbn [omap obind].
      rewrite as_function_ren. destruct (as_function f); reflexivity.
    Qed.
  End Hof.

  (* pure built-ins *)
  Lemma pure_bi_Mfun : forall (fA fB : list value -> outcome value) args,
    fB (map ren args) = oren (fA args) -> Mfun ren (pure_bi fA args) (pure_bi fB (map ren args)).
  Proof. intros fA fB args E sA sB Hs. unfold pure_bi. cbn [fst snd]. split; assumption. Qed.

  Lemma num1_ren : forall g args, num1 g (map ren args) = oren (num1 g args).
  Proof.
    intros g args. unfold num1. rewrite arg_ren. destruct (arg args 0); try reflexivity. cbn [omap obind].
    rewrite as_number_ren. destruct (as_number a); reflexivity.
  Qed.
  Lemma cmp2_ren : forall g args, (forall a b, g (ren a) (ren b) = g a b) ->
    cmp2 g (map ren args) = oren (cmp2 g args).
  Proof.
    intros g args Hg. unfold cmp2. rewrite !arg_ren. destruct (arg args 0); try reflexivity. cbn [omap obind].
    destruct (arg args 1); try reflexivity. cbn [omap obind]. rewrite Hg. reflexivity.
  Qed.
  Lemma boolish_ren : forall v, boolish (ren v) = boolish v.
  Proof. destruct v; reflexivity. Qed.

  Lemma existsb_boolish_ren : forall l, existsb boolish (map ren l) = existsb boolish l.
  Proof. induction l as [|x l IH]; [reflexivity|]. cbn [map existsb]. rewrite boolish_ren, IH. reflexivity. Qed.
  Lemma forallb_boolish_ren : forall l, forallb boolish (map ren l) = forallb boolish l.
  Proof. induction l as [|x l IH]; [reflexivity|]. cbn [map forallb]. rewrite boolish_ren, IH. reflexivity. Qed.

  (* Hypothesis Hbu of C02Sim.v for the built-in dispatcher of EvalInst.v *)
  Theorem builtin_impl_sim : forall cbA cbB, cb_eqv cbA cbB ->
    forall b args, Mfun ren (builtin_impl cbA b args) (builtin_impl cbB b (map ren args)).
  Proof.
    intros cbA cbB Hcb b args.
    assert (Hun : Mfun ren (fun st => (Unmodelled : outcome value, st)) (fun st => (Unmodelled : outcome value, st))).
    { intros sA sB Hs. fin. }
    assert (Hfail : forall (o : outcome value), (forall v, o <> Ok v) ->
              Mfun ren (fun st => (o, st)) (fun st => (o, st))).
    { intros o Ho sA sB Hs. cbn [fst snd]. split; [|assumption]. destruct o; try reflexivity. exfalso; eapply Ho; reflexivity. }
    destruct b; cbn [builtin_impl]; try exact Hun;
      try (apply pure_bi_Mfun;
           first [ apply num1_ren
                 | apply cmp2_ren; intros a0 b0; unfold ugt, ult, ugte, ulte; rewrite compare_ren; reflexivity ]).
    - (* any *) apply pure_bi_Mfun. unfold bi_any. rewrite arg_ren. destruct (arg args 0); try reflexivity.
      cbn [omap obind]. rewrite as_list_ren. destruct (as_list a); try reflexivity. cbn [omap obind].
      rewrite existsb_boolish_ren. reflexivity.
    - (* all *) apply pure_bi_Mfun. unfold bi_all. rewrite arg_ren. destruct (arg args 0); try reflexivity.
      cbn [omap obind]. rewrite as_list_ren. destruct (as_list a); try reflexivity. cbn [omap obind].
      rewrite forallb_boolish_ren. reflexivity.
    - (* map *) unfold bi_map. rewrite hof_prelude_ren.
      destruct (hof_prelude args) as [[f l]| | | |]; cbn [omap obind renFL fst snd cast_fail];
        try (intros sA sB Hs; fin).
      rewrite accepts_ren. intros sA sB Hs.
      pose proof (map_loop_sim cbA cbB Hcb f (accepts f 2) l 0 sA sB Hs) as H1. stepM H1.
      destruct rA; cbn [omap obind]; fin.
    - (* reduce *) unfold bi_reduce. rewrite !arg_ren.
      destruct (arg args 1) as [f| | | |]; cbn [omap obind cast_fail]; try (intros sA sB Hs; fin).
      destruct (arg args 2) as [i0| | | |]; cbn [omap obind cast_fail]; try (intros sA sB Hs; fin).
      destruct (arg args 0) as [l0| | | |]; cbn [omap obind cast_fail]; try (intros sA sB Hs; fin).
      rewrite as_list_ren. destruct (as_list l0) as [l| | | |]; cbn [omap obind cast_fail]; try (intros sA sB Hs; fin).
      rewrite as_function_ren. destruct (as_function f) as [f'| | | |] eqn:Ef; cbn [omap obind cast_fail];
        try (intros sA sB Hs; fin).
      rewrite accepts_ren. apply reduce_loop_sim; assumption.
    - (* filter *) unfold bi_filter. rewrite hof_prelude_ren.
      destruct (hof_prelude args) as [[f l]| | | |]; cbn [omap obind renFL fst snd cast_fail];
        try (intros sA sB Hs; fin).
      rewrite accepts_ren. intros sA sB Hs.
      pose proof (filter_loop_sim cbA cbB Hcb f (accepts f 2) l 0 sA sB Hs) as H1. stepM H1.
      destruct rA; cbn [omap obind]; fin.
    - (* every *) unfold bi_every. rewrite hof_prelude_ren.
      destruct (hof_prelude args) as [[f l]| | | |]; cbn [omap obind renFL fst snd cast_fail];
        try (intros sA sB Hs; fin).
      rewrite accepts_ren. apply every_loop_sim; assumption.
    - (* some *) unfold bi_some. rewrite hof_prelude_ren.
      destruct (hof_prelude args) as [[f l]| | | |]; cbn [omap obind renFL fst snd cast_fail];
        try (intros sA sB Hs; fin).
      rewrite accepts_ren. apply some_loop_sim; assumption.
    - (* to_bool *) apply pure_bi_Mfun. unfold bi_to_bool. rewrite arg_ren.
      destruct (arg args 0) as [a| | | |]; try reflexivity. destruct a; reflexivity.
    - (* typeof *) apply pure_bi_Mfun. unfold bi_typeof. rewrite arg_ren.
      destruct (arg args 0) as [a| | | |]; try reflexivity. cbn [omap obind]. rewrite type_of_ren. reflexivity.
    - (* arity *) apply pure_bi_Mfun. unfold bi_arity. rewrite arg_ren.
      destruct (arg args 0) as [a| | | |]; try reflexivity. cbn [omap obind]. rewrite fn_arity_ren.
      destruct (fn_arity a) as [[?|?|? ?]|]; reflexivity.
  Qed.
End Ops.
