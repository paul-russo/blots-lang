(* ValuePred.v — predicates on values that are hereditary: P holds of a list exactly when it holds of the items,
   of a record exactly when it holds of the field values, of a spread exactly when it holds of what is spread,
   and of every atom.  What P says of a function value is left open.  The value-level operations of
   evaluate_ast (lookup, capture, parameter binding, record construction, spreading, indexing) build their
   results from parts of their arguments and atoms only, so they keep every such P. *)
From Coq Require Import String Ascii List ZArith Bool Lia.
Require Import Blots.Num Blots.gen.Builtins Blots.Ast Blots.Value Blots.Outcome Blots.Binop
               Blots.Env Blots.Eval Blots.proofs.GenOps.
Import ListNotations.
Open Scope string_scope.
Open Scope list_scope.

Definition Pframe (P : value -> Prop) (f : frame) : Prop := Forall (fun kv => P (snd kv)) f.
Definition Pframes (P : value -> Prop) (fr : frames) : Prop := Forall (fun kf => Pframe P (snd kf)) fr.

(* [atomic] (a number, a boolean, a string or null) is GenOps.v's, whose parametricity theorems take the same
   four facts about P as separate hypotheses *)
Record hereditary (P : value -> Prop) : Prop := {
  her_list : forall l, P (VList l) <-> Forall P l;
  her_rec : forall r, P (VRec r) <-> Pframe P r;
  her_spread : forall w, P (VSpread w) <-> P w;
  her_atomic : forall v, atomic v -> P v
}.

Section Parts.
  Variable P : value -> Prop.

  Lemma lookup_frame_P : forall f y v, Pframe P f -> lookup_frame f y = Some v -> P v.
  Proof.
    intros f y v H. induction H as [|[k w] f Hw _ IH]; cbn [lookup_frame]; [discriminate|].
    destruct (String.eqb y k); [intros E; inversion E; subst; exact Hw|exact IH].
  Qed.
  Lemma lookup_P : forall fr y v, Pframes P fr -> lookup fr y = Some v -> P v.
  Proof.
    intros fr y v H. induction H as [|[k f] fr Hf _ IH]; cbn [lookup]; [discriminate|].
    destruct (lookup_frame f y) eqn:E; [intros E2; inversion E2; subst; eapply lookup_frame_P; eauto|exact IH].
  Qed.
  Lemma rec_get_P : forall r k v, Pframe P r -> rec_get r k = Some v -> P v.
  Proof.
    intros r k v H. induction H as [|[k' w] f Hw _ IH]; cbn [rec_get]; [discriminate|].
    destruct (String.eqb k k'); [intros E; inversion E; subst; exact Hw|exact IH].
  Qed.
  Lemma rec_insert_P : forall r k v, Pframe P r -> P v -> Pframe P (rec_insert r k v).
  Proof.
    intros r k v H Hv. induction H as [|[k' w] f Hw Hf IH]; cbn [rec_insert].
    - constructor; [exact Hv|constructor].
    - destruct (String.eqb k k'); constructor; assumption.
  Qed.
  Lemma rec_insert_all_P : forall es r, Pframe P r -> Pframe P es -> Pframe P (rec_insert_all r es).
  Proof.
    unfold rec_insert_all. induction es as [|[k v] es IH]; intros r Hr He; cbn [fold_left]; [exact Hr|].
    inversion He; subst. apply IH; [apply rec_insert_P; assumption|assumption].
  Qed.
  Lemma capture_P : forall fr vars acc, Pframes P fr -> Pframe P acc -> Pframe P (capture fr vars acc).
  Proof.
    intros fr vars. induction vars as [|x vars IH]; intros acc Hfr Hacc; cbn [capture]; [exact Hacc|].
    destruct (lookup fr x) as [v|] eqn:E; [|apply IH; assumption].
    destruct (is_builtin_name x); [apply IH; assumption|].
    apply IH; [assumption|]. constructor; [|exact Hacc]. cbn [snd]. eapply lookup_P; eauto.
  Qed.
  Lemma insert_head_P : forall fr x v fr', Pframes P fr -> P v -> insert_head fr x v = Some fr' -> Pframes P fr'.
  Proof.
    intros fr x v fr' H Hv E. destruct fr as [|[[|] f] r]; cbn [insert_head] in E; try discriminate.
    inversion E; subst. inversion H; subst. constructor; [|assumption]. cbn [snd] in *. constructor; assumption.
  Qed.
  Lemma enum_from_P : forall {A} (g : A -> value) (l : list A) k,
    (forall a, In a l -> P (g a)) ->
    Pframe P (map (fun iv => (nat_to_dec (fst iv), g (snd iv))) (enum_from k l)).
  Proof.
    intros A g l. induction l as [|a l IH]; intros k H; cbn [enum_from map]; constructor.
    - cbn [snd]. apply H. left; reflexivity.
    - apply IH. intros b Hb. apply H. right; exact Hb.
  Qed.
  Lemma nth_P : forall l k, P VNull -> Forall P l -> P (nth k l VNull).
  Proof.
    intros l k H0 H. destruct (nth_in_or_default k l VNull) as [Hin|E]; [|rewrite E; exact H0].
    rewrite Forall_forall in H. apply H; exact Hin.
  Qed.
End Parts.

Section Hereditary.
  Variable P : value -> Prop.
  Hypothesis HP : hereditary P.

  Lemma atoms_P : forall (l : list string), Forall P (map VStr l).
  Proof. intros l. induction l; cbn [map]; constructor; [apply (her_atomic P HP); exact I|assumption]. Qed.
  Lemma spread_items_P : forall v, P v -> Forall P (spread_items v).
  Proof.
    intros v H. destruct v; cbn [spread_items]; try constructor.
    - apply atoms_P.
    - apply (her_list P HP); exact H.
    - apply (her_rec P HP) in H. induction H as [|[k w] r Hw _ IH]; cbn [map]; constructor; [|exact IH].
      apply (her_list P HP). constructor; [apply (her_atomic P HP); exact I|constructor; [exact Hw|constructor]].
  Qed.
  Lemma flatten_spreads_P : forall l, Forall P l -> Forall P (flatten_spreads l).
  Proof.
    intros l H. induction H as [|v l Hv _ IH]; cbn [flatten_spreads]; [constructor|].
    destruct v; try (constructor; assumption).
    apply Forall_app. split; [apply spread_items_P; apply (proj1 (her_spread P HP _)); exact Hv|exact IH].
  Qed.
  Lemma access_val_P : forall v i r, P v -> access_val v i = Ok r -> P r.
  Proof.
    intros v i r Hv E. destruct v as [y|y| |y|l|rr|id ar bd sc|bb|y]; cbn [access_val] in E; try discriminate.
    - destruct (as_number i) as [m| | | |]; try discriminate. cbn [obind] in E.
      destruct (index_from _ m) as [k|]; inversion E; subst; try (apply (her_atomic P HP); exact I).
      destruct (nth_error (chars y) k); apply (her_atomic P HP); exact I.
    - destruct (as_number i) as [m| | | |]; try discriminate. cbn [obind] in E. inversion E; subst.
      destruct (index_from _ m) as [k|]; [|apply (her_atomic P HP); exact I].
      apply nth_P; [apply (her_atomic P HP); exact I|apply (her_list P HP); exact Hv].
    - destruct (as_string i) as [m| | | |]; try discriminate. cbn [obind] in E. inversion E; subst.
      destruct (rec_get rr m) eqn:Eg; [|apply (her_atomic P HP); exact I].
      eapply rec_get_P; [|exact Eg]. apply (her_rec P HP); exact Hv.
  Qed.
  Lemma dot_val_P : forall v f r, P v -> dot_val v f = Ok r -> P r.
  Proof.
    intros v f r Hv E. destruct v as [y|y| |y|l|rr|id ar bd sc|bb|y]; cbn [dot_val] in E; try discriminate.
    inversion E; subst.
    destruct (rec_get rr f) eqn:Eg; [|apply (her_atomic P HP); exact I].
    eapply rec_get_P; [|exact Eg]. apply (her_rec P HP); exact Hv.
  Qed.
  Lemma spread_val_P : forall v r, P v -> spread_val v = Ok r -> P r.
  Proof.
    intros v r Hv E. destruct v; cbn [spread_val] in E; try discriminate; inversion E; subst;
      apply (her_spread P HP); exact Hv.
  Qed.
  Lemma record_spread_entries_P : forall v, P v -> Pframe P (record_spread_entries v).
  Proof.
    intros v H. destruct v; cbn [record_spread_entries]; try constructor.
    apply (proj1 (her_spread P HP _)) in H. destruct v; try constructor.
    - apply (enum_from_P P VStr). intros; apply (her_atomic P HP); exact I.
    - apply (enum_from_P P (fun x => x)). apply (her_list P HP) in H. rewrite Forall_forall in H. exact H.
    - apply (her_rec P HP); exact H.
  Qed.
  Lemma constants_P : P (VRec constants_record).
  Proof. apply (her_rec P HP). repeat constructor; apply (her_atomic P HP); exact I. Qed.

  Lemma bind_params_P : forall ps idx args acc fr,
    Forall P args -> Pframe P acc -> bind_params ps idx args acc = Some fr -> Pframe P fr.
  Proof.
    intros ps. induction ps as [|p ps IH]; intros idx args acc fr Ha Hacc E; cbn [bind_params] in E.
    - inversion E; subst; exact Hacc.
    - destruct p as [x|x|x].
      + destruct (nth_error args idx) as [v|] eqn:En; [|discriminate].
        eapply IH; [exact Ha| |exact E]. constructor; [|exact Hacc]. cbn [snd].
        rewrite Forall_forall in Ha. apply Ha. eapply nth_error_In; eauto.
      + eapply IH; [exact Ha| |exact E]. constructor; [|exact Hacc]. cbn [snd].
        destruct (nth_error args idx) as [v|] eqn:En; [|apply (her_atomic P HP); exact I].
        rewrite Forall_forall in Ha. apply Ha. eapply nth_error_In; eauto.
      + eapply IH; [exact Ha| |exact E]. constructor; [|exact Hacc]. cbn [snd].
        apply (her_list P HP). rewrite Forall_forall in *. intros y Hy. apply Ha.
        rewrite <- (firstn_skipn idx args). apply in_or_app. right; exact Hy.
  Qed.
End Hereditary.
