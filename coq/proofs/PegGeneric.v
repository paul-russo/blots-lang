(* PegGeneric.v — facts about the pest interpreter coq/Peg.v that hold for EVERY grammar:
   - [run_fuel_mono] / [parse_fuel_mono]: more fuel never changes a result other than OutOfFuel;
   - [run_fail_unchanged]: a failing expression leaves position, remaining input and produced pairs
     untouched (this is what pest's `optional` / `repeat` / `or_else`, which do NOT restore, rely on);
   - [run_spans] / [parse_spans_inside_text]: every success consumes a prefix of the remaining input and the
     pairs it produces are ordered, nested and inside the consumed span. *)
From Coq Require Import String Ascii List NArith Bool Arith Lia ZifyBool ZifyNat ZifyN.
Require Import Blots.Peg.
Import ListNotations.

Section Generic.
  Variable R : Type.
  Variable G : grammar R.
  Notation st := (st R).
  Notation res := (res R).
  Notation runner := (runner R).

  Lemma run_S : forall f m a la (e : expr R) (s : st),
      run G (S f) m a la e s =
      let call := call_with G (run G f) in
      let skip := skip_with G f call a la in
      match e with
      | Str x => match_string x s
      | Insens x => match_insensitive x s
      | Range lo hi => match_range lo hi s
      | Builtin b => run_builtin b s
      | Ident r => call a la r s
      | SkipUntil ss =>
          let '(p, r) := skip_until_pos ss (pos s) (rest s) in Ok (set_pos s p r)
      | PosPred x => lookahead true (run G f m a true x) s
      | NegPred x => lookahead false (run G f m a true x) s
      | Seq x y =>
          if m then sequence s (bind (run G f m a la x s) (run G f m a la y))
          else sequence s (bind (bind (run G f m a la x s) skip) (run G f m a la y))
      | Choice x y =>
          match run G f m a la x s with
          | Fail s' => run G f m a la y s'
          | o => o
          end
      | Opt x => optional (run G f m a la x s)
      | Rep x =>
          if m then repeat_loop f (run G f m a la x) s
          else sequence s
                 (optional
                    (bind (run G f m a la x s)
                          (repeat_loop f (fun s1 => sequence s1 (bind (skip s1) (run G f m a la x))))))
      | Push x => do_push (run G f m a la x) s
      | RestoreOnErr x => restore_on_err (run G f m a la x) s
      end.
  Proof. reflexivity. Qed.

  (* the `sequence` around x ~ skip ~ y may be repeated around x ~ skip: resetting the position twice is resetting it once *)
  Lemma seq_nested : forall (s : st) r g h,
      sequence s (bind (bind r g) h) = sequence s (bind (sequence s (bind r g)) h).
  Proof. intros s r g h. destruct r as [s1|s1| |]; simpl; try reflexivity. destruct (g s1); reflexivity. Qed.

  Lemma repeat_never_fails : forall n f (s s' : st), repeat_loop n f s <> Fail s'.
  Proof.
    induction n; intros f s s' H; simpl in H; [discriminate|].
    destruct (f s); try discriminate. eapply IHn; eassumption.
  Qed.

  (* one iteration, then the rest of the loop; `optional` because a failing iteration ends the loop with success *)
  Lemma repeat_loop_S : forall n g (s : st), repeat_loop (S n) g s = optional (bind (g s) (repeat_loop n g)).
  Proof.
    intros n g s. simpl. destruct (g s) as [s1|s1| |]; try reflexivity. simpl.
    destruct (repeat_loop n g s1) eqn:E; try reflexivity. exfalso. eapply repeat_never_fails. exact E.
  Qed.
  Lemma sequence_optional : forall (s : st) r, sequence s (optional r) = optional r.
  Proof. intros s r. destruct r; reflexivity. Qed.

  (* ================================================================ fuel monotonicity *)
  Definition le_res (r r' : res) : Prop := r <> OutOfFuel -> r' = r.
  Definition le_fun (g g' : st -> res) : Prop := forall s, le_res (g s) (g' s).

  Lemma le_res_refl : forall r, le_res r r.
  Proof. intros r _. reflexivity. Qed.

  Ltac le_by H1 := let N := fresh "N" in intro N; try (rewrite H1 by congruence; reflexivity); try congruence.

  Lemma le_bind : forall r r' f f', le_res r r' -> le_fun f f' -> le_res (bind r f) (bind r' f').
  Proof.
    intros r r' f f' H Hf. unfold le_res in *. destruct r; simpl; le_by H.
    rewrite H by congruence. simpl. apply Hf. assumption.
  Qed.

  Lemma le_sequence : forall s r r', le_res r r' -> le_res (sequence s r) (sequence s r').
  Proof. intros s r r' H. unfold le_res in *. destruct r; simpl; le_by H. Qed.

  Lemma le_optional : forall r r', le_res r r' -> le_res (optional r) (optional r').
  Proof. intros r r' H. unfold le_res in *. destruct r; simpl; le_by H. Qed.

  Lemma le_repeat : forall n n' f f', n <= n' -> le_fun f f' ->
      le_fun (repeat_loop n f) (repeat_loop n' f').
  Proof.
    induction n as [|n IH]; intros n' f f' L Hf s.
    - intro N. simpl in N. congruence.
    - destruct n' as [|n']; [lia|]. unfold le_res. simpl.
      pose proof (Hf s) as H1. unfold le_res in H1.
      destruct (f s) eqn:E; le_by H1.
      rewrite H1 by congruence. apply IH; [lia|assumption|assumption].
  Qed.

  Lemma le_lookahead : forall p f f', le_fun f f' -> le_fun (lookahead p f) (lookahead p f').
  Proof.
    intros p f f' Hf s. unfold le_res, lookahead.
    pose proof (Hf (set_stk s (stack_snapshot (stk s)))) as H1. unfold le_res in H1.
    destruct (f (set_stk s (stack_snapshot (stk s)))) eqn:E; le_by H1.
  Qed.

  Lemma le_restore : forall f f', le_fun f f' -> le_fun (restore_on_err f) (restore_on_err f').
  Proof.
    intros f f' Hf s. unfold le_res, restore_on_err.
    pose proof (Hf (set_stk s (stack_snapshot (stk s)))) as H1. unfold le_res in H1.
    destruct (f (set_stk s (stack_snapshot (stk s)))) eqn:E; le_by H1.
  Qed.

  Lemma le_push : forall f f', le_fun f f' -> le_fun (do_push f) (do_push f').
  Proof.
    intros f f' Hf s. unfold le_res, do_push.
    pose proof (Hf s) as H1. unfold le_res in H1.
    destruct (f s) eqn:E; le_by H1.
  Qed.

  Lemma le_rule_wrap : forall r a la f f', le_fun f f' -> le_fun (rule_wrap r a la f) (rule_wrap r a la f').
  Proof.
    intros r a la f f' Hf s. unfold le_res, rule_wrap. destruct (emits a la).
    - pose proof (Hf (set_out s [])) as H1. unfold le_res in H1.
      destruct (f (set_out s [])) eqn:E; le_by H1.
    - apply Hf.
  Qed.

  Definition le_runner (rf rf' : runner) : Prop := forall m a la e, le_fun (rf m a la e) (rf' m a la e).

  Lemma le_call : forall rf rf', le_runner rf rf' ->
      forall a la r, le_fun (call_with G rf a la r) (call_with G rf' a la r).
  Proof.
    intros rf rf' H a la r s. unfold call_with.
    destruct (rd_mod (g_def G r)); try (apply le_rule_wrap; intro s'; apply H); apply H.
  Qed.

  Lemma le_skip : forall n n' call call', n <= n' ->
      (forall a la r, le_fun (call a la r) (call' a la r)) ->
      forall a la, le_fun (skip_with G n call a la) (skip_with G n' call' a la).
  Proof.
    intros n n' call call' L H a la s. unfold skip_with.
    destruct a; try apply le_res_refl.
    destruct (g_ws G) as [w|], (g_comment G) as [c|]; try apply le_res_refl.
    - apply le_sequence. apply le_bind.
      + apply le_repeat; [assumption|apply H].
      + apply le_repeat; [assumption|]. intro s1. apply le_sequence. apply le_bind; [apply H|].
        apply le_repeat; [assumption|apply H].
    - apply le_repeat; [assumption|apply H].
    - apply le_repeat; [assumption|apply H].
  Qed.

  Theorem run_fuel_mono : forall f f', f <= f' -> le_runner (run G f) (run G f').
  Proof.
    induction f as [|f IH]; intros f' L m a la e s.
    - intro N. simpl in N. congruence.
    - destruct f' as [|f']; [lia|]. assert (L' : f <= f') by lia.
      pose proof (IH f' L') as IHr.
      pose proof (le_call _ _ IHr) as IHc.
      pose proof (le_skip f f' _ _ L' IHc a la) as IHs.
      rewrite !run_S. cbv zeta.
      destruct e.
      + apply le_res_refl.
      + apply le_res_refl.
      + apply le_res_refl.
      + apply IHc.
      + apply le_res_refl.
      + apply le_lookahead. apply IHr.
      + apply le_lookahead. apply IHr.
      + destruct m.
        * apply le_sequence. apply le_bind; [apply IHr|apply IHr].
        * apply le_sequence. apply le_bind; [|apply IHr]. apply le_bind; [apply IHr|apply IHs].
      + pose proof (IHr m a la e1 s) as H1. unfold le_res in *.
        destruct (run G f m a la e1 s) eqn:E; le_by H1.
        rewrite H1 by congruence. apply IHr. assumption.
      + apply le_optional. apply IHr.
      + destruct m.
        * apply le_repeat; [assumption|apply IHr].
        * apply le_sequence. apply le_optional. apply le_bind; [apply IHr|].
          apply le_repeat; [assumption|]. intro s1. apply le_sequence. apply le_bind; [apply IHs|apply IHr].
      + apply le_res_refl.
      + apply le_push. apply IHr.
      + apply le_restore. apply IHr.
  Qed.

  Theorem parse_fuel_mono : forall f f' r text,
      f <= f' -> parse G f r text <> OutOfFuel -> parse G f' r text = parse G f r text.
  Proof.
    intros f f' r text L N. unfold parse in *.
    exact (le_call _ _ (run_fuel_mono f f' L) NonAtomic false r (init text) N).
  Qed.

  (* ================================================================ spans *)
  (* ordered, nested, inside [lo, hi] *)
  Inductive forest_ok : N -> N -> list (tree R) -> Prop :=
  | fo_nil : forall lo hi, (lo <= hi)%N -> forest_ok lo hi []
  | fo_cons : forall lo hi r s e kids l,
      (lo <= s)%N -> forest_ok s e kids -> forest_ok e hi l -> forest_ok lo hi (Node r s e kids :: l).

  Lemma forest_ok_le : forall lo hi l, forest_ok lo hi l -> (lo <= hi)%N.
  Proof. induction 1; lia. Qed.

  Lemma forest_ok_widen : forall lo hi l, forest_ok lo hi l ->
      forall lo' hi', (lo' <= lo)%N -> (hi <= hi')%N -> forest_ok lo' hi' l.
  Proof.
    induction 1; intros lo' hi' A B.
    - constructor. lia.
    - constructor; [lia|assumption|]. apply IHforest_ok2; lia.
  Qed.

  Lemma forest_ok_app : forall lo mid l1, forest_ok lo mid l1 ->
      forall hi l2, forest_ok mid hi l2 -> forest_ok lo hi (l1 ++ l2).
  Proof.
    induction 1; intros hi' l2 H2; simpl.
    - eapply forest_ok_widen; [eassumption|lia|lia].
    - constructor; [assumption|assumption|]. apply IHforest_ok2. assumption.
  Qed.

  (* s' is s advanced by k bytes *)
  Definition adv (s s' : st) : Prop :=
    exists k, k <= String.length (rest s) /\ rest s' = sdrop k (rest s) /\ pos s' = (pos s + N.of_nat k)%N.

  Lemma sdrop_length : forall k s, k <= String.length s -> String.length (sdrop k s) = String.length s - k.
  Proof.
    induction k; intros s L; simpl; [lia|]. destruct s; simpl in *; [lia|]. rewrite IHk; lia.
  Qed.
  Lemma sdrop_sdrop : forall a b s, sdrop b (sdrop a s) = sdrop (a + b) s.
  Proof.
    induction a; intros b s; simpl; [reflexivity|]. destruct s; simpl.
    - destruct b; reflexivity.
    - apply IHa.
  Qed.

  Lemma adv_refl : forall s, adv s s.
  Proof. intro s. exists 0. simpl. repeat split; lia. Qed.
  Lemma adv_trans : forall s1 s2 s3, adv s1 s2 -> adv s2 s3 -> adv s1 s3.
  Proof.
    intros s1 s2 s3 (k1 & L1 & E1 & P1) (k2 & L2 & E2 & P2).
    exists (k1 + k2). rewrite E1 in L2. rewrite sdrop_length in L2 by assumption.
    split; [lia|]. split.
    - rewrite E2, E1. apply sdrop_sdrop.
    - lia.
  Qed.
  Lemma adv_pos : forall s s', adv s s' -> (pos s <= pos s')%N.
  Proof. intros s s' (k & _ & _ & P). lia. Qed.
  Lemma adv_total : forall s s', adv s s' -> (pos s' + slen (rest s') = pos s + slen (rest s))%N.
  Proof.
    intros s s' (k & L & E & P). unfold slen. rewrite E, sdrop_length by assumption. lia.
  Qed.

  (* what a result must satisfy relative to the state it started from *)
  Definition good (la : bool) (s : st) (r : res) : Prop :=
    match r with
    | Ok s' => adv s s' /\ exists new, out s' = new ++ out s /\ forest_ok (pos s) (pos s') (rev new)
                                       /\ (la = true -> new = [])
    | Fail s' => pos s' = pos s /\ rest s' = rest s /\ out s' = out s
    | _ => True
    end.
  Definition good_fun (la : bool) (g : st -> res) : Prop := forall s, good la s (g s).

  Lemma good_ok_self : forall la s s', pos s' = pos s -> rest s' = rest s -> out s' = out s -> good la s (Ok s').
  Proof.
    intros la s s' P E O. simpl. split.
    - exists 0. simpl. rewrite P, E. repeat split; lia.
    - exists []. simpl. rewrite P. repeat split; try assumption. constructor. lia.
  Qed.

  Lemma drop_prefix_sdrop : forall p s r, drop_prefix p s = Some r ->
      String.length p <= String.length s /\ r = sdrop (String.length p) s.
  Proof.
    induction p; intros s r H; simpl in *.
    - inversion H. split; [lia|reflexivity].
    - destruct s; [discriminate|]. destruct (Ascii.eqb a a0); [|discriminate].
      apply IHp in H. simpl. split; [lia|apply H].
  Qed.
  Lemma drop_prefix_app_inv : forall p s r, drop_prefix p s = Some r -> s = (p ++ r)%string.
  Proof.
    induction p; intros s r H; simpl in *; [inversion H; reflexivity|].
    destruct s; [discriminate|]. destruct (Ascii.eqb a a0) eqn:E; [|discriminate].
    apply Ascii.eqb_eq in E. subst. f_equal. apply IHp. exact H.
  Qed.
  Lemma drop_prefix_ci_sdrop : forall p s r, drop_prefix_ci p s = Some r ->
      String.length p <= String.length s /\ r = sdrop (String.length p) s.
  Proof.
    induction p; intros s r H; simpl in *.
    - inversion H. split; [lia|reflexivity].
    - destruct s; [discriminate|]. destruct (Ascii.eqb (lower a) (lower a0)); [|discriminate].
      apply IHp in H. simpl. split; [lia|apply H].
  Qed.

  Lemma good_advance : forall la s k,
      k <= String.length (rest s) ->
      good la s (Ok (set_pos s (pos s + N.of_nat k) (sdrop k (rest s)))).
  Proof.
    intros la s k L. simpl. split.
    - exists k. repeat split; assumption.
    - exists []. simpl. repeat split; try reflexivity. constructor. lia.
  Qed.

  Lemma good_fail_self : forall la s, good la s (Fail s).
  Proof. intros; simpl; auto. Qed.

  Lemma good_match_string : forall la x, good_fun la (match_string x).
  Proof.
    intros la x s. unfold match_string. destruct (drop_prefix x (rest s)) eqn:E.
    - apply drop_prefix_sdrop in E. destruct E as [L E]. subst. unfold slen. apply good_advance. assumption.
    - apply good_fail_self.
  Qed.
  Lemma good_match_insensitive : forall la x, good_fun la (match_insensitive x).
  Proof.
    intros la x s. unfold match_insensitive. destruct (drop_prefix_ci x (rest s)) eqn:E.
    - apply drop_prefix_ci_sdrop in E. destruct E as [L E]. subst. unfold slen. apply good_advance. assumption.
    - apply good_fail_self.
  Qed.
  Lemma good_match_range : forall la lo hi, good_fun la (match_range lo hi).
  Proof.
    intros la lo hi s. unfold match_range. destruct (rest s) eqn:E; [apply good_fail_self|].
    destruct (in_range lo hi a); [|apply good_fail_self].
    pose proof (good_advance la s 1) as H. rewrite E in H. simpl in H. apply H. lia.
  Qed.

  (* ANY skips the width of a UTF-8 character, at least one byte and no more than there are *)
  Lemma utf8_width_pos : forall c, 1 <= utf8_width c.
  Proof. intro c. unfold utf8_width. repeat destruct (N.ltb _ _); lia. Qed.
  Lemma any_width : forall c t,
      1 <= Nat.min (utf8_width c) (String.length (String c t)) <= String.length (String c t).
  Proof. intros c t. pose proof (utf8_width_pos c). cbn [String.length]. lia. Qed.

  (* [good] looks at the start state through its position, remaining input and pairs only *)
  Lemma good_same : forall la s0 s r, pos s0 = pos s -> rest s0 = rest s -> out s0 = out s ->
      good la s0 r -> good la s r.
  Proof.
    intros la s0 s r P E O H. destruct r; simpl in *; auto.
    - unfold adv in *. rewrite P, E, O in H. exact H.
    - rewrite P, E, O in H. exact H.
  Qed.
  Lemma good_set_stk : forall la s k r, good la s r -> good la (set_stk s k) r.
  Proof. intros la s k r. exact (good_same la s (set_stk s k) r eq_refl eq_refl eq_refl). Qed.
  Lemma good_of_set_stk : forall la s k r, good la (set_stk s k) r -> good la s r.
  Proof. intros la s k r. exact (good_same la (set_stk s k) s r eq_refl eq_refl eq_refl). Qed.

  Lemma good_builtin : forall la b, good_fun la (run_builtin b).
  Proof.
    intros la b s. destruct b; simpl.
    - destruct (rest s) eqn:E; [apply good_fail_self|].
      pose proof (good_advance la s (Nat.min (utf8_width a) (String.length (rest s)))) as H.
      rewrite E in *. apply H. lia.
    - destruct (N.eqb (pos s) 0); [apply good_ok_self; reflexivity|apply good_fail_self].
    - destruct (rest s); [apply good_ok_self; reflexivity|apply good_fail_self].
    - destruct (stack_peek (stk s)); [apply good_match_string|exact I].
    - destruct (stack_pop (stk s)) as [[x|] k]; [|exact I].
      apply (good_of_set_stk la s k). apply good_match_string.
    - destruct (stack_pop (stk s)) as [[x|] k]; [apply good_ok_self; reflexivity|apply good_fail_self].
  Qed.

  Lemma skip_until_adv : forall ss s p, exists k, k <= String.length s /\
      skip_until_pos ss p s = ((p + N.of_nat k)%N, sdrop k s).
  Proof.
    induction s; intro p; simpl.
    - exists 0. simpl. split; [lia|]. destruct (existsb _ ss); f_equal; lia.
    - destruct (existsb _ ss).
      + exists 0. simpl. split; [lia|]. f_equal. lia.
      + destruct (IHs (p + 1)%N) as (k & L & E). exists (S k). simpl. split; [lia|]. rewrite E. f_equal. lia.
  Qed.

  (* under a lookahead nothing is produced: the strongest form *)
  Lemma good_true : forall la s r, good true s r -> good la s r.
  Proof.
    intros la s r H. destruct r; simpl in *; auto. destruct H as (A & n & O & F & L).
    split; [exact A|]. exists n. rewrite (L eq_refl) in *. auto.
  Qed.

  (* the expressions that call nothing: they fail in place or advance, and produce no pair *)
  Definition terminal (e : expr R) : bool :=
    match e with Str _ | Insens _ | Range _ _ | Builtin _ | SkipUntil _ => true | _ => false end.

  Lemma terminal_good : forall f m a la e, terminal e = true -> good_fun true (run G (S f) m a la e).
  Proof.
    intros f m a la e T s. rewrite run_S. cbv zeta. destruct e; try discriminate T.
    - apply good_match_string.
    - apply good_match_insensitive.
    - apply good_match_range.
    - apply good_builtin.
    - destruct (skip_until_adv ss (rest s) (pos s)) as (k & L & E). rewrite E. apply good_advance. assumption.
  Qed.

  Lemma good_trans : forall la s s1 s2, good la s (Ok s1) -> good la s1 (Ok s2) -> good la s (Ok s2).
  Proof.
    intros la s s1 s2 (A1 & n1 & O1 & F1 & L1) (A2 & n2 & O2 & F2 & L2).
    split; [eapply adv_trans; eassumption|].
    exists (n2 ++ n1). rewrite O2, O1, app_assoc. split; [reflexivity|]. split.
    - rewrite rev_app_distr. eapply forest_ok_app; eassumption.
    - intro T. rewrite L1, L2 by assumption. reflexivity.
  Qed.

  (* x then y inside one `sequence`; a failure of y after progress of x is not [good] relative to the start:
     the `sequence` restores the position *)
  Lemma good_sequence_bind : forall la s r f, good la s r -> good_fun la f -> good la s (sequence s (bind r f)).
  Proof.
    intros la s r f Hr Hf. destruct r as [s0|s0| |]; simpl in *; auto.
    pose proof (Hf s0) as H. destruct (f s0); simpl; auto. exact (good_trans la s s0 _ Hr H).
  Qed.

  Lemma good_optional : forall la s r, good la s r -> good la s (optional r).
  Proof.
    intros la s r H. destruct r; simpl in *; auto. destruct H as (P & E & O). apply good_ok_self; assumption.
  Qed.

  Lemma good_opt_bind : forall la s r h, good la s r -> good_fun la h -> good la s (optional (bind r h)).
  Proof.
    intros la s r h H Hh. destruct r as [s0|s0| |]; simpl; auto.
    - pose proof (Hh s0) as H4. destruct (h s0) as [s1|s1| |]; simpl; auto.
      + exact (good_trans la s s0 _ H H4).
      + simpl in *. destruct H4 as (P & E & O). unfold adv in *. rewrite P, E, O. exact H.
    - simpl in H. destruct H as (P & E & O). apply good_ok_self; assumption.
  Qed.

  Lemma good_repeat : forall la n f, good_fun la f -> good_fun la (repeat_loop n f).
  Proof.
    intros la n f Hf. induction n as [|n IH]; intro s; [exact I|].
    rewrite repeat_loop_S. apply good_opt_bind; [apply Hf|exact IH].
  Qed.

  Lemma good_lookahead : forall p f, good_fun true f -> forall la, good_fun la (lookahead p f).
  Proof.
    intros p f Hf la s. unfold lookahead.
    pose proof (Hf (set_stk s (stack_snapshot (stk s)))) as H.
    destruct (f (set_stk s (stack_snapshot (stk s)))) eqn:E; auto.
    - simpl in H. destruct H as (_ & n & O & _ & L). rewrite (L eq_refl) in O. simpl in O.
      destruct p; [apply good_ok_self; simpl; auto|simpl; auto].
    - simpl in H. destruct H as (_ & _ & O).
      destruct p; [simpl; auto|apply good_ok_self; simpl; auto].
  Qed.

  Lemma good_restore : forall la f, good_fun la f -> good_fun la (restore_on_err f).
  Proof.
    intros la f Hf s. unfold restore_on_err.
    pose proof (Hf (set_stk s (stack_snapshot (stk s)))) as H.
    destruct (f (set_stk s (stack_snapshot (stk s)))) eqn:E; auto.
  Qed.

  Lemma good_push : forall la f, good_fun la f -> good_fun la (do_push f).
  Proof.
    intros la f Hf s. unfold do_push. pose proof (Hf s) as H. destruct (f s) eqn:E; auto.
  Qed.

  Lemma good_rule_wrap : forall r a la f, good_fun la f -> good_fun la (rule_wrap r a la f).
  Proof.
    intros r a la f Hf s. unfold rule_wrap. destruct (emits a la) eqn:Em; [|apply Hf].
    pose proof (Hf (set_out s [])) as H.
    destruct (f (set_out s [])) eqn:E; auto.
    - simpl in H. destruct H as (A & n & O & F & L). rewrite app_nil_r in O. simpl. split; [exact A|].
      exists [Node r (pos s) (pos s0) (rev (out s0))]. split; [reflexivity|]. split.
      + simpl. constructor; [lia| rewrite O; exact F |]. constructor. lia.
      + intro T. unfold emits in Em. rewrite T in Em. discriminate.
    - simpl in *. destruct H as (P & E1 & O). auto.
  Qed.

  Definition good_runner (rf : runner) : Prop := forall m a la e, good_fun la (rf m a la e).

  Lemma good_call : forall rf, good_runner rf -> forall a la r, good_fun la (call_with G rf a la r).
  Proof.
    intros rf H a la r s. unfold call_with.
    destruct (rd_mod (g_def G r)); try (apply good_rule_wrap; intro s'; apply H); apply H.
  Qed.

  Lemma good_skip : forall n call, (forall a la r, good_fun la (call a la r)) ->
      forall a la, good_fun la (skip_with G n call a la).
  Proof.
    intros n call H a la s. unfold skip_with.
    destruct a; try (apply good_ok_self; reflexivity).
    destruct (g_ws G) as [w|], (g_comment G) as [c|]; try (apply good_ok_self; reflexivity).
    - apply good_sequence_bind.
      + apply good_repeat. apply H.
      + apply good_repeat. intro s1. apply good_sequence_bind; [apply H|]. apply good_repeat. apply H.
    - apply good_repeat. apply H.
    - apply good_repeat. apply H.
  Qed.

  Theorem run_good : forall f, good_runner (run G f).
  Proof.
    induction f as [|f IH]; intros m a la e s; [exact I|].
    pose proof (good_call _ IH) as IHc.
    pose proof (fun a la => good_skip f _ IHc a la) as IHs.
    destruct (terminal e) eqn:T; [apply good_true, terminal_good; exact T|].
    rewrite run_S. cbv zeta.
    destruct e as [x|x|lo hi|r|b|x|x|x y|x y|x|x|ss|x|x]; try discriminate T.
    - apply IHc.
    - apply good_lookahead. apply IH.
    - apply good_lookahead. apply IH.
    - destruct m.
      + apply good_sequence_bind; [apply IH|apply IH].
      + rewrite seq_nested. apply good_sequence_bind; [apply good_sequence_bind; [apply IH|apply IHs]|apply IH].
    - pose proof (IH m a la x s) as H1. destruct (run G f m a la x s) eqn:E1; auto.
      simpl in H1. destruct H1 as (P & E & O).
      exact (good_same la s0 s _ P E O (IH m a la y s0)).
    - apply good_optional. apply IH.
    - destruct m.
      + apply good_repeat. apply IH.
      + rewrite sequence_optional. apply good_opt_bind; [apply IH|]. apply good_repeat.
        intro s1. apply good_sequence_bind; [apply IHs|apply IH].
    - apply good_push. apply IH.
    - apply good_restore. apply IH.
  Qed.

  (* the statements of Properties/C10.v *)
  Theorem run_fail_unchanged : forall f m a la e s s',
      run G f m a la e s = Fail s' -> pos s' = pos s /\ rest s' = rest s /\ out s' = out s.
  Proof. intros f m a la e s s' H. pose proof (run_good f m a la e s) as Hg. rewrite H in Hg. exact Hg. Qed.

  Theorem run_spans : forall f m a la e s s',
      run G f m a la e s = Ok s' ->
      (pos s <= pos s')%N /\ (pos s' + slen (rest s') = pos s + slen (rest s))%N /\
      (exists k, rest s' = sdrop k (rest s)) /\
      exists new, out s' = new ++ out s /\ forest_ok (pos s) (pos s') (rev new).
  Proof.
    intros f m a la e s s' H. pose proof (run_good f m a la e s) as Hg. rewrite H in Hg.
    destruct Hg as (A & n & O & F & _). split; [apply adv_pos; assumption|]. split; [apply adv_total; assumption|].
    split; [destruct A as (k & _ & E & _); exists k; exact E|]. exists n. auto.
  Qed.

  Theorem parse_spans_inside_text : forall f r text s',
      parse G f r text = Ok s' ->
      forest_ok 0 (slen text) (rev (out s')) /\ (pos s' <= slen text)%N.
  Proof.
    intros f r text s' H. unfold parse in H.
    pose proof (good_call _ (run_good f) NonAtomic false r (init text)) as Hg. rewrite H in Hg.
    destruct Hg as (A & n & O & F & _). simpl in O. rewrite app_nil_r in O. subst n.
    pose proof (adv_total _ _ A) as T. simpl in T.
    split.
    - eapply forest_ok_widen; [exact F|simpl; lia|lia].
    - lia.
  Qed.
End Generic.
