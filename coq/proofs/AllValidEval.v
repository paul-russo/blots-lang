(* AllValidEval.v — the evaluator induction of Avoid.v at the failure Panic, carrying the VALIDITY INVARIANT
   (Valid.v): for EVERY operator / built-in implementation that, on valid operands / an argument vector of
   valid values that passed the arity check, and with a callback that does the same, neither panics nor
   returns an invalid value — evaluation of a valid expression from a configuration whose innermost frame is
   owned and whose bound values are all valid
       never returns Panic,   returns a valid value,   hands back such a configuration again,
   at every depth budget.  What is shown here is that valid_value / valid_expr are hereditary in the sense of
   Avoid.v's Section Walk.  Nothing here mentions a particular operator or built-in: the hypotheses are
   discharged for EvalAll.binop_all o / builtin_all o in AllValidOps.v / AllValidBuiltins.v.  Axiom-free. *)
From Coq Require Import String Ascii List ZArith Bool Lia.
Require Import Blots.Num Blots.gen.Builtins Blots.Ast Blots.Value Blots.Outcome Blots.Binop
               Blots.Env Blots.Eval Blots.BuiltinsHof Blots.Program Blots.Valid
               Blots.proofs.ExprInd Blots.proofs.ValuePred Blots.proofs.Avoid Blots.proofs.NoPanic.
Import ListNotations.
Open Scope string_scope.
Open Scope list_scope.
Open Scope nat_scope.

(* ------------------------------------------------------------------ 1. the predicates, structurally *)
Lemma vv_list : forall l, valid_value (VList l) <-> Forall valid_value l.
Proof. intros l. unfold valid_value. cbn [valid_valueb]. rewrite forallb_forall, Forall_forall. reflexivity. Qed.
Lemma vvs_Forall : forall l, valid_values l <-> Forall valid_value l.
Proof. intros l. unfold valid_values, valid_valuesb. rewrite forallb_forall, Forall_forall. reflexivity. Qed.
Lemma vvs_list : forall l, valid_values l <-> valid_value (VList l).
Proof. reflexivity. Qed.
Lemma vvs_cons : forall v l, valid_values (v :: l) <-> valid_value v /\ valid_values l.
Proof. intros. unfold valid_values, valid_valuesb, valid_value. cbn [forallb]. rewrite andb_true_iff. reflexivity. Qed.
Lemma vvs_app : forall a b, valid_values (a ++ b) <-> valid_values a /\ valid_values b.
Proof. intros. unfold valid_values, valid_valuesb. rewrite forallb_app, andb_true_iff. reflexivity. Qed.
Lemma vvs_nil : valid_values []. Proof. reflexivity. Qed.
Lemma vvs_in : forall l v, valid_values l -> In v l -> valid_value v.
Proof. intros l v H Hin. apply vvs_Forall in H. rewrite Forall_forall in H. exact (H v Hin). Qed.
Lemma vvs_of_in : forall l, (forall v, In v l -> valid_value v) -> valid_values l.
Proof. intros l H. apply vvs_Forall, Forall_forall. exact H. Qed.
Lemma vvs_incl : forall l l', valid_values l -> (forall v, In v l' -> In v l) -> valid_values l'.
Proof. intros l l' H Hi. apply vvs_of_in. intros v Hv. eapply vvs_in; eauto. Qed.
Lemma vvs_map_atoms : forall {A} (f : A -> value) l, (forall a, valid_value (f a)) -> valid_values (map f l).
Proof. intros A f l H. apply vvs_of_in. intros v Hv. apply in_map_iff in Hv. destruct Hv as [a [<- _]]. apply H. Qed.

Definition valid_frame (f : frame) : Prop := valid_frameb f = true.
Lemma vf_cons : forall x v f, valid_frame ((x, v) :: f) <-> valid_value v /\ valid_frame f.
Proof. intros. unfold valid_frame, valid_frameb, valid_value. cbn [forallb snd]. rewrite andb_true_iff. reflexivity. Qed.
Lemma vf_app : forall a b, valid_frame (a ++ b) <-> valid_frame a /\ valid_frame b.
Proof. intros. unfold valid_frame, valid_frameb. rewrite forallb_app, andb_true_iff. reflexivity. Qed.
Lemma vf_in : forall f k v, valid_frame f -> In (k, v) f -> valid_value v.
Proof.
  intros f k v H Hin. unfold valid_frame, valid_frameb in H. rewrite forallb_forall in H. exact (H _ Hin).
Qed.
Lemma vf_of_in : forall f, (forall kv, In kv f -> valid_value (snd kv)) -> valid_frame f.
Proof. intros f H. unfold valid_frame, valid_frameb. apply forallb_forall. exact H. Qed.
Lemma vv_rec : forall r, valid_value (VRec r) <-> valid_frame r.
Proof. reflexivity. Qed.
Lemma vfr_cons : forall k f fr, valid_frames ((k, f) :: fr) <-> valid_frame f /\ valid_frames fr.
Proof. intros. unfold valid_frames, valid_framesb, valid_frame. cbn [forallb snd]. rewrite andb_true_iff. reflexivity. Qed.

(* in the terms of Avoid.v *)
Lemma Vf_valid : forall f, Pframe valid_value f <-> valid_frame f.
Proof. intros f. unfold Pframe, valid_frame, valid_frameb. rewrite forallb_forall, Forall_forall. reflexivity. Qed.
Lemma Vfr_valid : forall fr, Pframes valid_value fr <-> valid_frames fr.
Proof.
  intros fr. unfold Pframes, valid_frames, valid_framesb. rewrite forallb_forall, Forall_forall.
  split; intros H kf Hin; apply Vf_valid, H, Hin.
Qed.
Lemma vv_lam : forall id ps body scope,
  valid_value (VLam id ps body scope) <-> valid_expr body /\ Pframe valid_value scope.
Proof.
  intros. unfold valid_value. cbn [valid_valueb]. rewrite andb_true_iff, Vf_valid. reflexivity.
Qed.

(* ---- valid_expr, constructor by constructor ---- *)
Lemma vexpr_clist : forall (l : list (commented expr)),
  (fix go (l : list (commented expr)) : bool :=
     match l with [] => true | Cm _ a _ :: r => valid_exprb a && go r end) l = true ->
  Forall (fun c => valid_expr (cnode c)) l.
Proof.
  induction l as [|[ld a tr] l IH]; intros H; [constructor|].
  apply andb_true_iff in H. destruct H as [Ha Hl]. constructor; [exact Ha|apply IH; exact Hl].
Qed.
Lemma vexpr_EList : forall items, valid_expr (EList items) -> Forall (fun c => valid_expr (cnode c)) items.
Proof. intros items H. exact (vexpr_clist items H). Qed.
Lemma vexpr_EDo : forall stmts ret, valid_expr (EDo stmts ret) ->
  Forall (fun c => valid_expr (cnode c)) stmts /\ valid_expr (cnode ret).
Proof.
  intros stmts [ld rt tr] H. unfold valid_expr in H. cbn [valid_exprb] in H.
  apply andb_true_iff in H. destruct H as [Hs Hr]. split; [apply vexpr_clist; exact Hs|exact Hr].
Qed.
Definition vkey (k : rkey) : Prop :=
  match k with KDyn e | KSpread e => valid_expr e | KStatic _ | KShort _ => True end.
Lemma vexpr_ERec : forall entries, valid_expr (ERec entries) ->
  Forall (fun c => match cnode c with REntry k v => vkey k /\ valid_expr v end) entries.
Proof.
  intros entries H. unfold valid_expr in H. cbn [valid_exprb] in H.
  induction entries as [|[ld [k v] tr] l IH]; [constructor|].
  apply andb_true_iff in H. destruct H as [H Hl]. apply andb_true_iff in H. destruct H as [Hk Hv].
  constructor; [|apply IH; exact Hl]. cbn [cnode]. split; [|exact Hv]. destruct k; cbn [vkey]; auto.
Qed.
Lemma vexpr_ECall : forall f args, valid_expr (ECall f args) -> valid_expr f /\ Forall valid_expr args.
Proof.
  intros f args H. unfold valid_expr in H. cbn [valid_exprb] in H.
  apply andb_true_iff in H. destruct H as [Hf Ha]. split; [exact Hf|].
  induction args as [|a l IH]; [constructor|].
  apply andb_true_iff in Ha. destruct Ha as [H1 H2]. constructor; [exact H1|apply IH; exact H2].
Qed.
Lemma vexpr_2 : forall a b, valid_exprb a && valid_exprb b = true -> valid_expr a /\ valid_expr b.
Proof. intros a b H. apply andb_true_iff in H. exact H. Qed.
Lemma vexpr_3 : forall a b c, valid_exprb a && valid_exprb b && valid_exprb c = true ->
  valid_expr a /\ valid_expr b /\ valid_expr c.
Proof.
  intros a b c H. apply andb_true_iff in H. destruct H as [H Hc]. apply andb_true_iff in H. tauto.
Qed.

Lemma valid_children : forall e, valid_expr e -> children valid_expr e.
Proof.
  intros e He. destruct e; cbn [children]; try exact I; try exact He.
  - exact (vexpr_EList _ He).
  - exact (vexpr_ERec _ He).
  - exact (vexpr_3 _ _ _ He).
  - exact (vexpr_EDo _ _ He).
  - exact (vexpr_ECall _ _ He).
  - exact (vexpr_2 _ _ He).
  - exact (vexpr_2 _ _ He).
Qed.

(* ------------------------------------------------------------------ 2. the invariant *)
Definition Inv (c : cfg) : Prop := wf c /\ valid_frames (snd c).
(* never Panic, a result satisfying P, the invariant again *)
Definition good {A} (P : A -> Prop) (r : outcome A * cfg) : Prop :=
  fst r <> Panic /\ (forall a, fst r = Ok a -> P a) /\ Inv (snd r).
(* an operator / built-in / FunctionDef::call result: never Panic, a valid value *)
Definition vres (r : outcome value) : Prop := r <> Panic /\ (forall v, r = Ok v -> valid_value v).
Definition vcb (cb : callback) : Prop :=
  forall this f args st, valid_value this -> valid_value f -> valid_values args ->
    vres (fst (cb this f args st)).

Lemma Inv_store : forall st st' fr, Inv (st, fr) -> Inv (st', fr).
Proof. intros st st' fr H. exact H. Qed.

Lemma vres_ok : forall v, valid_value v -> vres (Ok v).
Proof. exact (sat_ok FPanic value valid_value). Qed.
Lemma vres_err : vres Err. Proof. exact (sat_err FPanic value valid_value). Qed.

(* in the terms of Avoid.v: [vres] is [sat FPanic valid_value], [vcb] is [cb_ok], [Inv] is Avoid.Inv with
   NoPanic.owned as the head condition, [good] is [oks] *)
Lemma Inv_valid : forall c, Avoid.Inv valid_value owned (snd c) <-> Inv c.
Proof. intros c. unfold Avoid.Inv, Inv, wf. rewrite Vfr_valid. reflexivity. Qed.
Lemma vcb_ok : forall cb, cb_ok FPanic valid_value cb <-> vcb cb.
Proof.
  intros cb. split; intros H this f args st Ht Hf Ha; apply H; try assumption; apply vvs_Forall; exact Ha.
Qed.
Lemma good_oks : forall {A} (P : A -> Prop) r,
  oks FPanic cfg (fun c => Avoid.Inv valid_value owned (snd c)) P r <-> good P r.
Proof. intros A P r. unfold oks, sat, good. rewrite Inv_valid. cbn [fail]. tauto. Qed.

Lemma constants_valid : valid_value (VRec constants_record).
Proof. vm_compute. reflexivity. Qed.
Lemma nneg_valid_value : forall x, valid_value (VNum x) -> valid_value (VNum (nneg x)).
Proof. intros x Hv. destruct x; exact Hv. Qed.

(* each hypothesis of Section Walk: on V and E at valid_value / valid_expr, on H at head_owned
   (the constants first: comparing that goal with another statement would evaluate it) *)
Ltac walk_hyps :=
  lazymatch goal with
  | |- valid_value (VRec constants_record) => exact constants_valid
  | _ => first [ exact vv_list | exact (fun r => iff_sym (Vf_valid r)) | exact vv_lam
               | exact nneg_valid_value | exact valid_children | exact owned_new | exact owned_ins
               | exact (owned_shared FPanic) | intros; reflexivity | intros ? Hx; exact Hx ]
  end.

Section ValidEval.
  Variable release : bool.
  Variable binop_impl : callback -> binop -> value -> value -> store -> outcome value * store.
  Variable builtin_impl : callback -> builtin -> list value -> store -> outcome value * store.

  Hypothesis binop_ok : forall cb op l r st,
    vcb cb -> valid_value l -> valid_value r -> vres (fst (binop_impl cb op l r st)).
  Hypothesis builtin_ok : forall cb b args st,
    vcb cb -> can_accept (builtin_arity b) (Datatypes.length args) = true -> valid_values args ->
    vres (fst (builtin_impl cb b args st)).
  Hypothesis fact_ok : forall n, valid_num n -> vres (factorial_val release n).

  Let binop_sat : forall cb op l r st, cb_ok FPanic valid_value cb -> valid_value l -> valid_value r ->
    sat FPanic valid_value (fst (binop_impl cb op l r st)).
  Proof. intros cb op l r st Hcb. apply binop_ok, vcb_ok, Hcb. Qed.
  Let builtin_sat : forall cb b args st, cb_ok FPanic valid_value cb ->
    can_accept (builtin_arity b) (Datatypes.length args) = true -> Forall valid_value args ->
    sat FPanic valid_value (fst (builtin_impl cb b args st)).
  Proof. intros cb b args st Hcb Ha Hv. apply builtin_ok; [apply vcb_ok, Hcb|exact Ha|apply vvs_Forall, Hv]. Qed.

  (* ---- FunctionDef::call at every depth ---- *)
  Theorem AD_ok : forall d fr, valid_frames fr -> vcb (AD release binop_impl builtin_impl d fr).
  Proof.
    intros d fr Hfr. apply vcb_ok.
    apply AD_sat with (E := valid_expr) (Head := owned);
      first [exact binop_sat|exact builtin_sat|exact fact_ok|walk_hyps|apply Vfr_valid, Hfr].
  Qed.

  Theorem evalD_ok : forall d c e, valid_expr e -> Inv c ->
    good valid_value (evalD release binop_impl builtin_impl d c e).
  Proof.
    intros d c e He Hi. apply good_oks.
    apply evalD_sat with (E := valid_expr);
      first [exact binop_sat|exact builtin_sat|exact fact_ok|exact He|walk_hyps|apply Inv_valid, Hi].
  Qed.

  (* ---- whole programs ---- *)
  Notation eval := (eval_top release binop_impl builtin_impl).
  Let eval_sat : forall c e, valid_expr e -> Avoid.Inv valid_value owned (snd c) ->
    oks FPanic cfg (fun c => Avoid.Inv valid_value owned (snd c)) valid_value (eval c e).
  Proof. intros c e He Hi. apply good_oks, evalD_ok; [exact He|apply Inv_valid, Hi]. Qed.

  Lemma exec_stmt_ok : forall s t s' r, valid_stmtb t = true ->
    exec_stmt eval s t = (s', r) -> Inv (s_cfg s) ->
    Inv (s_cfg s') /\ r <> RFail Panic /\ valid_resultb r = true.
  Proof.
    intros s t s' r Vt H Hi.
    destruct (exec_stmt_sat FPanic valid_expr valid_value owned eval eval_sat s t s' r) as [Hi' [Hr Hv]];
      [destruct t; exact Vt || exact I|exact H|apply Inv_valid, Hi|].
    split; [apply Inv_valid, Hi'|split; [exact Hr|]]. destruct r; try reflexivity. apply Hv. reflexivity.
  Qed.

  Theorem run_ok : forall prog s, valid_prog prog -> Inv (s_cfg s) ->
    Forall (fun rs => fst rs <> RFail Panic /\ valid_resultb (fst rs) = true) (snd (run eval s prog)).
  Proof.
    intros prog s Vp Hi.
    eapply Forall_impl; [|apply (run_sat FPanic valid_expr valid_value owned eval eval_sat)].
    - intros [r st] [Hr Hv]. split; [exact Hr|]. destruct r; try reflexivity. apply Hv. reflexivity.
    - unfold valid_prog, valid_progb in Vp. rewrite forallb_forall in Vp. apply Forall_forall.
      intros t Hin. specialize (Vp t Hin). destruct t; exact Vp || exact I.
    - apply Inv_valid, Hi.
  Qed.

  Lemma init_session_Inv : forall inputs, valid_inputs inputs -> Inv (s_cfg (init_session inputs)).
  Proof.
    intros inputs Hv. split; [reflexivity|]. cbn [init_session s_cfg snd].
    apply vfr_cons. split; [|reflexivity]. apply vf_cons. split; [exact Hv|reflexivity].
  Qed.
End ValidEval.
