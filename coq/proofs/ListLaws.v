(* ListLaws.v — laws of the list built-ins of BuiltinsList.v (property C14). *)
From Coq Require Import String Ascii List ZArith Bool Lia Permutation Sorted Floats.SpecFloat.
Require Import Blots.Num Blots.gen.Builtins Blots.Ast Blots.Value Blots.Outcome Blots.Access
  Blots.BuiltinsList Blots.proofs.ValueInd Blots.proofs.Order.
Import ListNotations.
Open Scope list_scope.

(* ---------- reverse ---------- *)
Lemma reverse_involutive l r :
  bi_reverse [VList l] = Ok r -> bi_reverse [r] = Ok (VList l).
Proof.
  cbn. intros H. injection H as <-. cbn. now rewrite rev_involutive.
Qed.

Lemma reverse_spec l : bi_reverse [VList l] = Ok (VList (rev l)).
Proof. reflexivity. Qed.

(* ---------- concat ---------- *)
Lemma concat_app a b : bi_concat [VList a; VList b] = Ok (VList (a ++ b)).
Proof. unfold bi_concat. cbn [concat_args]. now rewrite app_nil_r. Qed.

Lemma concat_args_lists ls : concat_args (map VList ls) = List.concat ls.
Proof. induction ls as [|l ls IH]; cbn; [reflexivity|]. now rewrite IH. Qed.

Lemma concat_lists ls : bi_concat (map VList ls) = Ok (VList (List.concat ls)).
Proof. unfold bi_concat. now rewrite concat_args_lists. Qed.

(* ---------- chunk / flatten ---------- *)
Lemma chunk_acc_concat {A} (l : list A) n room cur :
  List.concat (chunk_acc l n room cur) = cur ++ l.
Proof.
  revert room cur. induction l as [|x l IH]; intros room cur; cbn.
  - destruct cur; cbn; [reflexivity|]. now rewrite !app_nil_r.
  - destruct room; cbn; rewrite IH; [reflexivity|]. now rewrite <- app_assoc.
Qed.

Lemma chunks_concat {A} (l : list A) n : List.concat (chunks l n) = l.
Proof. unfold chunks. now rewrite chunk_acc_concat. Qed.

Lemma flatten_items_lists ls : flatten_items (map VList ls) = List.concat ls.
Proof. induction ls as [|l ls IH]; cbn; [reflexivity|]. now rewrite IH. Qed.

(* every chunk but the last has exactly n elements, the last has between 1 and n *)
Definition chunk_shape {A} (n : nat) (cs : list (list A)) : Prop :=
  forall i c, nth_error cs i = Some c ->
    (1 <= length c <= n)%nat /\ (S i < length cs -> length c = n)%nat.

Lemma chunk_acc_shape {A} (l : list A) n room cur :
  (1 <= n)%nat -> (length cur + room = n)%nat -> (cur = [] -> l = [] \/ room = n)%nat ->
  chunk_shape n (chunk_acc l n room cur).
Proof.
  intros Hn. revert room cur. induction l as [|x l IH]; intros room cur Hlen Hcur; cbn.
  - destruct cur as [|c0 cur]; intros i c Hi.
    + destruct i; discriminate.
    + destruct i as [|i]; cbn in Hi; [|destruct i; discriminate].
      injection Hi as <-. cbn in *. split; [lia|]. intros; lia.
  - destruct room as [|k].
    + (* cur is full *)
      assert (Hc : length cur = n) by lia.
      intros i c Hi. destruct i as [|i]; cbn in Hi.
      * injection Hi as <-. split; [lia|]. auto.
      * assert (IH' := IH (n - 1)%nat [x]).
        assert (chunk_shape n (chunk_acc l n (n - 1) [x])) as Hs.
        { apply IH'; cbn; [lia|]. discriminate. }
        destruct (Hs i c Hi) as [H1 H2]. split; [exact H1|]. cbn. intros. apply H2. lia.
    + apply IH.
      * rewrite app_length. cbn. lia.
      * intros E. destruct cur; discriminate.
Qed.

Lemma chunks_shape {A} (l : list A) n : (1 <= n)%nat -> chunk_shape n (chunks l n).
Proof. intros Hn. apply chunk_acc_shape; [assumption|cbn; lia|]. intros _. now right. Qed.

(* ---------- head / tail ---------- *)
Lemma head_tail_rebuild_list x l :
  bi_head [VList (x :: l)] = Ok x /\ bi_tail [VList (x :: l)] = Ok (VList l).
Proof.
  split; [reflexivity|]. unfold bi_tail, slice_get. cbn [arg nth_error obind].
  replace (1 <=? Z.of_nat (length (x :: l)))%Z with true by (symmetry; apply Z.leb_le; cbn [length]; lia).
  rewrite Z.leb_refl. cbn [andb].
  replace (Z.to_nat (Z.of_nat (length (x :: l)) - 1)) with (length l) by (cbn [length]; lia).
  cbn. now rewrite firstn_all.
Qed.

Lemma head_tail_empty_list :
  bi_head [VList []] = Ok VNull /\ bi_tail [VList []] = Ok (VList []).
Proof. split; reflexivity. Qed.

(* ====================================================================== sorting *)
Lemma SS_app {A} (R : A -> A -> Prop) l1 l2 :
  StronglySorted R l1 -> StronglySorted R l2 -> (forall a b, In a l1 -> In b l2 -> R a b) ->
  StronglySorted R (l1 ++ l2).
Proof.
  induction l1 as [|x l1 IH]; cbn; intros H1 H2 H; [assumption|].
  inversion H1 as [|? ? Hs Hf]; subst. constructor.
  - apply IH; auto.
  - apply Forall_app. split; [assumption|]. apply Forall_forall. intros b Hb. apply H; auto.
Qed.

Lemma SS_rev {A} (R : A -> A -> Prop) l :
  StronglySorted R l -> StronglySorted (fun a b => R b a) (rev l).
Proof.
  induction l as [|x l IH]; cbn; intros H; [constructor|].
  inversion H as [|? ? Hs Hf]; subst. apply SS_app.
  - auto.
  - repeat constructor.
  - intros a b Ha [<-|[]]. rewrite Forall_forall in Hf. apply Hf. now apply in_rev.
Qed.

(* k and x are equivalent for the strict order lt: neither is less than the other *)
Definition equiv {A} (lt : A -> A -> bool) (k x : A) : bool := negb (lt k x) && negb (lt x k).


(* a sorted list is determined by its equivalence-class subsequences: every stable sort of the
   same input under the same strict weak order returns the same list (this is what lets the
   insertion sort stand for std's driftsort on inputs longer than 20) *)
Section SortUnique.
  Context {A : Type}.
  Variable lt : A -> A -> bool.
  Variable P : A -> Prop.
  Hypothesis irrefl : forall x, P x -> lt x x = false.

  Lemma sorted_stable_unique l1 : forall l2,
    Forall P l1 -> Forall P l2 ->
    StronglySorted (fun a b => lt b a = false) l1 ->
    StronglySorted (fun a b => lt b a = false) l2 ->
    (forall k, P k -> filter (equiv lt k) l1 = filter (equiv lt k) l2) ->
    l1 = l2.
  Proof.
    induction l1 as [|x t1 IH]; intros l2 P1 P2 S1 S2 H.
    - destruct l2 as [|y t2]; [reflexivity|].
      inversion P2 as [|? ? Py _]; subst. specialize (H y Py). cbn in H.
      unfold equiv in H at 1. rewrite (irrefl y Py) in H. discriminate.
    - inversion P1 as [|? ? Px Pt1]; subst.
      assert (Hxx : equiv lt x x = true) by (unfold equiv; now rewrite irrefl).
      destruct l2 as [|y t2].
      { specialize (H x Px). cbn in H. rewrite Hxx in H. discriminate. }
      inversion P2 as [|? ? Py Pt2]; subst.
      assert (Hyy : equiv lt y y = true) by (unfold equiv; now rewrite irrefl).
      inversion S1 as [|? ? S1' F1]; subst. inversion S2 as [|? ? S2' F2]; subst.
      (* x occurs in y :: t2, so y is not greater than x; and symmetrically *)
      assert (Hx2 : In x (y :: t2)).
      { assert (In x (filter (equiv lt x) (y :: t2))) as HI
          by (rewrite <- (H x Px); cbn; rewrite Hxx; now left).
        apply filter_In in HI. tauto. }
      assert (Hy1 : In y (x :: t1)).
      { assert (In y (filter (equiv lt y) (x :: t1))) as HI
          by (rewrite (H y Py); cbn; rewrite Hyy; now left).
        apply filter_In in HI. tauto. }
      assert (Lxy : lt x y = false).
      { destruct Hx2 as [->|Hx2]; [now apply irrefl|]. rewrite Forall_forall in F2. now apply F2. }
      assert (Lyx : lt y x = false).
      { destruct Hy1 as [->|Hy1]; [now apply irrefl|]. rewrite Forall_forall in F1. now apply F1. }
      assert (Exy : equiv lt x y = true) by (unfold equiv; now rewrite Lxy, Lyx).
      assert (x = y) as ->.
      { specialize (H x Px). cbn in H. rewrite Hxx, Exy in H. congruence. }
      f_equal. apply IH; auto.
      intros k Pk. specialize (H k Pk). cbn in H. destruct (equiv lt k y); congruence.
  Qed.
End SortUnique.

(* ====================================================================== sort on values *)
Lemma mutually_comparable_spec l :
  mutually_comparable l = true <->
  (forall a b, In a l -> In b l -> exists o, compare a b = Some o).
Proof.
  unfold mutually_comparable. rewrite forallb_forall. split.
  - intros H a b Ha Hb. specialize (H a Ha). rewrite forallb_forall in H. specialize (H b Hb).
    destruct (compare a b) as [o|]; [now exists o|discriminate].
  - intros H a Ha. apply forallb_forall. intros b Hb. destruct (H a b Ha Hb) as [o ->]. reflexivity.
Qed.

Lemma value_less_spec a b : value_less a b = true <-> compare a b = Some Lt.
Proof.
  unfold value_less, cmp_or_eq, is_Lt. destruct (compare a b) as [[]|]; split; congruence.
Qed.

Section ValueOrder.
  Variable l : list value.
  Hypothesis Hmc : mutually_comparable l = true.
  Let P := fun x => In x l.

  Lemma vl_irrefl x : P x -> value_less x x = false.
  Proof.
    intros Hx. destruct (value_less x x) eqn:E; [|reflexivity].
    apply value_less_spec in E. assert (E' := E). apply compare_lt_gt in E'. congruence.
  Qed.

  Lemma vl_asym x y : P x -> P y -> value_less x y = true -> value_less y x = false.
  Proof.
    intros _ _ H. apply value_less_spec in H. apply compare_lt_gt in H.
    unfold value_less, cmp_or_eq. now rewrite H.
  Qed.

  Lemma vl_negtrans x y z : P x -> P y -> P z ->
    value_less x y = false -> value_less y z = false -> value_less x z = false.
  Proof.
    intros Hx Hy Hz H1 H2.
    destruct (proj1 (mutually_comparable_spec l) Hmc z y Hz Hy) as [o2 E2].
    destruct (proj1 (mutually_comparable_spec l) Hmc y x Hy Hx) as [o1 E1].
    assert (N2 : o2 <> Gt).
    { intros ->. apply compare_lt_gt in E2. apply value_less_spec in E2. congruence. }
    assert (N1 : o1 <> Gt).
    { intros ->. apply compare_lt_gt in E1. apply value_less_spec in E1. congruence. }
    assert (T := compare_trans z y x o2 o1 E2 E1 N2 N1).
    destruct (value_less x z) eqn:E; [|reflexivity].
    apply value_less_spec in E. apply compare_lt_gt in E. rewrite E in T.
    destruct o2, o1; cbn in T; congruence.
  Qed.

  (* "not less" is the documented non-strict order on comparable values *)
  Lemma vl_not_less_ulte a b : P a -> P b -> value_less b a = false -> ulte a b = true.
  Proof.
    intros Ha Hb H.
    destruct (proj1 (mutually_comparable_spec l) Hmc a b Ha Hb) as [o E].
    unfold ulte. rewrite E. destruct o; try reflexivity.
    apply compare_lt_gt in E. apply value_less_spec in E. congruence.
  Qed.

  Lemma vl_equiv_ceq k x : P k -> P x ->
    equiv value_less k x = match compare k x with Some Eq => true | _ => false end.
  Proof.
    intros Hk Hx. unfold equiv.
    destruct (proj1 (mutually_comparable_spec l) Hmc k x Hk Hx) as [o E]. rewrite E.
    destruct o.
    - assert (E' := E). apply compare_eq_sym in E'.
      unfold value_less, cmp_or_eq. now rewrite E, E'.
    - apply value_less_spec in E. now rewrite E.
    - apply compare_lt_gt in E. apply value_less_spec in E. rewrite E. now rewrite andb_false_r.
  Qed.
End ValueOrder.

Definition same_class (k x : value) : bool :=
  match compare k x with Some Eq => true | _ => false end.

(* ====================================================================== chunk / flatten *)
(* chunk's size argument after the `as usize` cast, as the model clamps it *)
Definition chunk_size (l : list value) (x : num) : nat :=
  Z.to_nat (Z.min (as_usize x) (Z.max 1 (Z.of_nat (length l)))).

Lemma chunk_ok l x : (as_usize x =? 0)%Z = false ->
  bi_chunk [VList l; VNum x] = Ok (VList (map VList (chunks l (chunk_size l x)))).
Proof. intros H. unfold bi_chunk. cbn [arg nth_error obind as_number as_list]. now rewrite H. Qed.

Lemma chunk_zero l x : (as_usize x =? 0)%Z = true -> bi_chunk [VList l; VNum x] = Err.
Proof. intros H. unfold bi_chunk. cbn [arg nth_error obind as_number as_list]. now rewrite H. Qed.

Lemma clamp_nonneg hi z : (0 <= hi)%Z -> (0 <= clamp 0 hi z)%Z.
Proof.
  intros H. unfold clamp. destruct (z <? 0)%Z eqn:E1; [lia|].
  destruct (hi <? z)%Z eqn:E2; [lia|]. apply Z.ltb_ge in E1. lia.
Qed.

Lemma as_usize_nonneg x : (0 <= as_usize x)%Z.
Proof.
  assert (HU : (0 <= U64_MAX)%Z) by (unfold U64_MAX; lia).
  unfold as_usize, cast_int.
  destruct x as [s|s| |s m e].
  - destruct (Z_of_num_trunc (S754_zero s)); [now apply clamp_nonneg|lia].
  - destruct s; [lia|exact HU].
  - lia.
  - destruct (Z_of_num_trunc (S754_finite s m e)); [now apply clamp_nonneg|lia].
Qed.

(* flatten(chunk(l, n)) == l whenever chunk succeeds (n >= 1 after the cast) *)
Lemma flatten_chunk l x c : bi_chunk [VList l; VNum x] = Ok c -> bi_flatten [c] = Ok (VList l).
Proof.
  destruct (as_usize x =? 0)%Z eqn:E.
  - rewrite chunk_zero by assumption. discriminate.
  - rewrite chunk_ok by assumption. intros H; injection H as <-.
    unfold bi_flatten. cbn [arg nth_error obind as_list]. now rewrite flatten_items_lists, chunks_concat.
Qed.

(* every chunk has exactly n elements except the last, which has between 1 and n; the chunks
   concatenate to l; n is the requested size (or the list length when the request is larger) *)
Lemma chunk_lengths l x c : bi_chunk [VList l; VNum x] = Ok c ->
  exists cs n, c = VList (map VList cs) /\ (1 <= n)%nat /\
    Z.of_nat n = Z.min (as_usize x) (Z.max 1 (Z.of_nat (length l))) /\
    chunk_shape n cs /\ List.concat cs = l.
Proof.
  destruct (as_usize x =? 0)%Z eqn:E.
  - rewrite chunk_zero by assumption. discriminate.
  - rewrite chunk_ok by assumption. intros H; injection H as <-.
    assert (Hx := as_usize_nonneg x). apply Z.eqb_neq in E.
    exists (chunks l (chunk_size l x)), (chunk_size l x).
    assert (1 <= chunk_size l x)%nat by (unfold chunk_size; lia).
    split; [reflexivity|]. split; [assumption|]. split; [unfold chunk_size; lia|].
    split; [now apply chunks_shape|apply chunks_concat].
Qed.

(* a request larger than the list gives the single chunk [l], as slice::chunks does *)
Lemma chunks_one {A} (l : list A) n : l <> [] -> (length l <= n)%nat -> chunks l n = [l].
Proof.
  intros Hne Hn. unfold chunks.
  assert (G : forall (l cur : list A) room, (length l <= room)%nat -> cur ++ l <> [] ->
             chunk_acc l n room cur = [cur ++ l]).
  { clear. induction l as [|x l IH]; intros cur room Hr Hc; cbn.
    - rewrite app_nil_r in *. destruct cur; [congruence|reflexivity].
    - destruct room as [|k]; [cbn in Hr; lia|].
      rewrite IH; [now rewrite <- app_assoc|cbn in Hr; lia|]. destruct cur; discriminate. }
  now apply (G l [] n).
Qed.
