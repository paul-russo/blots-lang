(* JsonTextEcho.v — property C06, closing "Partial (ii)": the input direction at TEXT level.
     * the text round trip of JsonTextDoc.v at the class of numbers given by library hypotheses that
       are only required on a class [okf] of doubles (Section DocG): with okf = is_finite these are
       the two hypotheses of C06_json_text_roundtrip; with okf = "finite and a valid binary64 datum"
       they are what an honest printer/parser pair can satisfy (proofs/JsonInstance.v);
     * parse-print-parse: whatever document the parser returns for ANY input text is printed to a
       text that the parser reads as the same document (no hypothesis on the document: numbers in
       range and depth <= 127 are established by the parser, proofs/JsonNumsOk.v);
     * the echo program on text: input text -> serde_json::from_str -> parse_json_inputs ->
       `output <name> = inputs.<key>` -> write_outputs -> serde_json::to_string, and the text
       written parses to {<name>: jcanon x}, a document json_equiv to the member x supplied.
   Axiom-free except through JsonNumsOk.jnum_wf_ok (u64/i64 `as f64` is finite: Flocq). *)
From Coq Require Import String Ascii List ZArith Bool Lia.
Require Import ZifyBool ZifyNat.
Require Import Blots.Num Blots.gen.Builtins Blots.Ast Blots.Value Blots.Outcome.
Require Import Blots.Json Blots.JsonText Blots.JsonWf.
Require Import Blots.proofs.ValueInd Blots.proofs.JsonMaps Blots.proofs.JsonRT Blots.proofs.JsonEcho.
Require Import Blots.proofs.StringFacts Blots.proofs.JsonTextRT Blots.proofs.JsonTextDoc Blots.proofs.JsonTextCli.
Require Import Blots.proofs.NumTextFloat Blots.proofs.JsonNumsOk.
Import ListNotations.
Open Scope Z_scope.

(* the class of numbers a text round trip is claimed for, given the class of doubles *)
Definition okn_of (okf : num -> bool) (n : jnumber) : bool :=
  match n with
  | JPosInt z => (0 <=? z) && (z <=? U64_MAX)
  | JNegInt z => (I64_MIN <=? z) && (z <? 0)
  | JFloat x => okf x
  end.
Lemma okn_of_finite : forall n, okn_of is_finite n = jnum_wf n.
Proof. now intros [ | | ]. Qed.

Section DocG.
  Variable fmt_pieces : num -> numtok.
  Variable float_of_tok : numtok -> option num.
  Variable okf : num -> bool.
  (* the two library hypotheses, asked only for doubles of the class okf *)
  Hypothesis H_print_wf : forall x, okf x = true ->
    tok_wf (fmt_pieces x) = true /\ tok_is_float (fmt_pieces x) = true.
  Hypothesis H_roundtrip : forall x, okf x = true -> float_of_tok (fmt_pieces x) = Some x.

  (* serde_json::from_str (serde_json::to_string j) = j for every document whose numbers are of
     the class and that is nested at most 127 deep *)
  Theorem json_text_roundtrip_g j :
    json_all (okn_of okf) j = true -> (jdepth j <= 127)%nat ->
    json_from_str float_of_tok (jprint fmt_pieces j) = Some j.
  Proof.
    apply (json_text_roundtrip_on fmt_pieces float_of_tok (okn_of okf)).
    - exact (tok_of_jnumber_wf fmt_pieces okf H_print_wf).
    - exact (parse_print_number fmt_pieces float_of_tok okf H_print_wf H_roundtrip).
  Qed.
End DocG.

(* ------------------------------------------------------------------ depth of the canonical form *)
Lemma jdepth_jcanon_le : forall d, (jdepth (jcanon d) <= jdepth d)%nat.
Proof.
  induction d as [| |n|s|l IH|m IH] using json_ind'; try (cbn; lia).
  - cbn [jcanon jdepth]. apply le_n_S. apply fold_max_le. apply Forall_forall. intros y Hy.
    apply in_map_iff in Hy as (x & <- & Hx). rewrite Forall_forall in IH.
    pose proof (IH x Hx). pose proof (fold_max_in jdepth l x Hx). lia.
  - rewrite jcanon_obj. cbn [jdepth]. apply le_n_S. apply fold_max_le. apply Forall_forall.
    intros [k y] Hy. apply bmap_collect_in in Hy. apply in_mapv in Hy as (x & Hx & ->). cbn [snd].
    rewrite Forall_forall in IH. pose proof (IH (k, x) Hx). pose proof (fold_max_in (fun kv => jdepth (snd kv)) m (k, x) Hx). cbn [snd] in *. lia.
Qed.
Lemma jlookup_In m k x : jlookup m k = Some x -> In (k, x) m.
Proof. rewrite jlookup_get_last. apply get_last_In. Qed.

Lemma jdepth_echo name x : (jdepth x <= 126)%nat -> (jdepth (JObj [(name, jcanon x)]) <= 127)%nat.
Proof. intros H. cbn [jdepth fold_right snd]. pose proof (jdepth_jcanon_le x). lia. Qed.
Lemma jdepth_member m key x : In (key, x) m -> (jdepth (JObj m) <= 127)%nat -> (jdepth x <= 126)%nat.
Proof. intros Hin Hd. cbn [jdepth] in Hd. pose proof (fold_max_in (fun kv => jdepth (snd kv)) m (key, x) Hin). cbn [snd] in *. lia. Qed.
Lemma okn_of_pos okf z : 0 <= z <= U64_MAX -> okn_of okf (JPosInt z) = true.
Proof. intros Hz. cbn [okn_of]. unfold U64_MAX in *. lia. Qed.
Lemma okn_of_neg okf z : I64_MIN <= z < 0 -> okn_of okf (JNegInt z) = true.
Proof. intros Hz. cbn [okn_of]. unfold I64_MIN in *. lia. Qed.

(* the canonical form has a reserved object exactly where the built Value has one: jcanon only
   rewrites numbers (and resolves duplicate keys the way sj_build does) *)
Lemma jstr_of_jcanon y : jstr_of (jcanon y) = jstr_of y.
Proof. now destruct y. Qed.
Lemma jstr_of_sj_build y : jstr_of (sj_build y) = jstr_of y.
Proof. now destruct y. Qed.
Lemma reserved_obj_collect pfs (g : json -> json) m :
  (forall y, jstr_of (g y) = jstr_of y) ->
  reserved_obj pfs jstr_of (bmap_collect (mapv g m)) = reserved_obj pfs jstr_of (bmap_collect m).
Proof.
  intros Hg. unfold reserved_obj. rewrite !rec_get_bmap_collect, get_last_mapv.
  destruct (get_last m FN_KEY) as [y|]; cbn [option_map]; [now rewrite Hg|reflexivity].
Qed.
Lemma forallb_map' {A B} (f : A -> B) (p : B -> bool) l : forallb p (map f l) = forallb (fun x => p (f x)) l.
Proof. induction l as [|a l IH]; cbn; [reflexivity|now rewrite IH]. Qed.
Lemma json_no_reserved_jcanon pfs : forall d,
  json_no_reserved pfs (jcanon d) = json_no_reserved pfs (sj_build d).
Proof.
  induction d as [| |n|s|l IH|m IH] using json_ind'; try reflexivity.
  - cbn [jcanon sj_build json_no_reserved]. rewrite !forallb_map'. apply forallb_ext_in'.
    rewrite Forall_forall in IH. exact IH.
  - rewrite jcanon_obj, sj_build_obj. cbn [json_no_reserved].
    rewrite (reserved_obj_collect pfs jcanon m jstr_of_jcanon), (reserved_obj_collect pfs sj_build m jstr_of_sj_build).
    f_equal. rewrite !bmap_collect_mapv. unfold mapv. rewrite !forallb_map'. apply forallb_ext_in'.
    intros [k x] Hx. cbn [snd]. apply bmap_collect_in in Hx. rewrite Forall_forall in IH. apply (IH (k, x) Hx).
Qed.
Lemma json_no_reserved_build_jcanon pfs d :
  json_no_reserved pfs (sj_build (jcanon d)) = json_no_reserved pfs (sj_build d).
Proof. now rewrite <- (json_no_reserved_jcanon pfs (jcanon d)), jcanon_idem, json_no_reserved_jcanon. Qed.
Lemma jlookup_single name (v : json) : jlookup [(name, v)] name = Some v.
Proof. cbn. now rewrite String.eqb_refl. Qed.

(* what to_json writes for a data value: already canonical, and without reserved object when the
   value has none *)
Lemma jstr_of_to_json_sv_of y : jstr_of (to_json (sv_of y)) = vstr_of y.
Proof. destruct y; reflexivity. Qed.
Lemma jcanon_to_json_data v : json_data v = true -> jcanon (to_json (sv_of v)) = to_json (sv_of v).
Proof.
  induction v as [x|x| |s|l IH|r IH|id ar bd sc _|bi|v _] using value_ind'; try reflexivity; try discriminate.
  - cbn. intros H. unfold jnum_of_f64. now rewrite H.
  - cbn [json_data sv_of]. rewrite to_json_list. intros H. cbn [jcanon]. f_equal.
    rewrite !map_map. apply map_ext_in. intros x Hx. rewrite Forall_forall in IH. rewrite forallb_forall in H. auto.
  - rewrite json_data_rec. intros H. apply andb_prop in H as [_ Hd].
    rewrite sv_of_rec, to_json_rec, mapv_mapv, jcanon_obj. f_equal.
    rewrite bmap_collect_mapv, bmap_collect_idem, <- bmap_collect_mapv, mapv_mapv. f_equal.
    apply mapv_ext_in. intros k x Hx. rewrite Forall_forall in IH. rewrite forallb_forall in Hd.
    apply (IH (k, x) Hx (Hd (k, x) Hx)).
Qed.
Lemma json_no_reserved_to_json pfs v :
  json_data v = true -> value_no_reserved pfs v = true -> json_no_reserved pfs (to_json (sv_of v)) = true.
Proof.
  induction v as [x|x| |s|l IH|r IH|id ar bd sc _|bi|v _] using value_ind'; try reflexivity; try discriminate.
  - cbn [json_data sv_of value_no_reserved]. rewrite to_json_list. cbn [json_no_reserved].
    rewrite !forallb_forall. intros Hd Hr y Hy. rewrite map_map in Hy.
    apply in_map_iff in Hy as (x & <- & Hx). rewrite Forall_forall in IH. auto.
  - rewrite json_data_rec. cbn [value_no_reserved]. intros Hd Hr.
    apply andb_prop in Hd as [Hnd Hd]. apply andb_prop in Hr as [Hr0 Hr].
    rewrite sv_of_rec, to_json_rec, mapv_mapv. cbn [json_no_reserved]. apply andb_true_intro. split.
    + rewrite <- Hr0. f_equal. unfold reserved_obj.
      rewrite rec_get_bmap_collect, get_last_mapv, get_last_NoDup by (now apply nodup_keys_keys).
      destruct (rec_get r FN_KEY) as [y|]; cbn [option_map]; [now rewrite jstr_of_to_json_sv_of|reflexivity].
    + apply forallb_forall. intros [k j] Hj. apply bmap_collect_in in Hj. apply in_mapv in Hj as (x & Hx & ->).
      cbn [snd]. rewrite Forall_forall in IH. rewrite forallb_forall in Hd, Hr.
      apply (IH (k, x) Hx (Hd (k, x) Hx) (Hr (k, x) Hx)).
Qed.

(* ------------------------------------------------------------------ parse-print-parse, echo on text *)
Section TextEchoProofs.
  Variable pfs : string -> option (list lamarg * string).
  Variable pbody : string -> outcome expr.
  Variable emit : expr -> list (string * svalue) -> string.
  Variable nameof : lam_id -> option string.
  Variable fmt_pieces : num -> numtok.
  Variable float_of_tok : numtok -> option num.
  Variable okf : num -> bool.
  (* the two library hypotheses of the text round trip, on the class okf of doubles *)
  Hypothesis H_print_wf : forall x, okf x = true ->
    tok_wf (fmt_pieces x) = true /\ tok_is_float (fmt_pieces x) = true.
  Hypothesis H_roundtrip : forall x, okf x = true -> float_of_tok (fmt_pieces x) = Some x.
  (* the class: finite doubles only; every double the parser returns is in it (serde_json answers
     "number out of range" instead of returning an infinity); so is every u64/i64 `as f64` *)
  Hypothesis H_okf_finite : forall x, okf x = true -> is_finite x = true.
  Hypothesis H_fot_okf : forall t x, float_of_tok t = Some x -> okf x = true.
  Hypothesis H_okf_int : forall z, I64_MIN <= z <= U64_MAX -> okf (num_of_Z z) = true.
  Notation okn := (okn_of okf).

  Lemma fot_finite_of_class : fot_finite float_of_tok.
  Proof. intros t x Hx. apply H_okf_finite. exact (H_fot_okf t x Hx). Qed.

  Lemma parsed_okn s d :
    json_from_str float_of_tok s = Some d -> json_all okn d = true /\ (jdepth d <= 127)%nat.
  Proof.
    apply (json_from_str_sound float_of_tok okn).
    - apply okn_of_pos.
    - apply okn_of_neg.
    - intros t x Hx. exact (H_fot_okf t x Hx).
  Qed.

  (* parse-print-parse: for EVERY input text the parser accepts, printing the document it returned
     gives a text the parser reads as that same document (so, a fortiori, a json_equiv one) *)
  Theorem parse_print_parse s d :
    json_from_str float_of_tok s = Some d ->
    json_from_str float_of_tok (jprint fmt_pieces d) = Some d.
  Proof.
    intros Hs. destruct (parsed_okn s d Hs) as [Hok Hd].
    exact (json_text_roundtrip_g fmt_pieces float_of_tok okf H_print_wf H_roundtrip d Hok Hd).
  Qed.
  Corollary parse_print_parse_equiv s d :
    json_from_str float_of_tok s = Some d ->
    exists d', json_from_str float_of_tok (jprint fmt_pieces d) = Some d' /\ json_equiv d d'.
  Proof. intros Hs. exists d. split; [exact (parse_print_parse s d Hs)|reflexivity]. Qed.

  Lemma okn_jcanon d : json_all okn d = true -> json_all okn (jcanon d) = true.
  Proof.
    apply json_all_jcanon. intros [z|z|x] Hn; cbn [okn_of jnum_as_f64] in *.
    - apply H_okf_int. unfold I64_MIN, U64_MAX in *. lia.
    - apply H_okf_int. unfold I64_MIN, U64_MAX in *. lia.
    - exact Hn.
  Qed.

  (* what the echo program writes for a one-member outputs object is read back as that object *)
  Lemma echo_output_reads_back name x :
    json_all okn x = true -> (jdepth x <= 126)%nat ->
    json_from_str float_of_tok (jprint fmt_pieces (JObj [(name, jcanon x)])) = Some (JObj [(name, jcanon x)]).
  Proof.
    intros Hok Hd.
    apply (json_text_roundtrip_g fmt_pieces float_of_tok okf H_print_wf H_roundtrip).
    - cbn [json_all forallb snd]. now rewrite (okn_jcanon x Hok).
    - now apply jdepth_echo.
  Qed.

  (* `blots -i '<text>' 'output <name> = inputs.<key>'` on an object document, text to text: the
     run succeeds, and the text it writes parses to {<name>: jcanon x} where x is the member of the
     input that counts for <key> (the last one written) — a document json_equiv to x *)
  Theorem cli_text_echo_object s m key name x :
    json_from_str float_of_tok s = Some (JObj m) ->
    forallb (fun kv => json_no_reserved pfs (sj_build (snd kv))) m = true ->
    jlookup m key = Some x ->
    cli_text_echo pfs pbody emit nameof fmt_pieces float_of_tok s key name
      = Ok (jprint fmt_pieces (JObj [(name, jcanon x)]))
    /\ json_from_str float_of_tok (jprint fmt_pieces (JObj [(name, jcanon x)])) = Some (JObj [(name, jcanon x)])
    /\ json_equiv (jcanon x) x.
  Proof.
    intros Hs Hr Hx. unfold cli_text_echo. rewrite Hs.
    rewrite (cli_echo_object_parsed pfs pbody emit nameof float_of_tok fot_finite_of_class s m key name x Hs Hr Hx).
    cbn [obind]. split; [reflexivity|]. split; [|apply jcanon_idem].
    destruct (parsed_okn s (JObj m) Hs) as [Hok Hd].
    pose proof (jlookup_In m key x Hx) as Hin.
    apply echo_output_reads_back.
    - rewrite json_all_obj, forallb_forall in Hok. exact (Hok (key, x) Hin).
    - exact (jdepth_member m key x Hin Hd).
  Qed.

  (* a document that is not an object is echoed through inputs.value_1; its echo is one level
     deeper than the input, so the statement needs nesting <= 126 (see cli_text_echo_depth_refuted) *)
  Theorem cli_text_echo_non_object s d name :
    json_from_str float_of_tok s = Some d -> (forall m, d <> JObj m) ->
    json_no_reserved pfs (sj_build d) = true -> (jdepth d <= 126)%nat ->
    cli_text_echo pfs pbody emit nameof fmt_pieces float_of_tok s "value_1" name
      = Ok (jprint fmt_pieces (JObj [(name, jcanon d)]))
    /\ json_from_str float_of_tok (jprint fmt_pieces (JObj [(name, jcanon d)])) = Some (JObj [(name, jcanon d)])
    /\ json_equiv (jcanon d) d.
  Proof.
    intros Hs Hno Hr Hd. unfold cli_text_echo. rewrite Hs.
    rewrite (cli_echo_non_object_parsed pfs pbody emit nameof float_of_tok fot_finite_of_class s d name Hs Hno Hr).
    cbn [obind]. split; [reflexivity|]. split; [|apply jcanon_idem].
    apply echo_output_reads_back; [|exact Hd]. exact (proj1 (parsed_okn s d Hs)).
  Qed.

  (* the output of the echo program is a FIXED POINT: fed back as the input of
     `output <name> = inputs.<name>` it is reproduced byte for byte (output -> JSON -> input
     unchanged, at the level of the bytes written) *)
  Theorem cli_text_echo_fixed_point s m key name x :
    json_from_str float_of_tok s = Some (JObj m) ->
    forallb (fun kv => json_no_reserved pfs (sj_build (snd kv))) m = true ->
    jlookup m key = Some x ->
    let out := jprint fmt_pieces (JObj [(name, jcanon x)]) in
    cli_text_echo pfs pbody emit nameof fmt_pieces float_of_tok s key name = Ok out /\
    cli_text_echo pfs pbody emit nameof fmt_pieces float_of_tok out name name = Ok out.
  Proof.
    intros Hs Hr Hx out.
    destruct (cli_text_echo_object s m key name x Hs Hr Hx) as (H1 & H2 & _). split; [exact H1|].
    destruct (cli_text_echo_object out [(name, jcanon x)] name name (jcanon x) H2) as (H3 & _).
    - cbn [forallb snd]. rewrite json_no_reserved_build_jcanon, andb_true_r.
      rewrite forallb_forall in Hr. exact (Hr (key, x) (jlookup_In m key x Hx)).
    - apply jlookup_single.
    - rewrite H3. unfold out. now rewrite jcanon_idem.
  Qed.

  (* sentence one at the level of the bytes: what a run writes for a data value under <name>, a
     second run `output <name> = inputs.<name>` reading those bytes writes again, byte for byte *)
  Theorem cli_text_out_echo_fixed_point v name :
    json_data v = true -> value_no_reserved pfs v = true ->
    json_all okn (to_json (sv_of v)) = true ->
    (jdepth (write_outputs [(name, sv_of v)]) <= 127)%nat ->
    let out := jprint fmt_pieces (write_outputs [(name, sv_of v)]) in
    cli_text_echo pfs pbody emit nameof fmt_pieces float_of_tok out name name = Ok out.
  Proof.
    intros Hd Hr Hok Hdepth out.
    assert (Hw : write_outputs [(name, sv_of v)] = JObj [(name, to_json (sv_of v))]) by reflexivity.
    assert (Hparse : json_from_str float_of_tok out = Some (JObj [(name, to_json (sv_of v))])).
    { unfold out. rewrite Hw in *.
      apply (json_text_roundtrip_g fmt_pieces float_of_tok okf H_print_wf H_roundtrip); [|exact Hdepth].
      cbn [json_all forallb snd]. now rewrite Hok. }
    destruct (cli_text_echo_object out [(name, to_json (sv_of v))] name name (to_json (sv_of v)) Hparse) as (H1 & _).
    - cbn [forallb snd]. rewrite sj_build_to_json, andb_true_r. now apply json_no_reserved_to_json.
    - apply jlookup_single.
    - rewrite H1, (jcanon_to_json_data v Hd). unfold out. now rewrite Hw.
  Qed.

  (* the first sentence of the property on text, for the class: value -> text -> second run *)
  Theorem cli_text_out_in_roundtrip_g v name :
    json_data v = true -> value_no_reserved pfs v = true ->
    json_all okn (to_json (sv_of v)) = true ->
    (jdepth (write_outputs [(name, sv_of v)]) <= 127)%nat ->
    cli_text_out_in pfs pbody emit nameof fmt_pieces float_of_tok v name = Ok (vsort v)
    /\ equals (vsort v) v = true /\ same_data (vsort v) v = true.
  Proof.
    exact (cli_text_out_in_roundtrip_on pfs pbody emit nameof fmt_pieces float_of_tok okn
             (tok_of_jnumber_wf fmt_pieces okf H_print_wf)
             (parse_print_number fmt_pieces float_of_tok okf H_print_wf H_roundtrip) v name).
  Qed.
End TextEchoProofs.

(* ------------------------------------------------------------------ the class "every finite datum" *)
(* under exactly the two library hypotheses of C06_json_text_roundtrip, plus: the reader never
   returns NaN or an infinity *)
Section FiniteClass.
  Variable pfs : string -> option (list lamarg * string).
  Variable pbody : string -> outcome expr.
  Variable emit : expr -> list (string * svalue) -> string.
  Variable nameof : lam_id -> option string.
  Variable fmt_pieces : num -> numtok.
  Variable float_of_tok : numtok -> option num.
  Hypothesis H_print_wf : forall x, is_finite x = true ->
    tok_wf (fmt_pieces x) = true /\ tok_is_float (fmt_pieces x) = true.
  Hypothesis H_roundtrip : forall x, is_finite x = true -> float_of_tok (fmt_pieces x) = Some x.
  Hypothesis H_fot : fot_finite float_of_tok.

  Lemma int_as_f64_finite z : I64_MIN <= z <= U64_MAX -> is_finite (num_of_Z z) = true.
  Proof. intros Hz. apply num_of_Z_finite. unfold I64_MIN, U64_MAX in Hz. lia. Qed.

  Theorem parse_print_parse_finite s d :
    json_from_str float_of_tok s = Some d ->
    exists d', json_from_str float_of_tok (jprint fmt_pieces d) = Some d' /\ json_equiv d d'.
  Proof.
    exact (parse_print_parse_equiv fmt_pieces float_of_tok is_finite H_print_wf H_roundtrip H_fot s d).
  Qed.

  Theorem cli_text_echo_object_finite s m key name x :
    json_from_str float_of_tok s = Some (JObj m) ->
    forallb (fun kv => json_no_reserved pfs (sj_build (snd kv))) m = true ->
    jlookup m key = Some x ->
    cli_text_echo pfs pbody emit nameof fmt_pieces float_of_tok s key name
      = Ok (jprint fmt_pieces (JObj [(name, jcanon x)]))
    /\ json_from_str float_of_tok (jprint fmt_pieces (JObj [(name, jcanon x)])) = Some (JObj [(name, jcanon x)])
    /\ json_equiv (jcanon x) x.
  Proof.
    exact (cli_text_echo_object pfs pbody emit nameof fmt_pieces float_of_tok is_finite H_print_wf H_roundtrip
             (fun x H => H) H_fot int_as_f64_finite s m key name x).
  Qed.
End FiniteClass.

(* F31 at the echo level: a bare array nested 127 deep is accepted as input, and the output of
   `output x = inputs.value_1` — one level deeper — is rejected as input *)
Lemma cli_text_echo_depth_refuted :
  let s := jprint no_tok (nest 126 (JArr [])) in
  let out := jprint no_tok (JObj [("x"%string, nest 126 (JArr []))]) in
  json_from_str sj_float_of_tok s = Some (nest 126 (JArr [])) /\
  cli_text_echo no_fn no_body no_emit no_name no_tok sj_float_of_tok s "value_1" "x" = Ok out /\
  json_from_str sj_float_of_tok out = None.
Proof. split; [|split]; vm_compute; reflexivity. Qed.
