(* Order.v — coherence of Value::equals and Value::compare (property C12). *)
From Coq Require Import String Ascii List ZArith Bool Lia Floats.SpecFloat PArith Permutation Arith.
Require Import Blots.Num Blots.gen.Builtins Blots.Ast Blots.Value Blots.proofs.ValueInd.
Import ListNotations.

(* ------------------------------------------------------------------ numbers *)
(* SFcompare is the lexicographic comparison of a (class, exponent, mantissa) key *)
Definition key (f : spec_float) : option (Z * Z * Z) :=
  match f with
  | S754_nan => None
  | S754_infinity true => Some (-2, 0, 0)%Z
  | S754_infinity false => Some (2, 0, 0)%Z
  | S754_zero _ => Some (0, 0, 0)%Z
  | S754_finite true m e => Some (-1, - e, - Zpos m)%Z
  | S754_finite false m e => Some (1, e, Zpos m)%Z
  end.
Definition lexcmp (a b : Z * Z * Z) : comparison :=
  let '(a1, a2, a3) := a in let '(b1, b2, b3) := b in
  match (a1 ?= b1)%Z with Eq => match (a2 ?= b2)%Z with Eq => (a3 ?= b3)%Z | c => c end | c => c end.

Lemma ncmp_key x y :
  ncmp x y = match key x, key y with Some a, Some b => Some (lexcmp a b) | _, _ => None end.
Proof.
  unfold ncmp.
  destruct x as [sx|sx| |sx mx ex], y as [sy|sy| |sy my ey];
    try destruct sx; try destruct sy; cbn; try reflexivity.
  rewrite Z.compare_opp, (Z.compare_antisym ex ey).
  destruct (ex ?= ey)%Z; cbn; try reflexivity.
  all: try (rewrite Pos.compare_cont_spec; now destruct (mx ?= my)%positive).
Qed.

Lemma lexcmp_refl a : lexcmp a a = Eq.
Proof. destruct a as [[a1 a2] a3]; cbn. now rewrite !Z.compare_refl. Qed.

Lemma lexcmp_antisym a b : lexcmp b a = CompOpp (lexcmp a b).
Proof.
  destruct a as [[a1 a2] a3], b as [[b1 b2] b3]; cbn.
  rewrite (Z.compare_antisym a1 b1), (Z.compare_antisym a2 b2), (Z.compare_antisym a3 b3).
  destruct (a1 ?= b1)%Z; cbn; try reflexivity.
  destruct (a2 ?= b2)%Z; cbn; reflexivity.
Qed.

Lemma lexcmp_eq a b : lexcmp a b = Eq -> a = b.
Proof.
  destruct a as [[a1 a2] a3], b as [[b1 b2] b3]; cbn.
  destruct (Z.compare_spec a1 b1); try discriminate.
  destruct (Z.compare_spec a2 b2); try discriminate.
  destruct (Z.compare_spec a3 b3); try discriminate. intros _. congruence.
Qed.

(* the ordering of a and c from those of a, b and b, c (neither Gt): Eq when both are Eq, else Lt *)
Definition comb (c1 c2 : comparison) : comparison :=
  match c1, c2 with Eq, Eq => Eq | _, _ => Lt end.

Lemma lexcmp_trans a b c :
  lexcmp a b <> Gt -> lexcmp b c <> Gt -> lexcmp a c = comb (lexcmp a b) (lexcmp b c).
Proof.
  destruct a as [[a1 a2] a3], b as [[b1 b2] b3], c as [[c1 c2] c3]; cbn.
  destruct (Z.compare_spec a1 b1), (Z.compare_spec b1 c1), (Z.compare_spec a1 c1);
    try lia; try (intros; cbn; congruence); subst;
  destruct (Z.compare_spec a2 b2), (Z.compare_spec b2 c2), (Z.compare_spec a2 c2);
    try lia; try (intros; cbn; congruence); subst;
  destruct (Z.compare_spec a3 b3), (Z.compare_spec b3 c3), (Z.compare_spec a3 c3);
    try lia; try (intros; cbn; congruence).
Qed.

Lemma neqb_ncmp x y : neqb x y = true <-> ncmp x y = Some Eq.
Proof.
  unfold neqb, ncmp, SFeqb. destruct (SFcompare x y) as [[]|]; split; congruence.
Qed.

Lemma ncmp_refl x : is_nan x = false -> ncmp x x = Some Eq.
Proof.
  intros H. rewrite ncmp_key. destruct (key x) eqn:E.
  - now rewrite lexcmp_refl.
  - destruct x as [[]|[]| |[] ? ?]; discriminate.
Qed.

Lemma ncmp_antisym x y : ncmp y x = option_map CompOpp (ncmp x y).
Proof.
  rewrite !ncmp_key. destruct (key x), (key y); cbn; try reflexivity.
  now rewrite lexcmp_antisym.
Qed.

Lemma neqb_sym x y : neqb x y = neqb y x.
Proof.
  unfold neqb, SFeqb. change SFcompare with ncmp. rewrite (ncmp_antisym x y).
  destruct (ncmp x y) as [[]|]; reflexivity.
Qed.

Lemma ncmp_trans x y z o1 o2 :
  ncmp x y = Some o1 -> ncmp y z = Some o2 -> o1 <> Gt -> o2 <> Gt ->
  ncmp x z = Some (comb o1 o2).
Proof.
  rewrite !ncmp_key. destruct (key x), (key y), (key z); try discriminate.
  intros H1 H2; injection H1 as <-; injection H2 as <-. intros. f_equal.
  now apply lexcmp_trans.
Qed.

(* ------------------------------------------------------------------ strings *)
Lemma nat_of_ascii_inj a b : nat_of_ascii a = nat_of_ascii b -> a = b.
Proof. intros H. rewrite <- (ascii_nat_embedding a), <- (ascii_nat_embedding b). now rewrite H. Qed.

Lemma string_cmp_refl s : string_cmp s s = Eq.
Proof. induction s as [|c s IH]; cbn; [reflexivity|]. now rewrite Nat.compare_refl. Qed.

Lemma string_cmp_eq a b : string_cmp a b = Eq <-> a = b.
Proof.
  revert b; induction a as [|x a IH]; intros [|y b]; cbn; try (split; congruence).
  destruct (Nat.compare_spec (nat_of_ascii x) (nat_of_ascii y)) as [E|L|G].
  - apply nat_of_ascii_inj in E; subst. rewrite IH. split; congruence.
  - split; [discriminate|]. intros H; injection H as -> _. lia.
  - split; [discriminate|]. intros H; injection H as -> _. lia.
Qed.

Lemma string_cmp_antisym a b : string_cmp b a = CompOpp (string_cmp a b).
Proof.
  revert b; induction a as [|x a IH]; intros [|y b]; cbn; try reflexivity.
  rewrite (Nat.compare_antisym (nat_of_ascii x) (nat_of_ascii y)).
  destruct (Nat.compare (nat_of_ascii x) (nat_of_ascii y)); cbn; auto.
Qed.

Lemma string_cmp_trans a b c :
  string_cmp a b <> Gt -> string_cmp b c <> Gt ->
  string_cmp a c = comb (string_cmp a b) (string_cmp b c).
Proof.
  revert b c; induction a as [|x a IH]; intros [|y b] [|z c]; cbn; try congruence; try reflexivity.
  destruct (Nat.compare_spec (nat_of_ascii x) (nat_of_ascii y)),
           (Nat.compare_spec (nat_of_ascii y) (nat_of_ascii z)),
           (Nat.compare_spec (nat_of_ascii x) (nat_of_ascii z));
    try lia; try congruence; try reflexivity; intros.
  - now apply IH.
  - destruct (string_cmp a b); cbn; congruence.
Qed.

Lemma string_eqb_cmp a b : String.eqb a b = true <-> string_cmp a b = Eq.
Proof. rewrite String.eqb_eq. symmetry. apply string_cmp_eq. Qed.

Lemma string_cmp_prefix s c r : string_cmp s (s ++ String c r) = Lt.
Proof. induction s as [|x s IH]; cbn; [reflexivity|]. now rewrite Nat.compare_refl. Qed.

(* ------------------------------------------------------------------ booleans *)
Lemma bool_cmp_trans a b c :
  bool_cmp a b <> Gt -> bool_cmp b c <> Gt -> bool_cmp a c = comb (bool_cmp a b) (bool_cmp b c).
Proof. destruct a, b, c; cbn; congruence. Qed.

(* ------------------------------------------------------------------ unfolding helpers *)
Definition eq_list := fix go (l m : list value) {struct l} : bool :=
  match l, m with
  | [], [] => true
  | x :: l', y :: m' => if equals x y then go l' m' else false
  | _, _ => false
  end.
Definition eq_rec (s : list (string * value)) := fix go (r : list (string * value)) {struct r} : bool :=
  match r with
  | [] => true
  | (k, x) :: r' =>
      match rec_get s k with
      | Some y => if equals x y then go r' else false
      | None => false
      end
  end.
Definition cmp_list := fix go (l m : list value) {struct l} : option comparison :=
  match l, m with
  | [], [] => Some Eq
  | [], _ :: _ => Some Lt
  | _ :: _, [] => Some Gt
  | x :: l', y :: m' =>
      match compare x y with
      | Some Eq => go l' m'
      | other => other
      end
  end.

Lemma equals_list l m : equals (VList l) (VList m) = eq_list l m.
Proof. reflexivity. Qed.
Lemma equals_rec r s : equals (VRec r) (VRec s) = Nat.eqb (length r) (length s) && eq_rec s r.
Proof. reflexivity. Qed.
Lemma compare_list l m : compare (VList l) (VList m) = cmp_list l m.
Proof. reflexivity. Qed.

(* ------------------------------------------------------------------ compare: antisymmetry *)
Lemma compare_antisym a : forall b, compare b a = option_map CompOpp (compare a b).
Proof.
  induction a as [x|x| |s|l IH|r _|id ar bd sc _|bi|v _] using value_ind';
    intros [y|y| |t|m|r2|id2 ar2 bd2 sc2|bi2|v2]; try reflexivity.
  - apply ncmp_antisym.
  - cbn. now destruct x, y.
  - cbn. now rewrite string_cmp_antisym.
  - rewrite !compare_list. revert m.
    induction IH as [|x l Hx _ IHl]; intros [|y m]; cbn; try reflexivity.
    rewrite (Hx y). destruct (compare x y) as [[]|]; cbn; auto.
Qed.

Corollary compare_lt_gt a b : compare a b = Some Lt <-> compare b a = Some Gt.
Proof. rewrite (compare_antisym a b). destruct (compare a b) as [[]|]; cbn; split; congruence. Qed.
Corollary compare_eq_sym a b : compare a b = Some Eq <-> compare b a = Some Eq.
Proof. rewrite (compare_antisym a b). destruct (compare a b) as [[]|]; cbn; split; congruence. Qed.
Corollary compare_none_sym a b : compare a b = None <-> compare b a = None.
Proof. rewrite (compare_antisym a b). destruct (compare a b) as [[]|]; cbn; split; congruence. Qed.

(* ------------------------------------------------------------------ compare: transitivity *)
Lemma compare_trans a : forall b c o1 o2,
  compare a b = Some o1 -> compare b c = Some o2 -> o1 <> Gt -> o2 <> Gt ->
  compare a c = Some (comb o1 o2).
Proof.
  induction a as [x|x| |s|l IH|r _|id ar bd sc _|bi|v _] using value_ind';
    intros [y|y| |t|m|r2|id2 ar2 bd2 sc2|bi2|v2]; try (cbn; discriminate);
    intros [z|z| |u|n|r3|id3 ar3 bd3 sc3|bi3|v3] o1 o2; try (cbn; discriminate).
  - apply ncmp_trans.
  - cbn. intros H1 H2; injection H1 as <-; injection H2 as <-. intros. f_equal. now apply bool_cmp_trans.
  - cbn. intros H1 H2; injection H1 as <-; injection H2 as <-. intros. f_equal. now apply string_cmp_trans.
  - rewrite !compare_list. revert m n o1 o2.
    induction IH as [|x l Hx _ IHl]; intros [|y m] [|z n] o1 o2; cbn;
      try (intros H1 H2; injection H1 as <-; injection H2 as <-; intros; cbn; congruence);
      try discriminate.
    + (* [] , y::m, z::n *)
      intros H1 _ _ _; injection H1 as <-; reflexivity.
    + (* x::l, y::m, [] *)
      intros _ H2 _ N2; injection H2 as <-; congruence.
    + (* all cons *)
      destruct (compare x y) as [c1|] eqn:E1; [|discriminate].
      destruct (compare y z) as [c2|] eqn:E2; [|destruct c1; discriminate].
      destruct c1, c2; intros H1 H2 N1 N2;
        try (injection H1 as <-); try (injection H2 as <-); try congruence.
      * rewrite (Hx y z Eq Eq E1 E2) by congruence. cbn. now apply IHl with (m := m).
      * rewrite (Hx y z Eq Lt E1 E2) by congruence. cbn. destruct o1; reflexivity.
      * rewrite (Hx y z Lt Eq E1 E2) by congruence. reflexivity.
      * rewrite (Hx y z Lt Lt E1 E2) by congruence. reflexivity.
Qed.

Corollary compare_trans_lt a b c :
  compare a b = Some Lt -> compare b c = Some Lt -> compare a c = Some Lt.
Proof. intros H1 H2. now rewrite (compare_trans a b c Lt Lt). Qed.

(* ------------------------------------------------------------------ compare vs equals *)
Lemma compare_equals a : forall b o,
  compare a b = Some o -> equals a b = match o with Eq => true | _ => false end.
Proof.
  induction a as [x|x| |s|l IH|r _|id ar bd sc _|bi|v _] using value_ind';
    intros [y|y| |t|m|r2|id2 ar2 bd2 sc2|bi2|v2] o; try (cbn; discriminate).
  - cbn. unfold neqb, SFeqb, ncmp. now intros ->.
  - cbn. intros H; injection H as <-. now destruct x, y.
  - cbn. intros H; injection H as <-. destruct (String.eqb s t) eqn:E.
    + apply string_eqb_cmp in E. now rewrite E.
    + destruct (string_cmp s t) eqn:C; [|reflexivity..]. apply string_eqb_cmp in C. congruence.
  - rewrite compare_list, equals_list. revert m o.
    induction IH as [|x l Hx _ IHl]; intros [|y m] o; cbn; try (intros H; injection H as <-; reflexivity).
    destruct (compare x y) as [c|] eqn:E; [|discriminate]. rewrite (Hx y c E).
    destruct c; [apply IHl|intros H; injection H as <-; reflexivity..].
Qed.

(* trichotomy: when the two values are comparable, exactly one of .< .== .> holds *)
Lemma trichotomy a b o :
  compare a b = Some o ->
  match o with
  | Lt => dot_lt a b = Some true /\ dot_eq a b = false /\ dot_gt a b = Some false
  | Eq => dot_lt a b = Some false /\ dot_eq a b = true /\ dot_gt a b = Some false
  | Gt => dot_lt a b = Some false /\ dot_eq a b = false /\ dot_gt a b = Some true
  end.
Proof.
  intros H. unfold dot_lt, dot_gt, dot_eq. rewrite H, (compare_equals a b o H).
  destruct o; repeat split.
Qed.

Lemma le_is_lt_or_eq a b o :
  compare a b = Some o ->
  dot_le a b = Some (match dot_lt a b with Some true => true | _ => dot_eq a b end).
Proof.
  intros H. pose proof (trichotomy a b o H) as T. unfold dot_le, dot_lt, dot_gt, dot_eq in *. rewrite H in *.
  destruct o; cbn in *; destruct T as (_ & T2 & _); rewrite ?T2; reflexivity.
Qed.

Lemma ge_is_gt_or_eq a b o :
  compare a b = Some o ->
  dot_ge a b = Some (match dot_gt a b with Some true => true | _ => dot_eq a b end).
Proof.
  intros H. pose proof (trichotomy a b o H) as T. unfold dot_ge, dot_lt, dot_gt, dot_eq in *. rewrite H in *.
  destruct o; cbn in *; destruct T as (_ & T2 & _); rewrite ?T2; reflexivity.
Qed.

Lemma ordering_fails_iff_incomparable a b :
  (dot_lt a b = None <-> compare a b = None) /\ (dot_le a b = None <-> compare a b = None) /\
  (dot_gt a b = None <-> compare a b = None) /\ (dot_ge a b = None <-> compare a b = None).
Proof.
  unfold dot_lt, dot_le, dot_gt, dot_ge, check_ordering.
  destruct (compare a b); repeat split; congruence.
Qed.

(* ------------------------------------------------------------------ cross-type *)
Lemma cross_type a b : type_of a <> type_of b -> equals a b = false /\ compare a b = None.
Proof. destruct a, b; cbn; intros H; try (now split); congruence. Qed.

Lemma unordered_types a b :
  match type_of a with TNull | TRec | TLam | TBuiltin | TSpread => True | _ => False end ->
  compare a b = None /\ compare b a = None.
Proof. destruct a, b; cbn; intros H; try (now split); contradiction. Qed.

(* ------------------------------------------------------------------ unchecked built-ins *)
Lemma unchecked_agree a b :
  ugt a b = match dot_gt a b with Some r => r | None => false end /\
  ult a b = match dot_lt a b with Some r => r | None => false end /\
  ugte a b = match dot_ge a b with Some r => r | None => false end /\
  ulte a b = match dot_le a b with Some r => r | None => false end.
Proof.
  unfold ugt, ult, ugte, ulte, dot_gt, dot_lt, dot_ge, dot_le, check_ordering.
  destruct (compare a b) as [[]|]; cbn; repeat split.
Qed.

(* ------------------------------------------------------------------ equals: equivalence on data *)
Lemma eq_rec_lookup s r :
  eq_rec s r = true -> forall k x, In (k, x) r -> exists y, rec_get s k = Some y /\ equals x y = true.
Proof.
  induction r as [|[k0 x0] r IH]; cbn; [tauto|].
  destruct (rec_get s k0) as [y0|] eqn:E; [|discriminate].
  destruct (equals x0 y0) eqn:E2; [|discriminate].
  intros H k x [Heq|HI].
  - injection Heq as <- <-. eauto.
  - eauto.
Qed.

Lemma eq_rec_intro s r :
  (forall k x, In (k, x) r -> exists y, rec_get s k = Some y /\ equals x y = true) -> eq_rec s r = true.
Proof.
  induction r as [|[k0 x0] r IH]; cbn; [reflexivity|]. intros H.
  destruct (H k0 x0 (or_introl eq_refl)) as (y & -> & ->). apply IH. intros; apply H; now right.
Qed.

Lemma keys_incl_of_eq_rec s r : eq_rec s r = true -> incl (map fst r) (map fst s).
Proof.
  intros H k Hk. apply in_map_iff in Hk as ([k' x] & <- & HI). cbn.
  destruct (eq_rec_lookup s r H k' x HI) as (y & Hy & _).
  apply rec_get_In in Hy. now apply (in_map fst) in Hy.
Qed.

Lemma equals_refl v : data v = true -> equals v v = true.
Proof.
  induction v as [x|x| |s|l IH|r IH|id ar bd sc _|bi|v _] using value_ind'; cbn; try discriminate;
    try reflexivity.
  - intros H. apply neqb_ncmp. apply ncmp_refl. now destruct (is_nan x).
  - intros _. now destruct x.
  - intros _. apply String.eqb_refl.
  - intros H. change (eq_list l l = true).
    induction IH as [|x l Hx _ IHl]; cbn in *; [reflexivity|].
    apply andb_prop in H as [H1 H2]. rewrite (Hx H1). auto.
  - intros H. apply andb_prop in H as [Hnd Hd]. rewrite Nat.eqb_refl. cbn.
    apply nodup_keys_NoDup in Hnd.
    change (eq_rec r r = true). apply eq_rec_intro. intros k x Hx. exists x.
    split; [now apply rec_get_In_NoDup|].
    rewrite Forall_forall in IH. apply (IH (k, x) Hx).
    rewrite forallb_forall in Hd. apply (Hd (k, x) Hx).
Qed.

(* the list and record arms of equals are symmetric once equals is symmetric on the members that
   satisfy P; P is [data] below and the weaker Broadcast.wf_value for the broadcasting law *)
Lemma eq_list_sym (P : value -> bool) l :
  Forall (fun x => forall y, P x = true -> P y = true -> equals x y = equals y x) l ->
  forall m, forallb P l = true -> forallb P m = true -> eq_list l m = eq_list m l.
Proof.
  induction 1 as [|x l Hx _ IHl]; intros [|y m]; cbn; try reflexivity.
  intros H1 H2. apply andb_prop in H1 as [H1a H1b]. apply andb_prop in H2 as [H2a H2b].
  rewrite (Hx y H1a H2a). destruct (equals y x); auto.
Qed.

Lemma equals_rec_sym (P : value -> bool) r r2 :
  Forall (fun kv => forall y, P (snd kv) = true -> P y = true -> equals (snd kv) y = equals y (snd kv)) r ->
  nodup_keys r = true -> nodup_keys r2 = true ->
  forallb (fun kv => P (snd kv)) r = true -> forallb (fun kv => P (snd kv)) r2 = true ->
  equals (VRec r) (VRec r2) = equals (VRec r2) (VRec r).
Proof.
  intros IH Hnd1 Hnd2 Hd1 Hd2. apply nodup_keys_NoDup in Hnd1, Hnd2.
  rewrite !equals_rec. rewrite (Nat.eqb_sym (length r2) (length r)).
  destruct (Nat.eqb_spec (length r) (length r2)) as [Hlen|]; [|reflexivity]. cbn.
  assert (Hsym : forall k x y, In (k, x) r -> In (k, y) r2 -> equals x y = equals y x).
  { intros k x y Hx Hy. rewrite Forall_forall in IH. apply (IH (k, x) Hx y).
    - rewrite forallb_forall in Hd1. apply (Hd1 (k, x) Hx).
    - rewrite forallb_forall in Hd2. apply (Hd2 (k, y) Hy). }
  (* subset + equal length + NoDup => symmetric lookup *)
  assert (Hdir : forall ra rb, NoDup (map fst ra) -> NoDup (map fst rb) -> length ra = length rb ->
             (forall k x y, In (k, x) ra -> In (k, y) rb -> equals x y = equals y x) ->
             eq_rec rb ra = true -> eq_rec ra rb = true).
  { intros ra rb Na Nb Hl Hs H. apply eq_rec_intro. intros k y Hy.
    assert (Hk : In k (map fst ra)).
    { assert (Hinc : incl (map fst rb) (map fst ra)).
      { apply NoDup_length_incl; [exact Na | rewrite !map_length; lia | now apply keys_incl_of_eq_rec]. }
      apply Hinc. now apply (in_map fst) in Hy. }
    apply in_map_iff in Hk as ([k' x] & Hk' & HI). cbn in Hk'; subst k'.
    destruct (eq_rec_lookup rb ra H k x HI) as (y' & Hy' & He).
    rewrite (rec_get_In_NoDup rb k y Nb Hy) in Hy'. injection Hy' as <-.
    exists x. split; [now apply rec_get_In_NoDup|]. now rewrite <- (Hs k x y HI Hy). }
  destruct (eq_rec r2 r) eqn:E1, (eq_rec r r2) eqn:E2; try reflexivity.
  + rewrite (Hdir r r2 Hnd1 Hnd2 Hlen Hsym E1) in E2. discriminate.
  + rewrite (Hdir r2 r Hnd2 Hnd1 (eq_sym Hlen)) in E1; [discriminate| |exact E2].
    intros k x y Hx Hy. symmetry. now apply (Hsym k y x).
Qed.

Lemma equals_sym a : forall b, data a = true -> data b = true -> equals a b = equals b a.
Proof.
  induction a as [x|x| |s|l IH|r IH|id ar bd sc _|bi|v _] using value_ind';
    intros [y|y| |t|m|r2|id2 ar2 bd2 sc2|bi2|v2]; try reflexivity; try (cbn; discriminate).
  - intros _ _. apply neqb_sym.
  - intros _ _. cbn. now destruct x, y.
  - intros _ _. cbn. apply String.eqb_sym.
  - exact (eq_list_sym data l IH m).
  - cbn [data]. intros H1 H2. apply andb_prop in H1 as [Hnd1 Hd1]. apply andb_prop in H2 as [Hnd2 Hd2].
    now apply (equals_rec_sym data).
Qed.

Lemma equals_trans a : forall b c,
  data a = true -> data b = true -> data c = true ->
  equals a b = true -> equals b c = true -> equals a c = true.
Proof.
  induction a as [x|x| |s|l IH|r IH|id ar bd sc _|bi|v _] using value_ind';
    intros [y|y| |t|m|r2|id2 ar2 bd2 sc2|bi2|v2]; try (cbn; discriminate);
    intros [z|z| |u|n|r3|id3 ar3 bd3 sc3|bi3|v3]; try (cbn; discriminate); try (cbn; congruence).
  - intros _ _ _. cbn. rewrite !neqb_ncmp. intros H1 H2.
    now rewrite (ncmp_trans x y z Eq Eq H1 H2) by congruence.
  - intros _ _ _. cbn. destruct x, y, z; cbn; congruence.
  - intros _ _ _. cbn. rewrite !String.eqb_eq. congruence.
  - cbn [data]. rewrite !equals_list. revert m n.
    induction IH as [|x l Hx _ IHl]; intros [|y m] [|z n]; cbn; try discriminate; try reflexivity.
    intros H1 H2 H3. apply andb_prop in H1 as [H1a H1b]. apply andb_prop in H2 as [H2a H2b].
    apply andb_prop in H3 as [H3a H3b].
    destruct (equals x y) eqn:E1; [|discriminate]. destruct (equals y z) eqn:E2; [|discriminate].
    rewrite (Hx y z H1a H2a H3a E1 E2). now apply IHl.
  - cbn [data]. intros H1 H2 H3. apply andb_prop in H1 as [Hnd1 Hd1].
    apply andb_prop in H2 as [Hnd2 Hd2]. apply andb_prop in H3 as [Hnd3 Hd3].
    rewrite !equals_rec. intros E1 E2. apply andb_prop in E1 as [L1 E1]. apply andb_prop in E2 as [L2 E2].
    apply Nat.eqb_eq in L1, L2. apply andb_true_intro; split; [apply Nat.eqb_eq; congruence|].
    apply eq_rec_intro. intros k x Hx.
    destruct (eq_rec_lookup r2 r E1 k x Hx) as (y & Hy & Exy).
    destruct (eq_rec_lookup r3 r2 E2 k y (rec_get_In _ _ _ Hy)) as (z & Hz & Eyz).
    exists z. split; [assumption|].
    rewrite Forall_forall in IH. apply (IH (k, x) Hx y z); auto.
    + rewrite forallb_forall in Hd1. apply (Hd1 (k, x) Hx).
    + rewrite forallb_forall in Hd2. apply (Hd2 (k, y)). now apply rec_get_In.
    + rewrite forallb_forall in Hd3. apply (Hd3 (k, z)). now apply rec_get_In.
Qed.

(* record equality ignores key order *)
Lemma equals_record_perm r1 r2 :
  data (VRec r1) = true -> Permutation r1 r2 -> equals (VRec r1) (VRec r2) = true.
Proof.
  cbn [data]. intros H HP. apply andb_prop in H as [Hnd Hd]. apply nodup_keys_NoDup in Hnd.
  rewrite equals_rec. rewrite (Permutation_length HP), Nat.eqb_refl. cbn.
  assert (Hnd2 : NoDup (map fst r2)).
  { eapply Permutation_NoDup; [apply Permutation_map; exact HP|exact Hnd]. }
  apply eq_rec_intro. intros k x Hx. exists x. split.
  - apply rec_get_In_NoDup; [assumption|]. eapply Permutation_in; eauto.
  - apply equals_refl. rewrite forallb_forall in Hd. apply (Hd (k, x) Hx).
Qed.

Lemma neq_is_negb a b : dot_ne a b = negb (dot_eq a b).
Proof. reflexivity. Qed.

(* ------------------------------------------------------------------ lexicographic order, prefix first *)
Definition self_comparable (v : value) : Prop := compare v v = Some Eq.

Lemma prefix_first l x r :
  Forall self_comparable l -> compare (VList l) (VList (l ++ x :: r)) = Some Lt.
Proof.
  rewrite compare_list. induction 1 as [|y l Hy _ IH]; cbn; [reflexivity|].
  unfold self_comparable in Hy. now rewrite Hy.
Qed.

Lemma list_lex_first_difference p q x y l m :
  Forall2 (fun a b => compare a b = Some Eq) p q -> compare x y = Some Lt ->
  compare (VList (p ++ x :: l)) (VList (q ++ y :: m)) = Some Lt.
Proof.
  rewrite compare_list. induction 1 as [|a b p q Hab _ IH]; cbn; intros Hxy.
  - now rewrite Hxy.
  - rewrite Hab. auto.
Qed.

Lemma string_prefix_first s c r : compare (VStr s) (VStr (s ++ String c r)) = Some Lt.
Proof. cbn. now rewrite string_cmp_prefix. Qed.

Lemma data_self_comparable_scalar v :
  data v = true -> match v with VNum _ | VBool _ | VStr _ => self_comparable v | _ => True end.
Proof.
  destruct v; cbn; auto; unfold self_comparable; cbn.
  - intros H. apply ncmp_refl. now destruct (is_nan x).
  - intros _. now destruct b.
  - intros _. now rewrite string_cmp_refl.
Qed.
