(* JsonNumsOk.v — property C06, closing "Partial (i)": the decidable hypothesis [json_nums_ok]
   of the input-echo theorems holds for every serde_json::Number, hence for every document the
   parser model returns.
     1. [num_of_Z_finite]: `n as f64` is finite for every n a u64 or an i64 can hold
        (-2^63 <= n < 2^64; in fact for |n| <= 2^64), by Flocq: num_of_Z is round-to-nearest-even
        of the integer (NumTextRef.rn_decimal_correct, itself on BinarySingleNaN.
        binary_round_correct), rounding is monotone, 2^64 is representable and below 2^1024.
     2. [jnum_wf] (JsonWf.v: integer ranges, Float finite) implies [jnum_ok]; it is preserved by
        sj_build and established by to_json for EVERY serialisable value (Number::from_f64 / the `0`
        fallback; both in proofs/JsonEcho.v), and established by the parser model json_from_str as
        soon as the text->double conversion never returns a non-finite value (serde_json answers
        "number out of range").
     3. the input-echo theorems restated for parsed documents, without json_nums_ok.
   Depends on the four standard-library axioms of Flocq/Reals (allow-list) through 1. only. *)
From Coq Require Import String Ascii List ZArith Bool Lia Reals Lra Floats.SpecFloat.
Require Import ZifyBool.
From Flocq Require Import Core.Core IEEE754.BinarySingleNaN.
Require Import Blots.Num Blots.gen.Builtins Blots.Ast Blots.Value Blots.Outcome Blots.NumText.
Require Import Blots.Json Blots.JsonText Blots.JsonWf.
Require Import Blots.proofs.NumText Blots.proofs.NumTextFloat Blots.proofs.NumTextRef Blots.proofs.NumTextJson.
Require Import Blots.proofs.ValueInd Blots.proofs.JsonMaps Blots.proofs.JsonRT Blots.proofs.JsonEcho.
Require Import Blots.proofs.JsonTextRT Blots.proofs.JsonTextDoc.
Import ListNotations.
Open Scope Z_scope.

Local Existing Instance Hprec.
Local Existing Instance Hmax.
Local Instance fexp64_valid' : Valid_exp fexp64 := fexp_correct 53 1024 Hprec.

(* ------------------------------------------------------------------ 1. u64 / i64 `as f64` *)
Lemma rne_bpow_64 : rne (bpow radix2 64) = bpow radix2 64.
Proof.
  unfold rne. apply round_generic; auto with typeclass_instances.
  apply generic_format_bpow. vm_compute. discriminate.
Qed.

Lemma rne_small_int : forall p, Zpos p <= 2 ^ 64 ->
  (Rabs (rne (IZR (Zpos p))) < bpow radix2 1024)%R.
Proof.
  intros p Hp.
  assert (H0 : (0 <= rne (IZR (Zpos p)))%R).
  { unfold rne. apply round_ge_generic; auto with typeclass_instances.
    - apply generic_format_0.
    - apply IZR_le. lia. }
  rewrite Rabs_pos_eq by exact H0.
  apply Rle_lt_trans with (bpow radix2 64).
  - rewrite <- rne_bpow_64. unfold rne. apply round_le; auto with typeclass_instances.
    change (bpow radix2 64) with (IZR (Z.pow_pos 2 64)). apply IZR_le. exact Hp.
  - apply bpow_lt. reflexivity.
Qed.

Lemma is_finite_SF_eq : forall x : num, is_finite x = is_finite_SF x.
Proof. now intros [ | | | ]. Qed.
Lemma is_finite_opp : forall x, is_finite (SFopp x) = is_finite x.
Proof. now intros [ | | | ]. Qed.

Lemma num_of_Z_pos_finite : forall p, Zpos p <= 2 ^ 64 -> is_finite (num_of_Z (Zpos p)) = true.
Proof.
  intros p Hp. destruct (num_of_Z_correct p) as [_ H].
  rewrite Rlt_bool_true in H by (apply rne_small_int; exact Hp).
  rewrite is_finite_SF_eq. tauto.
Qed.

(* u64 and i64 `as f64` never overflow: Number::as_f64 of an integer Number is finite *)
Theorem num_of_Z_finite : forall z, - 2 ^ 64 <= z <= 2 ^ 64 -> is_finite (num_of_Z z) = true.
Proof.
  intros [|p|p] Hz.
  - reflexivity.
  - apply num_of_Z_pos_finite. lia.
  - change (Zneg p) with (- Zpos p).
    rewrite num_of_Z_neg_rn_decimal by lia.
    rewrite (rn_decimal_sign true (Zpos p) 0) by lia.
    rewrite <- num_of_Z_rn_decimal by lia.
    change (with_sign true (num_of_Z (Zpos p))) with (SFopp (num_of_Z (Zpos p))).
    rewrite is_finite_opp. apply num_of_Z_pos_finite. lia.
Qed.
Corollary num_of_Z_finite_u64_i64 : forall z, - 2 ^ 63 <= z < 2 ^ 64 -> is_finite (num_of_Z z) = true.
Proof. intros z Hz. apply num_of_Z_finite. lia. Qed.

(* ------------------------------------------------------------------ 2. the Number invariant *)
Theorem jnum_wf_ok : forall n, jnum_wf n = true -> jnum_ok n = true.
Proof.
  intros [z|z|x]; unfold jnum_wf, jnum_ok, jnum_as_f64, U64_MAX, I64_MIN; intros H.
  - apply num_of_Z_finite. lia.
  - apply num_of_Z_finite. lia.
  - exact H.
Qed.
(* the double of every well-formed Number is a valid binary64 as soon as its Float is *)
Lemma jnum_double_as_f64 : forall n, jnum_double n = true -> is_double (jnum_as_f64 n) = true.
Proof. intros [z|z|x] H; cbn; [apply num_of_Z_valid|apply num_of_Z_valid|exact H]. Qed.

(* every number of a well-formed document has a finite double *)
Theorem json_wf_nums_ok : forall d, json_wf d = true -> json_nums_ok d = true.
Proof. intros d H. rewrite json_nums_ok_all. exact (json_all_impl _ _ jnum_wf_ok d H). Qed.

Lemma json_wf_jcanon : forall d, json_wf d = true -> json_wf (jcanon d) = true.
Proof. apply json_all_jcanon. intros n Hn. exact (jnum_wf_ok n Hn). Qed.
Lemma json_doubles_jcanon : forall d, json_doubles d = true -> json_doubles (jcanon d) = true.
Proof. apply json_all_jcanon. exact jnum_double_as_f64. Qed.

(* everything that builds a serde_json::Value on the modelled paths keeps the invariant *)
Theorem number_invariant_established :
  (forall s, json_wf (to_json s) = true) /\
  (forall outs, json_wf (write_outputs outs) = true) /\
  (forall d, json_wf d = true -> json_wf (sj_build d) = true) /\
  (forall d, json_wf d = true -> json_wf (jcanon d) = true).
Proof.
  split; [exact json_wf_to_json|]. split; [exact json_wf_write_outputs|].
  split; [exact json_wf_sj_build|exact json_wf_jcanon].
Qed.

(* ------------------------------------------------------------------ the parser model *)
(* digits read by the scanner are digits *)
Lemma span_digits_ok : forall s l r, span_digits s = (l, r) -> digits_ok l = true.
Proof.
  induction s as [|c s IH]; intros l r H; cbn [span_digits] in H.
  - now inversion H.
  - destruct (is_digit c) eqn:Ec.
    + destruct (span_digits s) as [d rest] eqn:Es. inversion H; subst.
      change (digit_ok (byte c - 48) && digits_ok d = true).
      rewrite (IH d r eq_refl). unfold JsonText.is_digit in Ec. unfold digit_ok. lia.
    + now inversion H.
Qed.
Lemma digits_val_nonneg' : forall l acc, digits_ok l = true -> 0 <= acc -> 0 <= JsonText.digits_val acc l.
Proof.
  induction l as [|d l IH]; intros acc Hl Ha; cbn [JsonText.digits_val]; [exact Ha|].
  cbn in Hl. apply andb_prop in Hl as [Hd Hl]. apply IH; [exact Hl|]. unfold digit_ok in Hd. lia.
Qed.

Section ParseSound.
  Variable float_of_tok : numtok -> option num.
  Variable p : jnumber -> bool.
  Hypothesis Hp_pos : forall z, 0 <= z <= U64_MAX -> p (JPosInt z) = true.
  Hypothesis Hp_neg : forall z, I64_MIN <= z < 0 -> p (JNegInt z) = true.
  Hypothesis Hp_float : forall t x, float_of_tok t = Some x -> p (JFloat x) = true.

  Lemma scan_number_int_digits s t rest :
    scan_number s = Some (t, rest) -> digits_ok (t_int t) = true.
  Proof.
    unfold scan_number.
    set (s1 := if byte (ch s) =? 45 then match s with String _ r => r | _ => s end else s).
    destruct (span_digits s1) as [ip r1] eqn:E. apply span_digits_ok in E. intros H.
    assert (G : t_int t = ip).
    { repeat match type of H with
             | context [match ?x with _ => _ end] => destruct x eqn:?; try discriminate H
             end; inversion H; reflexivity. }
    now rewrite G.
  Qed.

  Lemma classify_number_sound t n :
    digits_ok (t_int t) = true -> classify_number float_of_tok t = Some n -> p n = true.
  Proof.
    intros Hd. unfold classify_number.
    pose proof (digits_val_nonneg' (t_int t) 0 Hd ltac:(lia)) as Hn.
    assert (HF : option_map JFloat (float_of_tok t) = Some n -> p n = true).
    { destruct (float_of_tok t) as [x|] eqn:E; [|discriminate]. cbn. intros H; inversion H; subst.
      exact (Hp_float t x E). }
    destruct (t_frac t), (t_exp t); try exact HF.
    destruct (negb (t_neg t)).
    - destruct (JsonText.digits_val 0 (t_int t) <=? U64_MAX') eqn:E; [|exact HF].
      intros H; inversion H; subst. apply Hp_pos. unfold U64_MAX, U64_MAX' in *. lia.
    - destruct ((JsonText.digits_val 0 (t_int t) =? 0) || (2 ^ 63 <? JsonText.digits_val 0 (t_int t))) eqn:E;
        [exact HF|].
      intros H; inversion H; subst. apply Hp_neg. unfold I64_MIN. lia.
  Qed.

  Lemma parse_number_sound s n r : parse_number float_of_tok s = Some (n, r) -> p n = true.
  Proof.
    unfold parse_number. destruct (scan_number s) as [[t rest]|] eqn:E; [|discriminate].
    destruct (classify_number float_of_tok t) as [n'|] eqn:C; [|discriminate].
    intros H; inversion H; subst.
    exact (classify_number_sound t n (scan_number_int_digits s t r E) C).
  Qed.

  (* the two inner loops (named in JsonTextDoc.v) only assemble what the element parser returns *)
  Lemma elems_of_sound (pv : string -> option (json * string)) (P : json -> Prop) :
    (forall s x r, pv s = Some (x, r) -> P x) ->
    forall k s j r, elems_of pv k s = Some (j, r) -> exists xs, j = JArr xs /\ Forall P xs.
  Proof.
    intros Hpv. induction k as [|k IH]; intros s j r H; [discriminate|]. cbn [elems_of] in H.
    destruct (pv s) as [[x r1]|] eqn:E; [|discriminate]. apply Hpv in E. cbv zeta in H.
    destruct (byte (ch (skip_ws r1)) =? 44).
    - destruct (elems_of pv k (drop 1 (skip_ws r1))) as [[j' r2]|] eqn:E2; [|discriminate].
      destruct (IH _ _ _ E2) as (xs & -> & Hxs). inversion H; subst. exists (x :: xs). split; [reflexivity|].
      now constructor.
    - destruct (byte (ch (skip_ws r1)) =? 93); [|discriminate]. inversion H; subst.
      exists [x]. split; [reflexivity|]. now constructor.
  Qed.
  Lemma members_of_sound (pv : string -> option (json * string)) (P : json -> Prop) :
    (forall s x r, pv s = Some (x, r) -> P x) ->
    forall k s j r, members_of pv k s = Some (j, r) ->
      exists m, j = JObj m /\ Forall (fun kv => P (snd kv)) m.
  Proof.
    intros Hpv. induction k as [|k IH]; intros s j r H; [discriminate|]. cbn [members_of] in H.
    cbv zeta in H.
    destruct (byte (ch (skip_ws s)) =? 34); [|discriminate].
    destruct (parse_str (drop 1 (skip_ws s))) as [[key r1]|]; [|discriminate].
    destruct (byte (ch (skip_ws r1)) =? 58); [|discriminate].
    destruct (pv (drop 1 (skip_ws r1))) as [[x r2]|] eqn:E; [|discriminate]. apply Hpv in E.
    destruct (byte (ch (skip_ws r2)) =? 44).
    - destruct (members_of pv k (drop 1 (skip_ws r2))) as [[j' r3]|] eqn:E2; [|discriminate].
      destruct (IH _ _ _ E2) as (xs & -> & Hxs). inversion H; subst. exists ((key, x) :: xs).
      split; [reflexivity|]. now constructor.
    - destruct (byte (ch (skip_ws r2)) =? 125); [|discriminate]. inversion H; subst.
      exists [(key, x)]. split; [reflexivity|]. now constructor.
  Qed.

  (* whatever parse_value returns carries only numbers satisfying p, and is nested at most
     remaining_depth - 1 deep *)
  Lemma parse_value_sound : forall fuel rd s j r,
    parse_value float_of_tok fuel rd s = Some (j, r) ->
    json_all p j = true /\ (jdepth j <= Nat.pred rd)%nat.
  Proof.
    induction fuel as [|f IH]; intros rd s j r H; [discriminate|].
    cbn [parse_value] in H. destruct (skip_ws s) as [|c t] eqn:Es; [discriminate|]. cbv zeta in H.
    destruct (byte c =? 110).
    { destruct (lit "null" (String c t)); inversion H; subst. split; [reflexivity|cbn; lia]. }
    destruct (byte c =? 116).
    { destruct (lit "true" (String c t)); inversion H; subst. split; [reflexivity|cbn; lia]. }
    destruct (byte c =? 102).
    { destruct (lit "false" (String c t)); inversion H; subst. split; [reflexivity|cbn; lia]. }
    destruct (byte c =? 34).
    { destruct (parse_str t) as [[x r']|]; inversion H; subst. split; [reflexivity|cbn; lia]. }
    destruct (byte c =? 91).
    { destruct rd as [|[|rd']]; try discriminate.
      destruct (byte (ch (skip_ws t)) =? 93).
      - inversion H; subst. split; [reflexivity|cbn; lia].
      - apply (elems_of_sound (parse_value float_of_tok f (S rd'))
                 (fun x => json_all p x = true /\ (jdepth x <= rd')%nat)) in H.
        + destruct H as (xs & -> & Hxs). split.
          * rewrite json_all_arr. apply forallb_forall. rewrite Forall_forall in Hxs. intros x Hx.
            apply (Hxs x Hx).
          * cbn [jdepth Nat.pred]. apply le_n_S. apply fold_max_le.
            eapply Forall_impl; [|exact Hxs]. cbn. tauto.
        + intros s0 x r0 Hx. exact (IH _ _ _ _ Hx). }
    destruct (byte c =? 123).
    { destruct rd as [|[|rd']]; try discriminate.
      destruct (byte (ch (skip_ws t)) =? 125).
      - inversion H; subst. split; [reflexivity|cbn; lia].
      - apply (members_of_sound (parse_value float_of_tok f (S rd'))
                 (fun x => json_all p x = true /\ (jdepth x <= rd')%nat)) in H.
        + destruct H as (xs & -> & Hxs). split.
          * rewrite json_all_obj. apply forallb_forall. rewrite Forall_forall in Hxs. intros x Hx.
            apply (Hxs x Hx).
          * cbn [jdepth Nat.pred]. apply le_n_S. apply fold_max_le.
            eapply Forall_impl; [|exact Hxs]. cbn. tauto.
        + intros s0 x r0 Hx. exact (IH _ _ _ _ Hx). }
    destruct ((byte c =? 45) || JsonText.is_digit c); [|discriminate].
    destruct (parse_number float_of_tok (String c t)) as [[x r']|] eqn:E; [|discriminate].
    inversion H; subst. split; [exact (parse_number_sound _ _ _ E)|cbn; lia].
  Qed.

  Theorem json_from_str_sound : forall s d,
    json_from_str float_of_tok s = Some d -> json_all p d = true /\ (jdepth d <= 127)%nat.
  Proof.
    intros s d. unfold json_from_str.
    destruct (parse_value float_of_tok (S (String.length s)) 128 s) as [[j rest]|] eqn:E; [|discriminate].
    destruct (skip_ws rest); [|discriminate]. intros H; inversion H; subst.
    exact (parse_value_sound _ _ _ _ _ E).
  Qed.
End ParseSound.

(* the only thing asked of the text->double conversion: it never returns NaN or an infinity
   (serde_json: "number out of range") *)
Definition fot_finite (float_of_tok : numtok -> option num) : Prop :=
  forall t x, float_of_tok t = Some x -> is_finite x = true.
(* ... and what it returns is a binary64 datum *)
Definition fot_doubles (float_of_tok : numtok -> option num) : Prop :=
  forall t x, float_of_tok t = Some x -> is_double x = true.

(* every document the parser model returns consists of well-formed Numbers, and is nested at most
   127 deep *)
Theorem json_from_str_wf : forall fot s d,
  fot_finite fot -> json_from_str fot s = Some d -> json_wf d = true /\ (jdepth d <= 127)%nat.
Proof.
  intros fot s d Hf. apply (json_from_str_sound fot jnum_wf).
  - intros z Hz. unfold jnum_wf, U64_MAX in *. lia.
  - intros z Hz. unfold jnum_wf, I64_MIN in *. lia.
  - intros t x Hx. exact (Hf t x Hx).
Qed.
Theorem json_from_str_doubles : forall fot s d,
  fot_doubles fot -> json_from_str fot s = Some d -> json_doubles d = true.
Proof.
  intros fot s d Hf H. apply (json_from_str_sound fot jnum_double) in H; [tauto|reflexivity|reflexivity|].
  intros t x Hx. exact (Hf t x Hx).
Qed.
(* the statement asked for: the decidable hypothesis of the echo theorems holds for every
   document the parser model returns *)
Theorem json_from_str_nums_ok : forall fot s d,
  fot_finite fot -> json_from_str fot s = Some d -> json_nums_ok d = true.
Proof. intros fot s d Hf H. apply json_wf_nums_ok. exact (proj1 (json_from_str_wf fot s d Hf H)). Qed.

(* ------------------------------------------------------------------ 3. the echo theorems, restated *)
Section EchoParsed.
  Variable pfs : string -> option (list lamarg * string).
  Variable pbody : string -> outcome expr.
  Variable emit : expr -> list (string * svalue) -> string.
  Variable nameof : lam_id -> option string.
  Variable fot : numtok -> option num.
  Hypothesis H_fot : fot_finite fot.

  (* input_echo for well-formed documents (the invariant of serde_json::Value) *)
  Theorem input_echo_wf d :
    json_wf d = true -> json_no_reserved pfs (sj_build d) = true ->
    (do v <- to_value pbody (from_json pfs (sj_build d)); do s <- from_value emit nameof v; Ok (to_json s))
    = Ok (jcanon d)
    /\ json_equiv (jcanon d) d.
  Proof. intros Hw. apply input_echo. now apply json_wf_nums_ok. Qed.

  (* input_echo for whatever the parser returned for an input text: no hypothesis on numbers *)
  Theorem input_echo_parsed s d :
    json_from_str fot s = Some d -> json_no_reserved pfs (sj_build d) = true ->
    (do v <- to_value pbody (from_json pfs (sj_build d)); do s <- from_value emit nameof v; Ok (to_json s))
    = Ok (jcanon d)
    /\ json_equiv (jcanon d) d.
  Proof. intros Hs. apply input_echo. exact (json_from_str_nums_ok fot s d H_fot Hs). Qed.

  Theorem cli_echo_object_parsed s m key name x :
    json_from_str fot s = Some (JObj m) ->
    forallb (fun kv => json_no_reserved pfs (sj_build (snd kv))) m = true ->
    jlookup m key = Some x ->
    cli_echo pfs pbody emit nameof (JObj m) key name = Ok (JObj [(name, jcanon x)]).
  Proof. intros Hs. apply cli_echo_object. exact (json_from_str_nums_ok fot s _ H_fot Hs). Qed.

  Theorem cli_echo_non_object_parsed s d name :
    json_from_str fot s = Some d -> (forall m, d <> JObj m) ->
    json_no_reserved pfs (sj_build d) = true ->
    cli_echo pfs pbody emit nameof d "value_1" name = Ok (JObj [(name, jcanon d)]).
  Proof.
    intros Hs Hno. apply cli_echo_non_object; [exact Hno|]. exact (json_from_str_nums_ok fot s d H_fot Hs).
  Qed.
End EchoParsed.
