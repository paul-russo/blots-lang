(* proofs/PegCommentsCompose.v — (b) the parser half composed with the formatter half of C09: from the pair tree
   to the emitted text; (c) F20 at the grammar level. *)
From Coq Require Import String Ascii List NArith ZArith Bool Arith Lia.
Require Import Blots.Num Blots.gen.Builtins Blots.Ast Blots.Outcome Blots.Formatter
               Blots.proofs.Scan Blots.proofs.ScanFmt Blots.proofs.DriverText.
Require Import Blots.Peg Blots.gen.Grammar Blots.PegToItems Blots.PegComments Blots.proofs.PegComments.
Import ListNotations.
Local Open Scope string_scope.
Local Open Scope list_scope.

(* ------------------------------------------------------------------ (b) token tree -> output text *)
Theorem tree_to_text_lib :
  forall O key_ok, (forall k, key_ok k = true -> neutral (o_record_key O k)) ->
  forall text forest p mw d,
  forest_view_ok text forest = true ->
  forest_shape_ok text forest = true ->
  forest_no_empty_container text forest = true ->
  program_of_forest text forest = Outcome.Ok (Some p) ->
  Forall (stmt_ok O key_ok mw) p ->
  format_lib O mw p = Some d ->
  scan_comments (render d) = forest_comments text forest.
Proof.
  intros O key_ok Hk text forest p mw d Hv Hs Hn Hp Hok Hd.
  rewrite (lib_driver_text_comments O key_ok Hk mw p d Hok Hd).
  apply parse_keeps_comments; assumption.
Qed.

Theorem tree_to_text_cli :
  forall O key_ok, (forall k, key_ok k = true -> neutral (o_record_key O k)) ->
  forall text forest p,
  forest_view_ok text forest = true ->
  forest_shape_ok text forest = true ->
  forest_no_empty_container text forest = true ->
  program_of_forest text forest = Outcome.Ok (Some p) ->
  Forall (stmt_ok O key_ok None) p ->
  scan_comments (render (format_cli O p)) = forest_comments text forest.
Proof.
  intros O key_ok Hk text forest p Hv Hs Hn Hp Hok.
  rewrite (cli_driver_text_comments O key_ok Hk p Hok).
  apply parse_keeps_comments; assumption.
Qed.

(* ------------------------------------------------------------------ (c) F20 at the grammar level
   The rules that can read a "//" run: `comment`, `eol_comment` (atomic, NOT silent: they produce a pair whenever the
   calling context emits) and `inline_comment` (silent), which is only referenced by NEWLINE (silent), whose other
   part `plain_newline` is silent too.  On the regenerated grammar, by computation: *)
Fixpoint expr_idents (e : expr grule) : list grule :=
  match e with
  | Ident r => [r]
  | PosPred x | NegPred x | Opt x | Rep x | Push x | RestoreOnErr x => expr_idents x
  | Seq a b | Choice a b => expr_idents a ++ expr_idents b
  | _ => []
  end.
Definition grule_eqb (a b : grule) : bool := N.eqb (grule_index a) (grule_index b).
Definition mentions (r : grule) (e : expr grule) : bool := existsb (grule_eqb r) (expr_idents e).
Definition is_silent (r : grule) : bool :=
  match rd_mod (grule_def r) with MSilent => true | _ => false end.

(* NEWLINE, inline_comment and plain_newline are silent, and they call nothing but each other: no rule reachable
   from NEWLINE can produce a pair *)
Definition newline_closure : list grule := [PG_NEWLINE; PG_inline_comment; PG_plain_newline].
Lemma newline_rules_silent_and_closed :
  forallb (fun r => is_silent r &&
                    forallb (fun x => existsb (grule_eqb x) newline_closure) (expr_idents (rd_body (grule_def r))))
          newline_closure = true.
Proof. vm_compute. reflexivity. Qed.

(* inline_comment is referenced by NEWLINE only; a "//" run becomes a pair only through `comment` / `eol_comment` *)
Lemma inline_comment_only_in_NEWLINE :
  filter (fun r => mentions PG_inline_comment (rd_body (grule_def r))) all_grules = [PG_NEWLINE].
Proof. vm_compute. reflexivity. Qed.

(* the general statement: an expression that can only reach silent rules leaves the produced pairs unchanged.
   Proved in PegQuiet.v (quiet_rules_emit_no_pairs_blots, from the theorem for every grammar). *)
Definition quiet_rules_emit_no_pairs_full : Prop :=
  forall (Q : grule -> bool),
    (forall r, Q r = true -> is_silent r = true /\ forallb Q (expr_idents (rd_body (grule_def r))) = true) ->
    (forall w, g_ws blots_grammar = Some w -> Q w = true) ->
    (forall w, g_comment blots_grammar = Some w -> Q w = true) ->
    forall fuel m a la e s s',
      forallb Q (expr_idents e) = true ->
      (run blots_grammar fuel m a la e s = Peg.Ok s' \/ run blots_grammar fuel m a la e s = Peg.Fail s') ->
      out s' = out s.

(* a 6-byte witness through the interpreter: "(//<LF>1)" parses, the text contains the comment "//", the pair tree
   contains no comment pair (so the AST cannot carry it: F20) *)
Definition f20_witness : string := "(//" +++ nl +++ "1)".
Lemma f20_witness_swallowed :
  scan_comments f20_witness = ["//"]
  /\ exists forest p, parse_program_c f20_witness = PCOk forest p
                      /\ forest_comments f20_witness forest = []
                      /\ program_comments p = [].
Proof.
  split; [vm_compute; reflexivity|]. apply parse_program_c_witness. vm_compute. split; reflexivity.
Qed.
(* the same "//" after an item of a list IS a pair (eol_comment): "[1//<LF>]" *)
Lemma f20_contrast_kept :
  exists forest p, parse_program_c ("[1//" +++ nl +++ "]") = PCOk forest p
                   /\ forest_comments ("[1//" +++ nl +++ "]") forest = ["//"]
                   /\ program_comments p = ["//"].
Proof. apply parse_program_c_witness. vm_compute. split; reflexivity. Qed.
