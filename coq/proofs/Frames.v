(* Frames.v — the frame discipline of the evaluator (C03, C04):
   evaluating ANY expression, at any depth, with any operator / built-in implementation,
   successfully or not, changes the scope chain only by adding fresh, permitted names to the
   innermost frame; do-blocks and calls give the chain back exactly. *)
From Coq Require Import String Ascii List ZArith Bool Lia.
Require Import Blots.Num Blots.gen.Builtins Blots.Ast Blots.Value Blots.Outcome Blots.Binop
               Blots.Env Blots.Eval Blots.proofs.ExprInd.
Import ListNotations.
Open Scope string_scope.
Open Scope list_scope.

(* names the top-level / nested Assignment arm accepts (expressions.rs:359-395) *)
Definition assignable (fr : frames) (x : string) : Prop :=
  is_builtin_name x = false /\ mem x assign_keywords = false /\ contains fr x = false.

(* fr' is fr with zero or more assignable names pushed onto the innermost frame *)
Inductive ext : frames -> frames -> Prop :=
| ext_refl : forall fr, ext fr fr
| ext_step : forall fr x v fr1 fr2,
    assignable fr x -> insert_head fr x v = Some fr1 -> ext fr1 fr2 -> ext fr fr2.

Lemma ext_trans : forall a b c, ext a b -> ext b c -> ext a c.
Proof.
  intros a b c Hab; revert c; induction Hab as [|fr x v fr1 fr2 Ha Hi _ IH]; intros c Hbc; auto.
  eapply ext_step; eauto.
Qed.

Lemma insert_head_shape : forall fr x v fr1,
  insert_head fr x v = Some fr1 ->
  exists f rest, fr = (FOwned, f) :: rest /\ fr1 = (FOwned, (x, v) :: f) :: rest.
Proof.
  intros fr x v fr1 H. destruct fr as [|[k f] rest]; [discriminate|].
  destruct k; [|discriminate]. inversion H; subst. eauto.
Qed.

(* the tail of the chain never changes *)
Lemma ext_tail : forall fr fr', ext fr fr' -> tl fr' = tl fr.
Proof.
  induction 1 as [|fr x v fr1 fr2 _ Hi _ IH]; auto.
  destruct (insert_head_shape _ _ _ _ Hi) as (f & rest & -> & ->). exact IH.
Qed.

Lemma lookup_insert_other : forall fr x v fr1 y,
  insert_head fr x v = Some fr1 -> String.eqb y x = false -> lookup fr1 y = lookup fr y.
Proof.
  intros fr x v fr1 y Hi Hne.
  destruct (insert_head_shape _ _ _ _ Hi) as (f & rest & -> & ->).
  cbn [lookup lookup_frame]. rewrite Hne. reflexivity.
Qed.

(* IMMUTABILITY: a name bound before is bound to the same value after *)
Lemma ext_lookup : forall fr fr', ext fr fr' ->
  forall y w, lookup fr y = Some w -> lookup fr' y = Some w.
Proof.
  induction 1 as [|fr x v fr1 fr2 Ha Hi _ IH]; intros y w Hy; auto.
  apply IH. rewrite (lookup_insert_other _ _ _ _ y Hi); auto.
  destruct (String.eqb y x) eqn:E; auto.
  apply String.eqb_eq in E; subst y.
  destruct Ha as (_ & _ & Hc). unfold contains in Hc. rewrite Hy in Hc. discriminate.
Qed.

(* names that can never appear: built-in names and the assignment keywords *)
Definition forbidden (x : string) : bool := is_builtin_name x || mem x assign_keywords.

Lemma ext_new_names : forall fr fr', ext fr fr' ->
  forall y, lookup fr y = None -> lookup fr' y <> None -> forbidden y = false.
Proof.
  induction 1 as [|fr x v fr1 fr2 Ha Hi _ IH]; intros y Hn Hs; [congruence|].
  destruct (String.eqb y x) eqn:E.
  - apply String.eqb_eq in E; subst y. destruct Ha as (Hb & Hk & _).
    unfold forbidden. rewrite Hb, Hk. reflexivity.
  - apply IH; auto. rewrite (lookup_insert_other _ _ _ _ y Hi); auto.
Qed.

(* a list literal evaluates its items as a call evaluates its arguments: comments play no part *)
Lemma evalCL_evalL : forall ev c (l : list (commented expr)), evalCL ev c l = evalL ev c (map cnode l).
Proof.
  intros ev c l; revert c. induction l as [|[ld x tr] l IH]; intros c; cbn [evalCL evalL map cnode]; [reflexivity|].
  destruct (ev c x) as [[v| | | |] c1]; try reflexivity. rewrite IH. reflexivity.
Qed.

Section WithImpl.
  Variable release : bool.
  Variable binop_impl : callback -> binop -> value -> value -> store -> outcome value * store.
  Variable apply : frames -> callback.

  Notation evalE := (evalE release binop_impl apply).

  Definition frames_ok (ev : cfg -> expr -> result) (e : expr) : Prop :=
    forall c r c', ev c e = (r, c') -> ext (snd c) (snd c').

  Lemma evalL_ext : forall ev l,
    Forall (frames_ok ev) l ->
    forall c r c', evalL ev c l = (r, c') -> ext (snd c) (snd c').
  Proof.
    intros ev l HF; induction HF as [|x l Hx _ IH]; intros c r c' H; cbn [evalL] in H.
    - inversion H; subst; constructor.
    - destruct (ev c x) as [o c1] eqn:E1. apply Hx in E1.
      destruct o; try (inversion H; subst; exact E1).
      destruct (evalL ev c1 l) as [o2 c2] eqn:E2. apply IH in E2.
      assert (ext (snd c) (snd c2)) by (eapply ext_trans; eauto).
      destruct o2; inversion H; subst; assumption.
  Qed.

  Lemma evalRecL_ext : forall ev (l : list (commented rentry)),
    Forall (fun cm => Pentry (frames_ok ev) (cnode cm)) l ->
    forall c acc r c', evalRecL ev c acc l = (r, c') -> ext (snd c) (snd c').
  Proof.
    intros ev l HF; induction HF as [|[ld [k v] tr] l Hx _ IH]; intros c acc r c' H;
      cbn [evalRecL] in H.
    - inversion H; subst; constructor.
    - cbn [cnode Pentry] in Hx. destruct Hx as [Hk Hv].
      destruct k as [key|ke|x|se]; cbn [Pkey] in Hk.
      + destruct (ev c v) as [o c1] eqn:E1. apply Hv in E1.
        destruct o; try (inversion H; subst; exact E1).
        apply IH in H. eapply ext_trans; eauto.
      + destruct (ev c ke) as [o c1] eqn:E1. apply Hk in E1.
        destruct o; try (inversion H; subst; exact E1).
        destruct (as_string a); try (inversion H; subst; exact E1).
        destruct (ev c1 v) as [o2 c2] eqn:E2. apply Hv in E2.
        assert (ext (snd c) (snd c2)) by (eapply ext_trans; eauto).
        destruct o2; try (inversion H; subst; assumption).
        apply IH in H. eapply ext_trans; eauto.
      + destruct (lookup (snd c) x).
        * apply IH in H. exact H.
        * inversion H; subst; constructor.
      + destruct (ev c se) as [o c1] eqn:E1. apply Hk in E1.
        destruct o; try (inversion H; subst; exact E1).
        apply IH in H. eapply ext_trans; eauto.
  Qed.

  Lemma assign_checked_ext : forall ev x ve c r c',
    frames_ok ev ve ->
    is_builtin_name x = false -> mem x assign_keywords = false ->
    assign_checked ev c x ve = (r, c') -> ext (snd c) (snd c').
  Proof.
    intros ev x ve c r c' Hve Hb Hk H. unfold assign_checked in H.
    destruct (ev c ve) as [o c1] eqn:E1. apply Hve in E1.
    destruct o; try (inversion H; subst; exact E1).
    destruct (contains (snd c1) x) eqn:Hc; [inversion H; subst; exact E1|].
    unfold bind_value in H.
    destruct (insert_head (snd c1) x a) as [fr2|] eqn:Ei; inversion H; subst; cbn [snd].
    - eapply ext_trans; [exact E1|].
      eapply ext_step; [|exact Ei|constructor]. repeat split; assumption.
    - exact E1.
  Qed.

  (* MAIN LEMMA: whatever happens, the chain is only extended by assignable names *)
  Theorem evalE_ext : forall e c r c', evalE c e = (r, c') -> ext (snd c) (snd c').
  Proof.
    intros e. change (frames_ok evalE e).
    induction e using expr_ind'; intros c r c' HE; cbn [Eval.evalE] in HE.
    - (* ENum *) inversion HE; subst; constructor.
    - (* EStr *) inversion HE; subst; constructor.
    - (* EBool *) inversion HE; subst; constructor.
    - (* ENull *) inversion HE; subst; constructor.
    - (* EId *)
      destruct (_ || _); [inversion HE; subst; constructor|].
      destruct (String.eqb x "constants"); inversion HE; subst; constructor.
    - (* EInRef *) inversion HE; subst; constructor.
    - (* EBuiltin *) inversion HE; subst; constructor.
    - (* EList *)
      rewrite evalCL_evalL in HE. destruct (evalL evalE c (map cnode items)) as [o c1] eqn:E1.
      eapply evalL_ext in E1; [|apply Forall_map; eassumption]. cbn [fst snd] in HE. inversion HE; subst. exact E1.
    - (* ERec *)
      eapply evalRecL_ext in HE; eauto.
    - (* ELam *)
      destruct (fresh_lambda _ _ _ _) as [v st']. inversion HE; subst. constructor.
    - (* ECond *)
      destruct (evalE c e1) as [o c1] eqn:E1. apply IHe1 in E1.
      destruct o; try (inversion HE; subst; exact E1).
      destruct (as_bool a) as [[|]| | | |]; try (inversion HE; subst; exact E1).
      + apply IHe2 in HE. eapply ext_trans; eauto.
      + apply IHe3 in HE. eapply ext_trans; eauto.
    - (* EDo: the caller's chain is returned as it was *)
      destruct ret as [ld rt tr]. inversion HE; subst. cbn [snd]. constructor.
    - (* EAssign *)
      destruct (is_builtin_name x) eqn:Hb; [inversion HE; subst; constructor|].
      destruct (mem x assign_keywords) eqn:Hk; [inversion HE; subst; constructor|].
      destruct (contains (snd c) x); [inversion HE; subst; constructor|].
      eapply assign_checked_ext in HE; eauto.
    - (* EOutput *) apply IHe in HE. exact HE.
    - (* ECall *)
      destruct (evalE c e) as [o c1] eqn:E1. apply IHe in E1.
      destruct o; try (inversion HE; subst; exact E1).
      destruct (evalL evalE c1 args) as [o2 [st2 fr2]] eqn:E2.
      eapply evalL_ext in E2; [|eassumption]. cbn [snd] in E2.
      assert (Hx : ext (snd c) fr2) by (eapply ext_trans; eauto).
      destruct o2; try (inversion HE; subst; exact Hx).
      destruct (negb (is_function a)); [inversion HE; subst; exact Hx|].
      destruct (apply fr2 a a (flatten_spreads a0) st2) as [rr st3].
      inversion HE; subst; exact Hx.
    - (* EAccess *)
      destruct (evalE c e1) as [o c1] eqn:E1. apply IHe1 in E1.
      destruct o; try (inversion HE; subst; exact E1).
      destruct (evalE c1 e2) as [o2 c2] eqn:E2. apply IHe2 in E2.
      assert (Hx : ext (snd c) (snd c2)) by (eapply ext_trans; eauto).
      destruct o2; inversion HE; subst; exact Hx.
    - (* EDot *)
      destruct (evalE c e) as [o c1] eqn:E1. apply IHe in E1.
      destruct o; inversion HE; subst; exact E1.
    - (* EBin *)
      destruct (evalE c e1) as [o c1] eqn:E1. apply IHe1 in E1.
      destruct o; try (inversion HE; subst; exact E1).
      destruct (evalE c1 e2) as [o2 [st2 fr2]] eqn:E2. apply IHe2 in E2. cbn [snd] in E2.
      assert (Hx : ext (snd c) fr2) by (eapply ext_trans; eauto).
      destruct o2; try (inversion HE; subst; exact Hx).
      destruct (binop_impl (apply fr2) op a a0 st2) as [res st3].
      inversion HE; subst; exact Hx.
    - (* EUn *)
      destruct (evalE c e) as [o c1] eqn:E1. apply IHe in E1.
      destruct o; inversion HE; subst; exact E1.
    - (* EFact *)
      destruct (evalE c e) as [o c1] eqn:E1. apply IHe in E1.
      destruct o; inversion HE; subst; exact E1.
    - (* ESpread *)
      destruct (evalE c e) as [o c1] eqn:E1. apply IHe in E1.
      destruct o; inversion HE; subst; exact E1.
  Qed.
End WithImpl.
