(* Relined.v — the via/into/where arm of format_binary_op_multiline re-assembles its right operand
   from split('\n') (not from lines(), which would drop a "\r" before "\n": finding F55): the identity. *)
From Coq Require Import String Ascii List Bool.
Require Import Blots.Formatter Blots.proofs.Idempotent.
Import ListNotations.

Lemma contains_nl_split : forall s, contains_nl s = true -> exists x y t, split_nl s = x :: y :: t.
Proof.
  induction s as [|c r IH]; cbn [contains_nl split_nl]; intro H; [discriminate|].
  destruct (Ascii.eqb c NLc) eqn:E.
  - destruct (split_nl r) as [|y t] eqn:Er; [exfalso; exact (split_nl_nonempty r Er)|].
    exists ""%string, y, t. reflexivity.
  - cbn [orb] in H. destruct (IH H) as [x [y [t Ht]]]. rewrite Ht.
    exists (String c x), y, t. reflexivity.
Qed.

Lemma relined_identity : forall s, contains_nl s = true -> relined s = s.
Proof.
  intros s H. destruct (contains_nl_split s H) as [x [y [t Hs]]].
  unfold relined, first_split. rewrite Hs. cbn [tl].
  transitivity (sjoin nl (split_nl s)); [|apply sjoin_split_nl].
  rewrite Hs. reflexivity.
Qed.
