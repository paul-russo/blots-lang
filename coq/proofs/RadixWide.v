(* proofs/RadixWide.v — C16 / F25 repair (fixes/C16-radix-literal-range.diff): the wide-accumulator
   conversion of 0x / 0b digit strings, `parse_radix_digits` (NumText.v 3b'), returns the double
   nearest (ties to even) to the integer the digits denote — for EVERY digit string, any length.

   The digits are folded into a u128 accumulator `acc` until a further digit would not fit; from
   then on each digit only multiplies `scale` (a power of two, +inf past 2^1023) by the radix and ORs
   "digit non-zero" into `sticky`; the result is ((acc | sticky) as f64) * scale.

   Why this is correctly rounded: with v = acc * 2^k + rest, 0 <= rest < 2^k, sticky = (rest <> 0) and
   acc of p >= 55 significant bits, (acc | sticky) * 2^k is v ROUNDED TO ODD at precision p
   (round_odd_wide); rounding to nearest-even at 53 bits after rounding to odd at >= 55 bits is rounding
   to nearest-even directly (Flocq, Prop.Round_odd.round_N_odd); RNE commutes with the exact scaling
   by 2^k above the subnormal range (rne_scale); and multiplying a double >= 1 by a power of two is
   exact or overflows to +inf (nmul_pow2).  Axioms: Flocq's real-number layer (the four names of
   AXIOM_ALLOW), nothing else. *)
From Coq Require Import ZArith Reals Floats.SpecFloat Bool Lia Lra String Ascii.
From Flocq Require Import Core.Core IEEE754.BinarySingleNaN Round_odd Mult_error.
Require Import Blots.Num Blots.Outcome Blots.Ast Blots.NumText Blots.proofs.NumTextStr Blots.proofs.SpecFlocq Blots.proofs.NumTextFloat Blots.proofs.NumTextRef.
Open Scope Z_scope.

Local Existing Instance Hprec.
Local Existing Instance Hmax.
Local Instance fexp64_valid' : Valid_exp fexp64 := fexp_correct 53 1024 Hprec.

(* ---------------------------------------------------------------- powers of two as doubles *)
(* 2^k for k >= 0 the way repeated `scale *= radix` produces it: exact up to 2^1023, then +inf *)
Definition pow2num (k : Z) : num :=
  if k <=? 1023 then S754_finite false 4503599627370496 (k - 52) else S754_infinity false.

Lemma pow2num_0 : pow2num 0 = n_one.            Proof. reflexivity. Qed.
Lemma pow2num_1 : pow2num 1 = num_of_Z 2.       Proof. reflexivity. Qed.
Lemma pow2num_4 : pow2num 4 = num_of_Z 16.      Proof. reflexivity. Qed.

Lemma pow2_bounded : forall j, 0 <= j <= 1023 ->
  SpecFloat.bounded 53 1024 4503599627370496 (j - 52) = true.
Proof.
  intros j Hj. unfold SpecFloat.bounded, SpecFloat.canonical_mantissa.
  change (Zpos (SpecFloat.digits2_pos 4503599627370496)) with 53.
  apply andb_true_intro. split.
  - apply Zeq_bool_true. unfold SpecFloat.fexp, SpecFloat.emin. lia.
  - apply Z.leb_le. lia.
Qed.

Lemma pow2_F2R : forall j,
  F2R (Float radix2 (cond_Zopp false (Zpos 4503599627370496)) (j - 52)) = bpow radix2 j.
Proof.
  intros j. unfold F2R, cond_Zopp, Fnum, Fexp.
  change (IZR (Zpos 4503599627370496)) with (bpow radix2 52).
  rewrite <- bpow_plus. f_equal. lia.
Qed.

(* the value of a valid positive double >= 1 times 2^j, j >= 0, is representable *)
Lemma scaled_format : forall F j, generic_format radix2 fexp64 F -> (1 <= F)%R -> 0 <= j ->
  generic_format radix2 fexp64 (F * bpow radix2 j).
Proof.
  intros F j HF H1 Hj.
  change fexp64 with (FLT_exp (-1074) 53).
  apply mult_bpow_exact_FLT; [exact HF|].
  assert (0 < mag radix2 F).
  { apply mag_gt_bpow. simpl bpow. rewrite Rabs_pos_eq; lra. }
  lia.
Qed.

(* f * 2^j for a double f >= 1: exact, or +inf when f * 2^j >= 2^1024 *)
Lemma nmul_pow2 : forall m e j,
  SpecFloat.bounded 53 1024 m e = true -> 0 <= j <= 1023 ->
  let F := F2R (Float radix2 (Zpos m) e) in
  (1 <= F)%R ->
  let z := nmul (S754_finite false m e) (pow2num j) in
  vb z = true /\
  if Rlt_bool (F * bpow radix2 j) (bpow radix2 1024)
  then SF2R radix2 z = (F * bpow radix2 j)%R /\ is_finite_SF z = true /\ sign_SF z = false
  else z = S754_infinity false.
Proof.
  intros m e j Hb Hj F HF z. unfold z, pow2num.
  replace (j <=? 1023) with true by (symmetry; apply Z.leb_le; lia).
  unfold nmul, Num.prec, Num.emax. cbv beta iota delta [SFmul]. cbn [xorb].
  rewrite binary_round_aux_equiv.
  generalize (Bmult_correct_aux 53 1024 Hprec Hmax mode_NE false m e Hb
                false 4503599627370496 (j - 52) (pow2_bounded j Hj)).
  cbv zeta. cbn [xorb]. rewrite pow2_F2R.
  change (F2R (Float radix2 (cond_Zopp false (Zpos m)) e)) with F.
  intros [Hv H]. split; [exact Hv|].
  assert (Hg : generic_format radix2 fexp64 (F * bpow radix2 j)).
  { apply scaled_format; [|exact HF|lia].
    exact (proj1 (valid_finite_format false m e Hb)). }
  rewrite round_generic in H by (auto with typeclass_instances).
  assert (Hpos : (0 < F * bpow radix2 j)%R).
  { apply Rmult_lt_0_compat; [lra | apply bpow_gt_0]. }
  rewrite Rabs_pos_eq in H by lra.
  destruct (Rlt_bool (F * bpow radix2 j) (bpow radix2 1024)); exact H.
Qed.

(* repeated `scale *= radix` *)
Lemma pow2num_step : forall k j, 0 <= k -> 0 <= j <= 1023 ->
  nmul (pow2num k) (pow2num j) = pow2num (k + j).
Proof.
  intros k j Hk Hj.
  destruct (Z.leb_spec k 1023) as [Hk1|Hk1].
  - assert (Hbk := pow2_bounded k (conj Hk Hk1)).
    assert (HF : F2R (Float radix2 (Zpos 4503599627370496) (k - 52)) = bpow radix2 k) by apply pow2_F2R.
    generalize (nmul_pow2 4503599627370496 (k - 52) j Hbk Hj). cbv zeta. rewrite HF.
    intros H. specialize (H ltac:(change 1%R with (bpow radix2 0); apply bpow_le; lia)).
    destruct H as [Hv H].
    replace (pow2num k) with (S754_finite false 4503599627370496 (k - 52))
      by (unfold pow2num; now replace (k <=? 1023) with true by (symmetry; apply Z.leb_le; lia)).
    rewrite <- bpow_plus in H.
    destruct (Z.leb_spec (k + j) 1023) as [Hs|Hs].
    + rewrite Rlt_bool_true in H by (apply bpow_lt; lia).
      destruct H as (HR & Hfin & Hsg).
      unfold pow2num at 2. replace (k + j <=? 1023) with true by (symmetry; apply Z.leb_le; lia).
      apply SF_eq; auto.
      * apply (pow2_bounded (k + j)). lia.
      * rewrite HR. symmetry. cbn [SF2R]. apply (pow2_F2R (k + j)).
    + rewrite Rlt_bool_false in H by (apply bpow_le; lia).
      unfold pow2num at 2. replace (k + j <=? 1023) with false by (symmetry; apply Z.leb_gt; lia).
      exact H.
  - unfold pow2num. replace (k <=? 1023) with false by (symmetry; apply Z.leb_gt; lia).
    replace (j <=? 1023) with true by (symmetry; apply Z.leb_le; lia).
    replace (k + j <=? 1023) with false by (symmetry; apply Z.leb_gt; lia).
    reflexivity.
Qed.

(* ---------------------------------------------------------------- RNE and exact scaling *)
Lemma fexp64_shift : forall a k, 1 <= a -> 0 <= k -> fexp64 (a + k) = fexp64 a + k.
Proof. intros a k Ha Hk. unfold SpecFloat.fexp, SpecFloat.emin. lia. Qed.

Lemma rne_scale : forall y k, (1 <= y)%R -> 0 <= k ->
  rne (y * bpow radix2 k) = (rne y * bpow radix2 k)%R.
Proof.
  intros y k Hy Hk. unfold rne, round, F2R, Fnum, Fexp, scaled_mantissa, cexp.
  assert (Hm : 1 <= mag radix2 y).
  { assert (0 < mag radix2 y); [|lia].
    apply mag_gt_bpow. simpl bpow. rewrite Rabs_pos_eq; lra. }
  rewrite mag_mult_bpow by lra.
  rewrite fexp64_shift by assumption.
  set (c := fexp64 (mag radix2 y)).
  replace (y * bpow radix2 k * bpow radix2 (- (c + k)))%R with (y * bpow radix2 (- c))%R.
  2:{ rewrite Rmult_assoc, <- bpow_plus. do 2 f_equal. lia. }
  rewrite bpow_plus. ring.
Qed.

(* ---------------------------------------------------------------- the sticky bit is rounding to odd *)
Lemma lor_1 : forall A, 0 <= A -> Z.lor A 1 = if Z.even A then A + 1 else A.
Proof. intros [|p|p] H; [reflexivity | destruct p; reflexivity | lia]. Qed.

Section RoundOdd.
  Variables A k rest : Z.
  Hypothesis HA : 2 ^ 54 <= A.
  Hypothesis Hk : 0 <= k.
  Hypothesis Hrest : 0 <= rest < 2 ^ k.
  Let v := A * 2 ^ k + rest.
  Let A' := Z.lor A (Z_of_bool (negb (rest =? 0))).
  Let p := Z.log2 A + 1.

  Lemma p_ge_55 : 55 <= p.
  Proof. unfold p. assert (54 <= Z.log2 A); [|lia]. apply Z.log2_le_pow2; lia. Qed.

  Lemma A_bounds : 2 ^ (p - 1) <= A < 2 ^ p.
  Proof.
    unfold p. replace (Z.log2 A + 1 - 1) with (Z.log2 A) by lia.
    assert (0 < A) by (assert (0 < 2 ^ 54) by (apply Z.pow_pos_nonneg; lia); lia).
    pose proof (Z.log2_spec A ltac:(lia)). replace (Z.log2 A + 1) with (Z.succ (Z.log2 A)) by lia. lia.
  Qed.

  Lemma v_bounds : 2 ^ (p - 1 + k) <= v < 2 ^ (p + k).
  Proof.
    pose proof A_bounds as [H1 H2]. pose proof p_ge_55.
    rewrite !Z.pow_add_r by lia. unfold v.
    assert (0 < 2 ^ k) by (apply Z.pow_pos_nonneg; lia). nia.
  Qed.

  Lemma mag_v : mag radix2 (IZR v) = (p + k)%Z :> Z.
  Proof.
    pose proof v_bounds as [H1 H2]. pose proof p_ge_55.
    apply mag_unique_pos.
    replace (p + k - 1) with (p - 1 + k) by lia.
    rewrite <- !IZR_Zpower by lia. split; [apply IZR_le | apply IZR_lt]; assumption.
  Qed.

  Local Instance p_gt_0 : Prec_gt_0 p.
  Proof. unfold Prec_gt_0. pose proof p_ge_55. lia. Qed.

  (* (acc | sticky) * 2^k is v rounded to odd at p = bit-length(acc) bits *)
  Lemma round_odd_wide :
    round radix2 (FLX_exp p) Zrnd_odd (IZR v) = (IZR A' * bpow radix2 k)%R.
  Proof.
    unfold round, F2R, Fnum, Fexp, scaled_mantissa, cexp. rewrite mag_v.
    unfold FLX_exp. replace (p + k - p) with k by lia.
    f_equal. f_equal.
    assert (Hpk : (0 < bpow radix2 k)%R) by apply bpow_gt_0.
    set (x := (IZR v * bpow radix2 (- k))%R).
    assert (Hx : x = (IZR A + IZR rest * bpow radix2 (- k))%R).
    { unfold x, v. rewrite plus_IZR, mult_IZR, (IZR_Zpower radix2) by lia.
      rewrite Rmult_plus_distr_r, Rmult_assoc, <- bpow_plus.
      replace (k + - k) with 0 by lia. simpl bpow. ring. }
    assert (Hr0 : (0 <= IZR rest * bpow radix2 (- k) < 1)%R).
    { split.
      - apply Rmult_le_pos; [apply IZR_le; lia | apply bpow_ge_0].
      - apply Rmult_lt_reg_r with (bpow radix2 k); [exact Hpk|].
        rewrite Rmult_assoc, <- bpow_plus. replace (- k + k) with 0 by lia.
        simpl bpow. rewrite Rmult_1_r, Rmult_1_l. rewrite <- IZR_Zpower by lia.
        apply IZR_lt. apply Hrest. }
    assert (Hfl : Zfloor x = A).
    { apply Zfloor_imp. rewrite plus_IZR, Hx. simpl (IZR 1). lra. }
    assert (HA0 : 0 <= A) by (assert (0 < 2 ^ 54) by (apply Z.pow_pos_nonneg; lia); lia).
    unfold A'. unfold Zrnd_odd. rewrite Hfl.
    destruct (Z.eqb_spec rest 0) as [E|E]; cbn [negb Z_of_bool].
    - rewrite Z.lor_0_r.
      destruct (Req_EM_T x (IZR A)) as [_|N]; [reflexivity|].
      exfalso. apply N. rewrite Hx, E. simpl (IZR 0). ring.
    - rewrite (lor_1 A HA0).
      assert (Hpos : (0 < IZR rest * bpow radix2 (- k))%R).
      { apply Rmult_lt_0_compat; [apply IZR_lt; lia | apply bpow_gt_0]. }
      destruct (Req_EM_T x (IZR A)) as [Eq|N]; [exfalso; rewrite Hx in Eq; lra|].
      destruct (Z.even A); [|reflexivity].
      rewrite Zceil_floor_neq by (rewrite Hfl; auto). now rewrite Hfl.
  Qed.

  Lemma flx_below : forall e, FLX_exp p e <= fexp64 e - 2.
  Proof. intros e. pose proof p_ge_55. unfold FLX_exp, SpecFloat.fexp, SpecFloat.emin. lia. Qed.

  (* the key fact: RNE of the full integer = RNE of (acc | sticky), scaled *)
  Lemma rne_wide : rne (IZR v) = (rne (IZR A') * bpow radix2 k)%R.
  Proof.
    assert (HA' : (1 <= IZR A')%R).
    { apply IZR_le. unfold A'.
      assert (HA0 : 0 < A) by (assert (0 < 2 ^ 54) by (apply Z.pow_pos_nonneg; lia); lia).
      destruct (negb (rest =? 0)); cbn [Z_of_bool].
      - rewrite lor_1 by lia. destruct (Z.even A); lia.
      - rewrite Z.lor_0_r. lia. }
    rewrite <- rne_scale by assumption.
    rewrite <- round_odd_wide. unfold rne. symmetry.
    change fexp64 with (FLT_exp (-1074) 53).
    assert (Hp1 : 1 < p) by (pose proof p_ge_55; lia).
    exact (@round_N_odd radix2 eq_refl (FLT_exp (-1074) 53) (FLX_exp p) (fun x => negb (Z.even x))
             _ (exists_NE_FLT radix2 (-1074) 53 (or_intror eq_refl))
             _ (exists_NE_FLX radix2 p (or_intror Hp1)) flx_below (IZR v)).
  Qed.
End RoundOdd.

(* ---------------------------------------------------------------- the loop of parse_radix_digits *)
Lemma land_low : forall a n d, 0 <= n -> 0 <= d < 2 ^ n -> Z.land (a * 2 ^ n) d = 0.
Proof.
  intros a n d Hn Hd. apply Z.bits_inj'. intros i Hi.
  rewrite Z.land_spec, Z.bits_0.
  destruct (Z.lt_ge_cases i n) as [L|G].
  - rewrite Z.mul_pow2_bits_low by lia. reflexivity.
  - rewrite <- (Z.mod_small d (2 ^ n)) by lia.
    rewrite Z.mod_pow2_bits_high by lia. apply andb_false_r.
Qed.
Lemma lor_low : forall a n d, 0 <= n -> 0 <= d < 2 ^ n -> Z.lor (a * 2 ^ n) d = a * 2 ^ n + d.
Proof.
  intros a n d Hn Hd. pose proof (land_low a n d Hn Hd) as H.
  rewrite (Z.add_nocarry_lxor _ _ H). symmetry. now apply Z.lxor_lor.
Qed.

(* loop invariant: the digits read so far denote V = acc * 2^k + rest, the part `rest` left out of
   the accumulator is below 2^k and recorded in sticky, scale = 2^k, and digits are left out only
   once acc has reached 2^(128 - bits) *)
Definition winv (bits acc k : Z) (st : bool) (V rest : Z) : Prop :=
  V = acc * 2 ^ k + rest /\ 0 <= rest < 2 ^ k /\ st = negb (rest =? 0) /\ 0 <= k /\
  0 <= acc < 2 ^ 128 /\ (0 < k -> 2 ^ (128 - bits) <= acc).

Lemma radix_fold_inv : forall radix bits, (radix = 2 /\ bits = 1) \/ (radix = 16 /\ bits = 4) ->
  forall s acc k st V rest, winv bits acc k st V rest ->
  match radix_val radix s V with
  | None => radix_fold radix bits s acc (pow2num k) st = None
  | Some v => exists acc' k' st' rest',
      radix_fold radix bits s acc (pow2num k) st = Some (acc', pow2num k', st')
      /\ winv bits acc' k' st' v rest'
  end.
Proof.
  intros radix bits Hrb.
  assert (Hbits : 1 <= bits <= 4) by (destruct Hrb as [[_ ->]|[_ ->]]; lia).
  assert (HB : radix = 2 ^ bits) by (destruct Hrb as [[-> ->]|[-> ->]]; reflexivity).
  assert (Hnum : num_of_Z radix = pow2num bits) by (destruct Hrb as [[-> ->]|[-> ->]]; reflexivity).
  assert (HCB : 2 ^ (128 - bits) * radix = 2 ^ 128).
  { rewrite HB, <- Z.pow_add_r by lia. f_equal. lia. }
  assert (HBpos : 1 < radix) by (destruct Hrb as [[-> _]|[-> _]]; lia).
  assert (HCpos : 0 < 2 ^ (128 - bits)) by (apply Z.pow_pos_nonneg; lia).
  induction s as [|c r IH]; intros acc k st V rest Hinv.
  - cbn [radix_val radix_fold]. exists acc, k, st, rest. split; [reflexivity | exact Hinv].
  - cbn [radix_val radix_fold].
    destruct (radix_digit radix c) as [d|] eqn:Ed; [|reflexivity].
    pose proof (radix_digit_range radix c d Ed) as Hd.
    destruct Hinv as (HV & Hrest & Hst & Hk & Hacc & Hfull).
    rewrite Z.shiftr_div_pow2 by lia.
    destruct (Z.eqb_spec (acc / 2 ^ (128 - bits)) 0) as [E|E].
    + (* the digit still fits *)
      apply Z.div_small_iff in E; [|lia].
      assert (Hlt : acc < 2 ^ (128 - bits)) by lia.
      assert (k = 0) by (destruct (Z.eq_dec k 0); [assumption | exfalso; specialize (Hfull ltac:(lia)); lia]).
      subst k. change (2 ^ 0) with 1 in *. assert (rest = 0) by lia. subst rest.
      assert (Hnew : Z.lor (wrap_u128 (Z.shiftl acc bits)) d = acc * radix + d).
      { rewrite Z.shiftl_mul_pow2 by lia. unfold wrap_u128. rewrite <- HB.
        rewrite Z.mod_small by nia. rewrite HB. apply lor_low; [lia | rewrite <- HB; exact Hd]. }
      rewrite Hnew.
      apply (IH (acc * radix + d) 0 st (V * radix + d) 0).
      unfold winv. change (2 ^ 0) with 1. repeat split; try lia; try nia.
      exact Hst.
    + (* the digit is left out: scale *= radix, sticky |= d != 0 *)
      assert (Hge : 2 ^ (128 - bits) <= acc).
      { destruct (Z.lt_ge_cases acc (2 ^ (128 - bits))) as [L|G]; [|exact G].
        exfalso. apply E. apply Z.div_small. lia. }
      rewrite Hnum, pow2num_step by lia.
      apply (IH acc (k + bits) (st || negb (d =? 0)) (V * radix + d) (rest * radix + d)).
      assert (Hpk : 2 ^ (k + bits) = 2 ^ k * radix) by (rewrite Z.pow_add_r by lia; now rewrite HB).
      assert (0 < 2 ^ k) by (apply Z.pow_pos_nonneg; lia).
      unfold winv. rewrite Hpk. repeat split; try lia; try nia.
      rewrite Hst.
      destruct (Z.eqb_spec rest 0), (Z.eqb_spec d 0), (Z.eqb_spec (rest * radix + d) 0);
        cbn [negb orb]; try reflexivity; exfalso; nia.
Qed.

(* ---------------------------------------------------------------- (acc | sticky) as f64 * scale *)
Lemma rne_IZR_bounds : forall n, 1 <= n <= 2 ^ 128 ->
  (1 <= rne (IZR n) <= bpow radix2 128)%R.
Proof.
  intros n Hn.
  assert (H1 : rne 1 = 1%R).
  { unfold rne. apply round_generic; auto with typeclass_instances.
    apply (generic_format_bpow radix2 fexp64 0). vm_compute. discriminate. }
  assert (H2 : rne (bpow radix2 128) = bpow radix2 128).
  { unfold rne. apply round_generic; auto with typeclass_instances.
    apply generic_format_bpow. vm_compute. discriminate. }
  split.
  - rewrite <- H1 at 1. unfold rne. apply round_le; auto with typeclass_instances. apply IZR_le. lia.
  - rewrite <- H2. unfold rne. apply round_le; auto with typeclass_instances.
    rewrite <- IZR_Zpower by lia. apply IZR_le. apply Hn.
Qed.

Lemma wide_value : forall bits acc k st v rest, 1 <= bits <= 4 ->
  winv bits acc k st v rest ->
  nmul (num_of_Z (Z.lor acc (Z_of_bool st))) (pow2num k) = num_of_Z v.
Proof.
  intros bits acc k st v rest Hbits (HV & Hrest & Hst & Hk & Hacc & Hfull).
  set (A' := Z.lor acc (Z_of_bool st)).
  assert (HA'b : acc <= A' <= acc + 1).
  { unfold A'. destruct st; cbn [Z_of_bool].
    - rewrite lor_1 by lia. destruct (Z.even acc); lia.
    - rewrite Z.lor_0_r. lia. }
  assert (H2k : 0 < 2 ^ k) by (apply Z.pow_pos_nonneg; lia).
  destruct (Z.eq_dec A' 0) as [Z0|NZ].
  - (* all digits zero *)
    assert (acc = 0) by lia. subst acc.
    assert (k = 0).
    { destruct (Z.eq_dec k 0); [assumption|]. exfalso. specialize (Hfull ltac:(lia)).
      assert (0 < 2 ^ (128 - bits)) by (apply Z.pow_pos_nonneg; lia). lia. }
    subst k. change (2 ^ 0) with 1 in *. assert (rest = 0) by lia. subst rest.
    rewrite Z0. subst v. reflexivity.
  - assert (HA'1 : 1 <= A' <= 2 ^ 128) by lia.
    assert (Hvpos : 0 < v).
    { rewrite HV. destruct (Z.eq_dec acc 0) as [->|Hacc0]; [|nia].
      unfold A' in NZ. rewrite Hst in NZ.
      destruct (Z.eqb_spec rest 0) as [->|Hr0]; [exfalso; apply NZ; reflexivity | lia]. }
    (* the key real-number fact *)
    assert (KEY : rne (IZR v) = (rne (IZR A') * bpow radix2 k)%R).
    { destruct (Z.eq_dec k 0) as [->|Hk0].
      - change (2 ^ 0) with 1 in *. assert (rest = 0) by lia. subst rest.
        unfold A'. rewrite Hst. cbn [Z.eqb negb Z_of_bool]. rewrite Z.lor_0_r.
        simpl bpow. rewrite Rmult_1_r. do 2 f_equal. lia.
      - specialize (Hfull ltac:(lia)).
        assert (H54 : 2 ^ 54 <= acc).
        { apply Z.le_trans with (2 ^ (128 - bits)); [apply Z.pow_le_mono_r; lia | exact Hfull]. }
        rewrite HV. unfold A'. rewrite Hst.
        exact (rne_wide acc k rest H54 Hk Hrest). }
    destruct (rne_IZR_bounds A' HA'1) as [HF1 HF2].
    set (F := rne (IZR A')) in *.
    (* (acc | sticky) as f64 *)
    destruct A' as [|q|q] eqn:EA; try lia.
    pose proof (num_of_Z_correct q) as [Hvq Hq]. fold F in Hq.
    rewrite Rlt_bool_true in Hq.
    2:{ rewrite Rabs_pos_eq by lra. apply Rle_lt_trans with (1 := HF2). apply bpow_lt. lia. }
    destruct Hq as (HRq & Hfq & Hsq).
    destruct (num_of_Z (Zpos q)) as [sz|sz| |sz m e] eqn:Ez; try discriminate Hfq.
    { exfalso. cbn [SF2R] in HRq. lra. }
    cbn [sign_SF] in Hsq. subst sz.
    assert (Hbme : SpecFloat.bounded 53 1024 m e = true) by exact Hvq.
    assert (HFm : F2R (Float radix2 (Zpos m) e) = F) by exact HRq.
    (* the full integer *)
    destruct v as [|qv|qv] eqn:Ev; try lia.
    pose proof (num_of_Z_correct qv) as [Hvv Hqv].
    rewrite KEY in Hqv. fold F in Hqv.
    assert (HFk : (0 < F * bpow radix2 k)%R) by (apply Rmult_lt_0_compat; [lra | apply bpow_gt_0]).
    rewrite Rabs_pos_eq in Hqv by lra.
    destruct (Z.leb_spec k 1023) as [Hk1|Hk1].
    + generalize (nmul_pow2 m e k Hbme (conj Hk Hk1)). cbv zeta. rewrite HFm.
      intros H. specialize (H HF1). destruct H as [Hvz Hz].
      destruct (Rlt_bool (F * bpow radix2 k) (bpow radix2 1024)).
      * destruct Hz as (HRz & Hfz & Hsz). destruct Hqv as (HRv & Hfv & Hsv).
        apply SF_eq; auto; congruence.
      * now rewrite Hz, Hqv.
    + rewrite Rlt_bool_false in Hqv.
      2:{ apply Rle_trans with (bpow radix2 k); [apply bpow_le; lia|].
          rewrite <- (Rmult_1_l (bpow radix2 k)) at 1.
          apply Rmult_le_compat_r; [apply bpow_ge_0 | exact HF1]. }
      rewrite Hqv. unfold pow2num.
      replace (k <=? 1023) with false by (symmetry; apply Z.leb_gt; lia). reflexivity.
Qed.

(* ---------------------------------------------------------------- parse_radix_digits is RNE of the integer *)
(* the loop from its initial state *)
Lemma radix_fold_start : forall radix s, radix = 2 \/ radix = 16 ->
  match radix_val radix s 0 with
  | None => radix_fold radix (u32_trailing_zeros radix) s 0 n_one false = None
  | Some v => exists acc k st rest,
      radix_fold radix (u32_trailing_zeros radix) s 0 n_one false = Some (acc, pow2num k, st)
      /\ winv (u32_trailing_zeros radix) acc k st v rest
  end.
Proof.
  intros radix s Hr. apply (radix_fold_inv radix (u32_trailing_zeros radix)) with (k := 0) (rest := 0).
  - destruct Hr as [-> | ->]; [left | right]; split; reflexivity.
  - unfold winv. change (2 ^ 0) with 1. repeat split; lia.
Qed.

Theorem parse_radix_digits_correct : forall radix s v,
  radix = 2 \/ radix = 16 -> s <> EmptyString ->
  radix_val radix s 0 = Some v -> parse_radix_digits s radix = Some (num_of_Z v).
Proof.
  intros radix s v Hr Hs Hv. unfold parse_radix_digits.
  destruct s as [|c r]; [congruence|]. cbn [is_empty].
  generalize (radix_fold_start radix (String c r) Hr). rewrite Hv.
  intros (acc & k & st & rest & -> & Hinv). f_equal.
  apply (wide_value (u32_trailing_zeros radix) acc k st v rest); [destruct Hr as [-> | ->]; cbn; lia | exact Hinv].
Qed.

(* an invalid digit or an empty digit string is still an error *)
Theorem parse_radix_digits_rejects : forall radix s,
  radix = 2 \/ radix = 16 ->
  s = EmptyString \/ radix_val radix s 0 = None -> parse_radix_digits s radix = None.
Proof.
  intros radix s Hr [-> | Hn]; [reflexivity|].
  unfold parse_radix_digits. destruct s as [|c r]; [reflexivity|]. cbn [is_empty].
  generalize (radix_fold_start radix (String c r) Hr). rewrite Hn. now intros ->.
Qed.

(* ---------------------------------------------------------------- literal_value of the repaired tree *)
(* what the 0x / 0b arms compute from the digits left after the mark, `_` erased *)
Lemma radix_literal_fixed_value : forall radix cleaned c cl v,
  radix = 2 \/ radix = 16 -> cleaned = String c cl -> radix_val radix (String c cl) 0 = Some v ->
  match parse_radix_digits cleaned radix with
  | None => None
  | Some parsed => Some (nmul n_one parsed)
  end = Some (num_of_Z v).
Proof.
  intros radix cleaned c cl v Hr -> Hv.
  rewrite (parse_radix_digits_correct radix (String c cl) v Hr ltac:(discriminate) Hv).
  now rewrite (nmul_one_l _ (num_of_Z_valid v)).
Qed.

(* 0x literals after the repair: `_` erased, EVERY digit string denotes the nearest double of its
   integer value (num_of_Z = SpecFloat.binary_normalize: round to nearest even, +inf from
   2^1024 - 2^970 on) *)
Theorem hex_literal_value_fixed : forall sp body c cl v,
  remove_char "_" body = String c cl ->
  radix_val 16 (String c cl) 0 = Some v ->
  literal_value_rf true sp ("0x" ++ body) = Some (num_of_Z v).
Proof. intros sp body c cl v. exact (radix_literal_fixed_value 16 _ c cl v (or_intror eq_refl)). Qed.
Theorem bin_literal_value_fixed : forall sp body c cl v,
  remove_char "_" body = String c cl ->
  radix_val 2 (String c cl) 0 = Some v ->
  literal_value_rf true sp ("0b" ++ body) = Some (num_of_Z v).
Proof. intros sp body c cl v. exact (radix_literal_fixed_value 2 _ c cl v (or_introl eq_refl)). Qed.

(* the existing errors are kept: no digit, or a character that is not a digit of the radix *)
Theorem radix_literal_fixed_rejects : forall sp body,
  (remove_char "_" body = EmptyString \/ radix_val 16 (remove_char "_" body) 0 = None ->
   literal_value_rf true sp ("0x" ++ body) = None) /\
  (remove_char "_" body = EmptyString \/ radix_val 2 (remove_char "_" body) 0 = None ->
   literal_value_rf true sp ("0b" ++ body) = None).
Proof.
  intros sp body. split; intros H.
  - change (literal_value_rf true sp ("0x" ++ body))
      with (match parse_radix_digits (remove_char "_" body) 16 with
            | None => None | Some parsed => Some (nmul n_one parsed) end).
    now rewrite (parse_radix_digits_rejects 16 _ (or_intror eq_refl) H).
  - change (literal_value_rf true sp ("0b" ++ body))
      with (match parse_radix_digits (remove_char "_" body) 2 with
            | None => None | Some parsed => Some (nmul n_one parsed) end).
    now rewrite (parse_radix_digits_rejects 2 _ (or_introl eq_refl) H).
Qed.

(* the pinned behaviour is the radixfix = false instance, and the repair changes nothing below 2^63:
   wherever the pinned tree accepts an unsigned 0x / 0b literal, the repaired tree gives the same double *)
Lemma literal_value_rf_false : forall sp t, literal_value_rf false sp t = literal_value sp t.
Proof. reflexivity. Qed.
Lemma parse_numexpr_rf_false : forall sp s, parse_numexpr_rf false sp s = parse_numexpr sp s.
Proof. reflexivity. Qed.
Lemma read_source_rf_false : forall sp s, read_source_rf false sp s = read_source sp s.
Proof. reflexivity. Qed.

(* the witnesses of F25 on the repaired model *)
Lemma radix_literal_ge_2p63_fixed :
  forall sp, parse_numexpr_rf true sp "0xFFFFFFFFFFFFFFFF" = PExpr (ENum (num_of_Z (2 ^ 64)))
          /\ parse_numexpr_rf true sp "0x8000000000000000" = PExpr (ENum (num_of_Z (2 ^ 63)))
          /\ parse_numexpr_rf true sp "0b1000000000000000000000000000000000000000000000000000000000000000"
             = PExpr (ENum (num_of_Z (2 ^ 63)))
          /\ parse_numexpr_rf true sp "0x20000000000000000000000000000000000000000000000001"
             = PExpr (ENum (num_of_Z (2 ^ 197))).
Proof. intros sp. repeat split; vm_compute; reflexivity. Qed.

(* the explicitly signed token `+0x…` / `+0b…` (the grammar admits it; `-0x…` never reaches the arm: the
   `-` is a prefix negation) *)
Theorem plus_radix_literal_value_fixed : forall sp body c cl v,
  remove_char "_" body = String c cl ->
  (radix_val 16 (String c cl) 0 = Some v -> literal_value_rf true sp ("+0x" ++ body) = Some (num_of_Z v)) /\
  (radix_val 2 (String c cl) 0 = Some v -> literal_value_rf true sp ("+0b" ++ body) = Some (num_of_Z v)).
Proof.
  intros sp body c cl v Hcl. split.
  - exact (radix_literal_fixed_value 16 _ c cl v (or_intror eq_refl) Hcl).
  - exact (radix_literal_fixed_value 2 _ c cl v (or_introl eq_refl) Hcl).
Qed.
