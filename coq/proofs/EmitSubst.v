(* EmitSubst.v — C05: syntactic facts about the inlining [subst]:
     subst_ext      only the lookup function of the scope matters (HashMap / IndexMap iteration
                    order, duplicates behind the first occurrence: irrelevant)
     subst_nil      an empty scope changes nothing: a reloaded function (scope = None) is
                    emitted again as exactly the AST it was loaded from                    *)
From Coq Require Import String Ascii List ZArith Bool Lia Permutation.
Require Import Blots.Num Blots.gen.Builtins Blots.Ast Blots.Value Blots.Outcome Blots.Env
               Blots.Emit Blots.proofs.ValueInd Blots.proofs.ExprInd.
Import ListNotations.
Open Scope list_scope.

Definition smap_eq (m m' : smap) : Prop := forall x, rec_get m x = rec_get m' x.

Lemma rec_get_remove (m : smap) x y :
  rec_get (smap_remove m x) y = if String.eqb y x then None else rec_get m y.
Proof.
  unfold smap_remove. induction m as [|[k a] m IH]; cbn [filter fst rec_get].
  - now destruct (String.eqb y x).
  - destruct (String.eqb k x) eqn:Ekx; cbn [negb rec_get].
    + rewrite IH. apply String.eqb_eq in Ekx. subst k.
      destruct (String.eqb y x); reflexivity.
    + rewrite IH. destruct (String.eqb y k) eqn:Eyk; [|reflexivity].
      apply String.eqb_eq in Eyk. subst y. now rewrite Ekx.
Qed.
Lemma smap_eq_remove m m' x : smap_eq m m' -> smap_eq (smap_remove m x) (smap_remove m' x).
Proof. intros H y. rewrite !rec_get_remove. now rewrite H. Qed.
Lemma smap_eq_remove_all xs : forall m m', smap_eq m m' ->
  smap_eq (smap_remove_all m xs) (smap_remove_all m' xs).
Proof. induction xs as [|x xs IH]; cbn; intros; [assumption|]. apply IH. now apply smap_eq_remove. Qed.
Lemma remove_all_cons m y xs : smap_remove_all m (y :: xs) = smap_remove_all (smap_remove m y) xs.
Proof. reflexivity. Qed.
Lemma remove_all_get_none xs : forall m x, rec_get m x = None -> rec_get (smap_remove_all m xs) x = None.
Proof.
  induction xs as [|y xs IH]; intros m x H; [exact H|]. rewrite remove_all_cons. apply IH. rewrite rec_get_remove.
  destruct (String.eqb x y); [reflexivity|exact H].
Qed.
Lemma remove_all_get_in xs : forall m x, In x xs -> rec_get (smap_remove_all m xs) x = None.
Proof.
  induction xs as [|y xs IH]; intros m x H; [destruct H|]. rewrite remove_all_cons. destruct H as [->|H].
  - apply remove_all_get_none. rewrite rec_get_remove. now rewrite String.eqb_refl.
  - apply IH. exact H.
Qed.
Lemma remove_all_get_notin xs : forall m x, ~ In x xs -> rec_get (smap_remove_all m xs) x = rec_get m x.
Proof.
  induction xs as [|y xs IH]; intros m x H; [reflexivity|]. rewrite remove_all_cons.
  rewrite IH by (intros X; apply H; now right).
  rewrite rec_get_remove. destruct (String.eqb_spec x y) as [->|]; [exfalso; apply H; now left|reflexivity].
Qed.
Lemma smap_eq_do_step d m m' s : smap_eq m m' -> smap_eq (do_step_map d m s) (do_step_map d m' s).
Proof. unfold do_step_map. destruct d; [|auto]. destruct s; auto. intros. now apply smap_eq_remove. Qed.
Lemma smap_eq_do_final d l : forall m m', smap_eq m m' ->
  smap_eq (do_final_map d m l) (do_final_map d m' l).
Proof.
  induction l as [|[a s t] l IH]; cbn; intros; [assumption|]. apply IH. now apply smap_eq_do_step.
Qed.

Theorem subst_ext : forall d e m m', smap_eq m m' -> subst d m e = subst d m' e.
Proof.
  intros d e. induction e using expr_ind'; intros m m' Hm; cbn [subst]; try reflexivity.
  - now rewrite Hm.
  - now rewrite Hm.
  - f_equal. induction H as [|[a n t] l Hn Hl IH]; [reflexivity|]. cbn in Hn.
    rewrite (Hn m m' Hm). now rewrite IH.
  - f_equal. induction H as [|[a [k v] t] l Hn Hl IH]; [reflexivity|]. cbn in Hn.
    destruct Hn as [Hk Hv]. rewrite IH. f_equal. f_equal.
    destruct k; cbn in Hk.
    + now rewrite (Hv m m' Hm).
    + now rewrite (Hk m m' Hm), (Hv m m' Hm).
    + now rewrite Hm.
    + now rewrite (Hk m m' Hm).
  - f_equal. apply IHe. now apply smap_eq_remove_all.
  - now rewrite (IHe1 m m' Hm), (IHe2 m m' Hm), (IHe3 m m' Hm).
  - destruct ret as [rl ret rt]. cbn in IHe. f_equal.
    + revert m m' Hm. induction H as [|[a n t] l Hn Hl IH]; intros m m' Hm; [reflexivity|].
      cbn in Hn. rewrite (Hn m m' Hm). f_equal. apply IH. now apply smap_eq_do_step.
    + f_equal. apply IHe. now apply smap_eq_do_final.
  - now rewrite (IHe m m' Hm).
  - now rewrite (IHe m m' Hm).
  - rewrite (IHe m m' Hm). f_equal.
    induction H as [|a l Ha Hl IH]; [reflexivity|]. now rewrite (Ha m m' Hm), IH.
  - now rewrite (IHe1 m m' Hm), (IHe2 m m' Hm).
  - now rewrite (IHe m m' Hm).
  - now rewrite (IHe1 m m' Hm), (IHe2 m m' Hm).
  - now rewrite (IHe m m' Hm).
  - now rewrite (IHe m m' Hm).
  - now rewrite (IHe m m' Hm).
Qed.

(* an empty scope *)
Definition smap_empty (m : smap) : Prop := forall x, rec_get m x = None.
Lemma smap_empty_eq_nil m : smap_empty m -> smap_eq m [].
Proof. intros H x. now rewrite H. Qed.
Lemma remove_all_nil xs : smap_remove_all [] xs = [].
Proof. induction xs; cbn; auto. Qed.
Lemma do_step_nil d s : do_step_map d [] s = [].
Proof. unfold do_step_map. destruct d; [|reflexivity]. destruct s; reflexivity. Qed.
Lemma do_final_nil d l : do_final_map d [] l = [].
Proof. induction l as [|[a s t] l IH]; cbn; [reflexivity|]. now rewrite do_step_nil. Qed.

Theorem subst_nil : forall d e, subst d [] e = e.
Proof.
  intros d e. induction e using expr_ind'; cbn [subst]; try reflexivity.
  - f_equal. induction H as [|[a n t] l Hn Hl IH]; [reflexivity|]. cbn in Hn. now rewrite Hn, IH.
  - f_equal. induction H as [|[a [k v] t] l Hn Hl IH]; [reflexivity|]. cbn in Hn.
    destruct Hn as [Hk Hv]. rewrite IH. f_equal. f_equal.
    destruct k; cbn in Hk; cbn; congruence.
  - rewrite remove_all_nil. now rewrite IHe.
  - now rewrite IHe1, IHe2, IHe3.
  - destruct ret as [rl ret rt]. cbn in IHe. rewrite do_final_nil, IHe. f_equal.
    induction H as [|[a n t] l Hn Hl IH]; [reflexivity|]. cbn in Hn.
    rewrite Hn, do_step_nil. now rewrite IH.
  - now rewrite IHe.
  - now rewrite IHe.
  - rewrite IHe. f_equal. induction H as [|a l Ha Hl IH]; [reflexivity|]. now rewrite Ha, IH.
  - now rewrite IHe1, IHe2.
  - now rewrite IHe.
  - now rewrite IHe1, IHe2.
  - now rewrite IHe.
  - now rewrite IHe.
  - now rewrite IHe.
Qed.

(* ---- scope order: any two scopes with unique names and the same bindings ---- *)
Lemma perm_nodup_rec_get {A} (r s : list (string * A)) :
  NoDup (map fst r) -> Permutation r s -> forall x, rec_get r x = rec_get s x.
Proof.
  intros Hnd Hp x.
  assert (Hnd' : NoDup (map fst s)) by (eapply Permutation_NoDup; [apply Permutation_map; exact Hp|exact Hnd]).
  destruct (rec_get r x) eqn:E.
  - apply rec_get_In in E. symmetry. apply rec_get_In_NoDup; [assumption|].
    eapply Permutation_in; eassumption.
  - destruct (rec_get s x) eqn:E'; [|reflexivity].
    apply rec_get_In in E'. apply Permutation_sym in Hp.
    rewrite (rec_get_In_NoDup r x a Hnd) in E; [discriminate|]. eapply Permutation_in; eassumption.
Qed.

Lemma scope_map_get n d sc x :
  rec_get (scope_map n d sc) x = option_map (value_to_ast n d) (rec_get sc x).
Proof.
  induction sc as [|[k v] sc IH]; cbn; [reflexivity|]. destruct (String.eqb x k); [reflexivity|apply IH].
Qed.

Theorem emit_scope_order_insensitive : forall n d id args body sc sc',
  NoDup (map fst sc) -> Permutation sc sc' ->
  emit_ast n d (VLam id args body sc) = emit_ast n d (VLam id args body sc').
Proof.
  intros. cbn. f_equal. f_equal. apply subst_ext. intros x.
  rewrite !scope_map_get. now rewrite (perm_nodup_rec_get sc sc').
Qed.

(* the nested-closure case of value_to_ast uses the same scope map *)
Lemma value_to_ast_lam n d id args body sc :
  value_to_ast n d (VLam id args body sc) = ELam args (subst d (scope_map n d sc) body).
Proof.
  cbn. f_equal. f_equal. unfold scope_map. induction sc as [|[k v] sc IH]; cbn; congruence.
Qed.

(* re-emission: a reloaded function has no scope; what it emits is the AST it was loaded from *)
Theorem reemit_identity : forall n d id e v,
  reload_ast id e = Some v -> emit_ast n d v = Some e.
Proof.
  intros n d id e v H. destruct e; try discriminate. injection H as <-. cbn. now rewrite subst_nil.
Qed.

(* emit, reload, emit again, reload again: the second AST is the first, and both reloaded functions are
   the inlined body without a scope *)
Lemma reemit_twice : forall n id id1 id2 ps b sc e1 f1 e2 f2,
  emit_ast n true (VLam id ps b sc) = Some e1 -> reload_ast id1 e1 = Some f1 ->
  emit_ast n true f1 = Some e2 -> reload_ast id2 e2 = Some f2 ->
  e2 = e1 /\ f1 = VLam id1 ps (subst true (scope_map n true sc) b) [] /\
  f2 = VLam id2 ps (subst true (scope_map n true sc) b) [].
Proof.
  intros n id id1 id2 ps b sc e1 f1 e2 f2 E1 R1 E2 R2.
  cbn in E1. inversion E1; subst e1. cbn in R1. inversion R1; subst f1.
  cbn in E2. rewrite subst_nil in E2. inversion E2; subst e2. cbn in R2. inversion R2; subst f2.
  repeat split.
Qed.
