(* FmtToksCall.v — the call family at the VIEW level (property C07).

   format_call_multiline prints `,` after EVERY argument (the grammar admits the last one only
   because a line break follows), expr_to_source between arguments: with chunk-equal callee and
   arguments the two chunk lists differ exactly by one `,` before the final `)`, which `canon`
   drops (canon_trailing).  The formatter asks needs_parens_in_postfix for the callee, Printer.v's
   policy has the separate field pC: hypothesis pC = pP (true of the repaired policy). *)
From Coq Require Import String Ascii List Bool Arith Lia.
Require Import Blots.Num Blots.Ast Blots.PrattRender Blots.Printer Blots.Formatter Blots.FmtTokens
               Blots.proofs.FmtdInd Blots.proofs.FmtToks Blots.proofs.FmtToksDoc Blots.proofs.FmtToksAll Blots.proofs.FmtToksBin
               Blots.proofs.FmtToksCanon Blots.proofs.FmtToksList.
Import ListNotations.
Local Open Scope list_scope.

Section CallFam.
  Variable fx : fixes.
  Variable pol : policy.
  Variable numtxt : num -> string.
  Variable keepc : bool.
  Variable w : nat.
  Hypothesis HC : forall c, pC pol c = pP pol c.
  Notation O := (printer_oracles fx pol numtxt keepc).
  Notation pt := (print_text fx pol numtxt).
  Notation fd := (fmtd O w).
  Notation ok := (lchild_ok fx pol numtxt keepc w).

  Definition Te (x : expr) : list string := toks (pt x).
  Definition go_args (args : list expr) : list string :=
    (fix go (l : list expr) : list string :=
       match l with [] => [] | a :: l' => pt a :: go l' end) args.

  Lemma go_args_map : forall args, go_args args = map pt args.
  Proof. induction args as [|a args IH]; [reflexivity|]. cbn [map]. now rewrite <- IH. Qed.

  Lemma L_args : forall args inner tail, Forall ok args ->
    flat_map piece_toks (flat_map (fun a => [Nl; ind inner] ++ fd a inner ++ [Code ","]) args ++ tail) =
    flat_map (fun a => Te a ++ [","%string]) args ++ flat_map piece_toks tail.
  Proof.
    induction args as [|x args IH]; intros inner tail HF; [reflexivity|].
    inversion HF as [|? ? Hx HF']; subst. destruct Hx as [Hk [_ HS]].
    cbn [flat_map]. rewrite <- app_assoc, flat_map_app, (IH inner tail HF').
    cbn [app]. rewrite fm_nl, fm_ind, flat_map_app, (pieces_toks fx pol numtxt keepc w x inner Hk), HS.
    unfold Te at 1. cbn [flat_map]. rewrite <- !app_assoc. reflexivity.
  Qed.

  Lemma fm_wrap : forall b d, flat_map piece_toks (wrap_parens b d) = wrapT b (flat_map piece_toks d).
  Proof.
    intros [|] d; unfold wrap_parens, wrapT; [|reflexivity].
    cbn [app]. rewrite fm_code, flat_map_app. reflexivity.
  Qed.

  Lemma fsl_call : forall f args, ok f -> Forall ok args -> fsl O (ECall f args) = pt (ECall f args).
  Proof.
    intros f args [_ [Ef _]] HF. cbn [fsl print_text].
    change (o_postfix_parens O f) with (pP pol f). rewrite HC, Ef, sjoin_same.
    assert (EL : map (fsl O) args = go_args args).
    { induction args as [|a args IH]; [reflexivity|].
      inversion HF as [|? ? Hx HF']; subst. destruct Hx as [_ [E _]].
      change (go_args (a :: args)) with (pt a :: go_args args).
      cbn [map]. rewrite E, (IH HF'). reflexivity. }
    rewrite EL. unfold paren_s. destruct (pP pol f); reflexivity.
  Qed.

  Theorem call_family : forall f args i,
    tok_ok O (ECall f args) = true -> ok f -> Forall ok args ->
    last (wrapT (pP pol f) (Te f) ++ "("%string :: joinc (map Te args)) ""%string <> ","%string ->
    lview (render (fd (ECall f args) i)) = lview (pt (ECall f args)).
  Proof.
    intros f args i Hk Hf HF Hlast.
    rewrite fmtd_eq. unfold impl_doc.
    match goal with |- context [if ?b then _ else _] => destruct b end.
    { rewrite opaque_toks, (fsl_call f args Hf HF). reflexivity. }
    unfold multiline_doc, lview.
    destruct Hf as [Kf [_ Sf]]. destruct (node_of fx pol numtxt keepc f Kf) as [_ [Ef _]].
    assert (Hd : dok true (call_doc O fd f args i) = true).
    { apply dok_call_doc; [exact (dok_fmtd_all O w f Kf)|].
      clear - HF. induction HF as [|a l [Hk' _] _ IH]; constructor; [|exact IH].
      exact (dok_fmtd_all O w a Hk'). }
    rewrite (proj1 (doc_toks _ Hd)).
    destruct (paren_facts (pP pol f) _ Ef) as [TP EP].
    change (pt (ECall f args))
      with (paren_s (pC pol f) (pt f) +++ "(" +++ PrattRender.sjoin ", " (go_args args) +++ ")").
    rewrite HC.
    unfold call_doc. change (o_postfix_parens O f) with (pP pol f).
    destruct args as [|a args].
    - rewrite flat_map_app, fm_wrap, (pieces_toks fx pol numtxt keepc w f i Kf), Sf.
      rewrite (toks_app_break _ ("(" +++ PrattRender.sjoin ", " (go_args []) +++ ")") EP eq_refl), TP. reflexivity.
    - cbv zeta. rewrite flat_map_app, fm_wrap, (pieces_toks fx pol numtxt keepc w f i Kf), Sf.
      rewrite (flat_map_app piece_toks [Code "("]).
      change (flat_map piece_toks [Code "("]) with ["("%string].
      rewrite (L_args (a :: args) _ _ HF), trailing_join.
      rewrite fm_nl, fm_ind, fm_code. cbn [flat_map].
      rewrite (toks_app_break _ ("(" +++ PrattRender.sjoin ", " (go_args (a :: args)) +++ ")") EP eq_refl), TP.
      assert (HE : Forall (fun s => ends_code s = true) (map pt (a :: args))).
      { apply Forall_map. eapply Forall_impl; [|exact HF]. intros x [Hx _].
        exact (proj1 (proj2 (node_of fx pol numtxt keepc _ Hx))). }
      assert (NE : map pt (a :: args) <> []) by discriminate.
      rewrite go_args_map, (toks_sjoin _ "(" ")" NE eq_refl HE eq_refl), map_map.
      change (map (fun x => toks (pt x)) (a :: args)) with (map Te (a :: args)).
      change (toks "(") with ["("%string]. change (toks ")") with [")"%string].
      rewrite app_nil_r. cbn [app].
      rewrite <- (app_assoc (joinc (map Te (a :: args))) [","%string] [")"%string]).
      change ([","%string] ++ [")"%string]) with [","%string; ")"%string].
      change (canon (wrapT (pP pol f) (toks (pt f)) ++ ("("%string :: joinc (map Te (a :: args))) ++ [","%string; ")"%string])
              = canon (wrapT (pP pol f) (toks (pt f)) ++ ("("%string :: joinc (map Te (a :: args))) ++ [")"%string])).
      rewrite !app_assoc.
      exact (canon_trailing _ ")" eq_refl (or_intror Hlast)).
  Qed.
End CallFam.
