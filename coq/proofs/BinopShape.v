(* BinopShape.v — the case structure of Binop.eval_binop, once: a dot operator is the scalar arm of the
   operator it abbreviates, `into` with a list on the right fails, and everything else is one of the three
   arms chosen by which operands are lists.  A fact about all operators and operands needs one lemma per
   arm, with the operator a variable. *)
From Coq Require Import List Bool.
Require Import Blots.Num Blots.Ast Blots.Value Blots.Outcome Blots.Binop.
Import ListNotations.

Definition undot (op : binop) : option binop :=
  match op with
  | DotEqual => Some Equal | DotNotEqual => Some NotEqual
  | DotLess => Some Less | DotLessEq => Some LessEq
  | DotGreater => Some Greater | DotGreaterEq => Some GreaterEq
  | _ => None
  end.

(* which operands are lists *)
Lemma operands_cases : forall P : value -> value -> Prop,
  (forall a b, P (VList a) (VList b)) ->
  (forall a s, is_list s = false -> P (VList a) s) ->
  (forall s a, is_list s = false -> P s (VList a)) ->
  (forall l r, is_list l = false -> is_list r = false -> P l r) ->
  forall l r, P l r.
Proof.
  intros P Hll Hls Hsl Hss l r.
  destruct (is_list l) eqn:El; destruct (is_list r) eqn:Er.
  - destruct l; try discriminate El. destruct r; try discriminate Er. apply Hll.
  - destruct l; try discriminate El. apply Hls; exact Er.
  - destruct r; try discriminate Er. apply Hsl; exact El.
  - apply Hss; assumption.
Qed.

Section Shape.
  Variable St : Type.
  Variable call : value -> value -> list value -> St -> outcome value * St.
  Variable fa2 : value -> bool.      (* Binop's fn_accepts2: does the callback take the index too *)
  Variable powf : num -> num -> num.

  Definition broadcast (op : binop) (l r : value) : M St value := fun st =>
    match l, r with
    | VList a, VList b => arm_list_list St call powf op a b st
    | VList a, s => arm_list_scalar St call fa2 powf op true a s st
    | s, VList a => arm_list_scalar St call fa2 powf op false a s st
    | _, _ => arm_scalar St call powf op l r st
    end.

  Lemma eval_binop_shape : forall op l r st,
    eval_binop St call fa2 powf op l r st =
    match undot op with
    | Some op' => arm_scalar St call powf op' l r st
    | None => if is_list r && binop_eqb op Into then (Err, st) else broadcast op l r st
    end.
  Proof. intros op l r st. destruct op; reflexivity. Qed.

  Lemma broadcast_list_l : forall op a s, is_list s = false ->
    broadcast op (VList a) s = arm_list_scalar St call fa2 powf op true a s.
  Proof. intros op a s H. destruct s; try discriminate H; reflexivity. Qed.
  Lemma broadcast_list_r : forall op s a, is_list s = false ->
    broadcast op s (VList a) = arm_list_scalar St call fa2 powf op false a s.
  Proof. intros op s a H. destruct s; try discriminate H; reflexivity. Qed.
  Lemma broadcast_scalar : forall op l r, is_list l = false -> is_list r = false ->
    broadcast op l r = arm_scalar St call powf op l r.
  Proof. intros op l r Hl Hr. destruct l; try discriminate Hl; destruct r; try discriminate Hr; reflexivity. Qed.
End Shape.
