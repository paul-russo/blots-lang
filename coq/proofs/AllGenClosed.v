(* AllGenClosed.v — GenOps.v continued to the built-ins of EvalFull.v and EvalAll.v, for an ARBITRARY
   predicate on values: the pure ones (aggregates; list, string, record built-ins; convert round random to_number
   to_string join) return values satisfying the predicate on arguments satisfying it, and sort_by /
   group_by / count_by treat their callback parametrically — provided the predicate holds of every atomic
   value, of a list / record exactly when it holds of the elements / field values, and of a spread exactly
   when it holds of the spread value; the arms EvalAll.v adds return atoms (Section Atoms), so the same
   holds of builtin_all o / binop_all o for every oracle.  FullClosed.v and AllAgree.v are the instance
   "hereditarily closed" (C04); AllLf.v instantiates with "contains no function value" (C05). *)
From Coq Require Import String Ascii List ZArith Bool Lia Permutation.
Require Import Blots.Num Blots.gen.Builtins Blots.Ast Blots.Value Blots.Outcome Blots.Binop
               Blots.Env Blots.Eval Blots.BuiltinsHof Blots.Program Blots.EvalInst Blots.EvalFull
               Blots.EvalAll Blots.BuiltinsList Blots.BuiltinsAgg Blots.BuiltinsText Blots.NumText
               Blots.proofs.ValueInd Blots.proofs.GenOps Blots.proofs.SortLaws.
Require Import Blots.proofs.StoreMono.
Import ListNotations.
Open Scope list_scope.
Open Scope nat_scope.

Lemma obind_ok : forall {A B} (m : outcome A) (f : A -> outcome B) v,
  obind m f = Ok v -> exists a, m = Ok a /\ f a = Ok v.
Proof. intros A B m f v H. destruct m; try discriminate H. eexists; split; [reflexivity|exact H]. Qed.
Ltac ob H x := apply obind_ok in H; destruct H as [x [_ H]].

(* every arm that EvalAll.v adds is pure and returns an atom: a number, a string or null *)
Section Atoms.
  Variable o : oracle.
  Lemma num1_atomic : forall f args v, num1 f args = Ok v -> atomic v.
  Proof. intros f args v H. unfold num1 in H. ob H a. ob H x. injection H as <-. exact I. Qed.
  Lemma bi_trim_atomic : forall f args v, bi_trim f args = Ok v -> atomic v.
  Proof. intros f args v H. unfold bi_trim in H. ob H a. ob H x. injection H as <-. exact I. Qed.
  Lemma bi_uppercase_atomic : forall f args v, bi_uppercase f args = Ok v -> atomic v.
  Proof. intros f args v H. unfold bi_uppercase in H. ob H a. ob H x. injection H as <-. exact I. Qed.
  Lemma bi_lowercase_atomic : forall f args v, bi_lowercase f args = Ok v -> atomic v.
  Proof. intros f args v H. unfold bi_lowercase in H. ob H a. ob H x. injection H as <-. exact I. Qed.
  Lemma bi_to_string_all_atomic : forall args v, bi_to_string_all o args = Ok v -> atomic v.
  Proof.
    intros args v H. unfold bi_to_string_all in H. ob H a.
    destruct a; injection H as <-; exact I.
  Qed.
  Lemma bi_join_all_atomic : forall args v, bi_join_all o args = Ok v -> atomic v.
  Proof. intros args v H. unfold bi_join_all in H. ob H a1. ob H d. ob H a0. ob H l. injection H as <-. exact I. Qed.
  Lemma bi_format_atomic : forall args v, bi_format o args = Ok v -> atomic v.
  Proof.
    intros args v H. unfold bi_format in H. ob H a0. ob H f. ob H rest. ob H fa. ob H s.
    injection H as <-. exact I.
  Qed.
  Lemma bi_print_atomic : forall args v, bi_print o args = Ok v -> atomic v.
  Proof. intros args v H. unfold bi_print in H. ob H l. injection H as <-. exact I. Qed.
  Lemma bi_time_now_atomic : forall args v, bi_time_now o args = Ok v -> atomic v.
  Proof. intros args v H. unfold bi_time_now in H. injection H as <-; exact I. Qed.

  Lemma builtin_all_cases : forall b,
    (exists f, (forall cb, builtin_all o cb b = pure_bi f) /\ (forall args v, f args = Ok v -> atomic v)) \/
    (forall cb, builtin_all o cb b = builtin_full cb b).
  Proof.
    intros b. destruct b; try (right; reflexivity); left; eexists; (split; [reflexivity|]).
    all: first [ apply num1_atomic | apply bi_trim_atomic | apply bi_uppercase_atomic | apply bi_lowercase_atomic
               | apply bi_to_string_all_atomic | apply bi_join_all_atomic | apply bi_format_atomic
               | apply bi_print_atomic | apply bi_time_now_atomic ].
  Qed.
End Atoms.

Section AbstractPure.
  Variable store_le : store -> store -> Prop.
  Hypothesis store_le_refl : forall s, store_le s s.
  Hypothesis store_le_trans : forall a b c, store_le a b -> store_le b c -> store_le a c.
  Variable closed_value : store -> value -> Prop.
  Notation closed_list := (GenOps.closed_list closed_value).
  (* Closed.closed_frame for the abstract predicate *)
  Definition closed_frame (st : store) (f : frame) : Prop := Forall (fun kv => closed_value st (snd kv)) f.
  Hypothesis closed_VList : forall st l, closed_value st (VList l) <-> closed_list st l.
  Hypothesis closed_VRec : forall st r, closed_value st (VRec r) <-> closed_frame st r.
  Hypothesis closed_VSpread : forall st w, closed_value st (VSpread w) <-> closed_value st w.
  Hypothesis atomic_closed : forall st v, atomic v -> closed_value st v.
  Hypothesis closed_mono : forall v st st', store_le st st' -> closed_value st v -> closed_value st' v.

  Ltac triv := first [exact I | apply atomic_closed; exact I].

  Section Pure.
  Variable st : store.

  (* The result is a number, a boolean, a string or null: H : f args = Ok v is taken apart along the binds,
     tests and matches of f until v is visible as a constructor application, which is atomic. *)
  Ltac atomic_result H :=
    repeat match type of H with
    | obind ?x _ = Ok _ => destruct x; cbn [obind] in H; try discriminate H
    | (if ?c then _ else _) = Ok _ => destruct c; try discriminate H
    | (match ?x with _ => _ end) = Ok _ => destruct x; try discriminate H
    end;
    try (inversion H; subst; triv).

  Lemma closed_incl : forall l l', closed_list st l -> (forall x, In x l' -> In x l) -> closed_list st l'.
  Proof.
    intros l l' Hc Hin. unfold closed_list in *. rewrite Forall_forall in *. intros x Hx. apply Hc, Hin, Hx.
  Qed.
  Lemma closed_atoms : forall {A} (f : A -> value) l, (forall a, atomic (f a)) -> closed_list st (map f l).
  Proof.
    intros A f l Hf. unfold closed_list. rewrite Forall_forall. intros x Hx. apply in_map_iff in Hx.
    destruct Hx as [a [<- _]]. apply atomic_closed. apply Hf.
  Qed.
  Lemma barg_closed : forall args i v, closed_list st args -> BuiltinsList.arg args i = Ok v -> closed_value st v.
  Proof.
    intros args i v Hc H. unfold BuiltinsList.arg in H. destruct (nth_error args i) eqn:E; inversion H; subst.
    unfold closed_list in Hc. rewrite Forall_forall in Hc. apply Hc. eapply nth_error_In; eauto.
  Qed.
  Lemma aarg_closed : forall args i v, closed_list st args -> BuiltinsAgg.arg args i = Ok v -> closed_value st v.
  Proof.
    intros args i v Hc H. unfold BuiltinsAgg.arg in H. destruct (nth_error args i) eqn:E; inversion H; subst.
    unfold closed_list in Hc. rewrite Forall_forall in Hc. apply Hc. eapply nth_error_In; eauto.
  Qed.

  (* ---- aggregates: always a number ---- *)
  Lemma bi_min_closed : forall args v, bi_min args = Ok v -> closed_value st v.
  Proof. intros args v H. unfold bi_min in H. atomic_result H. Qed.
  Lemma bi_max_closed : forall args v, bi_max args = Ok v -> closed_value st v.
  Proof. intros args v H. unfold bi_max in H. atomic_result H. Qed.
  Lemma bi_avg_closed : forall args v, bi_avg args = Ok v -> closed_value st v.
  Proof. intros args v H. unfold bi_avg in H. atomic_result H. Qed.
  Lemma bi_sum_closed : forall args v, bi_sum args = Ok v -> closed_value st v.
  Proof. intros args v H. unfold bi_sum in H. atomic_result H. Qed.
  Lemma bi_prod_closed : forall args v, bi_prod args = Ok v -> closed_value st v.
  Proof. intros args v H. unfold bi_prod in H. atomic_result H. Qed.
  Lemma bi_median_closed : forall args v, bi_median args = Ok v -> closed_value st v.
  Proof. intros args v H. unfold bi_median in H. atomic_result H. Qed.
  Lemma bi_percentile_closed : forall args v, bi_percentile args = Ok v -> closed_value st v.
  Proof. intros args v H. unfold bi_percentile, bi_percentile_gen in H. atomic_result H. Qed.
  Lemma bi_dot_closed : forall args v, bi_dot args = Ok v -> closed_value st v.
  Proof. intros args v H. unfold bi_dot in H. atomic_result H. Qed.

  (* ---- list built-ins ---- *)
  Lemma bi_range_closed : forall args v, bi_range args = Ok v -> closed_value st v.
  Proof.
    assert (Hb : forall a b v, range_body a b = Ok v -> closed_value st v).
    { intros a b v H. unfold range_body in H.
      destruct (ngtb a b); try discriminate. destruct (_ || _); try discriminate.
      destruct (_ <? _)%Z; try discriminate. inversion H; subst.
      apply closed_VList. apply closed_atoms. intros z; triv. }
    intros args v H. unfold bi_range in H.
    destruct args as [|[] [|[] [|? ?]]]; try discriminate; eapply Hb; exact H.
  Qed.

  Lemma bi_len_closed : forall args v, bi_len args = Ok v -> closed_value st v.
  Proof. intros args v H. unfold bi_len in H. atomic_result H. Qed.

  Lemma bi_head_closed : forall args v, closed_list st args -> bi_head args = Ok v -> closed_value st v.
  Proof.
    intros args v Hc H. unfold bi_head in H.
    destruct (BuiltinsList.arg args 0) as [a0| | | |] eqn:E0; try discriminate. cbn [obind] in H.
    pose proof (barg_closed _ _ _ Hc E0) as Ha0.
    destruct a0; try discriminate; inversion H; subst; try triv.
    apply closed_VList in Ha0. destruct l; [triv|]. inversion Ha0; assumption.
  Qed.

  Lemma in_firstn_in : forall {A} n (l : list A) x, In x (firstn n l) -> In x l.
  Proof.
    intros A n; induction n as [|n IH]; intros l x H; [destruct H|].
    destruct l as [|a l]; [destruct H|]. cbn [firstn] in H. destruct H as [<-|H]; [left; reflexivity|right; apply IH; exact H].
  Qed.
  Lemma in_skipn_in : forall {A} n (l : list A) x, In x (skipn n l) -> In x l.
  Proof.
    intros A n; induction n as [|n IH]; intros l x H; [exact H|].
    destruct l as [|a l]; [destruct H|]. cbn [skipn] in H. right; apply IH; exact H.
  Qed.
  Lemma slice_get_in : forall {A} (l : list A) a b x y, slice_get l a b = Some x -> In y x -> In y l.
  Proof.
    intros A l a b x y H Hy. unfold slice_get in H. destruct (_ && _); try discriminate.
    inversion H; subst. apply in_firstn_in in Hy. eapply in_skipn_in. exact Hy.
  Qed.

  Lemma bi_tail_closed : forall args v, closed_list st args -> bi_tail args = Ok v -> closed_value st v.
  Proof.
    intros args v Hc H. unfold bi_tail in H.
    destruct (BuiltinsList.arg args 0) as [a0| | | |] eqn:E0; try discriminate. cbn [obind] in H.
    pose proof (barg_closed _ _ _ Hc E0) as Ha0.
    destruct a0; try discriminate; inversion H; subst; try triv.
    apply closed_VList in Ha0. apply closed_VList.
    destruct (slice_get l 1 (Z.of_nat (Datatypes.length l))) eqn:E; [|constructor].
    eapply closed_incl; [exact Ha0|]. intros x Hx. eapply slice_get_in; eauto.
  Qed.

  Lemma bi_slice_closed : forall args v, closed_list st args -> bi_slice args = Ok v -> closed_value st v.
  Proof.
    intros args v Hc H. unfold bi_slice in H.
    destruct (BuiltinsList.arg args 1); try discriminate; cbn [obind] in H.
    destruct (BuiltinsList.as_number a); try discriminate; cbn [obind] in H.
    destruct (BuiltinsList.arg args 2); try discriminate; cbn [obind] in H.
    destruct (BuiltinsList.as_number a1); try discriminate; cbn [obind] in H.
    destruct (BuiltinsList.arg args 0) as [a0'| | | |] eqn:E0; try discriminate. cbn [obind] in H.
    pose proof (barg_closed _ _ _ Hc E0) as Ha0.
    destruct a0'; try discriminate.
    - match type of H with match ?x with _ => _ end = _ => destruct x end; inversion H; triv.
    - match type of H with match ?x with _ => _ end = _ => destruct x eqn:E end; inversion H; subst.
      apply closed_VList in Ha0. apply closed_VList.
      eapply closed_incl; [exact Ha0|]. intros x Hx. eapply slice_get_in; eauto.
  Qed.

  Lemma concat_args_closed : forall args, closed_list st args -> closed_list st (concat_args args).
  Proof.
    induction args as [|a rest IH]; intros Hc; cbn [concat_args]; [constructor|].
    inversion Hc as [|? ? Ha Hr]; subst. specialize (IH Hr).
    assert (Hdef : closed_list st (a :: concat_args rest)) by (constructor; assumption).
    destruct a; try exact Hdef.
    - apply closed_VList in Ha. apply Forall_app. split; assumption.
    - destruct a; try exact Hdef.
      + apply Forall_app. split; [apply closed_atoms; intros; triv|exact IH].
      + apply (proj1 (closed_VSpread _ _)) in Ha. apply closed_VList in Ha. apply Forall_app. split; assumption.
  Qed.
  Lemma bi_concat_closed : forall args v, closed_list st args -> bi_concat args = Ok v -> closed_value st v.
  Proof.
    intros args v Hc H. unfold bi_concat in H. inversion H; subst. apply closed_VList.
    apply concat_args_closed; exact Hc.
  Qed.

  Lemma unique_go_in : forall items acc x, In x (unique_go items acc) -> In x items \/ In x acc.
  Proof.
    induction items as [|i rest IH]; intros acc x H; cbn [unique_go] in H; [right; exact H|].
    destruct (existsb _ acc).
    - destruct (IH _ _ H) as [Hr|Ha]; [left; right; exact Hr|right; exact Ha].
    - destruct (IH _ _ H) as [Hr|Ha]; [left; right; exact Hr|].
      apply in_app_or in Ha. destruct Ha as [Ha|[<-|[]]]; [right; exact Ha|left; left; reflexivity].
  Qed.
  Lemma bi_unique_closed : forall args v, closed_list st args -> bi_unique args = Ok v -> closed_value st v.
  Proof.
    intros args v Hc H. unfold bi_unique in H.
    destruct (BuiltinsList.arg args 0) as [a0| | | |] eqn:E0; try discriminate. cbn [obind] in H.
    pose proof (barg_closed _ _ _ Hc E0) as Ha0.
    destruct a0; try discriminate. cbn in H. inversion H; subst.
    apply closed_VList in Ha0. apply closed_VList. eapply closed_incl; [exact Ha0|].
    intros x Hx. destruct (unique_go_in _ _ _ Hx) as [Hi|[]]. exact Hi.
  Qed.

  Lemma bi_sort_closed : forall args v, closed_list st args -> bi_sort args = Ok v -> closed_value st v.
  Proof.
    intros args v Hc H. unfold bi_sort in H.
    destruct (BuiltinsList.arg args 0) as [a0| | | |] eqn:E0; try discriminate. cbn [obind] in H.
    pose proof (barg_closed _ _ _ Hc E0) as Ha0.
    destruct a0; try discriminate. cbn in H. inversion H; subst.
    apply closed_VList in Ha0. apply closed_VList. eapply closed_incl; [exact Ha0|].
    intros x Hx. eapply Permutation_in; [symmetry; apply merge_sort_perm|exact Hx].
  Qed.

  Lemma bi_reverse_closed : forall args v, closed_list st args -> bi_reverse args = Ok v -> closed_value st v.
  Proof.
    intros args v Hc H. unfold bi_reverse in H.
    destruct (BuiltinsList.arg args 0) as [a0| | | |] eqn:E0; try discriminate. cbn [obind] in H.
    pose proof (barg_closed _ _ _ Hc E0) as Ha0.
    destruct a0; try discriminate. cbn in H. inversion H; subst.
    apply closed_VList in Ha0. apply closed_VList. eapply closed_incl; [exact Ha0|].
    intros x Hx. apply in_rev. exact Hx.
  Qed.

  Lemma bi_split_closed : forall args v, bi_split args = Ok v -> closed_value st v.
  Proof.
    intros args v H. unfold bi_split in H.
    destruct (BuiltinsList.arg args 0); try discriminate; cbn [obind] in H.
    destruct (BuiltinsList.as_string a); try discriminate; cbn [obind] in H.
    destruct (BuiltinsList.arg args 1); try discriminate; cbn [obind] in H.
    destruct (BuiltinsList.as_string a1); try discriminate; cbn [obind] in H.
    inversion H; subst. apply closed_VList. apply closed_atoms. intros; triv.
  Qed.
  Lemma bi_replace_closed : forall args v, bi_replace args = Ok v -> closed_value st v.
  Proof. intros args v H. unfold bi_replace in H. atomic_result H. Qed.
  Lemma bi_includes_closed : forall args v, bi_includes args = Ok v -> closed_value st v.
  Proof.
    intros args v H. unfold bi_includes in H.
    destruct (BuiltinsList.arg args 0) as [a0| | | |]; try discriminate. cbn [obind] in H.
    destruct a0; try discriminate.
    - atomic_result H.
    - induction l as [|item rest IH]; [inversion H; triv|].
      destruct (BuiltinsList.arg args 1); try discriminate. cbn [obind] in H.
      destruct (equals item a); [inversion H; triv|apply IH; exact H].
  Qed.

  (* ---- records ---- *)
  Lemma bi_keys_closed : forall args v, bi_keys args = Ok v -> closed_value st v.
  Proof.
    intros args v H. unfold bi_keys in H.
    destruct (BuiltinsList.arg args 0); try discriminate; cbn [obind] in H.
    destruct (as_record a); try discriminate; cbn [obind] in H.
    inversion H; subst. apply closed_VList. apply closed_atoms. intros; triv.
  Qed.
  Lemma bi_values_closed : forall args v, closed_list st args -> bi_values args = Ok v -> closed_value st v.
  Proof.
    intros args v Hc H. unfold bi_values in H.
    destruct (BuiltinsList.arg args 0) as [a0| | | |] eqn:E0; try discriminate. cbn [obind] in H.
    pose proof (barg_closed _ _ _ Hc E0) as Ha0.
    destruct a0; try discriminate. cbn in H. inversion H; subst.
    apply closed_VRec in Ha0. apply closed_VList. unfold closed_list, closed_frame in *.
    rewrite Forall_forall in *. intros x Hx. apply in_map_iff in Hx. destruct Hx as [kv [<- Hkv]].
    apply Ha0; exact Hkv.
  Qed.
  Lemma bi_entries_closed : forall args v, closed_list st args -> bi_entries args = Ok v -> closed_value st v.
  Proof.
    intros args v Hc H. unfold bi_entries in H.
    destruct (BuiltinsList.arg args 0) as [a0| | | |] eqn:E0; try discriminate. cbn [obind] in H.
    pose proof (barg_closed _ _ _ Hc E0) as Ha0.
    destruct a0; try discriminate. cbn in H. inversion H; subst.
    apply closed_VRec in Ha0. apply closed_VList. unfold closed_list, closed_frame in *.
    rewrite Forall_forall in *. intros x Hx. apply in_map_iff in Hx. destruct Hx as [kv [<- Hkv]].
    apply closed_VList. constructor; [triv|]. constructor; [apply Ha0; exact Hkv|constructor].
  Qed.

  (* ---- flatten zip chunk ---- *)
  Lemma flatten_items_closed : forall l, closed_list st l -> closed_list st (flatten_items l).
  Proof.
    induction l as [|a rest IH]; intros Hc; cbn [flatten_items]; [constructor|].
    inversion Hc as [|? ? Ha Hr]; subst. specialize (IH Hr).
    destruct a; try (constructor; assumption).
    apply closed_VList in Ha. apply Forall_app. split; assumption.
  Qed.
  Lemma bi_flatten_closed : forall args v, closed_list st args -> bi_flatten args = Ok v -> closed_value st v.
  Proof.
    intros args v Hc H. unfold bi_flatten in H.
    destruct (BuiltinsList.arg args 0) as [a0| | | |] eqn:E0; try discriminate. cbn [obind] in H.
    pose proof (barg_closed _ _ _ Hc E0) as Ha0.
    destruct a0; try discriminate. cbn in H. inversion H; subst.
    apply closed_VList in Ha0. apply closed_VList. apply flatten_items_closed; exact Ha0.
  Qed.

  Lemma zip_lists_closed : forall args lists,
    closed_list st args ->
    mapM (fun a => match a with VList l => Ok l | _ => Err end) args = Ok lists ->
    Forall (closed_list st) lists.
  Proof.
    induction args as [|a rest IH]; intros lists Hc H; cbn [mapM] in H.
    - inversion H; constructor.
    - inversion Hc as [|? ? Ha Hr]; subst.
      destruct a; try discriminate. cbn [obind] in H.
      destruct (mapM _ rest) eqn:E; try discriminate. cbn [obind] in H. inversion H; subst.
      constructor; [apply closed_VList; exact Ha|apply IH; auto].
  Qed.
  Lemma bi_zip_closed : forall args v, closed_list st args -> bi_zip args = Ok v -> closed_value st v.
  Proof.
    intros args v Hc H. unfold bi_zip in H.
    destruct (mapM _ args) as [lists| | | |] eqn:E; try discriminate. cbn [obind] in H.
    inversion H; subst. pose proof (zip_lists_closed _ _ Hc E) as Hl.
    apply closed_VList. unfold closed_list. rewrite Forall_forall. intros x Hx.
    apply in_map_iff in Hx. destruct Hx as [i [<- _]]. unfold zip_tuple.
    apply closed_VList. unfold closed_list. rewrite Forall_forall. intros y Hy.
    apply in_map_iff in Hy. destruct Hy as [l [<- Hin]].
    rewrite Forall_forall in Hl. specialize (Hl l Hin). unfold closed_list in Hl. rewrite Forall_forall in Hl.
    destruct (nth_in_or_default i l VNull) as [Hn|Hn]; [apply Hl; exact Hn|rewrite Hn; triv].
  Qed.

  Lemma chunk_acc_in : forall {A} (l : list A) n room cur c x,
    In c (chunk_acc l n room cur) -> In x c -> In x l \/ In x cur.
  Proof.
    intros A l. induction l as [|y rest IH]; intros n room cur c x Hc Hx; cbn [chunk_acc] in Hc.
    - destruct cur; [destruct Hc|]. destruct Hc as [<-|[]]. right; exact Hx.
    - destruct room.
      + destruct Hc as [<-|Hc]; [right; exact Hx|].
        destruct (IH _ _ _ _ _ Hc Hx) as [Hr|[<-|[]]]; [left; right; exact Hr|left; left; reflexivity].
      + destruct (IH _ _ _ _ _ Hc Hx) as [Hr|Hr]; [left; right; exact Hr|].
        apply in_app_or in Hr. destruct Hr as [Hr|[<-|[]]]; [right; exact Hr|left; left; reflexivity].
  Qed.
  Lemma bi_chunk_closed : forall args v, closed_list st args -> bi_chunk args = Ok v -> closed_value st v.
  Proof.
    intros args v Hc H. unfold bi_chunk in H.
    destruct (BuiltinsList.arg args 1); try discriminate; cbn [obind] in H.
    destruct (BuiltinsList.as_number a); try discriminate; cbn [obind] in H.
    destruct (_ =? 0)%Z; try discriminate.
    destruct (BuiltinsList.arg args 0) as [a0'| | | |] eqn:E0; try discriminate. cbn [obind] in H.
    pose proof (barg_closed _ _ _ Hc E0) as Ha0.
    destruct a0'; try discriminate. cbn [BuiltinsList.as_list obind] in H. inversion H; subst.
    apply closed_VList in Ha0. apply closed_VList. unfold closed_list. rewrite Forall_forall.
    intros x Hx. apply in_map_iff in Hx. destruct Hx as [c [<- Hin]].
    apply closed_VList. eapply closed_incl; [exact Ha0|]. intros y Hy.
    unfold chunks in Hin. destruct (chunk_acc_in _ _ _ _ _ _ Hin Hy) as [Hl|[]]. exact Hl.
  Qed.
  (* ---- convert round to_number to_string join: a number or a string ---- *)
  Lemma bi_convert_closed : forall args v, bi_convert args = Ok v -> closed_value st v.
  Proof.
    intros args v H. unfold bi_convert in H.
    ob H a0. ob H x0. ob H a1. ob H x1. ob H a2. ob H x2.
    revert H. generalize (Units.convert UnitsBase.fl x0 x1 x2). intros r H.
    destruct r; [|discriminate H]. injection H as <-. triv.
  Qed.
  Lemma bi_round_closed : forall args v, bi_round args = Ok v -> closed_value st v.
  Proof.
    intros args v H. unfold bi_round in H.
    ob H a0. ob H x0.
    destruct args as [|x [|y rest]].
    - ob H a1. ob H x1. injection H as <-. triv.
    - injection H as <-. triv.
    - ob H a1. ob H x1. injection H as <-. triv.
  Qed.
  Lemma bi_random_closed : forall args v, bi_random args = Ok v -> closed_value st v.
  Proof. intros args v H. unfold bi_random in H. ob H a0. ob H x0. injection H as <-. triv. Qed.
  Lemma bi_to_number_closed : forall args v, bi_to_number args = Ok v -> closed_value st v.
  Proof.
    intros args v H. unfold bi_to_number in H.
    ob H a0.
    destruct a0; try (injection H as <-; triv);
      (ob H s0; cbv beta in H; unfold parse_result in H;
       destruct (NumText.ref_str_parse s0); [|discriminate H]; injection H as <-; triv).
  Qed.
  Lemma bi_to_string_closed : forall args v, bi_to_string args = Ok v -> closed_value st v.
  Proof.
    intros args v H. unfold bi_to_string in H.
    ob H a0.
    destruct a0; try (injection H as <-; triv); (ob H s0; injection H as <-; triv).
  Qed.
  Lemma bi_join_full_closed : forall args v, bi_join_full args = Ok v -> closed_value st v.
  Proof.
    intros args v H. unfold bi_join_full in H.
    ob H a1. ob H d. ob H a0. ob H l. ob H strs. injection H as <-. triv.
  Qed.
  End Pure.

  (* ---------------- sort_by / group_by / count_by and the dispatcher ---------------- *)
  Notation cb_agree := (GenOps.cb_agree store_le closed_value).
  Notation cb_closed := (GenOps.cb_closed store_le closed_value).
  Notation post := (GenOps.post store_le).
  Let closed_list_mono := GenOps.closed_list_mono store_le closed_value closed_mono.
  Let builtin_impl_agree := GenOps.builtin_impl_agree store_le store_le_refl store_le_trans closed_value
                              closed_mono closed_VList atomic_closed.
  Let binop_impl_agree := GenOps.binop_impl_agree store_le store_le_refl store_le_trans closed_value
                              closed_mono closed_VList atomic_closed.
  Let eval_binop_agree := GenOps.eval_binop_agree store_le store_le_refl store_le_trans closed_value
                              closed_mono closed_VList atomic_closed.

  Section ByAgree.

  Variable cb1 cb2 : callback.
  Variable s0 : store.
  Hypothesis Hag : cb_agree s0 cb1 cb2.
  Hypothesis Hcl : cb_closed s0 cb1.

  (* the store reached is above st (CallSite.grows, on frames, is another notion) *)
  Definition grows {A} (st : store) (x : outcome A * store) : Prop := store_le st (snd x).

  Lemma sort_by_cmp_agree : forall func a b st,
    store_le s0 st -> closed_value st func -> closed_value st a -> closed_value st b ->
    sort_by_cmp store cb1 func a b st = sort_by_cmp store cb2 func a b st /\
    grows st (sort_by_cmp store cb1 func a b st).
  Proof.
    intros func a b st Hs0 Hf Ha Hb. unfold sort_by_cmp, grows.
    destruct (is_function func); [|split; [reflexivity|apply store_le_refl]].
    assert (Hla : closed_list st [a]) by (constructor; [exact Ha|constructor]).
    destruct (cb_step store_le closed_value cb1 cb2 s0 Hag Hcl func [a] st Hs0 Hf Hla) as [<- [Hs Hr]].
    destruct (cb1 func func [a] st) as [o s1]. cbn [fst snd] in Hs, Hr.
    destruct o; try (split; [reflexivity|exact Hs]).
    assert (Hs01 : store_le s0 s1) by exact (store_le_trans _ _ _ Hs0 Hs).
    assert (Hf1 : closed_value s1 func) by exact (closed_mono _ _ _ Hs Hf).
    assert (Hlb : closed_list s1 [b]) by (constructor; [exact (closed_mono _ _ _ Hs Hb)|constructor]).
    destruct (cb_step store_le closed_value cb1 cb2 s0 Hag Hcl func [b] s1 Hs01 Hf1 Hlb) as [<- [Hs1 _]].
    destruct (cb1 func func [b] s1) as [o s2]. cbn [snd] in Hs1.
    assert (store_le st s2) by exact (store_le_trans _ _ _ Hs Hs1).
    destruct o; (split; [reflexivity|assumption]).
  Qed.

  Lemma merge_by_agree : forall func left right st,
    store_le s0 st -> closed_value st func -> closed_list st left -> closed_list st right ->
    merge_by store cb1 func left right st = merge_by store cb2 func left right st /\
    grows st (merge_by store cb1 func left right st).
  Proof.
    intros func left. induction left as [|a left' IHl]; intros right st Hs0 Hf Hl Hr.
    - rewrite !merge_by_nil_l. split; [reflexivity|apply store_le_refl].
    - revert st Hs0 Hf Hl Hr. induction right as [|b right' IHr]; intros st Hs0 Hf Hl Hr.
      + rewrite !merge_by_nil_r. split; [reflexivity|apply store_le_refl].
      + rewrite !merge_by_cons.
        inversion Hl as [|? ? Ha Hl']; subst. inversion Hr as [|? ? Hb Hr']; subst.
        destruct (sort_by_cmp_agree func b a st Hs0 Hf Hb Ha) as [Heq Hg]. rewrite <- Heq.
        destruct (sort_by_cmp store cb1 func b a st) as [c st1]. unfold grows in Hg. cbn [snd] in Hg.
        assert (Hs01 : store_le s0 st1) by exact (store_le_trans _ _ _ Hs0 Hg).
        assert (Hf1 : closed_value st1 func) by exact (closed_mono _ _ _ Hg Hf).
        assert (Hl1 : closed_list st1 (a :: left')) by exact (closed_list_mono _ _ _ Hg Hl).
        assert (Hr1 : closed_list st1 (b :: right')) by exact (closed_list_mono _ _ _ Hg Hr).
        inversion Hl1 as [|? ? Ha1 Hl1']; subst. inversion Hr1 as [|? ? Hb1 Hr1']; subst.
        destruct c as [[]| | | |]; try (split; [reflexivity|exact Hg]).
        2:{ (* Lt: b goes first *)
          destruct (IHr st1 Hs01 Hf1 Hl1 Hr1') as [Heq2 Hg2]. rewrite <- Heq2.
          destruct (merge_by store cb1 func (a :: left') right' st1) as [res st2]. unfold grows in *. cbn [snd] in *.
          split; [reflexivity|exact (store_le_trans _ _ _ Hg Hg2)]. }
        all: destruct (IHl (b :: right') st1 Hs01 Hf1 Hl1' Hr1) as [Heq2 Hg2]; rewrite <- Heq2;
          destruct (merge_by store cb1 func left' (b :: right') st1) as [res st2]; unfold grows in *; cbn [snd] in *;
          (split; [reflexivity|exact (store_le_trans _ _ _ Hg Hg2)]).
  Qed.

  Lemma perm_closed : forall st l m, Permutation l m -> closed_list st l -> closed_list st m.
  Proof. intros st l m Hp Hc. unfold closed_list in *. eapply Permutation_Forall; eauto. Qed.
  Lemma firstn_closed : forall st n l, closed_list st l -> closed_list st (firstn n l).
  Proof. intros st n l Hc. eapply closed_incl; [exact Hc|]. intros x Hx. eapply in_firstn_in; eauto. Qed.
  Lemma skipn_closed : forall st n l, closed_list st l -> closed_list st (skipn n l).
  Proof. intros st n l Hc. eapply closed_incl; [exact Hc|]. intros x Hx. eapply in_skipn_in; eauto. Qed.

  Lemma merge_sort_by_fuel_agree : forall fuel func l st,
    store_le s0 st -> closed_value st func -> closed_list st l ->
    merge_sort_by_fuel store cb1 fuel func l st = merge_sort_by_fuel store cb2 fuel func l st /\
    grows st (merge_sort_by_fuel store cb1 fuel func l st).
  Proof.
    induction fuel as [|f IH]; intros func l st Hs0 Hf Hl; cbn [merge_sort_by_fuel].
    - split; [reflexivity|apply store_le_refl].
    - destruct (Datatypes.length l <? 2); [split; [reflexivity|apply store_le_refl]|].
      destruct (IH func (firstn (Datatypes.length l / 2) l) st Hs0 Hf (firstn_closed _ _ _ Hl)) as [Heq Hg].
      rewrite <- Heq.
      destruct (merge_sort_by_fuel store cb1 f func (firstn (Datatypes.length l / 2) l) st) as [sl st1] eqn:E1.
      unfold grows in Hg. cbn [snd] in Hg.
      destruct sl as [left'| | | |]; try (split; [reflexivity|exact Hg]).
      assert (Hs01 : store_le s0 st1) by exact (store_le_trans _ _ _ Hs0 Hg).
      assert (Hf1 : closed_value st1 func) by exact (closed_mono _ _ _ Hg Hf).
      assert (Hl1 : closed_list st1 l) by exact (closed_list_mono _ _ _ Hg Hl).
      assert (Hleft : closed_list st1 left').
      { eapply perm_closed; [eapply (merge_sort_by_fuel_perm store cb1); exact E1|]. apply firstn_closed; exact Hl1. }
      destruct (IH func (skipn (Datatypes.length l / 2) l) st1 Hs01 Hf1 (skipn_closed _ _ _ Hl1)) as [Heq2 Hg2].
      rewrite <- Heq2.
      destruct (merge_sort_by_fuel store cb1 f func (skipn (Datatypes.length l / 2) l) st1) as [sr st2] eqn:E2.
      unfold grows in Hg2. cbn [snd] in Hg2.
      assert (Hst2 : store_le st st2) by exact (store_le_trans _ _ _ Hg Hg2).
      destruct sr as [right'| | | |]; try (split; [reflexivity|exact Hst2]).
      assert (Hs02 : store_le s0 st2) by exact (store_le_trans _ _ _ Hs0 Hst2).
      assert (Hright : closed_list st2 right').
      { eapply perm_closed; [eapply (merge_sort_by_fuel_perm store cb1); exact E2|].
        apply skipn_closed. exact (closed_list_mono _ _ _ Hg2 Hl1). }
      destruct (merge_by_agree func left' right' st2 Hs02 (closed_mono _ _ _ Hg2 Hf1)
                  (closed_list_mono _ _ _ Hg2 Hleft) Hright) as [Heq3 Hg3].
      split; [exact Heq3|]. unfold grows in *. exact (store_le_trans _ _ _ Hst2 Hg3).
  Qed.

  Lemma bi_sort_by_agree : forall args st,
    store_le s0 st -> closed_list st args ->
    bi_sort_by store cb1 args st = bi_sort_by store cb2 args st /\
    post (fun s v => closed_value s v) st (bi_sort_by store cb1 args st).
  Proof.
    intros args st Hs0 Hc. unfold bi_sort_by.
    destruct (BuiltinsList.arg args 1) as [func| | | |] eqn:E1;
      try (apply (agree_ret store_le store_le_refl); intros ? Hq; discriminate Hq).
    destruct (BuiltinsList.arg args 0) as [a0| | | |] eqn:E0; cbn [obind];
      try (apply (agree_ret store_le store_le_refl); intros ? Hq; discriminate Hq).
    pose proof (barg_closed _ _ _ _ Hc E1) as Hf. pose proof (barg_closed _ _ _ _ Hc E0) as Ha0.
    destruct a0; cbn [BuiltinsList.as_list];
      try (apply (agree_ret store_le store_le_refl); intros ? Hq; discriminate Hq).
    apply closed_VList in Ha0. unfold sort_by_list.
    destruct (merge_sort_by_fuel_agree (Datatypes.length l) func l st Hs0 Hf Ha0) as [Heq Hg]. rewrite <- Heq.
    destruct (merge_sort_by_fuel store cb1 (Datatypes.length l) func l st) as [res st1] eqn:E.
    unfold grows in Hg. cbn [snd] in Hg.
    split; [reflexivity|split; [exact Hg|]]. cbn [fst snd]. intros v Hv.
    destruct res as [m| | | |]; try discriminate Hv. cbn in Hv. inversion Hv; subst.
    apply closed_VList. eapply perm_closed; [eapply (merge_sort_by_fuel_perm store cb1); exact E|].
    exact (closed_list_mono _ _ _ Hg Ha0).
  Qed.

  (* ---- group_by / count_by ---- *)
  Lemma keyed_items_agree : forall func l st,
    store_le s0 st -> closed_value st func -> closed_list st l ->
    keyed_items store cb1 func l st = keyed_items store cb2 func l st /\
    post (fun s keyed => Forall (fun kv : string * value => closed_value s (snd kv)) keyed) st
         (keyed_items store cb1 func l st).
  Proof.
    intros func l. induction l as [|item rest IH]; intros st Hs0 Hf Hl; cbn [keyed_items].
    - split; [reflexivity|split; [apply store_le_refl|intros a Ha; inversion Ha; constructor]].
    - inversion Hl as [|? ? Hi Hr]; subst.
      assert (Hla : closed_list st [item]) by (constructor; [exact Hi|constructor]).
      destruct (cb_step store_le closed_value cb1 cb2 s0 Hag Hcl func [item] st Hs0 Hf Hla) as [<- [Hs _]].
      destruct (cb1 func func [item] st) as [o s1]. cbn [snd] in Hs.
      destruct o as [k| | | |]; try (split; [reflexivity|split; [exact Hs|intros ? Hq; discriminate Hq]]).
      destruct k; try (split; [reflexivity|split; [exact Hs|intros ? Hq; discriminate Hq]]).
      assert (Hs01 : store_le s0 s1) by exact (store_le_trans _ _ _ Hs0 Hs).
      destruct (IH s1 Hs01 (closed_mono _ _ _ Hs Hf) (closed_list_mono _ _ _ Hs Hr)) as [Heq [Hle Hq]].
      rewrite <- Heq.
      destruct (keyed_items store cb1 func rest s1) as [more st2]. cbn [fst snd] in *.
      split; [reflexivity|split; [exact (store_le_trans _ _ _ Hs Hle)|]].
      intros a Ha. destruct more as [m| | | |]; try discriminate Ha. cbn in Ha. inversion Ha; subst.
      constructor; [cbn [snd]; exact (closed_mono _ _ _ (store_le_trans _ _ _ Hs Hle) Hi)|].
      apply Hq; reflexivity.
  Qed.

  Lemma group_push_items : forall groups key item g x,
    In g (group_push groups key item) -> In x (snd g) ->
    x = item \/ exists g', In g' groups /\ In x (snd g').
  Proof.
    induction groups as [|[k items] rest IH]; intros key item g x Hg Hx; cbn [group_push] in Hg.
    - destruct Hg as [<-|[]]. cbn in Hx. destruct Hx as [<-|[]]. left; reflexivity.
    - destruct (String.eqb key k).
      + destruct Hg as [<-|Hg].
        * cbn [snd] in Hx. apply in_app_or in Hx. destruct Hx as [Hx|[<-|[]]]; [right|left; reflexivity].
          exists (k, items). split; [left; reflexivity|exact Hx].
        * right. exists g. split; [right; exact Hg|exact Hx].
      + destruct Hg as [<-|Hg].
        * right. exists (k, items). split; [left; reflexivity|exact Hx].
        * destruct (IH _ _ _ _ Hg Hx) as [He|[g' [Hg' Hx']]]; [left; exact He|].
          right. exists g'. split; [right; exact Hg'|exact Hx'].
  Qed.
  Lemma groups_fold_items : forall keyed groups g x,
    In g (fold_left (fun groups kv => group_push groups (fst kv) (snd kv)) keyed groups) -> In x (snd g) ->
    (exists kv : string * value, In kv keyed /\ x = snd kv) \/ exists g', In g' groups /\ In x (snd g').
  Proof.
    induction keyed as [|kv rest IH]; intros groups g x Hg Hx; cbn [fold_left] in Hg.
    - right. exists g. split; assumption.
    - destruct (IH _ _ _ Hg Hx) as [[kv' [Hin He]]|[g' [Hg' Hx']]].
      + left. exists kv'. split; [right; exact Hin|exact He].
      + destruct (group_push_items _ _ _ _ _ Hg' Hx') as [He|[g'' [Hg'' Hx'']]].
        * left. exists kv. split; [left; reflexivity|exact He].
        * right. exists g''. split; assumption.
  Qed.

  Lemma by_prologue_closed : forall st args func l, closed_list st args ->
    by_prologue args = Ok (func, l) -> closed_value st func /\ closed_list st l.
  Proof.
    intros st args func l Hc H. unfold by_prologue in H.
    destruct (BuiltinsList.arg args 1) as [f0| | | |] eqn:E1; try discriminate. cbn [obind] in H.
    destruct (BuiltinsList.arg args 0) as [a0| | | |] eqn:E0; try discriminate. cbn [obind] in H.
    destruct (BuiltinsList.as_list a0) as [l0| | | |] eqn:El; try discriminate. cbn [obind] in H.
    destruct (is_function f0); try discriminate. inversion H; subst.
    split; [eapply barg_closed; eauto|].
    pose proof (barg_closed _ _ _ _ Hc E0) as Ha0. destruct a0; try discriminate. inversion El; subst.
    apply closed_VList. exact Ha0.
  Qed.

  Lemma bi_group_by_agree : forall args st,
    store_le s0 st -> closed_list st args ->
    bi_group_by store cb1 args st = bi_group_by store cb2 args st /\
    post (fun s v => closed_value s v) st (bi_group_by store cb1 args st).
  Proof.
    intros args st Hs0 Hc. unfold bi_group_by.
    destruct (by_prologue args) as [[func l]| | | |] eqn:Ep;
      try (apply (agree_ret store_le store_le_refl); intros ? Hq; discriminate Hq).
    destruct (by_prologue_closed _ _ _ _ Hc Ep) as [Hf Hl].
    destruct (keyed_items_agree func l st Hs0 Hf Hl) as [Heq [Hle Hq]]. rewrite <- Heq.
    destruct (keyed_items store cb1 func l st) as [keyed st1]. cbn [fst snd] in *.
    split; [reflexivity|split; [exact Hle|]]. intros v Hv.
    destruct keyed as [k| | | |]; try discriminate Hv. cbn in Hv. inversion Hv; subst.
    specialize (Hq k eq_refl). apply closed_VRec. unfold closed_frame. rewrite Forall_forall.
    intros kv Hkv. apply in_map_iff in Hkv. destruct Hkv as [g [<- Hg]]. cbn [snd].
    apply closed_VList. unfold closed_list. rewrite Forall_forall. intros x Hx.
    unfold groups_of in Hg. destruct (groups_fold_items _ _ _ _ Hg Hx) as [[kv [Hin ->]]|[g' [[] _]]].
    rewrite Forall_forall in Hq. apply Hq; exact Hin.
  Qed.

  Lemma bi_count_by_agree : forall args st,
    store_le s0 st -> closed_list st args ->
    bi_count_by store cb1 args st = bi_count_by store cb2 args st /\
    post (fun s v => closed_value s v) st (bi_count_by store cb1 args st).
  Proof.
    intros args st Hs0 Hc. unfold bi_count_by.
    destruct (by_prologue args) as [[func l]| | | |] eqn:Ep;
      try (apply (agree_ret store_le store_le_refl); intros ? Hq; discriminate Hq).
    destruct (by_prologue_closed _ _ _ _ Hc Ep) as [Hf Hl].
    destruct (keyed_items_agree func l st Hs0 Hf Hl) as [Heq [Hle Hq]]. rewrite <- Heq.
    destruct (keyed_items store cb1 func l st) as [keyed st1]. cbn [fst snd] in *.
    split; [reflexivity|split; [exact Hle|]]. intros v Hv.
    destruct keyed as [k| | | |]; try discriminate Hv. cbn in Hv. inversion Hv; subst.
    apply closed_VRec. unfold closed_frame. rewrite Forall_forall.
    intros kv Hkv. apply in_map_iff in Hkv. destruct Hkv as [g [<- Hg]]. triv.
  Qed.

  (* the dispatcher of EvalFull.v *)
  Theorem builtin_full_agree0_gen : forall b args st,
    store_le s0 st -> closed_list st args ->
    builtin_full cb1 b args st = builtin_full cb2 b args st /\
    post (fun s v => closed_value s v) st (builtin_full cb1 b args st).
  Proof.
    intros b args st Hs0 Hc.
    (* Three kinds of arm: those of EvalInst.v ([builtin_impl_agree]); the pure ones, each closed by the
       lemma of Section Pure named after it (the second group needs the arguments closed); and
       sort_by / group_by / count_by.  The arms EvalFull.v leaves Unmodelled fall under the first kind. *)
    destruct b; cbn [builtin_full]; unfold pure_bi;
      try (exact (builtin_impl_agree cb1 cb2 s0 Hag Hcl _ args st Hs0 Hc));
      try (apply (agree_ret store_le store_le_refl);
           first [ apply bi_range_closed | apply bi_min_closed | apply bi_max_closed | apply bi_avg_closed
                 | apply bi_sum_closed | apply bi_prod_closed | apply bi_median_closed
                 | apply bi_percentile_closed | apply bi_len_closed | apply bi_dot_closed
                 | apply bi_split_closed | apply bi_replace_closed | apply bi_includes_closed
                 | apply bi_keys_closed | apply bi_convert_closed | apply bi_round_closed | apply bi_random_closed
                 | apply bi_to_number_closed | apply bi_to_string_closed | apply bi_join_full_closed
                 | intros v;
                   first [ apply bi_head_closed | apply bi_tail_closed | apply bi_slice_closed
                         | apply bi_concat_closed | apply bi_unique_closed | apply bi_sort_closed
                         | apply bi_reverse_closed | apply bi_values_closed | apply bi_entries_closed
                         | apply bi_flatten_closed | apply bi_zip_closed | apply bi_chunk_closed ];
                   exact Hc ]);
      first [apply bi_sort_by_agree | apply bi_group_by_agree | apply bi_count_by_agree]; assumption.
  Qed.

  (* the dispatcher and the operator table of EvalAll.v, for every oracle *)
  Theorem builtin_all_agree_gen : forall o b args st,
    store_le s0 st -> closed_list st args ->
    builtin_all o cb1 b args st = builtin_all o cb2 b args st /\
    post (fun s v => closed_value s v) st (builtin_all o cb1 b args st).
  Proof.
    intros o b args st Hs0 Hc. destruct (builtin_all_cases o b) as [[f [E Hf]]|E]; rewrite !E.
    - apply (agree_ret store_le store_le_refl). intros v Hv. apply atomic_closed. exact (Hf args v Hv).
    - apply builtin_full_agree0_gen; assumption.
  Qed.

  Theorem binop_all_agree_gen : forall o op l r st,
    store_le s0 st -> closed_value st l -> closed_value st r ->
    binop_all o cb1 op l r st = binop_all o cb2 op l r st /\
    (forall res st', binop_all o cb1 op l r st = (res, st') ->
       store_le st st' /\ (forall v, res = Ok v -> closed_value st' v)).
  Proof.
    intros o op l r st Hs0 Hl Hr. unfold binop_all.
    destruct op; try (exact (binop_impl_agree cb1 cb2 s0 Hag Hcl _ l r st Hs0 Hl Hr)).
    (* `^` through the oracle's powf *)
    exact (eval_binop_agree cb1 cb2 s0 Hag Hcl fn_accepts2_of_value (o_powf o) Power l r st Hs0 Hl Hr).
  Qed.
  End ByAgree.
End AbstractPure.
