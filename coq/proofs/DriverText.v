(* DriverText.v — C09 for the two statement drivers at text level: the comments a lexer-level
   scan finds in the text a driver emits are the comments of the program, in order.
   The theorems are proved in PegAtomsC09Scan.v for the weaker comment predicate comment_ok_cr;
   here they are carried over to comment_ok, which implies it. *)
From Coq Require Import String Ascii List ZArith Bool Lia.
Require Import Blots.Num Blots.gen.Builtins Blots.Ast Blots.Formatter Blots.proofs.ExprInd
  Blots.proofs.Scan Blots.proofs.Comments Blots.proofs.ScanFmt Blots.proofs.PegAtomsC09Scan.
Import ListNotations.
Open Scope list_scope.

Lemma forallb_weaker : forall {A} (f g : A -> bool) l,
  Forall (fun x => f x = true -> g x = true) l -> forallb f l = true -> forallb g l = true.
Proof.
  induction 1 as [|x l Hx _ IH]; intros H; [reflexivity|].
  cbn [forallb] in *. apply andb_prop in H as [H1 H2]. now rewrite (Hx H1), (IH H2).
Qed.

Lemma comments_weaker : forall l, forallb comment_ok l = true -> forallb comment_ok_cr l = true.
Proof. intros l. apply forallb_weaker, Forall_forall. intros c _. apply comment_ok_weaker. Qed.

Lemma comments_ok_weaker : forall {A} (c : commented A), comments_ok c = true -> CR.comments_ok c = true.
Proof.
  intros A c H. unfold comments_ok in H. apply andb_prop in H as [H1 H2].
  unfold CR.comments_ok, CR.comment_ok. rewrite (comments_weaker _ H1).
  destruct (ctrailing c); [exact (comments_weaker _ H2)|reflexivity].
Qed.

Section DriverText.
  Variable O : oracles.
  Variable key_ok : string -> bool.
  Hypothesis Hrk : forall k, key_ok k = true -> neutral (o_record_key O k).

  Definition stmt_ok (mw : option nat) (s : stmt) : Prop :=
    let w := match mw with Some n => n | None => DEFAULT_MAX_COLUMNS end in
    match s with
    | St k eol _ _ =>
        (match k with
         | SComment c => comment_ok c = true
         | SExpr e =>
             wf_ast e = true /\ atoms_ok key_ok e = true /\
             forallb cfree (doc_opaque (fmtd O w e 0)) = true /\
             opaque_texts_neutral (fmtd O w e 0)
         | SOut e =>
             wf_ast e = true /\ atoms_ok key_ok e = true /\
             forallb cfree (doc_opaque (fmtd O w (EOutput e) 0)) = true /\
             opaque_texts_neutral (fmtd O w (EOutput e) 0)
         end) /\
        match eol with
        | Some c => comment_ok c = true /\ match k with SComment _ => False | _ => True end
        | None => True
        end
    end.

  Lemma atoms_ok_weaker : forall e, atoms_ok key_ok e = true -> CR.atoms_ok key_ok e = true.
  Proof.
    assert (items : forall l,
      Forall (fun c => atoms_ok key_ok (cnode c) = true -> CR.atoms_ok key_ok (cnode c) = true) l ->
      forallb (fun c => comments_ok c && atoms_ok key_ok (cnode c)) l = true ->
      forallb (fun c => CR.comments_ok c && CR.atoms_ok key_ok (cnode c)) l = true).
    { intros l H. apply forallb_weaker. eapply Forall_impl; [|exact H]. intros c Hc Hb.
      apply andb_prop in Hb as [B1 B2]. now rewrite (comments_ok_weaker _ B1), (Hc B2). }
    apply (expr_ind' (fun e => atoms_ok key_ok e = true -> CR.atoms_ok key_ok e = true)); try reflexivity;
      cbn [atoms_ok CR.atoms_ok].
    - exact items.
    - intros entries H. apply forallb_weaker.
      eapply Forall_impl; [|exact H]. intros [lead [k v] tr] [Hk Hv] Hb.
      apply andb_prop in Hb as [Hb B3]. apply andb_prop in Hb as [B1 B2].
      rewrite (comments_ok_weaker _ B1). change (CR.key_atoms_ok key_ok) with (key_atoms_ok key_ok). rewrite B2.
      destruct k; cbn [cnode Pkey] in *; auto.
      apply andb_prop in B3 as [B3 B4]. now rewrite (Hk B3), (Hv B4).
    - intros args body IH Ha. apply andb_prop in Ha as [A B]. now rewrite A, (IH B).
    - intros c t f I1 I2 I3 Ha. apply andb_prop in Ha as [Ha C]. apply andb_prop in Ha as [A B].
      now rewrite (I1 A), (I2 B), (I3 C).
    - intros stmts ret H IR Ha. apply andb_prop in Ha as [Ha C]. apply andb_prop in Ha as [A B].
      unfold CR.comment_ok. now rewrite (items _ H A), (comments_weaker _ B), (IR C).
    - intros x v IH Ha. apply andb_prop in Ha as [A B]. now rewrite A, (IH B).
    - auto.
    - intros f args If H Ha. apply andb_prop in Ha as [A B]. now rewrite (If A), (forallb_weaker _ _ _ H B).
    - intros a ix I1 I2 Ha. apply andb_prop in Ha as [A B]. now rewrite (I1 A), (I2 B).
    - intros a f IH Ha. apply andb_prop in Ha as [A B]. now rewrite (IH A), B.
    - intros op l r I1 I2 Ha. apply andb_prop in Ha as [A B]. now rewrite (I1 A), (I2 B).
    - auto.
    - auto.
    - auto.
  Qed.

  Lemma stmt_ok_weaker : forall mw s, stmt_ok mw s -> CR.stmt_ok O key_ok mw s.
  Proof.
    intros mw [k eol a b] [Hk He]. split.
    - destruct k; [| |exact (comment_ok_weaker _ Hk)];
        destruct Hk as (Hw & Ha & Hc & Ho); auto using atoms_ok_weaker.
    - destruct eol as [c|]; [|exact I]. destruct He as [Hc Hn]. split; [exact (comment_ok_weaker _ Hc)|exact Hn].
  Qed.

  (* C09 for the library driver at text level: the comments a lexer-level scan finds in the text
     format_blots returns are the comments of the program, in order *)
  Theorem lib_driver_text_comments : forall mw p d,
    Forall (stmt_ok mw) p ->
    format_lib O mw p = Some d ->
    scan_comments (render d) = program_comments p.
  Proof.
    intros mw p d Hp. apply (CR.lib_driver_text_comments O key_ok Hrk).
    eapply Forall_impl; [|exact Hp]. apply stmt_ok_weaker.
  Qed.

  (* ... and for blots --format *)
  Theorem cli_driver_text_comments : forall p,
    Forall (stmt_ok None) p ->
    scan_comments (render (format_cli O p)) = program_comments p.
  Proof.
    intros p Hp. apply (CR.cli_driver_text_comments O key_ok Hrk).
    eapply Forall_impl; [|exact Hp]. apply stmt_ok_weaker.
  Qed.
End DriverText.
