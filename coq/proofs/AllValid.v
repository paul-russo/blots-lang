(* AllValid.v — C01 at evaluator level for the COMPLETE built-in set: AllValidEval.v (the evaluator induction
   carrying the validity invariant, generic in the operators and built-ins) instantiated with
   AllValidOps.binop_all_valid and AllValidBuiltins.builtin_all_fit_valid.  For every oracle o with
   oracle_valid o and oracle_display_safe o, every valid expression / program, every configuration whose innermost
   frame is Owned and whose bound values are valid, every depth budget, both build profiles:
   the outcome is never Panic, the value is valid, the configuration handed back satisfies the invariant again.
   The ONE remaining explicit side condition is percentile's list length (Valid.builtin_all_fit: see there). *)
From Coq Require Import String Ascii List ZArith Bool Lia Floats.SpecFloat.
Require Import Blots.Num Blots.gen.Builtins Blots.Ast Blots.Value Blots.Outcome Blots.Binop
               Blots.Env Blots.Eval Blots.BuiltinsHof Blots.Program Blots.EvalInst Blots.EvalFull
               Blots.EvalAll Blots.AllRun Blots.DisplayNum Blots.Valid
               Blots.proofs.NoPanic Blots.proofs.AllNoPanic Blots.proofs.DisplayNum
               Blots.proofs.AllValidNum Blots.proofs.AllValidEval Blots.proofs.AllValidOps
               Blots.proofs.AllValidPure Blots.proofs.AllValidBuiltins.
Require Blots.proofs.DisplayNumDischarge7 Blots.proofs.DisplayNumAcc.
Import ListNotations.
Open Scope list_scope.

(* ---------------- the factorial ---------------- *)
Lemma fact_prod_valid : forall k i acc, valid_num acc -> valid_num (fact_prod k i acc).
Proof.
  induction k as [|k IH]; intros i acc Ha; cbn [fact_prod]; [exact Ha|].
  apply IH. apply nmul_valid; [exact Ha|apply num_of_Z_valid].
Qed.
Lemma factorial_valid : forall release n, valid_num n -> vres (factorial_val release n).
Proof.
  intros release n _. unfold factorial_val. destruct (_ && _); [|apply vres_err].
  apply vres_ok. apply fact_prod_valid. apply num_of_Z_valid.
Qed.

Section WithOracle.
  Variable o : oracle.
  Hypothesis Ho : oracle_valid o.
  Hypothesis Hd : oracle_display_safe o.

  Let bi_ok := binop_all_valid o Ho.
  Let bu_ok := builtin_all_fit_valid o Ho Hd.

  Theorem evalD_all_good : forall release d c e, valid_expr e -> wf c -> valid_cfg c ->
    good valid_value (evalD release (binop_all o) (builtin_all_fit o) d c e).
  Proof.
    intros release d c e He Hw Hc.
    apply (evalD_ok release (binop_all o) (builtin_all_fit o) bi_ok bu_ok (factorial_valid release));
      [exact He|split; [exact Hw|exact Hc]].
  Qed.

  Theorem evalD_all_no_panic : forall release d c e, valid_expr e -> wf c -> valid_cfg c ->
    fst (evalD release (binop_all o) (builtin_all_fit o) d c e) <> Panic.
  Proof. intros release d c e He Hw Hc. exact (proj1 (evalD_all_good release d c e He Hw Hc)). Qed.

  Theorem evalD_all_preserves : forall release d c e r c', valid_expr e -> wf c -> valid_cfg c ->
    evalD release (binop_all o) (builtin_all_fit o) d c e = (r, c') ->
    (forall v, r = Ok v -> valid_value v) /\ wf c' /\ valid_cfg c'.
  Proof.
    intros release d c e r c' He Hw Hc E.
    destruct (evalD_all_good release d c e He Hw Hc) as (_ & Hv & Hi). rewrite E in Hv, Hi. cbn [fst snd] in *.
    split; [exact Hv|exact Hi].
  Qed.

  Theorem AD_all_no_panic : forall release d fr this f args st,
    valid_frames fr -> valid_value this -> valid_value f -> valid_values args ->
    fst (AD release (binop_all o) (builtin_all_fit o) d fr this f args st) <> Panic /\
    (forall v, fst (AD release (binop_all o) (builtin_all_fit o) d fr this f args st) = Ok v -> valid_value v).
  Proof.
    intros release d fr this f args st Hfr Ht Hf Ha.
    exact (AD_ok release (binop_all o) (builtin_all_fit o) bi_ok bu_ok (factorial_valid release) d fr Hfr this f args st Ht Hf Ha).
  Qed.

  Theorem program_all_no_panic : forall release inputs prog, valid_inputs inputs -> valid_prog prog ->
    Forall (fun rs => fst rs <> RFail Panic /\ valid_resultb (fst rs) = true)
           (snd (run (eval_top release (binop_all o) (builtin_all_fit o)) (init_session inputs) prog)).
  Proof.
    intros release inputs prog Hi Hp.
    apply (run_ok release (binop_all o) (builtin_all_fit o) bi_ok bu_ok (factorial_valid release));
      [exact Hp|apply init_session_Inv; exact Hi].
  Qed.

  (* the per-call statement for the REAL dispatcher: validity discharges the percentile / format conditions of
     C01_builtin_call_no_panic_all except the list length *)
  Theorem builtin_all_call_valid : forall cb b args st, vcb cb ->
    can_accept (builtin_arity b) (Datatypes.length args) = true -> valid_values args ->
    (b = B_percentile -> percentile_fits args = true) ->
    fst (builtin_all o cb b args st) <> Panic /\
    (forall v, fst (builtin_all o cb b args st) = Ok v -> valid_value v).
  Proof.
    intros cb b args st Hcb Ha Hv Hf.
    rewrite <- (fit_is_the_only_difference o cb b args st Hf). exact (bu_ok cb b args st Hcb Ha Hv).
  Qed.
End WithOracle.

(* ---------------- the display condition: two sufficient conditions ---------------- *)
Lemma display_safe_of_log10_in_range : forall o, log10_in_range o -> oracle_display_safe o.
Proof.
  intros o Hlog x Hx.
  destruct (display_no_panic (o_log10 o) (o_powi o) (o_fmt_prec o) (o_fmt_exp14 o) (o_parse_f64 o) true
              Hlog x Hx) as [t Ht].
  unfold display_text. rewrite Ht. discriminate.
Qed.

Definition log10_sane_pos (log10 : num -> num) : Prop :=
  forall a k, valid_binary prec emax a = true -> nsign a = false -> DisplayNumAcc.in_decade a k ->
              (k <= as_i32 (nfloor (log10 a)) <= k + 1)%Z.
Definition display_library_exec (o : oracle) : Prop :=
  o_powi o = powi_exec /\ o_fmt_prec o = fmt_prec_exec /\ o_fmt_exp14 o = fmt_exp14_exec /\
  o_parse_f64 o = parse_f64_exec.
Lemma display_safe_of_log10_sane_pos : forall o,
  log10_sane_pos (o_log10 o) -> display_library_exec o -> oracle_display_safe o.
Proof.
  intros o HL (E1 & E2 & E3 & E4) x Hx.
  destruct (DisplayNumDischarge7.display_total_exec_pos (o_log10 o) HL x Hx) as [t Ht].
  unfold display_text. rewrite E1, E2, E3, E4, Ht. discriminate.
Qed.

(* ---------------- the hypotheses are satisfiable ---------------- *)
Lemma oracle_trivial_valid : oracle_valid oracle_trivial.
Proof.
  constructor; cbn; intros; try assumption; try reflexivity; apply num_of_Z_valid.
Qed.
Lemma oracle_trivial_display_safe : oracle_display_safe oracle_trivial.
Proof.
  apply display_safe_of_log10_in_range. intros a. cbn. vm_compute. discriminate.
Qed.

(* the lookup-table oracle of the ALL stream is valid for EVERY table: its numbers are bit patterns
   (num_of_bits: every 64-bit pattern is a double), the exact floor-log10 fallback is num_of_Z *)
Lemma libm_of_valid : forall T f x, valid_num (libm_of T f x).
Proof. intros T f x. unfold libm_of. destruct (find3 _ _ _); apply num_of_bits_valid. Qed.
Theorem oracle_of_valid : forall T, oracle_valid (oracle_of T).
Proof.
  intros T. constructor; cbn [oracle_of o_sin o_cos o_tan o_asin o_acos o_atan o_ln o_log10 o_exp o_powf o_now];
    intros; try apply libm_of_valid.
  - unfold log10_of. destruct (find3 _ _ _); [apply num_of_bits_valid|].
    unfold log10_floor_exact. destruct x; try exact valid_nan.
    destruct (DisplayNum.mag_frac m e) as [N D]. apply num_of_Z_valid.
  - unfold powf_of. destruct (find3 _ _ _); apply num_of_bits_valid.
  - destruct (t_now T); [apply num_of_bits_valid|exact valid_nan].
Qed.
Lemma oracle_of_display_library : forall T, display_library_exec (oracle_of T).
Proof. intros T. repeat split. Qed.
