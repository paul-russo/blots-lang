(* PrattFuel.v — an explicit fuel bound: whatever the relations derive for a token stream `its`, the
   function returns with any fuel >= 3 * items_size its + 2; in particular with the fuel
   4 * items_size its + 4 of `pratt`. *)
From Coq Require Import String List Bool Arith Lia.
Require Import Blots.Num Blots.gen.Builtins Blots.Ast Blots.Outcome Blots.PrattTypes Blots.Pratt
               Blots.proofs.PrattSteps.
Import ListNotations.
Local Open Scope nat_scope.
Local Open Scope list_scope.

(* f returns Ok v with every fuel from n on *)
Definition evb {A} (f : nat -> outcome A) (v : A) (n : nat) : Prop := forall m, n <= m -> f m = Ok v.

(* ---- sizes ---- *)
Fixpoint lels_size (l : list lelem) : nat :=
  match l with
  | [] => 0
  | LCom _ :: r => 1 + lels_size r
  | LItem g _ :: r => 1 + items_size g + lels_size r
  end.
Fixpoint rels_size (l : list relem) : nat :=
  match l with
  | [] => 0
  | RCom _ :: r => 1 + rels_size r
  | RPairI k v _ :: r => 2 + match k with RKDyn inner => items_size inner | _ => 0 end + items_size v + rels_size r
  | RShortI _ _ :: r => 1 + rels_size r
  | RSpreadI g _ :: r => 1 + items_size g + rels_size r
  end.
Fixpoint dels_size (l : list delem) : nat :=
  match l with
  | [] => 0
  | DStmt g _ :: r => 1 + items_size g + dels_size r
  | DRet g :: r => 1 + items_size g + dels_size r
  | _ :: r => 1 + dels_size r
  end.
Fixpoint args_size (l : list (list item)) : nat :=
  match l with [] => 0 | g :: r => 1 + items_size g + args_size r end.

Lemma sz_eq : forall l,
  (fix sz (l : list item) : nat := match l with [] => 0 | x :: r => item_size x + sz r end) l = items_size l.
Proof. induction l as [|x l IH]; [reflexivity|]. unfold items_size in *. cbn [fold_right]. rewrite <- IH. reflexivity. Qed.

Lemma items_size_cons : forall i l, items_size (i :: l) = item_size i + items_size l.
Proof. reflexivity. Qed.
Lemma item_size_pos : forall i, 1 <= item_size i.
Proof. destruct i; cbn; lia. Qed.

Lemma size_IExpr : forall b g, item_size (IExpr b g) = 1 + items_size g.
Proof. reflexivity. Qed.
Lemma size_ILambda : forall a g, item_size (ILambda a g) = 1 + items_size g.
Proof. reflexivity. Qed.
Lemma size_IAssign : forall x g, item_size (IAssign x g) = 1 + items_size g.
Proof. reflexivity. Qed.
Lemma size_IAccess : forall g, item_size (IAccess g) = 1 + items_size g.
Proof. reflexivity. Qed.
Lemma size_ICond : forall c t e, item_size (ICond c t e) = 1 + items_size c + items_size t + items_size e.
Proof. reflexivity. Qed.
Lemma size_IList : forall els, item_size (IList els) = 1 + lels_size els.
Proof. reflexivity. Qed.
Lemma size_IRecord : forall els, item_size (IRecord els) = 1 + rels_size els.
Proof. reflexivity. Qed.
Lemma size_IDo : forall els, item_size (IDo els) = 1 + dels_size els.
Proof. reflexivity. Qed.
Lemma size_ICall : forall args, item_size (ICall args) = 1 + args_size args.
Proof. reflexivity. Qed.

Section Bound.
  Variable tbl : ops_map.
  Variable imap : list (oprule * binop).
  Variable pmap : list (oprule * prefix_ctor).
  Notation pexpr' := (pexpr tbl imap pmap).
  Notation ploop' := (ploop tbl imap pmap).
  Notation mpost' := (map_postfix tbl imap pmap).
  Notation primary' := (primary tbl imap pmap).
  Notation parse' := (parse_items tbl imap pmap).

  (* 3 per pair: a pair that is an operand costs one step each of pexpr, primary and (for a nested stream)
     parse_items, or of ploop, map_postfix and parse_items for a postfix pair *)
  Theorem rel_bound :
    (forall rbp its t rest, Expr tbl imap pmap rbp its t rest ->
        evb (fun m => pexpr' m rbp its) (Some t, rest) (3 * items_size its + 1) /\
        items_size rest <= items_size its) /\
    (forall rbp lhs its t rest, Loop tbl imap pmap rbp lhs its t rest ->
        evb (fun m => ploop' m rbp (Some lhs) its) (Some t, rest) (3 * items_size its + 1) /\
        items_size rest <= items_size its) /\
    (forall lhs i u, Post tbl imap pmap lhs i u ->
        evb (fun m => mpost' m (Some lhs) i) (Some u) (3 * item_size i)) /\
    (forall i x, Prim tbl imap pmap i x -> evb (fun m => primary' m i) (Some x) (3 * item_size i)) /\
    (forall its t, Items tbl imap pmap its t ->
        evb (fun m => parse' m its) (Some t) (3 * items_size its + 2)) /\
    (forall args es, Args tbl imap pmap args es ->
        evb (fun m => omapM (parse' m) args) (Some es) (3 * args_size args)) /\
    (forall els es, LEls tbl imap pmap els es ->
        evb (fun m => list_loop (parse' m) els) (Some es) (3 * lels_size els)) /\
    (forall els es, REls tbl imap pmap els es ->
        evb (fun m => rec_loop (parse' m) els) (Some es) (3 * rels_size els)) /\
    (forall els stmts ret t, DEls tbl imap pmap els stmts ret t ->
        evb (fun m => do_loop (parse' m) els stmts ret) (Some t) (3 * dels_size els)).
  Proof.
    unfold evb. apply parse_rel_mutind.
    - (* E_prefix *)
      intros rbp i r p its x mid u t rest Hop Hops _ [IH1 S1] Hpre _ [IH2 S2].
      rewrite items_size_cons. pose proof (item_size_pos i). split; [|lia].
      intros [|m] Hm; [lia|]. rewrite pexpr_S. cbv beta iota. rewrite Hop, Hops, IH1 by lia.
      cbn [obind fst snd]. rewrite Hpre. apply IH2. lia.
    - (* E_primary *)
      intros rbp i its x t rest Hop _ IH1 _ [IH2 S2].
      rewrite items_size_cons. pose proof (item_size_pos i). split; [|lia].
      intros [|m] Hm; [lia|]. rewrite pexpr_S. cbv beta iota. rewrite Hop, IH1 by lia. apply IH2. lia.
    - (* L_stop *)
      intros rbp lhs its l Hl Hle. split; [|lia].
      intros [|m] Hm; [lia|]. rewrite ploop_S, Hl. cbn [obind]. rewrite (proj2 (Nat.ltb_ge rbp l) Hle). reflexivity.
    - (* L_infix *)
      intros rbp lhs i r a p its rhs mid u t rest Hop Hops Hlt _ [IH1 S1] Hin _ [IH2 S2].
      rewrite items_size_cons. pose proof (item_size_pos i). split; [|lia].
      intros [|m] Hm; [lia|]. rewrite ploop_S. unfold lbp. rewrite Hop, Hops. cbn [obind].
      rewrite (proj2 (Nat.ltb_lt rbp p) Hlt), IH1 by lia. cbn [obind fst snd]. rewrite Hin. apply IH2. lia.
    - (* L_postfix *)
      intros rbp lhs i r p its u t rest Hop Hops Hlt _ IH1 _ [IH2 S2].
      rewrite items_size_cons. pose proof (item_size_pos i). split; [|lia].
      intros [|m] Hm; [lia|]. rewrite ploop_S. unfold lbp. rewrite Hop, Hops. cbn [obind].
      rewrite (proj2 (Nat.ltb_lt rbp p) Hlt), IH1 by lia. apply IH2. lia.
    - (* Po_fact *) intros lhs [|m] Hm; [cbn in Hm; lia | reflexivity].
    - (* Po_access *)
      intros lhs inner i _ IH m Hm. rewrite size_IAccess in Hm. destruct m as [|m]; [lia|]. rewrite mpost_S, IH by lia. reflexivity.
    - (* Po_dot *) intros lhs f [|m] Hm; [cbn in Hm; lia | reflexivity].
    - (* Po_call *)
      intros lhs args es _ IH m Hm. rewrite size_ICall in Hm. destruct m as [|m]; [lia|]. rewrite mpost_S, IH by lia. reflexivity.
    - intros x [|m] Hm; [cbn in Hm; lia | reflexivity].
    - intros s [|m] Hm; [cbn in Hm; lia | reflexivity].
    - intros b [|m] Hm; [cbn in Hm; lia | reflexivity].
    - intros [|m] Hm; [cbn in Hm; lia | reflexivity].
    - intros s b H [|m] Hm; [cbn in Hm; lia|]. rewrite primary_S, H. reflexivity.
    - intros s H [|m] Hm; [cbn in Hm; lia|]. rewrite primary_S, H. reflexivity.
    - intros s [|m] Hm; [cbn in Hm; lia | reflexivity].
    - (* P_expr *) intros b g t _ IH m Hm. rewrite size_IExpr in Hm. destruct m as [|m]; [lia|]. rewrite primary_S. apply IH. lia.
    - (* P_list *)
      intros els es _ IH m Hm. rewrite size_IList in Hm. destruct m as [|m]; [lia|]. rewrite primary_S, IH by lia. reflexivity.
    - (* P_rec *)
      intros els es _ IH m Hm. rewrite size_IRecord in Hm. destruct m as [|m]; [lia|]. rewrite primary_S, IH by lia. reflexivity.
    - (* P_lam *)
      intros args body b _ IH m Hm. rewrite size_ILambda in Hm. destruct m as [|m]; [lia|]. rewrite primary_S, IH by lia. reflexivity.
    - (* P_cond *)
      intros c t e c' t' e' _ IH1 _ IH2 _ IH3 m Hm. rewrite size_ICond in Hm. destruct m as [|m]; [lia|].
      rewrite primary_S, IH1 by lia. cbn [obind]. rewrite IH2 by lia. cbn [obind]. rewrite IH3 by lia. reflexivity.
    - (* P_do *) intros els t _ IH m Hm. rewrite size_IDo in Hm. destruct m as [|m]; [lia|]. rewrite primary_S. apply IH. lia.
    - (* P_assign *)
      intros x v v' _ IH m Hm. rewrite size_IAssign in Hm. destruct m as [|m]; [lia|]. rewrite primary_S, IH by lia. reflexivity.
    - (* I_intro *) intros its t rest _ [IH _] [|m] Hm; [lia|]. rewrite parse_S, IH by lia. reflexivity.
    - (* A_nil *) reflexivity.
    - (* A_cons *)
      intros g e gs es _ IH1 _ IH2 m Hm. cbn [args_size] in Hm. cbn [omapM].
      rewrite IH1 by lia. cbn [obind]. rewrite IH2 by lia. reflexivity.
    - (* LE_nil *) reflexivity.
    - (* LE_com *) intros s els es _ IH m Hm. cbn [lels_size] in Hm. apply IH. lia.
    - (* LE_item *)
      intros g eol e els es _ IH1 _ IH2 m Hm. cbn [lels_size] in Hm. cbn [list_loop].
      rewrite IH1 by lia. cbn [obind]. rewrite IH2 by lia. reflexivity.
    - (* RE_nil *) reflexivity.
    - (* RE_com *) intros s els es _ IH m Hm. cbn [rels_size] in Hm. apply IH. lia.
    - (* RE_pair_id *)
      intros s v eol v' els es _ IH1 _ IH2 m Hm. cbn [rels_size] in Hm. cbn [rec_loop key_of obind].
      rewrite IH1 by lia. cbn [obind]. rewrite IH2 by lia. reflexivity.
    - (* RE_pair_str *)
      intros s v eol v' els es _ IH1 _ IH2 m Hm. cbn [rels_size] in Hm. cbn [rec_loop key_of obind].
      rewrite IH1 by lia. cbn [obind]. rewrite IH2 by lia. reflexivity.
    - (* RE_pair_dyn *)
      intros inner k v eol v' els es _ IH0 _ IH1 _ IH2 m Hm. cbn [rels_size] in Hm. cbn [rec_loop key_of].
      rewrite IH0 by lia. cbn [obind option_map]. rewrite IH1 by lia. cbn [obind]. rewrite IH2 by lia. reflexivity.
    - (* RE_short *)
      intros s eol els es _ IH m Hm. cbn [rels_size] in Hm. cbn [rec_loop]. rewrite IH by lia. reflexivity.
    - (* RE_spread *)
      intros g eol e els es _ IH1 _ IH2 m Hm. cbn [rels_size] in Hm. cbn [rec_loop].
      rewrite IH1 by lia. cbn [obind]. rewrite IH2 by lia. reflexivity.
    - (* DE_nil *) reflexivity.
    - (* DE_stmt *)
      intros g c e els stmts ret t _ IH1 _ IH2 m Hm. cbn [dels_size] in Hm. cbn [do_loop].
      rewrite IH1 by lia. apply IH2. lia.
    - intros s c els stmts ret t _ IH m Hm. cbn [dels_size] in Hm. apply IH. lia.
    - intros s els stmts ret t _ IH m Hm. cbn [dels_size] in Hm. apply IH. lia.
    - (* DE_ret *)
      intros g e els stmts ret t _ IH1 _ IH2 m Hm. cbn [dels_size] in Hm. cbn [do_loop].
      rewrite IH1 by lia. apply IH2. lia.
  Qed.

  Corollary items_bound : forall its t,
    Items tbl imap pmap its t -> forall m, 3 * items_size its + 2 <= m -> parse' m its = Ok (Some t).
  Proof. intros its t H. exact (proj1 (proj2 (proj2 (proj2 (proj2 rel_bound)))) its t H). Qed.
End Bound.
