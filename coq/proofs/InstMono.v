(* InstMono.v — the concrete operator and built-in implementations used by the model
   (EvalInst.v) only move the store through their callback: StoreRelOps.v at store_le. *)
From Coq Require Import String List ZArith Bool Lia.
Require Import Blots.Num Blots.gen.Builtins Blots.Ast Blots.Value Blots.Outcome Blots.Binop
               Blots.Env Blots.Eval Blots.BuiltinsHof Blots.Program Blots.EvalInst
               Blots.proofs.StoreMono Blots.proofs.StoreRelOps.
Import ListNotations.

Lemma binop_impl_mono : binop_mono binop_impl.
Proof. exact (binop_impl_R store_le store_le_refl store_le_trans). Qed.

Lemma builtin_impl_mono : builtin_mono builtin_impl.
Proof. exact (builtin_impl_R store_le store_le_refl store_le_trans). Qed.
