(* EmitNqHOOpsFull.v — C05: EmitHOOpsFull.v for the relation of EmitNqHO.v.  Every transcribed built-in of
   EvalFull.builtin_full except the two that apply Value::equals to argument elements (unique, includes:
   finding F53) respects it; the exclusion is the same and is necessary here as well. *)
From Coq Require Import String Ascii List ZArith Bool Lia.
Require Import Blots.Num Blots.gen.Builtins Blots.Ast Blots.Value Blots.Outcome Blots.Binop
               Blots.Env Blots.Eval Blots.Emit Blots.BuiltinsHof Blots.Program Blots.EvalInst Blots.EvalFull
               Blots.proofs.EmitSound Blots.proofs.EmitHO Blots.proofs.EmitHOSim Blots.proofs.EmitHOOps
               Blots.EmitNq Blots.proofs.EmitNqLit
               Blots.proofs.EmitNqHO Blots.proofs.EmitNqHOSim Blots.proofs.EmitNqHOTop.
Require Blots.proofs.EmitHOTop Blots.proofs.EmitHOOpsFull.
Import ListNotations.
Open Scope string_scope.
Open Scope list_scope.

Notation biok_full := Blots.proofs.EmitHOOpsFull.biok_full.   (* the SAME exclusion as the earlier theorems *)
Notation vrelF := (vrel eqfree biok_full).
Notation orelF := (orel eqfree biok_full).
Notation lrelF := (lrel eqfree biok_full).
Notation emit_okF := (emit_ok eqfree biok_full).

(* related function-free values are equal: also a NaN is related to itself only *)
Theorem vrel_nofun_eq opok biok nanfix : forall v v',
  vrel opok biok nanfix v v' -> BuiltinsText.has_function v = false -> v = v'.
Proof. intros v v' H. apply (EmitHOTop.vrel_nofun_eq opok biok nanfix (num_nq nanfix) str_any). apply vrel_G. exact H. Qed.

Theorem impl_rel_full_all nanfix : impl_rel_respecting eqfree biok_full nanfix binop_impl builtin_full.
Proof.
  exact (impl_rel_on_iff _ _ _ _ _ _ (fun v v' => iff_sym (vrel_G _ _ _ v v')) (EmitHOOpsFull.impl_rel_full_allG _ _ _)).
Qed.

Theorem emit_equiv_ho_same_args_all : forall release nanfix d fr fr' this this' id id' ps b sc args st st' r,
  emit_okF nanfix (VLam id ps b sc) = true -> forallb (emit_okF nanfix) args = true ->
  fst (AD release binop_impl builtin_full d fr this (VLam id ps b sc) args st) = r ->
  exists r', fst (AD release binop_impl builtin_full d fr' this'
                     (VLam id' ps (subst true (scope_map nanfix true sc) b) []) args st') = r' /\
    orelF nanfix r r' /\ (forall v, r = Ok v -> lf v = true -> r' = Ok v) /\ (r = ErrDepth <-> r' = ErrDepth).
Proof.
  intros release nanfix.
  exact (EmitHOTop.emit_equiv_same_args_via _ _ _ _ _ _ _ _ _ (vrel_G _ _ nanfix)
           (leaves_eval_nq _ _ _ binop_lit_ok_inst) (impl_rel_full_all nanfix)).
Qed.

(* ---- the exclusion is necessary: F53 through `unique` (EmitHOOpsFull.f53_includes_refuted: through `includes`) ----
   mk = a => (y => y + a); k1 = mk(1); k2 = mk(2)
   g = x => len(unique([k1, k2])): 1 before, 2 after. *)
Definition call_on_full (f : value) (arg : value) : outcome value :=
  fst (AD true binop_impl builtin_full LIMIT [(FOwned, [])] f f [arg] [None; None]).
Definition f53_unique_fun : value :=
  VLam 0%nat [AReq "x"]
    (ECall (EBuiltin B_len) [ECall (EBuiltin B_unique) [EList [Cm [] (EId "k1") None; Cm [] (EId "k2") None]]])
    [("k1", f52_k 1%Z); ("k2", f52_k 2%Z)].
Lemma f53_unique_refuted :
  closed_after_capture f53_unique_fun = true /\
  call_on_full f53_unique_fun (VNum nzero) = Ok (VNum (num_of_Z 1)) /\
  call_on_full (reloaded true true f53_unique_fun) (VNum nzero) = Ok (VNum (num_of_Z 2)).
Proof. vm_compute. repeat split; reflexivity. Qed.

(* the statement without the exclusion (every built-in allowed in bodies) is FALSE *)
Definition all_builtins_rel_unrestricted : Prop :=
  forall nanfix, impl_rel_respecting eqfree (fun _ => true) nanfix binop_impl builtin_full.
Lemma all_builtins_rel_unrestricted_refuted : ~ all_builtins_rel_unrestricted.
Proof.
  intros H. apply (EmitHOOpsFull.all_builtins_unrestricted_refutedG (num_nq true) str_any);
    [reflexivity|exact (leaves_eval_nq _ _ _ binop_lit_ok_inst)|].
  exact (impl_rel_on_iff _ _ _ _ _ _ (vrel_G _ _ _) (H true)).
Qed.
