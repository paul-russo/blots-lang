(* F9 (finding of C04, REPAIRED in this model: fixes/C04-captured-inputs.diff): FunctionDef::call copied the
   CALLER's `inputs` binding into the callee's local bindings ("Preserve inputs if present in parent"), where
   it outranked the captured scope, so a function that captured `inputs` when it was created read the
   `inputs` of a call site that re-binds the name.  The repaired code (Eval.call_passed, "(F9 repaired)")
   copies the caller's `inputs` only when the function did NOT capture `inputs`; the captured value wins.
   Witness of the former refutation: f = x => #a + x created where inputs = {a: 1}; called with 1 from a
   chain whose `inputs` is {a: 1} and from a chain whose `inputs` is {a: 100} (all values closed): before the
   repair 2 and 101, now 2 at both call sites (f9_results_agree). *)
From Coq Require Import String List ZArith Bool.
Require Import Blots.Num Blots.gen.Builtins Blots.Ast Blots.Value Blots.Outcome Blots.Binop
  Blots.Env Blots.Eval Blots.EvalInst Blots.proofs.Closed.
Import ListNotations.
Open Scope string_scope.

Definition f9_inputs (k : Z) : value := VRec [("a", VNum (num_of_Z k))].
Definition f9_fun : value :=
  VLam 0 [AReq "x"] (EBin Add (EInRef "a") (EId "x")) [("inputs", f9_inputs 1)].
Definition f9_chain (k : Z) : frames := [(FOwned, [("inputs", f9_inputs k)])].
Definition f9_store : store := [None].

Lemma f9_closed :
  closed_value f9_store f9_fun /\ closed_value f9_store VNull /\ closed_list f9_store [VNum (num_of_Z 1)] /\
  (forall k v, lookup (f9_chain k) "inputs" = Some v -> closed_value f9_store v).
Proof.
  split; [|split; [exact I|split]].
  - cbn [closed_value f9_fun]. split; [reflexivity|]. split.
    + intros x Hx. vm_compute in Hx. destruct Hx as [<-|[]]. left. vm_compute. discriminate.
    + cbn. auto.
  - constructor; [exact I|constructor].
  - intros k v H. change (Some (f9_inputs k) = Some v) in H. injection H as <-. cbn -[num_of_Z]. auto.
Qed.

(* before the repair: 2 and 101 (f9_results_differ, call_site_independent_any_inputs_refuted) *)
Lemma f9_results_agree :
  fst (AD true binop_impl builtin_impl 5 (f9_chain 1) VNull f9_fun [VNum (num_of_Z 1)] f9_store)
    = Ok (VNum (num_of_Z 2)) /\
  fst (AD true binop_impl builtin_impl 5 (f9_chain 100) VNull f9_fun [VNum (num_of_Z 1)] f9_store)
    = Ok (VNum (num_of_Z 2)).
Proof. split; vm_compute; reflexivity. Qed.

Lemma f9_call_sites_agree :
  AD true binop_impl builtin_impl 5 (f9_chain 1) VNull f9_fun [VNum (num_of_Z 1)] f9_store =
  AD true binop_impl builtin_impl 5 (f9_chain 100) VNull f9_fun [VNum (num_of_Z 1)] f9_store.
Proof. vm_compute. reflexivity. Qed.

(* call-site independence WITHOUT the same-`inputs` hypothesis: refuted by the witness above on the code
   before the repair; on the repaired model the witness agrees and the statement is kept as a Prop
   (a closed function reads `inputs` only through its captured scope, so it is expected to hold). *)
Definition call_site_independent_any_inputs : Prop :=
  forall release d fr1 fr2 this f args st,
    (forall v, lookup fr1 "inputs" = Some v -> closed_value st v) ->
    (forall v, lookup fr2 "inputs" = Some v -> closed_value st v) ->
    closed_value st this -> closed_value st f -> closed_list st args ->
    AD release binop_impl builtin_impl d fr1 this f args st =
    AD release binop_impl builtin_impl d fr2 this f args st.
