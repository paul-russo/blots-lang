(* InstDepth.v — the concrete operator and built-in implementations (EvalInst.v, EvalFull.v, EvalAll.v) are
   monotone in their callback w.r.t. "is the failure fk, or equal" (DepthMono.Fail), for every failure fk;
   at the depth error these are the hypotheses of DepthMono.v's theorems. *)
From Coq Require Import String List ZArith Bool Lia.
Require Import Blots.Num Blots.gen.Builtins Blots.Ast Blots.Value Blots.Outcome Blots.Binop
               Blots.Env Blots.Eval Blots.BuiltinsHof Blots.Program Blots.EvalInst Blots.EvalFull Blots.EvalAll
               Blots.proofs.DepthMono.
Require Blots.BuiltinsList.
Import ListNotations.

Module FailInst.
Section K.
  Variable fk : outcome unit.
  Notation rle := (rle_at fk).
  Notation rle_refl := (Fail.rle_refl fk).
  Notation cb_le := (Fail.cb_le fk).

  Lemma binop_impl_le : Fail.binop_below fk binop_impl binop_impl.
  Proof.
    intros cb1 cb2 Hcb op l r st. unfold binop_impl.
    destruct op; try apply rle_refl; apply (Fail.eval_binop_le fk); exact Hcb.
  Qed.

  Lemma rle_omap : forall A B S (f : A -> B) (x y : outcome A * S),
    rle x y -> rle (omap f (fst x), snd x) (omap f (fst y), snd y).
  Proof.
    intros A B S f [o1 s1] [o2 s2] [Hd|Heq]; cbn in *.
    - failed_as fk Hd.
    - inversion Heq; subst. right; reflexivity.
  Qed.

  Lemma builtin_impl_le : Fail.builtin_below fk builtin_impl builtin_impl.
  Proof.
    intros cb1 cb2 Hcb b args st.
    destruct b; cbn [builtin_impl]; try apply rle_refl.
    - (* map *) unfold bi_map. destruct (hof_prelude args) as [[f l]| | | |]; try apply rle_refl.
      pose proof (Fail.map_loop_le fk cb1 cb2 Hcb f (accepts f 2) l 0 st) as H.
      destruct (map_loop cb1 f (accepts f 2) l 0 st) as [o1 s1],
               (map_loop cb2 f (accepts f 2) l 0 st) as [o2 s2].
      exact (rle_omap _ _ _ VList _ _ H).
    - (* reduce *) unfold bi_reduce.
      match goal with |- rle (match ?x with _ => _ end) _ => destruct x as [[[f i0] l]| | | |] end;
        try apply rle_refl.
      apply (Fail.reduce_loop_le fk); exact Hcb.
    - (* filter *) unfold bi_filter. destruct (hof_prelude args) as [[f l]| | | |]; try apply rle_refl.
      pose proof (Fail.filter_loop_le fk cb1 cb2 Hcb f (accepts f 2) l 0 st) as H.
      destruct (filter_loop cb1 f (accepts f 2) l 0 st) as [o1 s1],
               (filter_loop cb2 f (accepts f 2) l 0 st) as [o2 s2].
      exact (rle_omap _ _ _ VList _ _ H).
    - (* every *) unfold bi_every. destruct (hof_prelude args) as [[f l]| | | |]; try apply rle_refl.
      apply (Fail.every_loop_le fk); exact Hcb.
    - (* some *) unfold bi_some. destruct (hof_prelude args) as [[f l]| | | |]; try apply rle_refl.
      apply (Fail.some_loop_le fk); exact Hcb.
  Qed.

  Import Blots.BuiltinsList.
  Section ListLe.
    Variable call1 call2 : callback.
    Hypothesis Hcall : cb_le call1 call2.

    Lemma sort_by_cmp_le : forall func a b st,
      rle (sort_by_cmp store call1 func a b st) (sort_by_cmp store call2 func a b st).
    Proof.
      intros func a b st. unfold sort_by_cmp. destruct (is_function func); [|apply rle_refl].
      callstep_as fk Hcall call1 call2 ra st1. destruct ra; try apply rle_refl.
      callstep_as fk Hcall call1 call2 rb st2. apply rle_refl.
    Qed.

    Lemma merge_by_le : forall func left right st,
      rle (merge_by store call1 func left right st) (merge_by store call2 func left right st).
    Proof.
      intros func left. induction left as [|a left' IHl]; intros right st.
      - destruct right; cbn; apply rle_refl.
      - revert st. induction right as [|b right' IHr]; intros st; [cbn; apply rle_refl|].
        cbn [merge_by].
        pose proof (sort_by_cmp_le func b a st) as Hc.
        destruct (sort_by_cmp store call1 func b a st) as [c1 t1], (sort_by_cmp store call2 func b a st) as [c2 t2].
        destruct Hc as [Hd|Heq]; [failed_as fk Hd|].
        inversion Heq; subst c2 t2. clear Heq.
        destruct c1 as [[]| | | |]; try apply rle_refl.
        + specialize (IHl (b :: right') t1).
          destruct (merge_by store call1 func left' (b :: right') t1) as [p1 u1],
                   (merge_by store call2 func left' (b :: right') t1) as [p2 u2].
          destruct IHl as [Hd|Heq]; [failed_as fk Hd|inversion Heq; subst; apply rle_refl].
        + specialize (IHr t1). cbn [merge_by] in IHr.
          match goal with |- rle (let '(_, _) := ?X in _) (let '(_, _) := ?Y in _) =>
            destruct X as [p1 u1], Y as [p2 u2] end.
          destruct IHr as [Hd|Heq]; [failed_as fk Hd|inversion Heq; subst; apply rle_refl].
        + specialize (IHl (b :: right') t1).
          destruct (merge_by store call1 func left' (b :: right') t1) as [p1 u1],
                   (merge_by store call2 func left' (b :: right') t1) as [p2 u2].
          destruct IHl as [Hd|Heq]; [failed_as fk Hd|inversion Heq; subst; apply rle_refl].
    Qed.

    Lemma merge_sort_by_fuel_le : forall fuel func l st,
      rle (merge_sort_by_fuel store call1 fuel func l st) (merge_sort_by_fuel store call2 fuel func l st).
    Proof.
      induction fuel as [|f IH]; intros func l st; cbn [merge_sort_by_fuel]; [apply rle_refl|].
      destruct (Datatypes.length l <? 2)%nat; [apply rle_refl|].
      pose proof (IH func (firstn (Datatypes.length l / 2) l) st) as H1.
      destruct (merge_sort_by_fuel store call1 f func (firstn (Datatypes.length l / 2) l) st) as [sl1 t1],
               (merge_sort_by_fuel store call2 f func (firstn (Datatypes.length l / 2) l) st) as [sl2 t2].
      destruct H1 as [Hd|Heq]; [failed_as fk Hd|].
      inversion Heq; subst sl2 t2; clear Heq.
      destruct sl1; try apply rle_refl.
      pose proof (IH func (skipn (Datatypes.length l / 2) l) t1) as H2.
      destruct (merge_sort_by_fuel store call1 f func (skipn (Datatypes.length l / 2) l) t1) as [sr1 u1],
               (merge_sort_by_fuel store call2 f func (skipn (Datatypes.length l / 2) l) t1) as [sr2 u2].
      destruct H2 as [Hd|Heq]; [failed_as fk Hd|].
      inversion Heq; subst sr2 u2; clear Heq.
      destruct sr1; try apply rle_refl. apply merge_by_le.
    Qed.

    Lemma bi_sort_by_le : forall args st,
      rle (bi_sort_by store call1 args st) (bi_sort_by store call2 args st).
    Proof.
      intros args st. unfold bi_sort_by.
      destruct (BuiltinsList.arg args 1); try apply rle_refl.
      destruct (obind (BuiltinsList.arg args 0) BuiltinsList.as_list); try apply rle_refl.
      unfold sort_by_list.
      pose proof (merge_sort_by_fuel_le (Datatypes.length a0) a a0 st) as H.
      destruct (merge_sort_by_fuel store call1 (Datatypes.length a0) a a0 st) as [o1 s1],
               (merge_sort_by_fuel store call2 (Datatypes.length a0) a a0 st) as [o2 s2].
      exact (rle_omap _ _ _ VList _ _ H).
    Qed.

    Lemma keyed_items_le : forall func l st,
      rle (keyed_items store call1 func l st) (keyed_items store call2 func l st).
    Proof.
      intros func l. induction l as [|item rest IH]; intros st; cbn [keyed_items]; [apply rle_refl|].
      callstep_as fk Hcall call1 call2 k st1. destruct k as [v| | | |]; try apply rle_refl.
      destruct v; try apply rle_refl.
      specialize (IH st1).
      destruct (keyed_items store call1 func rest st1) as [p1 u1], (keyed_items store call2 func rest st1) as [p2 u2].
      destruct IH as [Hd|Heq]; [failed_as fk Hd|inversion Heq; subst; apply rle_refl].
    Qed.

    Lemma bi_group_by_le : forall args st,
      rle (bi_group_by store call1 args st) (bi_group_by store call2 args st).
    Proof.
      intros args st. unfold bi_group_by.
      destruct (by_prologue args) as [[func l]| | | |]; try apply rle_refl.
      pose proof (keyed_items_le func l st) as H.
      destruct (keyed_items store call1 func l st) as [o1 s1], (keyed_items store call2 func l st) as [o2 s2].
      exact (rle_omap _ _ _ _ _ _ H).
    Qed.
    Lemma bi_count_by_le : forall args st,
      rle (bi_count_by store call1 args st) (bi_count_by store call2 args st).
    Proof.
      intros args st. unfold bi_count_by.
      destruct (by_prologue args) as [[func l]| | | |]; try apply rle_refl.
      pose proof (keyed_items_le func l st) as H.
      destruct (keyed_items store call1 func l st) as [o1 s1], (keyed_items store call2 func l st) as [o2 s2].
      exact (rle_omap _ _ _ _ _ _ H).
    Qed.
  End ListLe.

  Lemma builtin_full_le : Fail.builtin_below fk builtin_full builtin_full.
  Proof.
    intros cb1 cb2 Hcb b args st.
    destruct b; cbn [builtin_full]; try apply rle_refl;
      try (apply (builtin_impl_le cb1 cb2 Hcb)).
    - apply bi_sort_by_le; exact Hcb.
    - apply bi_group_by_le; exact Hcb.
    - apply bi_count_by_le; exact Hcb.
  Qed.

  Lemma builtin_all_le : forall o, Fail.builtin_below fk (builtin_all o) (builtin_all o).
  Proof.
    intros o cb1 cb2 Hcb b args st.
    destruct b; cbn [builtin_all]; try apply rle_refl; apply (builtin_full_le cb1 cb2 Hcb).
  Qed.
  Lemma binop_all_le : forall o, Fail.binop_below fk (binop_all o) (binop_all o).
  Proof.
    intros o cb1 cb2 Hcb op l r st. unfold binop_all.
    destruct op; try (apply (binop_impl_le cb1 cb2 Hcb)).
    apply (Fail.eval_binop_le fk); exact Hcb.
  Qed.
End K.
End FailInst.

(* ---- at the depth error ---- *)
Lemma binop_impl_le : binop_le binop_impl.
Proof. exact (FailInst.binop_impl_le ErrDepth). Qed.

Lemma rle_omap : forall A B S (f : A -> B) (x y : outcome A * S),
  rle x y -> rle (omap f (fst x), snd x) (omap f (fst y), snd y).
Proof. exact (FailInst.rle_omap ErrDepth). Qed.

Lemma builtin_impl_le : builtin_le builtin_impl.
Proof. exact (FailInst.builtin_impl_le ErrDepth). Qed.
