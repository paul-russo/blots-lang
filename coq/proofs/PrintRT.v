(* PrintRT.v — the printer's token stream is parsed back to the tree (property C07).

   1. Section Renders: for ANY parenthesisation policy that is at least as careful as the Pratt levels
      require (pol_L .. pol_P), print_items renders its tree in the sense of proofs/PrattRend.v (as
      PrattRender.pr does in proofs/PrattRT.v, with the printer's own decisions in place of a level
      assignment with an oracle for redundant layers); hence pest's Pratt parser (relational form,
      Pratt.v) recovers every well-formed tree from print_items.
   2. The repaired rule (policy_new) over a precedence table that orders the binary operators like
      the Pratt table is such a policy; the table of the patch (fixed_opinfo) is consistent with the
      Pratt table built from the GENERATED rows, the pinned table is not, and the regenerated
      operator_info is one of the two. *)
From Coq Require Import String Ascii List Bool Arith Lia.
Require Import Blots.Num Blots.gen.Builtins Blots.Ast Blots.Outcome Blots.PrattTypes Blots.gen.PrecTable
               Blots.Pratt Blots.PrattRender Blots.Printer
               Blots.proofs.PrattAdequacy Blots.proofs.PrattTable Blots.proofs.PrattRend Blots.proofs.PrattRT.
Import ListNotations.
Local Open Scope nat_scope.
Local Open Scope list_scope.

(* ------------------------------------------------------------------ 1. sound policies *)
Section Renders.
  Variable tbl : ops_map.
  Variable imap : list (oprule * binop).
  Variable pmap : list (oprule * prefix_ctor).
  Variable bprec : binop -> nat.
  Variable rassoc : binop -> bool.
  Variables Ppre Pfact Ppost : nat.
  Variable fx : fixes.
  Variable pol : policy.
  Variable numtxt : num -> string.

  Hypothesis H_infix : forall o,
    ops_get tbl (binop_rule o) = Some (Infix (if rassoc o then ARight else ALeft), bprec o).
  Hypothesis H_imap : forall o, assoc_find (binop_rule o) imap = Some o.
  Hypothesis H_neg : ops_get tbl R_negation = Some (Prefix, Ppre).
  Hypothesis H_inv : ops_get tbl R_invert = Some (Prefix, Ppre).
  Hypothesis H_spr : ops_get tbl R_spread_operator = Some (Prefix, Ppre).
  Hypothesis H_pneg : assoc_find R_negation pmap = Some (PUn Negate).
  Hypothesis H_pinv : assoc_find R_invert pmap = Some (PUn Not).
  Hypothesis H_pspr : assoc_find R_spread_operator pmap = Some PSpread.
  Hypothesis H_fact : ops_get tbl R_factorial = Some (Postfix, Pfact).
  Hypothesis H_acc : ops_get tbl R_access = Some (Postfix, Ppost).
  Hypothesis H_dot : ops_get tbl R_dot_access = Some (Postfix, Ppost).
  Hypothesis H_call : ops_get tbl R_call_list = Some (Postfix, Ppost).
  Hypothesis prec_pos : forall o, 0 < bprec o.
  Hypothesis prec_lt_pre : forall o, bprec o < Ppre.
  Hypothesis pre_lt_fact : Ppre < Pfact.
  Hypothesis pre_lt_post : Ppre < Ppost.
  Hypothesis level_assoc : forall o1 o2, bprec o1 = bprec o2 -> rassoc o1 = rassoc o2.
  Hypothesis H_builtins : forall b, builtin_of_name (builtin_name b) = Some b.

  Notation lvl := (lvl bprec Ppre Pfact Ppost).
  Notation INF := (INF Ppre Pfact Ppost).
  Notation needL := (needL bprec rassoc).
  Notation needR := (needR bprec rassoc).
  Notation ExprR := (Expr tbl imap pmap).
  Notation LoopR := (Loop tbl imap pmap).
  Notation ItemsR := (Items tbl imap pmap).
  Notation pi := (print_items fx pol numtxt).

  (* the policy never omits parentheses the levels require *)
  Hypothesis pol_L : forall o c, pL pol o c = false -> needL o <= lvl c.
  Hypothesis pol_R : forall o c, pR pol o c = false -> needR o <= lvl c.
  Hypothesis pol_U : forall c, pU pol c = false -> Ppre <= lvl c.
  Hypothesis pol_C : forall c, pC pol c = false -> S Ppre <= lvl c.
  Hypothesis pol_P : forall c, pP pol c = false -> S Ppre <= lvl c.

  (* print_items renders its tree (PrattRend.RendK with INF as the largest level); the induction below
     only names the table entry and what the policy guarantees of each operand *)
  Notation RendK := (RendK tbl imap pmap bprec rassoc Ppre INF).
  Definition ItemsRend (c : expr) : Prop := exists k, RendK (lvl c) (pi c) c k.
  Definition WfItemsRend (e : expr) : Prop := wf e = true -> ItemsRend e.

  Lemma items_of_rend : forall c, ItemsRend c -> ItemsR (pi c) c.
  Proof.
    intros c [k HK]. eapply rendK_parses; try eassumption; [apply INF_big | apply lvl_pos; assumption].
  Qed.

  Lemma items_wrapb : forall c b, ItemsRend c -> ItemsR (wrapb b (pi c)) c.
  Proof.
    intros c b H. apply items_of_rend in H. destruct b; [exact (items_parens tbl imap pmap 1 _ _ H) | exact H].
  Qed.

  (* an operand position: bare only where the policy has checked the level *)
  Lemma operand7 : forall c (b : bool) m, ItemsRend c -> (b = false -> m <= lvl c) ->
    exists k, RendK m (wrapb b (pi c)) c k.
  Proof.
    intros c b m [k HK] Hb. destruct b; cbn [wrapb].
    - eexists. apply Rk_prim; [reflexivity | apply P_expr, items_of_rend; exists k; exact HK].
    - exists k. eapply RendK_mono; [exact HK | auto].
  Qed.

  Lemma list_els7 : forall items,
    Forall (Pcm WfItemsRend) items ->
    wf_cms items = true ->
    LEls tbl imap pmap
      ((fix go (l : list (commented expr)) : list lelem :=
          match l with
          | [] => []
          | Cm _ x _ :: l' => LItem (pi x) None :: go l'
          end) items) items.
  Proof.
    induction items as [|c items IH]; intros HF Hwf.
    - constructor.
    - destruct (wf_cms_inv ItemsRend _ _ HF Hwf) as (e & -> & _ & He & HF' & Hrest).
      apply LE_item; [apply items_of_rend; exact He | apply IH; assumption].
  Qed.

  Lemma args_els7 : forall args,
    Forall WfItemsRend args ->
    wf_args args = true ->
    Args tbl imap pmap
      ((fix go (l : list expr) : list (list item) :=
          match l with [] => [] | a :: l' => pi a :: go l' end) args) args.
  Proof.
    induction args as [|a args IH]; intros HF Hwf.
    - constructor.
    - apply andb_prop in Hwf. destruct Hwf as [Hw Hrest]. inversion HF as [|? ? Hc HF']; subst.
      apply A_cons; [apply items_of_rend; exact (Hc Hw) | apply IH; assumption].
  Qed.

  Lemma rec_els7 : forall entries,
    Forall (Pentry WfItemsRend) entries ->
    wf_ents entries = true ->
    REls tbl imap pmap
      ((fix go (l : list (commented rentry)) : list relem :=
          match l with
          | [] => []
          | Cm _ (REntry k v) _ :: l' =>
              match k with
              | KStatic s => RPairI (key_item s) (pi v) None
              | KDyn d => RPairI (RKDyn [IExpr false (pi d)]) (pi v) None
              | KShort s => RShortI s None
              | KSpread x => RSpreadI (pi x) None
              end :: go l'
          end) entries) entries.
  Proof.
    induction entries as [|c entries IH]; intros HF Hwf.
    - constructor.
    - destruct (wf_ents_inv ItemsRend _ _ HF Hwf) as (k & v & -> & Hk & HF' & Hrest).
      specialize (IH HF' Hrest).
      destruct k as [s|e|s|e].
      + cbn [uncommented]. unfold key_item. destruct (is_valid_identifier s).
        * apply RE_pair_id; [apply items_of_rend; exact Hk | exact IH].
        * apply RE_pair_str; [apply items_of_rend; exact Hk | exact IH].
      + destruct Hk as [He Hv].
        apply RE_pair_dyn; [apply items_bare, items_of_rend; exact He | apply items_of_rend; exact Hv | exact IH].
      + subst v. apply RE_short. exact IH.
      + destruct Hk as [He ->]. apply RE_spread; [apply items_of_rend; exact He | exact IH].
  Qed.

  Lemma do_els7 : forall stmts i acc ret0 ret,
    Forall (Pcm WfItemsRend) stmts ->
    wf_cms stmts = true ->
    ItemsRend ret ->
    DEls tbl imap pmap
      ((fix go (i : nat) (l : list (commented expr)) : list delem :=
          match l with
          | [] => [DRet (pi ret)]
          | Cm _ x _ :: l' =>
              DStmt (wrapb (dominus_text fx i (print_text fx pol numtxt x)) (pi x)) None :: go (S i) l'
          end) i stmts) acc ret0 (EDo (acc ++ stmts) (uncommented ret)).
  Proof.
    induction stmts as [|c stmts IH]; intros i acc ret0 ret HF Hwf Hret.
    - rewrite app_nil_r. eapply DE_ret; [apply items_of_rend; exact Hret | apply DE_nil].
    - destruct (wf_cms_inv ItemsRend _ _ HF Hwf) as (e & -> & _ & He & HF' & Hrest).
      eapply DE_stmt; [apply items_wrapb; exact He|].
      replace (acc ++ uncommented e :: stmts) with ((acc ++ [uncommented e]) ++ stmts)
        by (rewrite <- app_assoc; reflexivity).
      apply IH; assumption.
  Qed.

  Theorem print_items_renders : forall t, WfItemsRend t.
  Proof.
    induction t as [x|s|b| |x|x|b|items HF|entries HF|args body IHb|c t1 e IHc IHt IHe|stmts ret HF Hret
                   |x v IHv|e IHe|f args IHf HF|e i IHe IHi|e f IHe|o l r IHl IHr|uo e IHe|e IHe|e IHe]
      using expr_ind';
      intros Hwf; unfold ItemsRend; cbn [print_items].
    - eexists. apply Rk_prim; [reflexivity | constructor].
    - eexists. apply Rk_prim; [reflexivity | constructor].
    - eexists. apply Rk_prim; [reflexivity | constructor].
    - eexists. apply Rk_prim; [reflexivity | constructor].
    - (* EId *)
      cbn [wf] in Hwf. destruct (builtin_of_name x) eqn:E; [discriminate|].
      eexists. apply Rk_prim; [reflexivity | apply P_ident; exact E].
    - eexists. apply Rk_prim; [reflexivity | constructor].
    - (* EBuiltin *) eexists. apply Rk_prim; [reflexivity | apply P_builtin; apply H_builtins].
    - (* EList *) eexists. apply Rk_prim; [reflexivity | apply P_list; apply list_els7; [exact HF | exact Hwf]].
    - (* ERec *) eexists. apply Rk_prim; [reflexivity | apply P_rec; apply rec_els7; [exact HF | exact Hwf]].
    - (* ELam *) eexists. apply Rk_prim; [reflexivity | apply P_lam; apply items_wrapb; exact (IHb Hwf)].
    - (* ECond *)
      cbn [wf] in Hwf. apply andb_prop in Hwf. destruct Hwf as [Hwf H3]. apply andb_prop in Hwf. destruct Hwf as [H1 H2].
      eexists. apply Rk_prim; [reflexivity | apply P_cond; apply items_of_rend; auto].
    - (* EDo *)
      destruct (wf_EDo_inv _ _ Hwf) as (r & -> & Hs & Hr).
      eexists. apply Rk_prim; [reflexivity|].
      apply P_do. change stmts with ([] ++ stmts) at 2. apply do_els7; [exact HF | exact Hs | exact (Hret Hr)].
    - (* EAssign *) eexists. apply Rk_prim; [reflexivity | apply P_assign; apply items_of_rend; exact (IHv Hwf)].
    - (* EOutput *) discriminate.
    - (* ECall *)
      cbn [wf] in Hwf. apply andb_prop in Hwf. destruct Hwf as [Hwf1 Hwf2].
      destruct (operand7 f (pC pol f) (S Ppre) (IHf Hwf1) (pol_C f)) as [k HK]. eexists.
      eapply Rk_post; [reflexivity | exact H_call | exact pre_lt_post | apply INF_big | apply le_n | | exact HK].
      apply Po_call. apply args_els7; assumption.
    - (* EAccess *)
      cbn [wf] in Hwf. apply andb_prop in Hwf. destruct Hwf as [Hwf1 Hwf2].
      destruct (operand7 e (pP pol e) (S Ppre) (IHe Hwf1) (pol_P e)) as [k HK]. eexists.
      eapply Rk_post; [reflexivity | exact H_acc | exact pre_lt_post | apply INF_big | apply le_n | | exact HK].
      apply Po_access. apply items_bare, items_of_rend. exact (IHi Hwf2).
    - (* EDot *)
      cbn [wf] in Hwf. destruct (operand7 e (pP pol e) (S Ppre) (IHe Hwf) (pol_P e)) as [k HK]. eexists.
      eapply Rk_post; [reflexivity | exact H_dot | exact pre_lt_post | apply INF_big | apply le_n | apply Po_dot | exact HK].
    - (* EBin *)
      cbn [wf] in Hwf. apply andb_prop in Hwf. destruct Hwf as [Hwl Hwr].
      destruct (operand7 l (pL pol o l) (needL o) (IHl Hwl) (pol_L o l)) as [kl HL].
      destruct (operand7 r (pR pol o r) (needR o) (IHr Hwr) (pol_R o r)) as [kr HR]. eexists.
      eapply Rk_bin; [reflexivity | apply H_imap | apply H_infix | apply le_n | exact HL | exact HR].
    - (* EUn *)
      cbn [wf] in Hwf. apply andb_prop in Hwf. destruct Hwf as [Hu Hwe].
      assert (Hops : exists r, unop_item uo = IOp r /\ ops_get tbl r = Some (Prefix, Ppre) /\
                               map_prefix pmap r (Some e) = Ok (Some (EUn uo e))).
      { destruct uo; cbn [unop_item].
        - exists R_negation. repeat split; [exact H_neg | unfold map_prefix; rewrite H_pneg; reflexivity].
        - exists R_invert. repeat split; [exact H_inv | unfold map_prefix; rewrite H_pinv; reflexivity].
        - discriminate. }
      destruct Hops as (r0 & Er & Hops & Hmap). rewrite Er.
      destruct (operand7 e (pU pol e) Ppre (IHe Hwe) (pol_U e)) as [k HK]. eexists.
      eapply Rk_pre; [reflexivity | exact Hops | exact Hmap | exact I | apply le_n | exact HK].
    - (* EFact *)
      cbn [wf] in Hwf. destruct (operand7 e (pP pol e) (S Ppre) (IHe Hwf) (pol_P e)) as [k HK]. eexists.
      eapply Rk_post; [reflexivity | exact H_fact | exact pre_lt_fact | apply INF_big | apply le_n | apply Po_fact | exact HK].
    - (* ESpread *)
      cbn [wf] in Hwf. eexists.
      eapply Rk_pre; [reflexivity | exact H_spr | unfold map_prefix; rewrite H_pspr; reflexivity | exact I | apply le_n |].
      apply Rk_prim; [reflexivity | apply P_expr; apply items_of_rend; exact (IHe Hwf)].
  Qed.

  Theorem roundtrip_items7 : forall t, wf t = true -> ItemsR (pi t) t.
  Proof. intros t H. apply items_of_rend. apply print_items_renders. exact H. Qed.

  Theorem roundtrip_fun7 : forall t, wf t = true ->
    exists n, forall m, n <= m -> parse_items tbl imap pmap m (pi t) = Ok (Some t).
  Proof. intros t H. apply items_sound. apply roundtrip_items7. exact H. Qed.
End Renders.

(* ------------------------------------------------------------------ 2. the repaired rule is sound *)
Definition op_lv (oi : opinfo_t) (o : binop) : nat := fst (oi o).
Definition op_ra (oi : opinfo_t) (o : binop) : bool :=
  match snd (oi o) with ARight => true | ALeft => false end.

(* a precedence table as operator_info reports it orders the binary operators, and assigns their
   associativity, like the levels (bprec, rassoc) of a Pratt table; all levels below PREFIX_LEVEL *)
Definition opinfo_consistent (oi : opinfo_t) (bprec : binop -> nat) (rassoc : binop -> bool) : bool :=
  forallb (fun o1 =>
     Bool.eqb (op_ra oi o1) (rassoc o1) && (op_lv oi o1 <? PREFIX_LEVEL) &&
     forallb (fun o2 => Bool.eqb (op_lv oi o1 <? op_lv oi o2) (bprec o1 <? bprec o2)) all_binops)
    all_binops.

Section NewSound.
  Variable oi : opinfo_t.
  Variable bprec : binop -> nat.
  Variable rassoc : binop -> bool.
  Variables Ppre Pfact Ppost : nat.
  Hypothesis Hcons : opinfo_consistent oi bprec rassoc = true.
  Hypothesis prec_lt_pre : forall o, bprec o < Ppre.
  Hypothesis pre_lt_fact : Ppre < Pfact.
  Hypothesis pre_lt_post : Ppre < Ppost.

  Notation lvl := (lvl bprec Ppre Pfact Ppost).

  Lemma cons_at : forall o1,
    op_ra oi o1 = rassoc o1 /\ op_lv oi o1 < PREFIX_LEVEL /\
    forall o2, (op_lv oi o1 < op_lv oi o2 <-> bprec o1 < bprec o2).
  Proof.
    intro o1. unfold opinfo_consistent in Hcons. rewrite forallb_forall in Hcons.
    specialize (Hcons o1 (all_binops_complete o1)).
    apply andb_prop in Hcons. destruct Hcons as [H12 H3]. apply andb_prop in H12. destruct H12 as [H1 H2].
    split; [apply eqb_prop; exact H1|]. split; [apply Nat.ltb_lt; exact H2|].
    intro o2. rewrite forallb_forall in H3. specialize (H3 o2 (all_binops_complete o2)).
    apply eqb_prop in H3. rewrite <- !Nat.ltb_lt. rewrite H3. tauto.
  Qed.

  Lemma lv_lt_iff : forall o1 o2, op_lv oi o1 < op_lv oi o2 <-> bprec o1 < bprec o2.
  Proof. intros o1 o2. destruct (cons_at o1) as (_ & _ & H). apply H. Qed.
  Lemma lv_eq_iff : forall o1 o2, op_lv oi o1 = op_lv oi o2 <-> bprec o1 = bprec o2.
  Proof.
    intros o1 o2. pose proof (lv_lt_iff o1 o2). pose proof (lv_lt_iff o2 o1). lia.
  Qed.

  Lemma lvl_nonbin_ge : forall c, (forall o l r, c <> EBin o l r) -> Ppre <= lvl c.
  Proof.
    intros c H. destruct c; cbn [PrattRender.lvl]; unfold PrattRender.INF; try lia.
    exfalso. eapply H. reflexivity.
  Qed.

  Lemma level_parens_sound : forall o c is_left,
    level_parens oi o c is_left = false ->
    (if is_left then needL bprec rassoc o else needR bprec rassoc o) <= lvl c.
  Proof.
    intros o c is_left H.
    assert (Hneed : (if is_left then needL bprec rassoc o else needR bprec rassoc o) <= Ppre).
    { pose proof (prec_lt_pre o). unfold needL, needR. destruct is_left, (rassoc o); lia. }
    destruct c; try (etransitivity; [exact Hneed | apply lvl_nonbin_ge; intros; discriminate]).
    (* EBin *)
    rename op into co. cbn [PrattRender.lvl].
    unfold level_parens in H. cbn [binding_level] in H.
    destruct (cons_at o) as (Hra & _ & _). unfold op_ra in Hra.
    fold (op_lv oi co) in H.
    destruct (oi o) as [pp pa] eqn:Eo. cbn [snd] in Hra.
    assert (Hpp : pp = op_lv oi o) by (unfold op_lv; rewrite Eo; reflexivity).
    apply orb_false_elim in H. destruct H as [H1 H2].
    apply Nat.ltb_ge in H1. rewrite Hpp in H1.
    pose proof (lv_lt_iff co o) as Hlt. pose proof (lv_eq_iff co o) as Heq.
    unfold needL, needR. rewrite <- Hra.
    destruct pa, is_left; cbn in H2 |- *.
    - (* ALeft, left operand: same level allowed *) lia.
    - (* ALeft, right operand *)
      rewrite andb_true_r in H2. apply Nat.eqb_neq in H2. rewrite Hpp in H2. lia.
    - (* ARight, left operand *)
      rewrite andb_true_r in H2. apply Nat.eqb_neq in H2. rewrite Hpp in H2. lia.
    - (* ARight, right operand *) lia.
  Qed.

  Lemma new_L_sound : forall o c, pL (policy_new oi) o c = false -> needL bprec rassoc o <= lvl c.
  Proof.
    intros o c H. cbn [pL policy_new] in H. unfold new_left in H.
    apply orb_false_elim in H. destruct H as [H _].
    exact (level_parens_sound o c true H).
  Qed.
  Lemma new_R_sound : forall o c, pR (policy_new oi) o c = false -> needR bprec rassoc o <= lvl c.
  Proof.
    intros o c H. cbn [pR policy_new] in H. exact (level_parens_sound o c false H).
  Qed.
  Lemma new_U_sound : forall c, pU (policy_new oi) c = false -> Ppre <= lvl c.
  Proof.
    intros c H. cbn [pU policy_new] in H. unfold new_unary in H. apply Nat.ltb_ge in H.
    apply lvl_nonbin_ge. intros o l r ->. cbn [binding_level] in H.
    destruct (cons_at o) as (_ & Hlt & _). unfold op_lv in Hlt. lia.
  Qed.
  Lemma new_post_sound : forall c, new_post oi c = false -> S Ppre <= lvl c.
  Proof.
    intros c H. unfold new_post in H. apply orb_false_elim in H. destruct H as [H _].
    apply Nat.ltb_ge in H.
    destruct c; cbn [PrattRender.lvl binding_level] in *; unfold PrattRender.INF, POSTFIX_LEVEL, PREFIX_LEVEL in *;
      try lia.
    destruct (cons_at op) as (_ & Hlt & _). unfold op_lv, PREFIX_LEVEL in Hlt. lia.
  Qed.
End NewSound.

(* ------------------------------------------------------------------ the generated table *)
Lemma fixed_opinfo_consistent : opinfo_consistent fixed_opinfo spec_bprec spec_rassoc = true.
Proof. vm_compute. reflexivity. Qed.

(* the pinned table is NOT: operator_info put ^ and ?? on one level *)
Lemma pinned_opinfo_inconsistent : opinfo_consistent pinned_opinfo spec_bprec spec_rassoc = false.
Proof. vm_compute. reflexivity. Qed.

(* the regenerated operator_info (gen_opinfo) is one of the two *)
Definition opinfo_eqb (a b : opinfo_t) : bool :=
  forallb (fun o => Nat.eqb (fst (a o)) (fst (b o)) && assoc_eqb (snd (a o)) (snd (b o))) all_binops.
Lemma gen_opinfo_pinned_or_fixed :
  opinfo_eqb gen_opinfo pinned_opinfo || opinfo_eqb gen_opinfo fixed_opinfo = true.
Proof. vm_compute. reflexivity. Qed.

Theorem new_policy_roundtrip : forall oi fx numtxt t,
  opinfo_consistent oi spec_bprec spec_rassoc = true ->
  wf t = true ->
  Items impl_table infix_map prefix_map (print_items fx (policy_new oi) numtxt t) t.
Proof.
  intros oi fx numtxt t Hc Hwf.
  eapply (roundtrip_items7 impl_table infix_map prefix_map spec_bprec spec_rassoc spec_Ppre spec_Pfact spec_Ppost);
    try exact Hwf; try (vm_compute; reflexivity).
  - exact impl_infix.
  - exact infix_map_binop_rule.
  - exact spec_prec_pos.
  - exact spec_prec_lt_pre.
  - exact spec_pre_lt_fact.
  - exact spec_pre_lt_post.
  - exact spec_level_assoc.
  - exact builtin_names_roundtrip.
  - apply new_L_sound; [exact Hc | exact spec_prec_lt_pre | exact spec_pre_lt_fact | exact spec_pre_lt_post].
  - apply new_R_sound; [exact Hc | exact spec_prec_lt_pre | exact spec_pre_lt_fact | exact spec_pre_lt_post].
  - apply (new_U_sound oi spec_bprec spec_rassoc); [exact Hc | exact spec_pre_lt_fact | exact spec_pre_lt_post].
  - intros c H. exact (new_post_sound oi spec_bprec spec_rassoc _ _ _ Hc spec_pre_lt_fact spec_pre_lt_post c H).
  - intros c H. exact (new_post_sound oi spec_bprec spec_rassoc _ _ _ Hc spec_pre_lt_fact spec_pre_lt_post c H).
Qed.

Theorem new_policy_roundtrip_fun : forall oi fx numtxt t,
  opinfo_consistent oi spec_bprec spec_rassoc = true ->
  wf t = true ->
  exists n, forall m, n <= m ->
    parse_items impl_table infix_map prefix_map m (print_items fx (policy_new oi) numtxt t) = Ok (Some t).
Proof. intros. apply items_sound. apply new_policy_roundtrip; assumption. Qed.
