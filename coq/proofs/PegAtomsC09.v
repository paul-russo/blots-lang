(* proofs/PegAtomsC09.v — round ATOMS (C09): the formatter-half hypothesis stmt_ok_parsed of the end-to-end theorems
   split into (a) the COMMENT part, discharged from the parser model (every comment of a parsed program is "//" + LF-free
   text: PegViewCompose.parsed_program_comment_texts_total) up to the exclusion "no comment pair ends in a carriage
   return" (finding C09-comment-trailing-cr, refuted below), and (b) what is left: names / keys (names_ok) and the
   expr_to_source texts (opaque part) = stmt_rest_ok. *)
From Coq Require Import String Ascii List NArith ZArith Bool Arith Lia.
Require Import Blots.Num Blots.gen.Builtins Blots.Ast Blots.Outcome Blots.Formatter Blots.proofs.ExprInd
               Blots.proofs.Scan Blots.proofs.Comments Blots.proofs.ScanFmt Blots.proofs.DriverText.
Require Import Blots.Peg Blots.gen.Grammar Blots.PegToItems Blots.PegComments Blots.proofs.PegComments
               Blots.proofs.PegCommentsCompose Blots.proofs.PegCommentsWf Blots.proofs.PegShape
               Blots.proofs.PegShapeItems Blots.proofs.PegShapeCompose Blots.proofs.PegViewItems
               Blots.proofs.PegViewCompose Blots.proofs.PegAtomsC09Scan.
Import ListNotations.
Open Scope list_scope.

(* ------------------------------------------------------------------ comment texts: grammar fact + exclusion *)
Fixpoint ends_cr (s : string) : bool :=
  match s with
  | "" => false
  | String c "" => Ascii.eqb c CRc
  | String _ r => ends_cr r
  end.
Definition no_trailing_cr (c : string) : bool := negb (ends_cr c).

Lemma cr_body_ok_iff : forall r, nl_free r = true -> ends_cr r = false -> cr_body_ok r = true.
Proof.
  induction r as [|c r IH]; intros Hn He; [reflexivity|].
  rewrite nl_free_cons in Hn. apply andb_prop in Hn as [Hc Hr]. cbn [cr_body_ok]. rewrite Hc. cbn [andb].
  destruct r as [|d r'].
  - cbn [ends_cr] in He. rewrite He. reflexivity.
  - assert (He' : ends_cr (String d r') = false) by exact He.
    destruct (Ascii.eqb c CRc); exact (IH Hr He').
Qed.

Lemma comment_text_ok_cr : forall c, comment_text_ok c -> no_trailing_cr c = true -> comment_ok_cr c = true.
Proof.
  intros c (r & -> & Hn) He. unfold no_trailing_cr in He. rewrite negb_true_iff in He.
  cbn [comment_ok_cr]. change (Ascii.eqb "/" "/") with true. cbn [andb].
  apply cr_body_ok_iff; [exact Hn|]. destruct r as [|d r']; [reflexivity|exact He].
Qed.

Lemma comments_ok_cr_of : forall l,
  Forall comment_text_ok l -> forallb no_trailing_cr l = true -> forallb comment_ok_cr l = true.
Proof.
  induction l as [|c l IH]; intros H1 H2; [reflexivity|]. inversion H1; subst.
  cbn [forallb] in *. apply andb_prop in H2 as [A B]. rewrite comment_text_ok_cr, IH; auto.
Qed.

(* ------------------------------------------------------------------ atoms_ok = names part + comment part *)
Section Split.
  Variable key_ok : string -> bool.

  (* the names / keys the layouts print themselves (atoms_ok without its comment conjuncts) *)
  Fixpoint names_ok (e : Ast.expr) : bool :=
    match e with
    | EList items => forallb (fun c => names_ok (cnode c)) items
    | ERec entries =>
        forallb (fun c => CR.key_atoms_ok key_ok (cnode c) &&
                          match cnode c with
                          | REntry (KStatic _) v => names_ok v
                          | REntry (KDyn k) v => names_ok k && names_ok v
                          | REntry (KShort _) _ => true
                          | REntry (KSpread x) _ => names_ok x
                          end) entries
    | ELam args body => forallb (fun a => plain (arg_name a)) args && names_ok body
    | ECond c t f => names_ok c && names_ok t && names_ok f
    | EDo stmts ret => forallb (fun c => names_ok (cnode c)) stmts && names_ok (cnode ret)
    | EAssign x v => plain x && names_ok v
    | EOutput x => names_ok x
    | ECall f args => names_ok f && forallb names_ok args
    | EBin _ l r => names_ok l && names_ok r
    | EAccess a ix => names_ok a && names_ok ix
    | EDot a field => names_ok a && plain field
    | EUn _ a => names_ok a
    | EFact a => names_ok a
    | ESpread a => names_ok a
    | _ => true
    end.

  Notation cok := (forallb comment_ok_cr).
  Lemma cok_app : forall a b, cok (a ++ b) = cok a && cok b.
  Proof. intros; apply forallb_app. Qed.

  Lemma trailing_cok : forall tr, cok (trailing_comments tr) = true -> CR.trailing_ok tr = true.
  Proof. intros [t|] H; exact H. Qed.

  Definition Sp (e : Ast.expr) : Prop := names_ok e = true -> cok (expr_comments e) = true -> CR.atoms_ok key_ok e = true.

  Ltac sp H := repeat (rewrite ?cok_app in H;
    match type of H with _ && _ = true => let A := fresh "C" in let B := fresh "C" in apply andb_prop in H as [A B]; try sp A; try sp B end).

  Lemma split_items : forall items, Forall (fun c => Sp (cnode c)) items ->
    forallb (fun c => names_ok (cnode c)) items = true -> cok (Formatter.items_comments expr_comments items) = true ->
    forallb (fun c => CR.comments_ok c && CR.atoms_ok key_ok (cnode c)) items = true.
  Proof.
    induction 1 as [|[lead n tr] r Hc _ IH]; intros Hn Hk; [reflexivity|].
    cbn [forallb cnode Formatter.items_comments] in *. apply andb_prop in Hn as [N1 N2].
    rewrite !cok_app in Hk. apply andb_prop in Hk as [K1 K]. apply andb_prop in K as [K2 K]. apply andb_prop in K as [K3 K4].
    unfold CR.comments_ok at 1. cbn [cleading ctrailing]. unfold CR.comment_ok.
    rewrite K1, (trailing_cok _ K3), (Hc N1 K2), (IH N2 K4). reflexivity.
  Qed.

  Theorem atoms_ok_split : forall e,
    names_ok e = true -> forallb comment_ok_cr (expr_comments e) = true -> CR.atoms_ok key_ok e = true.
  Proof.
    apply (expr_ind' Sp); unfold Sp; try (intros; reflexivity).
    - (* EList *) intros items HF Hn Hk. cbn [names_ok expr_comments CR.atoms_ok] in *. now apply split_items.
    - (* ERec *)
      intros entries HF Hn Hk. cbn [names_ok expr_comments CR.atoms_ok] in *.
      induction HF as [|[lead [k v] tr] r Hc _ IH]; [reflexivity|].
      cbn [forallb cnode Formatter.entries_comments] in *. apply andb_prop in Hn as [N1 N2].
      rewrite !cok_app in Hk. apply andb_prop in Hk as [K1 K]. apply andb_prop in K as [K2 K]. apply andb_prop in K as [K3 K4].
      apply andb_prop in N1 as [NK NV].
      unfold CR.comments_ok at 1. cbn [cleading ctrailing]. unfold CR.comment_ok.
      rewrite K1, (trailing_cok _ K3), NK, (IH N2 K4), andb_true_r. cbn [andb].
      destruct Hc as [Hk' Hv]. destruct k as [s|ke|s|x]; cbn [Formatter.entry_comments Pkey] in *.
      + exact (Hv NV K2).
      + apply andb_prop in NV as [A B]. rewrite cok_app in K2. apply andb_prop in K2 as [C D].
        now rewrite (Hk' A C), (Hv B D).
      + reflexivity.
      + exact (Hk' NV K2).
    - (* ELam *) intros args body IH Hn Hk. cbn [names_ok expr_comments CR.atoms_ok] in *.
      apply andb_prop in Hn as [A B]. now rewrite A, (IH B Hk).
    - (* ECond *) intros c t f I1 I2 I3 Hn Hk. cbn [names_ok expr_comments CR.atoms_ok] in *.
      apply andb_prop in Hn as [A N3]. apply andb_prop in A as [N1 N2].
      rewrite !cok_app in Hk. apply andb_prop in Hk as [K1 K]. apply andb_prop in K as [K2 K3].
      now rewrite (I1 N1 K1), (I2 N2 K2), (I3 N3 K3).
    - (* EDo *) intros stmts [rl rn rt] HF IR Hn Hk. cbn [names_ok expr_comments CR.atoms_ok cnode cleading] in *.
      apply andb_prop in Hn as [N1 N2].
      rewrite !cok_app in Hk. apply andb_prop in Hk as [K1 K]. apply andb_prop in K as [K2 K]. apply andb_prop in K as [K3 K4].
      rewrite (split_items stmts HF N1 K1), (IR N2 K3). unfold CR.comment_ok. rewrite K2. reflexivity.
    - (* EAssign *) intros x v IH Hn Hk. cbn [names_ok expr_comments CR.atoms_ok] in *.
      apply andb_prop in Hn as [A B]. now rewrite A, (IH B Hk).
    - (* EOutput *) intros x IH Hn Hk. cbn [names_ok expr_comments CR.atoms_ok] in *. exact (IH Hn Hk).
    - (* ECall *) intros f args If HF Hn Hk. cbn [names_ok expr_comments CR.atoms_ok] in *.
      apply andb_prop in Hn as [A B]. rewrite cok_app in Hk. apply andb_prop in Hk as [C D].
      rewrite (If A C). cbn [andb]. clear -HF B D.
      induction HF as [|a r Ha _ IH]; [reflexivity|]. cbn [forallb flat_map] in *.
      apply andb_prop in B as [B1 B2]. rewrite cok_app in D. apply andb_prop in D as [D1 D2].
      now rewrite (Ha B1 D1), (IH B2 D2).
    - (* EAccess *) intros a i I1 I2 Hn Hk. cbn [names_ok expr_comments CR.atoms_ok] in *.
      apply andb_prop in Hn as [A B]. rewrite cok_app in Hk. apply andb_prop in Hk as [C D].
      now rewrite (I1 A C), (I2 B D).
    - (* EDot *) intros a f IH Hn Hk. cbn [names_ok expr_comments CR.atoms_ok] in *.
      apply andb_prop in Hn as [A B]. now rewrite (IH A Hk), B.
    - (* EBin *) intros op l r I1 I2 Hn Hk. cbn [names_ok expr_comments CR.atoms_ok] in *.
      apply andb_prop in Hn as [A B]. rewrite cok_app in Hk. apply andb_prop in Hk as [C D].
      now rewrite (I1 A C), (I2 B D).
    - intros op a IH Hn Hk. cbn [names_ok expr_comments CR.atoms_ok] in *. exact (IH Hn Hk).
    - intros a IH Hn Hk. cbn [names_ok expr_comments CR.atoms_ok] in *. exact (IH Hn Hk).
    - intros a IH Hn Hk. cbn [names_ok expr_comments CR.atoms_ok] in *. exact (IH Hn Hk).
  Qed.

End Split.

(* ------------------------------------------------------------------ what is left of stmt_ok_parsed *)
Definition stmt_rest_ok (O : oracles) (key_ok : string -> bool) (mw : option nat) (s : stmt) : Prop :=
  let w := match mw with Some n => n | None => DEFAULT_MAX_COLUMNS end in
  match s with
  | St k eol _ _ =>
      match k with
      | SComment c => eol = None
      | SExpr e =>
          names_ok key_ok e = true /\
          forallb cfree (doc_opaque (fmtd O w e 0)) = true /\
          opaque_texts_neutral (fmtd O w e 0)
      | SOut e =>
          names_ok key_ok e = true /\
          forallb cfree (doc_opaque (fmtd O w (EOutput e) 0)) = true /\
          opaque_texts_neutral (fmtd O w (EOutput e) 0)
      end
  end.

Lemma stmt_ok_cr_of_rest : forall O key_ok mw s,
  stmt_wf_ast s = true -> stmt_rest_ok O key_ok mw s ->
  forallb comment_ok_cr (stmt_comments s) = true -> CR.stmt_ok O key_ok mw s.
Proof.
  intros O key_ok mw [k eol sl el] Hw H Hc. unfold CR.stmt_ok, stmt_rest_ok in *. unfold CR.comment_ok.
  cbn [stmt_comments] in Hc. rewrite forallb_app in Hc. apply andb_prop in Hc as [C1 C2].
  destruct k as [e|e|c]; cbn [stmt_wf_ast] in Hw.
  - destruct H as (Hn & Hf & Ho). split.
    + repeat split; try assumption. now apply atoms_ok_split.
    + destruct eol as [c|]; [|exact I]. cbn [forallb] in C2. apply andb_prop in C2 as [C2 _]. now split.
  - destruct H as (Hn & Hf & Ho). split.
    + repeat split; try assumption. now apply atoms_ok_split.
    + destruct eol as [c|]; [|exact I]. cbn [forallb] in C2. apply andb_prop in C2 as [C2 _]. now split.
  - subst eol. cbn [forallb] in C1. apply andb_prop in C1 as [C1 _]. split; [exact C1|exact I].
Qed.

Lemma program_ok_cr_of_rest : forall O key_ok mw p,
  forallb stmt_wf_ast p = true -> Forall (stmt_rest_ok O key_ok mw) p ->
  forallb comment_ok_cr (program_comments p) = true -> Forall (CR.stmt_ok O key_ok mw) p.
Proof.
  intros O key_ok mw p Hw H. induction H as [|s p Hs _ IH]; intros Hc; [constructor|].
  cbn [forallb] in Hw. apply andb_prop in Hw as [H1 H2].
  unfold program_comments in Hc. cbn [flat_map] in Hc. rewrite forallb_app in Hc. apply andb_prop in Hc as [C1 C2].
  constructor; [now apply stmt_ok_cr_of_rest|exact (IH H2 C2)].
Qed.

(* every comment of every parsed program outside the two exclusions satisfies comment_ok_cr *)
Theorem parsed_program_comments_ok_cr : forall text forest p,
  parse_program_c text = PCOk forest p ->
  forest_no_empty_container text forest = true ->
  forallb no_trailing_cr (forest_comments text forest) = true ->
  forallb comment_ok_cr (program_comments p) = true.
Proof.
  intros text forest p H Hn Hcr.
  apply comments_ok_cr_of; [exact (parsed_program_comment_texts_total text forest p H Hn)|].
  rewrite (parse_keeps_comments_text_total text forest p H Hn). exact Hcr.
Qed.

(* ------------------------------------------------------------------ witnesses at the scanner level *)
Definition trailing_cr_comment : string := String "/" (String "/" (String "a" (String CRc ""))).
Definition bare_cr_comment : string := String "/" (String "/" (String " " (String "a" (String CRc (String "b" ""))))).
Lemma comment_trailing_cr_refuted :
  comment_ok_cr trailing_cr_comment = false /\
  scan_comments (trailing_cr_comment +++ nl) = [String "/" (String "/" (String "a" ""))] /\
  scan_comments (trailing_cr_comment +++ nl) <> [trailing_cr_comment].
Proof. split; [reflexivity|]. split; [reflexivity|]. discriminate. Qed.
Lemma comment_bare_cr_ok :
  comment_ok_cr bare_cr_comment = true /\ comment_ok bare_cr_comment = false /\
  scan_comments (bare_cr_comment +++ nl) = [bare_cr_comment].
Proof. split; [reflexivity|]. split; reflexivity. Qed.
