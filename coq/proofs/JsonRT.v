(* JsonRT.v — round-trip theorems for the JSON boundary (property C06), tree level.
   Every statement is for all values / documents of the model at any depth (structural
   induction), and for every instance of the four library oracles of Json.v. *)
From Coq Require Import String Ascii List ZArith Bool Lia Sorted Permutation.
Require Import Blots.Num Blots.gen.Builtins Blots.Ast Blots.Value Blots.Outcome Blots.Json.
Require Import Blots.proofs.ValueInd Blots.proofs.Order Blots.proofs.JsonMaps.
Import ListNotations.
Open Scope list_scope.

(* ------------------------------------------------------------------ induction principles *)
Section SvalueInd.
  Variable P : svalue -> Prop.
  Hypothesis HNum : forall x, P (SNum x).
  Hypothesis HBool : forall b, P (SBool b).
  Hypothesis HNull : P SNull.
  Hypothesis HStr : forall s, P (SStr s).
  Hypothesis HList : forall l, Forall P l -> P (SList l).
  Hypothesis HRec : forall r, Forall (fun kv => P (snd kv)) r -> P (SRec r).
  Hypothesis HLam : forall n a b sc,
    match sc with Some r => Forall (fun kv => P (snd kv)) r | None => True end -> P (SLam n a b sc).
  Hypothesis HBuiltin : forall n, P (SBuiltin n).
  Fixpoint svalue_ind' (s : svalue) : P s :=
    let go_rec := fix go (r : list (string * svalue)) : Forall (fun kv => P (snd kv)) r :=
                    match r with
                    | [] => Forall_nil _
                    | (k, x) :: r' => Forall_cons (k, x) (svalue_ind' x) (go r')
                    end in
    match s with
    | SNum x => HNum x
    | SBool b => HBool b
    | SNull => HNull
    | SStr s => HStr s
    | SList l =>
        HList l ((fix go (l : list svalue) : Forall P l :=
                    match l with
                    | [] => Forall_nil _
                    | x :: r => Forall_cons _ (svalue_ind' x) (go r)
                    end) l)
    | SRec r => HRec r (go_rec r)
    | SLam n a b sc =>
        HLam n a b sc (match sc with Some r => go_rec r | None => I end)
    | SBuiltin n => HBuiltin n
    end.
End SvalueInd.

Section JsonInd.
  Variable P : json -> Prop.
  Hypothesis HNull : P JNull.
  Hypothesis HBool : forall b, P (JBool b).
  Hypothesis HNum : forall n, P (JNum n).
  Hypothesis HStr : forall s, P (JStr s).
  Hypothesis HArr : forall l, Forall P l -> P (JArr l).
  Hypothesis HObj : forall m, Forall (fun kv => P (snd kv)) m -> P (JObj m).
  Fixpoint json_ind' (j : json) : P j :=
    match j with
    | JNull => HNull
    | JBool b => HBool b
    | JNum n => HNum n
    | JStr s => HStr s
    | JArr l =>
        HArr l ((fix go (l : list json) : Forall P l :=
                   match l with
                   | [] => Forall_nil _
                   | x :: r => Forall_cons _ (json_ind' x) (go r)
                   end) l)
    | JObj m =>
        HObj m ((fix go (r : list (string * json)) : Forall (fun kv => P (snd kv)) r :=
                   match r with
                   | [] => Forall_nil _
                   | (k, x) :: r' => Forall_cons (k, x) (json_ind' x) (go r')
                   end) m)
    end.
End JsonInd.

(* ------------------------------------------------------------------ pure shadows on data *)
(* what from_value / to_value compute on values without functions and spreads *)
Fixpoint sv_of (v : value) : svalue :=
  match v with
  | VNum x => SNum x
  | VBool b => SBool b
  | VNull => SNull
  | VStr s => SStr s
  | VList l => SList (map sv_of l)
  | VRec r => SRec (map (fun kv => let '(k, x) := kv in (k, sv_of x)) r)
  | _ => SNull
  end.
Fixpoint val_of (s : svalue) : value :=
  match s with
  | SNum x => VNum x
  | SBool b => VBool b
  | SNull => VNull
  | SStr s => VStr s
  | SList l => VList (map val_of l)
  | SRec r => VRec (map (fun kv => let '(k, x) := kv in (k, val_of x)) r)
  | _ => VNull
  end.
(* no function, no spread, unique record keys (numbers unrestricted) *)
Fixpoint plain (v : value) : bool :=
  match v with
  | VNum _ | VBool _ | VNull | VStr _ => true
  | VList l => forallb plain l
  | VRec r => nodup_keys r && forallb (fun kv => plain (snd kv)) r
  | _ => false
  end.
Fixpoint splain (s : svalue) : bool :=
  match s with
  | SNum _ | SBool _ | SNull | SStr _ => true
  | SList l => forallb splain l
  | SRec r => nodup_keys r && forallb (fun kv => splain (snd kv)) r
  | _ => false
  end.

Lemma sv_of_rec r : sv_of (VRec r) = SRec (mapv sv_of r).
Proof. reflexivity. Qed.
Lemma val_of_rec r : val_of (SRec r) = VRec (mapv val_of r).
Proof. reflexivity. Qed.
Lemma json_data_rec r :
  json_data (VRec r) = nodup_keys r && forallb (fun kv => json_data (snd kv)) r.
Proof.
  cbn [json_data]. f_equal. induction r as [|[k x] r IH]; cbn; [reflexivity|].
  destruct (rec_get r k); [reflexivity|exact IH].
Qed.
Lemma vsort_rec r : vsort (VRec r) = VRec (bmap_collect (mapv vsort r)).
Proof. reflexivity. Qed.

Lemma json_data_plain v : json_data v = true -> plain v = true.
Proof.
  induction v as [x|x| |s|l IH|r IH|id ar bd sc _|bi|v _] using value_ind'; try reflexivity;
    try discriminate.
  - cbn. rewrite !forallb_forall. rewrite Forall_forall in IH. auto.
  - rewrite json_data_rec. cbn [plain]. intros H. apply andb_prop in H as [H1 H2]. rewrite H1. cbn.
    rewrite forallb_forall in *. rewrite Forall_forall in IH. auto.
Qed.

(* the inner loops of from_value / to_value: left to right, stopping at the first failure *)
Definition omap_list {A B} (f : A -> outcome B) := fix go (l : list A) : outcome (list B) :=
  match l with
  | [] => Ok []
  | x :: r => do y <- f x; do ys <- go r; Ok (y :: ys)
  end.
Definition omap_rec {A B} (f : A -> outcome B) :=
  fix go (r : list (string * A)) : outcome (list (string * B)) :=
  match r with
  | [] => Ok []
  | (k, x) :: r' => do y <- f x; do ys <- go r'; Ok ((k, y) :: ys)
  end.
Lemma omap_list_ok {A B} (f : A -> outcome B) (g : A -> B) (p : A -> bool) l :
  Forall (fun x => p x = true -> f x = Ok (g x)) l ->
  forallb p l = true -> omap_list f l = Ok (map g l).
Proof.
  induction 1 as [|x l Hx _ IH]; cbn; [reflexivity|]. intros H.
  apply andb_prop in H as [H1 H2]. rewrite (Hx H1). cbn. rewrite (IH H2). reflexivity.
Qed.
Lemma omap_rec_ok {A B} (f : A -> outcome B) (g : A -> B) (p : A -> bool) r :
  Forall (fun kv => p (snd kv) = true -> f (snd kv) = Ok (g (snd kv))) r ->
  forallb (fun kv => p (snd kv)) r = true -> omap_rec f r = Ok (mapv g r).
Proof.
  induction 1 as [|[k x] r Hx _ IH]; [reflexivity|]. intros H. cbn [forallb snd] in H.
  apply andb_prop in H as [H1 H2]. cbn [snd] in Hx.
  change (omap_rec f ((k, x) :: r)) with (do y <- f x; do ys <- omap_rec f r; Ok ((k, y) :: ys)).
  rewrite (Hx H1), (IH H2). reflexivity.
Qed.

Section RT.
  Variable pfs : string -> option (list lamarg * string).
  Variable pbody : string -> outcome expr.
  Variable emit : expr -> list (string * svalue) -> string.
  Variable nameof : lam_id -> option string.
  Notation from_json := (Json.from_json pfs).
  Notation from_value := (Json.from_value emit nameof).
  Notation to_value := (Json.to_value pbody).

  (* ---------------------------------------------------------------- unfolding helpers *)
  Lemma from_value_list l : from_value (VList l) = do sl <- omap_list from_value l; Ok (SList sl).
  Proof. reflexivity. Qed.
  Lemma from_value_rec r :
    from_value (VRec r) = do sr <- omap_rec from_value r; Ok (SRec (imap_collect sr)).
  Proof. reflexivity. Qed.
  Lemma to_value_list l : to_value (SList l) = do vl <- omap_list to_value l; Ok (VList vl).
  Proof. reflexivity. Qed.
  Lemma to_value_rec r : to_value (SRec r) = do vr <- omap_rec to_value r; Ok (VRec (imap_collect vr)).
  Proof. reflexivity. Qed.
  Lemma from_json_arr l : from_json (JArr l) = SList (map from_json l).
  Proof. reflexivity. Qed.
  Lemma to_json_list l : to_json (SList l) = JArr (map to_json l).
  Proof. reflexivity. Qed.
  Lemma to_json_rec r : to_json (SRec r) = JObj (bmap_collect (mapv to_json r)).
  Proof. reflexivity. Qed.
  Definition regular (obj : list (string * json)) : svalue :=
    SRec (imap_collect (mapv from_json obj)).
  Lemma from_json_obj obj :
    from_json (JObj obj) =
    match bmap_get obj FN_KEY with
    | Some (JStr func_str) =>
        match from_ident func_str with
        | Some _ => SBuiltin func_str
        | None => match pfs func_str with
                  | Some (args, body) => SLam None args body None
                  | None => regular obj
                  end
        end
    | _ => regular obj
    end.
  Proof. reflexivity. Qed.

  (* an object that is not of the reserved form is read as a record *)
  Lemma from_json_obj_regular obj :
    reserved_obj pfs jstr_of obj = false -> from_json (JObj obj) = regular obj.
  Proof.
    rewrite from_json_obj. unfold reserved_obj, bmap_get, is_function_source, from_ident.
    destruct (rec_get obj FN_KEY) as [[| | |s| |]|]; try reflexivity. cbn [jstr_of].
    destruct (builtin_of_name s); [intros H; discriminate H|].
    destruct (pfs s) as [[a b]|]; [intros H; discriminate H|reflexivity].
  Qed.

  (* ---------------------------------------------------------------- value <-> svalue *)
  (* from_value succeeds on every value without functions/spreads and is the structural map *)
  Lemma from_value_plain v : plain v = true -> from_value v = Ok (sv_of v).
  Proof.
    induction v as [x|x| |s|l IH|r IH|id ar bd sc _|bi|v _] using value_ind'; try reflexivity;
      try discriminate.
    - intros H. rewrite from_value_list. cbn [plain] in H. now rewrite (omap_list_ok _ sv_of plain l IH H).
    - intros H. cbn [plain] in H. apply andb_prop in H as [Hnd Hp].
      rewrite from_value_rec, (omap_rec_ok _ sv_of plain r IH Hp). cbn.
      rewrite imap_collect_NoDup; [reflexivity|]. rewrite keys_mapv. now apply nodup_keys_keys.
  Qed.

  Lemma to_value_splain s : splain s = true -> to_value s = Ok (val_of s).
  Proof.
    induction s as [x|x| |s|l IH|r IH|n a b sc _|n] using svalue_ind'; try reflexivity;
      try discriminate.
    - intros H. rewrite to_value_list. cbn [splain] in H. now rewrite (omap_list_ok _ val_of splain l IH H).
    - intros H. cbn [splain] in H. apply andb_prop in H as [Hnd Hp].
      rewrite to_value_rec, (omap_rec_ok _ val_of splain r IH Hp). cbn.
      rewrite imap_collect_NoDup; [reflexivity|]. rewrite keys_mapv. now apply nodup_keys_keys.
  Qed.

  Lemma nodup_keys_mapv {A B} (f : A -> B) m : nodup_keys (mapv f m) = nodup_keys m.
  Proof.
    destruct (nodup_keys m) eqn:E.
    - apply nodup_keys_keys. rewrite keys_mapv. now apply nodup_keys_keys.
    - destruct (nodup_keys (mapv f m)) eqn:E2; [|reflexivity].
      apply nodup_keys_keys in E2. rewrite keys_mapv in E2. apply nodup_keys_keys in E2. congruence.
  Qed.

  Lemma splain_sv_of v : plain v = true -> splain (sv_of v) = true.
  Proof.
    induction v as [x|x| |s|l IH|r IH|id ar bd sc _|bi|v _] using value_ind'; try reflexivity;
      try discriminate.
    - cbn. rewrite Forall_forall in IH. now apply forallb_map_in.
    - cbn [plain]. intros H. apply andb_prop in H as [Hnd Hp]. rewrite sv_of_rec. cbn [splain].
      rewrite nodup_keys_mapv, Hnd. cbn.
      apply (forallb_mapv splain plain sv_of r); [|exact Hp].
      intros k x Hx. rewrite Forall_forall in IH. apply (IH (k, x) Hx).
  Qed.
  Lemma val_of_sv_of v : plain v = true -> val_of (sv_of v) = v.
  Proof.
    induction v as [x|x| |s|l IH|r IH|id ar bd sc _|bi|v _] using value_ind'; try reflexivity;
      try discriminate.
    - cbn. intros H. f_equal. rewrite map_map. rewrite <- (map_id l) at 2. apply map_ext_in.
      intros x Hx. rewrite Forall_forall in IH. rewrite forallb_forall in H. auto.
    - cbn [plain]. intros H. apply andb_prop in H as [_ Hp]. rewrite sv_of_rec, val_of_rec. f_equal.
      rewrite mapv_mapv. rewrite <- (mapv_id r) at 2. apply mapv_ext_in. intros k x Hx.
      rewrite Forall_forall in IH. rewrite forallb_forall in Hp. apply (IH (k, x) Hx (Hp (k, x) Hx)).
  Qed.

  (* to_value (from_value v) is v itself, structurally: same numbers bit for bit, same strings
     and keys byte for byte, same key order *)
  Theorem to_value_from_value v :
    plain v = true -> (do s <- from_value v; to_value s) = Ok v.
  Proof.
    intros H. rewrite (from_value_plain v H). cbn.
    rewrite (to_value_splain _ (splain_sv_of v H)). now rewrite val_of_sv_of.
  Qed.

  (* ---------------------------------------------------------------- svalue -> json -> svalue *)
  Lemma to_json_is_str v f : to_json (sv_of v) = JStr f -> json_data v = true -> v = VStr f.
  Proof. destruct v; cbn; try discriminate. congruence. Qed.

  Lemma reserved_transfer r :
    json_data (VRec r) = true -> reserved_obj pfs vstr_of r = false ->
    reserved_obj pfs jstr_of (mapv (fun x => to_json (sv_of x)) (bmap_collect r)) = false.
  Proof.
    rewrite json_data_rec. intros H. apply andb_prop in H as [Hnd Hd]. apply nodup_keys_keys in Hnd.
    unfold reserved_obj. rewrite rec_get_mapv, rec_get_bmap_collect, (get_last_NoDup r _ Hnd).
    destruct (rec_get r FN_KEY) as [x|] eqn:E; cbn; [|reflexivity].
    destruct (jstr_of (to_json (sv_of x))) as [f|] eqn:E2; [|reflexivity].
    assert (Hx : x = VStr f).
    { apply to_json_is_str.
      - destruct (to_json (sv_of x)); cbn in E2; congruence.
      - rewrite forallb_forall in Hd. apply (Hd (FN_KEY, x)). now apply rec_get_In. }
    subst x. cbn. trivial.
  Qed.

  (* P0 json_tree_roundtrip: the JSON tree written for a data value reads back as the same
     serialisable value with the record keys of every level in sorted order *)
  Theorem json_tree_roundtrip v :
    json_data v = true -> value_no_reserved pfs v = true ->
    from_json (to_json (sv_of v)) = sv_of (vsort v).
  Proof.
    induction v as [x|x| |s|l IH|r IH|id ar bd sc _|bi|v _] using value_ind'; try reflexivity;
      try discriminate.
    - cbn. intros H _. unfold jnum_of_f64. now rewrite H.
    - cbn [json_data value_no_reserved]. intros Hd Hr. cbn [sv_of vsort].
      rewrite to_json_list, from_json_arr, !map_map. f_equal. apply map_ext_in. intros x Hx.
      rewrite Forall_forall in IH. rewrite forallb_forall in Hd, Hr. auto.
    - intros Hd Hr. pose proof Hd as Hd0. rewrite json_data_rec in Hd.
      apply andb_prop in Hd as [Hnd Hd]. cbn [value_no_reserved] in Hr.
      apply andb_prop in Hr as [Hr0 Hr]. apply negb_true_iff in Hr0.
      rewrite sv_of_rec, to_json_rec, mapv_mapv, bmap_collect_mapv.
      rewrite from_json_obj_regular by now apply reserved_transfer.
      unfold regular. rewrite mapv_mapv.
      rewrite vsort_rec, sv_of_rec, bmap_collect_mapv, mapv_mapv.
      rewrite imap_collect_NoDup.
      + f_equal. apply mapv_ext_in. intros k x Hx. apply bmap_collect_in in Hx.
        rewrite Forall_forall in IH. rewrite forallb_forall in Hd, Hr.
        apply (IH (k, x) Hx (Hd (k, x) Hx) (Hr (k, x) Hx)).
      + rewrite keys_mapv. apply ksorted_NoDup, bmap_collect_sorted.
  Qed.

  (* ---------------------------------------------------------------- the sorted value *)
  Lemma vsort_data v : json_data v = true -> json_data (vsort v) = true.
  Proof.
    induction v as [x|x| |s|l IH|r IH|id ar bd sc _|bi|v _] using value_ind'; try (cbn; congruence).
    - cbn. rewrite Forall_forall in IH. now apply forallb_map_in.
    - rewrite vsort_rec, !json_data_rec. intros H. apply andb_prop in H as [Hnd Hd].
      apply andb_true_intro; split.
      + apply nodup_keys_keys, ksorted_NoDup, bmap_collect_sorted.
      + apply forallb_collect. revert Hd. apply (forallb_mapv json_data json_data).
        intros k x Hx. rewrite Forall_forall in IH. apply (IH (k, x) Hx).
  Qed.

  Lemma finite_neqb_refl x : is_finite x = true -> neqb x x = true.
  Proof. intros H. apply neqb_ncmp, ncmp_refl. now destruct x. Qed.

  (* .== : the sorted value equals the original *)
  Lemma equals_vsort v : json_data v = true -> equals (vsort v) v = true.
  Proof.
    induction v as [x|x| |s|l IH|r IH|id ar bd sc _|bi|v _] using value_ind'; try discriminate;
      try reflexivity.
    - cbn. apply finite_neqb_refl.
    - intros _. cbn. now destruct x.
    - intros _. cbn. apply String.eqb_refl.
    - cbn [json_data vsort]. rewrite equals_list. intros H.
      induction IH as [|x l Hx _ IHl]; cbn in *; [reflexivity|].
      apply andb_prop in H as [H1 H2]. rewrite (Hx H1). auto.
    - rewrite json_data_rec, vsort_rec. intros H. apply andb_prop in H as [Hnd Hd].
      apply nodup_keys_keys in Hnd. rewrite equals_rec.
      assert (Hnd' : NoDup (keys (mapv vsort r))) by now rewrite keys_mapv.
      apply andb_true_intro; split.
      + apply Nat.eqb_eq. rewrite <- (Permutation_length (bmap_collect_perm _ Hnd')).
        apply length_mapv.
      + apply eq_rec_intro. intros k y Hy. apply bmap_collect_in in Hy.
        apply in_mapv in Hy as (x & Hx & ->). exists x. split.
        * now apply rec_get_In_NoDup.
        * rewrite Forall_forall in IH. rewrite forallb_forall in Hd. apply (IH (k, x) Hx (Hd (k, x) Hx)).
  Qed.

  (* bit-exact numbers, byte-exact strings and keys *)
  Definition sd_list := fix go (l m : list value) {struct l} : bool :=
    match l, m with
    | [], [] => true
    | x :: l', y :: m' => same_data x y && go l' m'
    | _, _ => false
    end.
  Definition sd_rec (s : list (string * value)) := fix go (r : list (string * value)) {struct r} : bool :=
    match r with
    | [] => true
    | (k, x) :: r' =>
        match rec_get s k with
        | Some y => same_data x y && go r'
        | None => false
        end
    end.
  Lemma same_data_list l m : same_data (VList l) (VList m) = sd_list l m.
  Proof. reflexivity. Qed.
  Lemma same_data_rec r s :
    same_data (VRec r) (VRec s) = Nat.eqb (length r) (length s) && sd_rec s r.
  Proof. reflexivity. Qed.
  Lemma sd_rec_intro s r :
    (forall k x, In (k, x) r -> exists y, rec_get s k = Some y /\ same_data x y = true) ->
    sd_rec s r = true.
  Proof.
    induction r as [|[k0 x0] r IH]; cbn; [reflexivity|]. intros H.
    destruct (H k0 x0 (or_introl eq_refl)) as (y & -> & ->). apply IH. intros; apply H; now right.
  Qed.
  Lemma same_data_vsort v : json_data v = true -> same_data (vsort v) v = true.
  Proof.
    induction v as [x|x| |s|l IH|r IH|id ar bd sc _|bi|v _] using value_ind'; try discriminate;
      try reflexivity.
    - intros _. cbn. apply Z.eqb_refl.
    - intros _. cbn. now destruct x.
    - intros _. cbn. apply String.eqb_refl.
    - cbn [json_data vsort]. rewrite same_data_list. intros H.
      induction IH as [|x l Hx _ IHl]; cbn in *; [reflexivity|].
      apply andb_prop in H as [H1 H2]. rewrite (Hx H1). auto.
    - rewrite json_data_rec, vsort_rec. intros H. apply andb_prop in H as [Hnd Hd].
      apply nodup_keys_keys in Hnd. rewrite same_data_rec.
      assert (Hnd' : NoDup (keys (mapv vsort r))) by now rewrite keys_mapv.
      apply andb_true_intro; split.
      + apply Nat.eqb_eq. rewrite <- (Permutation_length (bmap_collect_perm _ Hnd')).
        apply length_mapv.
      + apply sd_rec_intro. intros k y Hy. apply bmap_collect_in in Hy.
        apply in_mapv in Hy as (x & Hx & ->). exists x. split.
        * now apply rec_get_In_NoDup.
        * rewrite Forall_forall in IH. rewrite forallb_forall in Hd. apply (IH (k, x) Hx (Hd (k, x) Hx)).
  Qed.

  (* P0, value level: output -> JSON tree -> input gives back a value .== to the original,
     bit-exact on numbers, byte-exact on strings and keys, at any depth *)
  Theorem value_roundtrip v :
    json_data v = true -> value_no_reserved pfs v = true ->
    exists v',
      (do s <- from_value v; to_value (from_json (to_json s))) = Ok v' /\
      v' = vsort v /\ equals v' v = true /\ same_data v' v = true.
  Proof.
    intros Hd Hr. exists (vsort v). split; [|split; [reflexivity|split]].
    - rewrite (from_value_plain v (json_data_plain v Hd)). cbn.
      rewrite (json_tree_roundtrip v Hd Hr).
      pose proof (json_data_plain _ (vsort_data v Hd)) as Hp.
      rewrite (to_value_splain _ (splain_sv_of _ Hp)). now rewrite val_of_sv_of.
    - now apply equals_vsort.
    - now apply same_data_vsort.
  Qed.
End RT.
