(* PegPure.v — expressions that only read characters (no stack, no pairs, no skipping) run as a PURE
   matcher on the remaining input.  Compositional lemmas for every grammar, in a context whose atomicity is
   not NonAtomic (so that `skip` is the identity): [pure_run n m a e h] says that with fuel
   >= n + (bytes left) the interpreter on [e] does exactly what the string function [h] does.
   Used by PegIdent.v to identify the `identifier`, `bool`, `null` rules of the regenerated grammar with
   the specification functions of C10Ident.v. *)
From Coq Require Import String Ascii List NArith Bool Arith Lia ZifyBool ZifyNat ZifyN.
Require Import Blots.Peg Blots.proofs.PegGeneric.
Import ListNotations.

Section Pure.
  Variable R : Type.
  Variable G : grammar R.
  Notation st := (st R).
  Notation res := (res R).

  Definition matcher := string -> option string.
  Definition shrinks (h : matcher) : Prop := forall t r, h t = Some r -> String.length r <= String.length t.
  Definition progresses (h : matcher) : Prop := forall t r, h t = Some r -> String.length r < String.length t.

  Definition pure_out (s : st) (o : option string) : res :=
    match o with
    | Some r => Ok (set_pos s (pos s + (slen (rest s) - slen r)) r)
    | None => Fail s
    end.

  Definition pure_run (n : nat) (m : bool) (a : atomicity) (e : expr R) (h : matcher) : Prop :=
    forall f s la, n + String.length (rest s) <= f -> run G f m a la e s = pure_out s (h (rest s)).

  Lemma st_eta : forall s : st, mkst (pos s) (rest s) (stk s) (out s) = s.
  Proof. destruct s; reflexivity. Qed.
  Lemma stack_eta : forall k, mkstack (cache k) (popped k) (lengths k) = k.
  Proof. destruct k; reflexivity. Qed.
  Lemma restore_snapshot : forall k, stack_restore (stack_snapshot k) = k.
  Proof.
    intro k. unfold stack_restore, stack_snapshot. simpl.
    rewrite Nat.ltb_irrefl. apply stack_eta.
  Qed.

  Lemma pure_run_weaken : forall n n' m a e h, n <= n' -> pure_run n m a e h -> pure_run n' m a e h.
  Proof. intros n n' m a e h L H f s la Hf. apply H. lia. Qed.

  (* ---------------------------------------------------------------- atoms *)
  Lemma pure_str : forall m a x, pure_run 1 m a (Str x) (drop_prefix x).
  Proof.
    intros m a x f s la Hf. destruct f as [|f]; [lia|]. rewrite run_S. cbv zeta.
    unfold match_string, pure_out. destruct (drop_prefix x (rest s)) eqn:E; [|reflexivity].
    apply drop_prefix_sdrop in E. destruct E as [L E]. subst s0. do 2 f_equal.
    unfold slen. rewrite sdrop_length by assumption. lia.
  Qed.
  Lemma shrinks_str : forall x, shrinks (drop_prefix x).
  Proof.
    intros x t r E. apply drop_prefix_sdrop in E. destruct E as [L E]. subst r.
    rewrite sdrop_length by assumption. lia.
  Qed.

  Lemma progresses_str : forall c x, progresses (drop_prefix (String c x)).
  Proof.
    intros c x t r E. apply drop_prefix_sdrop in E. destruct E as [L E]. subst r.
    rewrite sdrop_length by assumption. simpl in *. lia.
  Qed.

  Lemma pure_insens : forall m a x, pure_run 1 m a (Insens x) (drop_prefix_ci x).
  Proof.
    intros m a x f s la Hf. destruct f as [|f]; [lia|]. rewrite run_S. cbv zeta.
    unfold match_insensitive, pure_out. destruct (drop_prefix_ci x (rest s)) eqn:E; [|reflexivity].
    apply drop_prefix_ci_sdrop in E. destruct E as [L E]. subst s0. do 2 f_equal.
    unfold slen. rewrite sdrop_length by assumption. lia.
  Qed.
  Lemma shrinks_ci : forall x, shrinks (drop_prefix_ci x).
  Proof.
    intros x t r E. apply drop_prefix_ci_sdrop in E. destruct E as [L E]. subst r.
    rewrite sdrop_length by assumption. lia.
  Qed.

  Definition class_matcher (c : ascii -> bool) : matcher :=
    fun t => match t with String ch r => if c ch then Some r else None | EmptyString => None end.
  Lemma pure_range : forall m a lo hi, pure_run 1 m a (Range lo hi) (class_matcher (in_range lo hi)).
  Proof.
    intros m a lo hi f s la Hf. destruct f as [|f]; [lia|]. rewrite run_S. cbv zeta.
    unfold match_range, pure_out, class_matcher. destruct (rest s) eqn:E; [reflexivity|].
    destruct (in_range lo hi a0); [|reflexivity]. do 2 f_equal. unfold slen. cbn [String.length]. lia.
  Qed.
  Lemma progresses_class : forall c, progresses (class_matcher c).
  Proof.
    intros c t r E. unfold class_matcher in E. destruct t; [discriminate|].
    destruct (c a); inversion E; subst. simpl. lia.
  Qed.
  Lemma progresses_shrinks : forall h, progresses h -> shrinks h.
  Proof. intros h H t r E. apply H in E. lia. Qed.

  (* ---------------------------------------------------------------- combinators *)
  Definition m_choice (h1 h2 : matcher) : matcher :=
    fun t => match h1 t with Some r => Some r | None => h2 t end.
  Definition m_seq (h1 h2 : matcher) : matcher :=
    fun t => match h1 t with Some r => h2 r | None => None end.
  Definition m_not (h : matcher) : matcher :=
    fun t => match h t with Some _ => None | None => Some t end.
  Definition m_opt (h : matcher) : matcher :=
    fun t => match h t with Some r => Some r | None => Some t end.
  Fixpoint m_star_n (n : nat) (h : matcher) (t : string) : string :=
    match n with
    | O => t
    | S n' => match h t with Some r => m_star_n n' h r | None => t end
    end.
  Definition m_star (h : matcher) : matcher := fun t => Some (m_star_n (String.length t) h t).

  Lemma pure_choice : forall n1 n2 m a x y h1 h2,
      pure_run n1 m a x h1 -> pure_run n2 m a y h2 ->
      pure_run (S (Nat.max n1 n2)) m a (Choice x y) (m_choice h1 h2).
  Proof.
    intros n1 n2 m a x y h1 h2 H1 H2 f s la Hf. destruct f as [|f]; [lia|]. rewrite run_S. cbv zeta.
    rewrite H1 by lia. unfold m_choice. destruct (h1 (rest s)); simpl; [reflexivity|].
    rewrite H2 by lia. reflexivity.
  Qed.

  Lemma pure_out_compose : forall (s : st) t r1 o, rest s = t ->
      String.length r1 <= String.length t ->
      (forall r2, o = Some r2 -> String.length r2 <= String.length r1) ->
      sequence s (pure_out (set_pos s (pos s + (slen t - slen r1)) r1) o) = pure_out s o.
  Proof.
    intros s t r1 o E L1 L2. destruct o as [r2|]; simpl.
    - specialize (L2 r2 eq_refl). unfold set_pos. simpl. do 2 f_equal. rewrite E. unfold slen. lia.
    - f_equal. apply st_eta.
  Qed.

  Section NoSkip.
    Variable a : atomicity.
    Hypothesis Ha : a <> NonAtomic.

    Lemma skip_noop : forall n call la (s : st), skip_with G n call a la s = Ok s.
    Proof. intros. unfold skip_with. destruct a; try reflexivity. congruence. Qed.

    Lemma pure_seq : forall n1 n2 m x y h1 h2,
        pure_run n1 m a x h1 -> pure_run n2 m a y h2 -> shrinks h1 -> shrinks h2 ->
        pure_run (S (Nat.max n1 n2)) m a (Seq x y) (m_seq h1 h2).
    Proof.
      intros n1 n2 m x y h1 h2 H1 H2 S1 S2 f s la Hf. destruct f as [|f]; [lia|]. rewrite run_S. cbv zeta.
      unfold m_seq.
      assert (Hy : forall r1, h1 (rest s) = Some r1 ->
                     run G f m a la y (set_pos s (pos s + (slen (rest s) - slen r1)) r1)
                     = pure_out (set_pos s (pos s + (slen (rest s) - slen r1)) r1) (h2 r1)).
      { intros r1 E1. pose proof (S1 _ _ E1) as L1. rewrite H2; [reflexivity|]. simpl. lia. }
      destruct m.
      - rewrite H1 by lia. destruct (h1 (rest s)) as [r1|] eqn:E1; cbn [pure_out bind].
        + rewrite (Hy r1 eq_refl).
          apply pure_out_compose; [reflexivity|exact (S1 _ _ E1)|intros r2 E2; exact (S2 _ _ E2)].
        + cbn [sequence]. f_equal. apply st_eta.
      - rewrite H1 by lia. destruct (h1 (rest s)) as [r1|] eqn:E1; cbn [pure_out bind].
        + rewrite skip_noop. cbn [bind]. rewrite (Hy r1 eq_refl).
          apply pure_out_compose; [reflexivity|exact (S1 _ _ E1)|intros r2 E2; exact (S2 _ _ E2)].
        + cbn [sequence]. f_equal. apply st_eta.
    Qed.

    Lemma pure_out_self : forall s : st, pure_out s (Some (rest s)) = Ok s.
    Proof. intro s. unfold pure_out, set_pos. rewrite N.sub_diag, N.add_0_r, st_eta. reflexivity. Qed.

    Lemma pure_opt : forall n m x h, pure_run n m a x h -> pure_run (S n) m a (Opt x) (m_opt h).
    Proof.
      intros n m x h H f s la Hf. destruct f as [|f]; [lia|]. rewrite run_S. cbv zeta.
      rewrite H by lia. unfold m_opt. destruct (h (rest s)); [reflexivity|].
      rewrite pure_out_self. reflexivity.
    Qed.

    Lemma pure_not : forall n m x h, pure_run n m a x h -> pure_run (S n) m a (NegPred x) (m_not h).
    Proof.
      intros n m x h H f s la Hf. destruct f as [|f]; [lia|]. rewrite run_S. cbv zeta.
      unfold lookahead. rewrite H by (simpl; lia). unfold m_not. cbn [rest set_stk].
      destruct (h (rest s)).
      - cbn [pure_out set_pos set_stk stk out pos rest]. rewrite restore_snapshot, st_eta. reflexivity.
      - rewrite pure_out_self. cbn [pure_out set_pos set_stk stk out pos rest].
        rewrite restore_snapshot, st_eta. reflexivity.
    Qed.

    Lemma m_star_n_shrinks : forall h, progresses h -> forall k t, String.length (m_star_n k h t) <= String.length t.
    Proof.
      intros h P. induction k; intro t; simpl; [lia|].
      destruct (h t) eqn:E; [|lia]. apply P in E. specialize (IHk s). lia.
    Qed.

    (* the loop of `repeat` over a body that is pure, and progresses, on the states of one stack and pair list *)
    Lemma repeat_pure_stk : forall (g : st -> res) h, progresses h ->
        forall k n (s : st), String.length (rest s) <= k -> k < n ->
        (forall s' : st, stk s' = stk s -> out s' = out s -> String.length (rest s') <= String.length (rest s) ->
                         g s' = pure_out s' (h (rest s'))) ->
        repeat_loop n g s = pure_out s (Some (m_star_n k h (rest s))).
    Proof.
      intros g h P. induction k as [|k IH]; intros n s Lk Ln Hg;
        (destruct n as [|n]; [lia|]); cbn [repeat_loop m_star_n]; rewrite Hg by (try reflexivity; lia);
        destruct (h (rest s)) as [r|] eqn:E; try (rewrite pure_out_self; reflexivity).
      - apply P in E. lia.
      - pose proof (P _ _ E) as L. cbn [pure_out].
        rewrite IH; [| cbn [rest set_pos]; lia | lia
                     | intros s' K O L'; apply Hg; [rewrite K; reflexivity|rewrite O; reflexivity|cbn [rest set_pos] in L'; lia]].
        cbn [pure_out]. unfold set_pos. cbn [pos rest stk out]. f_equal. f_equal.
        pose proof (m_star_n_shrinks h P k r). unfold slen. lia.
    Qed.
    Lemma repeat_pure : forall (g : st -> res) h, progresses h ->
        forall k n (s : st), String.length (rest s) <= k -> k < n ->
        (forall s' : st, String.length (rest s') <= String.length (rest s) -> g s' = pure_out s' (h (rest s'))) ->
        repeat_loop n g s = pure_out s (Some (m_star_n k h (rest s))).
    Proof. intros g h P k n s Lk Ln Hg. apply repeat_pure_stk; try assumption. intros s' _ _ L. apply Hg. exact L. Qed.

    Lemma pure_rep : forall n m x h, pure_run n m a x h -> progresses h ->
        pure_run (S (S n)) m a (Rep x) (m_star h).
    Proof.
      intros n m x h H P f s la Hf. destruct f as [|f]; [lia|]. rewrite run_S. cbv zeta.
      unfold m_star. destruct m.
      - apply (repeat_pure _ h P (String.length (rest s))); [lia|lia|].
        intros s' L. apply H. lia.
      - (* sequence (optional (x ; repeat (sequence (skip ; x)))) *)
        rewrite H by lia.
        destruct (String.length (rest s)) as [|k] eqn:EL; cbn [m_star_n].
        + destruct (h (rest s)) as [r|] eqn:E; [apply P in E; lia|].
          rewrite pure_out_self. reflexivity.
        + destruct (h (rest s)) as [r|] eqn:E.
          * pose proof (P _ _ E) as L. cbn [pure_out bind].
            rewrite (repeat_pure _ h P k);
              [ | cbn [rest set_pos]; lia | lia
                | intros s' L'; rewrite skip_noop; cbn [bind]; rewrite H by (cbn [rest set_pos] in L'; lia);
                  destruct (h (rest s')); cbn [pure_out sequence]; [reflexivity|f_equal; apply st_eta] ].
            cbn [pure_out optional sequence]. unfold set_pos. cbn [pos rest stk out]. f_equal. f_equal.
            pose proof (m_star_n_shrinks h P k r). unfold slen. lia.
          * rewrite pure_out_self. reflexivity.
    Qed.

    (* a silent, non-trivia rule is its body compiled by generate_expr *)
    Lemma pure_silent : forall n m r body h,
        g_def G r = mkdef MSilent false body -> pure_run n false a body h -> pure_run (S n) m a (Ident r) h.
    Proof.
      intros n m r body h D H f s la Hf. destruct f as [|f]; [lia|]. rewrite run_S. cbv zeta.
      unfold call_with. rewrite D. simpl. apply H. lia.
    Qed.
  End NoSkip.

  Lemma shrinks_choice : forall h1 h2, shrinks h1 -> shrinks h2 -> shrinks (m_choice h1 h2).
  Proof. intros h1 h2 S1 S2 t r E. unfold m_choice in E. destruct (h1 t) eqn:E1; [inversion E; subst; eauto|eauto]. Qed.
  Lemma progresses_choice : forall h1 h2, progresses h1 -> progresses h2 -> progresses (m_choice h1 h2).
  Proof. intros h1 h2 S1 S2 t r E. unfold m_choice in E. destruct (h1 t) eqn:E1; [inversion E; subst; eauto|eauto]. Qed.
  Lemma shrinks_seq : forall h1 h2, shrinks h1 -> shrinks h2 -> shrinks (m_seq h1 h2).
  Proof.
    intros h1 h2 S1 S2 t r E. unfold m_seq in E. destruct (h1 t) eqn:E1; [|discriminate].
    apply S1 in E1. apply S2 in E. lia.
  Qed.
  Lemma progresses_seq_l : forall h1 h2, progresses h1 -> shrinks h2 -> progresses (m_seq h1 h2).
  Proof.
    intros h1 h2 S1 S2 t r E. unfold m_seq in E. destruct (h1 t) eqn:E1; [|discriminate].
    apply S1 in E1. apply S2 in E. lia.
  Qed.
  Lemma shrinks_not : forall h, shrinks (m_not h).
  Proof. intros h t r E. unfold m_not in E. destruct (h t); inversion E; subst; lia. Qed.
  Lemma shrinks_opt : forall h, shrinks h -> shrinks (m_opt h).
  Proof. intros h S1 t r E. unfold m_opt in E. destruct (h t) eqn:E1; inversion E; subst; eauto. Qed.
  Lemma shrinks_star : forall h, progresses h -> shrinks (m_star h).
  Proof.
    intros h P t r E. unfold m_star in E. inversion E; subst. clear E.
    generalize (String.length t) at 1. intro k. revert t. induction k; intro t; simpl; [lia|].
    destruct (h t) eqn:E; [|lia]. apply P in E. specialize (IHk s). lia.
  Qed.
End Pure.
