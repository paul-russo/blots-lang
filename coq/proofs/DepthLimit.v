(* DepthLimit.v — DepthMono.v's depth theorem at the real limit, for every operator table and built-in
   dispatcher that are monotone in the callback: an evaluation either reports the depth error or returns
   what any larger limit would return, and a reported depth error is genuine: every smaller budget
   reports it too. *)
From Coq Require Import List Lia.
Require Import Blots.Ast Blots.Value Blots.Outcome Blots.Env Blots.Eval Blots.proofs.DepthMono.

Section Limit.
  Variable release : bool.
  Variable bi : callback -> binop -> value -> value -> store -> outcome value * store.
  Variable bu : callback -> Blots.gen.Builtins.builtin -> list value -> store -> outcome value * store.
  Hypothesis Hbi : binop_le bi.
  Hypothesis Hbu : builtin_le bu.

  Theorem limit_dichotomy : forall c e,
    fst (eval_top release bi bu c e) = ErrDepth \/
    forall d', LIMIT <= d' -> evalD release bi bu d' c e = eval_top release bi bu c e.
  Proof.
    intros c e. unfold eval_top.
    destruct (fst (evalD release bi bu LIMIT c e)) eqn:E; try (left; reflexivity);
      right; intros d' Hd;
      (apply (evalD_depth_independent release bi bu Hbi Hbu); [exact Hd|rewrite E; discriminate]).
  Qed.

  Theorem depth_error_is_genuine : forall c e d,
    d <= LIMIT -> fst (eval_top release bi bu c e) = ErrDepth ->
    fst (evalD release bi bu d c e) = ErrDepth.
  Proof.
    intros c e d Hd H. unfold eval_top in H.
    destruct (fst (evalD release bi bu d c e)) eqn:E; try reflexivity; exfalso;
      rewrite (evalD_depth_independent release bi bu Hbi Hbu d LIMIT c e Hd) in H by (rewrite E; discriminate);
      rewrite E in H; discriminate H.
  Qed.
End Limit.
