(* EmitSound.v — C05, layer P2 (the layers are listed in Properties/C05.v), first-order part: inlining
   preserves evaluation.

   For a first-order body (Emit.first_order_body) whose free names are bound locally or captured,
   evaluating the body with the captured scope in the environment and evaluating the INLINED body
   (subst) without it give the same outcome and the same store, at every call depth, whatever the
   rest of the two environments contains.  Proved over the evaluator model for every
   implementation of the operators and built-ins that (H*_ext) uses its callback only through
   the callback's behaviour on lambda-free values and (H*_lf) returns lambda-free values from
   lambda-free arguments — properties the transcribed implementations have because they only
   ever apply the callback to functions found among their arguments.                        *)
From Coq Require Import String Ascii List ZArith Bool Lia.
Require Import Blots.Num Blots.gen.Builtins Blots.Ast Blots.Value Blots.Outcome Blots.Binop
               Blots.Env Blots.Eval Blots.Emit Blots.proofs.ValueInd Blots.proofs.ExprInd
               Blots.proofs.Frames Blots.proofs.EmitLit Blots.proofs.EmitSubst Blots.proofs.FreeVars Blots.proofs.EmitClosed
               Blots.proofs.Closures.
Import ListNotations.
Open Scope list_scope.

(* ------------------------------------------------------------------ lambda-free values *)
Definition lfs (l : list value) : bool := forallb lf l.
Definition frame_lf (f : frame) : bool := forallb (fun kv => lf (snd kv)) f.
Definition frames_lf (fr : frames) : bool := forallb (fun kf => frame_lf (snd kf)) fr.

Lemma lf_list l : lf (VList l) = lfs l. Proof. reflexivity. Qed.
Lemma lf_rec r : lf (VRec r) = forallb (fun kv => lf (snd kv)) r. Proof. reflexivity. Qed.

Lemma fo_lf v : fo v = true -> lf v = true.
Proof.
  induction v using value_ind'; cbn; intros Hf; try reflexivity; try discriminate.
  - induction H as [|x l Hx Hl IH]; cbn in *; [reflexivity|].
    apply andb_prop in Hf as [A B]. now rewrite Hx, IH.
  - apply andb_prop in Hf as [_ Hf]. induction H as [|[k x] l Hx Hl IH]; cbn in *; [reflexivity|].
    apply andb_prop in Hf as [A B]. now rewrite Hx, IH.
Qed.
Lemma emittable_gen_lf v : emittable_gen v = true -> lf v = true.
Proof. unfold emittable_gen. intros H. apply andb_prop in H as [H _]. apply andb_prop in H as [H _]. now apply fo_lf. Qed.

Lemma lfs_app a b : lfs (a ++ b) = lfs a && lfs b.
Proof. apply forallb_app. Qed.
Lemma lfs_map_str l : lfs (map VStr l) = true.
Proof. induction l; cbn; auto. Qed.
Lemma lf_spread_items v : lf v = true -> lfs (spread_items v) = true.
Proof.
  destruct v; cbn; intros H; try reflexivity; try assumption.
  - apply lfs_map_str.
  - induction r as [|[k x] r IH]; cbn in *; [reflexivity|].
    apply andb_prop in H as [A B]. now rewrite A, IH.
Qed.
Lemma lfs_flatten l : lfs l = true -> lfs (flatten_spreads l) = true.
Proof.
  unfold lfs. induction l as [|v l IH]; [reflexivity|]. cbn [forallb]. intros H.
  apply andb_prop in H as [A B]. specialize (IH B).
  destruct v; cbn [flatten_spreads forallb]; try (rewrite A, IH; reflexivity).
  rewrite forallb_app, IH. cbn in A. fold (lfs (spread_items v)). now rewrite lf_spread_items.
Qed.
Lemma lf_rec_get (r : list (string * value)) k v :
  forallb (fun kv => lf (snd kv)) r = true -> rec_get r k = Some v -> lf v = true.
Proof.
  induction r as [|[k' x] r IH]; cbn; [discriminate|]. intros H. apply andb_prop in H as [A B].
  destruct (String.eqb k k'); [intros E; now inversion E; subst|auto].
Qed.
Lemma lf_rec_insert (r : list (string * value)) k v :
  forallb (fun kv => lf (snd kv)) r = true -> lf v = true ->
  forallb (fun kv => lf (snd kv)) (rec_insert r k v) = true.
Proof.
  induction r as [|[k' x] r IH]; cbn; intros H Hv; [now rewrite Hv|].
  apply andb_prop in H as [A B]. destruct (String.eqb k k'); cbn; [now rewrite Hv, B|now rewrite A, IH].
Qed.
Lemma lf_rec_insert_all es : forall (r : list (string * value)),
  forallb (fun kv => lf (snd kv)) r = true -> forallb (fun kv => lf (snd kv)) es = true ->
  forallb (fun kv => lf (snd kv)) (rec_insert_all r es) = true.
Proof.
  unfold rec_insert_all. induction es as [|[k x] es IH]; cbn; intros r Hr He; [assumption|].
  apply andb_prop in He as [A B]. apply IH; [|assumption]. now apply lf_rec_insert.
Qed.
Lemma lfs_nth (l : list value) k : lfs l = true -> lf (nth k l VNull) = true.
Proof.
  revert k. induction l as [|x l IH]; intros [|k] H; cbn in *; try reflexivity;
    apply andb_prop in H as [A B]; auto.
Qed.
Lemma lf_enum_entries {A} (key : nat -> string) (f : A -> value) (l : list A) : forall n,
  forallb (fun a => lf (f a)) l = true ->
  forallb (fun kv : string * value => lf (snd kv))
          (map (fun iv : nat * A => (key (fst iv), f (snd iv))) (enum_from n l)) = true.
Proof.
  induction l as [|a l IH]; intros n H; cbn in *; [reflexivity|].
  apply andb_prop in H as [X Y]. now rewrite X, IH.
Qed.
Lemma lf_record_spread_entries v : lf v = true ->
  forallb (fun kv => lf (snd kv)) (record_spread_entries v) = true.
Proof.
  destruct v as [| | | | | | | |w]; try reflexivity.
  destruct w as [| | |s|l|r| | |]; try reflexivity; intros H; cbn [record_spread_entries].
  - apply (lf_enum_entries nat_to_dec VStr). induction (chars s); cbn [forallb lf]; auto.
  - apply (lf_enum_entries nat_to_dec (fun x => x)). exact H.
  - exact H.
Qed.
Lemma lf_access_val v i r : lf v = true -> access_val v i = Ok r -> lf r = true.
Proof.
  destruct v; cbn; try discriminate; intros Hv.
  - destruct (as_number i); cbn; try discriminate. intros E; inversion E; subst; clear E.
    destruct (index_from _ _); [|reflexivity]. destruct (nth_error _ _); reflexivity.
  - destruct (as_number i); cbn; try discriminate. intros E; inversion E; subst; clear E.
    destruct (index_from _ _); [|reflexivity]. now apply lfs_nth.
  - destruct (as_string i); cbn; try discriminate. intros E; inversion E; subst; clear E.
    destruct (rec_get r0 a) eqn:G; [|reflexivity]. eapply lf_rec_get; eauto.
Qed.
Lemma lf_dot_val v f r : lf v = true -> dot_val v f = Ok r -> lf r = true.
Proof.
  destruct v; cbn; try discriminate; intros Hv E; inversion E; subst.
  destruct (rec_get r0 f) eqn:G; [|reflexivity]. eapply lf_rec_get; eauto.
Qed.
Lemma lf_spread_val v r : lf v = true -> spread_val v = Ok r -> lf r = true.
Proof. destruct v; cbn; try discriminate; intros Hv E; inversion E; subst; exact Hv. Qed.
Lemma lf_factorial rel n r : factorial_val rel n = Ok r -> lf r = true.
Proof.
  unfold factorial_val. destruct (_ && _); [|discriminate]. intros E; now inversion E.
Qed.

(* ------------------------------------------------------------------ environments *)
Lemma lookup_app (a b : frames) x :
  lookup (a ++ b) x = match lookup a x with Some v => Some v | None => lookup b x end.
Proof.
  induction a as [|[k f] a IH]; cbn; [reflexivity|]. destruct (lookup_frame f x); [reflexivity|apply IH].
Qed.
Lemma lookup_frame_rec_get (f : frame) x : lookup_frame f x = rec_get f x.
Proof. induction f as [|[k v] f IH]; cbn; [reflexivity|]. now rewrite IH. Qed.
Lemma lf_lookup_frame (f : frame) x v : frame_lf f = true -> lookup_frame f x = Some v -> lf v = true.
Proof. rewrite lookup_frame_rec_get. apply lf_rec_get. Qed.
Lemma lf_lookup (fr : frames) x v : frames_lf fr = true -> lookup fr x = Some v -> lf v = true.
Proof.
  induction fr as [|[k f] fr IH]; cbn; [discriminate|]. intros H. apply andb_prop in H as [A B].
  destruct (lookup_frame f x) eqn:E; [intros E'; inversion E'; subst; eapply lf_lookup_frame; eauto|auto].
Qed.

(* callbacks that agree on lambda-free values / return lambda-free values on them *)
Definition cb_lf_equiv (cb cb' : callback) : Prop :=
  forall this f args st, lf this = true -> lf f = true -> lfs args = true ->
    cb this f args st = cb' this f args st.
Definition cb_lf_closed (cb : callback) : Prop :=
  forall this f args st v st', lf this = true -> lf f = true -> lfs args = true ->
    cb this f args st = (Ok v, st') -> lf v = true.

(* ------------------------------------------------------------------ the pieces of [subst] *)
Definition subst_items (m : smap) :=
  fix go (l : list (commented expr)) : list (commented expr) :=
    match l with [] => [] | Cm a n t :: r => Cm a (subst true m n) t :: go r end.
Definition subst_args (m : smap) :=
  fix go (l : list expr) : list expr :=
    match l with [] => [] | a :: r => subst true m a :: go r end.
Definition subst_entry (m : smap) (k : rkey) (v : expr) : rentry :=
  match k with
  | KStatic s => REntry (KStatic s) (subst true m v)
  | KDyn ke => REntry (KDyn (subst true m ke)) (subst true m v)
  | KShort x => match rec_get m x with
                | Some lit => REntry (KStatic x) lit
                | None => REntry (KShort x) v
                end
  | KSpread se => REntry (KSpread (subst true m se)) v
  end.
Definition subst_entries (m : smap) :=
  fix go (l : list (commented rentry)) : list (commented rentry) :=
    match l with [] => [] | Cm a (REntry k v) t :: r => Cm a (subst_entry m k v) t :: go r end.
Definition subst_stmts :=
  fix go (l : list (commented expr)) (m' : smap) {struct l} : list (commented expr) :=
    match l with
    | [] => []
    | Cm a s t :: r => Cm a (subst true m' s) t :: go r (do_step_map true m' s)
    end.
Lemma subst_EList m items : subst true m (EList items) = EList (subst_items m items).
Proof. reflexivity. Qed.
Lemma subst_ERec m es : subst true m (ERec es) = ERec (subst_entries m es).
Proof. reflexivity. Qed.
Lemma subst_ECall m f args : subst true m (ECall f args) = ECall (subst true m f) (subst_args m args).
Proof. reflexivity. Qed.
Lemma subst_EDo m stmts rl ret rt :
  subst true m (EDo stmts (Cm rl ret rt)) =
  EDo (subst_stmts stmts m) (Cm rl (subst true (do_final_map true m stmts) ret) rt).
Proof. reflexivity. Qed.

(* inlining a list of commented items inlines the list of its nodes *)
Lemma subst_items_nodes m l : map cnode (subst_items m l) = subst_args m (map cnode l).
Proof. induction l as [|[a n t] l IH]; cbn; [reflexivity|]. now rewrite IH. Qed.

(* ------------------------------------------------------------------ decomposition of the premises *)
Definition fob_entry (k : rkey) (v : expr) : bool :=
  match k with
  | KDyn a => first_order_body a && first_order_body v
  | KSpread a => first_order_body a
  | KStatic _ => first_order_body v
  | KShort _ => true
  end.
Definition fv_entry (b : list string) (k : rkey) (v : expr) : list string :=
  match k with
  | KDyn a => free_vars a b ++ free_vars v b
  | KSpread a => free_vars a b
  | KStatic _ => free_vars v b
  | KShort x => if mem x b then [] else [x]
  end.
Lemma fob_EList items : first_order_body (EList items) = true ->
  Forall (fun c => first_order_body (cnode c) = true) items.
Proof.
  cbn. induction items as [|[a n t] l IH]; intros H; constructor.
  - apply andb_prop in H as [A _]. exact A.
  - apply andb_prop in H as [_ B]. auto.
Qed.
Lemma fv_EList items b : free_vars (EList items) b = [] ->
  Forall (fun c => free_vars (cnode c) b = []) items.
Proof.
  cbn. induction items as [|[a n t] l IH]; intros H; constructor.
  - apply app_eq_nil in H as [A _]. exact A.
  - apply app_eq_nil in H as [_ B]. auto.
Qed.
Lemma fob_args f args : first_order_body (ECall f args) = true ->
  first_order_body f = true /\ Forall (fun a => first_order_body a = true) args.
Proof.
  cbn. intros H. apply andb_prop in H as [A B]. split; [exact A|]. clear A.
  induction args as [|a l IH]; constructor.
  - apply andb_prop in B as [X _]. exact X.
  - apply andb_prop in B as [_ Y]. auto.
Qed.
Lemma fv_args f args b : free_vars (ECall f args) b = [] ->
  free_vars f b = [] /\ Forall (fun a => free_vars a b = []) args.
Proof.
  cbn. intros H. apply app_eq_nil in H as [A B]. split; [exact A|]. clear A.
  induction args as [|a l IH]; constructor.
  - apply app_eq_nil in B as [X _]. exact X.
  - apply app_eq_nil in B as [_ Y]. auto.
Qed.
Lemma fob_ERec es : first_order_body (ERec es) = true ->
  Forall (fun c => match cnode c with REntry k v => fob_entry k v = true end) es.
Proof.
  cbn. induction es as [|[a [k v] t] l IH]; intros H; constructor.
  - apply andb_prop in H as [A _]. exact A.
  - apply andb_prop in H as [_ B]. auto.
Qed.
Lemma fv_ERec es b : free_vars (ERec es) b = [] ->
  Forall (fun c => match cnode c with REntry k v => fv_entry b k v = [] end) es.
Proof.
  cbn. induction es as [|[a [k v] t] l IH]; intros H; constructor.
  - apply app_eq_nil in H as [A _]. cbn. destruct k; exact A.
  - apply app_eq_nil in H as [_ B]. auto.
Qed.

(* do-blocks: a statement that is not an assignment is evaluated / inlined like any expression *)
Definition fv_do (ret : expr) :=
  fix go (l : list (commented expr)) (bnd : list string) : list string :=
    match l with
    | [] => free_vars ret bnd
    | Cm _ s _ :: r =>
        match s with
        | EAssign x v => free_vars v bnd ++ go r (x :: bnd)
        | _ => free_vars s bnd ++ go r bnd
        end
    end.
Definition fob_stmts :=
  fix go (l : list (commented expr)) : bool :=
    match l with
    | [] => true
    | Cm _ a _ :: r =>
        (match a with EAssign _ v => first_order_body v | _ => first_order_body a end) && go r
    end.
Lemma fv_EDo stmts a ret t b : free_vars (EDo stmts (Cm a ret t)) b = fv_do ret stmts b.
Proof. reflexivity. Qed.
Lemma fob_EDo stmts a ret t :
  first_order_body (EDo stmts (Cm a ret t)) = fob_stmts stmts && first_order_body ret.
Proof. reflexivity. Qed.
Lemma na_do_step (ev : cfg -> expr -> result) c s : na s = true -> do_step ev c s = ev c s.
Proof. destruct s; try reflexivity; discriminate. Qed.
Lemma na_step_map m s : na s = true -> do_step_map true m s = m.
Proof. destruct s; try reflexivity; discriminate. Qed.
Lemma na_fv_do ret a s t l b : na s = true ->
  fv_do ret (Cm a s t :: l) b = free_vars s b ++ fv_do ret l b.
Proof. destruct s; try reflexivity; discriminate. Qed.
Lemma na_fob a s t l : na s = true ->
  fob_stmts (Cm a s t :: l) = first_order_body s && fob_stmts l.
Proof. destruct s; try reflexivity; discriminate. Qed.
Lemma assign_or_na s : (exists x v, s = EAssign x v) \/ na s = true.
Proof. destruct s; try (right; reflexivity). left; eauto. Qed.
Lemma fob_na e : first_order_body e = true -> na e = true.
Proof. destruct e; try reflexivity; discriminate. Qed.
Lemma lit_na n v : na (value_to_ast n true v) = true.
Proof.
  destruct v; try reflexivity.
  - cbn. unfold num_to_ast. destruct x as [[|]|[|]| |[|] ? ?]; cbn; try reflexivity; destruct n; reflexivity.
  - apply str_to_ast_closed. exact [].
Qed.

(* ------------------------------------------------------------------ the simulation *)
Section Sound.
  Variable release : bool.
  Variable binop_impl : callback -> binop -> value -> value -> store -> outcome value * store.
  Variable apply : frames -> callback.
  Notation evalE := (evalE release binop_impl apply).

  Hypothesis Hbin_ext : forall cb cb' op l r st, cb_lf_equiv cb cb' -> cb_lf_closed cb ->
    lf l = true -> lf r = true ->
    binop_impl cb op l r st = binop_impl cb' op l r st.
  Hypothesis Hbin_lf : forall cb op l r st v st', cb_lf_closed cb -> lf l = true -> lf r = true ->
    binop_impl cb op l r st = (Ok v, st') -> lf v = true.
  Hypothesis Happ_ext : forall fr fr', cb_lf_equiv (apply fr) (apply fr').
  Hypothesis Happ_lf : forall fr, cb_lf_closed (apply fr).

  Variable nanfix : bool.
  Notation lit := (value_to_ast nanfix true).
  (* the class of captured values: lambda-free, and the literal evaluates to the value and changes
     nothing (emittable_gen by lit_roundtrip; EmitNqSound.v: a wider class, under a hypothesis on `/` and `+`) *)
  Variable emok : value -> bool.
  Hypothesis Hemok_lf : forall v, emok v = true -> lf v = true.
  Hypothesis Hemok_lit : forall v c, emok v = true -> evalE c (lit v) = (Ok v, c).
  Variable sv : list (string * value).                 (* the captured scope *)
  Hypothesis Hsv_emit : forallb (fun kv => emok (snd kv)) sv = true.
  Hypothesis Hsv_special : forall x, special_name x = true -> rec_get sv x = None.
  Variables R1 R2 : frames.                            (* the rest of the two environments *)
  Notation F1 L := (L ++ (FShared, sv) :: R1).
  Notation F2 L := (L ++ R2).

  Lemma sv_get_emit x v : rec_get sv x = Some v -> emok v = true.
  Proof.
    clear Hsv_special. induction sv as [|[k w] s IH]; cbn in *; [discriminate|].
    apply andb_prop in Hsv_emit as [A B]. destruct (String.eqb x k); [intros E; now inversion E; subst|auto].
  Qed.

  (* The two runs use local frames L1 / L2 that agree on the names the body can mention
     ([bound]); names bound there are not inlined; on the other names of [bound] the inlining
     scope is the captured scope; names the evaluator never looks up are not inlined. *)
  Definition Inv (bound : list string) (L1 : frames) (m : smap) : Prop :=
    forall x, mem x bound = true ->
              match lookup L1 x with
              | Some _ => rec_get m x = None
              | None => rec_get m x = option_map lit (rec_get sv x)
              end.
  Definition msp (m : smap) : Prop :=
    (forall x, special_name x = true -> rec_get m x = None) /\
    (forall x a, rec_get m x = Some a -> exists v, a = lit v).
  Definition bound_ok (bound : list string) (L1 : frames) : Prop :=
    forall x, mem x bound = true ->
      (exists v, lookup L1 x = Some v /\ lf v = true) \/ (lookup L1 x = None /\ rec_get sv x <> None).
  Definition agree (bound : list string) (L1 L2 : frames) : Prop :=
    forall x v, mem x bound = true -> lookup L1 x = Some v -> lookup L2 x = Some v.
  Definition Env (bound : list string) (L1 L2 : frames) (m : smap) : Prop :=
    Inv bound L1 m /\ msp m /\ bound_ok bound L1 /\ agree bound L1 L2.

  Definition Sim (L1 L2 : frames) (st : store) (e : expr) (m : smap) : Prop :=
    exists r st', evalE (st, F1 L1) e = (r, (st', F1 L1)) /\
                  evalE (st, F2 L2) (subst true m e) = (r, (st', F2 L2)) /\
                  (forall v, r = Ok v -> lf v = true).
  Definition Q (e : expr) : Prop :=
    first_order_body e = true -> forall L1 L2 m bound st,
      Env bound L1 L2 m -> free_vars e bound = [] -> Sim L1 L2 st e m.
  (* an assignment is not a first-order body, but as a do-block statement its right-hand side is evaluated:
     the induction carries Q of that right-hand side as a second conjunct *)
  Definition P (e : expr) : Prop := Q e /\ (forall x v, e = EAssign x v -> Q v).

  Lemma lookup_F1 L x : lookup (F1 L) x =
    match lookup L x with Some v => Some v | None =>
      match rec_get sv x with Some v => Some v | None => lookup R1 x end end.
  Proof. rewrite lookup_app. cbn. now rewrite lookup_frame_rec_get. Qed.

  (* an identifier (also used for record shorthand): what the original finds is what the
     inlined expression evaluates to *)
  Lemma ident_sim L1 L2 m bound x : Env bound L1 L2 m -> mem x bound = true ->
    exists v, lookup (F1 L1) x = Some v /\ lf v = true /\
      match rec_get m x with
      | Some a => a = lit v /\ emok v = true
      | None => lookup (F2 L2) x = Some v
      end.
  Proof.
    intros (HI & _ & HB & HA) Hm. specialize (HI x Hm).
    rewrite lookup_F1, lookup_app. destruct (HB x Hm) as [(v & EL & Hv)|[EL ES]].
    - rewrite (HA x v Hm EL). rewrite EL in *. exists v. rewrite HI. auto.
    - rewrite EL in *. destruct (rec_get sv x) eqn:E; [|congruence].
      exists v. rewrite HI. cbn. pose proof (sv_get_emit _ _ E). repeat split; auto.
  Qed.

  (* fin: both runs are already values; give the outcome and the store, leaving that the result is lambda-free *)
  Ltac fin := eexists; eexists; split; [reflexivity|split; [reflexivity|]].

  Lemma Q_id x : Q (EId x).
  Proof.
    intros _ L1 L2 m bound st HE HFV. cbn [free_vars] in HFV.
    unfold Sim. cbn [subst].
    destruct (special_name x) eqn:Hsp.
    - (* never looked up, never inlined *)
      assert (Hm : rec_get m x = None) by (destruct HE as (_ & [Hs _] & _); exact (Hs x Hsp)).
      rewrite Hm. cbn [Eval.evalE]. unfold special_name in Hsp.
      destruct (String.eqb x "infinity" || String.eqb x "inf")%bool eqn:E1.
      + fin. intros v E; inversion E; reflexivity.
      + try rewrite E1 in Hsp. cbn [orb] in Hsp. rewrite Hsp. fin. intros v E; inversion E; reflexivity.
    - assert (Hmem : mem x bound = true).
      { unfold special_name in Hsp. destruct (mem x bound); [reflexivity|].
        cbn [orb] in HFV. rewrite Hsp in HFV. discriminate. }
      destruct (ident_sim L1 L2 m bound x HE Hmem) as (v & E1 & Hlf & Hm).
      unfold special_name in Hsp. apply orb_false_elim in Hsp as [Hsp E3].
      destruct (rec_get m x) eqn:Em.
      + destruct Hm as [-> Hem]. cbn [Eval.evalE snd fst]. rewrite Hsp, E3, E1.
        rewrite (Hemok_lit v _ Hem). cbn.
        fin. intros w E; inversion E; subst; exact Hlf.
      + cbn [Eval.evalE snd fst]. rewrite Hsp, E3, E1, Hm. cbn.
        fin. intros w E; inversion E; subst; exact Hlf.
  Qed.

  (* ---- lists of sub-expressions ---- *)
  Lemma evalL_sim args : Forall Q args ->
    Forall (fun a => first_order_body a = true) args ->
    forall L1 L2 m bound, Env bound L1 L2 m ->
    Forall (fun a => free_vars a bound = []) args ->
    forall st, exists r st',
      evalL evalE (st, F1 L1) args = (r, (st', F1 L1)) /\
      evalL evalE (st, F2 L2) (subst_args m args) = (r, (st', F2 L2)) /\
      (forall vs, r = Ok vs -> lfs vs = true).
  Proof.
    intros HQ. induction HQ as [|n l Hn Hl IH]; intros Hf L1 L2 m bound HE HV st.
    - cbn. fin. intros vs E; inversion E; reflexivity.
    - pose proof (Forall_inv Hf) as Hf1. pose proof (Forall_inv_tail Hf) as Hf2.
      pose proof (Forall_inv HV) as HV1. pose proof (Forall_inv_tail HV) as HV2.
      cbn [evalL subst_args].
      destruct (Hn Hf1 L1 L2 m bound st HE HV1) as (r & st1 & E1 & E2 & Hlf). rewrite E1, E2.
      destruct r as [v| | | |]; try (cbn [cast_fail]; fin; discriminate).
      destruct (IH Hf2 L1 L2 m bound HE HV2 st1) as (r2 & st2 & E3 & E4 & Hlf2). rewrite E3, E4.
      destruct r2 as [vs| | | |]; try (fin; discriminate).
      fin. intros ws E; inversion E; subst. cbn. rewrite (Hlf v eq_refl). exact (Hlf2 vs eq_refl).
  Qed.

  Lemma evalCL_sim items : Forall (fun c => Q (cnode c)) items ->
    Forall (fun c => first_order_body (cnode c) = true) items ->
    forall L1 L2 m bound, Env bound L1 L2 m ->
    Forall (fun c => free_vars (cnode c) bound = []) items ->
    forall st, exists r st',
      evalCL evalE (st, F1 L1) items = (r, (st', F1 L1)) /\
      evalCL evalE (st, F2 L2) (subst_items m items) = (r, (st', F2 L2)) /\
      (forall vs, r = Ok vs -> lfs vs = true).
  Proof.
    intros HQ Hf L1 L2 m bound HE HV st. rewrite !evalCL_evalL, subst_items_nodes.
    apply evalL_sim with (bound := bound); try assumption; apply Forall_map; assumption.
  Qed.

  Definition Qentry (c : commented rentry) : Prop :=
    match cnode c with
    | REntry k v => (match k with KDyn e | KSpread e => Q e | _ => True end) /\ Q v
    end.

  Lemma evalRec_sim es : Forall Qentry es ->
    Forall (fun c => match cnode c with REntry k v => fob_entry k v = true end) es ->
    forall L1 L2 m bound, Env bound L1 L2 m ->
    Forall (fun c => match cnode c with REntry k v => fv_entry bound k v = [] end) es ->
    forall acc st, forallb (fun kv => lf (snd kv)) acc = true ->
    exists r st',
      evalRecL evalE (st, F1 L1) acc es = (r, (st', F1 L1)) /\
      evalRecL evalE (st, F2 L2) acc (subst_entries m es) = (r, (st', F2 L2)) /\
      (forall v, r = Ok v -> lf v = true).
  Proof.
    intros HQ. induction HQ as [|[a [k v] t] l Hn Hl IH]; intros Hf L1 L2 m bound HE HV acc st Hacc.
    - cbn. fin. intros w E; inversion E; subst. exact Hacc.
    - pose proof (Forall_inv Hf) as Hf1. pose proof (Forall_inv_tail Hf) as Hf2.
      pose proof (Forall_inv HV) as HV1. pose proof (Forall_inv_tail HV) as HV2.
      unfold Qentry in Hn. cbn [cnode] in Hn, Hf1, HV1. destruct Hn as [Hk Hv].
      cbn [evalRecL subst_entries]. destruct k as [key|ke|x|se]; cbn [subst_entry fob_entry fv_entry] in *.
      + (* static key *)
        destruct (Hv Hf1 L1 L2 m bound st HE HV1) as (r & st1 & E1 & E2 & Hlf). rewrite E1, E2.
        destruct r as [w| | | |]; try (fin; discriminate).
        apply (IH Hf2 L1 L2 m bound HE HV2). apply lf_rec_insert; auto.
      + (* computed key *)
        apply andb_prop in Hf1 as [Fa Fb]. apply app_eq_nil in HV1 as [Va Vb].
        destruct (Hk Fa L1 L2 m bound st HE Va) as (r & st1 & E1 & E2 & Hlf). rewrite E1, E2.
        destruct r as [kv| | | |]; try (fin; discriminate).
        destruct (as_string kv) as [key| | | |]; try (cbn [cast_fail]; fin; discriminate).
        destruct (Hv Fb L1 L2 m bound st1 HE Vb) as (r2 & st2 & E3 & E4 & Hlf2). rewrite E3, E4.
        destruct r2 as [w| | | |]; try (fin; discriminate).
        apply (IH Hf2 L1 L2 m bound HE HV2). apply lf_rec_insert; auto.
      + (* shorthand: the variable is looked up / its literal is written *)
        assert (Hmem : mem x bound = true) by (destruct (mem x bound); [reflexivity|discriminate]).
        destruct (ident_sim L1 L2 m bound x HE Hmem) as (w & E1 & Hlfw & Hm).
        cbn [snd]. rewrite E1. destruct (rec_get m x) eqn:Em.
        * destruct Hm as [-> Hem]. cbn [evalRecL].
          rewrite (Hemok_lit w _ Hem).
          apply (IH Hf2 L1 L2 m bound HE HV2). apply lf_rec_insert; auto.
        * cbn [evalRecL snd]. rewrite Hm.
          apply (IH Hf2 L1 L2 m bound HE HV2). apply lf_rec_insert; auto.
      + (* spread *)
        destruct (Hk Hf1 L1 L2 m bound st HE HV1) as (r & st1 & E1 & E2 & Hlf). rewrite E1, E2.
        destruct r as [w| | | |]; try (fin; discriminate).
        apply (IH Hf2 L1 L2 m bound HE HV2). apply lf_rec_insert_all; auto.
        apply lf_record_spread_entries. auto.
  Qed.

  (* ---- do-blocks ---- *)
  (* EmitClosed.subst_na for an inlining scope only known to hold literals ([msp]), on first-order bodies *)
  Lemma subst_na_lit m e : msp m -> first_order_body e = true -> na (subst true m e) = true.
  Proof.
    intros [_ Hm] Hf. destruct e; try reflexivity; try discriminate.
    - cbn. destruct (rec_get m x) eqn:E; [|reflexivity].
      destruct (Hm x e E) as [v ->]. apply lit_na.
    - cbn. destruct ret. reflexivity.
  Qed.
  Lemma name_lf n0 st v x : lf v = true -> name_if_created n0 st v x = st.
  Proof. destruct v; try reflexivity; discriminate. Qed.

  Definition do_body (c : cfg) (stmts : list (commented expr)) (ret : expr) : result :=
    match evalDoL evalE c stmts with
    | (Ok _, c1) => do_step evalE c1 ret
    | (o, c1) => (cast_fail o, c1)
    end.

  Lemma msp_remove m x : msp m -> msp (smap_remove m x).
  Proof.
    intros [A B]. split.
    - intros y Hy. rewrite rec_get_remove. destruct (String.eqb y x); auto.
    - intros y a. rewrite rec_get_remove. destruct (String.eqb y x); [discriminate|apply B].
  Qed.
  Lemma Env_bind bound f1 f2 L1 L2 m x v : lf v = true ->
    Env bound ((FOwned, f1) :: L1) ((FOwned, f2) :: L2) m ->
    Env (x :: bound) ((FOwned, (x, v) :: f1) :: L1) ((FOwned, (x, v) :: f2) :: L2) (smap_remove m x).
  Proof.
    intros Hv (HI & Hm & HB & HA). repeat split.
    - intros y Hy. rewrite rec_get_remove. cbn [lookup lookup_frame].
      destruct (String.eqb y x) eqn:E; [reflexivity|].
      cbn [mem existsb] in Hy. rewrite E in Hy. exact (HI y Hy).
    - apply (msp_remove m x Hm).
    - apply (msp_remove m x Hm).
    - intros y Hy. cbn [lookup lookup_frame]. destruct (String.eqb y x) eqn:E.
      + left. exists v. auto.
      + cbn [mem existsb] in Hy. rewrite E in Hy. exact (HB y Hy).
    - intros y u Hy. cbn [lookup lookup_frame]. destruct (String.eqb y x) eqn:E; [auto|].
      cbn [mem existsb] in Hy. rewrite E in Hy. exact (HA y u Hy).
  Qed.

  Lemma do_sim stmts : Forall (fun c => P (cnode c)) stmts ->
    forall ret, Q ret -> first_order_body ret = true -> fob_stmts stmts = true ->
    forall f1 f2 L1 L2 m bound st, Env bound ((FOwned, f1) :: L1) ((FOwned, f2) :: L2) m ->
      fv_do ret stmts bound = [] ->
      exists r st' f1' f2',
        do_body (st, (FOwned, f1) :: F1 L1) stmts ret = (r, (st', (FOwned, f1') :: F1 L1)) /\
        do_body (st, (FOwned, f2) :: F2 L2) (subst_stmts stmts m)
                (subst true (do_final_map true m stmts) ret) = (r, (st', (FOwned, f2') :: F2 L2)) /\
        (forall v, r = Ok v -> lf v = true).
  Proof.
    intros HP. induction HP as [|[a s t] l Hs Hl IH]; intros ret HQr Hfr Hfs f1 f2 L1 L2 m bound st HE HV.
    - cbn [fv_do] in HV. unfold do_body. cbn [evalDoL subst_stmts do_final_map].
      rewrite na_do_step by (now apply fob_na).
      rewrite na_do_step by (apply subst_na_lit; [apply HE|exact Hfr]).
      destruct (HQr Hfr _ _ m bound st HE HV) as (r & st1 & E1 & E2 & Hlf).
      cbn [app] in E1, E2. rewrite E1, E2. exists r, st1, f1, f2. auto.
    - cbn [cnode] in Hs. destruct Hs as [HQs HAs].
      destruct (assign_or_na s) as [(x & v & ->)|Hna].
      + (* x = v : binds x in the block frame; x is no longer inlined *)
        cbn [fob_stmts] in Hfs. apply andb_prop in Hfs as [Hf1 Hf2].
        cbn [fv_do] in HV. apply app_eq_nil in HV as [HV1 HV2].
        unfold do_body. cbn [evalDoL subst_stmts do_final_map do_step_map subst do_step].
        destruct (mem x do_assign_keywords).
        { cbn [cast_fail]. exists Err, st, f1, f2. repeat split; discriminate. }
        unfold assign_value.
        destruct (HAs x v eq_refl Hf1 _ _ m bound st HE HV1) as (r & st1 & E1 & E2 & Hlf).
        cbn [app] in E1, E2. rewrite E1, E2.
        destruct r as [w| | | |];
          try (cbn [cast_fail]; eexists _, st1, f1, f2; repeat split; discriminate).
        unfold bind_value. cbn [snd fst insert_head]. rewrite (name_lf _ st1 w x (Hlf w eq_refl)).
        destruct (IH ret HQr Hfr Hf2 ((x, w) :: f1) ((x, w) :: f2) L1 L2 (smap_remove m x) (x :: bound) st1
                     (Env_bind bound f1 f2 L1 L2 m x w (Hlf w eq_refl) HE) HV2)
          as (r & st2 & g1 & g2 & E3 & E4 & Hlf2).
        unfold do_body in E3, E4. exists r, st2, g1, g2. auto.
      + rewrite (na_fob a s t l Hna) in Hfs. apply andb_prop in Hfs as [Hf1 Hf2].
        rewrite (na_fv_do ret a s t l bound Hna) in HV. apply app_eq_nil in HV as [HV1 HV2].
        unfold do_body. cbn [evalDoL subst_stmts do_final_map]. rewrite (na_step_map m s Hna).
        rewrite na_do_step by exact Hna.
        rewrite na_do_step by (apply subst_na_lit; [apply HE|exact Hf1]).
        destruct (HQs Hf1 _ _ m bound st HE HV1) as (r & st1 & E1 & E2 & Hlf).
        cbn [app] in E1, E2. rewrite E1, E2.
        destruct r as [w| | | |];
          try (cbn [cast_fail]; eexists _, st1, f1, f2; repeat split; discriminate).
        destruct (IH ret HQr Hfr Hf2 f1 f2 L1 L2 m bound st1 HE HV2) as (r & st2 & g1 & g2 & E3 & E4 & Hlf2).
        unfold do_body in E3, E4. exists r, st2, g1, g2. auto.
  Qed.

  Lemma evalE_EDo c stmts a ret t :
    evalE c (EDo stmts (Cm a ret t)) =
    (fst (do_body (fst c, (FOwned, []) :: snd c) stmts ret),
     (fst (snd (do_body (fst c, (FOwned, []) :: snd c) stmts ret)), snd c)).
  Proof. reflexivity. Qed.
  Lemma pair_proj {A B C} (x : A * (B * C)) (a : A) (b : B) (c d : C) :
    x = (a, (b, c)) -> (fst x, (fst (snd x), d)) = (a, (b, d)).
  Proof. intros ->. reflexivity. Qed.
  Lemma Env_push bound L1 L2 m : Env bound L1 L2 m ->
    Env bound ((FOwned, []) :: L1) ((FOwned, []) :: L2) m.
  Proof. intros (HI & Hm & HB & HA). repeat split; try apply Hm; [intros x Hx; exact (HI x Hx)|intros x Hx; exact (HB x Hx)|intros x v Hx; exact (HA x v Hx)]. Qed.

  (* failcase: fin for a failure on both sides (nothing to show about a result) *)
  Ltac failcase := try (cbn [cast_fail]; fin; discriminate).

  Theorem sim_all : forall e, P e.
  Proof.
    induction e using expr_ind'; (split; [|intros x0 v0 Heq; try discriminate]).
    - intros _ L1 L2 m bound st _ _. cbn. fin. intros v E; inversion E; reflexivity.
    - intros _ L1 L2 m bound st _ _. cbn. fin. intros v E; inversion E; reflexivity.
    - intros _ L1 L2 m bound st _ _. cbn. fin. intros v E; inversion E; reflexivity.
    - intros _ L1 L2 m bound st _ _. cbn. fin. intros v E; inversion E; reflexivity.
    - apply Q_id.
    - intros Hf; discriminate.
    - intros _ L1 L2 m bound st _ _. cbn. fin. intros v E; inversion E; reflexivity.
    - (* list *)
      intros Hf L1 L2 m bound st HE HV. unfold Sim. rewrite subst_EList. cbn [Eval.evalE].
      assert (HQ : Forall (fun c => Q (cnode c)) items).
      { eapply Forall_impl; [|exact H]. intros c Hc. exact (proj1 Hc). }
      destruct (evalCL_sim items HQ (fob_EList items Hf) L1 L2 m bound HE (fv_EList items bound HV) st)
        as (r & st1 & E1 & E2 & Hlf).
      rewrite E1, E2. cbn [fst snd]. fin.
      intros v E. destruct r; cbn in E; inversion E; subst. rewrite lf_list. apply lfs_flatten. auto.
    - (* record *)
      intros Hf L1 L2 m bound st HE HV. unfold Sim. rewrite subst_ERec. cbn [Eval.evalE].
      assert (HQ : Forall Qentry entries).
      { eapply Forall_impl; [|exact H]. intros [a [k v] t] Hc. unfold Qentry. cbn in *.
        destruct Hc as [Hk Hv]. split; [|exact (proj1 Hv)]. destruct k; auto; exact (proj1 Hk). }
      apply (evalRec_sim entries HQ (fob_ERec entries Hf) L1 L2 m bound HE (fv_ERec entries bound HV)).
      reflexivity.
    - intros Hf; discriminate.
    - (* conditional *)
      intros Hf L1 L2 m bound st HE HV. cbn [first_order_body] in Hf. cbn [free_vars] in HV.
      apply andb_prop in Hf as [Hf Hf3]. apply andb_prop in Hf as [Hf1 Hf2].
      apply app_eq_nil in HV as [HV1 HV]. apply app_eq_nil in HV as [HV2 HV3].
      unfold Sim. cbn [subst Eval.evalE].
      destruct (proj1 IHe1 Hf1 L1 L2 m bound st HE HV1) as (r & st1 & E1 & E2 & Hlf). rewrite E1, E2.
      destruct r as [cv| | | |]; try (fin; discriminate).
      destruct (as_bool cv) as [[|]| | | |]; failcase.
      + apply (proj1 IHe2 Hf2 L1 L2 m bound st1 HE HV2).
      + apply (proj1 IHe3 Hf3 L1 L2 m bound st1 HE HV3).
    - (* do-block *)
      intros Hf L1 L2 m bound st HE HV. destruct ret as [rl ret rt]. cbn [cnode] in IHe.
      rewrite fob_EDo in Hf. apply andb_prop in Hf as [Hfs Hfr]. rewrite fv_EDo in HV.
      unfold Sim. rewrite subst_EDo. rewrite !evalE_EDo. cbn [fst snd].
      destruct (do_sim stmts H ret (proj1 IHe) Hfr Hfs [] [] L1 L2 m bound st (Env_push bound L1 L2 m HE) HV)
        as (r & st1 & f1 & f2 & E1 & E2 & Hlf).
      exists r, st1. split; [exact (pair_proj _ _ _ _ _ E1)|split; [exact (pair_proj _ _ _ _ _ E2)|exact Hlf]].
    - intros Hf; discriminate.
    - inversion Heq; subst. exact (proj1 IHe).
    - intros Hf; discriminate.
    - (* call *)
      intros Hf L1 L2 m bound st HE HV. unfold Sim. rewrite subst_ECall. cbn [Eval.evalE].
      destruct (fob_args _ _ Hf) as [Hff Hfa]. destruct (fv_args _ _ _ HV) as [HVf HVa].
      destruct (proj1 IHe Hff L1 L2 m bound st HE HVf) as (r & st1 & E1 & E2 & Hlf). rewrite E1, E2.
      destruct r as [fv| | | |]; try (fin; discriminate).
      assert (HQ : Forall Q args) by (eapply Forall_impl; [|exact H]; intros c Hc; exact (proj1 Hc)).
      destruct (evalL_sim args HQ Hfa L1 L2 m bound HE HVa st1) as (r2 & st2 & E3 & E4 & Hlf2).
      rewrite E3, E4. destruct r2 as [raw| | | |]; failcase.
      destruct (negb (is_function fv)); [fin; discriminate|].
      pose proof (Hlf fv eq_refl) as Hfv. pose proof (lfs_flatten raw (Hlf2 raw eq_refl)) as Hargs.
      rewrite (Happ_ext (F1 L1) (F2 L2) fv fv (flatten_spreads raw) st2 Hfv Hfv Hargs).
      destruct (apply (F2 L2) fv fv (flatten_spreads raw) st2) as [res st3] eqn:EA.
      fin. intros v E; subst. eapply (Happ_lf (F2 L2)); eauto.
    - (* index *)
      intros Hf L1 L2 m bound st HE HV. cbn [first_order_body] in Hf. cbn [free_vars] in HV.
      apply andb_prop in Hf as [Hf1 Hf2]. apply app_eq_nil in HV as [HV1 HV2].
      unfold Sim. cbn [subst Eval.evalE].
      destruct (proj1 IHe1 Hf1 L1 L2 m bound st HE HV1) as (r & st1 & E1 & E2 & Hlf). rewrite E1, E2.
      destruct r as [v| | | |]; try (fin; discriminate).
      destruct (proj1 IHe2 Hf2 L1 L2 m bound st1 HE HV2) as (r2 & st2 & E3 & E4 & Hlf2). rewrite E3, E4.
      destruct r2 as [i| | | |]; try (fin; discriminate).
      fin. intros w E. eapply lf_access_val; eauto.
    - (* field *)
      intros Hf L1 L2 m bound st HE HV. cbn [first_order_body] in Hf. cbn [free_vars] in HV.
      unfold Sim. cbn [subst Eval.evalE].
      destruct (proj1 IHe Hf L1 L2 m bound st HE HV) as (r & st1 & E1 & E2 & Hlf). rewrite E1, E2.
      destruct r as [v| | | |]; try (fin; discriminate).
      fin. intros w E. eapply lf_dot_val; eauto.
    - (* binary operator *)
      intros Hf L1 L2 m bound st HE HV. cbn [first_order_body] in Hf. cbn [free_vars] in HV.
      apply andb_prop in Hf as [Hf1 Hf2]. apply app_eq_nil in HV as [HV1 HV2].
      unfold Sim. cbn [subst Eval.evalE].
      destruct (proj1 IHe1 Hf1 L1 L2 m bound st HE HV1) as (r & st1 & E1 & E2 & Hlf). rewrite E1, E2.
      destruct r as [lv| | | |]; try (fin; discriminate).
      destruct (proj1 IHe2 Hf2 L1 L2 m bound st1 HE HV2) as (r2 & st2 & E3 & E4 & Hlf2). rewrite E3, E4.
      destruct r2 as [rv| | | |]; try (fin; discriminate).
      rewrite (Hbin_ext (apply (F1 L1)) (apply (F2 L2)) op lv rv st2 (Happ_ext _ _) (Happ_lf _) (Hlf lv eq_refl) (Hlf2 rv eq_refl)).
      destruct (binop_impl (apply (F2 L2)) op lv rv st2) as [res st3] eqn:EB.
      fin. intros v E; subst. exact (Hbin_lf (apply (F2 L2)) op lv rv st2 v st3 (Happ_lf _) (Hlf lv eq_refl) (Hlf2 rv eq_refl) EB).
    - (* unary operator *)
      intros Hf L1 L2 m bound st HE HV. cbn [first_order_body] in Hf. cbn [free_vars] in HV.
      unfold Sim. cbn [subst Eval.evalE].
      destruct (proj1 IHe Hf L1 L2 m bound st HE HV) as (r & st1 & E1 & E2 & Hlf). rewrite E1, E2.
      destruct r as [v| | | |]; try (fin; discriminate).
      fin. intros w E. destruct op; [destruct (as_number v)|destruct (as_bool v)|destruct (as_bool v)];
        cbn in E; inversion E; reflexivity.
    - (* factorial *)
      intros Hf L1 L2 m bound st HE HV. cbn [first_order_body] in Hf. cbn [free_vars] in HV.
      unfold Sim. cbn [subst Eval.evalE].
      destruct (proj1 IHe Hf L1 L2 m bound st HE HV) as (r & st1 & E1 & E2 & Hlf). rewrite E1, E2.
      destruct r as [v| | | |]; try (fin; discriminate).
      fin. intros w E. destruct (as_number v); cbn in E; try discriminate. eapply lf_factorial; eauto.
    - (* spread *)
      intros Hf L1 L2 m bound st HE HV. cbn [first_order_body] in Hf. cbn [free_vars] in HV.
      unfold Sim. cbn [subst Eval.evalE].
      destruct (proj1 IHe Hf L1 L2 m bound st HE HV) as (r & st1 & E1 & E2 & Hlf). rewrite E1, E2.
      destruct r as [v| | | |]; try (fin; discriminate).
      fin. intros w E. eapply lf_spread_val; eauto.
  Qed.
End Sound.

(* ------------------------------------------------------------------ binding the parameters *)
Lemma bind_params_none_iff ps : forall idx args acc acc',
  bind_params ps idx args acc = None <-> bind_params ps idx args acc' = None.
Proof.
  induction ps as [|p ps IH]; intros idx args acc acc'; cbn [bind_params]; [split; discriminate|].
  destruct p as [x|x|x]; [destruct (nth_error args idx); [apply IH|tauto]|apply IH|apply IH].
Qed.
Lemma lfs_nth_error (l : list value) k v : lfs l = true -> nth_error l k = Some v -> lf v = true.
Proof.
  revert k. induction l as [|x l IH]; intros [|k] H E; cbn in *; try discriminate;
    apply andb_prop in H as [A B]; [inversion E; subst; exact A|eauto].
Qed.
Lemma lfs_skipn (l : list value) k : lfs l = true -> lfs (skipn k l) = true.
Proof.
  revert k. induction l as [|x l IH]; intros [|k] H; cbn in *; auto.
  apply andb_prop in H as [A B]. auto.
Qed.
Lemma lf_param_value p idx args : lfs args = true -> lf (param_value p idx args) = true.
Proof.
  intros Ha. destruct p; cbn [param_value]; try (rewrite lf_list; now apply lfs_skipn);
    (destruct (nth_error args idx) eqn:E; [eapply lfs_nth_error; eauto|reflexivity]).
Qed.
(* every parameter name ends up bound to a lambda-free value, the same in both runs *)
Lemma bind_params_good ps : forall idx args acc acc' fr fr',
  lfs args = true ->
  bind_params ps idx args acc = Some fr -> bind_params ps idx args acc' = Some fr' ->
  forall x, (In x (map arg_name ps) \/
             (exists v, lookup_frame acc x = Some v /\ lookup_frame acc' x = Some v /\ lf v = true)) ->
    exists v, lookup_frame fr x = Some v /\ lookup_frame fr' x = Some v /\ lf v = true.
Proof.
  induction ps as [|p ps IH]; intros idx args acc acc' fr fr' Ha H H' x Hx.
  - cbn [bind_params] in H, H'. inversion H; inversion H'; subst. destruct Hx as [[]|Hx]. exact Hx.
  - apply bind_params_cons in H, H'. apply (IH _ _ _ _ _ _ Ha H H'). cbn [map In] in Hx. cbn [lookup_frame].
    destruct (String.eqb_spec x (arg_name p)) as [->|Hne].
    + right. exists (param_value p idx args). auto using lf_param_value.
    + destruct Hx as [[E|Hin]|Hacc]; [congruence|left; exact Hin|right; exact Hacc].
Qed.

(* ------------------------------------------------------------------ the evaluator at depth d *)
Section Top.
  Variable release : bool.
  Variable binop_impl : callback -> binop -> value -> value -> store -> outcome value * store.
  Variable builtin_impl : callback -> builtin -> list value -> store -> outcome value * store.
  Notation AD := (AD release binop_impl builtin_impl).

  (* what is assumed of the operator / built-in implementations *)
  Definition impl_lf_respecting : Prop :=
    (forall cb cb' op l r st, cb_lf_equiv cb cb' -> cb_lf_closed cb -> lf l = true -> lf r = true ->
       binop_impl cb op l r st = binop_impl cb' op l r st) /\
    (forall cb op l r st v st', cb_lf_closed cb -> lf l = true -> lf r = true ->
       binop_impl cb op l r st = (Ok v, st') -> lf v = true) /\
    (forall cb cb' b args st, cb_lf_equiv cb cb' -> cb_lf_closed cb -> lfs args = true ->
       builtin_impl cb b args st = builtin_impl cb' b args st) /\
    (forall cb b args st v st', cb_lf_closed cb -> lfs args = true ->
       builtin_impl cb b args st = (Ok v, st') -> lf v = true).
  Hypothesis Himpl : impl_lf_respecting.

  Lemma too_deep_closed : cb_lf_closed (fun _ f a s => call_too_deep f a s).
  Proof. intros this f args st v st' _ _ _ E. unfold call_too_deep in E. destruct (check_arity _ _); discriminate. Qed.

  Definition ADok (d : nat) : Prop :=
    (forall fr fr', cb_lf_equiv (AD d fr) (AD d fr')) /\ (forall fr, cb_lf_closed (AD d fr)).

  (* AD (S (S d)) runs the body with evalE (AD (S d)) and hands AD d to the built-ins as their callback:
     a step of the induction needs two consecutive depths, so they are proved together *)
  Lemma AD_lf_two : forall d, ADok d /\ ADok (S d).
  Proof.
    destruct Himpl as (_ & _ & Hbe & Hbl).
    assert (Hstep : forall d' (cbf : frames -> callback),
               (forall fr fr', cb_lf_equiv (cbf fr) (cbf fr')) -> (forall fr, cb_lf_closed (cbf fr)) ->
               (forall fr, AD (S d') fr = apply_at builtin_impl (Some (evalE release binop_impl (AD d'), cbf fr)) fr) ->
               ADok (S d')).
    { intros d' cbf He Hc Hdef. split.
      - intros fr fr' this f args st Hthis Hf Hargs. rewrite !Hdef. unfold apply_at.
        destruct (negb (check_arity f (Datatypes.length args))); [reflexivity|].
        destruct f; try reflexivity; try discriminate. cbn [call_passed]. apply Hbe; auto.
      - intros fr this f args st v st' Hthis Hf Hargs. rewrite Hdef. unfold apply_at.
        destruct (negb (check_arity f (Datatypes.length args))); [discriminate|].
        destruct f; try discriminate. cbn [call_passed]. apply Hbl; auto. }
    induction d as [|d [IH0 IH1]].
    - split.
      + split.
        * intros fr fr' this f args st _ _ _. cbn. reflexivity.
        * intros fr this f args st v st' _ _ _ E. cbn in E. unfold apply_at in E.
          destruct (negb _); discriminate.
      + apply (Hstep O (fun _ => fun _ f a s => call_too_deep f a s)).
        * intros fr fr' this f args st _ _ _. reflexivity.
        * intros fr. apply too_deep_closed.
        * intros fr. reflexivity.
    - split; [exact IH1|].
      apply (Hstep (S d) (fun fr => AD d fr)).
      + apply IH0.
      + apply IH0.
      + intros fr. reflexivity.
  Qed.
  Lemma AD_lf d : ADok d.
  Proof. exact (proj1 (AD_lf_two d)). Qed.

  (* P2, first-order part: a call of the original closure and a call of the reloaded emission
     give the same outcome and the same store — at every depth, from any two call sites *)
  Theorem emit_equiv_first_order_on : forall nanfix (emok : value -> bool),
    (forall v, emok v = true -> lf v = true) ->
    (forall apply v c, emok v = true ->
       evalE release binop_impl apply c (value_to_ast nanfix true v) = (Ok v, c)) ->
    forall d fr fr' this this' id id' params body sv args st,
    first_order_body body = true ->
    free_vars body (map arg_name params ++ map fst sv) = [] ->
    forallb (fun kv => emok (snd kv)) sv = true ->
    (forall x, special_name x = true -> rec_get sv x = None) ->
    (forall x, In x (map arg_name params) -> rec_get sv x = None) ->
    rec_get sv "inputs"%string = None ->
    (forall n, lam_name st id = Some n -> rec_get sv n = None) ->
    lfs args = true ->
    AD d fr this (VLam id params body sv) args st =
    AD d fr' this' (VLam id' params (subst true (scope_map nanfix true sv) body) []) args st.
  Proof.
    intros nanfix emok Hlf Hlit d fr fr' this this' id id' params body sv args st
           Hfob Hfv Hem Hsp Hpar Hinp Hself Hargs.
    destruct d as [|d']; [reflexivity|].
    cbn [Eval.AD]. unfold apply_at. cbn [check_arity accepts fn_arity].
    destruct (negb (can_accept (lambda_arity params) (Datatypes.length args))); [reflexivity|].
    cbn [call_passed].
    (* the self reference is installed on both sides: the original's name is not captured (Hself),
       the reloaded function captures nothing *)
    assert (Hs1 : match lam_name st id with
                  | Some n => match lookup_frame sv n with Some _ => [] | None => [(n, this)] end
                  | None => []
                  end = match lam_name st id with Some n => [(n, this)] | None => [] end).
    { destruct (lam_name st id) as [n0|] eqn:En; [|reflexivity].
      rewrite lookup_frame_rec_get, (Hself n0 eq_refl). reflexivity. }
    rewrite Hs1.
    (* Eval.call_passed copies the caller's `inputs` only when none is captured (F9): `inputs` is not captured
       (Hinp), so it is copied on both sides *)
    rewrite (lookup_frame_rec_get sv "inputs"), Hinp. cbn [lookup_frame].
    set (acc := (match lookup fr "inputs" with Some i => [("inputs"%string, i)] | None => [] end ++
                 match lam_name st id with Some n => [(n, this)] | None => [] end)).
    set (acc' := (match lookup fr' "inputs" with Some i => [("inputs"%string, i)] | None => [] end ++
                  match lam_name st id' with Some n => [(n, this')] | None => [] end)).
    destruct (bind_params params 0 args acc) as [local|] eqn:EB.
    2:{ apply (bind_params_none_iff params 0 args acc acc') in EB. rewrite EB. reflexivity. }
    destruct (bind_params params 0 args acc') as [local'|] eqn:EB'.
    2:{ apply (bind_params_none_iff params 0 args acc' acc) in EB'. congruence. }
    destruct Himpl as (Hb1 & Hb2 & _ & _).
    destruct (AD_lf d') as [Hae Hac].
    (* names of the local frame that are not parameters are not captured *)
    assert (Hacc : forall x, rec_get sv x <> None -> lookup_frame acc x = None).
    { intros x Hx. unfold acc. destruct (lookup fr "inputs"); destruct (lam_name st id) eqn:En; cbn;
        repeat match goal with |- context [String.eqb x ?y] => destruct (String.eqb_spec x y); subst end;
        try reflexivity; try congruence; exfalso; apply Hx; auto. }
    set (bound := (map arg_name params ++ map fst sv)%list).
    change (free_vars body bound = []) in Hfv.
    (* a name the body can mention is a parameter, bound to the same lambda-free value in both local
       frames, or a captured name that the local frame does not bind *)
    assert (Hcases : forall x, mem x bound = true ->
              (In x (map arg_name params) /\
               exists v, lookup_frame local x = Some v /\ lookup_frame local' x = Some v /\ lf v = true) \/
              (rec_get sv x <> None /\ lookup_frame local x = None)).
    { intros x Hx. destruct (in_dec string_dec x (map arg_name params)) as [Hin|Hnp].
      - left. split; [exact Hin|].
        exact (bind_params_good params 0 args acc acc' local local' Hargs EB EB' x (or_introl Hin)).
      - right. unfold bound in Hx. rewrite mem_app in Hx. apply orb_prop in Hx as [Hx|Hx]; apply mem_In in Hx; [contradiction|].
        assert (Hsv : rec_get sv x <> None) by (intros Hn; apply rec_get_None_notin in Hn; contradiction).
        split; [exact Hsv|]. rewrite (bind_params_keeps params 0 args acc local x EB Hnp). exact (Hacc x Hsv). }
    assert (HE : Env nanfix sv bound [(FOwned, local)] [(FOwned, local')] (scope_map nanfix true sv)).
    { repeat split.
      - intros x Hx. rewrite scope_map_get. cbn [lookup].
        destruct (Hcases x Hx) as [(Hin & v & E1 & _)|(_ & EL)]; [rewrite E1, (Hpar x Hin)|rewrite EL]; reflexivity.
      - intros x Hx. rewrite scope_map_get, (Hsp x Hx). reflexivity.
      - intros x a. rewrite scope_map_get. destruct (rec_get sv x); cbn; [|discriminate].
        intros E; inversion E. eauto.
      - intros x Hx. cbn [lookup].
        destruct (Hcases x Hx) as [(_ & v & E1 & _ & Hv)|(Hsv & EL)];
          [left; exists v; rewrite E1; auto|right; rewrite EL; auto].
      - intros x v Hx. cbn [lookup].
        destruct (Hcases x Hx) as [(_ & w & E1 & E2 & _)|(_ & EL)]; [rewrite E1, E2; auto|rewrite EL; discriminate]. }
    pose proof (fun R1 R2 => proj1 (sim_all release binop_impl (AD d') Hb1 Hb2 Hae Hac nanfix emok Hlf (Hlit (AD d')) sv Hem R1 R2 body)) as HQ.
    unfold Q in HQ.
    assert (HEsame : Env nanfix sv bound [(FOwned, local)] [(FOwned, local)] (scope_map nanfix true sv)).
    { destruct HE as (A & B & C & D). repeat split; try apply B; auto. intros x v _ E; exact E. }
    destruct sv as [|kv0 sv0] eqn:Esv.
    - (* nothing captured: no shared frame; the inlined body is the body *)
      cbn [scope_map map] in *. rewrite subst_nil.
      destruct (HQ fr fr Hfob _ _ _ bound st HEsame Hfv) as (r & st1 & E1 & E2 & _).
      destruct (HQ fr fr' Hfob _ _ _ bound st HE Hfv) as (r' & st1' & E1' & E2' & _).
      rewrite subst_nil in E2, E2'. cbn [app] in *. rewrite E2, E2'. congruence.
    - rewrite <- Esv in *.
      destruct (HQ fr fr' Hfob _ _ _ bound st HE Hfv) as (r & st1 & E1 & E2 & _).
      cbn [app] in E1, E2. rewrite Esv in E1 at 2. rewrite E1, E2. reflexivity.
  Qed.

  Theorem emit_equiv_first_order : forall nanfix d fr fr' this this' id id' params body sv args st,
    first_order_body body = true ->
    free_vars body (map arg_name params ++ map fst sv) = [] ->
    forallb (fun kv => emittable_gen (snd kv)) sv = true ->
    (forall x, special_name x = true -> rec_get sv x = None) ->
    (forall x, In x (map arg_name params) -> rec_get sv x = None) ->
    rec_get sv "inputs"%string = None ->
    (forall n, lam_name st id = Some n -> rec_get sv n = None) ->
    lfs args = true ->
    AD d fr this (VLam id params body sv) args st =
    AD d fr' this' (VLam id' params (subst true (scope_map nanfix true sv) body) []) args st.
  Proof.
    intros nanfix. apply (emit_equiv_first_order_on nanfix emittable_gen emittable_gen_lf).
    intros apply v c Hv. apply lit_roundtrip. exact Hv.
  Qed.
End Top.

(* ------------------------------------------------------------------ refutations (dofix = false, nanfix = false) *)
Require Import Blots.EvalInst Blots.Program.

(* F50: k = 5; f = x => do { y = k; k = x; return k + y }.  The inlining with dofix = false
   replaces the do-block local k by the captured 5 in `return k + y`. *)
Definition f50_body : expr :=
  EDo [Cm [] (EAssign "y" (EId "k")) None; Cm [] (EAssign "k" (EId "x")) None]
      (Cm [] (EBin Add (EId "k") (EId "y")) None).
Definition f50_fun : value := VLam 0 [AReq "x"%string] f50_body [("k"%string, VNum (nb 0x4014000000000000))].
Definition call_on (f : value) (arg : value) : outcome value :=
  fst (AD true binop_impl builtin_impl LIMIT [(FOwned, [])] f f [arg] [None; None]).
Definition reloaded (nanfix dofix : bool) (f : value) : value :=
  match emit_ast nanfix dofix f with
  | Some e => match reload_ast 1 e with Some v => v | None => VNull end
  | None => VNull
  end.

Lemma do_shadow_current_refuted :
  closed_after_capture f50_fun = true /\
  call_on f50_fun (VNum (nb 0x3ff0000000000000)) = Ok (VNum (nb 0x4018000000000000)) /\
  call_on (reloaded false false f50_fun) (VNum (nb 0x3ff0000000000000)) = Ok (VNum (nb 0x4024000000000000)).
Proof. vm_compute. repeat split; reflexivity. Qed.
(* ... and the inlining with dofix = true gives the original's 6 *)
Lemma do_shadow_fixed_witness :
  call_on (reloaded true true f50_fun) (VNum (nb 0x3ff0000000000000)) = Ok (VNum (nb 0x4018000000000000)).
Proof. vm_compute. reflexivity. Qed.

(* F15: the text `-5!` is read as -(5!); the inlined value is (-5)! *)
Lemma neg_postfix_refuted :
  fst (eval_release ([], [(FOwned, [])]) (EUn Negate (EFact (ENum (nb 0x4014000000000000)))))
    = Ok (VNum (nb 0xc05e000000000000)) /\
  fst (eval_release ([], [(FOwned, [])]) (EFact (EUn Negate (ENum (nb 0x4014000000000000))))) = Err.
Proof. vm_compute. split; reflexivity. Qed.

(* NaN and strings with both quote characters: their literals (nanfix = true) are operator expressions,
   evaluated by the transcribed `/` and `+` *)
Lemma lit_nan_inst : forall c, eval_release c (value_to_ast true true (VNum nnan)) = (Ok (VNum nnan), c).
Proof. intros [st fr]. vm_compute. reflexivity. Qed.
Lemma lit_both_quotes_inst_example : forall c,
  eval_release c (value_to_ast true true (VStr (String dq (String sq "x")))) =
  (Ok (VStr (String dq (String sq "x"))), c).
Proof. intros [st fr]. vm_compute. reflexivity. Qed.

(* the hypothesis of emit_equiv_first_order is satisfiable by implementations that do call
   their callback: `+` on numbers, and a built-in that applies its second argument to its first *)
Definition ex_binop (cb : callback) (op : binop) (l r : value) (st : store) : outcome value * store :=
  match op, l, r with
  | Add, VNum a, VNum b => (Ok (VNum (nadd a b)), st)
  | Into, x, f => cb f f [x] st
  | _, _, _ => (Err, st)
  end.
Definition ex_builtin (cb : callback) (b : builtin) (args : list value) (st : store) : outcome value * store :=
  match args with
  | [x; f] => cb f f [x] st
  | _ => (Err, st)
  end.
Lemma impl_lf_respecting_example : impl_lf_respecting ex_binop ex_builtin.
Proof.
  repeat split.
  - intros cb cb' op l r st H _ Hl Hr. destruct op; try reflexivity.
    cbn. apply H; auto. cbn. now rewrite Hl.
  - intros cb op l r st v st' H Hl Hr E. destruct op; try discriminate.
    + destruct l; try discriminate. destruct r; try discriminate. inversion E. reflexivity.
    + cbn in E. eapply H; eauto. cbn. now rewrite Hl.
  - intros cb cb' b args st H _ Ha. destruct args as [|x [|f [|? ?]]]; try reflexivity.
    cbn in *. apply andb_prop in Ha as [A B]. apply andb_prop in B as [B _]. apply H; auto. cbn. now rewrite A.
  - intros cb b args st v st' H Ha E. destruct args as [|x [|f [|? ?]]]; try discriminate.
    cbn in *. apply andb_prop in Ha as [A B]. apply andb_prop in B as [B _]. eapply H; eauto. cbn. now rewrite A.
Qed.
