(* C10IdentProofs.v — every plain name that is not a reserved word is read as an identifier by the
   ordered choice of `term` (symbolic in the name), except — while bool / null lack the word-boundary
   look-ahead — names that extend true / false / null (refuted with a witness). *)
From Coq Require Import String Ascii List Bool Arith Lia.
Require Import Blots.PrattTypes Blots.C10Ident Blots.proofs.StringFacts.
Import ListNotations.
Local Open Scope string_scope.

(* a literal that matches a prefix of s ++ rest either lies inside s or runs into rest *)
Lemma lit_app : forall w s rest r,
  lit w (s ++ rest) = Some r ->
  (exists s', s = w ++ s' /\ r = s' ++ rest) \/
  (exists w1 w2, w = w1 ++ w2 /\ w2 <> "" /\ s = w1 /\ lit w2 rest = Some r).
Proof.
  induction w as [|a w IH]; intros s rest r H.
  - cbn in H. inversion H; subst. left. exists s. split; reflexivity.
  - destruct s as [|b s].
    + right. exists "", (String a w). repeat split; try reflexivity; [discriminate | exact H].
    + cbn in H. destruct (Ascii.eqb a b) eqn:E; [|discriminate].
      apply Ascii.eqb_eq in E. subst b.
      destruct (IH s rest r H) as [(s' & Hs & Hr) | (w1 & w2 & Hw & Hne & Hs & Hl)].
      * left. exists s'. split; [cbn; congruence | exact Hr].
      * right. exists (String a w1), w2. repeat split; try assumption; cbn; congruence.
Qed.

Lemma lit_head : forall w2 rest r, w2 <> "" -> lit w2 rest = Some r ->
  exists c w' rest', w2 = String c w' /\ rest = String c rest'.
Proof.
  intros [|c w'] rest r Hne H; [congruence|].
  destruct rest as [|b rest']; cbn in H; [discriminate|].
  destruct (Ascii.eqb c b) eqn:E; [|discriminate]. apply Ascii.eqb_eq in E. subst. eauto.
Qed.

Lemma all_chars_app : forall f a b, all_chars f (a ++ b) = all_chars f a && all_chars f b.
Proof. induction a as [|c a IH]; intro b; cbn; [reflexivity|]. rewrite IH. apply andb_assoc. Qed.

(* a word of identifier characters that matches a prefix of s ++ rest lies inside s *)
Lemma lit_inside : forall w s rest r,
  all_chars ident_char w = true -> boundary rest = true ->
  lit w (s ++ rest) = Some r -> exists s', s = w ++ s' /\ r = s' ++ rest.
Proof.
  intros w s rest r Hw Hb H.
  destruct (lit_app w s rest r H) as [Hin | (w1 & w2 & Hweq & Hne & Hs & Hl)]; [exact Hin|].
  exfalso. destruct (lit_head w2 rest r Hne Hl) as (c & w' & rest' & -> & ->).
  subst w. rewrite all_chars_app in Hw. apply andb_prop in Hw. destruct Hw as [_ Hw].
  cbn in Hw. apply andb_prop in Hw. destruct Hw as [Hc _].
  cbn in Hb. rewrite Hc in Hb. discriminate.
Qed.

Lemma lit_self : forall w s', fails (lit w (w ++ s')) = false.
Proof. induction w as [|a w IH]; intro s'; cbn; [reflexivity|]. rewrite Ascii.eqb_refl. apply IH. Qed.

(* ---- the greedy loops on  s2 ++ rest  (s2 identifier characters, rest a boundary) ---- *)
Definition sub_ident (f : ascii -> bool) : Prop := forall c, f c = true -> ident_char c = true.

Lemma star_class_shrinks : forall f s2 rest,
  sub_ident f -> all_chars ident_char s2 = true -> boundary rest = true ->
  exists s2', star_class f (s2 ++ rest) = s2' ++ rest /\ all_chars ident_char s2' = true /\
              String.length s2' <= String.length s2.
Proof.
  intros f s2 rest Hf. induction s2 as [|c s2 IH]; intros Hall Hb.
  - exists "". cbn. split; [|split; [reflexivity|lia]].
    destruct rest as [|c r]; [reflexivity|]. cbn.
    destruct (f c) eqn:E; [|reflexivity]. apply Hf in E. cbn in Hb. rewrite E in Hb. discriminate.
  - cbn in Hall. apply andb_prop in Hall. destruct Hall as [Hc Hall].
    cbn [append star_class]. destruct (f c) eqn:E.
    + destruct (IH Hall Hb) as (s2' & H1 & H2 & H3). exists s2'. repeat split; try assumption. cbn. lia.
    + exists (String c s2). cbn. rewrite Hc, Hall. repeat split; lia.
Qed.

Lemma sub_alpha : sub_ident is_alpha.
Proof. intros c H. unfold ident_char. rewrite H. reflexivity. Qed.
Lemma sub_digit : sub_ident is_digit.
Proof. intros c H. unfold ident_char. rewrite H. apply orb_true_r || (destruct (is_alpha c); reflexivity). Qed.
Lemma sub_us : sub_ident is_us.
Proof. intros c H. unfold ident_char. rewrite H. apply orb_true_r. Qed.
Lemma sub_alpha_us : sub_ident is_alpha_us.
Proof.
  intros c H. unfold is_alpha_us in H. apply orb_prop in H. destruct H as [H|H];
    [apply sub_alpha | apply sub_us]; exact H.
Qed.

Lemma valid_name_chars : forall s, valid_name s = true -> all_chars ident_char s = true.
Proof.
  intros [|c s] Hv; [discriminate|]. cbn in Hv. apply andb_prop in Hv. destruct Hv as [Hc Hs].
  cbn. rewrite Hs, (sub_alpha_us c Hc). reflexivity.
Qed.

Lemma plus_class_shrinks : forall f c s2 rest,
  sub_ident f -> f c = true -> all_chars ident_char s2 = true -> boundary rest = true ->
  exists s2', plus_class f (String c s2 ++ rest) = Some (s2' ++ rest) /\
              all_chars ident_char s2' = true /\ String.length s2' <= String.length s2.
Proof.
  intros f c s2 rest Hf Hc Hall Hb. cbn. rewrite Hc.
  destruct (star_class_shrinks f s2 rest Hf Hall Hb) as (s2' & H1 & H2 & H3).
  exists s2'. rewrite H1. auto.
Qed.

Lemma identifier_rest_boundary : forall rest, boundary rest = true -> identifier_rest rest = None.
Proof.
  intros [|c r] H; [reflexivity|]. cbn in H. unfold identifier_rest, plus_class.
  unfold ident_char in H. destruct (is_alpha c), (is_digit c), (is_us c); cbn in H; try discriminate.
  reflexivity.
Qed.

Lemma identifier_rest_shrinks : forall c s2 rest,
  ident_char c = true -> all_chars ident_char s2 = true -> boundary rest = true ->
  exists s2', identifier_rest (String c s2 ++ rest) = Some (s2' ++ rest) /\
              all_chars ident_char s2' = true /\ String.length s2' <= String.length s2.
Proof.
  intros c s2 rest Hc Hall Hb. unfold identifier_rest.
  destruct (is_alpha c) eqn:Ea.
  - destruct (plus_class_shrinks is_alpha c s2 rest sub_alpha Ea Hall Hb) as (s2' & H1 & H2 & H3).
    exists s2'. rewrite H1. auto.
  - assert (H0 : plus_class is_alpha (String c s2 ++ rest) = None) by (cbn; rewrite Ea; reflexivity).
    rewrite H0. cbn [orelse]. destruct (is_digit c) eqn:Ed.
    + destruct (plus_class_shrinks is_digit c s2 rest sub_digit Ed Hall Hb) as (s2' & H1 & H2 & H3).
      exists s2'. rewrite H1. auto.
    + assert (H0' : plus_class is_digit (String c s2 ++ rest) = None) by (cbn; rewrite Ed; reflexivity).
      rewrite H0'. cbn [orelse].
      assert (Eu : is_us c = true) by (unfold ident_char in Hc; rewrite Ea, Ed in Hc; exact Hc).
      destruct (plus_class_shrinks is_us c s2 rest sub_us Eu Hall Hb) as (s2' & H1 & H2 & H3).
      exists s2'. rewrite H1. auto.
Qed.

(* inside a word of identifier characters, after any prefix, identifier_rest goes on *)
Lemma identifier_rest_inside : forall w c s' rest,
  all_chars ident_char (w ++ String c s') = true -> boundary rest = true ->
  fails (identifier_rest (String c s' ++ rest)) = false.
Proof.
  intros w c s' rest Hall Hb. rewrite all_chars_app in Hall. apply andb_prop in Hall. destruct Hall as [_ Hall].
  cbn in Hall. apply andb_prop in Hall. destruct Hall as [Hc Hall].
  destruct (identifier_rest_shrinks c s' rest Hc Hall Hb) as (s2' & H1 & _). rewrite H1. reflexivity.
Qed.

Lemma star_rest_all : forall fuel s2 rest,
  all_chars ident_char s2 = true -> boundary rest = true -> String.length s2 <= fuel ->
  star_rest fuel (s2 ++ rest) = rest.
Proof.
  induction fuel as [|fuel IH]; intros s2 rest Hall Hb Hlen.
  - destruct s2; [reflexivity | cbn in Hlen; lia].
  - destruct s2 as [|c s2].
    + cbn [append star_rest]. rewrite (identifier_rest_boundary rest Hb). reflexivity.
    + cbn in Hall. apply andb_prop in Hall. destruct Hall as [Hc Hall].
      destruct (identifier_rest_shrinks c s2 rest Hc Hall Hb) as (s2' & H1 & H2 & H3).
      cbn [star_rest]. rewrite H1. apply IH; try assumption. cbn in Hlen. lia.
Qed.

Section IdentRule.
  Variable reserved : list string.
  Variables bb nb : bool.
  (* facts about the generated list, discharged by vm_compute at instantiation *)
  Hypothesis reserved_ident : forallb (all_chars ident_char) reserved = true.
  Hypothesis reserved_lits : is_reserved reserved "true" = true /\ is_reserved reserved "false" = true /\
                             is_reserved reserved "null" = true.

  Lemma first_lit_inside : forall ws s rest r,
    forallb (all_chars ident_char) ws = true -> boundary rest = true ->
    first_lit ws (s ++ rest) = Some r ->
    exists w s', In w ws /\ s = w ++ s' /\ r = s' ++ rest.
  Proof.
    induction ws as [|w ws IH]; intros s rest r Hws Hb H; [discriminate|].
    cbn in Hws. apply andb_prop in Hws. destruct Hws as [Hw Hws].
    cbn in H. destruct (lit w (s ++ rest)) as [r0|] eqn:E.
    - cbn in H. inversion H; subst r0.
      destruct (lit_inside w s rest r Hw Hb E) as (s' & Hs & Hr).
      exists w, s'. split; [left; reflexivity | split; assumption].
    - cbn in H. destruct (IH s rest r Hws Hb H) as (w' & s' & Hin & Hs & Hr).
      exists w', s'. split; [right; exact Hin | split; assumption].
  Qed.

  Lemma is_reserved_In : forall w, In w reserved -> is_reserved reserved w = true.
  Proof.
    intros w H. unfold is_reserved. apply existsb_exists. exists w. split; [exact H | apply String.eqb_refl].
  Qed.

  Lemma identifier_ok : forall s rest,
    valid_name s = true -> is_reserved reserved s = false -> boundary rest = true ->
    identifier reserved (s ++ rest) = Some rest.
  Proof.
    intros s rest Hv Hr Hb. unfold identifier.
    pose proof (valid_name_chars s Hv) as Hall.
    (* the negative look-ahead lets the name through *)
    assert (Hblk : match first_lit reserved (s ++ rest) with
                   | Some r => fails (identifier_rest r)
                   | None => false
                   end = false).
    { destruct (first_lit reserved (s ++ rest)) as [r|] eqn:E; [|reflexivity].
      destruct (first_lit_inside reserved s rest r reserved_ident Hb E) as (w & s' & Hin & Hs & Hrr).
      destruct s' as [|c s'].
      - exfalso. rewrite append_nil_r in Hs. subst s. rewrite (is_reserved_In w Hin) in Hr. discriminate.
      - subst s r. exact (identifier_rest_inside w c s' rest Hall Hb). }
    rewrite Hblk.
    destruct s as [|c s]; [discriminate|]. cbn in Hv. apply andb_prop in Hv. destruct Hv as [Hc Hs].
    destruct (plus_class_shrinks is_alpha_us c s rest sub_alpha_us Hc Hs Hb) as (s2' & H1 & H2 & H3).
    rewrite H1. f_equal. apply star_rest_all; try assumption. rewrite length_append. lia.
  Qed.

  Lemma guarded_lit_fails : forall (w : string) (g : bool) s rest,
    all_chars ident_char w = true -> is_reserved reserved w = true ->
    valid_name s = true -> is_reserved reserved s = false -> boundary rest = true ->
    (fails (lit w s) = true \/ g = true) ->
    guard g (lit w (s ++ rest)) = None \/ (lit w (s ++ rest) = None).
  Proof.
    intros w g s rest Hw Hres Hv Hr Hb Hor.
    destruct (lit w (s ++ rest)) as [r|] eqn:E; [|right; reflexivity].
    left. destruct (lit_inside w s rest r Hw Hb E) as (s' & Hs & Hrr).
    destruct Hor as [Hf | Hg].
    - exfalso. subst s. rewrite lit_self in Hf. discriminate.
    - subst g. cbn. destruct s' as [|c s'].
      + exfalso. rewrite append_nil_r in Hs. subst s. rewrite Hres in Hr. discriminate.
      + pose proof (valid_name_chars s Hv) as Hall. subst s r.
        rewrite (identifier_rest_inside w c s' rest Hall Hb). reflexivity.
  Qed.

  Lemma lit_fails_app : forall w s rest,
    all_chars ident_char w = true -> boundary rest = true -> fails (lit w s) = true ->
    lit w (s ++ rest) = None.
  Proof.
    intros w s rest Hw Hb Hf. destruct (lit w (s ++ rest)) as [r|] eqn:E; [|reflexivity].
    exfalso. destruct (lit_inside w s rest r Hw Hb E) as (s' & Hs & _). subst s.
    rewrite lit_self in Hf. discriminate.
  Qed.

  (* the literals do not match: the name does not extend them, or they carry the look-ahead *)
  Lemma bool_rule_fails : forall s rest,
    valid_name s = true -> is_reserved reserved s = false -> boundary rest = true ->
    (known_C10 s = false \/ bb = true) -> bool_rule bb (s ++ rest) = None.
  Proof.
    intros s rest Hv Hr Hb Hor. destruct reserved_lits as (Rt & Rf & _). unfold bool_rule.
    assert (Ht : fails (lit "true" s) = true \/ bb = true).
    { destruct Hor as [Hk|]; [left|right; assumption]. unfold known_C10 in Hk.
      destruct (fails (lit "true" s)); [reflexivity | discriminate]. }
    assert (Hf : fails (lit "false" s) = true \/ bb = true).
    { destruct Hor as [Hk|]; [left|right; assumption]. unfold known_C10 in Hk.
      destruct (fails (lit "false" s)); [reflexivity|]. destruct (fails (lit "true" s)); discriminate. }
    destruct (lit "true" (s ++ rest)) as [r|] eqn:E1.
    - cbn [orelse].
      destruct (guarded_lit_fails "true" bb s rest eq_refl Rt Hv Hr Hb Ht) as [G|G]; rewrite E1 in G;
        [exact G | discriminate].
    - cbn [orelse].
      destruct (guarded_lit_fails "false" bb s rest eq_refl Rf Hv Hr Hb Hf) as [G|G];
        [exact G | rewrite G; reflexivity].
  Qed.

  Lemma null_rule_fails : forall s rest,
    valid_name s = true -> is_reserved reserved s = false -> boundary rest = true ->
    (known_C10 s = false \/ nb = true) -> null_rule nb (s ++ rest) = None.
  Proof.
    intros s rest Hv Hr Hb Hor. destruct reserved_lits as (_ & _ & Rn). unfold null_rule.
    assert (Hn : fails (lit "null" s) = true \/ nb = true).
    { destruct Hor as [Hk|]; [left|right; assumption]. unfold known_C10 in Hk.
      destruct (fails (lit "null" s)); [reflexivity|].
      destruct (fails (lit "true" s)), (fails (lit "false" s)); discriminate. }
    destruct (guarded_lit_fails "null" nb s rest eq_refl Rn Hv Hr Hb Hn) as [G|G];
      [exact G | rewrite G; reflexivity].
  Qed.

  (* P1  ident_rule: a valid name that is not a reserved word, followed by the end of input or by a
     character that cannot continue a name, is matched as `identifier` — whole, and whatever the
     order of the three alternatives — provided it does not extend true/false/null, or both literals
     carry the word-boundary look-ahead. *)
  Theorem ident_rule : forall order s rest,
    In AIdent order ->
    valid_name s = true -> is_reserved reserved s = false -> boundary rest = true ->
    (known_C10 s = false \/ (bb = true /\ nb = true)) ->
    term_word reserved bb nb order (s ++ rest) = Some (AIdent, rest).
  Proof.
    intros order s rest Hin Hv Hr Hb Hor.
    assert (HB : bool_rule bb (s ++ rest) = None).
    { apply bool_rule_fails; try assumption. destruct Hor as [|[? ?]]; auto. }
    assert (HN : null_rule nb (s ++ rest) = None).
    { apply null_rule_fails; try assumption. destruct Hor as [|[? ?]]; auto. }
    assert (HI : identifier reserved (s ++ rest) = Some rest) by (apply identifier_ok; assumption).
    induction order as [|a order IH]; [destruct Hin|].
    cbn [term_word]. destruct a; cbn [alt_rule].
    - rewrite HB. apply IH. destruct Hin as [|]; [discriminate | assumption].
    - rewrite HN. apply IH. destruct Hin as [|]; [discriminate | assumption].
    - rewrite HI. reflexivity.
  Qed.
End IdentRule.

(* ------------------------------------------------------------------ the generated rules *)
Require Import Blots.gen.IdentRules Blots.C10IdentImpl.

Theorem ident_rule_impl : forall s rest,
  valid_name s = true -> is_reserved reserved_words s = false -> boundary rest = true ->
  (known_C10 s = false \/ (bool_boundary = true /\ null_boundary = true)) ->
  term_word_impl (s ++ rest) = Some (AIdent, rest).
Proof.
  intros s rest. unfold term_word_impl. apply ident_rule.
  - vm_compute. reflexivity.
  - vm_compute. repeat split.
  - vm_compute. tauto.
Qed.

(* the statement of the property, without the exclusion *)
Definition ident_rule_full : Prop := forall s rest,
  valid_name s = true -> is_reserved reserved_words s = false -> boundary rest = true ->
  term_word_impl (s ++ rest) = Some (AIdent, rest).

(* ... is refuted while `bool` has no word boundary: `trueish + 1` reads the literal `true` and
   leaves `ish + 1` *)
Lemma ident_rule_full_refuted : bool_boundary = false -> ~ ident_rule_full.
Proof.
  intros Hb H. specialize (H "trueish" " + 1" eq_refl eq_refl eq_refl).
  unfold term_word_impl in H. rewrite Hb in H. vm_compute in H. discriminate H.
Qed.
Lemma ident_refuted_witness : bool_boundary = false ->
  term_word_impl "trueish + 1" = Some (ABool, "ish + 1").
Proof. intro Hb. unfold term_word_impl. rewrite Hb. vm_compute. reflexivity. Qed.

(* with both look-aheads (the proposed fix) the full statement holds *)
Lemma ident_rule_full_when_guarded : bool_boundary = true -> null_boundary = true -> ident_rule_full.
Proof. intros Hb Hn s rest Hv Hr Hbd. apply ident_rule_impl; auto. Qed.


(* ------------------------------------------------------------------ symbol operators after an operand *)
Definition after_is (a : after_operand) (nf nd : nat) (r : oprule) (rest : string) : bool :=
  match a with
  | AfterOp nf' nd' r' rest' => Nat.eqb nf nf' && Nat.eqb nd nd' && oprule_eqb r r' && String.eqb rest rest'
  | _ => false
  end.

(* every symbol operator, written WITHOUT blanks directly after an operand and directly before the
   next one, is read as itself (the ordered choice `infix_op` never lets a shorter operator win and no
   postfix operator takes its first character) — except `!=` while `factorial` is the bare "!" *)
Lemma tight_ops_all :
  forallb (fun rw => (known_bang (fst rw) && Nat.eqb factorial_guard 0)
                     || after_is (after_operand_impl (snd rw ++ "b")) 0 0 (fst rw) "b") infix_ops = true.
Proof. vm_compute. reflexivity. Qed.
(* ... also directly after a factorial and after a field access *)
Lemma tight_ops_after_postfix :
  forallb (fun rw => (known_bang (fst rw) && Nat.eqb factorial_guard 0)
                     || (after_is (after_operand_impl ("!" ++ snd rw ++ "b")) 1 0 (fst rw) "b" &&
                         after_is (after_operand_impl (".f" ++ snd rw ++ "b")) 0 1 (fst rw) "b")) infix_ops = true.
Proof. vm_compute. reflexivity. Qed.
(* with blanks every symbol operator is read as itself *)
Lemma spaced_ops_all :
  forallb (fun rw => after_is (after_operand_impl (" " ++ snd rw ++ " b")) 0 0 (fst rw) "b" &&
                     after_is (after_operand_impl (" " ++ snd rw ++ "b")) 0 0 (fst rw) "b") infix_ops = true.
Proof. vm_compute. reflexivity. Qed.
(* all 21 symbol operators of the precedence table are alternatives of infix_op *)
Lemma infix_ops_complete :
  forallb (fun r => match assoc_find r infix_ops with Some _ => true | None => false end)
          [R_add; R_subtract; R_multiply; R_divide; R_modulo; R_power; R_equal; R_not_equal; R_less; R_less_eq;
           R_greater; R_greater_eq; R_dot_equal; R_dot_not_equal; R_dot_less; R_dot_less_eq; R_dot_greater;
           R_dot_greater_eq; R_and; R_or; R_coalesce] = true.
Proof. vm_compute. reflexivity. Qed.

Definition tight_ops_full : Prop :=
  forallb (fun rw => after_is (after_operand_impl (snd rw ++ "b")) 0 0 (fst rw) "b") infix_ops = true.
Lemma tight_ops_full_refuted : factorial_guard = 0 -> ~ tight_ops_full.
Proof. intros Hg H. unfold tight_ops_full, after_operand_impl in H. rewrite Hg in H. vm_compute in H. discriminate H. Qed.
Lemma bang_equals_witness : factorial_guard = 0 -> after_operand_impl "!=b" = AfterNothing 1 0 "=b".
Proof. intros Hg. unfold after_operand_impl. rewrite Hg. vm_compute. reflexivity. Qed.
Lemma tight_ops_full_when_guarded : factorial_guard <> 0 -> tight_ops_full.
Proof.
  intros Hg. pose proof tight_ops_all as H. unfold tight_ops_full.
  destruct factorial_guard as [|g] eqn:E; [congruence|].
  rewrite forallb_forall in *. intros rw Hin. specialize (H rw Hin).
  cbn [Nat.eqb] in H. rewrite andb_false_r in H. exact H.
Qed.
