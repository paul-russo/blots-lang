(* JsonTextRT.v — property C06, text level: what serde_json's printer writes, its parser reads
   back.  Strings (escapes) and number tokens are proved here for all inputs; the conversion
   text <-> double is a Section hypothesis (library code), and the conversion shipped in /repo
   (serde_json without float_roundtrip) is refuted by computation. *)
From Coq Require Import String Ascii List ZArith Bool Lia.
Require Import ZifyBool.
Require Import Blots.Num Blots.Json Blots.JsonText Blots.proofs.StringFacts.
Import ListNotations.
Open Scope Z_scope.

(* ------------------------------------------------------------------ strings *)
(* one source byte: whatever the printer writes for it, the parser reads it back as that byte *)
Lemma parse_str_escape_byte c t :
  parse_str (escape_byte c ++ t) =
  match parse_str t with Some (u, rest) => Some (String c u, rest) | None => None end.
Proof. destruct c as [[] [] [] [] [] [] [] []]; reflexivity. Qed.

(* byte-exact strings and keys: every byte string (in particular every UTF-8 string, including
   quotes, backslashes, control characters, DEL, non-BMP) survives print -> parse *)
Theorem parse_str_escape s rest :
  parse_str (escape_str s ++ String QUOTE rest) = Some (s, rest).
Proof.
  induction s as [|c s IH]; [reflexivity|].
  cbn [escape_str]. rewrite append_assoc, parse_str_escape_byte, IH. reflexivity.
Qed.
Corollary parse_print_str s rest :
  match print_str s ++ rest with
  | String q body => byte q = 34 /\ parse_str body = Some (s, rest)
  | EmptyString => False
  end%string.
Proof.
  unfold print_str. cbn. split; [reflexivity|].
  rewrite append_assoc. apply parse_str_escape.
Qed.

(* ------------------------------------------------------------------ digits *)
Definition digit_ok (d : Z) : bool := (0 <=? d) && (d <=? 9).
Definition digits_ok (l : list Z) : bool := forallb digit_ok l.

Lemma digit_cases d : digit_ok d = true ->
  d = 0 \/ d = 1 \/ d = 2 \/ d = 3 \/ d = 4 \/ d = 5 \/ d = 6 \/ d = 7 \/ d = 8 \/ d = 9.
Proof. unfold digit_ok. lia. Qed.
Lemma digit_char_digit d : digit_ok d = true -> is_digit (digit_char d) = true /\ byte (digit_char d) - 48 = d.
Proof. intros H. destruct (digit_cases d H) as [->|[->|[->|[->|[->|[->|[->|[->|[->| ->]]]]]]]]]; split; reflexivity. Qed.

(* the first character after a number: not a digit (for an exponent-less token also not . e E) *)
Definition no_digit (s : string) : bool := negb (is_digit (ch s)).
Definition no_cont (s : string) : bool :=
  let n := byte (ch s) in negb (is_digit (ch s)) && negb (n =? 46) && negb (n =? 101) && negb (n =? 69).

Lemma span_digits_stop s : no_digit s = true -> span_digits s = ([], s).
Proof. destruct s as [|c r]; [reflexivity|]. unfold no_digit. cbn. now destruct (is_digit c). Qed.
Lemma span_digits_app l rest :
  digits_ok l = true -> no_digit rest = true -> span_digits (digits_str l ++ rest) = (l, rest).
Proof.
  induction l as [|d l IH]; intros Hl Hr; cbn [digits_str append].
  - now apply span_digits_stop.
  - cbn in Hl. apply andb_prop in Hl as [Hd Hl]. destruct (digit_char_digit d Hd) as [E1 E2].
    cbn [span_digits]. rewrite E1, (IH Hl Hr), E2. reflexivity.
Qed.

(* itoa: decimal digits of a non-negative integer, and back *)
Lemma dec_list_spec fuel : forall z acc,
  0 <= z < 10 ^ Z.of_nat fuel -> (0 < fuel)%nat ->
  digits_val 0 (dec_list fuel z acc) = digits_val z acc /\
  (digits_ok acc = true -> digits_ok (dec_list fuel z acc) = true).
Proof.
  induction fuel as [|fuel IH]; intros z acc Hz Hf; [lia|].
  cbn [dec_list].
  assert (Hd : digit_ok (z mod 10) = true) by (unfold digit_ok; pose proof (Z.mod_pos_bound z 10); lia).
  destruct (z / 10 =? 0) eqn:E.
  - apply Z.eqb_eq in E. split.
    + cbn. f_equal. rewrite (Z.div_mod z 10) at 2 by lia. lia.
    + intros Ha. cbn. now rewrite Hd.
  - apply Z.eqb_neq in E.
    assert (Hq : 0 <= z / 10 < 10 ^ Z.of_nat fuel).
    { split; [apply Z.div_pos; lia|]. apply Z.div_lt_upper_bound; [lia|].
      replace (10 * 10 ^ Z.of_nat fuel) with (10 ^ Z.of_nat (S fuel)); [lia|].
      rewrite Nat2Z.inj_succ, Z.pow_succ_r; lia. }
    assert (Hf' : (0 < fuel)%nat).
    { destruct fuel; [|lia]. cbn in Hq. assert (z / 10 = 0) by lia. contradiction. }
    destruct (IH (z / 10) (z mod 10 :: acc) Hq Hf') as [I1 I2]. split.
    + rewrite I1. cbn. f_equal. rewrite (Z.div_mod z 10) at 3 by lia. lia.
    + intros Ha. apply I2. cbn. now rewrite Hd.
Qed.
Lemma digits_of_val z : 0 <= z < 10 ^ 40 -> digits_val 0 (digits_of z) = z /\ digits_ok (digits_of z) = true.
Proof.
  intros Hz. unfold digits_of. destruct (dec_list_spec 40 z [] Hz ltac:(lia)) as [H1 H2]. split; auto.
Qed.
(* no leading zero unless the number is a single 0 *)
Lemma dec_list_head fuel : forall z acc,
  0 <= z -> (0 < fuel)%nat -> z < 10 ^ Z.of_nat fuel ->
  match dec_list fuel z acc with
  | [] => False
  | d0 :: more => (d0 = 0 -> z = 0 /\ more = acc)
  end.
Proof.
  induction fuel as [|fuel IH]; intros z acc Hz Hf Hlt; [lia|]. cbn [dec_list].
  destruct (z / 10 =? 0) eqn:E.
  - apply Z.eqb_eq in E. intros H0. split; [|reflexivity].
    rewrite (Z.div_mod z 10) by lia. lia.
  - apply Z.eqb_neq in E.
    assert (Hq : z / 10 < 10 ^ Z.of_nat fuel).
    { apply Z.div_lt_upper_bound; [lia|].
      replace (10 * 10 ^ Z.of_nat fuel) with (10 ^ Z.of_nat (S fuel)); [lia|].
      rewrite Nat2Z.inj_succ, Z.pow_succ_r; lia. }
    assert (Hq0 : 0 <= z / 10) by (apply Z.div_pos; lia).
    assert (Hf' : (0 < fuel)%nat).
    { destruct fuel; [|lia]. cbn in Hq. lia. }
    specialize (IH (z / 10) (z mod 10 :: acc) Hq0 Hf' Hq).
    destruct (dec_list fuel (z / 10) (z mod 10 :: acc)) as [|d0 more]; [exact IH|].
    intros H0. destruct (IH H0) as [Hz0 _]. contradiction.
Qed.

Lemma dec_list_lead fuel z : 0 <= z -> (0 < fuel)%nat -> z < 10 ^ Z.of_nat fuel ->
  match dec_list fuel z [] with [] => false | [_] => true | d0 :: _ => negb (d0 =? 0) end = true.
Proof.
  intros Hz Hf Hlt. pose proof (dec_list_head fuel z [] Hz Hf Hlt) as Hh.
  destruct (dec_list fuel z []) as [|d0 [|d1 more]]; [contradiction|reflexivity|].
  destruct (d0 =? 0) eqn:E; [|reflexivity]. apply Z.eqb_eq in E. destruct (Hh E) as [_ Hm]. discriminate.
Qed.

(* ------------------------------------------------------------------ number tokens *)
Definition is_nil {A} (l : list A) : bool := match l with [] => true | _ => false end.
Definition tok_wf (t : numtok) : bool :=
  digits_ok (t_int t)
  && match t_int t with [] => false | [_] => true | d0 :: _ => negb (d0 =? 0) end
  && match t_frac t with Some f => digits_ok f && negb (is_nil f) | None => true end
  && match t_exp t with Some (_, e) => digits_ok e && negb (is_nil e) | None => true end.
Definition tok_is_float (t : numtok) : bool :=
  match t_frac t, t_exp t with None, None => false | _, _ => true end.

Lemma ch_digits_app l rest : l <> [] -> ch (digits_str l ++ rest) = digit_char (hd 0 l).
Proof. destruct l; [congruence|reflexivity]. Qed.
Lemma digit_char_not d n : digit_ok d = true -> (n < 48 \/ 57 < n) -> byte (digit_char d) =? n = false.
Proof.
  intros H Hn. destruct (digit_cases d H) as [->|[->|[->|[->|[->|[->|[->|[->|[->| ->]]]]]]]]];
    apply Z.eqb_neq; cbn; lia.
Qed.
Lemma no_cont_no_digit s : no_cont s = true -> no_digit s = true.
Proof. unfold no_cont, no_digit. intros H. now repeat (apply andb_prop in H as [H _]). Qed.

(* the text of a token's fraction and exponent, and the two stages of scan_number that read them *)
Definition frac_str (fp : option (list Z)) : string :=
  match fp with Some f => "." ++ digits_str f | None => "" end.
Definition exp_str (ep : option (bool * list Z)) : string :=
  match ep with Some (s, e) => "e" ++ (if s then "-" else "") ++ digits_str e | None => "" end.
Definition scan_frac (r1 : string) : option (option (list Z) * string) :=
  if byte (ch r1) =? 46 then
    match r1 with
    | String _ r1' => let '(fp, r2) := span_digits r1' in
                      match fp with [] => None | _ => Some (Some fp, r2) end
    | _ => None
    end
  else Some (None, r1).
Definition scan_exp (neg : bool) (ip : list Z) (fp : option (list Z)) (r2 : string)
  : option (numtok * string) :=
  if (byte (ch r2) =? 101) || (byte (ch r2) =? 69) then
    match r2 with
    | String _ r2' =>
        let sgn := byte (ch r2') in
        let r3 := if (sgn =? 43) || (sgn =? 45) then match r2' with String _ r => r | _ => r2' end
                  else r2' in
        let '(ep, r4) := span_digits r3 in
        match ep with
        | [] => None
        | _ => Some (NumTok neg ip fp (Some (sgn =? 45, ep)), r4)
        end
    | _ => None
    end
  else Some (NumTok neg ip fp None, r2).
Lemma scan_number_stages s :
  scan_number s =
  let neg := byte (ch s) =? 45 in
  let '(ip, r1) := span_digits (if neg then match s with String _ r => r | _ => s end else s) in
  match ip with
  | [] => None
  | d0 :: more =>
      if (d0 =? 0) && negb (is_nil more) then None
      else match scan_frac r1 with None => None | Some (fp, r2) => scan_exp neg ip fp r2 end
  end.
Proof. reflexivity. Qed.

Lemma scan_exp_render neg ip fp ep rest :
  match ep with Some (_, e) => digits_ok e && negb (is_nil e) | None => true end = true -> no_cont rest = true ->
  scan_exp neg ip fp (exp_str ep ++ rest) = Some (NumTok neg ip fp ep, rest).
Proof.
  intros Hep Hrest. pose proof (no_cont_no_digit _ Hrest) as Hnd. unfold scan_exp.
  destruct ep as [[s e]|]; cbn [exp_str append ch].
  - apply andb_prop in Hep as [He Hne]. destruct e as [|e0 e']; [discriminate|].
    change (byte "e" =? 101) with true. cbn [orb].
    destruct s; cbn [append ch].
    + change (byte "-" =? 43) with false. change (byte "-" =? 45) with true. cbn [orb].
      now rewrite (span_digits_app (e0 :: e') rest He Hnd).
    + pose proof He as He0. cbn in He0. apply andb_prop in He0 as [He0 _].
      cbn [digits_str append ch].
      rewrite (digit_char_not e0 43 He0), (digit_char_not e0 45 He0) by lia. cbn [orb].
      change (String (digit_char e0) (digits_str e' ++ rest))%string with (digits_str (e0 :: e') ++ rest)%string.
      now rewrite (span_digits_app (e0 :: e') rest He Hnd).
  - unfold no_cont in Hrest. apply andb_prop in Hrest as [Hrest H69]. apply andb_prop in Hrest as [_ H101].
    apply negb_true_iff in H69, H101. now rewrite H69, H101.
Qed.
(* after the integer or fraction digits of a rendered token: no digit; after the integer digits
   of a token without fraction: no '.' either *)
Lemma exp_str_head ep rest : no_cont rest = true ->
  no_digit (exp_str ep ++ rest) = true /\ negb (byte (ch (exp_str ep ++ rest)) =? 46) = true.
Proof.
  intros Hrest. destruct ep as [[s e]|]; [split; reflexivity|]. cbn [exp_str append].
  split; [now apply no_cont_no_digit|].
  unfold no_cont in Hrest. apply andb_prop in Hrest as [Hrest _]. apply andb_prop in Hrest as [Hrest _].
  now apply andb_prop in Hrest as [_ H46].
Qed.
Lemma scan_frac_render fp tail :
  match fp with Some f => digits_ok f && negb (is_nil f) | None => negb (byte (ch tail) =? 46) end = true ->
  no_digit tail = true -> scan_frac (frac_str fp ++ tail) = Some (fp, tail).
Proof.
  intros Hfp Hnd. unfold scan_frac. destruct fp as [f|]; cbn [frac_str append ch].
  - apply andb_prop in Hfp as [Hf Hne]. destruct f as [|f0 f']; [discriminate|].
    change (byte "." =? 46) with true. now rewrite (span_digits_app (f0 :: f') tail Hf Hnd).
  - apply negb_true_iff in Hfp. now rewrite Hfp.
Qed.
Lemma scan_sign_render (neg : bool) d0 more tail : digit_ok d0 = true ->
  let s := ((if neg then "-" else "") ++ digits_str (d0 :: more) ++ tail)%string in
  (byte (ch s) =? 45) = neg /\
  (if neg then match s with String _ r => r | _ => s end else s) = (digits_str (d0 :: more) ++ tail)%string.
Proof.
  intros Hd0. destruct neg; cbn [append digits_str ch]; [split; reflexivity|].
  rewrite (digit_char_not d0 45 Hd0) by lia. split; reflexivity.
Qed.

(* the scanner reads back exactly the token that was rendered *)
Theorem scan_render t rest :
  tok_wf t = true -> no_cont rest = true -> scan_number (render_tok t ++ rest) = Some (t, rest).
Proof.
  destruct t as [neg ip fp ep]. unfold tok_wf. cbn [t_int t_frac t_exp]. intros Hwf Hrest.
  apply andb_prop in Hwf as [Hwf Hep]. apply andb_prop in Hwf as [Hwf Hfp].
  apply andb_prop in Hwf as [Hip Hlead].
  destruct (exp_str_head ep rest Hrest) as [HndE H46].
  set (tailE := (exp_str ep ++ rest)%string) in *. set (tailF := (frac_str fp ++ tailE)%string).
  assert (HF : scan_frac tailF = Some (fp, tailE)).
  { apply scan_frac_render; [|exact HndE]. destruct fp; [exact Hfp|exact H46]. }
  assert (HndF : no_digit tailF = true) by (destruct fp; [reflexivity|exact HndE]).
  destruct ip as [|d0 more]; [discriminate|].
  assert (Hd0 : digit_ok d0 = true) by (cbn in Hip; now apply andb_prop in Hip as [? _]).
  assert (Hlead' : (d0 =? 0) && negb (is_nil more) = false).
  { destruct more; [now rewrite andb_false_r|]. apply negb_true_iff in Hlead. now rewrite Hlead. }
  change (render_tok (NumTok neg (d0 :: more) fp ep))
    with ((if neg then "-" else "") ++ digits_str (d0 :: more) ++ frac_str fp ++ exp_str ep)%string.
  rewrite !append_assoc. fold tailE. fold tailF. rewrite scan_number_stages.
  destruct (scan_sign_render neg d0 more tailF Hd0) as [Hneg Hs1]. cbv zeta in *.
  rewrite Hneg, Hs1, (span_digits_app _ tailF Hip HndF), Hlead', HF.
  now apply scan_exp_render.
Qed.

(* ------------------------------------------------------------------ numbers, with the library part *)
Definition jnum_text_ok (n : jnumber) : bool :=
  match n with
  | JPosInt z => (0 <=? z) && (z <=? U64_MAX')
  | JNegInt z => (- 2 ^ 63 <=? z) && (z <? 0)
  | JFloat x => is_finite x
  end.
(* integers in u64 / i64 range, doubles of a class okf; jnum_text_ok is the class of all finite doubles *)
Definition jnum_in (okf : num -> bool) (n : jnumber) : bool :=
  match n with
  | JPosInt z => (0 <=? z) && (z <=? U64_MAX')
  | JNegInt z => (- 2 ^ 63 <=? z) && (z <? 0)
  | JFloat x => okf x
  end.

(* integer tokens (no library part) *)
Lemma int_tok_wf neg z : 0 <= z < 10 ^ 40 -> tok_wf (NumTok neg (digits_of z) None None) = true.
Proof.
  intros Hz. destruct (digits_of_val z Hz) as [_ Hok].
  unfold tok_wf, digits_of in *. cbn [t_int t_frac t_exp].
  now rewrite Hok, (dec_list_lead 40 z) by lia.
Qed.

Section Numbers.
  Variable fmt_pieces : num -> numtok.                  (* ryu *)
  Variable float_of_tok : numtok -> option num.         (* text -> double *)
  Variable okf : num -> bool.
  (* what is assumed of the library, for the doubles of the class okf: the double is printed as a
     well-formed token with a fraction or an exponent, and reading that token gives it back *)
  Hypothesis H_print_wf : forall x, okf x = true ->
    tok_wf (fmt_pieces x) = true /\ tok_is_float (fmt_pieces x) = true.
  Hypothesis H_roundtrip : forall x, okf x = true -> float_of_tok (fmt_pieces x) = Some x.

  Lemma tok_of_jnumber_wf n : jnum_in okf n = true -> tok_wf (tok_of_jnumber fmt_pieces n) = true.
  Proof.
    destruct n as [z|z|x]; cbn [jnum_in tok_of_jnumber]; intros Hn.
    - apply int_tok_wf. unfold U64_MAX' in Hn. lia.
    - apply int_tok_wf. lia.
    - now destruct (H_print_wf x Hn).
  Qed.

  Theorem parse_print_number n rest :
    jnum_in okf n = true -> no_cont rest = true ->
    parse_number float_of_tok (render_tok (tok_of_jnumber fmt_pieces n) ++ rest) = Some (n, rest).
  Proof.
    intros Hn Hrest. unfold parse_number.
    rewrite (scan_render _ rest (tok_of_jnumber_wf n Hn) Hrest). unfold classify_number.
    destruct n as [z|z|x]; cbn [jnum_in tok_of_jnumber t_frac t_exp t_int t_neg negb] in *.
    - rewrite (proj1 (digits_of_val z ltac:(unfold U64_MAX' in Hn; lia))).
      now replace (z <=? U64_MAX') with true by lia.
    - rewrite (proj1 (digits_of_val (- z) ltac:(lia))).
      replace ((- z =? 0) || (2 ^ 63 <? - z)) with false by lia.
      now rewrite Z.opp_involutive.
    - destruct (H_print_wf x Hn) as [_ Hfl]. unfold tok_is_float in Hfl.
      destruct (t_frac (fmt_pieces x)), (t_exp (fmt_pieces x)); try discriminate;
        now rewrite (H_roundtrip x Hn).
  Qed.
End Numbers.

(* ------------------------------------------------------------------ refutations by computation *)
Open Scope string_scope.
(* F17.  The token 9007199254740991.0 (what serde_json prints for 2^53-1) denotes an integer that
   IS a double; the number conversion shipped in /repo returns its neighbour 2^53-2.  Hence
   H_roundtrip is false for [sj_float_of_tok], whatever ryu prints elsewhere. *)
Definition tok_2p53m1 : numtok := NumTok false [9;0;0;7;1;9;9;2;5;4;7;4;0;9;9;1] (Some [0]) None.
Lemma shipped_number_parse_refuted :
  render_tok tok_2p53m1 = "9007199254740991.0" /\
  sj_float_of_tok tok_2p53m1 = Some (num_of_bits 0x433ffffffffffffe) /\
  num_of_Z 9007199254740991 = num_of_bits 0x433fffffffffffff /\
  num_of_bits 0x433ffffffffffffe <> num_of_bits 0x433fffffffffffff.
Proof. repeat split; try (vm_compute; reflexivity). vm_compute. discriminate. Qed.
Lemma shipped_roundtrip_hypothesis_false :
  forall fmt_pieces, fmt_pieces (num_of_bits 0x433fffffffffffff) = tok_2p53m1 ->
  ~ (forall x, is_finite x = true -> sj_float_of_tok (fmt_pieces x) = Some x).
Proof.
  intros fmt Hf H. specialize (H (num_of_bits 0x433fffffffffffff) eq_refl). rewrite Hf in H.
  vm_compute in H. discriminate.
Qed.
(* the largest double written with 21 significant digits is rejected ("number out of range") *)
Lemma shipped_number_parse_rejects_max :
  sj_float_of_tok (NumTok true [1] (Some [7;9;7;6;9;3;1;3;4;8;6;2;3;1;5;7;0;8;1;5]) (Some (false, [3;0;8]))) = None.
Proof. vm_compute. reflexivity. Qed.

(* the parser's recursion limit: 127 nested containers are read, 128 are not, although the
   printer writes any depth *)
Fixpoint nest (n : nat) (j : json) : json := match n with O => j | S k => JArr [nest k j] end.
Definition no_tok : num -> numtok := fun _ => NumTok false [0] (Some [0]) None.
Lemma recursion_limit_refuted :
  json_from_str sj_float_of_tok (jprint no_tok (nest 127 (JArr []))) = None /\
  json_from_str sj_float_of_tok (jprint no_tok (nest 126 (JArr []))) = Some (nest 126 (JArr [])).
Proof. split; vm_compute; reflexivity. Qed.

(* ------------------------------------------------------------------ whole documents *)
Fixpoint json_text_ok (j : json) : bool :=
  match j with
  | JNum n => jnum_text_ok n
  | JArr l => forallb json_text_ok l
  | JObj m => forallb (fun kv => json_text_ok (snd kv)) m
  | _ => true
  end.
(* number of nested containers *)
Fixpoint jdepth (j : json) : nat :=
  match j with
  | JArr l => S (fold_right (fun x acc => Nat.max (jdepth x) acc) O l)
  | JObj m => S (fold_right (fun kv acc => Nat.max (jdepth (snd kv)) acc) O m)
  | _ => O
  end.
