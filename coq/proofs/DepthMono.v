(* DepthMono.v — the call-depth limit is the ONLY thing that depends on the depth:
   an evaluation that does not end in the depth error gives exactly the same result (value or
   failure, final store, final scope chain) at every larger depth budget.  Consequences (C18,
   C13): a "maximum call depth" error means the computation really nests deeper than the
   limit; forms that differ only in how much depth they consume (`via` vs `map`) agree whenever
   neither hits the limit. *)
From Coq Require Import String Ascii List ZArith Bool Lia.
Require Import Blots.Num Blots.gen.Builtins Blots.Ast Blots.Value Blots.Outcome Blots.Binop
               Blots.Env Blots.Eval Blots.BuiltinsHof Blots.proofs.ExprInd Blots.proofs.BinopShape Blots.proofs.Frames.
Import ListNotations.
Open Scope string_scope.
Open Scope list_scope.
Open Scope nat_scope.

Lemma AD_unfold : forall release bi bu d fr,
  AD release bi bu d fr =
  apply_at bu
    (match d with
     | O => None
     | S d' => Some (evalE release bi (AD release bi bu d'),
                     match d' with
                     | O => fun _ f a s => call_too_deep f a s
                     | S d'' => AD release bi bu d'' fr
                     end)
     end) fr.
Proof. intros release bi bu [|d'] fr; reflexivity. Qed.

(* x fails the way fk does ([cast_fail fk] is that failure at any result type), or x and y are the same *)
Definition rle_at (fk : outcome unit) {A S : Type} (x y : outcome A * S) : Prop :=
  fst x = cast_fail fk \/ x = y.

(* H says that the left side of the goal is the failure fk: every context propagates it, whichever failure
   fk is *)
Ltac failed_as fk H := cbn in H; subst; destruct fk; left; reflexivity.

(* one call of the callback [call1] in the goal, against the same call of [call2] (Hcall relates them): either
   the left call is the failure, which the surrounding loop propagates, or both returned the same (o', s') *)
Ltac callstep_as fk Hcall call1 call2 o' s' :=
  let H := fresh "H" in let o1 := fresh "o1" in let s1 := fresh "s1" in
  let E1 := fresh "E1" in let E2 := fresh "E2" in
  pose proof (Hcall) as H;
  match goal with
  | |- context [call1 ?f ?f ?a ?s] =>
      specialize (H f f a s);
      destruct (call1 f f a s) as [o1 s1], (call2 f f a s) as [o' s'];
      destruct H as [H|H];
      [failed_as fk H
      |apply pair_equal_spec in H; destruct H as [E1 E2]; subst o1 s1]
  end.

(* Generic in the failure fk: the evaluator, the operators and the built-ins propagate every failure the same
   way, so a failure of the left side that the right side may not share is never swallowed.  Used at
   ErrDepth below and at Unmodelled in C02AllClock.v.  A failure is given as an outcome without payload and
   read at each result type through [cast_fail] ([Ok tt] therefore stands for Err); Avoid.v's [failure] names
   the two of them, Panic and Unmodelled, that an evaluation can be shown never to return. *)
Module Fail.
Section Failure.
  Variable fk : outcome unit.
  Notation rle := (rle_at fk).

  Lemma rle_refl : forall A S (x : outcome A * S), rle x x.
  Proof. intros; right; reflexivity. Qed.

  Definition cb_le (cb1 cb2 : callback) : Prop :=
    forall this f args st, rle (cb1 this f args st) (cb2 this f args st).
  (* the dispatchers on the left are below those on the right, for callbacks related the same way *)
  Definition binop_below (bi1 bi2 : callback -> binop -> value -> value -> store -> outcome value * store) :=
    forall cb1 cb2, cb_le cb1 cb2 -> forall op l r st, rle (bi1 cb1 op l r st) (bi2 cb2 op l r st).
  Definition builtin_below (bu1 bu2 : callback -> builtin -> list value -> store -> outcome value * store) :=
    forall cb1 cb2, cb_le cb1 cb2 -> forall b args st, rle (bu1 cb1 b args st) (bu2 cb2 b args st).

  (* ---- the Binop state monad ---- *)
  Section BinopLe.
    Variable call1 call2 : callback.
    Hypothesis Hcall : cb_le call1 call2.
    Variable fa2 : value -> bool.
    Variable powf : num -> num -> num.

    Definition MLe {A} (m1 m2 : M store A) : Prop := forall st, rle (m1 st) (m2 st).

    Lemma lift_le : forall A (o : outcome A), MLe (lift store o) (lift store o).
    Proof. intros A o st. apply rle_refl. Qed.
    Lemma bindM_le : forall A B (m1 m2 : M store A) (f1 f2 : A -> M store B),
      MLe m1 m2 -> (forall a, MLe (f1 a) (f2 a)) -> MLe (bindM store m1 f1) (bindM store m2 f2).
    Proof.
      intros A B m1 m2 f1 f2 Hm Hf st. unfold bindM. specialize (Hm st).
      destruct (m1 st) as [o1 s1], (m2 st) as [o2 s2]. destruct Hm as [Hd|Heq].
      - failed_as fk Hd.
      - inversion Heq; subst. destruct o2; try apply rle_refl. apply Hf.
    Qed.
    Lemma for_each_le : forall B idxs (b1 b2 : nat -> M store B),
      (forall i, MLe (b1 i) (b2 i)) -> MLe (for_each store idxs b1) (for_each store idxs b2).
    Proof.
      intros B idxs b1 b2 Hb; induction idxs as [|i r IH]; cbn [for_each].
      - apply lift_le.
      - apply bindM_le; [apply Hb|]. intros y. apply bindM_le; [exact IH|]. intros ys. apply lift_le.
    Qed.
    Lemma call_fn_le : forall f args, MLe (call_fn store call1 f args) (call_fn store call2 f args).
    Proof. intros f args st. unfold call_fn. apply Hcall. Qed.

    (* every arm is built from lift, bind, for_each and call_fn under the same conditionals on both sides *)
    Ltac mle :=
      repeat first
        [ apply lift_le | apply call_fn_le
        | apply bindM_le; [|intros ?] | apply for_each_le; intros ?
        | match goal with |- MLe (if ?b then _ else _) (if ?b then _ else _) => destruct b end
        | match goal with |- MLe (match ?x with _ => _ end) (match ?x with _ => _ end) => destruct x end ].

    Lemma arm_list_list_le : forall op l r,
      MLe (arm_list_list store call1 powf op l r) (arm_list_list store call2 powf op l r).
    Proof. intros op l r. unfold arm_list_list. destruct (negb _); [apply lift_le|]. destruct op; mle. Qed.
    Lemma arm_list_scalar_le : forall op b l s,
      MLe (arm_list_scalar store call1 fa2 powf op b l s) (arm_list_scalar store call2 fa2 powf op b l s).
    Proof. intros op b l s. unfold arm_list_scalar. destruct op; mle. Qed.
    Lemma arm_scalar_le : forall op l r,
      MLe (arm_scalar store call1 powf op l r) (arm_scalar store call2 powf op l r).
    Proof. intros op l r. unfold arm_scalar. destruct op; mle. Qed.

    Theorem eval_binop_le : forall op l r st,
      rle (eval_binop store call1 fa2 powf op l r st) (eval_binop store call2 fa2 powf op l r st).
    Proof.
      intros op l r st. rewrite !eval_binop_shape.
      destruct (undot op) as [op'|]; [apply arm_scalar_le|].
      destruct (is_list r && binop_eqb op Into); [apply rle_refl|].
      revert st. change (MLe (broadcast store call1 fa2 powf op l r) (broadcast store call2 fa2 powf op l r)).
      pattern l, r. apply operands_cases; clear l r.
      - intros a b. apply arm_list_list_le.
      - intros a sc Hsc. rewrite !broadcast_list_l by exact Hsc. apply arm_list_scalar_le.
      - intros sc a Hsc. rewrite !broadcast_list_r by exact Hsc. apply arm_list_scalar_le.
      - intros l r Hl Hr. rewrite !broadcast_scalar by assumption. apply arm_scalar_le.
    Qed.
  End BinopLe.

  (* ---- the HOF built-ins ---- *)
  Section HofLe.
    Variable call1 call2 : callback.
    Hypothesis Hcall : cb_le call1 call2.

    Lemma map_loop_le : forall f two l i st,
      rle (map_loop call1 f two l i st) (map_loop call2 f two l i st).
    Proof.
      intros f two l; induction l as [|x l IH]; intros i st; cbn [map_loop]; [apply rle_refl|].
      callstep_as fk Hcall call1 call2 o2 s2. destruct o2; try apply rle_refl.
      specialize (IH (S i) s2).
      destruct (map_loop call1 f two l (S i) s2) as [p1 t1], (map_loop call2 f two l (S i) s2) as [p2 t2].
      destruct IH as [Hd|Heq]; [failed_as fk Hd|inversion Heq; subst; apply rle_refl].
    Qed.
    Lemma filter_loop_le : forall f two l i st,
      rle (filter_loop call1 f two l i st) (filter_loop call2 f two l i st).
    Proof.
      intros f two l; induction l as [|x l IH]; intros i st; cbn [filter_loop]; [apply rle_refl|].
      callstep_as fk Hcall call1 call2 o2 s2. destruct o2; try apply rle_refl. destruct (as_bool a); try apply rle_refl.
      specialize (IH (S i) s2).
      destruct (filter_loop call1 f two l (S i) s2) as [p1 t1], (filter_loop call2 f two l (S i) s2) as [p2 t2].
      destruct IH as [Hd|Heq]; [failed_as fk Hd|inversion Heq; subst; apply rle_refl].
    Qed.
    Lemma reduce_loop_le : forall f three l i acc st,
      rle (reduce_loop call1 f three l i acc st) (reduce_loop call2 f three l i acc st).
    Proof.
      intros f three l; induction l as [|x l IH]; intros i acc st; cbn [reduce_loop]; [apply rle_refl|].
      callstep_as fk Hcall call1 call2 o2 s2. destruct o2; try apply rle_refl. apply IH.
    Qed.
    Lemma every_loop_le : forall f two l i st,
      rle (every_loop call1 f two l i st) (every_loop call2 f two l i st).
    Proof.
      intros f two l; induction l as [|x l IH]; intros i st; cbn [every_loop]; [apply rle_refl|].
      callstep_as fk Hcall call1 call2 o2 s2. destruct o2; try apply rle_refl.
      destruct (as_bool a) as [[|]| | | |]; try apply rle_refl. apply IH.
    Qed.
    Lemma some_loop_le : forall f two l i st,
      rle (some_loop call1 f two l i st) (some_loop call2 f two l i st).
    Proof.
      intros f two l; induction l as [|x l IH]; intros i st; cbn [some_loop]; [apply rle_refl|].
      callstep_as fk Hcall call1 call2 o2 s2. destruct o2; try apply rle_refl.
      destruct (as_bool a) as [[|]| | | |]; try apply rle_refl. apply IH.
    Qed.
  End HofLe.

  Section EvalLe.
    Variable release : bool.
    Variable bi1 bi2 : callback -> binop -> value -> value -> store -> outcome value * store.
    Hypothesis Hbi : binop_below bi1 bi2.

    Section Expr.
    Variable ap1 ap2 : frames -> callback.
    Hypothesis Hap : forall fr, cb_le (ap1 fr) (ap2 fr).
    Notation ev1 := (evalE release bi1 ap1).
    Notation ev2 := (evalE release bi2 ap2).

    Definition le_ok (f1 f2 : cfg -> expr -> result) (e : expr) : Prop :=
      forall c, rle (f1 c e) (f2 c e).

    (* one evaluation step under the relation: either the left side is the failure (and we
       are done as soon as the surrounding code propagates it), or both sides are equal *)
    Ltac estep H c o' c' :=
      let Hx := fresh "Hx" in let o1 := fresh "o1" in let c1 := fresh "c1" in
      let E1 := fresh "E1" in let E2 := fresh "E2" in
      pose proof (H c) as Hx;
      match type of Hx with
      | rle ?a ?b =>
          destruct a as [o1 c1], b as [o' c'];
          destruct Hx as [Hx|Hx];
          [failed_as fk Hx
          |apply pair_equal_spec in Hx; destruct Hx as [E1 E2]; subst o1 c1]
      end.
    Ltac unless_ok :=
      match goal with
      | |- rle (match ?o with Ok _ => _ | _ => _ end) _ => destruct o; try apply rle_refl
      | |- rle (let (_, _) := ?o in _) _ => destruct o
      end.

    Lemma evalL_le : forall f1 f2 l, Forall (le_ok f1 f2) l ->
      forall c, rle (evalL f1 c l) (evalL f2 c l).
    Proof.
      intros f1 f2 l HF; induction HF as [|x l Hx _ IH]; intros c; cbn [evalL]; [apply rle_refl|].
      estep Hx c o2 c2. unless_ok.
      specialize (IH c2). destruct (evalL f1 c2 l) as [p1 t1], (evalL f2 c2 l) as [p2 t2].
      destruct IH as [Hd|Heq]; [failed_as fk Hd|inversion Heq; subst; apply rle_refl].
    Qed.
    Lemma evalRecL_le : forall f1 f2 (l : list (commented rentry)),
      Forall (fun cm => Pentry (le_ok f1 f2) (cnode cm)) l ->
      forall c acc, rle (evalRecL f1 c acc l) (evalRecL f2 c acc l).
    Proof.
      intros f1 f2 l HF; induction HF as [|[ld [k v] tr] l Hx _ IH]; intros c acc; cbn [evalRecL];
        [apply rle_refl|]. cbn [cnode Pentry] in Hx. destruct Hx as [Hk Hv].
      destruct k as [key|ke|x|se]; cbn [Pkey] in Hk.
      - estep Hv c o2 c2. unless_ok. apply IH.
      - estep Hk c o2 c2. unless_ok. destruct (as_string a); try apply rle_refl.
        estep Hv c2 o3 c3. unless_ok. apply IH.
      - destruct (lookup (snd c) x); [apply IH|apply rle_refl].
      - estep Hk c o2 c2. unless_ok. apply IH.
    Qed.
    Lemma assign_value_le : forall f1 f2 x ve, le_ok f1 f2 ve ->
      forall c, rle (assign_value f1 c x ve) (assign_value f2 c x ve).
    Proof.
      intros f1 f2 x ve Hve c. unfold assign_value. estep Hve c o2 c2. apply rle_refl.
    Qed.
    Lemma assign_checked_le : forall f1 f2 x ve, le_ok f1 f2 ve ->
      forall c, rle (assign_checked f1 c x ve) (assign_checked f2 c x ve).
    Proof.
      intros f1 f2 x ve Hve c. unfold assign_checked. estep Hve c o2 c2. apply rle_refl.
    Qed.
    Lemma do_step_le : forall f1 f2 s, le_ok f1 f2 s ->
      (forall x ve, s = EAssign x ve -> le_ok f1 f2 ve) ->
      forall c, rle (do_step f1 c s) (do_step f2 c s).
    Proof.
      intros f1 f2 s Hs Hsub c. unfold do_step. destruct s; try apply Hs.
      destruct (mem x do_assign_keywords); [apply rle_refl|].
      apply assign_value_le. eapply Hsub; reflexivity.
    Qed.

    Theorem evalE_le : forall e c, rle (ev1 c e) (ev2 c e).
    Proof.
      intros e.
      enough (HH : le_ok ev1 ev2 e /\ (forall x ve, e = EAssign x ve -> le_ok ev1 ev2 ve)) by apply HH.
      induction e using expr_ind';
        (split; [intros c; cbn [Eval.evalE]|try (intros ? ? Heq; discriminate Heq)]);
        try apply rle_refl.
      - (* EList *)
        assert (HF : Forall (le_ok ev1 ev2) (map cnode items)).
        { apply Forall_map. eapply Forall_impl; [|eassumption]. intros a Ha; apply Ha. }
        pose proof (evalL_le ev1 ev2 _ HF c) as HL. rewrite !evalCL_evalL.
        destruct (evalL ev1 c (map cnode items)) as [p1 t1], (evalL ev2 c (map cnode items)) as [p2 t2].
        destruct HL as [Hd|Heq]; [failed_as fk Hd|inversion Heq; subst; apply rle_refl].
      - (* ERec *)
        apply evalRecL_le. eapply Forall_impl; [|eassumption].
        intros [ld [k v] tr] Ha. cbn [cnode Pentry] in *. destruct Ha as [Hk Hv]. split; [|apply Hv].
        destruct k; cbn [Pkey] in *; auto; apply Hk.
      - (* ECond *)
        destruct IHe1 as [IH1 _], IHe2 as [IH2 _], IHe3 as [IH3 _].
        estep IH1 c o2 c2. unless_ok.
        destruct (as_bool a) as [[|]| | | |]; try apply rle_refl; [apply IH2|apply IH3].
      - (* EDo *)
        match goal with
        | HF : Forall _ stmts, HR : _ /\ _ |- _ => rename HF into HFs; rename HR into HRet
        end.
        destruct ret as [ld rt tr]. cbn [cnode] in *.
        assert (HS : forall c0, rle (evalDoL ev1 c0 stmts) (evalDoL ev2 c0 stmts)).
        { induction HFs as [|[l1 s t1] l Hs _ IHl]; intros c0; cbn [evalDoL]; [apply rle_refl|].
          cbn [cnode] in Hs. destruct Hs as [Hs1 Hs2].
          pose proof (do_step_le ev1 ev2 s Hs1 Hs2) as Hd. estep Hd c0 o2 c2.
          unless_ok. apply IHl. }
        estep HS (fst c, (FOwned, []) :: snd c) o2 c2.
        destruct o2.
        + destruct HRet as [Hr1 Hr2]. pose proof (do_step_le ev1 ev2 rt Hr1 Hr2) as Hd.
          estep Hd c2 o3 c3. apply rle_refl.
        + apply rle_refl.
        + apply rle_refl.
        + apply rle_refl.
        + apply rle_refl.
      - (* EAssign *)
        destruct IHe as [IH _].
        destruct (is_builtin_name x); [apply rle_refl|].
        destruct (mem x assign_keywords); [apply rle_refl|].
        destruct (contains (snd c) x); [apply rle_refl|].
        apply assign_checked_le. exact IH.
      - intros x0 ve Heq. inversion Heq; subst. apply IHe.
      - (* EOutput *) destruct IHe as [IH _]. apply IH.
      - (* ECall *)
        destruct IHe as [IH _].
        estep IH c o2 c2. unless_ok.
        assert (HF : Forall (le_ok ev1 ev2) args).
        { eapply Forall_impl; [|eassumption]. intros a0 Ha; apply Ha. }
        pose proof (evalL_le ev1 ev2 args HF) as HL. estep HL c2 o3 c3.
        unless_ok. destruct c3 as [st2 fr2].
        destruct (negb (is_function a)); [apply rle_refl|].
        pose proof (Hap fr2 a a (flatten_spreads a0) st2) as Ha.
        destruct (ap1 fr2 a a (flatten_spreads a0) st2) as [q1 u1],
                 (ap2 fr2 a a (flatten_spreads a0) st2) as [q2 u2].
        destruct Ha as [Hd|Heq]; [failed_as fk Hd|inversion Heq; subst; apply rle_refl].
      - (* EAccess *)
        destruct IHe1 as [IH1 _], IHe2 as [IH2 _].
        estep IH1 c o2 c2. unless_ok.
        estep IH2 c2 o3 c3. apply rle_refl.
      - destruct IHe as [IH _]. estep IH c o2 c2. apply rle_refl.
      - (* EBin *)
        destruct IHe1 as [IH1 _], IHe2 as [IH2 _].
        estep IH1 c o2 c2. unless_ok.
        estep IH2 c2 o3 c3. unless_ok. destruct c3 as [st2 fr2].
        pose proof (Hbi (ap1 fr2) (ap2 fr2) (Hap fr2) op a a0 st2) as Hb.
        destruct (bi1 (ap1 fr2) op a a0 st2) as [q1 u1], (bi2 (ap2 fr2) op a a0 st2) as [q2 u2].
        destruct Hb as [Hd|Heq]; [failed_as fk Hd|inversion Heq; subst; apply rle_refl].
      - destruct IHe as [IH _]. estep IH c o2 c2. apply rle_refl.
      - destruct IHe as [IH _]. estep IH c o2 c2. apply rle_refl.
      - destruct IHe as [IH _]. estep IH c o2 c2. apply rle_refl.
    Qed.
    End Expr.

    Variable bu1 bu2 : callback -> builtin -> list value -> store -> outcome value * store.
    Hypothesis Hbu : builtin_below bu1 bu2.

    (* FunctionDef::call past the guard: related body evaluators and related callbacks give related calls *)
    Lemma call_passed_le : forall ev1 ev2 cb1 cb2 fr,
      (forall c e, rle (ev1 c e) (ev2 c e)) -> cb_le cb1 cb2 ->
      cb_le (call_passed bu1 ev1 cb1 fr) (call_passed bu2 ev2 cb2 fr).
    Proof.
      intros ev1 ev2 cb1 cb2 fr Hev Hcb this f args st. unfold call_passed. destruct f; try apply rle_refl.
      - destruct (bind_params _ _ _ _) as [local|]; [|apply rle_refl].
        match goal with |- rle (let '(_, _) := ev1 ?c ?e in _) _ => pose proof (Hev c e) as Hr end.
        match type of Hr with rle_at _ ?a ?b =>
          destruct a as [o1 [s1 f1]], b as [o2 [s2 f2]] end.
        destruct Hr as [Hd|Heq]; [failed_as fk Hd|inversion Heq; subst; apply rle_refl].
      - apply Hbu. exact Hcb.
    Qed.

    (* the same depth budget on both sides; the left dispatchers are below the right ones *)
    Theorem AD_below : forall d fr, cb_le (AD release bi1 bu1 d fr) (AD release bi2 bu2 d fr).
    Proof.
      intros d. induction d as [d IH] using lt_wf_ind. intros fr this f args st.
      rewrite (AD_unfold release bi1 bu1 d), (AD_unfold release bi2 bu2 d). unfold apply_at.
      destruct (negb (check_arity f (Datatypes.length args))) eqn:Har; [apply rle_refl|].
      destruct d as [|d']; [apply rle_refl|].
      apply call_passed_le.
      - intros c e. apply evalE_le. intros fr0. apply IH. lia.
      - destruct d' as [|d'']; [intros t0 f0 a0 s0; apply rle_refl|apply IH; lia].
    Qed.

    Theorem evalD_below : forall d c e,
      rle (evalD release bi1 bu1 d c e) (evalD release bi2 bu2 d c e).
    Proof. intros d c e. unfold evalD. apply evalE_le. intros fr. apply AD_below. Qed.
  End EvalLe.
End Failure.
End Fail.

(* ================= the depth error ================= *)
(* [rle], [cb_le], [binop_le], [builtin_le]: Fail's notions at ErrDepth, written out.
   x is the depth error, or x and y are the same *)
Definition rle {A S : Type} (x y : outcome A * S) : Prop := fst x = ErrDepth \/ x = y.
Lemma rle_refl : forall A S (x : outcome A * S), rle x x.
Proof. exact (Fail.rle_refl ErrDepth). Qed.

Definition cb_le (cb1 cb2 : callback) : Prop :=
  forall this f args st, rle (cb1 this f args st) (cb2 this f args st).

Theorem eval_binop_le : forall call1 call2, cb_le call1 call2 -> forall fa2 powf op l r st,
  rle (eval_binop store call1 fa2 powf op l r st) (eval_binop store call2 fa2 powf op l r st).
Proof. exact (Fail.eval_binop_le ErrDepth). Qed.

Definition binop_le (bi : callback -> binop -> value -> value -> store -> outcome value * store) :=
  forall cb1 cb2, cb_le cb1 cb2 -> forall op l r st, rle (bi cb1 op l r st) (bi cb2 op l r st).
Definition builtin_le (bu : callback -> builtin -> list value -> store -> outcome value * store) :=
  forall cb1 cb2, cb_le cb1 cb2 -> forall b args st, rle (bu cb1 b args st) (bu cb2 b args st).

Section EvalLe.
  Variable release : bool.
  Variable bi : callback -> binop -> value -> value -> store -> outcome value * store.
  Variable bu : callback -> builtin -> list value -> store -> outcome value * store.
  Hypothesis Hbi : binop_le bi.
  Hypothesis Hbu : builtin_le bu.

  Lemma call_too_deep_le : forall cb, cb_le (fun _ f a s => call_too_deep f a s) cb ->
    True.
  Proof. trivial. Qed.

  (* FunctionDef::call: one more level of depth budget can only turn a depth error into a
     proper result *)
  Theorem AD_le : forall d fr, cb_le (AD release bi bu d fr) (AD release bi bu (S d) fr).
  Proof.
    intros d. induction d as [d IH] using lt_wf_ind. intros fr this f args st.
    rewrite (AD_unfold release bi bu d), (AD_unfold release bi bu (S d)). unfold apply_at.
    destruct (negb (check_arity f (Datatypes.length args))) eqn:Har; [apply rle_refl|].
    destruct d as [|d'].
    - left; reflexivity.
    - (* the body one level deeper, the callbacks of a built-in two levels deeper, on both sides *)
      apply (Fail.call_passed_le ErrDepth bu bu Hbu).
      + intros c e. apply (Fail.evalE_le ErrDepth release bi bi Hbi). intros fr0. apply IH. lia.
      + destruct d' as [|d'']; [|apply IH; lia].
        (* callbacks of the left side are past the guard *)
        intros t0 f0 a0 s0. unfold call_too_deep. rewrite (AD_unfold release bi bu 0). unfold apply_at.
        destruct (check_arity f0 (Datatypes.length a0)); cbn [negb]; [left; reflexivity|apply rle_refl].
  Qed.

  Theorem evalD_le : forall d c e,
    rle (evalD release bi bu d c e) (evalD release bi bu (S d) c e).
  Proof.
    intros d c e. unfold evalD. apply (Fail.evalE_le ErrDepth release bi bi Hbi). intros fr. apply AD_le.
  Qed.

  (* THE DEPTH THEOREM: a result other than the depth error does not depend on the budget *)
  Theorem evalD_depth_independent : forall d d' c e,
    d <= d' -> fst (evalD release bi bu d c e) <> ErrDepth ->
    evalD release bi bu d' c e = evalD release bi bu d c e.
  Proof.
    intros d d' c e Hle. induction Hle as [|m Hle IH]; intros Hne; [reflexivity|].
    specialize (IH Hne). destruct (evalD_le m c e) as [Hd|Heq].
    - rewrite IH in Hd. contradiction.
    - rewrite <- Heq. exact IH.
  Qed.

  Theorem applyD_depth_independent : forall d d' fr this f args st,
    d <= d' -> fst (AD release bi bu d fr this f args st) <> ErrDepth ->
    AD release bi bu d' fr this f args st = AD release bi bu d fr this f args st.
  Proof.
    intros d d' fr this f args st Hle. induction Hle as [|m Hle IH]; intros Hne; [reflexivity|].
    specialize (IH Hne). destruct (AD_le m fr this f args st) as [Hd|Heq].
    - rewrite IH in Hd. contradiction.
    - rewrite <- Heq. exact IH.
  Qed.
End EvalLe.
