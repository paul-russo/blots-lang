(* EmitNqHOWiden.v — C05: the wider class of emittable values (EmitNqHO.emit_ok: NaN when its literal is
   `(0/0)`, strings and record keys with both quote kinds) contains EmitHO.emit_ok, for
   every choice of the knobs; closures at any capture depth. *)
From Coq Require Import String Ascii List ZArith Bool Lia.
Require Import Blots.Num Blots.gen.Builtins Blots.Ast Blots.Value Blots.Outcome Blots.Env Blots.Emit.
Require Blots.proofs.EmitHO Blots.proofs.EmitNqHO.
Import ListNotations.
Open Scope list_scope.

Lemma emit_ok_widens opok biok nanfix : forall v,
  EmitHO.emit_ok opok biok v = true -> EmitNqHO.emit_ok opok biok nanfix v = true.
Proof.
  apply (EmitHO.emit_okG_mono opok biok EmitHO.num_plain (EmitNqHO.num_nq nanfix) EmitHO.str_plain EmitNqHO.str_any).
  - intros x H. unfold EmitNqHO.num_nq. fold (EmitHO.num_plain x). rewrite H. apply orb_true_r.
  - reflexivity.
Qed.
