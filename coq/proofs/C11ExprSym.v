(* C11ExprSym.v — the symmetry of [expr_eqb] (Rust: derived PartialEq on Expr), used for the
   symmetry of Value::equals on function values. *)
From Coq Require Import String Ascii List ZArith Bool Lia Floats.SpecFloat.
Require Import Blots.Num Blots.gen.Builtins Blots.Ast Blots.Value Blots.proofs.ValueInd Blots.proofs.ExprInd Blots.proofs.Order.
Import ListNotations.
Local Open Scope list_scope.

Lemma list_eqb_sym {A} (f : A -> A -> bool) : (forall x y, f x y = f y x) ->
  forall l m, list_eqb f l m = list_eqb f m l.
Proof.
  intros Hf. induction l as [|x l IH]; intros [|y m]; cbn; try reflexivity. now rewrite Hf, IH.
Qed.
Lemma option_eqb_sym {A} (f : A -> A -> bool) : (forall x y, f x y = f y x) ->
  forall a b, option_eqb f a b = option_eqb f b a.
Proof. intros Hf [x|] [y|]; cbn; auto. Qed.
Lemma lamarg_eqb_sym a b : lamarg_eqb a b = lamarg_eqb b a.
Proof. destruct a, b; cbn; try reflexivity; apply String.eqb_sym. Qed.
Lemma binop_eqb_sym a b : binop_eqb a b = binop_eqb b a.
Proof. destruct a, b; reflexivity. Qed.
Lemma unop_eqb_sym a b : unop_eqb a b = unop_eqb b a.
Proof. destruct a, b; reflexivity. Qed.
Lemma builtin_eqb_sym' a b : builtin_eqb a b = builtin_eqb b a.
Proof. destruct a, b; reflexivity. Qed.
Definition clist_eqb := fix go (l m : list (commented expr)) : bool :=
  match l, m with
  | [], [] => true
  | Cm l1 n1 t1 :: l', Cm l2 n2 t2 :: m' =>
      list_eqb String.eqb l1 l2 && expr_eqb n1 n2 && option_eqb String.eqb t1 t2 && go l' m'
  | _, _ => false
  end.

Lemma clist_eqb_sym l : Forall (fun c => forall b, expr_eqb (cnode c) b = expr_eqb b (cnode c)) l ->
  forall m, clist_eqb l m = clist_eqb m l.
Proof.
  induction 1 as [|[a n t] l Hx _ IH]; intros [|[a2 n2 t2] m]; cbn; try reflexivity.
  cbn in Hx.
  rewrite (list_eqb_sym String.eqb String.eqb_sym a a2), (Hx n2),
          (option_eqb_sym String.eqb String.eqb_sym t t2), (IH m). reflexivity.
Qed.

Lemma expr_eqb_sym a : forall b, expr_eqb a b = expr_eqb b a.
Proof.
  induction a using expr_ind'; intros e2; destruct e2; try reflexivity;
    try (repeat match goal with c : commented expr |- _ => destruct c end; reflexivity); cbn [expr_eqb].
  - apply neqb_sym.
  - apply String.eqb_sym.
  - repeat match goal with x : bool |- _ => destruct x end; reflexivity.
  - apply String.eqb_sym.
  - apply String.eqb_sym.
  - apply builtin_eqb_sym'.
  - apply (clist_eqb_sym items H).
  - (* ERec *)
    revert entries0. induction H as [|[a [k v] t] l Hx _ IH]; intros [|[a2 [k2 v2] t2] m]; try reflexivity.
    cbn in Hx. destruct Hx as [Hk Hv].
    rewrite (list_eqb_sym String.eqb String.eqb_sym a a2), (Hv v2),
            (option_eqb_sym String.eqb String.eqb_sym t t2), (IH m).
    f_equal. f_equal. f_equal. f_equal.
    destruct k, k2; try reflexivity; cbn in Hk; try apply String.eqb_sym; apply Hk.
  - rewrite (list_eqb_sym lamarg_eqb lamarg_eqb_sym), IHa. reflexivity.
  - now rewrite IHa1, IHa2, IHa3.
  - (* EDo *)
    destruct ret as [rl r rt], ret0 as [rl2 r2 rt2]. cbn in IHa.
    change (clist_eqb stmts stmts0 && list_eqb String.eqb rl rl2 && expr_eqb r r2 && option_eqb String.eqb rt rt2
            = clist_eqb stmts0 stmts && list_eqb String.eqb rl2 rl && expr_eqb r2 r && option_eqb String.eqb rt2 rt).
    now rewrite (clist_eqb_sym stmts H), (list_eqb_sym String.eqb String.eqb_sym rl rl2), (IHa r2),
                (option_eqb_sym String.eqb String.eqb_sym rt rt2).
  - now rewrite String.eqb_sym, IHa.
  - apply IHa.
  - (* ECall *)
    rewrite IHa. f_equal. revert args0. induction H as [|x l Hx _ IH]; intros [|y m]; try reflexivity.
    now rewrite (Hx y), (IH m).
  - now rewrite IHa1, IHa2.
  - now rewrite IHa, String.eqb_sym.
  - now rewrite binop_eqb_sym, IHa1, IHa2.
  - now rewrite unop_eqb_sym, IHa.
  - apply IHa.
  - apply IHa.
Qed.
