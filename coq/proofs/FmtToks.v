(* FmtToks.v — compositionality of the lexical view `toks` of FmtTokens.v (property C07, the
   character level of the layout theorem).

   `toks_from m cur s` is a three-state automaton (code / inside a string literal / inside a
   comment) with the chunk being read as accumulator.  `trun` is the same automaton returning
   the chunks COMPLETED so far and the state it stops in, so that
       toks_from m cur (a ++ b) = fst (trun m cur a) ++ toks_from m' cur' b     (toks_from_app)
   From this:
     - toks (a ++ b) = toks a ++ toks b  when a stops in code state and b starts with a blank,
       a line break, a bracket, `,`, `:` or a quote (toks_app_break), or when a stops in code
       state with no open chunk: a ends with one of those, with a closing quote, or with a
       comment line (toks_app_closed);
     - toks (a ++ sep ++ b) = toks a ++ toks b for every separator made of blanks / line breaks /
       comment lines that starts with a blank or line break (toks_app_sep, is_sep_ lemmas);
     - a string literal is ONE chunk whatever it contains (toks_string_lit), a comment runs to
       the end of its line (trun_comment). *)
From Coq Require Import String Ascii List Bool Arith Lia.
Require Import Blots.Formatter Blots.FmtTokens Blots.proofs.StringFacts.
Import ListNotations.
Local Open Scope list_scope.

Definition tstate := (lmode * list ascii)%type.
Definition pre (l : list string) (p : list string * tstate) : list string * tstate :=
  (l ++ fst p, snd p).

(* the automaton of toks_from, stopping at the end of s: (completed chunks, state) *)
Fixpoint trun (m : lmode) (cur : list ascii) (s : string) : list string * tstate :=
  match s with
  | EmptyString => ([], (m, cur))
  | String c r =>
      match m with
      | LCode =>
          if is_blank c then pre (flush cur) (trun LCode [] r)
          else if is_delim c then pre (flush cur ++ [String c EmptyString]) (trun LCode [] r)
          else if Formatter.is_quote c then pre (flush cur) (trun (LStr c) [c] r)
          else if is_slash c then
            match cur with
            | p :: cur' => if is_slash p then pre (flush cur') (trun LCom [] r)
                           else trun LCode (c :: cur) r
            | [] => trun LCode [c] r
            end
          else trun LCode (c :: cur) r
      | LStr q =>
          if Ascii.eqb c q then pre [str_of (rev (c :: cur))] (trun LCode [] r)
          else trun (LStr q) (c :: cur) r
      | LCom => if Ascii.eqb c NLc then trun LCode [] r else trun LCom [] r
      end
  end.

Lemma pre_nil : forall p, pre [] p = p.
Proof. intros [a b]. reflexivity. Qed.
Lemma pre_pre : forall l1 l2 p, pre l1 (pre l2 p) = pre (l1 ++ l2) p.
Proof. intros l1 l2 [a b]. unfold pre. cbn [fst snd]. now rewrite app_assoc. Qed.
Lemma fst_pre : forall l p, fst (pre l p) = l ++ fst p.
Proof. reflexivity. Qed.
Lemma snd_pre : forall l p, snd (pre l p) = snd p.
Proof. reflexivity. Qed.

(* ------------------------------------------------------------------ the automaton composes *)
Lemma toks_from_app : forall a b m cur,
  toks_from m cur (a ++ b)%string =
  fst (trun m cur a) ++ toks_from (fst (snd (trun m cur a))) (snd (snd (trun m cur a))) b.
Proof.
  induction a as [|c r IH]; intros b m cur; [reflexivity|].
  cbn [String.append toks_from trun].
  destruct m as [|q|].
  - destruct (is_blank c); [rewrite IH, fst_pre, snd_pre, app_assoc; reflexivity|].
    destruct (is_delim c).
    { rewrite IH, fst_pre, snd_pre, <- !app_assoc. reflexivity. }
    destruct (Formatter.is_quote c); [rewrite IH, fst_pre, snd_pre, app_assoc; reflexivity|].
    destruct (is_slash c); [|apply IH].
    destruct cur as [|p cur']; [apply IH|].
    destruct (is_slash p); [rewrite IH, fst_pre, snd_pre, app_assoc; reflexivity|apply IH].
  - destruct (Ascii.eqb c q); [rewrite IH, fst_pre, snd_pre; reflexivity|apply IH].
  - destruct (Ascii.eqb c NLc); apply IH.
Qed.

Lemma trun_app : forall a b m cur,
  trun m cur (a ++ b)%string =
  pre (fst (trun m cur a)) (trun (fst (snd (trun m cur a))) (snd (snd (trun m cur a))) b).
Proof.
  induction a as [|c r IH]; intros b m cur; [cbn; now rewrite pre_nil|].
  cbn [String.append trun].
  destruct m as [|q|].
  - destruct (is_blank c); [rewrite IH, pre_pre, fst_pre, snd_pre; reflexivity|].
    destruct (is_delim c); [rewrite IH, pre_pre, fst_pre, snd_pre; reflexivity|].
    destruct (Formatter.is_quote c); [rewrite IH, pre_pre, fst_pre, snd_pre; reflexivity|].
    destruct (is_slash c); [|apply IH].
    destruct cur as [|p cur']; [apply IH|].
    destruct (is_slash p); [rewrite IH, pre_pre, fst_pre, snd_pre; reflexivity|apply IH].
  - destruct (Ascii.eqb c q); [rewrite IH, pre_pre, fst_pre, snd_pre; reflexivity|apply IH].
  - destruct (Ascii.eqb c NLc); apply IH.
Qed.

Lemma toks_from_trun : forall s m cur,
  toks_from m cur s = fst (trun m cur s) ++ flush (snd (snd (trun m cur s))).
Proof.
  intros s m cur. rewrite <- (append_nil_r s) at 1.
  rewrite toks_from_app. reflexivity.
Qed.

(* ------------------------------------------------------------------ boundaries *)
(* the state a text read from the start of code stops in *)
Definition tst (a : string) : tstate := snd (trun LCode [] a).
Definition mode_eqb (a b : lmode) : bool :=
  match a, b with
  | LCode, LCode | LCom, LCom => true
  | LStr p, LStr q => Ascii.eqb p q
  | _, _ => false
  end.
(* a stops in code state (every string literal closed, not inside a comment) *)
Definition ends_code (a : string) : bool := mode_eqb (fst (tst a)) LCode.
(* ... and with no open chunk: a is empty or ends with a blank, a line break, one of ( ) [ ] { } , :
   a closing quote, or a comment line *)
Definition ends_closed (a : string) : bool :=
  ends_code a && match snd (tst a) with [] => true | _ => false end.
(* b starts with a character that ends the open chunk whatever it is *)
Definition breaks (c : ascii) : bool := is_blank c || is_delim c || Formatter.is_quote c.
Definition starts_break (b : string) : bool :=
  match b with EmptyString => true | String c _ => breaks c end.
(* the decidable boundary condition between a and b *)
Definition boundary (a b : string) : bool := ends_code a && (ends_closed a || starts_break b).

Lemma mode_eqb_code : forall m, mode_eqb m LCode = true -> m = LCode.
Proof. intros [|q|]; cbn; congruence. Qed.

Lemma toks_from_break : forall b cur, starts_break b = true ->
  toks_from LCode cur b = flush cur ++ toks_from LCode [] b.
Proof.
  intros [|c r] cur H; cbn [starts_break] in H.
  - cbn. now rewrite app_nil_r.
  - unfold breaks in H. cbn [toks_from].
    destruct (is_blank c); [reflexivity|].
    destruct (is_delim c); [reflexivity|].
    cbn [orb] in H. rewrite H. reflexivity.
Qed.

Theorem toks_app_break : forall a b, ends_code a = true -> starts_break b = true ->
  toks (a ++ b)%string = toks a ++ toks b.
Proof.
  intros a b Ha Hb. unfold toks. rewrite toks_from_app, (toks_from_trun a).
  unfold ends_code, tst in Ha. apply mode_eqb_code in Ha. rewrite Ha.
  rewrite (toks_from_break b _ Hb), app_assoc. reflexivity.
Qed.

Theorem toks_app_closed : forall a b, ends_closed a = true ->
  toks (a ++ b)%string = toks a ++ toks b.
Proof.
  intros a b Ha. unfold toks. rewrite toks_from_app, (toks_from_trun a).
  unfold ends_closed, ends_code, tst in Ha. apply andb_prop in Ha. destruct Ha as [Hm Hc].
  apply mode_eqb_code in Hm. rewrite Hm.
  destruct (snd (snd (trun LCode [] a))); [|discriminate]. cbn [flush]. now rewrite app_nil_r.
Qed.

Theorem toks_app_boundary : forall a b, boundary a b = true ->
  toks (a ++ b)%string = toks a ++ toks b.
Proof.
  intros a b H. unfold boundary in H. apply andb_prop in H. destruct H as [Ha H].
  apply orb_prop in H. destruct H as [H|H]; [exact (toks_app_closed a b H)|exact (toks_app_break a b Ha H)].
Qed.

(* the state after a ++ b when a stops in code state and b starts with a break *)
Lemma trun_break : forall b cur, starts_break b = true -> b <> EmptyString ->
  trun LCode cur b = pre (flush cur) (trun LCode [] b).
Proof.
  intros [|c r] cur H Hne; [congruence|]. cbn [starts_break] in H. unfold breaks in H.
  cbn [trun].
  destruct (is_blank c); [cbn [flush]; now rewrite pre_pre, app_nil_r|].
  destruct (is_delim c); [cbn [flush]; rewrite pre_pre; reflexivity|].
  cbn [orb] in H. rewrite H. cbn [flush]. now rewrite pre_pre, app_nil_r.
Qed.

Lemma tst_app : forall a b, tst (a ++ b)%string =
  snd (trun (fst (tst a)) (snd (tst a)) b).
Proof. intros a b. unfold tst. rewrite trun_app, snd_pre. reflexivity. Qed.

(* ------------------------------------------------------------------ separators *)
(* a separator: read in code state with any open chunk, it closes that chunk, yields no chunk
   of its own and stops in code state with no open chunk *)
Definition is_sep (s : string) : Prop :=
  forall cur, trun LCode cur s = (flush cur, (LCode, [])).
(* a text that yields nothing when read from a chunk boundary (blanks, comment lines) *)
Definition no_chunk (s : string) : Prop := trun LCode [] s = ([], (LCode, [])).

Fixpoint all_blank (s : string) : bool :=
  match s with EmptyString => true | String c r => is_blank c && all_blank r end.
Fixpoint no_nl (s : string) : bool :=
  match s with EmptyString => true | String c r => negb (Ascii.eqb c NLc) && no_nl r end.

Lemma no_chunk_blank : forall s, all_blank s = true -> no_chunk s.
Proof.
  unfold no_chunk. induction s as [|c r IH]; intro H; [reflexivity|].
  cbn [all_blank] in H. apply andb_prop in H. destruct H as [Hc Hr].
  cbn [trun]. rewrite Hc, (IH Hr). reflexivity.
Qed.

Lemma is_sep_blank : forall c r, is_blank c = true -> no_chunk r -> is_sep (String c r).
Proof.
  intros c r Hc Hr cur. cbn [trun]. rewrite Hc, Hr. unfold pre. cbn [fst snd].
  now rewrite app_nil_r.
Qed.

Lemma no_chunk_app : forall a b, no_chunk a -> no_chunk b -> no_chunk (a ++ b)%string.
Proof. unfold no_chunk. intros a b Ha Hb. rewrite trun_app, Ha. cbn [fst snd]. rewrite Hb. reflexivity. Qed.

Lemma is_sep_app : forall a b, is_sep a -> no_chunk b -> is_sep (a ++ b)%string.
Proof.
  intros a b Ha Hb cur. rewrite trun_app, (Ha cur). cbn [fst snd]. rewrite Hb.
  unfold pre. cbn [fst snd]. now rewrite app_nil_r.
Qed.

(* a comment runs to the end of its line, whatever it contains (quotes, brackets, `//`) *)
Lemma trun_comment : forall c r, no_nl c = true ->
  trun LCom [] (c ++ String NLc r)%string = trun LCode [] r.
Proof.
  induction c as [|x c IH]; intros r H.
  - cbn. reflexivity.
  - cbn [no_nl] in H. apply andb_prop in H. destruct H as [Hx Hc].
    cbn [String.append trun]. destruct (Ascii.eqb x NLc); [discriminate|]. exact (IH r Hc).
Qed.

Local Open Scope string_scope.
(* a comment line "//c\n" read at a chunk boundary *)
Lemma no_chunk_comment_line : forall c, no_nl c = true -> no_chunk ("//" ++ c ++ nl).
Proof.
  intros c H. unfold no_chunk, nl. cbn [String.append trun].
  change (is_blank "/") with false. change (is_delim "/") with false.
  change (Formatter.is_quote "/") with false. change (is_slash "/") with true.
  cbv iota. cbn [flush]. rewrite pre_nil. exact (trun_comment c "" H).
Qed.

(* the separators of the layouts: a line break and the indentation *)
Lemma all_blank_indent : forall n, all_blank (make_indent n) = true.
Proof. induction n; [reflexivity|]. cbn [make_indent all_blank]. rewrite IHn. reflexivity. Qed.
Lemma is_sep_nl_indent : forall n, is_sep (nl ++ make_indent n).
Proof. intro n. apply is_sep_blank; [reflexivity|]. apply no_chunk_blank, all_blank_indent. Qed.
(* an end-of-line comment "  //c" + line break + indentation (trailing_doc of the layouts), and
   a comment line after a line break (leading_doc) *)
Lemma is_sep_eol_comment : forall c n, no_nl c = true ->
  is_sep ("  " ++ ("//" ++ c ++ nl) ++ make_indent n).
Proof.
  intros c n H. change ("  " ++ ("//" ++ c ++ nl) ++ make_indent n)
    with (String " " (" " ++ ("//" ++ c ++ nl) ++ make_indent n)).
  apply is_sep_blank; [reflexivity|].
  apply (no_chunk_app " "); [reflexivity|].
  apply no_chunk_app; [exact (no_chunk_comment_line c H)|apply no_chunk_blank, all_blank_indent].
Qed.
Lemma is_sep_comment_line : forall c n m, no_nl c = true ->
  is_sep ((nl ++ make_indent n) ++ ("//" ++ c ++ nl) ++ make_indent m).
Proof.
  intros c n m H. apply is_sep_app; [apply is_sep_nl_indent|].
  apply no_chunk_app; [exact (no_chunk_comment_line c H)|apply no_chunk_blank, all_blank_indent].
Qed.
Local Close Scope string_scope.

Theorem toks_app_sep : forall a sep b, ends_code a = true -> is_sep sep ->
  toks (a ++ sep ++ b)%string = toks a ++ toks b.
Proof.
  intros a sep b Ha Hs. unfold toks. rewrite toks_from_app, (toks_from_trun a).
  unfold ends_code, tst in Ha. apply mode_eqb_code in Ha. rewrite Ha.
  rewrite toks_from_app, (Hs _). cbn [fst snd]. now rewrite app_assoc.
Qed.

Lemma tst_app_sep : forall a sep b, ends_code a = true -> is_sep sep ->
  tst (a ++ sep ++ b)%string = tst b.
Proof.
  intros a sep b Ha Hs. rewrite tst_app.
  unfold ends_code in Ha. apply mode_eqb_code in Ha. rewrite Ha.
  rewrite trun_app, (Hs _). cbn [fst snd]. rewrite snd_pre. reflexivity.
Qed.

(* ------------------------------------------------------------------ string literals *)
Fixpoint nochar (q : ascii) (s : string) : bool :=
  match s with EmptyString => true | String c r => negb (Ascii.eqb c q) && nochar q r end.

Lemma str_of_app : forall a b, str_of (a ++ b) = (str_of a ++ str_of b)%string.
Proof. induction a as [|c a IH]; intro b; [reflexivity|]. cbn. now rewrite IH. Qed.

Lemma trun_str_body : forall body q cur r, nochar q body = true ->
  trun (LStr q) cur (body ++ String q r)%string =
  pre [(str_of (rev cur) ++ body ++ String q EmptyString)%string] (trun LCode [] r).
Proof.
  induction body as [|c body IH]; intros q cur r H.
  - cbn [String.append trun]. rewrite Ascii.eqb_refl. cbn [rev]. rewrite str_of_app. reflexivity.
  - cbn [nochar] in H. apply andb_prop in H. destruct H as [Hc Hb].
    cbn [String.append trun]. destruct (Ascii.eqb c q); [discriminate|].
    rewrite (IH q (c :: cur) r Hb). cbn [rev]. rewrite str_of_app. cbn [str_of].
    rewrite append_assoc. reflexivity.
Qed.

(* a string literal is one chunk whatever it contains — blanks, line breaks, brackets, `//` *)
Theorem toks_string_lit : forall q body r cur,
  Formatter.is_quote q = true -> nochar q body = true ->
  toks_from LCode cur (String q (body ++ String q r))%string =
  flush cur ++ String q (body ++ String q EmptyString)%string :: toks r.
Proof.
  intros q body r cur Hq Hb.
  assert (Hnb : is_blank q = false /\ is_delim q = false).
  { unfold Formatter.is_quote in Hq. apply orb_prop in Hq.
    destruct Hq as [E|E]; apply Ascii.eqb_eq in E; subst q; split; reflexivity. }
  destruct Hnb as [H1 H2].
  change (String q (body ++ String q r))%string with (String q EmptyString ++ (body ++ String q r))%string.
  rewrite toks_from_app. cbn [trun]. rewrite H1, H2, Hq. cbn [pre fst snd].
  rewrite app_nil_r.
  rewrite (toks_from_trun _ (LStr q)), (trun_str_body body q [q] r Hb), fst_pre, snd_pre.
  unfold toks. rewrite (toks_from_trun r). reflexivity.
Qed.

Corollary toks_string_lit_closed : forall q body, Formatter.is_quote q = true -> nochar q body = true ->
  toks (String q (body ++ String q EmptyString))%string = [String q (body ++ String q EmptyString)%string]
  /\ ends_closed (String q (body ++ String q EmptyString))%string = true.
Proof.
  intros q body Hq Hb. split.
  - unfold toks. rewrite (toks_string_lit q body EmptyString [] Hq Hb). reflexivity.
  - assert (Hnb : is_blank q = false /\ is_delim q = false).
    { unfold Formatter.is_quote in Hq. apply orb_prop in Hq.
      destruct Hq as [E|E]; apply Ascii.eqb_eq in E; subst q; split; reflexivity. }
    destruct Hnb as [H1 H2].
    unfold ends_closed, ends_code, tst. cbn [trun]. rewrite H1, H2, Hq, snd_pre.
    rewrite (trun_str_body body q [q] EmptyString Hb), snd_pre. reflexivity.
Qed.

(* ------------------------------------------------------------------ examples *)
Local Open Scope string_scope.
Example toks_string_swallows :
  toks ("f(" ++ """a // b" ++ nl ++ " [c], d""" ++ ", x) // done" ++ nl ++ "y")
  = ["f"; "("; """a // b" ++ nl ++ " [c], d"""; ","; "x"; ")"; "y"].
Proof. vm_compute. reflexivity. Qed.
Example boundary_examples :
  boundary "a +" " b" = true /\ boundary "[a" "]" = true /\ boundary "f(" "x" = true /\
  boundary "'s'" "x" = true /\ boundary "a" "b" = false /\ boundary "'s" " x" = false /\
  boundary "a // c" (nl ++ "b") = false.
Proof. vm_compute. repeat split. Qed.
Local Close Scope string_scope.
