(* DisplayNumDischarge4.v — C20: the accuracy clause for the EXECUTABLE library models.
   display_accurate (proofs/DisplayNumAccAll.v) instantiated with fmt_prec_exec / fmt_exp14_exec /
   parse_f64_exec / powi_exec, whose specifications are theorems (DisplayNumDischarge1/2,
   DisplayNumExec).  The only hypothesis left is the sanity of libm's log10 (floor(log10 a) is
   the decimal exponent of a or one more; log10_sane in Properties/C20.v), needed on POSITIVE
   doubles only since log10 is only ever applied to absolute values. *)
From Coq Require Import ZArith Reals Bool String Ascii List Lia Lra QArith Qreals Qabs Qpower Floats.SpecFloat.
From Flocq Require Import Core.Core IEEE754.BinarySingleNaN.
Require Import Blots.Num Blots.Outcome Blots.DisplayNum.
Require Import Blots.proofs.DisplayNumGroup Blots.proofs.DisplayNumSpec Blots.proofs.DisplayNumText
               Blots.proofs.DisplayNumInt Blots.proofs.DisplayNum Blots.proofs.DisplayNumAcc
               Blots.proofs.DisplayNumFloat Blots.proofs.DisplayNumFinite Blots.proofs.DisplayNumAccStd
               Blots.proofs.DisplayNumAccAll Blots.proofs.DisplayNumExec
               Blots.proofs.DisplayNumDischarge1 Blots.proofs.DisplayNumDischarge2
               Blots.proofs.DisplayNumDischarge6.
Import ListNotations.
Open Scope R_scope.

Theorem display_accurate_exec_pos : forall log10,
  (forall a k, valid_binary prec emax a = true -> nsign a = false -> in_decade a k ->
               (k <= as_i32 (nfloor (log10 a)) <= k + 1)%Z) ->
  forall x t, valid_binary prec emax x = true -> Num.is_finite x = true -> neqb x nzero = false ->
    format_display_number log10 powi_exec fmt_prec_exec fmt_exp14_exec parse_f64_exec true x = Ok t ->
    forall k, in_decade x k -> (Qabs (denote t - num_to_Q x) < Qpower (10 # 1) (k - 14)%Z)%Q.
Proof.
  intros log10 HL x t V F NZ Ht k Hk. apply accurate_Q_R.
  apply (display_accurate log10 powi_exec fmt_prec_exec fmt_exp14_exec parse_f64_exec
           fmt_exp14_exec_correct parse_f64_exec_close (log10_sane_to_R log10 HL)
           powi_exec_exact powi_exec_neg fmt_prec_exec_shape); try assumption.
  - intros m dp Fm Hd. apply fmt_prec_exec_accurate; [exact Fm|lia].
  - now apply in_decade_R.
Qed.

Theorem display_accurate_exec : forall log10,
  (forall a k, valid_binary prec emax a = true -> in_decade a k ->
               (k <= as_i32 (nfloor (log10 a)) <= k + 1)%Z) ->
  forall x t, valid_binary prec emax x = true -> Num.is_finite x = true -> neqb x nzero = false ->
    format_display_number log10 powi_exec fmt_prec_exec fmt_exp14_exec parse_f64_exec true x = Ok t ->
    forall k, in_decade x k -> (Qabs (denote t - num_to_Q x) < Qpower (10 # 1) (k - 14)%Z)%Q.
Proof. intros log10 HL. apply display_accurate_exec_pos. intros a k V _ D. exact (HL a k V D). Qed.
