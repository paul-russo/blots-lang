(* PrattAdequacy.v — the relational transcription (Expr / Loop / ...) is sound for the fuelled
   function: whatever the relations derive, the function returns for every large enough fuel
   (PrattFuel.v gives the fuel). *)
From Coq Require Import String List Bool Arith Lia.
Require Import Blots.Num Blots.gen.Builtins Blots.Ast Blots.Outcome Blots.PrattTypes Blots.Pratt
               Blots.proofs.PrattFuel.
Import ListNotations.
Local Open Scope nat_scope.
Local Open Scope list_scope.

(* f returns Ok v for every large enough fuel *)
Definition ev {A} (f : nat -> outcome A) (v : A) : Prop := exists n, forall m, n <= m -> f m = Ok v.

Lemma ev_ext {A} (f g : nat -> outcome A) v : (forall m, f m = g m) -> ev g v -> ev f v.
Proof. intros E [n H]. exists n. intros m Hm. rewrite E. auto. Qed.

Corollary items_sound : forall tbl imap pmap its t,
  Items tbl imap pmap its t -> exists n, forall m, n <= m -> parse_items tbl imap pmap m its = Ok (Some t).
Proof. intros tbl imap pmap its t H. eexists. exact (items_bound tbl imap pmap its t H). Qed.
