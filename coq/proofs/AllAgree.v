(* AllAgree.v — the dispatcher with EVERY built-in (EvalAll.builtin_all o) and the operator table with
   `^` through the oracle (EvalAll.binop_all o) treat their callback parametrically on hereditarily
   closed values and return closed values (closed in, closed out; same result for callbacks that
   agree on closed values), for EVERY oracle o: the hypotheses of CallSite.v's simulation
   (AllGenClosed.v at (store_le, closed_value)).  So C04's call-site independence covers the complete
   built-in set. *)
From Coq Require Import String Ascii List ZArith Bool Lia.
Require Import Blots.Num Blots.gen.Builtins Blots.Ast Blots.Value Blots.Outcome Blots.Binop
               Blots.Env Blots.Eval Blots.BuiltinsHof Blots.Program Blots.EvalInst Blots.EvalFull
               Blots.EvalAll Blots.BuiltinsList
               Blots.proofs.StoreMono Blots.proofs.Closed Blots.proofs.ClosedOps Blots.proofs.CallSite.
Require Blots.proofs.AllGenClosed.
Import ListNotations.
Open Scope list_scope.

Theorem builtin_all_agree : forall o, GenOps.builtin_agrees store_le closed_value (builtin_all o).
Proof.
  intros o cb1 cb2 s0 Hag Hcl.
  exact (AllGenClosed.builtin_all_agree_gen store_le store_le_refl store_le_trans closed_value
           closed_VList closed_VRec (fun st w => iff_refl _) atomic_closed closed_mono cb1 cb2 s0 Hag Hcl o).
Qed.

Theorem binop_all_agree : forall o, GenOps.binop_agrees store_le closed_value (binop_all o).
Proof.
  intros o cb1 cb2 s0 Hag Hcl.
  exact (AllGenClosed.binop_all_agree_gen store_le store_le_refl store_le_trans closed_value
           closed_VList atomic_closed closed_mono cb1 cb2 s0 Hag Hcl o).
Qed.

(* CALL-SITE INDEPENDENCE for the evaluator with every built-in, for every oracle *)
Theorem call_site_independent_all : forall o release d fr1 fr2 this f args st,
  lookup fr1 "inputs" = lookup fr2 "inputs" ->
  (forall v, lookup fr1 "inputs" = Some v -> closed_value st v) ->
  closed_value st this -> closed_value st f -> closed_list st args ->
  AD release (binop_all o) (builtin_all o) d fr1 this f args st =
  AD release (binop_all o) (builtin_all o) d fr2 this f args st.
Proof.
  intros o release.
  exact (call_site_independent_gen release (binop_all o) (builtin_all o) (binop_all_agree o) (builtin_all_agree o)).
Qed.

Theorem call_result_closed_all : forall o release d fr this f args st r st',
  (forall v, lookup fr "inputs" = Some v -> closed_value st v) ->
  closed_value st this -> closed_value st f -> closed_list st args ->
  AD release (binop_all o) (builtin_all o) d fr this f args st = (r, st') ->
  store_le st st' /\ (forall v, r = Ok v -> closed_value st' v).
Proof.
  intros o release.
  exact (call_result_closed_gen release (binop_all o) (builtin_all o) (binop_all_agree o) (builtin_all_agree o)).
Qed.
