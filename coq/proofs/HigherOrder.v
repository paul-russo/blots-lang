(* HigherOrder.v — C13: the operator forms via / where / into and the built-in forms
   map / filter / function application run the same loop over the same callback; every / some /
   reduce / map meet their definitions whenever the callback behaves as a (pure) function on
   the elements. *)
From Coq Require Import String Ascii List ZArith Bool Lia.
Require Import Blots.Num Blots.gen.Builtins Blots.Ast Blots.Value Blots.Outcome Blots.Binop
               Blots.Env Blots.Eval Blots.BuiltinsHof Blots.Program Blots.EvalInst
               Blots.proofs.DepthMono Blots.proofs.InstDepth.
Import ListNotations.
Open Scope list_scope.
Open Scope nat_scope.

Lemma accepts2_same : forall f, fn_accepts2_of_value f = accepts f 2.
Proof. intros f. destruct f; reflexivity. Qed.

Lemma index_app_here : forall (pre l : list value) x,
  index (pre ++ x :: l) (Datatypes.length pre) = Ok x.
Proof.
  intros pre l x. unfold index. rewrite nth_error_app2 by lia.
  replace (Datatypes.length pre - Datatypes.length pre) with 0 by lia. reflexivity.
Qed.

Section Loops.
  Variable call : callback.

  (* The per-element argument vector of the operator forms, `if two then [item; VNum (num_of_idx idx)]
     else [item]`, is the built-ins' [cb_args two item idx] up to unfolding; the loops are stated with it. *)
  (* `via` loop of Binop.v (list first, scalar function) = map's loop *)
  Lemma via_loop_is_map_loop : forall f two l pre st,
    for_each store (seq (Datatypes.length pre) (Datatypes.length l))
      (fun idx => bindM store (lift store (index (pre ++ l) idx))
                    (fun item => call_fn store call f (cb_args two item idx))) st
    = map_loop call f two l (Datatypes.length pre) st.
  Proof.
    intros f two l; induction l as [|x l IH]; intros pre st; [reflexivity|].
    cbn [Datatypes.length seq for_each map_loop].
    unfold bindM at 1. unfold bindM at 1. unfold lift at 1. rewrite index_app_here.
    unfold call_fn.
    destruct (call f f (cb_args two x (Datatypes.length pre)) st) as [o st1]; destruct o; try reflexivity.
    unfold bindM at 1.
    specialize (IH (pre ++ [x]) st1). rewrite <- app_assoc in IH. cbn [app] in IH.
    rewrite app_length in IH. cbn [Datatypes.length] in IH.
    replace (Datatypes.length pre + 1) with (S (Datatypes.length pre)) in IH by lia.
    unfold call_fn in IH. rewrite IH.
    destruct (map_loop call f two l (S (Datatypes.length pre)) st1) as [o2 st2]; destruct o2; reflexivity.
  Qed.

  (* `where` loop of Binop.v = filter's loop *)
  Lemma where_loop_is_filter_loop : forall f two l pre st,
    (let '(r, st') :=
       for_each store (seq (Datatypes.length pre) (Datatypes.length l))
         (fun idx => bindM store (lift store (index (pre ++ l) idx))
            (fun item => bindM store (call_fn store call f (cb_args two item idx))
               (fun result => bindM store (lift store (as_bool result))
                  (fun keep => lift store (Ok (if keep then Some item else None)))))) st
     in (omap (@filter_some value) r, st'))
    = filter_loop call f two l (Datatypes.length pre) st.
  Proof.
    intros f two l; induction l as [|x l IH]; intros pre st; [reflexivity|].
    cbn [Datatypes.length seq for_each filter_loop].
    unfold bindM at 1. unfold bindM at 1. unfold lift at 1. rewrite index_app_here.
    unfold bindM at 1. unfold call_fn.
    destruct (call f f (cb_args two x (Datatypes.length pre)) st) as [o st1]; destruct o; try reflexivity.
    unfold bindM at 1. unfold lift at 1.
    destruct (as_bool a) as [keep| | | |]; try reflexivity.
    unfold lift at 1. unfold bindM at 1.
    specialize (IH (pre ++ [x]) st1). rewrite <- app_assoc in IH. cbn [app] in IH.
    rewrite app_length in IH. cbn [Datatypes.length] in IH.
    replace (Datatypes.length pre + 1) with (S (Datatypes.length pre)) in IH by lia.
    unfold call_fn in IH. rewrite <- IH.
    match goal with |- context [for_each store ?s ?b st1] => destruct (for_each store s b st1) as [o2 st2] end.
    destruct o2; try reflexivity. destruct keep; reflexivity.
  Qed.

  (* ---- value level: operator = built-in loop over the SAME callback ---- *)
  Lemma eval_binop_list_scalar : forall powf op l f st,
    is_list f = false ->
    match op with Via | Where => True | _ => False end ->
    eval_binop store call fn_accepts2_of_value powf op (VList l) f st
    = arm_list_scalar store call fn_accepts2_of_value powf op true l f st.
  Proof.
    intros powf op l f st Hnl Hop. unfold eval_binop. rewrite Hnl. cbn [andb].
    destruct op; try contradiction; destruct f; try discriminate; reflexivity.
  Qed.

  Theorem via_is_map : forall powf l f st,
    is_callable f = true ->
    eval_binop store call fn_accepts2_of_value powf Via (VList l) f st
    = bi_map call [VList l; f] st.
  Proof.
    intros powf l f st Hf.
    assert (Hfun : is_function f = true) by (destruct f; auto; discriminate).
    assert (Hnl : is_list f = false) by (destruct f; auto; discriminate).
    rewrite eval_binop_list_scalar by (auto; exact I).
    unfold bi_map, hof_prelude, arg. cbn [nth_error obind as_list].
    unfold as_function. rewrite Hfun. cbn [obind].
    cbn [arm_list_scalar]. rewrite Hf. cbn [negb]. unfold bindM at 1.
    pose proof (via_loop_is_map_loop f (fn_accepts2_of_value f) l [] st) as HL.
    cbn [Datatypes.length app] in HL. unfold cb_args, idx_num in HL. unfold num_of_idx. rewrite HL. rewrite accepts2_same.
    destruct (map_loop call f (accepts f 2) l 0 st) as [o st1]. destruct o; reflexivity.
  Qed.

  Theorem where_is_filter : forall powf l f st,
    is_callable f = true ->
    eval_binop store call fn_accepts2_of_value powf Where (VList l) f st
    = bi_filter call [VList l; f] st.
  Proof.
    intros powf l f st Hf.
    assert (Hfun : is_function f = true) by (destruct f; auto; discriminate).
    assert (Hnl : is_list f = false) by (destruct f; auto; discriminate).
    rewrite eval_binop_list_scalar by (auto; exact I).
    unfold bi_filter, hof_prelude, arg. cbn [nth_error obind as_list].
    unfold as_function. rewrite Hfun. cbn [obind].
    cbn [arm_list_scalar]. rewrite Hf. cbn [negb].
    pose proof (where_loop_is_filter_loop f (fn_accepts2_of_value f) l [] st) as HL.
    cbn [Datatypes.length app] in HL. unfold cb_args, idx_num in HL. unfold num_of_idx. rewrite accepts2_same in HL.
    rewrite <- HL. rewrite accepts2_same. unfold bindM at 1.
    match goal with |- context [for_each store ?s ?b st] => destruct (for_each store s b st) as [o st1] end.
    destruct o; reflexivity.
  Qed.

  (* `x into f` is the application f(x): both are FunctionDef::call with (f, [x]) *)
  Theorem into_is_apply : forall powf x f st,
    is_callable f = true ->
    eval_binop store call fn_accepts2_of_value powf Into x f st = call f f [x] st.
  Proof.
    intros powf x f st Hf. unfold eval_binop.
    assert (Hnl : is_list f = false) by (destruct f; auto; discriminate).
    rewrite Hnl. cbn [andb].
    destruct x; destruct f; try discriminate; cbn [arm_scalar arm_list_scalar];
      try rewrite Hf; reflexivity.
  Qed.

  (* ---- definitions met when the callback is a function of its arguments ---- *)
  (* "the predicate/callback succeeds on all elements": on every argument vector it is given,
     in every store, it returns [g args] *)
  Definition behaves_as (f : value) (g : list value -> value) : Prop :=
    forall args st, exists st', call f f args st = (Ok (g args), st').

  Fixpoint mapi_from {A B} (h : nat -> A -> B) (i : nat) (l : list A) : list B :=
    match l with [] => [] | x :: r => h i x :: mapi_from h (S i) r end.

  Theorem map_loop_spec : forall f g two l i st, behaves_as f g ->
    fst (map_loop call f two l i st) = Ok (mapi_from (fun k x => g (cb_args two x k)) i l).
  Proof.
    intros f g two l; induction l as [|x l IH]; intros i st Hg; [reflexivity|].
    cbn [map_loop mapi_from]. destruct (Hg (cb_args two x i) st) as [st1 E]. rewrite E.
    specialize (IH (S i) st1 Hg). destruct (map_loop call f two l (S i) st1) as [o st2].
    cbn [fst] in IH. subst o. reflexivity.
  Qed.

  Definition bool_of (v : value) : bool := match v with VBool b => b | _ => false end.
  Definition all_bool {A} (h : nat -> A -> value) (i : nat) (l : list A) : Prop :=
    Forall (fun v => exists b, v = VBool b) (mapi_from h i l).

  Theorem every_loop_spec : forall f g two l i st, behaves_as f g ->
    all_bool (fun k x => g (cb_args two x k)) i l ->
    fst (every_loop call f two l i st)
    = Ok (VBool (forallb bool_of (mapi_from (fun k x => g (cb_args two x k)) i l))).
  Proof.
    intros f g two l; induction l as [|x l IH]; intros i st Hg Hb; [reflexivity|].
    cbn [every_loop mapi_from forallb]. destruct (Hg (cb_args two x i) st) as [st1 E]. rewrite E.
    unfold all_bool in Hb. cbn [mapi_from] in Hb. inversion Hb as [|? ? [b Hb1] Hb2]; subst.
    rewrite Hb1. cbn [as_bool bool_of]. destruct b; cbn [andb]; [|reflexivity].
    apply IH; assumption.
  Qed.
  Theorem some_loop_spec : forall f g two l i st, behaves_as f g ->
    all_bool (fun k x => g (cb_args two x k)) i l ->
    fst (some_loop call f two l i st)
    = Ok (VBool (existsb bool_of (mapi_from (fun k x => g (cb_args two x k)) i l))).
  Proof.
    intros f g two l; induction l as [|x l IH]; intros i st Hg Hb; [reflexivity|].
    cbn [some_loop mapi_from existsb]. destruct (Hg (cb_args two x i) st) as [st1 E]. rewrite E.
    unfold all_bool in Hb. cbn [mapi_from] in Hb. inversion Hb as [|? ? [b Hb1] Hb2]; subst.
    rewrite Hb1. cbn [as_bool bool_of]. destruct b; cbn [orb]; [reflexivity|].
    apply IH; assumption.
  Qed.
  Theorem filter_loop_spec : forall f g two l i st, behaves_as f g ->
    all_bool (fun k x => g (cb_args two x k)) i l ->
    fst (filter_loop call f two l i st)
    = Ok (map snd (filter (fun kx => bool_of (g (cb_args two (snd kx) (fst kx))))
                          (mapi_from (fun k x => (k, x)) i l))).
  Proof.
    intros f g two l; induction l as [|x l IH]; intros i st Hg Hb; [reflexivity|].
    cbn [filter_loop mapi_from filter]. destruct (Hg (cb_args two x i) st) as [st1 E]. rewrite E.
    unfold all_bool in Hb. cbn [mapi_from] in Hb. inversion Hb as [|? ? [b Hb1] Hb2]; subst.
    cbn [fst snd]. rewrite Hb1. cbn [as_bool bool_of].
    specialize (IH (S i) st1 Hg Hb2). destruct (filter_loop call f two l (S i) st1) as [o st2].
    cbn [fst] in IH. subst o. destruct b; reflexivity.
  Qed.

  (* reduce is the left fold from its initial value (index passed when the callback takes it) *)
  Fixpoint foldi_left (h : value -> value -> nat -> value) (l : list value) (i : nat) (acc : value) :=
    match l with [] => acc | x :: r => foldi_left h r (S i) (h acc x i) end.
  Theorem reduce_loop_spec : forall f g three l i acc st, behaves_as f g ->
    fst (reduce_loop call f three l i acc st)
    = Ok (foldi_left (fun a x k => g (if three then [a; x; idx_num k] else [a; x])) l i acc).
  Proof.
    intros f g three l; induction l as [|x l IH]; intros i acc st Hg; [reflexivity|].
    cbn [reduce_loop foldi_left].
    destruct (Hg (if three then [acc; x; idx_num i] else [acc; x]) st) as [st1 E]. rewrite E.
    apply IH; assumption.
  Qed.
End Loops.

(* Evaluator level: the built-in form consumes more call depth than the operator form, so it is either
   the depth error or exactly the operator form's result.  For every operator table and built-in
   dispatcher (bi, bu) that are monotone in the callback and have EvalInst.v's via / where / into and
   map / filter; the lemmas named _gen are about such a pair. *)
Section DepthGen.
  Variable release : bool.
  Variable bi : callback -> binop -> value -> value -> store -> outcome value * store.
  Variable bu : callback -> builtin -> list value -> store -> outcome value * store.
  Hypothesis Hbi_le : binop_le bi.
  Hypothesis Hbu_le : builtin_le bu.
  Hypothesis Hvia : forall cb l r st, bi cb Via l r st = binop_impl cb Via l r st.
  Hypothesis Hwhere : forall cb l r st, bi cb Where l r st = binop_impl cb Where l r st.
  Hypothesis Hinto : forall cb l r st, bi cb Into l r st = binop_impl cb Into l r st.
  Hypothesis Hmap : forall cb, bu cb B_map = builtin_impl cb B_map.
  Hypothesis Hfilter : forall cb, bu cb B_filter = builtin_impl cb B_filter.
  Notation AD := (AD release bi bu).

  Lemma AD_le2_gen : forall d fr, cb_le (AD d fr) (AD (S (S d)) fr).
  Proof.
    intros d fr this f args st.
    destruct (AD_le release bi bu Hbi_le Hbu_le d fr this f args st) as [H|H]; [left; exact H|]. rewrite H.
    apply (AD_le release bi bu Hbi_le Hbu_le (S d) fr).
  Qed.

  (* FunctionDef::call of the built-in `b` with two arguments at depth budget d *)
  Lemma AD_builtin2_gen : forall d fr b x y st,
    can_accept (builtin_arity b) 2 = true ->
    AD d fr (VBuiltin b) (VBuiltin b) [x; y] st =
    match d with
    | O => (ErrDepth, st)
    | S O => bu (fun _ f a s => call_too_deep f a s) b [x; y] st
    | S (S d'') => bu (AD d'' fr) b [x; y] st
    end.
  Proof.
    intros d fr b x y st Ha. rewrite AD_unfold. unfold apply_at, check_arity, accepts. cbn [fn_arity Datatypes.length].
    rewrite Ha. cbn [negb]. destruct d as [|[|d'']]; reflexivity.
  Qed.

  Lemma too_deep_le_gen : forall fr, cb_le (fun _ f a s => call_too_deep f a s) (AD 1 fr).
  Proof.
    intros fr this f args st. unfold call_too_deep. rewrite AD_unfold. unfold apply_at.
    destruct (check_arity f (Datatypes.length args)); cbn [negb]; [left; reflexivity|right; reflexivity].
  Qed.

  (* the callback a built-in gets at depth budget d is below the one the operator gets *)
  Lemma builtin2_le : forall d fr b x y st,
    can_accept (builtin_arity b) 2 = true ->
    rle (AD d fr (VBuiltin b) (VBuiltin b) [x; y] st) (bu (AD d fr) b [x; y] st).
  Proof.
    intros d fr b x y st Ha. rewrite AD_builtin2_gen by exact Ha. destruct d as [|[|d'']].
    - left; reflexivity.
    - apply Hbu_le. apply too_deep_le_gen.
    - apply Hbu_le. intros t0 f0 a0 s0. apply AD_le2_gen.
  Qed.

  Theorem map_form_le_via_form_gen : forall d fr l f st,
    is_callable f = true ->
    rle (AD d fr (VBuiltin B_map) (VBuiltin B_map) [VList l; f] st)
        (bi (AD d fr) Via (VList l) f st).
  Proof.
    intros d fr l f st Hf. rewrite Hvia. unfold binop_impl. rewrite via_is_map by exact Hf.
    change (bi_map (AD d fr)) with (builtin_impl (AD d fr) B_map). rewrite <- Hmap.
    apply builtin2_le. reflexivity.
  Qed.

  Theorem filter_form_le_where_form_gen : forall d fr l f st,
    is_callable f = true ->
    rle (AD d fr (VBuiltin B_filter) (VBuiltin B_filter) [VList l; f] st)
        (bi (AD d fr) Where (VList l) f st).
  Proof.
    intros d fr l f st Hf. rewrite Hwhere. unfold binop_impl. rewrite where_is_filter by exact Hf.
    change (bi_filter (AD d fr)) with (builtin_impl (AD d fr) B_filter). rewrite <- Hfilter.
    apply builtin2_le. reflexivity.
  Qed.

  (* `x into f` and `f(x)` are literally the same call *)
  Theorem into_form_is_call_form_gen : forall d fr x f st,
    is_callable f = true ->
    bi (AD d fr) Into x f st = AD d fr f f [x] st.
  Proof. intros d fr x f st Hf. rewrite Hinto. unfold binop_impl. apply into_is_apply. exact Hf. Qed.
End DepthGen.

Section Depth.
  Variable release : bool.
  Notation AD := (AD release binop_impl builtin_impl).

  Theorem map_form_le_via_form : forall d fr l f st,
    is_callable f = true ->
    rle (AD d fr (VBuiltin B_map) (VBuiltin B_map) [VList l; f] st)
        (binop_impl (AD d fr) Via (VList l) f st).
  Proof.
    exact (map_form_le_via_form_gen release binop_impl builtin_impl binop_impl_le builtin_impl_le
             (fun _ _ _ _ => eq_refl) (fun _ => eq_refl)).
  Qed.

  Theorem filter_form_le_where_form : forall d fr l f st,
    is_callable f = true ->
    rle (AD d fr (VBuiltin B_filter) (VBuiltin B_filter) [VList l; f] st)
        (binop_impl (AD d fr) Where (VList l) f st).
  Proof.
    exact (filter_form_le_where_form_gen release binop_impl builtin_impl binop_impl_le builtin_impl_le
             (fun _ _ _ _ => eq_refl) (fun _ => eq_refl)).
  Qed.

  Theorem into_form_is_call_form : forall d fr x f st,
    is_callable f = true ->
    binop_impl (AD d fr) Into x f st = AD d fr f f [x] st.
  Proof. exact (into_form_is_call_form_gen release binop_impl builtin_impl (fun _ _ _ _ => eq_refl)). Qed.
End Depth.
