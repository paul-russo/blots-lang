(* C13 — via / where / into agree with map / filter / application for every function.
   The property theorems and evaluated examples.  Model: Binop.v (operator forms, transcribed from
   evaluate_binary_op_ast), BuiltinsHof.v (built-in forms, transcribed from
   BuiltInFunction::call), Eval.v (FunctionDef::call with its depth accounting).
   Value-level theorems hold for EVERY callback (lambda with any parameter shape, named,
   recursive, built-in ...): the callback is a parameter. *)
From Coq Require Import String List ZArith Bool.
Require Import Blots.Num Blots.gen.Builtins Blots.Ast Blots.Value Blots.Outcome Blots.Binop
               Blots.Env Blots.Eval Blots.BuiltinsHof Blots.Program Blots.EvalInst
               Blots.EvalFull
               Blots.proofs.DepthMono Blots.proofs.HigherOrder Blots.proofs.FullHigherOrder.
Import ListNotations.

(* `list via f` runs exactly map's loop over the same callback: same results, same failure,
   same order of calls, same (item) / (item, index) argument vectors *)
Theorem C13_via_is_map : forall call powf l f st,
  is_callable f = true ->
  eval_binop store call fn_accepts2_of_value powf Via (VList l) f st = bi_map call [VList l; f] st.
Proof. exact via_is_map. Qed.
Check C13_via_is_map : forall call powf l f st,
  is_callable f = true ->
  eval_binop store call fn_accepts2_of_value powf Via (VList l) f st = bi_map call [VList l; f] st.
Print Assumptions C13_via_is_map.

Theorem C13_where_is_filter : forall call powf l f st,
  is_callable f = true ->
  eval_binop store call fn_accepts2_of_value powf Where (VList l) f st = bi_filter call [VList l; f] st.
Proof. exact where_is_filter. Qed.
Check C13_where_is_filter : forall call powf l f st,
  is_callable f = true ->
  eval_binop store call fn_accepts2_of_value powf Where (VList l) f st = bi_filter call [VList l; f] st.
Print Assumptions C13_where_is_filter.

(* `x into f` is f(x): the same FunctionDef::call *)
Theorem C13_into_is_apply : forall call powf x f st,
  is_callable f = true ->
  eval_binop store call fn_accepts2_of_value powf Into x f st = call f f [x] st.
Proof. exact into_is_apply. Qed.
Check C13_into_is_apply : forall call powf x f st,
  is_callable f = true ->
  eval_binop store call fn_accepts2_of_value powf Into x f st = call f f [x] st.
Print Assumptions C13_into_is_apply.

(* In the evaluator (depth accounting included) the built-in form costs two more levels of the
   call-depth budget than the operator form; apart from that they are the same: the built-in
   form is the depth error, or exactly the operator form's outcome and store.  (F23, the
   depth difference itself, is the open known finding of this property.) *)
Theorem C13_map_vs_via_in_evaluator : forall release d fr l f st,
  is_callable f = true ->
  rle (AD release binop_impl builtin_impl d fr (VBuiltin B_map) (VBuiltin B_map) [VList l; f] st)
      (binop_impl (AD release binop_impl builtin_impl d fr) Via (VList l) f st).
Proof. exact map_form_le_via_form. Qed.
Check C13_map_vs_via_in_evaluator : forall release d fr l f st,
  is_callable f = true ->
  rle (AD release binop_impl builtin_impl d fr (VBuiltin B_map) (VBuiltin B_map) [VList l; f] st)
      (binop_impl (AD release binop_impl builtin_impl d fr) Via (VList l) f st).
Print Assumptions C13_map_vs_via_in_evaluator.

Theorem C13_filter_vs_where_in_evaluator : forall release d fr l f st,
  is_callable f = true ->
  rle (AD release binop_impl builtin_impl d fr (VBuiltin B_filter) (VBuiltin B_filter) [VList l; f] st)
      (binop_impl (AD release binop_impl builtin_impl d fr) Where (VList l) f st).
Proof. exact filter_form_le_where_form. Qed.
Check C13_filter_vs_where_in_evaluator : forall release d fr l f st,
  is_callable f = true ->
  rle (AD release binop_impl builtin_impl d fr (VBuiltin B_filter) (VBuiltin B_filter) [VList l; f] st)
      (binop_impl (AD release binop_impl builtin_impl d fr) Where (VList l) f st).
Print Assumptions C13_filter_vs_where_in_evaluator.

Theorem C13_into_vs_call_in_evaluator : forall release d fr x f st,
  is_callable f = true ->
  binop_impl (AD release binop_impl builtin_impl d fr) Into x f st
  = AD release binop_impl builtin_impl d fr f f [x] st.
Proof. exact into_form_is_call_form. Qed.
Check C13_into_vs_call_in_evaluator : forall release d fr x f st,
  is_callable f = true ->
  binop_impl (AD release binop_impl builtin_impl d fr) Into x f st
  = AD release binop_impl builtin_impl d fr f f [x] st.
Print Assumptions C13_into_vs_call_in_evaluator.

(* ... the same three for the evaluator with every transcribed built-in (EvalFull.v) *)
Theorem C13_map_vs_via_in_full_evaluator : forall release d fr l f st,
  is_callable f = true ->
  rle (AD release binop_impl builtin_full d fr (VBuiltin B_map) (VBuiltin B_map) [VList l; f] st)
      (binop_impl (AD release binop_impl builtin_full d fr) Via (VList l) f st).
Proof. exact map_form_le_via_form_full. Qed.
Check C13_map_vs_via_in_full_evaluator : forall release d fr l f st,
  is_callable f = true ->
  rle (AD release binop_impl builtin_full d fr (VBuiltin B_map) (VBuiltin B_map) [VList l; f] st)
      (binop_impl (AD release binop_impl builtin_full d fr) Via (VList l) f st).
Print Assumptions C13_map_vs_via_in_full_evaluator.

Theorem C13_filter_vs_where_in_full_evaluator : forall release d fr l f st,
  is_callable f = true ->
  rle (AD release binop_impl builtin_full d fr (VBuiltin B_filter) (VBuiltin B_filter) [VList l; f] st)
      (binop_impl (AD release binop_impl builtin_full d fr) Where (VList l) f st).
Proof. exact filter_form_le_where_form_full. Qed.
Check C13_filter_vs_where_in_full_evaluator : forall release d fr l f st,
  is_callable f = true ->
  rle (AD release binop_impl builtin_full d fr (VBuiltin B_filter) (VBuiltin B_filter) [VList l; f] st)
      (binop_impl (AD release binop_impl builtin_full d fr) Where (VList l) f st).
Print Assumptions C13_filter_vs_where_in_full_evaluator.

Theorem C13_into_vs_call_in_full_evaluator : forall release d fr x f st,
  is_callable f = true ->
  binop_impl (AD release binop_impl builtin_full d fr) Into x f st
  = AD release binop_impl builtin_full d fr f f [x] st.
Proof. exact into_form_is_call_form_full. Qed.
Check C13_into_vs_call_in_full_evaluator : forall release d fr x f st,
  is_callable f = true ->
  binop_impl (AD release binop_impl builtin_full d fr) Into x f st
  = AD release binop_impl builtin_full d fr f f [x] st.
Print Assumptions C13_into_vs_call_in_full_evaluator.

(* Definitions met whenever the callback succeeds on all elements, i.e. behaves as a function g
   of the argument vector it is given (element, and the 0-based index when it accepts one more
   parameter), in list order. *)
Theorem C13_map_spec : forall call f g two l i st, behaves_as call f g ->
  fst (map_loop call f two l i st) = Ok (mapi_from (fun k x => g (cb_args two x k)) i l).
Proof. exact map_loop_spec. Qed.
Check C13_map_spec : forall call f g two l i st, behaves_as call f g ->
  fst (map_loop call f two l i st) = Ok (mapi_from (fun k x => g (cb_args two x k)) i l).
Print Assumptions C13_map_spec.

Theorem C13_filter_spec : forall call f g two l i st, behaves_as call f g ->
  all_bool (fun k x => g (cb_args two x k)) i l ->
  fst (filter_loop call f two l i st)
  = Ok (map snd (filter (fun kx => bool_of (g (cb_args two (snd kx) (fst kx))))
                        (mapi_from (fun k x => (k, x)) i l))).
Proof. exact filter_loop_spec. Qed.
Check C13_filter_spec : forall call f g two l i st, behaves_as call f g ->
  all_bool (fun k x => g (cb_args two x k)) i l ->
  fst (filter_loop call f two l i st)
  = Ok (map snd (filter (fun kx => bool_of (g (cb_args two (snd kx) (fst kx))))
                        (mapi_from (fun k x => (k, x)) i l))).
Print Assumptions C13_filter_spec.

Theorem C13_every_is_conjunction : forall call f g two l i st, behaves_as call f g ->
  all_bool (fun k x => g (cb_args two x k)) i l ->
  fst (every_loop call f two l i st)
  = Ok (VBool (forallb bool_of (mapi_from (fun k x => g (cb_args two x k)) i l))).
Proof. exact every_loop_spec. Qed.
Check C13_every_is_conjunction : forall call f g two l i st, behaves_as call f g ->
  all_bool (fun k x => g (cb_args two x k)) i l ->
  fst (every_loop call f two l i st)
  = Ok (VBool (forallb bool_of (mapi_from (fun k x => g (cb_args two x k)) i l))).
Print Assumptions C13_every_is_conjunction.

Theorem C13_some_is_disjunction : forall call f g two l i st, behaves_as call f g ->
  all_bool (fun k x => g (cb_args two x k)) i l ->
  fst (some_loop call f two l i st)
  = Ok (VBool (existsb bool_of (mapi_from (fun k x => g (cb_args two x k)) i l))).
Proof. exact some_loop_spec. Qed.
Check C13_some_is_disjunction : forall call f g two l i st, behaves_as call f g ->
  all_bool (fun k x => g (cb_args two x k)) i l ->
  fst (some_loop call f two l i st)
  = Ok (VBool (existsb bool_of (mapi_from (fun k x => g (cb_args two x k)) i l))).
Print Assumptions C13_some_is_disjunction.

Theorem C13_reduce_is_left_fold : forall call f g three l i acc st, behaves_as call f g ->
  fst (reduce_loop call f three l i acc st)
  = Ok (foldi_left (fun a x k => g (if three then [a; x; idx_num k] else [a; x])) l i acc).
Proof. exact reduce_loop_spec. Qed.
Check C13_reduce_is_left_fold : forall call f g three l i acc st, behaves_as call f g ->
  fst (reduce_loop call f three l i acc st)
  = Ok (foldi_left (fun a x k => g (if three then [a; x; idx_num k] else [a; x])) l i acc).
Print Assumptions C13_reduce_is_left_fold.

(* ---- F23 (open known finding): the forms do NOT agree at the depth limit ----
   g = n => if n <= 0 then 0 else ([n - 1] via g)[0]   vs   ... map([n - 1], g)[0]
   at n = 400: the via form completes, the map form is the depth error. *)
Open Scope string_scope.
Definition n_ (z : Z) : expr := ENum (num_of_Z z).
Definition rec_body (form : expr -> expr -> expr) : expr :=
  ELam [AReq "n"]
    (ECond (EBin LessEq (EId "n") (n_ 0)) (n_ 0)
       (EAccess (form (EList [Cm [] (EBin Subtract (EId "n") (n_ 1)) None]) (EId "g")) (n_ 0))).
Definition via_form (l f : expr) := EBin Via l f.
Definition map_form (l f : expr) := ECall (EBuiltin B_map) [l; f].
Definition prog_of (form : expr -> expr -> expr) : list stmt :=
  [SExpr (EAssign "g" (rec_body form)); SExpr (ECall (EId "g") [n_ 400])].
Lemma C13_depth_difference_refuted :
  snd (run eval_release (init_session []) (prog_of via_form)) <>
  snd (run eval_release (init_session []) (prog_of map_form)) /\
  (exists st, map fst (snd (run eval_release (init_session []) (prog_of map_form)))
              = [ROk (VLam 0 [AReq "n"] (cnode (Cm [] (match rec_body map_form with ELam _ b => b | e => e end) None)) []);
                 RFail ErrDepth] /\ st = tt).
Proof. split; [vm_compute; discriminate|exists tt; vm_compute; split; reflexivity]. Qed.

(* non-vacuity of `behaves_as`: a callback that returns the list of its arguments *)
Example C13_behaves_as_inhabited :
  behaves_as (fun _ _ args st => (Ok (VList args), st)) VNull (fun args => VList args).
Proof. intros args st. exists st. reflexivity. Qed.

(* ---- ... the same three for the evaluator with EVERY built-in of the table and `^` (EvalAll.v),
        for every oracle o ---- *)
Require Import Blots.EvalAll Blots.proofs.AllHigherOrder.
Theorem C13_map_vs_via_in_all_evaluator : forall o release d fr l f st,
  is_callable f = true ->
  rle (AD release (binop_all o) (builtin_all o) d fr (VBuiltin B_map) (VBuiltin B_map) [VList l; f] st)
      (binop_all o (AD release (binop_all o) (builtin_all o) d fr) Via (VList l) f st).
Proof. exact map_form_le_via_form_all. Qed.
Check C13_map_vs_via_in_all_evaluator : forall o release d fr l f st,
  is_callable f = true ->
  rle (AD release (binop_all o) (builtin_all o) d fr (VBuiltin B_map) (VBuiltin B_map) [VList l; f] st)
      (binop_all o (AD release (binop_all o) (builtin_all o) d fr) Via (VList l) f st).
Print Assumptions C13_map_vs_via_in_all_evaluator.

Theorem C13_filter_vs_where_in_all_evaluator : forall o release d fr l f st,
  is_callable f = true ->
  rle (AD release (binop_all o) (builtin_all o) d fr (VBuiltin B_filter) (VBuiltin B_filter) [VList l; f] st)
      (binop_all o (AD release (binop_all o) (builtin_all o) d fr) Where (VList l) f st).
Proof. exact filter_form_le_where_form_all. Qed.
Check C13_filter_vs_where_in_all_evaluator : forall o release d fr l f st,
  is_callable f = true ->
  rle (AD release (binop_all o) (builtin_all o) d fr (VBuiltin B_filter) (VBuiltin B_filter) [VList l; f] st)
      (binop_all o (AD release (binop_all o) (builtin_all o) d fr) Where (VList l) f st).
Print Assumptions C13_filter_vs_where_in_all_evaluator.

Theorem C13_into_vs_call_in_all_evaluator : forall o release d fr x f st,
  is_callable f = true ->
  binop_all o (AD release (binop_all o) (builtin_all o) d fr) Into x f st
  = AD release (binop_all o) (builtin_all o) d fr f f [x] st.
Proof. exact into_form_is_call_form_all. Qed.
Check C13_into_vs_call_in_all_evaluator : forall o release d fr x f st,
  is_callable f = true ->
  binop_all o (AD release (binop_all o) (builtin_all o) d fr) Into x f st
  = AD release (binop_all o) (builtin_all o) d fr f f [x] st.
Print Assumptions C13_into_vs_call_in_all_evaluator.
