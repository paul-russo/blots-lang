(* C02 — Evaluation is deterministic and free of side effects on values.
   PARTIAL by nature: (a) determinism across processes / hash seeds / earlier evaluations is a
   property of the running implementation (HashMap iteration order, allocation); every Gallina
   function is deterministic, so what the model contributes is that it consults no unordered
   iteration at all, and the correspondence (run in several processes and with a dirty heap,
   checks/c02.py) shows the implementation equals that function.  (b) "no effect on values" is
   proved: evaluation never alters an existing binding, never alters the scope chain unless the
   expression itself contains an assignment, and the only mutable attribute of an existing
   value (a function cell's name) is write-once.  (c) let-abstraction is kept as a stated Prop
   and decided by search on the implementation. *)
From Coq Require Import String List ZArith Bool.
Require Import Blots.Num Blots.gen.Builtins Blots.Ast Blots.Value Blots.Outcome Blots.Binop
               Blots.Env Blots.Eval Blots.Program Blots.EvalInst
               Blots.proofs.Frames Blots.proofs.StoreMono Blots.proofs.InstMono Blots.proofs.Scoping.
Import ListNotations.
Open Scope string_scope.

(* an expression without a direct assignment leaves the scope chain exactly as it was:
   evaluating it again starts from the same bindings *)
Theorem C02_pure_expression_keeps_scope : forall release bi bu d e c r c',
  no_assign e = true -> evalD release bi bu d c e = (r, c') -> snd c' = snd c.
Proof. exact evalD_pure_frames. Qed.
Check C02_pure_expression_keeps_scope : forall release bi bu d e c r c',
  no_assign e = true -> evalD release bi bu d c e = (r, c') -> snd c' = snd c.
Print Assumptions C02_pure_expression_keeps_scope.

(* no evaluation, pure or not, failing or not, changes the value of an existing binding *)
Theorem C02_existing_values_untouched : forall release bi bu d c e r c' x v,
  evalD release bi bu d c e = (r, c') -> lookup (snd c) x = Some v -> lookup (snd c') x = Some v.
Proof. exact evalD_binding_survives. Qed.
Check C02_existing_values_untouched : forall release bi bu d c e r c' x v,
  evalD release bi bu d c e = (r, c') -> lookup (snd c) x = Some v -> lookup (snd c') x = Some v.
Print Assumptions C02_existing_values_untouched.

(* the store (the only mutable attribute of existing values: function cell names) only grows
   and named cells keep their name *)
Theorem C02_store_only_grows : forall release d c e r c',
  evalD release binop_impl builtin_impl d c e = (r, c') -> store_le (fst c) (fst c').
Proof.
  intros release d.
  exact (evalD_store_le release binop_impl builtin_impl binop_impl_mono builtin_impl_mono d).
Qed.
Check C02_store_only_grows : forall release d c e r c',
  evalD release binop_impl builtin_impl d c e = (r, c') -> store_le (fst c) (fst c').
Print Assumptions C02_store_only_grows.

(* kept, not proved: evaluating a pure expression twice gives equal results; binding a pure,
   successfully evaluating subexpression to a fresh name and using the name in its place gives
   equal results (decided by search on the implementation, checks/c02.py) *)
Definition C02_eval_twice_full : Prop :=
  forall release d c e v1 c1 v2 c2, no_assign e = true ->
    evalD release binop_impl builtin_impl d c e = (Ok v1, c1) ->
    evalD release binop_impl builtin_impl d c1 e = (Ok v2, c2) -> equals v1 v2 = true.

(* ================================================================================================
   Extension round: the "no effect on values" clause at full strength (proofs/C02Ren.v, C02Sim.v,
   C02Ops.v, C02Keep.v, C02Twice.v, C02Let.v).

   [same_up_to_cells v1 v2]: the two values are the same tree except for the indices of function
   cells (erase = rename every index to 0); [osame] lifts it to outcomes (same class; Ok payloads
   related).  Value::equals cannot tell such values apart ([C02_equals_blind_to_cells]).
   [cfg_wf c]: the scope chain mentions only cells that exist.
   [store_keep st st1]: the store grew and every cell of st has in st1 exactly the name (or no name) it had.

   History: on the code as pinned before repo fix F52 an assignment named ANY unnamed lambda it was handed,
   so an expression could name a cell that existed before it (`do { y = fs[0]; .. }`), and evaluating
   [fs[0](1), do { y = fs[0]; return 0 }] twice gave [6, 0] and then an error (known/C02.json F52; the model of
   that code refuted the unconditional statement, lemma C02_eval_twice_unconditional_refuted of the previous
   revision of this file).  The eval-twice theorems then carried the hypothesis [old_names_kept].  With the
   repair (an assignment names a lambda only if evaluating its right-hand side created it; Env.name_if_created,
   Eval.bind_value) evaluation never writes to an existing cell ([C02_old_cells_untouched]) and the hypothesis is
   gone; the old statements are kept as corollaries ([.._names_kept]).
   ================================================================================================ *)
From Coq Require Import Lia.
Require Import Blots.EvalFull.
Require Import Blots.proofs.C02Ren Blots.proofs.C02Sim Blots.proofs.C02Ops Blots.proofs.C02Keep Blots.proofs.C02Twice.

(* STORE-EXTENSION INVARIANCE: for every injective renaming rho of cell indices and stores related by
   it, every expression (assignments included), every depth: the renamed configuration gives the
   renamed outcome and scope chain, and related stores again.  Generic in operators / built-ins that
   commute with renamings ([ops_commute]); EvalInst's do ([C02_ops_commute_evaluator]). *)
Theorem C02_store_extension_invariance : forall release bi bu, ops_commute bi bu ->
  forall rho, (forall a b : nat, rho a = rho b -> a = b) ->
  forall d e sA sB fr r sA' fr',
    sinv rho sA sB -> evalD release bi bu d (sA, fr) e = (r, (sA', fr')) ->
    exists sB', evalD release bi bu d (sB, renFr rho fr) e = (oren rho r, (sB', renFr rho fr')) /\
                sinv rho sA' sB'.
Proof. exact store_extension_invariance. Qed.
Check C02_store_extension_invariance : forall release bi bu, ops_commute bi bu ->
  forall rho, (forall a b : nat, rho a = rho b -> a = b) ->
  forall d e sA sB fr r sA' fr',
    sinv rho sA sB -> evalD release bi bu d (sA, fr) e = (r, (sA', fr')) ->
    exists sB', evalD release bi bu d (sB, renFr rho fr) e = (oren rho r, (sB', renFr rho fr')) /\
                sinv rho sA' sB'.
Print Assumptions C02_store_extension_invariance.

Theorem C02_ops_commute_evaluator : ops_commute binop_impl builtin_impl.
Proof. exact ops_commute_inst. Qed.
Check C02_ops_commute_evaluator : ops_commute binop_impl builtin_impl.
Print Assumptions C02_ops_commute_evaluator.

(* NO EVALUATION WRITES TO A CELL THAT EXISTED BEFORE IT (any expression, assignments and failures included;
   also for the full built-in dispatcher): the heap is append-only in the strict sense *)
Theorem C02_old_cells_untouched : forall release d c e r c',
  evalD release binop_impl builtin_impl d c e = (r, c') -> store_keep (fst c) (fst c').
Proof. exact evalD_store_keep. Qed.
Check C02_old_cells_untouched : forall release d c e r c',
  evalD release binop_impl builtin_impl d c e = (r, c') -> store_keep (fst c) (fst c').
Print Assumptions C02_old_cells_untouched.
Theorem C02_old_cells_untouched_full : forall release d c e r c',
  evalD release binop_impl builtin_full d c e = (r, c') -> store_keep (fst c) (fst c').
Proof. exact evalD_store_keep_full. Qed.
Check C02_old_cells_untouched_full : forall release d c e r c',
  evalD release binop_impl builtin_full d c e = (r, c') -> store_keep (fst c) (fst c').
Print Assumptions C02_old_cells_untouched_full.

(* EVAL-TWICE, exact form: the second outcome is the first with the cells of the first run moved up
   by the number of cells the first run allocated; older cells keep their index *)
Theorem C02_eval_twice_exact : forall release d e st fr r1 st1 fr1,
  no_assign e = true -> frames_lt (length st) fr = true ->
  evalD release binop_impl builtin_impl d (st, fr) e = (r1, (st1, fr1)) ->
  fr1 = fr /\
  exists st2, evalD release binop_impl builtin_impl d (st1, fr) e =
                (oren (shift (length st) (length st1 - length st)) r1, (st2, fr)) /\
              sinv (shift (length st) (length st1 - length st)) st1 st2.
Proof.
  intros release. exact (eval_twice_exact release binop_impl builtin_impl ops_commute_inst (evalD_store_keep release)).
Qed.
Check C02_eval_twice_exact : forall release d e st fr r1 st1 fr1,
  no_assign e = true -> frames_lt (length st) fr = true ->
  evalD release binop_impl builtin_impl d (st, fr) e = (r1, (st1, fr1)) ->
  fr1 = fr /\
  exists st2, evalD release binop_impl builtin_impl d (st1, fr) e =
                (oren (shift (length st) (length st1 - length st)) r1, (st2, fr)) /\
              sinv (shift (length st) (length st1 - length st)) st1 st2.
Print Assumptions C02_eval_twice_exact.

(* EVAL-TWICE: same outcome class, results equal up to the cells the evaluation itself allocated,
   scope chain untouched both times *)
Theorem C02_eval_twice : forall release d e c r1 c1 r2 c2,
  no_assign e = true -> cfg_wf c = true ->
  evalD release binop_impl builtin_impl d c e = (r1, c1) ->
  evalD release binop_impl builtin_impl d c1 e = (r2, c2) ->
  osame r1 r2 /\ snd c2 = snd c /\ snd c1 = snd c.
Proof.
  intros release. exact (eval_twice release binop_impl builtin_impl ops_commute_inst (evalD_store_keep release)).
Qed.
Check C02_eval_twice : forall release d e c r1 c1 r2 c2,
  no_assign e = true -> cfg_wf c = true ->
  evalD release binop_impl builtin_impl d c e = (r1, c1) ->
  evalD release binop_impl builtin_impl d c1 e = (r2, c2) ->
  osame r1 r2 /\ snd c2 = snd c /\ snd c1 = snd c.
Print Assumptions C02_eval_twice.

(* in terms of the language's own equality: the second result equals the first exactly when the
   first equals itself (it does not when it holds a NaN: `.==` is IEEE on numbers) *)
Theorem C02_eval_twice_equals : forall release d e c v1 c1 v2 c2,
  no_assign e = true -> cfg_wf c = true ->
  evalD release binop_impl builtin_impl d c e = (Ok v1, c1) ->
  evalD release binop_impl builtin_impl d c1 e = (Ok v2, c2) ->
  equals v1 v2 = equals v1 v1.
Proof.
  intros release. exact (eval_twice_equals release binop_impl builtin_impl ops_commute_inst (evalD_store_keep release)).
Qed.
Check C02_eval_twice_equals : forall release d e c v1 c1 v2 c2,
  no_assign e = true -> cfg_wf c = true ->
  evalD release binop_impl builtin_impl d c e = (Ok v1, c1) ->
  evalD release binop_impl builtin_impl d c1 e = (Ok v2, c2) ->
  equals v1 v2 = equals v1 v1.
Print Assumptions C02_eval_twice_equals.

(* the same for the evaluator with EVERY transcribed built-in, relative to the one hypothesis still kept as a
   Prop for it ([C02_ops_commute_full] below); the naming side condition is discharged there too *)
Theorem C02_eval_twice_full_dispatcher : ops_commute binop_impl builtin_full ->
  forall release d e c r1 c1 r2 c2,
  no_assign e = true -> cfg_wf c = true ->
  evalD release binop_impl builtin_full d c e = (r1, c1) ->
  evalD release binop_impl builtin_full d c1 e = (r2, c2) ->
  osame r1 r2 /\ snd c2 = snd c /\ snd c1 = snd c.
Proof.
  intros Hops release. exact (eval_twice release binop_impl builtin_full Hops (evalD_store_keep_full release)).
Qed.
Check C02_eval_twice_full_dispatcher : ops_commute binop_impl builtin_full ->
  forall release d e c r1 c1 r2 c2,
  no_assign e = true -> cfg_wf c = true ->
  evalD release binop_impl builtin_full d c e = (r1, c1) ->
  evalD release binop_impl builtin_full d c1 e = (r2, c2) ->
  osame r1 r2 /\ snd c2 = snd c /\ snd c1 = snd c.
Print Assumptions C02_eval_twice_full_dispatcher.

(* the statements of the previous revision (hypothesis old_names_kept / all_named), now corollaries *)
Corollary C02_eval_twice_names_kept : forall release d e c r1 c1 r2 c2,
  no_assign e = true -> cfg_wf c = true ->
  evalD release binop_impl builtin_impl d c e = (r1, c1) -> old_names_kept (fst c) (fst c1) ->
  evalD release binop_impl builtin_impl d c1 e = (r2, c2) ->
  osame r1 r2 /\ snd c2 = snd c /\ snd c1 = snd c.
Proof. intros release d e c r1 c1 r2 c2 Hna Hwf HA _ HB. exact (C02_eval_twice release d e c r1 c1 r2 c2 Hna Hwf HA HB). Qed.
Corollary C02_eval_twice_all_named : forall release d e c r1 c1 r2 c2,
  no_assign e = true -> cfg_wf c = true -> all_named (fst c) ->
  evalD release binop_impl builtin_impl d c e = (r1, c1) ->
  evalD release binop_impl builtin_impl d c1 e = (r2, c2) ->
  osame r1 r2 /\ snd c2 = snd c /\ snd c1 = snd c.
Proof. intros release d e c r1 c1 r2 c2 Hna Hwf _ HA HB. exact (C02_eval_twice release d e c r1 c1 r2 c2 Hna Hwf HA HB). Qed.
Corollary C02_eval_twice_equals_names_kept : forall release d e c v1 c1 v2 c2,
  no_assign e = true -> cfg_wf c = true ->
  evalD release binop_impl builtin_impl d c e = (Ok v1, c1) -> old_names_kept (fst c) (fst c1) ->
  evalD release binop_impl builtin_impl d c1 e = (Ok v2, c2) ->
  equals v1 v2 = equals v1 v1.
Proof. intros release d e c v1 c1 v2 c2 Hna Hwf HA _ HB. exact (C02_eval_twice_equals release d e c v1 c1 v2 c2 Hna Hwf HA HB). Qed.

Theorem C02_equals_blind_to_cells : forall rho1 rho2 a b, equals (ren rho1 a) (ren rho2 b) = equals a b.
Proof. exact equals_ren2. Qed.
Check C02_equals_blind_to_cells : forall rho1 rho2 a b, equals (ren rho1 a) (ren rho2 b) = equals a b.
Print Assumptions C02_equals_blind_to_cells.

(* ---- the statement kept above as [C02_eval_twice_full] is false as written: a NaN result is not
   `equals` to itself (the right statement is C02_eval_twice / C02_eval_twice_equals) ---- *)
Lemma C02_eval_twice_full_refuted : ~ C02_eval_twice_full.
Proof.
  intros H.
  specialize (H true 0 ([], [(FOwned, [])]) (ENum nnan) (VNum nnan) ([], [(FOwned, [])])
                (VNum nnan) ([], [(FOwned, [])]) eq_refl eq_refl eq_refl).
  vm_compute in H. discriminate H.
Qed.

(* ---- finding F52, repaired: after `fs = [x => x + y]; y = 5`, the expression
       [fs[0](1), do { y = fs[0]; return 0 }]
   used to succeed the first time and fail the second time (the do-block named the cell of fs[0] "y"; a named
   function is bound to its own name when called, which shadowed the y its body found in the caller's chain).
   With the repaired rule the cell stays anonymous and both evaluations give [6, 0]. ---- *)
Definition F52_lam : value := VLam 0 [AReq "x"] (EBin Add (EId "x") (EId "y")) [].
Definition F52_cfg : cfg := ([None], [(FOwned, [("y", VNum (num_of_Z 5)); ("fs", VList [F52_lam])])]).
Definition F52_expr : expr :=
  EList [Cm [] (ECall (EAccess (EId "fs") (ENum (num_of_Z 0))) [ENum (num_of_Z 1)]) None;
         Cm [] (EDo [Cm [] (EAssign "y" (EAccess (EId "fs") (ENum (num_of_Z 0)))) None]
                    (Cm [] (ENum (num_of_Z 0)) None)) None].
Example C02_F52_repaired :
  let r1 := evalD true binop_impl builtin_impl 3 F52_cfg F52_expr in
  let r2 := evalD true binop_impl builtin_impl 3 (snd r1) F52_expr in
  no_assign F52_expr = true /\ cfg_wf F52_cfg = true /\
  fst r1 = Ok (VList [VNum (num_of_Z 6); VNum (num_of_Z 0)]) /\ fst r2 = fst r1 /\
  lam_name (fst F52_cfg) 0 = None /\ lam_name (fst (snd r1)) 0 = None.
Proof. vm_compute. repeat split. Qed.

(* ---- the hypotheses are satisfiable on non-trivial programs ---- *)
(* scope: f = n => n + 1 (named cell 0), l = [1, 2]; expression: [map(l, f), k => f(k), l via (z => z)] —
   allocates two cells, calls a named function through a built-in and through `via` *)
Definition ex_f : value := VLam 0 [AReq "n"] (EBin Add (EId "n") (ENum (num_of_Z 1))) [].
Definition ex_cfg : cfg :=
  ([Some "f"], [(FOwned, [("l", VList [VNum (num_of_Z 1); VNum (num_of_Z 2)]); ("f", ex_f)])]).
Definition ex_expr : expr :=
  EList [Cm [] (ECall (EBuiltin B_map) [EId "l"; EId "f"]) None;
         Cm [] (ELam [AReq "k"] (ECall (EId "f") [EId "k"])) None;
         Cm [] (EBin Via (EId "l") (ELam [AReq "z"] (EId "z"))) None].
Example C02_eval_twice_example :
  no_assign ex_expr = true /\ cfg_wf ex_cfg = true /\
  let r1 := evalD true binop_impl builtin_impl 5 ex_cfg ex_expr in
  let r2 := evalD true binop_impl builtin_impl 5 (snd r1) ex_expr in
  is_ok (fst r1) = true /\ length (fst (snd r1)) = 3 /\ length (fst (snd r2)) = 5 /\
  fst r1 <> fst r2 /\ osame (fst r1) (fst r2).
Proof.
  split; [reflexivity|split; [reflexivity|]].
  vm_compute. repeat split. intros H; discriminate H.
Qed.

(* ---- LET-ABSTRACTION (proofs/C02Let.v, C02LetGen.v) ----
   In a configuration where x holds the cell-free value v that s evaluates to (the state after `x = s`),
   C[x] and C[s] give the same outcome for every HEAD context C (the occurrence is the first thing the
   context evaluates apart from literals / identifiers; once; not under a lambda or do-block):
   x + e, t + x, x[e], x.f, -x, if x then .. else .., f(x, ..), [x, ..], output x, and nestings.
   PARTIAL: the statement for arbitrary positions and several occurrences is kept as the Prop
   [C02_let_abstraction_full]; what is missing is said in proofs/C02Let.v and notes/C02.md. *)
Require Import Blots.proofs.C02Let.
Require Blots.proofs.C02LetGen.
Theorem C02_let_abstraction_head_partial : forall release d x s st st1 fr v eA eB rA cA rB cB,
  frames_lt (length st) fr = true ->
  evalD release binop_impl builtin_impl d (st, fr) (EId x) = (Ok v, (st, fr)) ->
  evalD release binop_impl builtin_impl d (st, fr) s = (Ok v, (st1, fr)) ->
  cell_free v = true ->
  hctx x s eA eB ->
  evalD release binop_impl builtin_impl d (st, fr) eA = (rA, cA) ->
  evalD release binop_impl builtin_impl d (st, fr) eB = (rB, cB) ->
  osame rA rB.
Proof.
  intros release d x s st st1 fr v eA eB rA cA rB cB Hwf Hx Hs Hv H.
  exact (C02LetGen.let_abstraction_seq release binop_impl builtin_impl ops_commute_inst C02Wf.ops_wf_inst
           (evalD_store_keep release) d x s fr v Hv st eA eB rA cA rB cB (conj Hwf (conj Hx (ex_intro _ st1 Hs)))
           (C02LetGen.hctx_sctx x s eA eB H)).
Qed.
Check C02_let_abstraction_head_partial : forall release d x s st st1 fr v eA eB rA cA rB cB,
  frames_lt (length st) fr = true ->
  evalD release binop_impl builtin_impl d (st, fr) (EId x) = (Ok v, (st, fr)) ->
  evalD release binop_impl builtin_impl d (st, fr) s = (Ok v, (st1, fr)) ->
  cell_free v = true ->
  hctx x s eA eB ->
  evalD release binop_impl builtin_impl d (st, fr) eA = (rA, cA) ->
  evalD release binop_impl builtin_impl d (st, fr) eB = (rB, cB) ->
  osame rA rB.
Print Assumptions C02_let_abstraction_head_partial.

Definition C02_let_abstraction_full : Prop := let_abstraction_full_stmt.

(* kept, not proved: the operator / built-in hypothesis for the FULL built-in dispatcher (EvalFull.v);
   every theorem above that is generic in [ops_commute] holds for it as soon as this does *)
Definition C02_ops_commute_full : Prop := ops_commute binop_impl builtin_full.

(* the hypotheses of the let-abstraction theorem on a non-trivial program:
   scope t = [3, 4], x = [4, 5] (the value of  t + 1); s = t + 1;  C = f(□, 2)[0] with f = (a, b) => a * b *)
Definition lx_f : value := VLam 0 [AReq "a"; AReq "b"] (EBin Multiply (EId "a") (EId "b")) [].
Definition lx_st : store := [Some "f"].
Definition lx_fr : frames :=
  [(FOwned, [("x", VList [VNum (num_of_Z 4); VNum (num_of_Z 5)]);
             ("t", VList [VNum (num_of_Z 3); VNum (num_of_Z 4)]); ("f", lx_f)])].
Definition lx_s : expr := EBin Add (EId "t") (ENum (num_of_Z 1)).
Definition lx_C (h : expr) : expr := EAccess (ECall (EId "f") [h; ENum (num_of_Z 2)]) (ENum (num_of_Z 0)).
Example C02_let_abstraction_example :
  hctx "x" lx_s (lx_C (EId "x")) (lx_C lx_s) /\
  frames_lt (length lx_st) lx_fr = true /\
  evalD true binop_impl builtin_impl 4 (lx_st, lx_fr) (EId "x") =
    (Ok (VList [VNum (num_of_Z 4); VNum (num_of_Z 5)]), (lx_st, lx_fr)) /\
  evalD true binop_impl builtin_impl 4 (lx_st, lx_fr) lx_s =
    (Ok (VList [VNum (num_of_Z 4); VNum (num_of_Z 5)]), (lx_st, lx_fr)) /\
  cell_free (VList [VNum (num_of_Z 4); VNum (num_of_Z 5)]) = true /\
  fst (evalD true binop_impl builtin_impl 4 (lx_st, lx_fr) (lx_C lx_s)) = Ok (VNum (num_of_Z 8)).
Proof.
  split; [unfold lx_C; apply H_accl; apply H_call; [exact I|apply H_hole]|].
  vm_compute. repeat split.
Qed.

(* ================================================================================================
   REL round: the operator / built-in hypothesis for the FULL dispatcher is PROVED
   (proofs/RelPure.v: every pure arm of EvalFull.builtin_full and sort_by / group_by / count_by respect
   any structural value relation; proofs/C02OpsFull.v: the instance "renamed by rho" + store invariant).
   unique / includes are included: Value::equals is blind to cell indices.  Hence the generic theorems
   above hold for the evaluator the EVAL correspondence streams actually run (EvalFull.eval_full).
   ================================================================================================ *)
Require Import Blots.proofs.C02OpsFull.

Theorem C02_ops_commute_full_proved : C02_ops_commute_full.
Proof. exact ops_commute_full. Qed.
Check C02_ops_commute_full_proved : ops_commute binop_impl builtin_full.
Print Assumptions C02_ops_commute_full_proved.

Theorem C02_store_extension_invariance_full : forall release rho, (forall a b : nat, rho a = rho b -> a = b) ->
  forall d e sA sB fr r sA' fr',
    sinv rho sA sB -> evalD release binop_impl builtin_full d (sA, fr) e = (r, (sA', fr')) ->
    exists sB', evalD release binop_impl builtin_full d (sB, renFr rho fr) e = (oren rho r, (sB', renFr rho fr')) /\
                sinv rho sA' sB'.
Proof. intros release. exact (store_extension_invariance release binop_impl builtin_full ops_commute_full). Qed.
Check C02_store_extension_invariance_full : forall release rho, (forall a b : nat, rho a = rho b -> a = b) ->
  forall d e sA sB fr r sA' fr',
    sinv rho sA sB -> evalD release binop_impl builtin_full d (sA, fr) e = (r, (sA', fr')) ->
    exists sB', evalD release binop_impl builtin_full d (sB, renFr rho fr) e = (oren rho r, (sB', renFr rho fr')) /\
                sinv rho sA' sB'.
Print Assumptions C02_store_extension_invariance_full.

(* with the repaired naming rule (F52) there is no side condition on names: [C02_eval_twice_full_dispatcher]
   above, with its hypothesis discharged *)
Theorem C02_eval_twice_exact_full : forall release d e st fr r1 st1 fr1,
  no_assign e = true -> frames_lt (length st) fr = true ->
  evalD release binop_impl builtin_full d (st, fr) e = (r1, (st1, fr1)) ->
  fr1 = fr /\
  exists st2, evalD release binop_impl builtin_full d (st1, fr) e =
                (oren (shift (length st) (length st1 - length st)) r1, (st2, fr)) /\
              sinv (shift (length st) (length st1 - length st)) st1 st2.
Proof.
  intros release. exact (eval_twice_exact release binop_impl builtin_full ops_commute_full (evalD_store_keep_full release)).
Qed.
Check C02_eval_twice_exact_full : forall release d e st fr r1 st1 fr1,
  no_assign e = true -> frames_lt (length st) fr = true ->
  evalD release binop_impl builtin_full d (st, fr) e = (r1, (st1, fr1)) ->
  fr1 = fr /\
  exists st2, evalD release binop_impl builtin_full d (st1, fr) e =
                (oren (shift (length st) (length st1 - length st)) r1, (st2, fr)) /\
              sinv (shift (length st) (length st1 - length st)) st1 st2.
Print Assumptions C02_eval_twice_exact_full.

Theorem C02_eval_twice_fullbi : forall release d e c r1 c1 r2 c2,
  no_assign e = true -> cfg_wf c = true ->
  evalD release binop_impl builtin_full d c e = (r1, c1) ->
  evalD release binop_impl builtin_full d c1 e = (r2, c2) ->
  osame r1 r2 /\ snd c2 = snd c /\ snd c1 = snd c.
Proof.
  intros release. exact (eval_twice release binop_impl builtin_full ops_commute_full (evalD_store_keep_full release)).
Qed.
Check C02_eval_twice_fullbi : forall release d e c r1 c1 r2 c2,
  no_assign e = true -> cfg_wf c = true ->
  evalD release binop_impl builtin_full d c e = (r1, c1) ->
  evalD release binop_impl builtin_full d c1 e = (r2, c2) ->
  osame r1 r2 /\ snd c2 = snd c /\ snd c1 = snd c.
Print Assumptions C02_eval_twice_fullbi.

Theorem C02_eval_twice_equals_fullbi : forall release d e c v1 c1 v2 c2,
  no_assign e = true -> cfg_wf c = true ->
  evalD release binop_impl builtin_full d c e = (Ok v1, c1) ->
  evalD release binop_impl builtin_full d c1 e = (Ok v2, c2) ->
  equals v1 v2 = equals v1 v1.
Proof.
  intros release. exact (eval_twice_equals release binop_impl builtin_full ops_commute_full (evalD_store_keep_full release)).
Qed.
Check C02_eval_twice_equals_fullbi : forall release d e c v1 c1 v2 c2,
  no_assign e = true -> cfg_wf c = true ->
  evalD release binop_impl builtin_full d c e = (Ok v1, c1) ->
  evalD release binop_impl builtin_full d c1 e = (Ok v2, c2) ->
  equals v1 v2 = equals v1 v1.
Print Assumptions C02_eval_twice_equals_fullbi.

Theorem C02_let_abstraction_head_partial_fullbi : forall release d x s st st1 fr v eA eB rA cA rB cB,
  frames_lt (length st) fr = true ->
  evalD release binop_impl builtin_full d (st, fr) (EId x) = (Ok v, (st, fr)) ->
  evalD release binop_impl builtin_full d (st, fr) s = (Ok v, (st1, fr)) ->
  cell_free v = true ->
  hctx x s eA eB ->
  evalD release binop_impl builtin_full d (st, fr) eA = (rA, cA) ->
  evalD release binop_impl builtin_full d (st, fr) eB = (rB, cB) ->
  osame rA rB.
Proof.
  intros release d x s st st1 fr v eA eB rA cA rB cB Hwf Hx Hs Hv H.
  exact (C02LetGen.let_abstraction_seq release binop_impl builtin_full ops_commute_full C02Wf.ops_wf_full
           (evalD_store_keep_full release) d x s fr v Hv st eA eB rA cA rB cB (conj Hwf (conj Hx (ex_intro _ st1 Hs)))
           (C02LetGen.hctx_sctx x s eA eB H)).
Qed.
Check C02_let_abstraction_head_partial_fullbi : forall release d x s st st1 fr v eA eB rA cA rB cB,
  frames_lt (length st) fr = true ->
  evalD release binop_impl builtin_full d (st, fr) (EId x) = (Ok v, (st, fr)) ->
  evalD release binop_impl builtin_full d (st, fr) s = (Ok v, (st1, fr)) ->
  cell_free v = true ->
  hctx x s eA eB ->
  evalD release binop_impl builtin_full d (st, fr) eA = (rA, cA) ->
  evalD release binop_impl builtin_full d (st, fr) eB = (rB, cB) ->
  osame rA rB.
Print Assumptions C02_let_abstraction_head_partial_fullbi.

(* the hypotheses are satisfiable on a program that uses the newly covered built-ins: sort_by with a fresh
   closure as key function, unique over a list holding function values, sum, group_by through a named function *)
Definition exf_cfg : cfg :=
  ([Some "f"], [(FOwned, [("l", VList [VNum (num_of_Z 3); VNum (num_of_Z 1); VNum (num_of_Z 3)]); ("f", ex_f)])]).
Definition exf_expr : expr :=
  EList [Cm [] (ECall (EBuiltin B_sort_by) [EId "l"; ELam [AReq "k"] (EUn Negate (EId "k"))]) None;
         Cm [] (ECall (EBuiltin B_unique) [EList [Cm [] (EId "f") None; Cm [] (ELam [AReq "z"] (EId "z")) None;
                                                  Cm [] (EId "f") None]]) None;
         Cm [] (ECall (EBuiltin B_sum) [ECall (EBuiltin B_map) [EId "l"; EId "f"]]) None;
         Cm [] (ECall (EBuiltin B_group_by) [EId "l"; ELam [AReq "k"] (ECall (EBuiltin B_to_string) [EId "k"])]) None].
Example C02_eval_twice_fullbi_example :
  no_assign exf_expr = true /\ cfg_wf exf_cfg = true /\ all_named (fst exf_cfg) /\
  let r1 := evalD true binop_impl builtin_full 6 exf_cfg exf_expr in
  let r2 := evalD true binop_impl builtin_full 6 (snd r1) exf_expr in
  is_ok (fst r1) = true /\ length (fst (snd r1)) = 4 /\ length (fst (snd r2)) = 7 /\
  fst r1 <> fst r2 /\ osame (fst r1) (fst r2).
Proof.
  split; [reflexivity|split; [reflexivity|split]].
  - intros [|id] Hid; [discriminate|cbn in Hid; lia].
  - vm_compute. repeat split. intros H; discriminate H.
Qed.

(* No pure built-in observes the IDENTITY of a function cell (proofs/C02Blind.v; a third instance of
   RelPure.v): argument vectors that are equal after erasing every cell index — which includes
   [f0, f0] versus [f0, f1], a pair no renaming relates — give outcomes equal up to cell indices, for each of
   the 32 pure arms of EvalFull.builtin_full (RelPure.pure_arm_of: aggregates, list / string / record
   built-ins incl. unique includes sort, convert round random to_number to_string join). *)
Require Import Blots.proofs.RelPure Blots.proofs.C02Blind.
Theorem C02_pure_builtins_blind_to_cells : forall b f, pure_arm_of b = Some f ->
  forall args args', Forall2 same_up_to_cells args args' -> osame (f args) (f args').
Proof. exact pure_builtins_blind_to_cells. Qed.
Check C02_pure_builtins_blind_to_cells : forall b f, pure_arm_of b = Some f ->
  forall args args', Forall2 same_up_to_cells args args' -> osame (f args) (f args').
Print Assumptions C02_pure_builtins_blind_to_cells.
Example C02_pure_arm_table_size :
  length (filter (fun b => match pure_arm_of b with Some _ => true | None => false end) all_builtins) = 32.
Proof. vm_compute. reflexivity. Qed.

(* The classification of the built-in arms that the parametricity proofs rest on (RelTable.v: which arms apply
   Value::equals, which apply Value::compare, which call a function value) agrees with the SOURCE TEXT of
   BuiltInFunction::call (coq/gen/ArmObservers.v, regenerated from blots-core/src/functions.rs on every run;
   exhaustive over the regenerated built-in table), and every arm outside [calls_back] ignores its callback in the model. *)
Require Import Blots.gen.ArmObservers Blots.RelTable.
Theorem C02_arm_observers_match_source : forall b,
  src_applies_equals b = equals_based b /\ src_applies_compare b = compare_based b /\
  src_calls_function b = calls_back b.
Proof. destruct b; repeat split. Qed.
Check C02_arm_observers_match_source : forall b,
  src_applies_equals b = equals_based b /\ src_applies_compare b = compare_based b /\
  src_calls_function b = calls_back b.
Print Assumptions C02_arm_observers_match_source.
Theorem C02_other_arms_ignore_callback : forall b, src_calls_function b = false ->
  forall cb cb' args st, builtin_full cb b args st = builtin_full cb' b args st.
Proof.
  intros b H. apply builtin_full_ignores_callback. destruct (C02_arm_observers_match_source b) as (_ & _ & E).
  rewrite <- E. exact H.
Qed.
Check C02_other_arms_ignore_callback : forall b, src_calls_function b = false ->
  forall cb cb' args st, builtin_full cb b args st = builtin_full cb' b args st.
Print Assumptions C02_other_arms_ignore_callback.

(* ================================================================================================
   LET round (proofs/C02Wf.v): WELL-FORMEDNESS IS AN INVARIANT.  [cfg_wf] (the scope chain mentions
   existing function cells only) was a hypothesis on the starting configuration of the eval-twice /
   let-abstraction theorems.  It is preserved by every evaluation (all expression forms, FunctionDef::call,
   every depth), every result mentions existing cells only and the store never shrinks — for every
   operator / built-in implementation that creates no dangling cell ([ops_wf], discharged for binop_impl,
   builtin_impl, builtin_full) — hence it holds after ANY statement sequence from the initial
   configuration, and eval-twice holds there without any hypothesis on the configuration.
   ================================================================================================ *)
Require Import Blots.proofs.C02Wf.

Theorem C02_cfg_wf_preserved_generic : forall release bi bu, ops_wf bi bu ->
  forall d e c, wfc c ->
    let x := evalD release bi bu d c e in
    length (fst c) <= length (fst (snd x)) /\ wfc (snd x) /\
    (forall v, fst x = Ok v -> ids_lt (length (fst (snd x))) v = true).
Proof. intros release bi bu [H1 H2] d e c Hc. exact (evalD_wf release bi bu H1 H2 d e c Hc). Qed.
Check C02_cfg_wf_preserved_generic : forall release bi bu, ops_wf bi bu ->
  forall d e c, wfc c ->
    let x := evalD release bi bu d c e in
    length (fst c) <= length (fst (snd x)) /\ wfc (snd x) /\
    (forall v, fst x = Ok v -> ids_lt (length (fst (snd x))) v = true).
Print Assumptions C02_cfg_wf_preserved_generic.

Theorem C02_ops_create_no_dangling_cell : ops_wf binop_impl builtin_impl /\ ops_wf binop_impl builtin_full.
Proof. split; [exact ops_wf_inst|exact ops_wf_full]. Qed.
Check C02_ops_create_no_dangling_cell : ops_wf binop_impl builtin_impl /\ ops_wf binop_impl builtin_full.
Print Assumptions C02_ops_create_no_dangling_cell.

Theorem C02_cfg_wf_preserved : forall release d e c r c',
  cfg_wf c = true -> evalD release binop_impl builtin_impl d c e = (r, c') ->
  cfg_wf c' = true /\ length (fst c) <= length (fst c') /\ (forall v, r = Ok v -> ids_lt (length (fst c')) v = true).
Proof. intros release. exact (evalD_cfg_wf release binop_impl builtin_impl ops_wf_inst). Qed.
Check C02_cfg_wf_preserved : forall release d e c r c',
  cfg_wf c = true -> evalD release binop_impl builtin_impl d c e = (r, c') ->
  cfg_wf c' = true /\ length (fst c) <= length (fst c') /\ (forall v, r = Ok v -> ids_lt (length (fst c')) v = true).
Print Assumptions C02_cfg_wf_preserved.

Theorem C02_cfg_wf_preserved_fullbi : forall release d e c r c',
  cfg_wf c = true -> evalD release binop_impl builtin_full d c e = (r, c') ->
  cfg_wf c' = true /\ length (fst c) <= length (fst c') /\ (forall v, r = Ok v -> ids_lt (length (fst c')) v = true).
Proof. intros release. exact (evalD_cfg_wf release binop_impl builtin_full ops_wf_full). Qed.
Check C02_cfg_wf_preserved_fullbi : forall release d e c r c',
  cfg_wf c = true -> evalD release binop_impl builtin_full d c e = (r, c') ->
  cfg_wf c' = true /\ length (fst c) <= length (fst c') /\ (forall v, r = Ok v -> ids_lt (length (fst c')) v = true).
Print Assumptions C02_cfg_wf_preserved_fullbi.

(* after any program (CLI loop: stops at the first failing statement) and after every statement of a session
   (failures included), from the initial configuration with function-free inputs *)
Theorem C02_cfg_wf_after_any_program : forall release d0 inputs prog,
  frame_lt 0 inputs = true ->
  cfg_wf (s_cfg (fst (run (evalD release binop_impl builtin_full d0) (init_session inputs) prog))) = true /\
  forall stop, Forall (fun rc => cfg_wf (snd rc) = true)
                      (run_trace (evalD release binop_impl builtin_full d0) stop (init_session inputs) prog).
Proof.
  intros release d0 inputs prog Hi. split; [exact (program_cfg_wf release _ _ ops_wf_full d0 inputs prog Hi)|].
  intros stop. exact (session_cfg_wf release _ _ ops_wf_full d0 stop inputs prog Hi).
Qed.
Check C02_cfg_wf_after_any_program : forall release d0 inputs prog,
  frame_lt 0 inputs = true ->
  cfg_wf (s_cfg (fst (run (evalD release binop_impl builtin_full d0) (init_session inputs) prog))) = true /\
  forall stop, Forall (fun rc => cfg_wf (snd rc) = true)
                      (run_trace (evalD release binop_impl builtin_full d0) stop (init_session inputs) prog).
Print Assumptions C02_cfg_wf_after_any_program.

Theorem C02_eval_twice_after_any_program : forall release d0 d inputs prog e r1 c1 r2 c2,
  frame_lt 0 inputs = true -> no_assign e = true ->
  let c := s_cfg (fst (run (evalD release binop_impl builtin_impl d0) (init_session inputs) prog)) in
  evalD release binop_impl builtin_impl d c e = (r1, c1) ->
  evalD release binop_impl builtin_impl d c1 e = (r2, c2) ->
  osame r1 r2 /\ snd c2 = snd c /\ snd c1 = snd c.
Proof.
  intros release.
  exact (eval_twice_after_any_program release binop_impl builtin_impl ops_wf_inst ops_commute_inst (evalD_store_keep release)).
Qed.
Check C02_eval_twice_after_any_program : forall release d0 d inputs prog e r1 c1 r2 c2,
  frame_lt 0 inputs = true -> no_assign e = true ->
  let c := s_cfg (fst (run (evalD release binop_impl builtin_impl d0) (init_session inputs) prog)) in
  evalD release binop_impl builtin_impl d c e = (r1, c1) ->
  evalD release binop_impl builtin_impl d c1 e = (r2, c2) ->
  osame r1 r2 /\ snd c2 = snd c /\ snd c1 = snd c.
Print Assumptions C02_eval_twice_after_any_program.

Theorem C02_eval_twice_after_any_program_fullbi : forall release d0 d inputs prog e r1 c1 r2 c2,
  frame_lt 0 inputs = true -> no_assign e = true ->
  let c := s_cfg (fst (run (evalD release binop_impl builtin_full d0) (init_session inputs) prog)) in
  evalD release binop_impl builtin_full d c e = (r1, c1) ->
  evalD release binop_impl builtin_full d c1 e = (r2, c2) ->
  osame r1 r2 /\ snd c2 = snd c /\ snd c1 = snd c.
Proof.
  intros release.
  exact (eval_twice_after_any_program release binop_impl builtin_full ops_wf_full ops_commute_full (evalD_store_keep_full release)).
Qed.
Check C02_eval_twice_after_any_program_fullbi : forall release d0 d inputs prog e r1 c1 r2 c2,
  frame_lt 0 inputs = true -> no_assign e = true ->
  let c := s_cfg (fst (run (evalD release binop_impl builtin_full d0) (init_session inputs) prog)) in
  evalD release binop_impl builtin_full d c e = (r1, c1) ->
  evalD release binop_impl builtin_full d c1 e = (r2, c2) ->
  osame r1 r2 /\ snd c2 = snd c /\ snd c1 = snd c.
Print Assumptions C02_eval_twice_after_any_program_fullbi.

(* a program that creates named and anonymous closures (one of them inside a do-block, one through map), then an
   assignment-free expression evaluated twice after it: 3 cells after the program, 2 more per evaluation *)
Definition wfx_prog : list stmt :=
  [SExpr (EAssign "k" (ENum (num_of_Z 2)));
   SExpr (EAssign "f" (ELam [AReq "a"] (EBin Multiply (EId "a") (EId "k"))));
   SExpr (EAssign "gs" (EList [Cm [] (ELam [AReq "b"] (ECall (EId "f") [EId "b"])) None;
                               Cm [] (EDo [Cm [] (EAssign "h" (ELam [AReq "c"] (EId "c"))) None]
                                          (Cm [] (EId "h") None)) None]))].
Definition wfx_expr : expr :=
  EList [Cm [] (ECall (EBuiltin B_map) [EList [Cm [] (ENum (num_of_Z 1)) None]; EAccess (EId "gs") (ENum (num_of_Z 0))]) None;
         Cm [] (ELam [AReq "z"] (ECall (EId "f") [EId "z"])) None;
         Cm [] (ECall (EBuiltin B_sort_by) [EList [Cm [] (ENum (num_of_Z 3)) None; Cm [] (ENum (num_of_Z 1)) None];
                                            ELam [AReq "q"] (EUn Negate (EId "q"))]) None].
Example C02_eval_twice_after_program_example :
  let c := s_cfg (fst (run (evalD true binop_impl builtin_full 8) (init_session []) wfx_prog)) in
  let r1 := evalD true binop_impl builtin_full 8 c wfx_expr in
  let r2 := evalD true binop_impl builtin_full 8 (snd r1) wfx_expr in
  no_assign wfx_expr = true /\ length (fst c) = 3 /\ cfg_wf c = true /\
  is_ok (fst r1) = true /\ length (fst (snd r1)) = 5 /\ length (fst (snd r2)) = 7 /\
  fst r1 <> fst r2 /\ osame (fst r1) (fst r2).
Proof. vm_compute. repeat split. intros H; discriminate H. Qed.

(* ================================================================================================
   LET round, second part (proofs/C02LetGen.v): LET-ABSTRACTION BEYOND HEAD CONTEXTS.
   Same setting as C02_let_abstraction_head_partial (x holds the cell-free value v that s evaluates to), but
   the occurrence may come AFTER arbitrary assignment-free siblings (which may allocate cells, call functions,
   fail), inside any call argument / list item / right operand / index, in the callee, and inside a
   conditional branch that is taken or not taken ([sctx]; every head context is one: C02_hctx_is_sctx).
   Uses the invariant of the first part (intermediate values mention existing cells only) and a renaming chosen
   at the occurrence.  PARTIAL with respect to [C02_let_abstraction_full] (several occurrences; lambdas /
   do-blocks) and to the two-statement formulation [C02_let_program_full] (needs [C02_weakening_full]).
   ================================================================================================ *)
Require Import Blots.proofs.C02LetGen.

Theorem C02_let_abstraction_seq_partial : forall release d x s st st1 fr v eA eB rA cA rB cB,
  frames_lt (length st) fr = true ->
  evalD release binop_impl builtin_impl d (st, fr) (EId x) = (Ok v, (st, fr)) ->
  evalD release binop_impl builtin_impl d (st, fr) s = (Ok v, (st1, fr)) ->
  cell_free v = true ->
  sctx x s eA eB ->
  evalD release binop_impl builtin_impl d (st, fr) eA = (rA, cA) ->
  evalD release binop_impl builtin_impl d (st, fr) eB = (rB, cB) ->
  osame rA rB.
Proof.
  intros release d x s st st1 fr v eA eB rA cA rB cB Hwf Hx Hs Hv.
  exact (let_abstraction_seq release binop_impl builtin_impl ops_commute_inst ops_wf_inst (evalD_store_keep release)
           d x s fr v Hv st eA eB rA cA rB cB (conj Hwf (conj Hx (ex_intro _ st1 Hs)))).
Qed.
Check C02_let_abstraction_seq_partial : forall release d x s st st1 fr v eA eB rA cA rB cB,
  frames_lt (length st) fr = true ->
  evalD release binop_impl builtin_impl d (st, fr) (EId x) = (Ok v, (st, fr)) ->
  evalD release binop_impl builtin_impl d (st, fr) s = (Ok v, (st1, fr)) ->
  cell_free v = true ->
  sctx x s eA eB ->
  evalD release binop_impl builtin_impl d (st, fr) eA = (rA, cA) ->
  evalD release binop_impl builtin_impl d (st, fr) eB = (rB, cB) ->
  osame rA rB.
Print Assumptions C02_let_abstraction_seq_partial.

Theorem C02_let_abstraction_seq_partial_fullbi : forall release d x s st st1 fr v eA eB rA cA rB cB,
  frames_lt (length st) fr = true ->
  evalD release binop_impl builtin_full d (st, fr) (EId x) = (Ok v, (st, fr)) ->
  evalD release binop_impl builtin_full d (st, fr) s = (Ok v, (st1, fr)) ->
  cell_free v = true ->
  sctx x s eA eB ->
  evalD release binop_impl builtin_full d (st, fr) eA = (rA, cA) ->
  evalD release binop_impl builtin_full d (st, fr) eB = (rB, cB) ->
  osame rA rB.
Proof.
  intros release d x s st st1 fr v eA eB rA cA rB cB Hwf Hx Hs Hv.
  exact (let_abstraction_seq release binop_impl builtin_full ops_commute_full ops_wf_full (evalD_store_keep_full release)
           d x s fr v Hv st eA eB rA cA rB cB (conj Hwf (conj Hx (ex_intro _ st1 Hs)))).
Qed.
Check C02_let_abstraction_seq_partial_fullbi : forall release d x s st st1 fr v eA eB rA cA rB cB,
  frames_lt (length st) fr = true ->
  evalD release binop_impl builtin_full d (st, fr) (EId x) = (Ok v, (st, fr)) ->
  evalD release binop_impl builtin_full d (st, fr) s = (Ok v, (st1, fr)) ->
  cell_free v = true ->
  sctx x s eA eB ->
  evalD release binop_impl builtin_full d (st, fr) eA = (rA, cA) ->
  evalD release binop_impl builtin_full d (st, fr) eB = (rB, cB) ->
  osame rA rB.
Print Assumptions C02_let_abstraction_seq_partial_fullbi.

(* generic form: any operators / built-ins that commute with renamings, create no dangling cell and never
   write to an existing cell *)
Theorem C02_let_abstraction_seq_generic : forall release bi bu,
  ops_commute bi bu -> ops_wf bi bu ->
  (forall d c e r c', evalD release bi bu d c e = (r, c') -> store_keep (fst c) (fst c')) ->
  forall d x s fr v, cell_free v = true ->
  forall st eA eB rA cA rB cB,
    Inv release bi bu d x s fr v st -> sctx x s eA eB ->
    evalD release bi bu d (st, fr) eA = (rA, cA) -> evalD release bi bu d (st, fr) eB = (rB, cB) ->
    osame rA rB.
Proof. exact let_abstraction_seq. Qed.
Check C02_let_abstraction_seq_generic : forall release bi bu,
  ops_commute bi bu -> ops_wf bi bu ->
  (forall d c e r c', evalD release bi bu d c e = (r, c') -> store_keep (fst c) (fst c')) ->
  forall d x s fr v, cell_free v = true ->
  forall st eA eB rA cA rB cB,
    Inv release bi bu d x s fr v st -> sctx x s eA eB ->
    evalD release bi bu d (st, fr) eA = (rA, cA) -> evalD release bi bu d (st, fr) eB = (rB, cB) ->
    osame rA rB.
Print Assumptions C02_let_abstraction_seq_generic.

(* success is preserved in both directions in this setting (s is known to succeed wherever the context can
   reach it); pre-emption of an earlier error of C by an error of s belongs to the two-statement formulation *)
Theorem C02_let_abstraction_seq_success : forall release d x s st st1 fr v eA eB,
  frames_lt (length st) fr = true ->
  evalD release binop_impl builtin_full d (st, fr) (EId x) = (Ok v, (st, fr)) ->
  evalD release binop_impl builtin_full d (st, fr) s = (Ok v, (st1, fr)) ->
  cell_free v = true ->
  sctx x s eA eB ->
  is_ok (fst (evalD release binop_impl builtin_full d (st, fr) eA)) =
  is_ok (fst (evalD release binop_impl builtin_full d (st, fr) eB)).
Proof.
  intros release d x s st st1 fr v eA eB Hwf Hx Hs Hv.
  exact (let_abstraction_seq_success release binop_impl builtin_full ops_commute_full ops_wf_full
           (evalD_store_keep_full release) d x s fr v Hv st eA eB (conj Hwf (conj Hx (ex_intro _ st1 Hs)))).
Qed.
Check C02_let_abstraction_seq_success : forall release d x s st st1 fr v eA eB,
  frames_lt (length st) fr = true ->
  evalD release binop_impl builtin_full d (st, fr) (EId x) = (Ok v, (st, fr)) ->
  evalD release binop_impl builtin_full d (st, fr) s = (Ok v, (st1, fr)) ->
  cell_free v = true ->
  sctx x s eA eB ->
  is_ok (fst (evalD release binop_impl builtin_full d (st, fr) eA)) =
  is_ok (fst (evalD release binop_impl builtin_full d (st, fr) eB)).
Print Assumptions C02_let_abstraction_seq_success.

Theorem C02_hctx_is_sctx : forall x s a b, hctx x s a b -> sctx x s a b.
Proof. exact hctx_sctx. Qed.
Check C02_hctx_is_sctx : forall x s a b, hctx x s a b -> sctx x s a b.
Print Assumptions C02_hctx_is_sctx.

(* kept, not proved *)
Definition C02_weakening_full : Prop := weakening_stmt.
Definition C02_let_program_full : Prop := let_program_stmt.

(* the hypotheses on a non-head context: scope of C02_let_abstraction_example (t = [3, 4], x = [4, 5], f = (a, b) => a * b);
   s = t + 1;  C = map([1], z => z)[0] + (if f((q => q)(2), □)[0] > 0 then f((q => q)(2), □)... — here:
   C = map([1], z => z)[0] + f((q => q)(2), □)[0]: two cells are allocated and two calls made BEFORE the occurrence,
   which sits in the second argument of a call inside an index inside a right operand *)
Definition sx_sib : expr :=
  EAccess (ECall (EBuiltin B_map) [EList [Cm [] (ENum (num_of_Z 1)) None]; ELam [AReq "z"] (EId "z")]) (ENum (num_of_Z 0)).
Definition sx_arg0 : expr := ECall (ELam [AReq "q"] (EId "q")) [ENum (num_of_Z 2)].
Definition sx_C (h : expr) : expr :=
  EBin Add sx_sib (EAccess (ECall (EId "f") ([sx_arg0] ++ h :: [])) (ENum (num_of_Z 0))).
(* ... and one where the branch holding the occurrence is not taken *)
Definition sx_C2 (h : expr) : expr := ECond (EBin Less sx_sib (ENum (num_of_Z 0))) h (ENum (num_of_Z 7)).
Example C02_let_abstraction_seq_example :
  sctx "x" lx_s (sx_C (EId "x")) (sx_C lx_s) /\ sctx "x" lx_s (sx_C2 (EId "x")) (sx_C2 lx_s) /\
  frames_lt (length lx_st) lx_fr = true /\
  evalD true binop_impl builtin_impl 4 (lx_st, lx_fr) (EId "x") =
    (Ok (VList [VNum (num_of_Z 4); VNum (num_of_Z 5)]), (lx_st, lx_fr)) /\
  evalD true binop_impl builtin_impl 4 (lx_st, lx_fr) lx_s =
    (Ok (VList [VNum (num_of_Z 4); VNum (num_of_Z 5)]), (lx_st, lx_fr)) /\
  fst (evalD true binop_impl builtin_impl 4 (lx_st, lx_fr) (sx_C lx_s)) = Ok (VNum (num_of_Z 9)) /\
  length (fst (snd (evalD true binop_impl builtin_impl 4 (lx_st, lx_fr) (sx_C lx_s)))) = 3 /\
  fst (evalD true binop_impl builtin_impl 4 (lx_st, lx_fr) (sx_C2 lx_s)) = Ok (VNum (num_of_Z 7)).
Proof.
  split; [unfold sx_C; apply S_binr; [reflexivity|]; apply S_accl;
          apply (S_calla "x" lx_s (EId "f") [sx_arg0]); [reflexivity|repeat constructor|apply S_hole]|].
  split; [unfold sx_C2; apply S_then; [reflexivity|apply S_hole]|].
  vm_compute. repeat split.
Qed.

(* ================================================================================================
   LET2 round (proofs/C02Weak.v, proofs/C02LetProg.v): WEAKENING and the TWO-STATEMENT LET LAW.
   [nocc x e]: x occurs nowhere in e — not as an identifier, `{x}` key, assignment target or parameter;
   [vnm x v] / [frames_nm x fr]: no function value inside v / reachable from fr has x as a parameter or
   occurring in its body (hereditarily through lists, records, captured scopes).
   ================================================================================================ *)
Require Import Blots.proofs.C02Weak Blots.proofs.C02LetProg.

(* operators / built-ins create no mention of a name and use their callback parametrically on values that do
   not mention it: GenOps.v / AllGenClosed.v instantiated with the store-independent predicate [vok x] *)
Theorem C02_ops_create_no_mention : ops_nm binop_impl builtin_impl /\ ops_nm binop_impl builtin_full.
Proof. exact (conj ops_nm_inst ops_nm_full). Qed.
Check C02_ops_create_no_mention : ops_nm binop_impl builtin_impl /\ ops_nm binop_impl builtin_full.
Print Assumptions C02_ops_create_no_mention.

(* WEAKENING, general form: ANY expression that does not mention x (assignments, do-blocks, calls), any
   operators / built-ins with ops_nm: the binding (x, w) added to the head frame changes neither the outcome
   nor the store; the final scope chains agree on every name other than x; no value mentioning x is created *)
Theorem C02_weakening_generic : forall release bi bu, ops_nm bi bu ->
  forall d x w e st k f fr r st' fr',
    String.eqb "inputs" x = false ->
    nocc x e = true -> frames_nm x ((k, f) :: fr) = true -> vnm x w = true ->
    evalD release bi bu d (st, (k, f) :: fr) e = (r, (st', fr')) ->
    exists frB', evalD release bi bu d (st, (k, (x, w) :: f) :: fr) e = (r, (st', frB')) /\
                 (forall y, String.eqb y x = false -> lookup fr' y = lookup frB' y) /\
                 frames_nm x fr' = true /\ (forall v, r = Ok v -> vnm x v = true).
Proof. exact weakening_generic. Qed.
Check C02_weakening_generic : forall release bi bu, ops_nm bi bu ->
  forall d x w e st k f fr r st' fr',
    String.eqb "inputs" x = false ->
    nocc x e = true -> frames_nm x ((k, f) :: fr) = true -> vnm x w = true ->
    evalD release bi bu d (st, (k, f) :: fr) e = (r, (st', fr')) ->
    exists frB', evalD release bi bu d (st, (k, (x, w) :: f) :: fr) e = (r, (st', frB')) /\
                 (forall y, String.eqb y x = false -> lookup fr' y = lookup frB' y) /\
                 frames_nm x fr' = true /\ (forall v, r = Ok v -> vnm x v = true).
Print Assumptions C02_weakening_generic.

(* WEAKENING for assignment-free expressions, the evaluator with every built-in: same outcome, same store,
   the same scope chain up to the binding (this is [C02_weakening_full] with the corrected notion of
   "mentions": the Prop as stated by the LET round is refuted below) *)
Theorem C02_weakening : forall release d x w e st k f fr r st' fr',
  String.eqb "inputs" x = false ->
  nocc x e = true -> no_assign e = true -> frames_nm x ((k, f) :: fr) = true -> vnm x w = true ->
  evalD release binop_impl builtin_full d (st, (k, f) :: fr) e = (r, (st', fr')) ->
  fr' = (k, f) :: fr /\
  evalD release binop_impl builtin_full d (st, (k, (x, w) :: f) :: fr) e = (r, (st', (k, (x, w) :: f) :: fr)).
Proof. intros release. exact (weakening_pure release binop_impl builtin_full ops_nm_full). Qed.
Check C02_weakening : forall release d x w e st k f fr r st' fr',
  String.eqb "inputs" x = false ->
  nocc x e = true -> no_assign e = true -> frames_nm x ((k, f) :: fr) = true -> vnm x w = true ->
  evalD release binop_impl builtin_full d (st, (k, f) :: fr) e = (r, (st', fr')) ->
  fr' = (k, f) :: fr /\
  evalD release binop_impl builtin_full d (st, (k, (x, w) :: f) :: fr) e = (r, (st', (k, (x, w) :: f) :: fr)).
Print Assumptions C02_weakening.

Theorem C02_weakening_impl : forall release d x w e st k f fr r st' fr',
  String.eqb "inputs" x = false ->
  nocc x e = true -> no_assign e = true -> frames_nm x ((k, f) :: fr) = true -> vnm x w = true ->
  evalD release binop_impl builtin_impl d (st, (k, f) :: fr) e = (r, (st', fr')) ->
  fr' = (k, f) :: fr /\
  evalD release binop_impl builtin_impl d (st, (k, (x, w) :: f) :: fr) e = (r, (st', (k, (x, w) :: f) :: fr)).
Proof. intros release. exact (weakening_pure release binop_impl builtin_impl ops_nm_inst). Qed.
Check C02_weakening_impl : forall release d x w e st k f fr r st' fr',
  String.eqb "inputs" x = false ->
  nocc x e = true -> no_assign e = true -> frames_nm x ((k, f) :: fr) = true -> vnm x w = true ->
  evalD release binop_impl builtin_impl d (st, (k, f) :: fr) e = (r, (st', fr')) ->
  fr' = (k, f) :: fr /\
  evalD release binop_impl builtin_impl d (st, (k, (x, w) :: f) :: fr) e = (r, (st', (k, (x, w) :: f) :: fr)).
Print Assumptions C02_weakening_impl.

(* the Prop kept by the LET round asked only that x be not FREE in the function bodies of the scope: false.
   g = () => (x = 5); g() is 5 when x is unbound and "x is already defined" when x is bound (the body assigns
   x without reading it; reproduced on the CLI built from /repo) *)
Theorem C02_weakening_full_refuted : ~ C02_weakening_full.
Proof. exact weakening_stmt_refuted. Qed.
Check C02_weakening_full_refuted : ~ C02_weakening_full.
Print Assumptions C02_weakening_full_refuted.

(* THE TWO-STATEMENT LET LAW.  Program A: `x = s` then C[x]; program B: C[s]; same starting configuration;
   C a sequential context; x fresh (occurs nowhere in C[s], in no function of the scope); the value of s
   cell-free.  Whenever `x = s` succeeds the two outcomes are the same up to cell renaming (errors included).
   Both build profiles (release is quantified); evaluator with every built-in. *)
Theorem C02_let_program : forall release d x s C_x C_s st fr v c1 rA cA rB cB,
  frames_lt (length st) fr = true -> no_assign s = true -> no_assign C_s = true ->
  sctx x s C_x C_s ->
  nocc x s = true -> nocc x C_s = true -> frames_nm x fr = true ->
  evalD release binop_impl builtin_full d (st, fr) (EAssign x s) = (Ok v, c1) ->
  cell_free v = true ->
  evalD release binop_impl builtin_full d c1 C_x = (rA, cA) ->
  evalD release binop_impl builtin_full d (st, fr) C_s = (rB, cB) ->
  osame rA rB.
Proof.
  intros release d.
  exact (let_program release binop_impl builtin_full ops_commute_full ops_wf_full (evalD_store_keep_full release) ops_nm_full d).
Qed.
Check C02_let_program : forall release d x s C_x C_s st fr v c1 rA cA rB cB,
  frames_lt (length st) fr = true -> no_assign s = true -> no_assign C_s = true ->
  sctx x s C_x C_s ->
  nocc x s = true -> nocc x C_s = true -> frames_nm x fr = true ->
  evalD release binop_impl builtin_full d (st, fr) (EAssign x s) = (Ok v, c1) ->
  cell_free v = true ->
  evalD release binop_impl builtin_full d c1 C_x = (rA, cA) ->
  evalD release binop_impl builtin_full d (st, fr) C_s = (rB, cB) ->
  osame rA rB.
Print Assumptions C02_let_program.

Theorem C02_let_program_impl : forall release d x s C_x C_s st fr v c1 rA cA rB cB,
  frames_lt (length st) fr = true -> no_assign s = true -> no_assign C_s = true ->
  sctx x s C_x C_s ->
  nocc x s = true -> nocc x C_s = true -> frames_nm x fr = true ->
  evalD release binop_impl builtin_impl d (st, fr) (EAssign x s) = (Ok v, c1) ->
  cell_free v = true ->
  evalD release binop_impl builtin_impl d c1 C_x = (rA, cA) ->
  evalD release binop_impl builtin_impl d (st, fr) C_s = (rB, cB) ->
  osame rA rB.
Proof.
  intros release d.
  exact (let_program release binop_impl builtin_impl ops_commute_inst ops_wf_inst (evalD_store_keep release) ops_nm_inst d).
Qed.
Check C02_let_program_impl : forall release d x s C_x C_s st fr v c1 rA cA rB cB,
  frames_lt (length st) fr = true -> no_assign s = true -> no_assign C_s = true ->
  sctx x s C_x C_s ->
  nocc x s = true -> nocc x C_s = true -> frames_nm x fr = true ->
  evalD release binop_impl builtin_impl d (st, fr) (EAssign x s) = (Ok v, c1) ->
  cell_free v = true ->
  evalD release binop_impl builtin_impl d c1 C_x = (rA, cA) ->
  evalD release binop_impl builtin_impl d (st, fr) C_s = (rB, cB) ->
  osame rA rB.
Print Assumptions C02_let_program_impl.

(* ... after ANY top-level program prefix run from the initial configuration (function-free inputs): no
   hypothesis on the configuration is left except the freshness of x in its functions *)
Theorem C02_let_program_after_any_prefix : forall release d0 d inputs prog x s C_x C_s v c1 rA cA rB cB,
  frame_lt 0 inputs = true ->
  let c := s_cfg (fst (run (evalD release binop_impl builtin_full d0) (init_session inputs) prog)) in
  no_assign s = true -> no_assign C_s = true -> sctx x s C_x C_s ->
  nocc x s = true -> nocc x C_s = true -> frames_nm x (snd c) = true ->
  evalD release binop_impl builtin_full d c (EAssign x s) = (Ok v, c1) ->
  cell_free v = true ->
  evalD release binop_impl builtin_full d c1 C_x = (rA, cA) ->
  evalD release binop_impl builtin_full d c C_s = (rB, cB) ->
  osame rA rB.
Proof.
  intros release d0 d inputs prog x s C_x C_s v c1 rA cA rB cB Hin c Hna HnaC Hctx.
  exact (let_program_multi_after_prefix release binop_impl builtin_full ops_commute_full ops_wf_full
           (evalD_store_keep_full release) ops_nm_full d d0 inputs prog x s C_x C_s v c1 rA cA rB cB Hin Hna HnaC
           (sctx_sctxs x s C_x C_s Hctx)).
Qed.
Check C02_let_program_after_any_prefix : forall release d0 d inputs prog x s C_x C_s v c1 rA cA rB cB,
  frame_lt 0 inputs = true ->
  let c := s_cfg (fst (run (evalD release binop_impl builtin_full d0) (init_session inputs) prog)) in
  no_assign s = true -> no_assign C_s = true -> sctx x s C_x C_s ->
  nocc x s = true -> nocc x C_s = true -> frames_nm x (snd c) = true ->
  evalD release binop_impl builtin_full d c (EAssign x s) = (Ok v, c1) ->
  cell_free v = true ->
  evalD release binop_impl builtin_full d c1 C_x = (rA, cA) ->
  evalD release binop_impl builtin_full d c C_s = (rB, cB) ->
  osame rA rB.
Print Assumptions C02_let_program_after_any_prefix.

(* freshness with respect to the FUNCTIONS of the scope is necessary (names in a body are resolved in the
   caller's chain at call time): after f = y => x + y,  x = 1; f(1) + x  is 3,  f(1) + 1  fails *)
Theorem C02_let_program_nofresh_refuted : ~ let_program_nofresh_stmt.
Proof. exact let_program_nofresh_refuted. Qed.
Check C02_let_program_nofresh_refuted : ~ let_program_nofresh_stmt.
Print Assumptions C02_let_program_nofresh_refuted.

(* the hypotheses are satisfiable: prefix  t = [3, 4]; f = (a, b) => a * b; g = z => z + 1  (two functions in
   scope, none mentions x9), then  x9 = t + 1  followed by  map([1], z => z)[0] + f((q => q)(2), x9)[0]
   versus the same with t + 1 in place of x9: 9 on both sides, with different stores *)
Definition lp_prog : list stmt :=
  [SExpr (EAssign "t" (EList [Cm [] (ENum (num_of_Z 3)) None; Cm [] (ENum (num_of_Z 4)) None]));
   SExpr (EAssign "f" (ELam [AReq "a"; AReq "b"] (EBin Multiply (EId "a") (EId "b"))));
   SExpr (EAssign "g" (ELam [AReq "z"] (EBin Add (EId "z") (ENum (num_of_Z 1)))))].
Definition lp_s : expr := EBin Add (EId "t") (ENum (num_of_Z 1)).
Example C02_let_program_example :
  let c := s_cfg (fst (run (evalD true binop_impl builtin_full 8) (init_session []) lp_prog)) in
  let a1 := evalD true binop_impl builtin_full 8 c (EAssign "x9" lp_s) in
  let rA := evalD true binop_impl builtin_full 8 (snd a1) (sx_C (EId "x9")) in
  let rB := evalD true binop_impl builtin_full 8 c (sx_C lp_s) in
  sctx "x9" lp_s (sx_C (EId "x9")) (sx_C lp_s) /\
  no_assign lp_s = true /\ no_assign (sx_C lp_s) = true /\ nocc "x9" lp_s = true /\ nocc "x9" (sx_C lp_s) = true /\
  frames_nm "x9" (snd c) = true /\ length (fst c) = 2 /\
  fst a1 = Ok (VList [VNum (num_of_Z 4); VNum (num_of_Z 5)]) /\
  fst rA = Ok (VNum (num_of_Z 9)) /\ fst rB = Ok (VNum (num_of_Z 9)) /\ osame (fst rA) (fst rB).
Proof.
  split; [unfold sx_C; apply S_binr; [reflexivity|]; apply S_accl;
          apply (S_calla "x9" lp_s (EId "f") [sx_arg0]); [reflexivity|repeat constructor|apply S_hole]|].
  vm_compute. repeat split.
Qed.

(* ---- SEVERAL occurrences in sequential position ([sctxs]: the reflexive-transitive closure of [sctx];
   C[x, x] -> C[s, x] -> C[s, s], one occurrence per step, the renamings growing along the chain) ---- *)
Theorem C02_sctx_is_sctxs : forall x s a b, sctx x s a b -> sctxs x s a b.
Proof. exact sctx_sctxs. Qed.
Check C02_sctx_is_sctxs : forall x s a b, sctx x s a b -> sctxs x s a b.
Print Assumptions C02_sctx_is_sctxs.

Theorem C02_let_abstraction_seq_multi_partial : forall release d x s st st1 fr v eA eB,
  frames_lt (length st) fr = true ->
  evalD release binop_impl builtin_full d (st, fr) (EId x) = (Ok v, (st, fr)) ->
  evalD release binop_impl builtin_full d (st, fr) s = (Ok v, (st1, fr)) ->
  cell_free v = true ->
  sctxs x s eA eB ->
  osame (fst (evalD release binop_impl builtin_full d (st, fr) eA)) (fst (evalD release binop_impl builtin_full d (st, fr) eB)).
Proof.
  intros release d x s st st1 fr v eA eB Hwf Hx Hs Hv.
  exact (let_abstraction_seq_multi release binop_impl builtin_full ops_commute_full ops_wf_full (evalD_store_keep_full release)
           d x s fr v Hv st eA eB (conj Hwf (conj Hx (ex_intro _ st1 Hs)))).
Qed.
Check C02_let_abstraction_seq_multi_partial : forall release d x s st st1 fr v eA eB,
  frames_lt (length st) fr = true ->
  evalD release binop_impl builtin_full d (st, fr) (EId x) = (Ok v, (st, fr)) ->
  evalD release binop_impl builtin_full d (st, fr) s = (Ok v, (st1, fr)) ->
  cell_free v = true ->
  sctxs x s eA eB ->
  osame (fst (evalD release binop_impl builtin_full d (st, fr) eA)) (fst (evalD release binop_impl builtin_full d (st, fr) eB)).
Print Assumptions C02_let_abstraction_seq_multi_partial.

Theorem C02_let_program_multi : forall release d x s C_x C_s st fr v c1 rA cA rB cB,
  frames_lt (length st) fr = true -> no_assign s = true -> no_assign C_s = true ->
  sctxs x s C_x C_s ->
  nocc x s = true -> nocc x C_s = true -> frames_nm x fr = true ->
  evalD release binop_impl builtin_full d (st, fr) (EAssign x s) = (Ok v, c1) ->
  cell_free v = true ->
  evalD release binop_impl builtin_full d c1 C_x = (rA, cA) ->
  evalD release binop_impl builtin_full d (st, fr) C_s = (rB, cB) ->
  osame rA rB.
Proof.
  intros release d.
  exact (let_program_multi release binop_impl builtin_full ops_commute_full ops_wf_full (evalD_store_keep_full release) ops_nm_full d).
Qed.
Check C02_let_program_multi : forall release d x s C_x C_s st fr v c1 rA cA rB cB,
  frames_lt (length st) fr = true -> no_assign s = true -> no_assign C_s = true ->
  sctxs x s C_x C_s ->
  nocc x s = true -> nocc x C_s = true -> frames_nm x fr = true ->
  evalD release binop_impl builtin_full d (st, fr) (EAssign x s) = (Ok v, c1) ->
  cell_free v = true ->
  evalD release binop_impl builtin_full d c1 C_x = (rA, cA) ->
  evalD release binop_impl builtin_full d (st, fr) C_s = (rB, cB) ->
  osame rA rB.
Print Assumptions C02_let_program_multi.

(* two occurrences, and an s that ALLOCATES on every evaluation: s = map(t, z => z + 1) (value [4, 5], cell-free;
   one cell per evaluation);  C = [□, □, (q => q)].  After the prefix (2 cells) program A `x9 = s; [x9, x9, q => q]`
   allocates cell 2 in the assignment and the closure is cell 3; program B `[s, s, q => q]` allocates cells 2 and 3
   for the two evaluations of s and the closure is cell 4: the results differ as terms and are osame *)
Definition mp_s : expr :=
  ECall (EBuiltin B_map) [EId "t"; ELam [AReq "z"] (EBin Add (EId "z") (ENum (num_of_Z 1)))].
Definition mp_C (h1 h2 : expr) : expr :=
  EList [Cm [] h1 None; Cm [] h2 None; Cm [] (ELam [AReq "q"] (EId "q")) None].
Example C02_let_program_multi_example :
  let c := s_cfg (fst (run (evalD true binop_impl builtin_full 8) (init_session []) lp_prog)) in
  let a1 := evalD true binop_impl builtin_full 8 c (EAssign "x9" mp_s) in
  let rA := evalD true binop_impl builtin_full 8 (snd a1) (mp_C (EId "x9") (EId "x9")) in
  let rB := evalD true binop_impl builtin_full 8 c (mp_C mp_s mp_s) in
  sctxs "x9" mp_s (mp_C (EId "x9") (EId "x9")) (mp_C mp_s mp_s) /\
  no_assign mp_s = true /\ no_assign (mp_C mp_s mp_s) = true /\ nocc "x9" mp_s = true /\ nocc "x9" (mp_C mp_s mp_s) = true /\
  frames_nm "x9" (snd c) = true /\ length (fst c) = 2 /\
  fst a1 = Ok (VList [VNum (num_of_Z 4); VNum (num_of_Z 5)]) /\
  length (fst (snd rA)) = 4 /\ length (fst (snd rB)) = 5 /\
  is_ok (fst rA) = true /\ fst rA <> fst rB /\ osame (fst rA) (fst rB).
Proof.
  split.
  { unfold mp_C. eapply SS_step.
    - apply (S_list "x9" mp_s [] [] None (EId "x9") mp_s); [constructor|apply S_hole].
    - eapply SS_step; [|apply SS_refl].
      apply (S_list "x9" mp_s [Cm [] mp_s None] [] None (EId "x9") mp_s); [repeat constructor|apply S_hole]. }
  vm_compute. repeat split. intros H; discriminate H.
Qed.

(* the hypothesis [nocc x s] of C02_let_program is implied by [nocc x C_s] (s is a subterm of C[s]); it is kept in
   the statements above only because the several-occurrences form (sctxs, possibly zero steps) needs it *)
Theorem C02_sctx_nocc : forall x s a b, sctx x s a b -> nocc x b = true -> nocc x s = true.
Proof. exact sctx_nocc. Qed.
Check C02_sctx_nocc : forall x s a b, sctx x s a b -> nocc x b = true -> nocc x s = true.
Print Assumptions C02_sctx_nocc.

(* ======================================================================================================
   C02ALL — the theorems above for the COMPLETE built-in set: EvalAll.binop_all o / builtin_all o (every row of the
   regenerated built-in table and `^`, library behaviour as fields of the oracle record o), the evaluator the
   ALL / TEXT-EVAL streams run, for EVERY oracle o (proofs/C02AllOps.v, proofs/C02AllThms.v).

   Hypotheses on o: NONE for "no dangling cell" (ops_wf), "no mention" (ops_nm), "old cells untouched"; for the
   commutation with renamings of cell indices (store-extension invariance, eval-twice, let-abstraction,
   let-program) exactly one:  lam_str_blind o  — the text oracle for function values (the only oracle field that
   is applied to VALUES: the captured scope) is blind to cell indices.  It holds of every lookup-table oracle
   of AllRun.v ([C02_lam_str_blind_tables]) and is necessary ([C02_ops_commute_all_needs_blind_refuted]).

   THE CLOCK: time_now() is the constant field o_now — one oracle record is one reading of the clock, so the
   eval-twice theorems below speak about two evaluations that observe the SAME clock reading.  With the clock
   advancing between the two evaluations the statement is false ([C02_eval_twice_across_clock_refuted]).
   ====================================================================================================== *)
Require Import Blots.EvalAll Blots.proofs.C02AllOps Blots.proofs.C02AllThms.
Require Blots.AllRun.

Definition C02_eval_twice_across_clock_full : Prop := eval_twice_across_clock_stmt.
(* the three hypotheses of the generic theorems, for the complete operator table / built-in set, EVERY oracle *)
Theorem C02_ops_wf_all : forall o, ops_wf (binop_all o) (builtin_all o).
Proof. exact ops_wf_all. Qed.
Check C02_ops_wf_all : forall o, ops_wf (binop_all o) (builtin_all o).
Print Assumptions C02_ops_wf_all.

Theorem C02_ops_nm_all : forall o, ops_nm (binop_all o) (builtin_all o).
Proof. exact ops_nm_all. Qed.
Check C02_ops_nm_all : forall o, ops_nm (binop_all o) (builtin_all o).
Print Assumptions C02_ops_nm_all.

Theorem C02_ops_commute_all : forall o, lam_str_blind o -> ops_commute (binop_all o) (builtin_all o).
Proof. exact ops_commute_all. Qed.
Check C02_ops_commute_all : forall o, lam_str_blind o -> ops_commute (binop_all o) (builtin_all o).
Print Assumptions C02_ops_commute_all.

(* the hypothesis holds of EVERY lookup-table oracle the ALL / TEXT-EVAL streams run (AllRun.lam_of ignores the scope) *)
Theorem C02_lam_str_blind_tables : forall T, lam_str_blind (AllRun.oracle_of T).
Proof. exact lam_str_blind_tables. Qed.
Check C02_lam_str_blind_tables : forall T, lam_str_blind (AllRun.oracle_of T).
Print Assumptions C02_lam_str_blind_tables.

(* no hypothesis on the oracle *)
Theorem C02_old_cells_untouched_all : forall o release d c e r c',
  evalD release (binop_all o) (builtin_all o) d c e = (r, c') -> store_keep (fst c) (fst c').
Proof. exact evalD_store_keep_all. Qed.
Check C02_old_cells_untouched_all : forall o release d c e r c',
  evalD release (binop_all o) (builtin_all o) d c e = (r, c') -> store_keep (fst c) (fst c').
Print Assumptions C02_old_cells_untouched_all.

Theorem C02_cfg_wf_preserved_all : forall o release d e c r c',
  cfg_wf c = true -> evalD release (binop_all o) (builtin_all o) d c e = (r, c') ->
  cfg_wf c' = true /\ length (fst c) <= length (fst c') /\ (forall v, r = Ok v -> ids_lt (length (fst c')) v = true).
Proof. intros o release. exact (evalD_cfg_wf release _ _ (ops_wf_all o)). Qed.
Check C02_cfg_wf_preserved_all : forall o release d e c r c',
  cfg_wf c = true -> evalD release (binop_all o) (builtin_all o) d c e = (r, c') ->
  cfg_wf c' = true /\ length (fst c) <= length (fst c') /\ (forall v, r = Ok v -> ids_lt (length (fst c')) v = true).
Print Assumptions C02_cfg_wf_preserved_all.

Theorem C02_cfg_wf_after_any_program_all : forall o release d0 inputs prog,
  frame_lt 0 inputs = true ->
  cfg_wf (s_cfg (fst (run (evalD release (binop_all o) (builtin_all o) d0) (init_session inputs) prog))) = true /\
  forall stop, Forall (fun rc => cfg_wf (snd rc) = true)
                      (run_trace (evalD release (binop_all o) (builtin_all o) d0) stop (init_session inputs) prog).
Proof.
  intros o release d0 inputs prog Hi. split; [exact (program_cfg_wf release _ _ (ops_wf_all o) d0 inputs prog Hi)|].
  intros stop. exact (session_cfg_wf release _ _ (ops_wf_all o) d0 stop inputs prog Hi).
Qed.
Check C02_cfg_wf_after_any_program_all : forall o release d0 inputs prog,
  frame_lt 0 inputs = true ->
  cfg_wf (s_cfg (fst (run (evalD release (binop_all o) (builtin_all o) d0) (init_session inputs) prog))) = true /\
  forall stop, Forall (fun rc => cfg_wf (snd rc) = true)
                      (run_trace (evalD release (binop_all o) (builtin_all o) d0) stop (init_session inputs) prog).
Print Assumptions C02_cfg_wf_after_any_program_all.

Theorem C02_weakening_all : forall o release d x w e st k f fr r st' fr',
  String.eqb "inputs" x = false ->
  nocc x e = true -> no_assign e = true -> frames_nm x ((k, f) :: fr) = true -> vnm x w = true ->
  evalD release (binop_all o) (builtin_all o) d (st, (k, f) :: fr) e = (r, (st', fr')) ->
  fr' = (k, f) :: fr /\
  evalD release (binop_all o) (builtin_all o) d (st, (k, (x, w) :: f) :: fr) e = (r, (st', (k, (x, w) :: f) :: fr)).
Proof. intros o release. exact (weakening_pure release _ _ (ops_nm_all o)). Qed.
Check C02_weakening_all : forall o release d x w e st k f fr r st' fr',
  String.eqb "inputs" x = false ->
  nocc x e = true -> no_assign e = true -> frames_nm x ((k, f) :: fr) = true -> vnm x w = true ->
  evalD release (binop_all o) (builtin_all o) d (st, (k, f) :: fr) e = (r, (st', fr')) ->
  fr' = (k, f) :: fr /\
  evalD release (binop_all o) (builtin_all o) d (st, (k, (x, w) :: f) :: fr) e = (r, (st', (k, (x, w) :: f) :: fr)).
Print Assumptions C02_weakening_all.

(* under the blindness of the text oracle *)
Theorem C02_store_extension_invariance_all : forall o, lam_str_blind o ->
  forall release rho, (forall a b : nat, rho a = rho b -> a = b) ->
  forall d e sA sB fr r sA' fr',
    sinv rho sA sB -> evalD release (binop_all o) (builtin_all o) d (sA, fr) e = (r, (sA', fr')) ->
    exists sB', evalD release (binop_all o) (builtin_all o) d (sB, renFr rho fr) e = (oren rho r, (sB', renFr rho fr')) /\
                sinv rho sA' sB'.
Proof. intros o Hb release. exact (store_extension_invariance release _ _ (ops_commute_all o Hb)). Qed.
Check C02_store_extension_invariance_all : forall o, lam_str_blind o ->
  forall release rho, (forall a b : nat, rho a = rho b -> a = b) ->
  forall d e sA sB fr r sA' fr',
    sinv rho sA sB -> evalD release (binop_all o) (builtin_all o) d (sA, fr) e = (r, (sA', fr')) ->
    exists sB', evalD release (binop_all o) (builtin_all o) d (sB, renFr rho fr) e = (oren rho r, (sB', renFr rho fr')) /\
                sinv rho sA' sB'.
Print Assumptions C02_store_extension_invariance_all.

Theorem C02_eval_twice_exact_all : forall o, lam_str_blind o ->
  forall release d e st fr r1 st1 fr1,
  no_assign e = true -> frames_lt (length st) fr = true ->
  evalD release (binop_all o) (builtin_all o) d (st, fr) e = (r1, (st1, fr1)) ->
  fr1 = fr /\
  exists st2, evalD release (binop_all o) (builtin_all o) d (st1, fr) e =
                (oren (shift (length st) (length st1 - length st)) r1, (st2, fr)) /\
              sinv (shift (length st) (length st1 - length st)) st1 st2.
Proof.
  intros o Hb release. exact (eval_twice_exact release _ _ (ops_commute_all o Hb) (evalD_store_keep_all o release)).
Qed.
Check C02_eval_twice_exact_all : forall o, lam_str_blind o ->
  forall release d e st fr r1 st1 fr1,
  no_assign e = true -> frames_lt (length st) fr = true ->
  evalD release (binop_all o) (builtin_all o) d (st, fr) e = (r1, (st1, fr1)) ->
  fr1 = fr /\
  exists st2, evalD release (binop_all o) (builtin_all o) d (st1, fr) e =
                (oren (shift (length st) (length st1 - length st)) r1, (st2, fr)) /\
              sinv (shift (length st) (length st1 - length st)) st1 st2.
Print Assumptions C02_eval_twice_exact_all.

Theorem C02_eval_twice_all : forall o, lam_str_blind o ->
  forall release d e c r1 c1 r2 c2,
  no_assign e = true -> cfg_wf c = true ->
  evalD release (binop_all o) (builtin_all o) d c e = (r1, c1) ->
  evalD release (binop_all o) (builtin_all o) d c1 e = (r2, c2) ->
  osame r1 r2 /\ snd c2 = snd c /\ snd c1 = snd c.
Proof.
  intros o Hb release. exact (eval_twice release _ _ (ops_commute_all o Hb) (evalD_store_keep_all o release)).
Qed.
Check C02_eval_twice_all : forall o, lam_str_blind o ->
  forall release d e c r1 c1 r2 c2,
  no_assign e = true -> cfg_wf c = true ->
  evalD release (binop_all o) (builtin_all o) d c e = (r1, c1) ->
  evalD release (binop_all o) (builtin_all o) d c1 e = (r2, c2) ->
  osame r1 r2 /\ snd c2 = snd c /\ snd c1 = snd c.
Print Assumptions C02_eval_twice_all.

Theorem C02_eval_twice_equals_all : forall o, lam_str_blind o ->
  forall release d e c v1 c1 v2 c2,
  no_assign e = true -> cfg_wf c = true ->
  evalD release (binop_all o) (builtin_all o) d c e = (Ok v1, c1) ->
  evalD release (binop_all o) (builtin_all o) d c1 e = (Ok v2, c2) ->
  equals v1 v2 = equals v1 v1.
Proof.
  intros o Hb release. exact (eval_twice_equals release _ _ (ops_commute_all o Hb) (evalD_store_keep_all o release)).
Qed.
Check C02_eval_twice_equals_all : forall o, lam_str_blind o ->
  forall release d e c v1 c1 v2 c2,
  no_assign e = true -> cfg_wf c = true ->
  evalD release (binop_all o) (builtin_all o) d c e = (Ok v1, c1) ->
  evalD release (binop_all o) (builtin_all o) d c1 e = (Ok v2, c2) ->
  equals v1 v2 = equals v1 v1.
Print Assumptions C02_eval_twice_equals_all.

Theorem C02_eval_twice_after_any_program_all : forall o, lam_str_blind o ->
  forall release d0 d inputs prog e r1 c1 r2 c2,
  frame_lt 0 inputs = true -> no_assign e = true ->
  let c := s_cfg (fst (run (evalD release (binop_all o) (builtin_all o) d0) (init_session inputs) prog)) in
  evalD release (binop_all o) (builtin_all o) d c e = (r1, c1) ->
  evalD release (binop_all o) (builtin_all o) d c1 e = (r2, c2) ->
  osame r1 r2 /\ snd c2 = snd c /\ snd c1 = snd c.
Proof.
  intros o Hb release.
  exact (eval_twice_after_any_program release _ _ (ops_wf_all o) (ops_commute_all o Hb) (evalD_store_keep_all o release)).
Qed.
Check C02_eval_twice_after_any_program_all : forall o, lam_str_blind o ->
  forall release d0 d inputs prog e r1 c1 r2 c2,
  frame_lt 0 inputs = true -> no_assign e = true ->
  let c := s_cfg (fst (run (evalD release (binop_all o) (builtin_all o) d0) (init_session inputs) prog)) in
  evalD release (binop_all o) (builtin_all o) d c e = (r1, c1) ->
  evalD release (binop_all o) (builtin_all o) d c1 e = (r2, c2) ->
  osame r1 r2 /\ snd c2 = snd c /\ snd c1 = snd c.
Print Assumptions C02_eval_twice_after_any_program_all.

Theorem C02_let_abstraction_seq_partial_all : forall o, lam_str_blind o ->
  forall release d x s st st1 fr v eA eB rA cA rB cB,
  frames_lt (length st) fr = true ->
  evalD release (binop_all o) (builtin_all o) d (st, fr) (EId x) = (Ok v, (st, fr)) ->
  evalD release (binop_all o) (builtin_all o) d (st, fr) s = (Ok v, (st1, fr)) ->
  cell_free v = true ->
  sctx x s eA eB ->
  evalD release (binop_all o) (builtin_all o) d (st, fr) eA = (rA, cA) ->
  evalD release (binop_all o) (builtin_all o) d (st, fr) eB = (rB, cB) ->
  osame rA rB.
Proof.
  intros o Hb release d x s st st1 fr v eA eB rA cA rB cB Hwf Hx Hs Hv.
  exact (let_abstraction_seq release _ _ (ops_commute_all o Hb) (ops_wf_all o) (evalD_store_keep_all o release)
           d x s fr v Hv st eA eB rA cA rB cB (conj Hwf (conj Hx (ex_intro _ st1 Hs)))).
Qed.
Check C02_let_abstraction_seq_partial_all : forall o, lam_str_blind o ->
  forall release d x s st st1 fr v eA eB rA cA rB cB,
  frames_lt (length st) fr = true ->
  evalD release (binop_all o) (builtin_all o) d (st, fr) (EId x) = (Ok v, (st, fr)) ->
  evalD release (binop_all o) (builtin_all o) d (st, fr) s = (Ok v, (st1, fr)) ->
  cell_free v = true ->
  sctx x s eA eB ->
  evalD release (binop_all o) (builtin_all o) d (st, fr) eA = (rA, cA) ->
  evalD release (binop_all o) (builtin_all o) d (st, fr) eB = (rB, cB) ->
  osame rA rB.
Print Assumptions C02_let_abstraction_seq_partial_all.

Theorem C02_let_abstraction_seq_multi_partial_all : forall o, lam_str_blind o ->
  forall release d x s st st1 fr v eA eB,
  frames_lt (length st) fr = true ->
  evalD release (binop_all o) (builtin_all o) d (st, fr) (EId x) = (Ok v, (st, fr)) ->
  evalD release (binop_all o) (builtin_all o) d (st, fr) s = (Ok v, (st1, fr)) ->
  cell_free v = true ->
  sctxs x s eA eB ->
  osame (fst (evalD release (binop_all o) (builtin_all o) d (st, fr) eA)) (fst (evalD release (binop_all o) (builtin_all o) d (st, fr) eB)).
Proof.
  intros o Hb release d x s st st1 fr v eA eB Hwf Hx Hs Hv.
  exact (let_abstraction_seq_multi release _ _ (ops_commute_all o Hb) (ops_wf_all o) (evalD_store_keep_all o release)
           d x s fr v Hv st eA eB (conj Hwf (conj Hx (ex_intro _ st1 Hs)))).
Qed.
Check C02_let_abstraction_seq_multi_partial_all : forall o, lam_str_blind o ->
  forall release d x s st st1 fr v eA eB,
  frames_lt (length st) fr = true ->
  evalD release (binop_all o) (builtin_all o) d (st, fr) (EId x) = (Ok v, (st, fr)) ->
  evalD release (binop_all o) (builtin_all o) d (st, fr) s = (Ok v, (st1, fr)) ->
  cell_free v = true ->
  sctxs x s eA eB ->
  osame (fst (evalD release (binop_all o) (builtin_all o) d (st, fr) eA)) (fst (evalD release (binop_all o) (builtin_all o) d (st, fr) eB)).
Print Assumptions C02_let_abstraction_seq_multi_partial_all.

Theorem C02_let_program_all : forall o, lam_str_blind o ->
  forall release d x s C_x C_s st fr v c1 rA cA rB cB,
  frames_lt (length st) fr = true -> no_assign s = true -> no_assign C_s = true ->
  sctx x s C_x C_s ->
  nocc x s = true -> nocc x C_s = true -> frames_nm x fr = true ->
  evalD release (binop_all o) (builtin_all o) d (st, fr) (EAssign x s) = (Ok v, c1) ->
  cell_free v = true ->
  evalD release (binop_all o) (builtin_all o) d c1 C_x = (rA, cA) ->
  evalD release (binop_all o) (builtin_all o) d (st, fr) C_s = (rB, cB) ->
  osame rA rB.
Proof.
  intros o Hb release d.
  exact (let_program release _ _ (ops_commute_all o Hb) (ops_wf_all o) (evalD_store_keep_all o release) (ops_nm_all o) d).
Qed.
Check C02_let_program_all : forall o, lam_str_blind o ->
  forall release d x s C_x C_s st fr v c1 rA cA rB cB,
  frames_lt (length st) fr = true -> no_assign s = true -> no_assign C_s = true ->
  sctx x s C_x C_s ->
  nocc x s = true -> nocc x C_s = true -> frames_nm x fr = true ->
  evalD release (binop_all o) (builtin_all o) d (st, fr) (EAssign x s) = (Ok v, c1) ->
  cell_free v = true ->
  evalD release (binop_all o) (builtin_all o) d c1 C_x = (rA, cA) ->
  evalD release (binop_all o) (builtin_all o) d (st, fr) C_s = (rB, cB) ->
  osame rA rB.
Print Assumptions C02_let_program_all.

Theorem C02_let_program_multi_all : forall o, lam_str_blind o ->
  forall release d x s C_x C_s st fr v c1 rA cA rB cB,
  frames_lt (length st) fr = true -> no_assign s = true -> no_assign C_s = true ->
  sctxs x s C_x C_s ->
  nocc x s = true -> nocc x C_s = true -> frames_nm x fr = true ->
  evalD release (binop_all o) (builtin_all o) d (st, fr) (EAssign x s) = (Ok v, c1) ->
  cell_free v = true ->
  evalD release (binop_all o) (builtin_all o) d c1 C_x = (rA, cA) ->
  evalD release (binop_all o) (builtin_all o) d (st, fr) C_s = (rB, cB) ->
  osame rA rB.
Proof.
  intros o Hb release d.
  exact (let_program_multi release _ _ (ops_commute_all o Hb) (ops_wf_all o) (evalD_store_keep_all o release) (ops_nm_all o) d).
Qed.
Check C02_let_program_multi_all : forall o, lam_str_blind o ->
  forall release d x s C_x C_s st fr v c1 rA cA rB cB,
  frames_lt (length st) fr = true -> no_assign s = true -> no_assign C_s = true ->
  sctxs x s C_x C_s ->
  nocc x s = true -> nocc x C_s = true -> frames_nm x fr = true ->
  evalD release (binop_all o) (builtin_all o) d (st, fr) (EAssign x s) = (Ok v, c1) ->
  cell_free v = true ->
  evalD release (binop_all o) (builtin_all o) d c1 C_x = (rA, cA) ->
  evalD release (binop_all o) (builtin_all o) d (st, fr) C_s = (rB, cB) ->
  osame rA rB.
Print Assumptions C02_let_program_multi_all.

(* the hypothesis on the text oracle cannot be dropped: an oracle that prints the cell index of a captured function
   makes to_string observe a renaming (it is not blind: [oracle_peeking_not_blind]) *)
Theorem C02_ops_commute_all_needs_blind_refuted : ~ (forall o, ops_commute (binop_all o) (builtin_all o)).
Proof. exact ops_commute_all_needs_blind. Qed.
Check C02_ops_commute_all_needs_blind_refuted : ~ (forall o, ops_commute (binop_all o) (builtin_all o)).
Print Assumptions C02_ops_commute_all_needs_blind_refuted.

(* refuted by `time_now()`: the documented behaviour of a clock, not a defect; the exclusion the model forces on the
   eval-twice theorems above is exactly "both evaluations under the same oracle record (the same clock reading)" *)
Theorem C02_eval_twice_across_clock_refuted : ~ C02_eval_twice_across_clock_full.
Proof. exact eval_twice_across_clock_refuted. Qed.
Check C02_eval_twice_across_clock_refuted : ~ C02_eval_twice_across_clock_full.
Print Assumptions C02_eval_twice_across_clock_refuted.

(* ---- the hypotheses are satisfiable on a program that uses the NEW arms: to_string / format / join over function
   values (one of them capturing another function: the case the blindness hypothesis is about), libm, `^`,
   time_now, print — under the trivial oracle (blind: [lam_str_blind_trivial]) ---- *)
Definition exa_cfg : cfg :=
  ([Some "f"], [(FOwned, [("l", VList [VNum (num_of_Z 3); VNum (num_of_Z 1)]); ("f", ex_f)])]).
Definition exa_expr : expr :=
  EList [Cm [] (ECall (EBuiltin B_to_string) [ELam [AReq "k"] (ECall (EId "f") [EId "k"])]) None;
         Cm [] (ECall (EBuiltin B_format) [EStr "{} and {}"; EId "f"; EId "l"]) None;
         Cm [] (ECall (EBuiltin B_join) [EList [Cm [] (EId "f") None; Cm [] (ELam [AReq "z"] (EId "z")) None]; EStr "-"]) None;
         Cm [] (ECall (EBuiltin B_map) [EId "l"; ELam [AReq "q"] (EBin Power (ECall (EBuiltin B_sin) [EId "q"]) (ENum (num_of_Z 2)))]) None;
         Cm [] (ECall (EBuiltin B_time_now) []) None;
         Cm [] (ECall (EBuiltin B_print) [ELam [AReq "u"] (EId "u")]) None;
         Cm [] (ELam [AReq "w"] (EId "w")) None].
Example C02_eval_twice_all_example :
  lam_str_blind oracle_trivial /\ no_assign exa_expr = true /\ cfg_wf exa_cfg = true /\
  let r1 := evalD true (binop_all oracle_trivial) (builtin_all oracle_trivial) 6 exa_cfg exa_expr in
  let r2 := evalD true (binop_all oracle_trivial) (builtin_all oracle_trivial) 6 (snd r1) exa_expr in
  is_ok (fst r1) = true /\ length (fst (snd r1)) = 6 /\ length (fst (snd r2)) = 11 /\
  fst r1 <> fst r2 /\ osame (fst r1) (fst r2).
Proof.
  split; [exact lam_str_blind_trivial|split; [reflexivity|split; [reflexivity|]]].
  vm_compute. repeat split. intros H; discriminate H.
Qed.

(* ---- the clock, positively (proofs/C02AllClock.v) ---- *)
Require Import Blots.proofs.C02AllClock.

(* same_but_clock o o' := builtin_all o' and builtin_all o agree on every built-in other than time_now, binop_all o' and
   binop_all o agree everywhere: o_now is read by the arm of time_now and by nothing else *)
Theorem C02_clock_read_by_one_arm : forall o t, same_but_clock o (with_now o t).
Proof. exact same_but_clock_with_now. Qed.
Check C02_clock_read_by_one_arm : forall o t, same_but_clock o (with_now o t).
Print Assumptions C02_clock_read_by_one_arm.

(* Unm.rle x y := fst x = Unmodelled \/ x = y.  Generic in two pairs of dispatchers at the same depth: if the left pair is
   pointwise 'Unmodelled, or equal' to the right pair (callbacks related the same way), so are the evaluations — every
   expression form, FunctionDef::call, every depth: an Unmodelled outcome of an operator / built-in is never swallowed *)
Theorem C02_unmodelled_never_swallowed : forall release bi1 bi2 bu1 bu2,
  (forall cb1 cb2, Unm.cb_le cb1 cb2 -> forall op l r st, Unm.rle (bi1 cb1 op l r st) (bi2 cb2 op l r st)) ->
  (forall cb1 cb2, Unm.cb_le cb1 cb2 -> forall b args st, Unm.rle (bu1 cb1 b args st) (bu2 cb2 b args st)) ->
  forall d c e, Unm.rle (evalD release bi1 bu1 d c e) (evalD release bi2 bu2 d c e).
Proof. exact Unm.evalD_le2. Qed.
Check C02_unmodelled_never_swallowed : forall release bi1 bi2 bu1 bu2,
  (forall cb1 cb2, Unm.cb_le cb1 cb2 -> forall op l r st, Unm.rle (bi1 cb1 op l r st) (bi2 cb2 op l r st)) ->
  (forall cb1 cb2, Unm.cb_le cb1 cb2 -> forall b args st, Unm.rle (bu1 cb1 b args st) (bu2 cb2 b args st)) ->
  forall d c e, Unm.rle (evalD release bi1 bu1 d c e) (evalD release bi2 bu2 d c e).
Print Assumptions C02_unmodelled_never_swallowed.

(* builtin_noclock o = builtin_all o with the arm of time_now POISONED (Unmodelled): an evaluation that does not end in
   Unmodelled under it (= never calls time_now, by the theorem above) has the same outcome, store and scope chain under
   every clock reading *)
Theorem C02_eval_same_under_every_clock : forall o t release d c e,
  fst (evalD release (binop_all o) (builtin_noclock o) d c e) <> Unmodelled ->
  evalD release (binop_all (with_now o t)) (builtin_all (with_now o t)) d c e =
  evalD release (binop_all o) (builtin_all o) d c e.
Proof. exact eval_any_clock. Qed.
Check C02_eval_same_under_every_clock : forall o t release d c e,
  fst (evalD release (binop_all o) (builtin_noclock o) d c e) <> Unmodelled ->
  evalD release (binop_all (with_now o t)) (builtin_all (with_now o t)) d c e =
  evalD release (binop_all o) (builtin_all o) d c e.
Print Assumptions C02_eval_same_under_every_clock.

(* EVAL-TWICE WITH THE CLOCK ADVANCING between the two evaluations: [C02_eval_twice_across_clock_full] with exactly the
   exclusion its refutation forces — the second evaluation does not read the clock *)
Theorem C02_eval_twice_across_clock_noclock : forall o t, lam_str_blind o ->
  forall release d e c r1 c1 r2 c2,
    no_assign e = true -> cfg_wf c = true ->
    evalD release (binop_all o) (builtin_all o) d c e = (r1, c1) ->
    fst (evalD release (binop_all o) (builtin_noclock o) d c1 e) <> Unmodelled ->
    evalD release (binop_all (with_now o t)) (builtin_all (with_now o t)) d c1 e = (r2, c2) ->
    osame r1 r2 /\ snd c2 = snd c /\ snd c1 = snd c.
Proof. exact eval_twice_across_clock_noclock. Qed.
Check C02_eval_twice_across_clock_noclock : forall o t, lam_str_blind o ->
  forall release d e c r1 c1 r2 c2,
    no_assign e = true -> cfg_wf c = true ->
    evalD release (binop_all o) (builtin_all o) d c e = (r1, c1) ->
    fst (evalD release (binop_all o) (builtin_noclock o) d c1 e) <> Unmodelled ->
    evalD release (binop_all (with_now o t)) (builtin_all (with_now o t)) d c1 e = (r2, c2) ->
    osame r1 r2 /\ snd c2 = snd c /\ snd c1 = snd c.
Print Assumptions C02_eval_twice_across_clock_noclock.

(* the exclusion holds of a program using libm, to_string of a function and a closure (first and second evaluation),
   and fails for `time_now()` — the witness of [C02_eval_twice_across_clock_refuted] *)
Example C02_noclock_exclusion_example :
  let ev := evalD true (binop_all oracle_trivial) (builtin_noclock oracle_trivial) 5 in
  fst (ev clock_cfg noclock_expr) <> Unmodelled /\
  fst (ev (snd (evalD true (binop_all oracle_trivial) (builtin_all oracle_trivial) 5 clock_cfg noclock_expr)) noclock_expr)
    <> Unmodelled /\
  fst (ev clock_cfg clock_expr) = Unmodelled.
Proof. exact noclock_exclusion_example. Qed.

(* a by-product of [C02_unmodelled_never_swallowed]: AllExtends.v's conservative extension lifted from the dispatchers to
   the EVALUATOR — a program on which the evaluator of the EVAL streams does not end in Unmodelled is computed
   identically (outcome, store, scope chain) by the evaluator with every built-in, for every oracle; so every `_fullbi`
   theorem above about such a program is one about eval_all, with no hypothesis on the oracle *)
Theorem C02_eval_all_extends_full : forall o release d c e,
  fst (evalD release binop_impl builtin_full d c e) <> Unmodelled ->
  evalD release (binop_all o) (builtin_all o) d c e = evalD release binop_impl builtin_full d c e.
Proof. exact evalD_all_extends_full. Qed.
Check C02_eval_all_extends_full : forall o release d c e,
  fst (evalD release binop_impl builtin_full d c e) <> Unmodelled ->
  evalD release (binop_all o) (builtin_all o) d c e = evalD release binop_impl builtin_full d c e.
Print Assumptions C02_eval_all_extends_full.

(* the two-statement law (one or several occurrences: sctx is contained in sctxs, [C02_sctx_is_sctxs]) after ANY program
   prefix from function-free inputs, complete built-in set, every blind oracle: no hypothesis on the configuration *)
Theorem C02_let_program_multi_after_any_prefix_all : forall o, lam_str_blind o ->
  forall release d0 d inputs prog x s C_x C_s v c1 rA cA rB cB,
  frame_lt 0 inputs = true ->
  let c := s_cfg (fst (run (evalD release (binop_all o) (builtin_all o) d0) (init_session inputs) prog)) in
  no_assign s = true -> no_assign C_s = true -> sctxs x s C_x C_s ->
  nocc x s = true -> nocc x C_s = true -> frames_nm x (snd c) = true ->
  evalD release (binop_all o) (builtin_all o) d c (EAssign x s) = (Ok v, c1) ->
  cell_free v = true ->
  evalD release (binop_all o) (builtin_all o) d c1 C_x = (rA, cA) ->
  evalD release (binop_all o) (builtin_all o) d c C_s = (rB, cB) ->
  osame rA rB.
Proof.
  intros o Hb release d0 d.
  exact (let_program_multi_after_prefix release _ _ (ops_commute_all o Hb) (ops_wf_all o) (evalD_store_keep_all o release)
           (ops_nm_all o) d d0).
Qed.
Check C02_let_program_multi_after_any_prefix_all : forall o, lam_str_blind o ->
  forall release d0 d inputs prog x s C_x C_s v c1 rA cA rB cB,
  frame_lt 0 inputs = true ->
  let c := s_cfg (fst (run (evalD release (binop_all o) (builtin_all o) d0) (init_session inputs) prog)) in
  no_assign s = true -> no_assign C_s = true -> sctxs x s C_x C_s ->
  nocc x s = true -> nocc x C_s = true -> frames_nm x (snd c) = true ->
  evalD release (binop_all o) (builtin_all o) d c (EAssign x s) = (Ok v, c1) ->
  cell_free v = true ->
  evalD release (binop_all o) (builtin_all o) d c1 C_x = (rA, cA) ->
  evalD release (binop_all o) (builtin_all o) d c C_s = (rB, cB) ->
  osame rA rB.
Print Assumptions C02_let_program_multi_after_any_prefix_all.
