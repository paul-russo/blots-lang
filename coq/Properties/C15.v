(* C15 — Aggregates equal their mathematical definitions in both calling conventions.
   The property theorems: each is pinned by [Check] and followed by [Print Assumptions]; nearly all are closed
   by [exact lemma], the examples that show the hypotheses satisfiable by computation.  The model objects are the bi_<name> functions of BuiltinsAgg.v, the
   transcription of the corresponding arms of BuiltInFunction::call (blots-core/src/functions.rs),
   tied to the code by the C15 correspondence streams (checks/c15.py). *)
From Coq Require Import ZArith String List Bool Floats.SpecFloat Permutation Reals.
From Flocq Require Import Core.Zaux Core.Raux Core.Defs IEEE754.BinarySingleNaN.
Require Import Blots.Num Blots.gen.Builtins Blots.Ast Blots.Value Blots.Outcome Blots.BuiltinsAgg
  Blots.proofs.Aggregates Blots.proofs.AggPercentile Blots.proofs.AggPanics Blots.proofs.AggRounding.
Import ListNotations.
Open Scope Z_scope.

(* ---------------------------------------------------------------- calling conventions *)
(* One list argument and the same values as separate (or spread: the evaluator flattens spread
   arguments before the call) arguments give the same outcome, for ANY argument values (numbers or
   not, empty or not), except when the separate arguments are themselves exactly one list. *)
Theorem C15_conventions_agree : forall a vs,
  is_varargs a = true -> not_single_list vs = true -> bi_agg a [VList vs] = bi_agg a vs.
Proof. exact conventions_agree. Qed.
Check C15_conventions_agree : forall a vs,
  is_varargs a = true -> not_single_list vs = true -> bi_agg a [VList vs] = bi_agg a vs.
Print Assumptions C15_conventions_agree.

(* in particular for every list of numbers, of any length (also 0 and 1) *)
Theorem C15_conventions_agree_numbers : forall a l,
  is_varargs a = true -> bi_agg a [VList (nums l)] = bi_agg a (nums l).
Proof. exact conventions_agree_nums. Qed.
Check C15_conventions_agree_numbers : forall a l,
  is_varargs a = true -> bi_agg a [VList (nums l)] = bi_agg a (nums l).
Print Assumptions C15_conventions_agree_numbers.

(* the length-1 disambiguation, exactly as the code behaves: a single argument that is a list is
   always read as THE list of numbers; hence f([[..]]) is a type error *)
Theorem C15_single_list_is_the_list : forall a l,
  is_varargs a = true -> bi_agg a [VList [VList l]] = Err.
Proof. exact nested_single_list_rejected. Qed.
Check C15_single_list_is_the_list : forall a l,
  is_varargs a = true -> bi_agg a [VList [VList l]] = Err.
Print Assumptions C15_single_list_is_the_list.

Example conventions_hyp_satisfiable :
  is_varargs AMedian = true /\ not_single_list [VNum n1; VStr "x"] = true /\
  not_single_list [VList [VNum n1]] = false.
Proof. repeat split. Qed.

(* ---------------------------------------------------------------- sum prod avg *)
(* sum / prod are the left folds with Rust's initial elements (-0.0 and 1.0) *)
Theorem C15_sum_is_fold : forall l, l <> [] ->
  bi_sum [VList (nums l)] = Ok (VNum (fold_left nadd l nnzero)) /\
  bi_sum (nums l) = Ok (VNum (fold_left nadd l nnzero)).
Proof. exact sum_is_fold. Qed.
Check C15_sum_is_fold : forall l, l <> [] ->
  bi_sum [VList (nums l)] = Ok (VNum (fold_left nadd l nnzero)) /\
  bi_sum (nums l) = Ok (VNum (fold_left nadd l nnzero)).
Print Assumptions C15_sum_is_fold.

Theorem C15_prod_is_fold : forall l, l <> [] ->
  bi_prod [VList (nums l)] = Ok (VNum (fold_left nmul l n1)) /\
  bi_prod (nums l) = Ok (VNum (fold_left nmul l n1)).
Proof. exact prod_is_fold. Qed.
Check C15_prod_is_fold : forall l, l <> [] ->
  bi_prod [VList (nums l)] = Ok (VNum (fold_left nmul l n1)) /\
  bi_prod (nums l) = Ok (VNum (fold_left nmul l n1)).
Print Assumptions C15_prod_is_fold.

(* avg is sum divided by the count (the count converted exactly as `len as f64`) *)
Theorem C15_avg_is_sum_div_count : forall l, l <> [] ->
  exists s, bi_sum (nums l) = Ok (VNum s) /\
            bi_avg (nums l) = Ok (VNum (ndiv s (num_of_Z (Z.of_nat (length l))))) /\
            bi_avg [VList (nums l)] = Ok (VNum (ndiv s (num_of_Z (Z.of_nat (length l))))).
Proof. exact avg_is_sum_div_count. Qed.
Check C15_avg_is_sum_div_count : forall l, l <> [] ->
  exists s, bi_sum (nums l) = Ok (VNum s) /\
            bi_avg (nums l) = Ok (VNum (ndiv s (num_of_Z (Z.of_nat (length l))))) /\
            bi_avg [VList (nums l)] = Ok (VNum (ndiv s (num_of_Z (Z.of_nat (length l))))).
Print Assumptions C15_avg_is_sum_div_count.

(* ---------------------------------------------------------------- min max *)
(* On a non-empty NaN-free list, min (max) is an element of the list that bounds all others from
   below (above); the order is f64's (nleb = `<=`, so +0 and -0 are identified). *)
Theorem C15_min_bound : forall l, l <> [] -> nan_free l = true ->
  exists m, bi_min (nums l) = Ok (VNum m) /\ bi_min [VList (nums l)] = Ok (VNum m) /\
            In m l /\ forall x, In x l -> nle m x.
Proof. exact min_bound. Qed.
Check C15_min_bound : forall l, l <> [] -> nan_free l = true ->
  exists m, bi_min (nums l) = Ok (VNum m) /\ bi_min [VList (nums l)] = Ok (VNum m) /\
            In m l /\ forall x, In x l -> nle m x.
Print Assumptions C15_min_bound.

Theorem C15_max_bound : forall l, l <> [] -> nan_free l = true ->
  exists m, bi_max (nums l) = Ok (VNum m) /\ bi_max [VList (nums l)] = Ok (VNum m) /\
            In m l /\ forall x, In x l -> nle x m.
Proof. exact max_bound. Qed.
Check C15_max_bound : forall l, l <> [] -> nan_free l = true ->
  exists m, bi_max (nums l) = Ok (VNum m) /\ bi_max [VList (nums l)] = Ok (VNum m) /\
            In m l /\ forall x, In x l -> nle x m.
Print Assumptions C15_max_bound.

Example nan_free_satisfiable : nan_free [n1; nnzero; npinf; nninf; n100] = true.
Proof. reflexivity. Qed.

(* ---------------------------------------------------------------- order statistics *)
(* is_order_stat l k v  :=  v occurs in l, at most k elements of l are < v, more than k are <= v.
   The definition counts, so it is invariant under permutation by construction; on NaN-free lists
   it determines v up to ==, and it is monotone in k. *)
Theorem C15_order_stat_perm : forall l l' k v,
  Permutation l l' -> is_order_stat l k v -> is_order_stat l' k v.
Proof. exact order_stat_perm. Qed.
Check C15_order_stat_perm : forall l l' k v,
  Permutation l l' -> is_order_stat l k v -> is_order_stat l' k v.
Print Assumptions C15_order_stat_perm.

Theorem C15_order_stat_unique : forall l k v w,
  nan_free l = true -> is_order_stat l k v -> is_order_stat l k w -> neq v w.
Proof. exact order_stat_unique. Qed.
Check C15_order_stat_unique : forall l k v w,
  nan_free l = true -> is_order_stat l k v -> is_order_stat l k w -> neq v w.
Print Assumptions C15_order_stat_unique.

Theorem C15_order_stat_mono : forall l j k v w, nan_free l = true -> (j <= k)%nat ->
  is_order_stat l j v -> is_order_stat l k w -> nle v w.
Proof. exact order_stat_mono. Qed.
Check C15_order_stat_mono : forall l j k v w, nan_free l = true -> (j <= k)%nat ->
  is_order_stat l j v -> is_order_stat l k w -> nle v w.
Print Assumptions C15_order_stat_mono.

(* the sort the code uses: sorts every NaN-free list (a permutation, ascending) ... *)
Theorem C15_sort_sorts : forall l, nan_free l = true ->
  exists s, sort_pc l = Ok s /\ Permutation l s /\ Sorted.Sorted nle s.
Proof. exact sort_pc_sorts. Qed.
Check C15_sort_sorts : forall l, nan_free l = true ->
  exists s, sort_pc l = Ok s /\ Permutation l s /\ Sorted.Sorted nle s.
Print Assumptions C15_sort_sorts.

(* ... and aborts exactly when there are at least two numbers and one of them is a NaN *)
Theorem C15_sort_panic_iff : forall l,
  sort_pc l = Panic <-> ((2 <= length l)%nat /\ has_nan l = true).
Proof. exact sort_pc_panic_iff. Qed.
Check C15_sort_panic_iff : forall l,
  sort_pc l = Panic <-> ((2 <= length l)%nat /\ has_nan l = true).
Print Assumptions C15_sort_panic_iff.

(* ---------------------------------------------------------------- median *)
(* median is the middle order statistic, or (x + y) / 2.0 for the two middle ones *)
Theorem C15_median_order_stat : forall l, l <> [] -> nan_free l = true ->
  let n := length l in
  exists m, bi_median (nums l) = Ok (VNum m) /\ bi_median [VList (nums l)] = Ok (VNum m) /\
    if Nat.even n
    then exists x y, is_order_stat l (n / 2 - 1) x /\ is_order_stat l (n / 2) y /\
                     m = ndiv (nadd x y) n2
    else is_order_stat l (n / 2) m.
Proof. exact median_order_stat. Qed.
Check C15_median_order_stat : forall l, l <> [] -> nan_free l = true ->
  let n := length l in
  exists m, bi_median (nums l) = Ok (VNum m) /\ bi_median [VList (nums l)] = Ok (VNum m) /\
    if Nat.even n
    then exists x y, is_order_stat l (n / 2 - 1) x /\ is_order_stat l (n / 2) y /\
                     m = ndiv (nadd x y) n2
    else is_order_stat l (n / 2) m.
Print Assumptions C15_median_order_stat.

(* ---------------------------------------------------------------- permutation invariance *)
(* exact (no rounding) for min / max / median: equal as numbers (==; the stable sort keeps the
   input order of +0 and -0, so the bit pattern of a zero result may differ) *)
Theorem C15_min_perm_invariant : forall l l', Permutation l l' -> l <> [] -> nan_free l = true ->
  exists m m', bi_min (nums l) = Ok (VNum m) /\ bi_min (nums l') = Ok (VNum m') /\ neq m m'.
Proof. exact min_perm_invariant. Qed.
Check C15_min_perm_invariant : forall l l', Permutation l l' -> l <> [] -> nan_free l = true ->
  exists m m', bi_min (nums l) = Ok (VNum m) /\ bi_min (nums l') = Ok (VNum m') /\ neq m m'.
Print Assumptions C15_min_perm_invariant.

Theorem C15_max_perm_invariant : forall l l', Permutation l l' -> l <> [] -> nan_free l = true ->
  exists m m', bi_max (nums l) = Ok (VNum m) /\ bi_max (nums l') = Ok (VNum m') /\ neq m m'.
Proof. exact max_perm_invariant. Qed.
Check C15_max_perm_invariant : forall l l', Permutation l l' -> l <> [] -> nan_free l = true ->
  exists m m', bi_max (nums l) = Ok (VNum m) /\ bi_max (nums l') = Ok (VNum m') /\ neq m m'.
Print Assumptions C15_max_perm_invariant.

Theorem C15_median_perm_invariant : forall l l',
  Permutation l l' -> l <> [] -> nan_free l = true ->
  exists m m', bi_median (nums l) = Ok (VNum m) /\ bi_median (nums l') = Ok (VNum m') /\
               same_num m m'.
Proof. exact median_perm_invariant. Qed.
Check C15_median_perm_invariant : forall l l',
  Permutation l l' -> l <> [] -> nan_free l = true ->
  exists m m', bi_median (nums l) = Ok (VNum m) /\ bi_median (nums l') = Ok (VNum m') /\
               same_num m m'.
Print Assumptions C15_median_perm_invariant.

(* ---------------------------------------------------------------- percentile *)
(* The code is nearest-rank (no interpolation): index = round(p / 100.0 * (n - 1)) computed in
   doubles.  Hypotheses: p is a genuine double (valid_binary) in [0, 100]; the list is non-empty,
   NaN-free and has at most 2^53 elements ((n - 1) as f64 is then exact; a longer Vec<f64> cannot
   exist).  rank_of p l is that index. *)
Theorem C15_percentile_index_in_range : forall p N,
  valid p = true -> in_0_100 p = true -> 0 <= N <= 2^53 -> 0 <= percentile_index p N <= N.
Proof. exact index_in_range. Qed.
Check C15_percentile_index_in_range : forall p N,
  valid p = true -> in_0_100 p = true -> 0 <= N <= 2^53 -> 0 <= percentile_index p N <= N.
Print Assumptions C15_percentile_index_in_range.

(* percentile(l, p) is an order statistic of l, in particular an element of l *)
Theorem C15_percentile_order_stat : forall l p,
  l <> [] -> nan_free l = true -> len l <= 2^53 -> valid p = true -> in_0_100 p = true ->
  exists v, bi_percentile [VList (nums l); VNum p] = Ok (VNum v) /\
            is_order_stat l (rank_of p l) v /\ (rank_of p l < length l)%nat.
Proof. exact percentile_order_stat. Qed.
Check C15_percentile_order_stat : forall l p,
  l <> [] -> nan_free l = true -> len l <= 2^53 -> valid p = true -> in_0_100 p = true ->
  exists v, bi_percentile [VList (nums l); VNum p] = Ok (VNum v) /\
            is_order_stat l (rank_of p l) v /\ (rank_of p l < length l)%nat.
Print Assumptions C15_percentile_order_stat.

Theorem C15_percentile_elem : forall l p,
  l <> [] -> nan_free l = true -> len l <= 2^53 -> valid p = true -> in_0_100 p = true ->
  exists v, bi_percentile [VList (nums l); VNum p] = Ok (VNum v) /\ In v l.
Proof. exact percentile_elem. Qed.
Check C15_percentile_elem : forall l p,
  l <> [] -> nan_free l = true -> len l <= 2^53 -> valid p = true -> in_0_100 p = true ->
  exists v, bi_percentile [VList (nums l); VNum p] = Ok (VNum v) /\ In v l.
Print Assumptions C15_percentile_elem.

(* non-decreasing in p *)
Theorem C15_percentile_mono : forall l p q,
  l <> [] -> nan_free l = true -> len l <= 2^53 ->
  valid p = true -> in_0_100 p = true -> valid q = true -> in_0_100 q = true -> nle p q ->
  exists v w, bi_percentile [VList (nums l); VNum p] = Ok (VNum v) /\
              bi_percentile [VList (nums l); VNum q] = Ok (VNum w) /\ nle v w.
Proof. exact percentile_mono. Qed.
Check C15_percentile_mono : forall l p q,
  l <> [] -> nan_free l = true -> len l <= 2^53 ->
  valid p = true -> in_0_100 p = true -> valid q = true -> in_0_100 q = true -> nle p q ->
  exists v w, bi_percentile [VList (nums l); VNum p] = Ok (VNum v) /\
              bi_percentile [VList (nums l); VNum q] = Ok (VNum w) /\ nle v w.
Print Assumptions C15_percentile_mono.

(* percentile(l, 0) = min  (p = +0 or -0), percentile(l, 100) = max, as numbers *)
Theorem C15_percentile_0_min : forall l p, is_zero p = true ->
  l <> [] -> nan_free l = true -> len l <= 2^53 ->
  exists v m, bi_percentile [VList (nums l); VNum p] = Ok (VNum v) /\
              bi_min (nums l) = Ok (VNum m) /\ neq v m.
Proof. exact percentile_0_min. Qed.
Check C15_percentile_0_min : forall l p, is_zero p = true ->
  l <> [] -> nan_free l = true -> len l <= 2^53 ->
  exists v m, bi_percentile [VList (nums l); VNum p] = Ok (VNum v) /\
              bi_min (nums l) = Ok (VNum m) /\ neq v m.
Print Assumptions C15_percentile_0_min.

Theorem C15_percentile_100_max : forall l,
  l <> [] -> nan_free l = true -> len l <= 2^53 ->
  exists v m, bi_percentile [VList (nums l); VNum n100] = Ok (VNum v) /\
              bi_max (nums l) = Ok (VNum m) /\ neq v m.
Proof. exact percentile_100_max. Qed.
Check C15_percentile_100_max : forall l,
  l <> [] -> nan_free l = true -> len l <= 2^53 ->
  exists v m, bi_percentile [VList (nums l); VNum n100] = Ok (VNum v) /\
              bi_max (nums l) = Ok (VNum m) /\ neq v m.
Print Assumptions C15_percentile_100_max.

Theorem C15_percentile_perm_invariant : forall l l' p, Permutation l l' ->
  l <> [] -> nan_free l = true -> len l <= 2^53 -> valid p = true -> in_0_100 p = true ->
  exists v v', bi_percentile [VList (nums l); VNum p] = Ok (VNum v) /\
               bi_percentile [VList (nums l'); VNum p] = Ok (VNum v') /\ neq v v'.
Proof. exact percentile_perm_invariant. Qed.
Check C15_percentile_perm_invariant : forall l l' p, Permutation l l' ->
  l <> [] -> nan_free l = true -> len l <= 2^53 -> valid p = true -> in_0_100 p = true ->
  exists v v', bi_percentile [VList (nums l); VNum p] = Ok (VNum v) /\
               bi_percentile [VList (nums l'); VNum p] = Ok (VNum v') /\ neq v v'.
Print Assumptions C15_percentile_perm_invariant.

Example percentile_hyp_satisfiable :
  let p := nb 0x4040a66666666666 (* 33.3 *) in let l := [n1; n100; nnzero; n2] in
  valid p = true /\ in_0_100 p = true /\ nan_free l = true /\ len l <= 2^53 /\
  bi_percentile [VList (nums l); VNum p] = Ok (VNum n1).
Proof. vm_compute. repeat split; congruence. Qed.

(* ---------------------------------------------------------------- no panics *)
(* An arity-respecting call of any of the ten built-ins returns a value or an error — it never
   aborts (and is never ErrDepth / Unmodelled).  args_ok: a percentile call has a genuine double p
   and a list of at most 2^53 elements.  Before /repo commit 710ac9a this statement was refuted by
   the faithful model (median(0/0, 1), percentile([0/0, 1], 50), percentile([], 50): DESIGN section
   7 F1/F2, known/C15.json, now "fixed"); the witnesses stay in corpus/C15 as regression inputs. *)
Theorem C15_checked_call_total : forall a args, args_ok args -> ok_or_err (checked_call a args).
Proof. exact checked_call_total. Qed.
Check C15_checked_call_total : forall a args, args_ok args -> ok_or_err (checked_call a args).
Print Assumptions C15_checked_call_total.

Theorem C15_no_panic : forall a args, args_ok args -> checked_call a args <> Panic.
Proof. exact no_panic. Qed.
Check C15_no_panic : forall a args, args_ok args -> checked_call a args <> Panic.
Print Assumptions C15_no_panic.

Example args_ok_satisfiable :
  args_ok [VList [VNum nnan; VNum n1]; VNum (nb 0x4049000000000000)] /\
  checked_call APercentile [VList [VNum nnan; VNum n1]; VNum (nb 0x4049000000000000)] = Ok (VNum nnan) /\
  checked_call AMedian [VNum nnan; VNum n1] = Ok (VNum nnan) /\
  checked_call APercentile [VList []; VNum (nb 0x4049000000000000)] = Err.
Proof.
  split; [|vm_compute; repeat split].
  intros vs p H. injection H as <- <-. split; vm_compute; congruence.
Qed.

(* what the guards return: NaN propagates through median / percentile, the empty list is an error *)
Theorem C15_median_nan : forall args ns, collect_nums args = Ok ns -> ns <> [] -> has_nan ns = true ->
  bi_median args = Ok (VNum nnan).
Proof. exact median_nan. Qed.
Check C15_median_nan : forall args ns, collect_nums args = Ok ns -> ns <> [] -> has_nan ns = true ->
  bi_median args = Ok (VNum nnan).
Print Assumptions C15_median_nan.

Theorem C15_percentile_nan : forall vs p ns, valid p = true -> len vs <= 2^53 -> in_0_100 p = true ->
  mapM as_number vs = Ok ns -> ns <> [] -> has_nan ns = true ->
  bi_percentile [VList vs; VNum p] = Ok (VNum nnan).
Proof. exact percentile_nan. Qed.
Check C15_percentile_nan : forall vs p ns, valid p = true -> len vs <= 2^53 -> in_0_100 p = true ->
  mapM as_number vs = Ok ns -> ns <> [] -> has_nan ns = true ->
  bi_percentile [VList vs; VNum p] = Ok (VNum nnan).
Print Assumptions C15_percentile_nan.

Theorem C15_percentile_empty : forall p, in_0_100 p = true -> bi_percentile [VList []; VNum p] = Err.
Proof. exact percentile_empty. Qed.
Check C15_percentile_empty : forall p, in_0_100 p = true -> bi_percentile [VList []; VNum p] = Err.
Print Assumptions C15_percentile_empty.

(* debug (overflow-checked) and release builds give the same outcome for percentile *)
Theorem C15_percentile_build_independent : forall args,
  bi_percentile_gen true args = bi_percentile_gen false args.
Proof. exact percentile_build_independent. Qed.
Check C15_percentile_build_independent : forall args,
  bi_percentile_gen true args = bi_percentile_gen false args.
Print Assumptions C15_percentile_build_independent.

(* ---------------------------------------------------------------- "up to rounding" *)
(* R_of x is the real value of a double (Flocq's SF2R), u = 2^-53, finv x = a genuine finite
   double.  rsum / rabs_sum / rprod are the exact real sum, sum of magnitudes and product.
   sum: Higham's bound for recursive summation, under "no partial sum overflows"
   (partial_finite, a decidable condition on the model's own partial sums; addition needs no
   underflow condition).  prod: relative error (1+u)^n - 1 under prod_ok = no partial product
   overflows and no exact partial product can fall in the subnormal range (mul_safe: read off
   the exponents) or a factor is zero. *)
Theorem C15_sum_rounding_bound : forall l, l <> [] ->
  forallb finv l = true -> partial_finite nnzero l = true ->
  (Rabs (SF2R radix2 (fold_sum l) - rsum l) <= ((1 + u) ^ (length l - 1) - 1) * rabs_sum l)%R.
Proof. exact sum_rounding_bound. Qed.
Check C15_sum_rounding_bound : forall l, l <> [] ->
  forallb finv l = true -> partial_finite nnzero l = true ->
  (Rabs (SF2R radix2 (fold_sum l) - rsum l) <= ((1 + u) ^ (length l - 1) - 1) * rabs_sum l)%R.
Print Assumptions C15_sum_rounding_bound.

Theorem C15_prod_rounding_bound : forall l,
  forallb finv l = true -> prod_ok n1 l = true ->
  (Rabs (SF2R radix2 (fold_prod l) - rprod l) <= ((1 + u) ^ length l - 1) * Rabs (rprod l))%R.
Proof. exact prod_rounding_bound. Qed.
Check C15_prod_rounding_bound : forall l,
  forallb finv l = true -> prod_ok n1 l = true ->
  (Rabs (SF2R radix2 (fold_prod l) - rprod l) <= ((1 + u) ^ length l - 1) * Rabs (rprod l))%R.
Print Assumptions C15_prod_rounding_bound.

(* permutation invariance of sum / prod up to rounding: two orders differ by at most twice the bound *)
Theorem C15_sum_perm_rounding : forall l l', Permutation l l' -> l <> [] ->
  forallb finv l = true -> partial_finite nnzero l = true -> partial_finite nnzero l' = true ->
  (Rabs (SF2R radix2 (fold_sum l) - SF2R radix2 (fold_sum l'))
   <= 2 * (((1 + u) ^ (length l - 1) - 1) * rabs_sum l))%R.
Proof. exact sum_perm_rounding. Qed.
Check C15_sum_perm_rounding : forall l l', Permutation l l' -> l <> [] ->
  forallb finv l = true -> partial_finite nnzero l = true -> partial_finite nnzero l' = true ->
  (Rabs (SF2R radix2 (fold_sum l) - SF2R radix2 (fold_sum l'))
   <= 2 * (((1 + u) ^ (length l - 1) - 1) * rabs_sum l))%R.
Print Assumptions C15_sum_perm_rounding.

Theorem C15_prod_perm_rounding : forall l l', Permutation l l' ->
  forallb finv l = true -> prod_ok n1 l = true -> prod_ok n1 l' = true ->
  (Rabs (SF2R radix2 (fold_prod l) - SF2R radix2 (fold_prod l'))
   <= 2 * (((1 + u) ^ length l - 1) * Rabs (rprod l)))%R.
Proof. exact prod_perm_rounding. Qed.
Check C15_prod_perm_rounding : forall l l', Permutation l l' ->
  forallb finv l = true -> prod_ok n1 l = true -> prod_ok n1 l' = true ->
  (Rabs (SF2R radix2 (fold_prod l) - SF2R radix2 (fold_prod l'))
   <= 2 * (((1 + u) ^ length l - 1) * Rabs (rprod l)))%R.
Print Assumptions C15_prod_perm_rounding.

Example rounding_hyp_satisfiable :
  let l := [nb 0x3fb999999999999a (* 0.1 *); nb 0x3fc999999999999a (* 0.2 *); nb 0xc008000000000000 (* -3 *)] in
  forallb finv l = true /\ partial_finite nnzero l = true /\ prod_ok n1 l = true.
Proof. vm_compute. repeat split. Qed.

(* avg: fl(sum / n) (proved exactly above) is within the bound of the exact mean; the absolute term
   2^-1075 is the division's rounding error in the subnormal range *)
Theorem C15_avg_rounding_bound : forall l, l <> [] -> Z.of_nat (length l) <= 2^53 ->
  forallb finv l = true -> partial_finite nnzero l = true ->
  (Rabs (SF2R radix2 (ndiv (fold_sum l) (num_of_Z (Z.of_nat (length l)))) - rsum l / INR (length l))
   <= ((1 + u) ^ length l - 1) * (rabs_sum l / INR (length l)) + bpow radix2 (-1075))%R.
Proof. exact avg_rounding_bound. Qed.
Check C15_avg_rounding_bound : forall l, l <> [] -> Z.of_nat (length l) <= 2^53 ->
  forallb finv l = true -> partial_finite nnzero l = true ->
  (Rabs (SF2R radix2 (ndiv (fold_sum l) (num_of_Z (Z.of_nat (length l)))) - rsum l / INR (length l))
   <= ((1 + u) ^ length l - 1) * (rabs_sum l / INR (length l)) + bpow radix2 (-1075))%R.
Print Assumptions C15_avg_rounding_bound.

Theorem C15_avg_perm_rounding : forall l l', Permutation l l' -> l <> [] ->
  Z.of_nat (length l) <= 2^53 ->
  forallb finv l = true -> partial_finite nnzero l = true -> partial_finite nnzero l' = true ->
  (Rabs (SF2R radix2 (avg_of l) - SF2R radix2 (avg_of l'))
   <= 2 * (((1 + u) ^ length l - 1) * (rabs_sum l / INR (length l)) + bpow radix2 (-1075)))%R.
Proof. exact avg_perm_rounding. Qed.
Check C15_avg_perm_rounding : forall l l', Permutation l l' -> l <> [] ->
  Z.of_nat (length l) <= 2^53 ->
  forallb finv l = true -> partial_finite nnzero l = true -> partial_finite nnzero l' = true ->
  (Rabs (SF2R radix2 (avg_of l) - SF2R radix2 (avg_of l'))
   <= 2 * (((1 + u) ^ length l - 1) * (rabs_sum l / INR (length l)) + bpow radix2 (-1075)))%R.
Print Assumptions C15_avg_perm_rounding.

(* avg_of is what bi_avg returns *)
Theorem C15_avg_of_is_avg : forall l, l <> [] -> bi_avg (nums l) = Ok (VNum (avg_of l)).
Proof. exact avg_of_is_avg. Qed.
Check C15_avg_of_is_avg : forall l, l <> [] -> bi_avg (nums l) = Ok (VNum (avg_of l)).
Print Assumptions C15_avg_of_is_avg.
