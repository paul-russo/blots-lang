(* C09 — Formatting never loses or reorders comments.
   Property theorems only.  The model is coq/Formatter.v (document form of formatter.rs and of the
   two statement drivers), tied to the code by the FORMAT correspondence stream (checks/c09.py);
   expr_to_source / needs_parens_in_binop / format_record_key are Section oracles: every theorem
   below holds for ALL oracles. *)
From Coq Require Import String List ZArith Bool.
Require Import Blots.Num Blots.gen.Builtins Blots.Ast Blots.gen.ParensTable Blots.Formatter
  Blots.proofs.Comments Blots.proofs.Scan Blots.proofs.ScanFmt Blots.proofs.DriverText
  Blots.proofs.NestedFix.
Import ListNotations.
Open Scope string_scope.
Open Scope list_scope.

(* doc_accounts_for_all_comments: for every layout (single line, list, record, do-block, lambda,
   conditional chain, call, binary operator, via/into/where), width and indentation, the comment
   sequence of the commented AST equals, in order, the comments the produced document shows
   interleaved with the comments carried by the sub-expressions it printed through
   expr_to_source.  Nothing is duplicated, reordered or invented. *)
Theorem C09_doc_accounts_for_all_comments :
  forall O w e i, wf_ast e = true ->
  doc_all_comments (fmtd O w e i) = expr_comments e.
Proof. exact fmtd_accounts_for_all_comments. Qed.
Check C09_doc_accounts_for_all_comments :
  forall O w e i, wf_ast e = true ->
  doc_all_comments (fmtd O w e i) = expr_comments e.
Print Assumptions C09_doc_accounts_for_all_comments.

(* doc_comments_preserved: the comments shown are exactly the AST's, provided no expression
   printed through expr_to_source carries a comment (the exclusion = known finding
   C09-opaque-nested, see C09_opaque_comment_refuted). *)
Theorem C09_doc_comments_preserved :
  forall O w e i, wf_ast e = true ->
  forallb cfree (doc_opaque (fmtd O w e i)) = true ->
  doc_comments (fmtd O w e i) = expr_comments e.
Proof. exact fmtd_comments_preserved. Qed.
Check C09_doc_comments_preserved :
  forall O w e i, wf_ast e = true ->
  forallb cfree (doc_opaque (fmtd O w e i)) = true ->
  doc_comments (fmtd O w e i) = expr_comments e.
Print Assumptions C09_doc_comments_preserved.

(* the hypotheses are satisfiable by a program with comments in every slot:
     x = [ // a \n 1, // b \n {k: do { // c \n q = 1 // d \n // e \n return q }, // f \n }, // g \n ]   *)
Definition ex_O : oracles := oracles_impl true op_info_table [(0x3ff0000000000000, "1")]%Z.
Definition ex_commented : expr :=
  EAssign "x" (EList [Cm ["// a"] (ENum (nb 0x3ff0000000000000)) None;
                      Cm ["// b"] (ERec [Cm [] (REntry (KStatic "k")
                                           (EDo [Cm ["// c"] (EAssign "q" (ENum (nb 0x3ff0000000000000))) (Some "// d")]
                                                (Cm ["// e"] (EId "q") None))) (Some "// f")])
                         (Some "// g")]).
Example C09_hypotheses_satisfiable :
  wf_ast ex_commented = true /\
  forallb cfree (doc_opaque (fmtd ex_O 80 ex_commented 0)) = true /\
  expr_comments ex_commented = ["// a"; "// b"; "// c"; "// d"; "// e"; "// f"; "// g"].
Proof. vm_compute. repeat split. Qed.

(* REFUTED without the exclusion when o_keep_nested_comments = false (formatter.rs without
   fixes/C09-nested-comments.diff; finding C09-opaque-nested): a comment inside a list that is the
   operand of a unary operator is dropped for every width and every oracle.  With the switch on
   (the formatter as it is) C09_fixed_doc_comments_preserved below holds. *)
Lemma C09_opaque_comment_refuted :
  forall O w i, o_keep_nested_comments O = false ->
  let e := EUn Negate (EList [Cm ["// c"] (EId "a") None]) in
  wf_ast e = true /\ expr_comments e = ["// c"] /\ doc_comments (fmtd O w e i) = [].
Proof.
  intros O w i Hk. repeat split. cbn. rewrite Hk. cbn [andb negb].
  rewrite andb_true_r. destruct (fits_single _ _ _ _); reflexivity.
Qed.

(* driver_comments_preserved, library driver (blots-wasm format_blots; mirrored in the harness) *)
Theorem C09_lib_driver_accounts :
  forall O mw p d, forallb wf_stmt p = true ->
  format_lib O mw p = Some d -> doc_all_comments d = program_comments p.
Proof.
  intros O mw p d Hw Hd. unfold format_lib in Hd.
  assert (d = join_spacing (map_first (lib_stmt O mw) p))
    by (destruct p; [discriminate|now injection Hd]).
  subst d. rewrite dac_join_spacing. unfold program_comments.
  rewrite forallb_forall in Hw. clear Hd.
  apply flat_map_map_first. intros b x Hx. apply lib_stmt_accounts. now apply Hw.
Qed.
Check C09_lib_driver_accounts :
  forall O mw p d, forallb wf_stmt p = true ->
  format_lib O mw p = Some d -> doc_all_comments d = program_comments p.
Print Assumptions C09_lib_driver_accounts.

(* driver_comments_preserved, CLI driver (blots --format).  The model follows the repaired loop,
   which reads the second inner pair of a statement, its end-of-line comment (finding F19; the
   witness `x = 1 // note` is in corpus/C09) *)
Theorem C09_cli_driver_accounts :
  forall O p, forallb wf_stmt p = true ->
  doc_all_comments (format_cli O p) = program_comments p.
Proof.
  intros O p Hw. unfold format_cli, program_comments. rewrite dac_concat. rewrite forallb_forall in Hw.
  apply flat_map_map_first. intros b x Hx. apply cli_stmt_accounts. now apply Hw.
Qed.
Check C09_cli_driver_accounts :
  forall O p, forallb wf_stmt p = true ->
  doc_all_comments (format_cli O p) = program_comments p.
Print Assumptions C09_cli_driver_accounts.

(* render_scan: the lexer-level scan (outside string literals) of the rendered text of a document
   yields exactly the comments the document shows, in order — provided every code piece is
   lexically self-contained (`//` and quotes only inside balanced string literals), every
   comment piece is a comment text, and every comment is followed by a line break or ends the
   document (wf_doc).  Together with the theorems above: scanning the formatter's text gives
   the AST's comments. *)
Theorem C09_render_scan : forall d, wf_doc d -> scan_comments (render d) = doc_comments d.
Proof. exact render_scan. Qed.
Check C09_render_scan : forall d, wf_doc d -> scan_comments (render d) = doc_comments d.
Print Assumptions C09_render_scan.

(* wf_doc holds for the document of the example program above (so the chain
   scan (text) = doc comments = AST comments is non-vacuous) *)
Example C09_render_scan_example :
  let d := fmtd ex_O 80 ex_commented 0 in
  wf_doc d /\ scan_comments (render d) = expr_comments ex_commented.
Proof. vm_compute. repeat split. Qed.

(* no layout merges a comment into code or code into a comment: the document of every
   expression is well-formed for the scanner, for every width and indentation, given
   (a) the strings the layouts print themselves are harmless (atoms_ok: assigned names, parameter
       names, shorthand keys contain no quote and no slash; static keys are accepted by key_ok,
       for which format_record_key's text is self-contained; every comment is "//" + text without
       a line break, a trailing field being such lines joined by newlines), and
   (b) the texts printed through expr_to_source that occur in the document are lexically
       self-contained (opaque_texts_neutral; expr_to_source is library-side here). *)
Theorem C09_fmtd_wf_doc :
  forall O key_ok, (forall k, key_ok k = true -> neutral (o_record_key O k)) ->
  forall w e i, atoms_ok key_ok e = true ->
  opaque_texts_neutral (fmtd O w e i) -> wf_doc (fmtd O w e i).
Proof.
  intros O key_ok Hrk w e i Ha.
  exact (Blots.proofs.PegAtomsC09Scan.CR.fmtd_wf_doc O key_ok Hrk w e i (atoms_ok_weaker key_ok e Ha)).
Qed.
Check C09_fmtd_wf_doc :
  forall O key_ok, (forall k, key_ok k = true -> neutral (o_record_key O k)) ->
  forall w e i, atoms_ok key_ok e = true ->
  opaque_texts_neutral (fmtd O w e i) -> wf_doc (fmtd O w e i).
Print Assumptions C09_fmtd_wf_doc.

(* the chain: the comments a lexer-level scan finds in the text the formatter prints for an
   expression are the comments of its AST, in order (outside known finding C09-opaque-nested) *)
Theorem C09_fmtd_text_comments :
  forall O key_ok, (forall k, key_ok k = true -> neutral (o_record_key O k)) ->
  forall w e i, wf_ast e = true -> atoms_ok key_ok e = true ->
  forallb cfree (doc_opaque (fmtd O w e i)) = true ->
  opaque_texts_neutral (fmtd O w e i) ->
  scan_comments (render (fmtd O w e i)) = expr_comments e.
Proof.
  intros O key_ok Hrk w e i Hw Ha.
  exact (Blots.proofs.PegAtomsC09Scan.CR.fmtd_text_comments O key_ok Hrk w e i Hw (atoms_ok_weaker key_ok e Ha)).
Qed.
Check C09_fmtd_text_comments :
  forall O key_ok, (forall k, key_ok k = true -> neutral (o_record_key O k)) ->
  forall w e i, wf_ast e = true -> atoms_ok key_ok e = true ->
  forallb cfree (doc_opaque (fmtd O w e i)) = true ->
  opaque_texts_neutral (fmtd O w e i) ->
  scan_comments (render (fmtd O w e i)) = expr_comments e.
Print Assumptions C09_fmtd_text_comments.

(* all hypotheses hold for the example program with the executable oracles *)
Example C09_text_comments_hypotheses_satisfiable :
  (forall k, is_valid_identifier k = true -> neutral (record_key_impl k)) /\
  atoms_ok is_valid_identifier ex_commented = true /\
  opaque_texts_neutral (fmtd ex_O 80 ex_commented 0).
Proof.
  split; [exact record_key_impl_neutral|]. split; [reflexivity|].
  vm_compute. repeat constructor.
Qed.

(* the property at text level for both drivers: the comments a lexer-level scan finds in the text
   the driver emits are the program's comments (expression-level, standalone and end-of-line), in
   order.  stmt_ok = per statement the hypotheses of C09_fmtd_text_comments at the driver's width,
   comments are comment texts, and a comment statement has no second comment. *)
Theorem C09_lib_driver_text_comments :
  forall O key_ok, (forall k, key_ok k = true -> neutral (o_record_key O k)) ->
  forall mw p d, Forall (stmt_ok O key_ok mw) p ->
  format_lib O mw p = Some d -> scan_comments (render d) = program_comments p.
Proof. exact lib_driver_text_comments. Qed.
Check C09_lib_driver_text_comments :
  forall O key_ok, (forall k, key_ok k = true -> neutral (o_record_key O k)) ->
  forall mw p d, Forall (stmt_ok O key_ok mw) p ->
  format_lib O mw p = Some d -> scan_comments (render d) = program_comments p.
Print Assumptions C09_lib_driver_text_comments.

Theorem C09_cli_driver_text_comments :
  forall O key_ok, (forall k, key_ok k = true -> neutral (o_record_key O k)) ->
  forall p, Forall (stmt_ok O key_ok None) p ->
  scan_comments (render (format_cli O p)) = program_comments p.
Proof. exact cli_driver_text_comments. Qed.
Check C09_cli_driver_text_comments :
  forall O key_ok, (forall k, key_ok k = true -> neutral (o_record_key O k)) ->
  forall p, Forall (stmt_ok O key_ok None) p ->
  scan_comments (render (format_cli O p)) = program_comments p.
Print Assumptions C09_cli_driver_text_comments.

(* a two-statement program satisfying stmt_ok with the executable oracles *)
Example C09_driver_hypotheses_satisfiable :
  Forall (stmt_ok ex_O is_valid_identifier None)
    [St (SComment "// top") None 1 1; St (SExpr ex_commented) (Some "// eol") 2 12].
Proof.
  destruct C09_hypotheses_satisfiable as (Hw & Hc & _).
  destruct C09_text_comments_hypotheses_satisfiable as (_ & Ha & Ho).
  constructor; [exact (conj eq_refl I)|]. constructor; [|constructor].
  exact (conj (conj Hw (conj Ha (conj Hc Ho))) (conj eq_refl I)).
Qed.

(* ---- formatter.rs with fixes/C09-nested-comments.diff (o_keep_nested_comments O = true):
   an expression that contains a comment is never printed through expr_to_source ... *)
Theorem C09_fixed_opaque_exprs_comment_free :
  forall O, o_keep_nested_comments O = true ->
  forall w e i, Forall (fun p => match p with Opaque x _ => cfree x = true | _ => True end) (fmtd O w e i).
Proof. exact fixed_opaque_exprs_comment_free. Qed.
Check C09_fixed_opaque_exprs_comment_free :
  forall O, o_keep_nested_comments O = true ->
  forall w e i, Forall (fun p => match p with Opaque x _ => cfree x = true | _ => True end) (fmtd O w e i).
Print Assumptions C09_fixed_opaque_exprs_comment_free.

(* ... so the document shows every comment of the AST: the exclusion of C09_doc_comments_preserved
   (known finding C09-opaque-nested) is not needed.  The only proviso is technical: no
   via/into/where lambda operand had to be re-assembled from lines() (that happens only for a
   text with "\r\n" inside, and keeps the comments in the text). *)
Theorem C09_fixed_doc_comments_preserved :
  forall O, o_keep_nested_comments O = true ->
  forall w e i, wf_ast e = true -> doc_relined (fmtd O w e i) = [] ->
  doc_comments (fmtd O w e i) = expr_comments e.
Proof. exact fixed_comments_preserved. Qed.
Check C09_fixed_doc_comments_preserved :
  forall O, o_keep_nested_comments O = true ->
  forall w e i, wf_ast e = true -> doc_relined (fmtd O w e i) = [] ->
  doc_comments (fmtd O w e i) = expr_comments e.
Print Assumptions C09_fixed_doc_comments_preserved.

(* the witness of C09_opaque_comment_refuted under the repaired formatter: `-[ // c` newline `a ]` *)
Example C09_fixed_witness :
  let O := oracles_impl true op_info_table [] in
  let e := EUn Negate (EList [Cm ["// c"] (EId "a") None]) in
  doc_comments (fmtd O 80 e 0) = ["// c"] /\
  render (fmtd O 80 e 0) = ("-[" ++ nl ++ "  // c" ++ nl ++ "  a," ++ nl ++ "]")%string.
Proof. vm_compute. split; reflexivity. Qed.

(* ======================================================================================================
   PARSER HALF (coq/PegComments.v): from the pair tree of the PEG model (coq/Peg.v on gen/Grammar.v) through the
   drivers' statement loop and pairs_to_expr_with_comments to the commented program the formatter half is about.
   Hypotheses: forest_view_ok (the item view reads every comment pair of the tree) and forest_shape_ok (one
   return_statement, last, per do_block; no line feed inside a comment text; a comment-only do_statement has no
   second comment) are decidable grammar-shape facts; they are proved of every result of Peg.parse further down
   (C09_shape_items, C09_view_items) and tested on every tree the interpreter produces by the C09P correspondence
   stream; forest_no_empty_container is the EXCLUSION = known finding C09-empty-container. *)
Require Import Blots.Outcome Blots.Peg Blots.gen.Grammar Blots.PegToItems Blots.PegComments
  Blots.proofs.PegComments Blots.proofs.PegCommentsCompose.

(* pairs_to_expr_with_comments keeps every comment of its token stream, in order *)
Theorem C09_glue_keeps_comments : forall its t,
  shapes_ok its = true -> no_empty_containers its = true ->
  pratt_c its = Outcome.Ok (Some t) -> expr_comments t = items_comments its.
Proof. exact pratt_c_keeps_comments. Qed.
Check C09_glue_keeps_comments : forall its t,
  shapes_ok its = true -> no_empty_containers its = true ->
  pratt_c its = Outcome.Ok (Some t) -> expr_comments t = items_comments its.
Print Assumptions C09_glue_keeps_comments.

(* (a) the texts of the comment / eol_comment pairs of the tree, in tree order = the comments of the commented
   program the drivers hand to the formatter *)
Theorem C09_parse_keeps_comments : forall text forest p,
  forest_view_ok text forest = true ->
  forest_shape_ok text forest = true ->
  forest_no_empty_container text forest = true ->
  program_of_forest text forest = Outcome.Ok (Some p) ->
  program_comments p = forest_comments text forest.
Proof. exact parse_keeps_comments. Qed.
Check C09_parse_keeps_comments : forall text forest p,
  forest_view_ok text forest = true ->
  forest_shape_ok text forest = true ->
  forest_no_empty_container text forest = true ->
  program_of_forest text forest = Outcome.Ok (Some p) ->
  program_comments p = forest_comments text forest.
Print Assumptions C09_parse_keeps_comments.

(* the exclusion is necessary (finding C09-empty-container): `[ // c <LF> ]` satisfies the two shape hypotheses,
   its tree has the pair "// c", the program built from it has no comment *)
Lemma C09_parse_keeps_comments_refuted :
  exists forest p,
    parse_program_c empty_container_witness = PCOk forest p
    /\ forest_view_ok empty_container_witness forest = true
    /\ forest_shape_ok empty_container_witness forest = true
    /\ forest_no_empty_container empty_container_witness forest = false
    /\ forest_comments empty_container_witness forest = ["// c"]
    /\ program_comments p = [].
Proof. exact parse_keeps_comments_refuted. Qed.

(* (b) end to end, token tree -> emitted text, both drivers: a lexer-level scan of the formatted text finds exactly
   the comment pairs of the tree, in order *)
Theorem C09_tree_to_text_lib :
  forall O key_ok, (forall k, key_ok k = true -> neutral (o_record_key O k)) ->
  forall text forest p mw d,
  forest_view_ok text forest = true -> forest_shape_ok text forest = true ->
  forest_no_empty_container text forest = true ->
  program_of_forest text forest = Outcome.Ok (Some p) ->
  Forall (stmt_ok O key_ok mw) p -> format_lib O mw p = Some d ->
  scan_comments (render d) = forest_comments text forest.
Proof. exact tree_to_text_lib. Qed.
Check C09_tree_to_text_lib :
  forall O key_ok, (forall k, key_ok k = true -> neutral (o_record_key O k)) ->
  forall text forest p mw d,
  forest_view_ok text forest = true -> forest_shape_ok text forest = true ->
  forest_no_empty_container text forest = true ->
  program_of_forest text forest = Outcome.Ok (Some p) ->
  Forall (stmt_ok O key_ok mw) p -> format_lib O mw p = Some d ->
  scan_comments (render d) = forest_comments text forest.
Print Assumptions C09_tree_to_text_lib.

Theorem C09_tree_to_text_cli :
  forall O key_ok, (forall k, key_ok k = true -> neutral (o_record_key O k)) ->
  forall text forest p,
  forest_view_ok text forest = true -> forest_shape_ok text forest = true ->
  forest_no_empty_container text forest = true ->
  program_of_forest text forest = Outcome.Ok (Some p) ->
  Forall (stmt_ok O key_ok None) p ->
  scan_comments (render (format_cli O p)) = forest_comments text forest.
Proof. exact tree_to_text_cli. Qed.
Check C09_tree_to_text_cli :
  forall O key_ok, (forall k, key_ok k = true -> neutral (o_record_key O k)) ->
  forall text forest p,
  forest_view_ok text forest = true -> forest_shape_ok text forest = true ->
  forest_no_empty_container text forest = true ->
  program_of_forest text forest = Outcome.Ok (Some p) ->
  Forall (stmt_ok O key_ok None) p ->
  scan_comments (render (format_cli O p)) = forest_comments text forest.
Print Assumptions C09_tree_to_text_cli.

(* (c) F20 at the grammar level, on the regenerated grammar (exhaustive over its rule table): NEWLINE,
   inline_comment, plain_newline are silent and call only each other, and inline_comment is referenced by NEWLINE
   only — a "//" run read through NEWLINE can produce no pair; `comment` / `eol_comment` are the only other readers *)
Theorem C09_newline_rules_silent_and_closed :
  forallb (fun r => is_silent r &&
                    forallb (fun x => existsb (grule_eqb x) newline_closure) (expr_idents (rd_body (grule_def r))))
          newline_closure = true.
Proof. exact newline_rules_silent_and_closed. Qed.
Check C09_newline_rules_silent_and_closed :
  forallb (fun r => is_silent r &&
                    forallb (fun x => existsb (grule_eqb x) newline_closure) (expr_idents (rd_body (grule_def r))))
          newline_closure = true.
Print Assumptions C09_newline_rules_silent_and_closed.
Theorem C09_inline_comment_only_in_NEWLINE :
  filter (fun r => mentions PG_inline_comment (rd_body (grule_def r))) all_grules = [PG_NEWLINE].
Proof. exact inline_comment_only_in_NEWLINE. Qed.
Check C09_inline_comment_only_in_NEWLINE :
  filter (fun r => mentions PG_inline_comment (rd_body (grule_def r))) all_grules = [PG_NEWLINE].
Print Assumptions C09_inline_comment_only_in_NEWLINE.
(* stated here, proved below (C09_quiet_rules_emit_no_pairs_on_grammar): the interpreter-level consequence
   (quiet rules emit no pairs) *)
Definition C09_quiet_rules_emit_no_pairs_full : Prop := quiet_rules_emit_no_pairs_full.
(* F20 witness through the interpreter (6 bytes), and the contrasting text where the same "//" is a pair *)
Lemma C09_f20_witness_swallowed :
  scan_comments f20_witness = ["//"]
  /\ exists forest p, parse_program_c f20_witness = PCOk forest p
                      /\ forest_comments f20_witness forest = []
                      /\ program_comments p = [].
Proof. exact f20_witness_swallowed. Qed.

(* ======================================================================================================
   PARSER HALF, the interpreter: proofs/PegQuiet.v, proofs/PegShape.v, proofs/PegCommentsWf.v *)
Require Import Blots.proofs.PegGeneric Blots.proofs.PegQuiet Blots.proofs.PegShape Blots.proofs.PegCommentsWf
  Blots.proofs.Comments Blots.proofs.ScanFmt Blots.proofs.DriverText.

(* (c') QUIET RULES EMIT NO PAIRS — for EVERY grammar, every expression, state, fuel, mode, atomicity, lookahead:
   if Q is a set of silent rules whose bodies reference only rules of Q, and it contains the grammar's implicit-skip
   rules, then running any expression that references only rules of Q leaves the produced pairs unchanged *)
Theorem C09_quiet_rules_emit_no_pairs :
  forall (R : Type) (G : grammar R) (Q : R -> bool),
  (forall r, Q r = true -> rd_mod (g_def G r) = MSilent) ->
  (forall r, Q r = true -> forallb Q (idents R (rd_body (g_def G r))) = true) ->
  (forall w, g_ws G = Some w -> Q w = true) ->
  (forall c, g_comment G = Some c -> Q c = true) ->
  forall fuel m a la e s s',
  forallb Q (idents R e) = true ->
  (run G fuel m a la e s = Peg.Ok s' \/ run G fuel m a la e s = Peg.Fail s') ->
  out s' = out s.
Proof. exact quiet_rules_emit_no_pairs. Qed.
Check C09_quiet_rules_emit_no_pairs :
  forall (R : Type) (G : grammar R) (Q : R -> bool),
  (forall r, Q r = true -> rd_mod (g_def G r) = MSilent) ->
  (forall r, Q r = true -> forallb Q (idents R (rd_body (g_def G r))) = true) ->
  (forall w, g_ws G = Some w -> Q w = true) ->
  (forall c, g_comment G = Some c -> Q c = true) ->
  forall fuel m a la e s s',
  forallb Q (idents R e) = true ->
  (run G fuel m a la e s = Peg.Ok s' \/ run G fuel m a la e s = Peg.Fail s') ->
  out s' = out s.
Print Assumptions C09_quiet_rules_emit_no_pairs.

(* C09_quiet_rules_emit_no_pairs_full, stated above *)
Theorem C09_quiet_rules_emit_no_pairs_on_grammar : C09_quiet_rules_emit_no_pairs_full.
Proof. exact quiet_rules_emit_no_pairs_blots. Qed.
Check C09_quiet_rules_emit_no_pairs_on_grammar : C09_quiet_rules_emit_no_pairs_full.
Print Assumptions C09_quiet_rules_emit_no_pairs_on_grammar.

(* F20 as a theorem on the regenerated grammar: for EVERY text (state), calling context and fuel, what NEWLINE reads
   (an optional "//" run up to the line break, then the line break) yields no pair *)
Theorem C09_newline_never_yields_a_pair : forall fuel m a la s s',
  (run blots_grammar fuel m a la (Ident PG_NEWLINE) s = Peg.Ok s' \/
   run blots_grammar fuel m a la (Ident PG_NEWLINE) s = Peg.Fail s') ->
  out s' = out s.
Proof. exact newline_never_yields_a_pair. Qed.
Check C09_newline_never_yields_a_pair : forall fuel m a la s s',
  (run blots_grammar fuel m a la (Ident PG_NEWLINE) s = Peg.Ok s' \/
   run blots_grammar fuel m a la (Ident PG_NEWLINE) s = Peg.Fail s') ->
  out s' = out s.
Print Assumptions C09_newline_never_yields_a_pair.

(* (d) SHAPE of the interpreter's trees, proved of Peg.parse.
   Generic tool: a per-rule postcondition established for each rule BODY holds of every node of every tree *)
Theorem C09_shape_postconditions_hold_of_every_node :
  forall (R : Type) (G : grammar R) (text : string) (C : R -> string -> list (tree R) -> Prop),
  (forall f, body_gives R G text C (run G f)) ->
  forall f r s', Peg.parse G f r text = Peg.Ok s' -> forest_all R text C (out s').
Proof. exact parse_nodes. Qed.
Check C09_shape_postconditions_hold_of_every_node :
  forall (R : Type) (G : grammar R) (text : string) (C : R -> string -> list (tree R) -> Prop),
  (forall f, body_gives R G text C (run G f)) ->
  forall f r s', Peg.parse G f r text = Peg.Ok s' -> forest_all R text C (out s').
Print Assumptions C09_shape_postconditions_hold_of_every_node.

(* the text of every `comment` / `eol_comment` pair, at any depth, is "//" ++ r with no line feed in r
   (conjunct "no \n inside a comment text" of forest_shape_ok, and "comments are //…" of atoms_ok) *)
Theorem C09_shape_comment_texts : forall fuel text s',
  Peg.parse blots_grammar fuel PG_input text = Peg.Ok s' ->
  Forall comment_text_ok (forest_comments text (rev (out s'))).
Proof. exact shape_comment_texts. Qed.
Check C09_shape_comment_texts : forall fuel text s',
  Peg.parse blots_grammar fuel PG_input text = Peg.Ok s' ->
  Forall comment_text_ok (forest_comments text (rev (out s'))).
Print Assumptions C09_shape_comment_texts.
Theorem C09_shape_comment_texts_program : forall text forest p,
  parse_program_c text = PCOk forest p -> Forall comment_text_ok (forest_comments text forest).
Proof. exact shape_comment_texts_program. Qed.
Check C09_shape_comment_texts_program : forall text forest p,
  parse_program_c text = PCOk forest p -> Forall comment_text_ok (forest_comments text forest).
Print Assumptions C09_shape_comment_texts_program.

(* the inner pairs of every do_block node are (comment | do_statement)* return_statement — exactly one
   return_statement, and it is last; a return_statement has exactly one inner pair (its expression); a do_statement /
   list_item / record_item / statement is one pair optionally followed by one (eol_)comment pair  [kids_spec] *)
Theorem C09_shape_inner_pairs : forall fuel text s',
  Peg.parse blots_grammar fuel PG_input text = Peg.Ok s' ->
  forest_all grule text C_kids (rev (out s')).
Proof. exact shape_kids. Qed.
Check C09_shape_inner_pairs : forall fuel text s',
  Peg.parse blots_grammar fuel PG_input text = Peg.Ok s' ->
  forest_all grule text C_kids (rev (out s')).
Print Assumptions C09_shape_inner_pairs.
Example C09_shape_do_block_reading : forall l,
  kids_spec PG_do_block l <->
  exists pre, l = pre ++ [PG_return_statement] /\ Forall (fun x => x = PG_comment \/ x = PG_do_statement) pre.
Proof. intro l. reflexivity. Qed.

(* (e) wf_ast, a hypothesis of the formatter half inside stmt_ok, DERIVED from the parser model: everything
   pairs_to_expr_with_comments returns is wf_ast (for every token stream) ... *)
Theorem C09_parser_output_wf_ast : forall its t, pratt_c its = Outcome.Ok (Some t) -> wf_ast t = true.
Proof. exact pratt_c_wf_ast. Qed.
Check C09_parser_output_wf_ast : forall its t, pratt_c its = Outcome.Ok (Some t) -> wf_ast t = true.
Print Assumptions C09_parser_output_wf_ast.
Theorem C09_parsed_program_wf_ast : forall text forest p,
  parse_program_c text = PCOk forest p -> forallb stmt_wf_ast p = true.
Proof. exact parse_program_c_wf. Qed.
Check C09_parsed_program_wf_ast : forall text forest p,
  parse_program_c text = PCOk forest p -> forallb stmt_wf_ast p = true.
Print Assumptions C09_parsed_program_wf_ast.

(* ... so the end-to-end theorems hold with stmt_ok_parsed = stmt_ok minus its wf_ast conjunct *)
Theorem C09_tree_to_text_lib_parsed :
  forall O key_ok, (forall k, key_ok k = true -> neutral (o_record_key O k)) ->
  forall text forest p mw d,
  forest_view_ok text forest = true -> forest_shape_ok text forest = true ->
  forest_no_empty_container text forest = true ->
  program_of_forest text forest = Outcome.Ok (Some p) ->
  Forall (stmt_ok_parsed O key_ok mw) p -> format_lib O mw p = Some d ->
  scan_comments (render d) = forest_comments text forest.
Proof. exact tree_to_text_lib_parsed. Qed.
Check C09_tree_to_text_lib_parsed :
  forall O key_ok, (forall k, key_ok k = true -> neutral (o_record_key O k)) ->
  forall text forest p mw d,
  forest_view_ok text forest = true -> forest_shape_ok text forest = true ->
  forest_no_empty_container text forest = true ->
  program_of_forest text forest = Outcome.Ok (Some p) ->
  Forall (stmt_ok_parsed O key_ok mw) p -> format_lib O mw p = Some d ->
  scan_comments (render d) = forest_comments text forest.
Print Assumptions C09_tree_to_text_lib_parsed.
Theorem C09_tree_to_text_cli_parsed :
  forall O key_ok, (forall k, key_ok k = true -> neutral (o_record_key O k)) ->
  forall text forest p,
  forest_view_ok text forest = true -> forest_shape_ok text forest = true ->
  forest_no_empty_container text forest = true ->
  program_of_forest text forest = Outcome.Ok (Some p) ->
  Forall (stmt_ok_parsed O key_ok None) p ->
  scan_comments (render (format_cli O p)) = forest_comments text forest.
Proof. exact tree_to_text_cli_parsed. Qed.
Check C09_tree_to_text_cli_parsed :
  forall O key_ok, (forall k, key_ok k = true -> neutral (o_record_key O k)) ->
  forall text forest p,
  forest_view_ok text forest = true -> forest_shape_ok text forest = true ->
  forest_no_empty_container text forest = true ->
  program_of_forest text forest = Outcome.Ok (Some p) ->
  Forall (stmt_ok_parsed O key_ok None) p ->
  scan_comments (render (format_cli O p)) = forest_comments text forest.
Print Assumptions C09_tree_to_text_cli_parsed.

(* generic tool behind C09_shape_inner_pairs (every grammar): in an emitting context (lookahead off, atomicity not
   Atomic) the rule names of the pairs an expression appends belong to the language [tops e] read off the expression:
   a rule of the quiet set Q contributes nothing, a non-silent rule exactly its own name, a silent rule what S says
   (S closed under unfolding rule bodies), sequence = concatenation, e* = star, predicates = nothing *)
Theorem C09_shape_top_level_pairs :
  forall (R : Type) (G : grammar R) (Q : R -> bool),
  (forall r, Q r = true -> rd_mod (g_def G r) = MSilent) ->
  (forall r, Q r = true -> forallb Q (idents R (rd_body (g_def G r))) = true) ->
  (forall w, g_ws G = Some w -> Q w = true) ->
  (forall c, g_comment G = Some c -> Q c = true) ->
  (forall r, silentb R G r = true -> rd_trivia (g_def G r) = true -> Q r = true) ->
  forall S : R -> list R -> Prop,
  (forall r, silentb R G r = true -> Q r = false -> forall l, tops R G Q S (rd_body (g_def G r)) l -> S r l) ->
  forall f m a e, a <> Atomic -> forall s,
  match run G f m a false e s with
  | Peg.Ok s' => exists new, out s' = new ++ out s /\ tops R G Q S e (map (troot R) (rev new))
  | Peg.Fail s' => out s' = out s
  | _ => True
  end.
Proof. exact run_tops. Qed.
Check C09_shape_top_level_pairs :
  forall (R : Type) (G : grammar R) (Q : R -> bool),
  (forall r, Q r = true -> rd_mod (g_def G r) = MSilent) ->
  (forall r, Q r = true -> forallb Q (idents R (rd_body (g_def G r))) = true) ->
  (forall w, g_ws G = Some w -> Q w = true) ->
  (forall c, g_comment G = Some c -> Q c = true) ->
  (forall r, silentb R G r = true -> rd_trivia (g_def G r) = true -> Q r = true) ->
  forall S : R -> list R -> Prop,
  (forall r, silentb R G r = true -> Q r = false -> forall l, tops R G Q S (rd_body (g_def G r)) l -> S r l) ->
  forall f m a e, a <> Atomic -> forall s,
  match run G f m a false e s with
  | Peg.Ok s' => exists new, out s' = new ++ out s /\ tops R G Q S e (map (troot R) (rev new))
  | Peg.Fail s' => out s' = out s
  | _ => True
  end.
Print Assumptions C09_shape_top_level_pairs.

(* The two hypotheses of C09_parse_keeps_comments as facts about Peg.parse.  C09_shape_items_full is PROVED below
   (C09_shape_items: the tree-level facts C09_shape_comment_texts / C09_shape_inner_pairs / C09_shape_do_statement carried
   through PegToItems.conv to every nested item, proofs/PegShapeItems.v).  C09_view_items_full is proved further down
   (C09_view_items): that conv reads EVERY comment / eol_comment pair needs the inner-pair shapes of all ~30 structural
   rules (list, record, lambda, conditional, call_list, ...) and an induction of the size of conv_shape.  Both are also
   tested on every interpreter tree by the C09P / REPARSE streams. *)
Definition C09_shape_items_full : Prop := forall fuel text s',
  Peg.parse blots_grammar fuel PG_input text = Peg.Ok s' -> forest_shape_ok text (rev (out s')) = true.
Definition C09_view_items_full : Prop := forall fuel text s',
  Peg.parse blots_grammar fuel PG_input text = Peg.Ok s' -> forest_view_ok text (rev (out s')) = true.

(* the comment part of atoms_ok at program level: under the hypotheses of C09_parse_keeps_comments every comment of
   the commented program the parser model builds is "//" ++ r with no line feed in r (what is missing for
   ScanFmt.comment_ok is only a bare carriage return inside r, which the grammar admits) *)
Require Import Blots.proofs.PegShapeProgram.
Theorem C09_parsed_program_comment_texts : forall text forest p,
  parse_program_c text = PCOk forest p ->
  forest_view_ok text forest = true -> forest_shape_ok text forest = true ->
  forest_no_empty_container text forest = true ->
  Forall comment_text_ok (program_comments p).
Proof. exact parsed_program_comment_texts. Qed.
Check C09_parsed_program_comment_texts : forall text forest p,
  parse_program_c text = PCOk forest p ->
  forest_view_ok text forest = true -> forest_shape_ok text forest = true ->
  forest_no_empty_container text forest = true ->
  Forall comment_text_ok (program_comments p).
Print Assumptions C09_parsed_program_comment_texts.

(* FIRST-byte analysis of the interpreter, every grammar: if an expression succeeds, either the remaining input is
   unchanged (and the expression is nullable) or its first byte belongs to [first e]; rule references go through two
   tables (Fst, Nul) closed under unfolding rule bodies *)
Require Import Blots.proofs.PegShapeFirst.
Theorem C09_shape_first_byte :
  forall (R : Type) (G : grammar R) (Fst : R -> Ascii.ascii -> bool) (Nul : R -> bool),
  (forall r c, first R G Fst Nul (rd_body (g_def G r)) c = true -> Fst r c = true) ->
  (forall r, nullable R Nul (rd_body (g_def G r)) = true -> Nul r = true) ->
  forall f, first_runner R G Fst Nul (run G f).
Proof. exact run_first. Qed.
Check C09_shape_first_byte :
  forall (R : Type) (G : grammar R) (Fst : R -> Ascii.ascii -> bool) (Nul : R -> bool),
  (forall r c, first R G Fst Nul (rd_body (g_def G r)) c = true -> Fst r c = true) ->
  (forall r, nullable R Nul (rd_body (g_def G r)) = true -> Nul r = true) ->
  forall f, first_runner R G Fst Nul (run G f).
Print Assumptions C09_shape_first_byte.

(* third conjunct of do_shape at tree level: for every accepted text, the inner pairs of every do_statement node are
   [expression], [expression; comment] or [comment] — never [comment; comment]: the `comment` rule stops at a line break
   or the end of the input, where `WHITESPACE* ~ comment` cannot start *)
Theorem C09_shape_do_statement : forall fuel text s',
  Peg.parse blots_grammar fuel PG_input text = Peg.Ok s' ->
  forest_all grule text C_do_statement (rev (out s')).
Proof. exact shape_do_statement. Qed.
Check C09_shape_do_statement : forall fuel text s',
  Peg.parse blots_grammar fuel PG_input text = Peg.Ok s' ->
  forest_all grule text C_do_statement (rev (out s')).
Print Assumptions C09_shape_do_statement.

(* forest_shape_ok — hypothesis of C09_parse_keeps_comments — holds of EVERY result of
   Peg.parse on the regenerated grammar, for every text and fuel *)
Require Import Blots.proofs.PegShapeItems Blots.proofs.PegShapeCompose.
Theorem C09_shape_items : C09_shape_items_full.
Proof. exact parse_forest_shape_ok. Qed.
Check C09_shape_items : C09_shape_items_full.
Check C09_shape_items : forall fuel text s',
  Peg.parse blots_grammar fuel PG_input text = Peg.Ok s' -> forest_shape_ok text (rev (out s')) = true.
Print Assumptions C09_shape_items.

(* (a') parser half from the TEXT, shape hypothesis discharged: the comment / eol_comment pairs of the tree the PEG model
   builds = the comments of the commented program, given only that the item view reads every comment pair (flag V,
   tested) and outside the exclusion C09-empty-container *)
Theorem C09_parse_keeps_comments_text : forall text forest p,
  parse_program_c text = PCOk forest p ->
  forest_view_ok text forest = true ->
  forest_no_empty_container text forest = true ->
  program_comments p = forest_comments text forest.
Proof. exact parse_keeps_comments_text. Qed.
Check C09_parse_keeps_comments_text : forall text forest p,
  parse_program_c text = PCOk forest p ->
  forest_view_ok text forest = true ->
  forest_no_empty_container text forest = true ->
  program_comments p = forest_comments text forest.
Print Assumptions C09_parse_keeps_comments_text.

(* (b') text -> emitted text, both drivers, shape and wf_ast discharged *)
Theorem C09_text_to_text_lib :
  forall O key_ok, (forall k, key_ok k = true -> neutral (o_record_key O k)) ->
  forall text forest p mw d,
  parse_program_c text = PCOk forest p ->
  forest_view_ok text forest = true -> forest_no_empty_container text forest = true ->
  Forall (stmt_ok_parsed O key_ok mw) p -> format_lib O mw p = Some d ->
  scan_comments (render d) = forest_comments text forest.
Proof. exact text_to_text_lib. Qed.
Check C09_text_to_text_lib :
  forall O key_ok, (forall k, key_ok k = true -> neutral (o_record_key O k)) ->
  forall text forest p mw d,
  parse_program_c text = PCOk forest p ->
  forest_view_ok text forest = true -> forest_no_empty_container text forest = true ->
  Forall (stmt_ok_parsed O key_ok mw) p -> format_lib O mw p = Some d ->
  scan_comments (render d) = forest_comments text forest.
Print Assumptions C09_text_to_text_lib.
Theorem C09_text_to_text_cli :
  forall O key_ok, (forall k, key_ok k = true -> neutral (o_record_key O k)) ->
  forall text forest p,
  parse_program_c text = PCOk forest p ->
  forest_view_ok text forest = true -> forest_no_empty_container text forest = true ->
  Forall (stmt_ok_parsed O key_ok None) p ->
  scan_comments (render (format_cli O p)) = forest_comments text forest.
Proof. exact text_to_text_cli. Qed.
Check C09_text_to_text_cli :
  forall O key_ok, (forall k, key_ok k = true -> neutral (o_record_key O k)) ->
  forall text forest p,
  parse_program_c text = PCOk forest p ->
  forest_view_ok text forest = true -> forest_no_empty_container text forest = true ->
  Forall (stmt_ok_parsed O key_ok None) p ->
  scan_comments (render (format_cli O p)) = forest_comments text forest.
Print Assumptions C09_text_to_text_cli.

(* ================================================================== forest_view_ok proved of Peg.parse
   (proofs/PegView.v, PegViewItems.v, PegViewCompose.v): the item view PegToItems.conv and the statement loop read
   EVERY comment / eol_comment pair of the tree.
   Grammar level: a uniform per-rule postcondition C_view, COMPUTED from gen/Grammar.v (vnames r: the rule names an
   inner pair of r can have, silent rules unfolded through a table that is itself computed by iterating PegShape.enum;
   venum r: the finite list of inner-pair name sequences where the body has no pair-yielding repetition; atomic rules:
   no inner pair), holds of every node of every tree of every parse (generic machinery of PegShape.v).
   Tree level: three rule classes computed from vnames (Fb comment-free, Vb read completely by conv, Tb transparent)
   and an induction on the fuel of conv over all ten structural arms of conv. *)
Require Import Blots.proofs.PegView Blots.proofs.PegViewItems Blots.proofs.PegViewCompose.

(* every node of every tree of every accepted text satisfies the computed inner-pair specification *)
Theorem C09_view_inner_pairs : forall fuel text s',
  Peg.parse blots_grammar fuel PG_input text = Peg.Ok s' ->
  forest_all grule text C_view (rev (out s')).
Proof. exact view_nodes. Qed.
Check C09_view_inner_pairs : forall fuel text s',
  Peg.parse blots_grammar fuel PG_input text = Peg.Ok s' ->
  forest_all grule text C_view (rev (out s')).
Print Assumptions C09_view_inner_pairs.

(* what the computed specification says for some rules (regenerated grammar; a grammar change that adds an inner pair
   the glue code does not read changes these tables and breaks conv_view) *)
Example C09_view_spec_list_item :
  venum PG_list_item = Some [[PG_spread_expression]; [PG_spread_expression; PG_eol_comment];
                             [PG_expression]; [PG_expression; PG_eol_comment]].
Proof. vm_compute. reflexivity. Qed.
Example C09_view_spec_do_statement :
  venum PG_do_statement = Some [[PG_expression]; [PG_expression; PG_comment]; [PG_comment]; [PG_comment; PG_comment]].
Proof. vm_compute. reflexivity. Qed.
Example C09_view_spec_lambda : venum PG_lambda = Some [[PG_argument_list; PG_lambda_expression]].
Proof. vm_compute. reflexivity. Qed.
Example C09_view_spec_comment_has_no_inner_pair : venum PG_comment = Some [[]] /\ venum PG_eol_comment = Some [[]].
Proof. split; vm_compute; reflexivity. Qed.
Example C09_view_spec_list_names : forallb (fun r => gmem r [PG_comment; PG_list_item]) (vnames PG_list) = true.
Proof. vm_compute. reflexivity. Qed.
Example C09_view_comment_free_rules :
  Fb PG_argument_list = true /\ Fb PG_record_key_static = true /\ Fb PG_string = true /\ Fb PG_dot_access = true /\
  Fb PG_expression = false /\ Fb PG_list_item = false /\ Fb PG_record_key_dynamic = false.
Proof. repeat split; vm_compute; reflexivity. Qed.

(* the top-level pairs of a parse are `statement` pairs and the EOI pair *)
Theorem C09_view_top_level : forall fuel text s',
  Peg.parse blots_grammar fuel PG_input text = Peg.Ok s' ->
  Forall (fun t => trule t = PG_statement \/ trule t = PG_EOI) (rev (out s')).
Proof. exact view_top_names. Qed.
Check C09_view_top_level : forall fuel text s',
  Peg.parse blots_grammar fuel PG_input text = Peg.Ok s' ->
  Forall (fun t => trule t = PG_statement \/ trule t = PG_EOI) (rev (out s')).
Print Assumptions C09_view_top_level.

(* tree level, every text and tree: on a tree whose nodes satisfy C_view, the item of a pair in expression position
   carries exactly the comment / eol_comment pairs of the pair's subtree (fuel of conv at least the depth) *)
Theorem C09_view_conv : forall text f t,
  wgood text f t -> Vb (trule t) = true -> item_comments (conv text f t) = tree_comments text t.
Proof. exact conv_view. Qed.
Check C09_view_conv : forall text f t,
  tree_ok grule text C_view t /\ tree_depth t <= f -> Vb (trule t) = true ->
  item_comments (conv text f t) = tree_comments text t.
Print Assumptions C09_view_conv.

(* forest_view_ok — hypothesis of C09_parse_keeps_comments — holds of EVERY result of Peg.parse on the
   regenerated grammar, for every text and fuel *)
Theorem C09_view_items : C09_view_items_full.
Proof. exact parse_forest_view_ok. Qed.
Check C09_view_items : C09_view_items_full.
Check C09_view_items : forall fuel text s',
  Peg.parse blots_grammar fuel PG_input text = Peg.Ok s' -> forest_view_ok text (rev (out s')) = true.
Print Assumptions C09_view_items.

(* (a'') parser half from the TEXT, both tree hypotheses discharged: the comment / eol_comment pairs of the tree the
   PEG model builds = the comments of the commented program, outside the exclusion C09-empty-container *)
Theorem C09_parse_keeps_comments_text_total : forall text forest p,
  parse_program_c text = PCOk forest p ->
  forest_no_empty_container text forest = true ->
  program_comments p = forest_comments text forest.
Proof. exact parse_keeps_comments_text_total. Qed.
Check C09_parse_keeps_comments_text_total : forall text forest p,
  parse_program_c text = PCOk forest p ->
  forest_no_empty_container text forest = true ->
  program_comments p = forest_comments text forest.
Print Assumptions C09_parse_keeps_comments_text_total.

Theorem C09_parsed_program_comment_texts_total : forall text forest p,
  parse_program_c text = PCOk forest p ->
  forest_no_empty_container text forest = true ->
  Forall comment_text_ok (program_comments p).
Proof. exact parsed_program_comment_texts_total. Qed.
Check C09_parsed_program_comment_texts_total : forall text forest p,
  parse_program_c text = PCOk forest p ->
  forest_no_empty_container text forest = true ->
  Forall comment_text_ok (program_comments p).
Print Assumptions C09_parsed_program_comment_texts_total.

(* (b'') text -> emitted text, both drivers: remaining hypotheses only the exclusion and the formatter half *)
Theorem C09_text_to_text_lib_total :
  forall O key_ok, (forall k, key_ok k = true -> neutral (o_record_key O k)) ->
  forall text forest p mw d,
  parse_program_c text = PCOk forest p ->
  forest_no_empty_container text forest = true ->
  Forall (stmt_ok_parsed O key_ok mw) p -> format_lib O mw p = Some d ->
  scan_comments (render d) = forest_comments text forest.
Proof. exact text_to_text_lib_total. Qed.
Check C09_text_to_text_lib_total :
  forall O key_ok, (forall k, key_ok k = true -> neutral (o_record_key O k)) ->
  forall text forest p mw d,
  parse_program_c text = PCOk forest p ->
  forest_no_empty_container text forest = true ->
  Forall (stmt_ok_parsed O key_ok mw) p -> format_lib O mw p = Some d ->
  scan_comments (render d) = forest_comments text forest.
Print Assumptions C09_text_to_text_lib_total.
Theorem C09_text_to_text_cli_total :
  forall O key_ok, (forall k, key_ok k = true -> neutral (o_record_key O k)) ->
  forall text forest p,
  parse_program_c text = PCOk forest p ->
  forest_no_empty_container text forest = true ->
  Forall (stmt_ok_parsed O key_ok None) p ->
  scan_comments (render (format_cli O p)) = forest_comments text forest.
Proof. exact text_to_text_cli_total. Qed.
Check C09_text_to_text_cli_total :
  forall O key_ok, (forall k, key_ok k = true -> neutral (o_record_key O k)) ->
  forall text forest p,
  parse_program_c text = PCOk forest p ->
  forest_no_empty_container text forest = true ->
  Forall (stmt_ok_parsed O key_ok None) p ->
  scan_comments (render (format_cli O p)) = forest_comments text forest.
Print Assumptions C09_text_to_text_cli_total.

(* the hypotheses of the _total theorems are satisfiable: a 13-line text with comments at every position class the item
   view reads (statement comment, statement end-of-line, list leading / end-of-line / last item, record, do-block comment,
   do_statement end-of-line); all eight comment pairs of the tree are the eight comments of the parsed program *)
Example C09_total_hypotheses_satisfiable :
  exists forest p,
    parse_program_c view_witness = PCOk forest p
    /\ forest_no_empty_container view_witness forest = true
    /\ forest_comments view_witness forest =
       ["// top"; "// lead"; "// eol"; "// e2"; "// stmt"; "// ra"; "// dc"; "// ds"]%string
    /\ program_comments p = forest_comments view_witness forest.
Proof. exact total_hypotheses_satisfiable. Qed.

(* ======================================================================================================
   The formatter-half hypothesis stmt_ok_parsed of the _total theorems, discharged as far as the parser
   model allows (proofs/PegAtomsC09Scan.v, proofs/PegAtomsC09.v; notes/ext-atoms.md).
   comment_ok_cr = what the formatter-half proofs really need of a comment text: "//" + text without line feed that
   does not END in a carriage return (a bare CR inside is fine; ScanFmt.comment_ok forbids every CR). *)
Require Import Blots.proofs.PegAtomsC09Scan Blots.proofs.PegAtomsC09.

Theorem C09_comment_ok_cr_is_comment_text : forall c, comment_ok_cr c = true -> is_comment_text c.
Proof. exact comment_ok_cr_text. Qed.
Check C09_comment_ok_cr_is_comment_text : forall c, comment_ok_cr c = true -> is_comment_text c.
Print Assumptions C09_comment_ok_cr_is_comment_text.

Theorem C09_comment_ok_cr_weaker : forall c, comment_ok c = true -> comment_ok_cr c = true.
Proof. exact comment_ok_weaker. Qed.
Check C09_comment_ok_cr_weaker : forall c, comment_ok c = true -> comment_ok_cr c = true.
Print Assumptions C09_comment_ok_cr_weaker.

(* the formatter half and both drivers for the weaker predicate (CR.atoms_ok / CR.stmt_ok = atoms_ok / stmt_ok with
   comment_ok_cr in place of comment_ok) *)
Theorem C09_fmtd_wf_doc_cr :
  forall O key_ok, (forall k, key_ok k = true -> neutral (o_record_key O k)) ->
  forall w e i, CR.atoms_ok key_ok e = true ->
  opaque_texts_neutral (fmtd O w e i) -> wf_doc (fmtd O w e i).
Proof. exact CR.fmtd_wf_doc. Qed.
Check C09_fmtd_wf_doc_cr :
  forall O key_ok, (forall k, key_ok k = true -> neutral (o_record_key O k)) ->
  forall w e i, CR.atoms_ok key_ok e = true ->
  opaque_texts_neutral (fmtd O w e i) -> wf_doc (fmtd O w e i).
Print Assumptions C09_fmtd_wf_doc_cr.

Theorem C09_lib_driver_text_comments_cr :
  forall O key_ok, (forall k, key_ok k = true -> neutral (o_record_key O k)) ->
  forall mw p d, Forall (CR.stmt_ok O key_ok mw) p -> format_lib O mw p = Some d ->
  scan_comments (render d) = program_comments p.
Proof. exact CR.lib_driver_text_comments. Qed.
Check C09_lib_driver_text_comments_cr :
  forall O key_ok, (forall k, key_ok k = true -> neutral (o_record_key O k)) ->
  forall mw p d, Forall (CR.stmt_ok O key_ok mw) p -> format_lib O mw p = Some d ->
  scan_comments (render d) = program_comments p.
Print Assumptions C09_lib_driver_text_comments_cr.

Theorem C09_cli_driver_text_comments_cr :
  forall O key_ok, (forall k, key_ok k = true -> neutral (o_record_key O k)) ->
  forall p, Forall (CR.stmt_ok O key_ok None) p ->
  scan_comments (render (format_cli O p)) = program_comments p.
Proof. exact CR.cli_driver_text_comments. Qed.
Check C09_cli_driver_text_comments_cr :
  forall O key_ok, (forall k, key_ok k = true -> neutral (o_record_key O k)) ->
  forall p, Forall (CR.stmt_ok O key_ok None) p ->
  scan_comments (render (format_cli O p)) = program_comments p.
Print Assumptions C09_cli_driver_text_comments_cr.

(* atoms_ok = names part + comment part *)
Theorem C09_atoms_ok_split : forall key_ok e,
  names_ok key_ok e = true -> forallb comment_ok_cr (expr_comments e) = true -> CR.atoms_ok key_ok e = true.
Proof. exact atoms_ok_split. Qed.
Check C09_atoms_ok_split : forall key_ok e,
  names_ok key_ok e = true -> forallb comment_ok_cr (expr_comments e) = true -> CR.atoms_ok key_ok e = true.
Print Assumptions C09_atoms_ok_split.

(* every comment of every parsed program satisfies comment_ok_cr, outside the two exclusions (empty container;
   a comment pair that ends in a carriage return = finding C09-comment-trailing-cr) *)
Theorem C09_parsed_program_comments_ok_cr : forall text forest p,
  parse_program_c text = PCOk forest p ->
  forest_no_empty_container text forest = true ->
  forallb no_trailing_cr (forest_comments text forest) = true ->
  forallb comment_ok_cr (program_comments p) = true.
Proof. exact parsed_program_comments_ok_cr. Qed.
Check C09_parsed_program_comments_ok_cr : forall text forest p,
  parse_program_c text = PCOk forest p ->
  forest_no_empty_container text forest = true ->
  forallb no_trailing_cr (forest_comments text forest) = true ->
  forallb comment_ok_cr (program_comments p) = true.
Print Assumptions C09_parsed_program_comments_ok_cr.

(* text -> emitted text with the COMMENT part of the formatter-half hypothesis discharged.  Remaining hypotheses:
   the two exclusions and stmt_rest_ok = names / keys (names_ok: NOT yet derived from the `identifier` rule), the
   expr_to_source texts (cfree / opaque_texts_neutral), and "a comment statement has no second comment". *)
Theorem C09_text_to_text_lib_closed :
  forall O key_ok, (forall k, key_ok k = true -> neutral (o_record_key O k)) ->
  forall text forest p mw d,
  parse_program_c text = PCOk forest p ->
  forest_no_empty_container text forest = true ->
  forallb no_trailing_cr (forest_comments text forest) = true ->
  Forall (stmt_rest_ok O key_ok mw) p -> format_lib O mw p = Some d ->
  scan_comments (render d) = forest_comments text forest.
Proof.
  intros O key_ok Hk text forest p mw d H Hn Hcr Hok Hd.
  rewrite (CR.lib_driver_text_comments O key_ok Hk mw p d); [| |exact Hd].
  - exact (parse_keeps_comments_text_total text forest p H Hn).
  - apply program_ok_cr_of_rest; [exact (parse_program_c_wf _ _ _ H)|exact Hok|].
    exact (parsed_program_comments_ok_cr text forest p H Hn Hcr).
Qed.
Check C09_text_to_text_lib_closed :
  forall O key_ok, (forall k, key_ok k = true -> neutral (o_record_key O k)) ->
  forall text forest p mw d,
  parse_program_c text = PCOk forest p ->
  forest_no_empty_container text forest = true ->
  forallb no_trailing_cr (forest_comments text forest) = true ->
  Forall (stmt_rest_ok O key_ok mw) p -> format_lib O mw p = Some d ->
  scan_comments (render d) = forest_comments text forest.
Print Assumptions C09_text_to_text_lib_closed.
Theorem C09_text_to_text_cli_closed :
  forall O key_ok, (forall k, key_ok k = true -> neutral (o_record_key O k)) ->
  forall text forest p,
  parse_program_c text = PCOk forest p ->
  forest_no_empty_container text forest = true ->
  forallb no_trailing_cr (forest_comments text forest) = true ->
  Forall (stmt_rest_ok O key_ok None) p ->
  scan_comments (render (format_cli O p)) = forest_comments text forest.
Proof.
  intros O key_ok Hk text forest p H Hn Hcr Hok.
  rewrite (CR.cli_driver_text_comments O key_ok Hk p).
  - exact (parse_keeps_comments_text_total text forest p H Hn).
  - apply program_ok_cr_of_rest; [exact (parse_program_c_wf _ _ _ H)|exact Hok|].
    exact (parsed_program_comments_ok_cr text forest p H Hn Hcr).
Qed.
Check C09_text_to_text_cli_closed :
  forall O key_ok, (forall k, key_ok k = true -> neutral (o_record_key O k)) ->
  forall text forest p,
  parse_program_c text = PCOk forest p ->
  forest_no_empty_container text forest = true ->
  forallb no_trailing_cr (forest_comments text forest) = true ->
  Forall (stmt_rest_ok O key_ok None) p ->
  scan_comments (render (format_cli O p)) = forest_comments text forest.
Print Assumptions C09_text_to_text_cli_closed.

(* the exclusion is necessary at the scanner level (finding C09-comment-trailing-cr): a comment that ends in CR,
   followed by the line break every layout emits after a comment, is re-read WITHOUT its CR *)
Lemma C09_comment_trailing_cr_refuted :
  comment_ok_cr trailing_cr_comment = false /\
  scan_comments (trailing_cr_comment +++ nl) <> [trailing_cr_comment].
Proof. split; [exact (proj1 comment_trailing_cr_refuted)|exact (proj2 (proj2 comment_trailing_cr_refuted))]. Qed.
(* the weaker predicate admits a bare CR inside a comment (`// a<CR>b`), which ScanFmt.comment_ok refuses *)
Example C09_comment_ok_cr_bare_cr :
  comment_ok_cr bare_cr_comment = true /\ comment_ok bare_cr_comment = false /\
  scan_comments (bare_cr_comment +++ nl) = [bare_cr_comment].
Proof. exact comment_bare_cr_ok. Qed.
