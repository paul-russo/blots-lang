(* C01 — No input crashes the parse / evaluate / serialise / format pipeline; reported error
   locations lie inside their text.

   What the model carries (this file): the evaluator stage, and further down the text layer in front of
   it.  The model returns the explicit outcome [Panic] exactly where the Rust code has a partial
   operation on a modelled path (`args[i]`, `list[idx]`, unreachable!(), Environment::insert into a
   shared frame), so "never Panic" is a statement about the guards of the code, not about
   Coq's totality.  Theorems: for every depth budget, expression and configuration whose
   innermost frame is Owned ([wf], shown to be preserved), evaluation never returns Panic —
   first for ANY operator / built-in implementation that does not panic when its callback does
   not, then with those hypotheses discharged for the transcriptions in the tree: the small
   dispatcher EvalInst.builtin_impl first, the complete built-in set (EvalAll.v) after it.
   What it does not carry: pest, ariadne, serde_json and the formatter/printer string code — those
   stages are decided by the implementation-level search of checks/c01.py (in-process catch_unwind
   per stage + exit status of the real binary, debug and release).  Error spans are not part of the
   model (Err carries no payload): the span-inside-source half is search only.                *)
From Coq Require Import String List ZArith Bool Lia.
Require Import Blots.Num Blots.gen.Builtins Blots.Ast Blots.Value Blots.Outcome Blots.Binop
               Blots.Env Blots.Eval Blots.BuiltinsHof Blots.Program Blots.EvalInst
               Blots.Access Blots.BuiltinsList Blots.proofs.Closures Blots.proofs.NoPanic
               Blots.proofs.NoPanicList.
Import ListNotations.
Open Scope string_scope.

(* ---- the evaluator never panics, for every implementation of operators and built-ins that
        does not panic itself (release / debug is the parameter [release]) ---- *)
Theorem C01_eval_no_panic : forall release bi bu,
  (forall cb op l r st, cb_safe cb -> fst (bi cb op l r st) <> Panic) ->
  (forall cb b args st, cb_safe cb ->
     can_accept (builtin_arity b) (Datatypes.length args) = true ->
     fst (bu cb b args st) <> Panic) ->
  (forall n, factorial_val release n <> Panic) ->
  forall d c e, wf c -> fst (evalD release bi bu d c e) <> Panic.
Proof. exact evalD_no_panic. Qed.
Check C01_eval_no_panic : forall release bi bu,
  (forall cb op l r st, cb_safe cb -> fst (bi cb op l r st) <> Panic) ->
  (forall cb b args st, cb_safe cb ->
     can_accept (builtin_arity b) (Datatypes.length args) = true ->
     fst (bu cb b args st) <> Panic) ->
  (forall n, factorial_val release n <> Panic) ->
  forall d c e, wf c -> fst (evalD release bi bu d c e) <> Panic.
Print Assumptions C01_eval_no_panic.

(* ---- the invariant is preserved: whatever is evaluated, with whatever outcome, the
        innermost frame of the chain handed back is still an Owned one ---- *)
Theorem C01_wf_preserved : forall release bi bu d c e r c',
  evalD release bi bu d c e = (r, c') -> wf c -> wf c'.
Proof. exact evalD_keeps_wf. Qed.
Check C01_wf_preserved : forall release bi bu d c e r c',
  evalD release bi bu d c e = (r, c') -> wf c -> wf c'.
Print Assumptions C01_wf_preserved.

(* ---- FunctionDef::call: after check_arity, binding the parameters never indexes past the
        argument vector (for EVERY parameter list, documented shape or not) ---- *)
Theorem C01_bind_params_in_range : forall ps args acc,
  can_accept (lambda_arity ps) (Datatypes.length args) = true ->
  bind_params ps 0 args acc <> None.
Proof. exact bind_params_total. Qed.
Check C01_bind_params_in_range : forall ps args acc,
  can_accept (lambda_arity ps) (Datatypes.length args) = true ->
  bind_params ps 0 args acc <> None.
Print Assumptions C01_bind_params_in_range.

(* ---- evaluate_binary_op_ast (Binop.v, 26 operators x 3 broadcasting arms): no `list[idx]`
        leaves its list, no unreachable!() arm is reached ---- *)
Theorem C01_operators_no_panic : forall cb op l r st,
  cb_safe cb -> fst (binop_impl cb op l r st) <> Panic.
Proof. exact binop_impl_no_panic. Qed.
Check C01_operators_no_panic : forall cb op l r st,
  cb_safe cb -> fst (binop_impl cb op l r st) <> Panic.
Print Assumptions C01_operators_no_panic.

(* ---- BuiltInFunction::call, transcribed built-ins: every args[i] is below the arity that
        check_arity enforced (arity table regenerated from the built crate) ---- *)
Theorem C01_builtin_call_no_panic_partial : forall cb b args st,
  cb_safe cb -> can_accept (builtin_arity b) (Datatypes.length args) = true ->
  fst (builtin_impl cb b args st) <> Panic.
Proof. exact builtin_impl_no_panic. Qed.
Check C01_builtin_call_no_panic_partial : forall cb b args st,
  cb_safe cb -> can_accept (builtin_arity b) (Datatypes.length args) = true ->
  fst (builtin_impl cb b args st) <> Panic.
Print Assumptions C01_builtin_call_no_panic_partial.

(* ---- the list / string / record built-ins transcribed in BuiltinsList.v (not
        wired into EvalInst.builtin_impl, so stated over the arms themselves): after the arity
        check no arm panics.  17 pure arms as a table; `range` is not in the table — its arm has
        a second partial operation (i64 subtraction), covered by C14_range_no_panic with its
        exclusion ---- *)
Theorem C01_list_builtins_no_panic : forall b arm args,
  In (b, arm) list_builtin_arms ->
  arity_can_accept (builtin_arity b) (Datatypes.length args) = true ->
  arm args <> Panic.
Proof. exact (list_builtins_nf Avoid.FPanic). Qed.
Check C01_list_builtins_no_panic : forall b arm args,
  In (b, arm) list_builtin_arms ->
  arity_can_accept (builtin_arity b) (Datatypes.length args) = true ->
  arm args <> Panic.
Print Assumptions C01_list_builtins_no_panic.

(* sort_by / group_by / count_by: no panic when FunctionDef::call does not panic *)
Theorem C01_callback_list_builtins_no_panic :
  forall (St : Type) (call : value -> value -> list value -> St -> outcome value * St),
  (forall this f a st, fst (call this f a st) <> Panic) ->
  forall args st,
    (arity_can_accept (builtin_arity B_sort_by) (Datatypes.length args) = true ->
     fst (bi_sort_by St call args st) <> Panic) /\
    (arity_can_accept (builtin_arity B_group_by) (Datatypes.length args) = true ->
     fst (bi_group_by St call args st) <> Panic) /\
    (arity_can_accept (builtin_arity B_count_by) (Datatypes.length args) = true ->
     fst (bi_count_by St call args st) <> Panic).
Proof.
  intros St call Hc args st. repeat split; intros Ha; arity_fact Ha.
  - apply (Avoid.bi_sort_by_nf Avoid.FPanic); [exact Hc|lia].
  - apply (Avoid.bi_group_by_nf Avoid.FPanic); [exact Hc|lia].
  - apply (Avoid.bi_count_by_nf Avoid.FPanic); [exact Hc|lia].
Qed.
Check C01_callback_list_builtins_no_panic :
  forall (St : Type) (call : value -> value -> list value -> St -> outcome value * St),
  (forall this f a st, fst (call this f a st) <> Panic) ->
  forall args st,
    (arity_can_accept (builtin_arity B_sort_by) (Datatypes.length args) = true ->
     fst (bi_sort_by St call args st) <> Panic) /\
    (arity_can_accept (builtin_arity B_group_by) (Datatypes.length args) = true ->
     fst (bi_group_by St call args st) <> Panic) /\
    (arity_can_accept (builtin_arity B_count_by) (Datatypes.length args) = true ->
     fst (bi_count_by St call args st) <> Panic).
Print Assumptions C01_callback_list_builtins_no_panic.

(* trim / uppercase / lowercase / join: for EVERY Unicode-table and number-printing oracle *)
Theorem C01_text_builtins_no_panic :
  forall (str_trim str_upper str_lower : string -> string) (num_str : num -> string)
         (lam_str : list lamarg -> expr -> list (string * value) -> string) args,
    (arity_can_accept (builtin_arity B_trim) (Datatypes.length args) = true -> bi_trim str_trim args <> Panic) /\
    (arity_can_accept (builtin_arity B_uppercase) (Datatypes.length args) = true -> bi_uppercase str_upper args <> Panic) /\
    (arity_can_accept (builtin_arity B_lowercase) (Datatypes.length args) = true -> bi_lowercase str_lower args <> Panic) /\
    (arity_can_accept (builtin_arity B_join) (Datatypes.length args) = true -> bi_join num_str lam_str args <> Panic).
Proof.
  intros. repeat split; intros Ha.
  - apply (trim_nf Avoid.FPanic); assumption.
  - apply (uppercase_nf Avoid.FPanic); assumption.
  - apply (lowercase_nf Avoid.FPanic); assumption.
  - apply (join_nf Avoid.FPanic); assumption.
Qed.
Check C01_text_builtins_no_panic :
  forall (str_trim str_upper str_lower : string -> string) (num_str : num -> string)
         (lam_str : list lamarg -> expr -> list (string * value) -> string) args,
    (arity_can_accept (builtin_arity B_trim) (Datatypes.length args) = true -> bi_trim str_trim args <> Panic) /\
    (arity_can_accept (builtin_arity B_uppercase) (Datatypes.length args) = true -> bi_uppercase str_upper args <> Panic) /\
    (arity_can_accept (builtin_arity B_lowercase) (Datatypes.length args) = true -> bi_lowercase str_lower args <> Panic) /\
    (arity_can_accept (builtin_arity B_join) (Datatypes.length args) = true -> bi_join num_str lam_str args <> Panic).
Print Assumptions C01_text_builtins_no_panic.

(* the arms DO panic without the arity check (the guard is what the theorems are about) *)
Example C01_list_arm_panics_without_arity_check :
  bi_slice [VList []] = Panic /\ bi_chunk [VList []] = Panic /\ bi_len [] = Panic.
Proof. repeat split; vm_compute; reflexivity. Qed.

(* Full statement over the small dispatcher, kept as a Definition: every built-in has a transcribed arm
   wired into EvalInst.builtin_impl and none panics.  It is REFUTED further down
   (C01_builtin_call_no_panic_full_refuted): the arms of BuiltinsList.v / BuiltinsAgg.v / BuiltinsText.v
   are wired into EvalFull.builtin_full and EvalAll.builtin_all, not into builtin_impl, which answers
   Unmodelled for them; what it was meant to say is C01_builtin_call_no_panic_all +
   C01_builtin_call_never_unmodelled_all. *)
Definition C01_builtin_call_no_panic_full : Prop :=
  forall cb b args st, cb_safe cb ->
    can_accept (builtin_arity b) (Datatypes.length args) = true ->
    fst (builtin_impl cb b args st) <> Panic /\ fst (builtin_impl cb b args st) <> Unmodelled.

(* ---- the factorial: `(1..=min(n as u64, 171))` has no partial operation in either build.
        Before repo fix def3962 (proposed as fixes/C01-factorial-overflow.diff) the bound was
        `(n as u64) + 1`, which overflowed for n >= 2^64 in builds with overflow checks; the
        model then had a Panic arm for release = false and this theorem was refuted by
        `18446744073709551616!`. ---- *)
Theorem C01_factorial_no_panic : forall release n, factorial_val release n <> Panic.
Proof. exact factorial_no_panic. Qed.
Check C01_factorial_no_panic : forall release n, factorial_val release n <> Panic.
Print Assumptions C01_factorial_no_panic.

(* ---- FunctionDef::call at every depth, and the evaluator, instantiated with the transcribed
        operators and built-ins, for both overflow semantics ---- *)
Theorem C01_call_no_panic : forall release d fr this f args st,
  fst (AD release binop_impl builtin_impl d fr this f args st) <> Panic.
Proof.
  intros release d fr. apply AD_no_panic.
  - exact binop_impl_no_panic.
  - exact builtin_impl_no_panic.
  - exact (factorial_no_panic release).
Qed.
Check C01_call_no_panic : forall release d fr this f args st,
  fst (AD release binop_impl builtin_impl d fr this f args st) <> Panic.
Print Assumptions C01_call_no_panic.

Theorem C01_eval_inst_no_panic : forall release d c e,
  wf c -> fst (evalD release binop_impl builtin_impl d c e) <> Panic.
Proof. exact eval_inst_no_panic. Qed.
Check C01_eval_inst_no_panic : forall release d c e,
  wf c -> fst (evalD release binop_impl builtin_impl d c e) <> Panic.
Print Assumptions C01_eval_inst_no_panic.

(* ---- whole programs: the statement loop of evaluate_source, from any inputs record ---- *)
Theorem C01_program_no_panic : forall release inputs prog,
  Forall (fun rs => fst rs <> RFail Panic)
         (snd (run (eval_top release binop_impl builtin_impl) (init_session inputs) prog)).
Proof. exact program_no_panic. Qed.
Check C01_program_no_panic : forall release inputs prog,
  Forall (fun rs => fst rs <> RFail Panic)
         (snd (run (eval_top release binop_impl builtin_impl) (init_session inputs) prog)).
Print Assumptions C01_program_no_panic.

(* the former witness of the debug-build refutation now evaluates to +inf in both builds *)
Definition two_pow_64 : num := num_of_Z 18446744073709551616.
Example C01_factorial_of_2_64 :
  fst (eval_debug (s_cfg (init_session [])) (EFact (ENum two_pow_64))) = Ok (VNum npinf) /\
  fst (eval_release (s_cfg (init_session [])) (EFact (ENum two_pow_64))) = Ok (VNum npinf).
Proof. split; vm_compute; reflexivity. Qed.

(* ---- the hypotheses are satisfiable / the statements are not vacuous ---- *)
(* wf holds of every session start, whatever the inputs *)
Example C01_wf_initial : forall inputs, wf (s_cfg (init_session inputs)).
Proof. reflexivity. Qed.
(* the Panic arms are live code of the model: a shared head frame makes an assignment panic,
   an argument vector shorter than the arity makes map panic, and `Into` reaching the
   list-to-list arm panics — so the theorems above say something about the guards *)
Example C01_panic_is_reachable_without_wf :
  fst (eval_release ([], [(FShared, [])]) (EDo [Cm [] (EAssign "x" (ENum nzero)) None] (Cm [] ENull None)))
  <> Panic /\
  fst (eval_release ([], [(FShared, [])]) (EAssign "x" (ENum nzero))) = Panic.
Proof. split; vm_compute; [discriminate|reflexivity]. Qed.
Example C01_panic_without_arity_check :
  fst (builtin_impl (fun _ _ _ st => (Err, st)) B_map [VList []] []) = Panic.
Proof. vm_compute. reflexivity. Qed.
Example C01_unreachable_arm_is_modelled :
  fst (arm_list_list store (fun _ _ _ st => (Err, st)) powf_stub Into [] [] []) = Panic.
Proof. vm_compute. reflexivity. Qed.
(* a callback-safe callback exists: FunctionDef::call itself at any depth *)
Example C01_cb_safe_inhabited : cb_safe (AD true binop_impl builtin_impl 3 []).
Proof. intros this f args st. apply C01_call_no_panic. Qed.
(* the hypotheses of C01_eval_no_panic are satisfied by the real transcriptions *)
Example C01_hypotheses_satisfied : forall release d c e,
  wf c -> fst (evalD release binop_impl builtin_impl d c e) <> Panic.
Proof.
  intros release. apply C01_eval_no_panic.
  - exact C01_operators_no_panic.
  - exact C01_builtin_call_no_panic_partial.
  - exact (C01_factorial_no_panic release).
Qed.

(* ==================================================================================================
   THE COMPLETE BUILT-IN SET (EvalAll.v): `builtin_all o` has an arm for every row of the regenerated
   table — the 54 transcribed ones of EvalFull.builtin_full plus sin cos tan asin acos atan log log10
   exp (libm), trim uppercase lowercase (Unicode tables), format (dyn-fmt transcribed, numbers through
   C20's format_display_number), print (the line handed to eprintln!), time_now (the clock), and
   to_string / join on values containing functions — where every library function is a field of the
   ORACLE record o.  The theorems hold for EVERY oracle.
   ================================================================================================== *)
Require Import Blots.EvalFull Blots.EvalAll Blots.DisplayNum Blots.proofs.AggPanics Blots.proofs.AllNoPanic.
From Coq Require Import Floats.SpecFloat.

(* ---- C01_builtin_call_no_panic_full, for the dispatcher that really has every arm: after the arity
        check no arm panics.  Two named side conditions, each about something outside the
        transcription, each NECESSARY in the model (a third, time_now's "clock not before 1970", went away
        with repo fix bf56486: the arm is total now and so is the model's):
          percentile  p is a genuine double, the list has <= 2^53 elements (AggPanics.args_ok; spec_float
                      has non-canonical inhabitants that no f64 corresponds to);
          format      displaying the numbers among the arguments does not overflow the i32 / i64
                      arithmetic of format_display_number (true of every genuine double under the real
                      log10: C01_format_condition_holds_for_doubles). ---- *)
Theorem C01_builtin_call_no_panic_all : forall o cb b args st,
  cb_safe cb -> can_accept (builtin_arity b) (Datatypes.length args) = true ->
  (b = B_percentile -> args_ok args) ->
  (b = B_format -> format_display_safe o args) ->
  fst (builtin_all o cb b args st) <> Panic.
Proof. exact builtin_all_no_panic. Qed.
Check C01_builtin_call_no_panic_all : forall o cb b args st,
  cb_safe cb -> can_accept (builtin_arity b) (Datatypes.length args) = true ->
  (b = B_percentile -> args_ok args) ->
  (b = B_format -> format_display_safe o args) ->
  fst (builtin_all o cb b args st) <> Panic.
Print Assumptions C01_builtin_call_no_panic_all.

(* the same with percentile's arm as the hypothesis: no axiom at all (the args_ok form above inherits the
   standard library's real-number axioms from C15's bound on percentile's rounded index) *)
Theorem C01_builtin_call_no_panic_all_axiom_free : forall o cb b args st,
  cb_safe cb -> can_accept (builtin_arity b) (Datatypes.length args) = true ->
  (b = B_percentile -> BuiltinsAgg.bi_percentile args <> Panic) ->
  (b = B_format -> format_display_safe o args) ->
  fst (builtin_all o cb b args st) <> Panic.
Proof. exact builtin_all_no_panic_gen. Qed.
Check C01_builtin_call_no_panic_all_axiom_free : forall o cb b args st,
  cb_safe cb -> can_accept (builtin_arity b) (Datatypes.length args) = true ->
  (b = B_percentile -> BuiltinsAgg.bi_percentile args <> Panic) ->
  (b = B_format -> format_display_safe o args) ->
  fst (builtin_all o cb b args st) <> Panic.
Print Assumptions C01_builtin_call_no_panic_all_axiom_free.

(* the same for the 54 transcribed built-ins alone (EvalFull.builtin_full): only percentile's condition *)
Theorem C01_builtin_full_no_panic : forall cb b args st,
  cb_safe cb -> can_accept (builtin_arity b) (Datatypes.length args) = true ->
  (b = B_percentile -> args_ok args) ->
  fst (builtin_full cb b args st) <> Panic.
Proof. exact builtin_full_no_panic. Qed.
Check C01_builtin_full_no_panic : forall cb b args st,
  cb_safe cb -> can_accept (builtin_arity b) (Datatypes.length args) = true ->
  (b = B_percentile -> args_ok args) ->
  fst (builtin_full cb b args st) <> Panic.
Print Assumptions C01_builtin_full_no_panic.

(* the format condition for genuine doubles: every number among the arguments is a valid binary64 and
   floor(log10 a) as i32 stays within +-2000 (the real function's range on doubles is [-324, 308]) *)
Theorem C01_format_condition_holds_for_doubles : forall o args,
  (forall a, (Z.abs (as_i32 (nfloor (o_log10 o a))) <= 2000)%Z) ->
  Forall (fun v => Forall (fun x => valid_binary prec emax x = true) (nums_in v)) (skipn 1 args) ->
  format_display_safe o args.
Proof. exact display_safe_of_valid. Qed.
Check C01_format_condition_holds_for_doubles : forall o args,
  (forall a, (Z.abs (as_i32 (nfloor (o_log10 o a))) <= 2000)%Z) ->
  Forall (fun v => Forall (fun x => valid_binary prec emax x = true) (nums_in v)) (skipn 1 args) ->
  format_display_safe o args.
Print Assumptions C01_format_condition_holds_for_doubles.

(* dyn-fmt's state machine (the engine of format and print) never reaches its
   `unsafe { unreachable_unchecked() }` arm, for every format string and argument list *)
Theorem C01_dyn_fmt_no_panic : forall fmt args, dyn_format fmt args <> Panic.
Proof. exact (dyn_format_nf Avoid.FPanic). Qed.
Check C01_dyn_fmt_no_panic : forall fmt args, dyn_format fmt args <> Panic.
Print Assumptions C01_dyn_fmt_no_panic.

(* `^` through the oracle's powf: the operator table with every operator modelled never panics *)
Theorem C01_operators_no_panic_all : forall o cb op l r st,
  cb_safe cb -> fst (binop_all o cb op l r st) <> Panic.
Proof. exact binop_all_no_panic. Qed.
Check C01_operators_no_panic_all : forall o cb op l r st,
  cb_safe cb -> fst (binop_all o cb op l r st) <> Panic.
Print Assumptions C01_operators_no_panic_all.

(* the Panic arms are live code of the model / the side conditions are needed *)
Example C01_time_now_is_total : forall o cb st,
  fst (builtin_all o cb B_time_now [] st) = Ok (VNum (o_now o)).
Proof. exact time_now_total. Qed.
Example C01_dyn_fmt_unreachable_arm_is_modelled : dyn_go DArg EmptyString [] = Panic.
Proof. reflexivity. Qed.
Example C01_format_slice_panics_without_arity_check : forall o, bi_format o [] = Panic.
Proof. reflexivity. Qed.

(* ---- NO EVALUATION IS UNMODELLED over the complete dispatcher.  EvalInst.builtin_impl answers Unmodelled
        for 50 built-ins, EvalFull.builtin_full for 15 (and for to_string / join of values containing
        functions), binop_impl for `^`; over EvalAll's, for every oracle, no built-in arm and no
        operator does unless its callback does, and therefore (the evaluator induction of proofs/Avoid.v
        at this outcome: proofs/AllNoUnm.v) no evaluation, no call and no program. ---- *)
Require Import Blots.proofs.AllNoUnmEval Blots.proofs.AllNoUnm.
Theorem C01_builtin_call_never_unmodelled_all : forall o cb b args st,
  (forall this f a s, fst (cb this f a s) <> Unmodelled) ->
  can_accept (builtin_arity b) (Datatypes.length args) = true ->
  fst (builtin_all o cb b args st) <> Unmodelled.
Proof. exact builtin_all_no_unm. Qed.
Check C01_builtin_call_never_unmodelled_all : forall o cb b args st,
  (forall this f a s, fst (cb this f a s) <> Unmodelled) ->
  can_accept (builtin_arity b) (Datatypes.length args) = true ->
  fst (builtin_all o cb b args st) <> Unmodelled.
Print Assumptions C01_builtin_call_never_unmodelled_all.

Theorem C01_eval_never_unmodelled_all : forall o release d c e,
  wf c -> fst (evalD release (binop_all o) (builtin_all o) d c e) <> Unmodelled.
Proof. exact evalD_all_no_unm. Qed.
Check C01_eval_never_unmodelled_all : forall o release d c e,
  wf c -> fst (evalD release (binop_all o) (builtin_all o) d c e) <> Unmodelled.
Print Assumptions C01_eval_never_unmodelled_all.

Theorem C01_program_never_unmodelled_all : forall o release inputs prog,
  Forall (fun rs => fst rs <> RFail Unmodelled)
         (snd (run (eval_top release (binop_all o) (builtin_all o)) (init_session inputs) prog)).
Proof. exact program_all_no_unm. Qed.
Check C01_program_never_unmodelled_all : forall o release inputs prog,
  Forall (fun rs => fst rs <> RFail Unmodelled)
         (snd (run (eval_top release (binop_all o) (builtin_all o)) (init_session inputs) prog)).
Print Assumptions C01_program_never_unmodelled_all.

(* the smaller dispatchers DO answer Unmodelled (so the statement is about the new arms) *)
Example C01_full_dispatcher_is_unmodelled_on_sin : forall cb st,
  fst (builtin_full cb B_sin [VNum nzero] st) = Unmodelled.
Proof. reflexivity. Qed.
Example C01_power_was_unmodelled : forall cb l r st, fst (binop_impl cb Power l r st) = Unmodelled.
Proof. reflexivity. Qed.

(* ---- FunctionDef::call over the complete dispatcher never answers Unmodelled either ---- *)
Theorem C01_call_never_unmodelled_all : forall o release d fr this f args st,
  fst (AD release (binop_all o) (builtin_all o) d fr this f args st) <> Unmodelled.
Proof. exact AD_all_no_unm. Qed.
Check C01_call_never_unmodelled_all : forall o release d fr this f args st,
  fst (AD release (binop_all o) (builtin_all o) d fr this f args st) <> Unmodelled.
Print Assumptions C01_call_never_unmodelled_all.

(* ---- the complete dispatcher is a CONSERVATIVE EXTENSION of the transcribed ones: wherever builtin_full
        answers anything but Unmodelled, builtin_all o answers the same (for every oracle: the text of a value
        without functions does not depend on how functions are printed); wherever binop_impl is modelled
        (every operator but `^`), binop_all o is binop_impl.  So the correspondence runs and theorems about
        builtin_full on modelled programs are also about builtin_all. ---- *)
Require Import Blots.proofs.AllExtends.
Theorem C01_all_extends_full : forall o cb b args st,
  fst (builtin_full cb b args st) <> Unmodelled ->
  builtin_all o cb b args st = builtin_full cb b args st.
Proof. exact builtin_all_extends_full. Qed.
Check C01_all_extends_full : forall o cb b args st,
  fst (builtin_full cb b args st) <> Unmodelled ->
  builtin_all o cb b args st = builtin_full cb b args st.
Print Assumptions C01_all_extends_full.

Theorem C01_operators_all_extend_impl : forall o cb op l r st,
  op <> Power -> binop_all o cb op l r st = binop_impl cb op l r st.
Proof. exact binop_all_extends_impl. Qed.
Check C01_operators_all_extend_impl : forall o cb op l r st,
  op <> Power -> binop_all o cb op l r st = binop_impl cb op l r st.
Print Assumptions C01_operators_all_extend_impl.

(* ---- C01_builtin_call_no_panic_full AS WRITTEN (over EvalInst.builtin_impl) is refuted by the model:
        builtin_impl answers Unmodelled for 50 of the 69 built-ins.  Its content is
        C01_builtin_call_no_panic_all + C01_builtin_call_never_unmodelled_all above. ---- *)
Lemma C01_builtin_call_no_panic_full_refuted : ~ C01_builtin_call_no_panic_full.
Proof.
  intros H.
  destruct (H (fun _ _ _ st => (Err, st)) B_sin [VNum nzero] [] ltac:(intros ? ? ? ?; discriminate) eq_refl) as [_ Hu].
  apply Hu. reflexivity.
Qed.

(* ---- dyn-fmt, the engine of format and print, is total (stronger than "never Panic") and copies text
        without braces; the placeholder / escape laws and the crate's own test cases are in
        proofs/AllFormatLaws.v ---- *)
Require Import Blots.proofs.AllFormatLaws.
Theorem C01_dyn_fmt_total : forall fmt args, exists t, dyn_format fmt args = Ok t.
Proof. exact dyn_format_total. Qed.
Check C01_dyn_fmt_total : forall fmt args, exists t, dyn_format fmt args = Ok t.
Print Assumptions C01_dyn_fmt_total.
Theorem C01_dyn_fmt_plain_text : forall fmt args, all_chars no_brace fmt = true -> dyn_format fmt args = Ok fmt.
Proof. exact dyn_format_plain. Qed.
Check C01_dyn_fmt_plain_text : forall fmt args, all_chars no_brace fmt = true -> dyn_format fmt args = Ok fmt.
Print Assumptions C01_dyn_fmt_plain_text.

(* ---- the complete model RUNS: a program through format (with a number, an oracle string and a function among
        the arguments), print over time_now, `^`, and to_string of a list holding a function — none of which
        the smaller dispatchers could evaluate — under a concrete oracle (identity functions, clock at 1 s) ---- *)
Definition ex_all_call (b : builtin) (args : list expr) : expr := ECall (EBuiltin b) args.
Definition ex_all_prog : list stmt :=
  [SExpr (ex_all_call B_format [EStr "{}|{}|{}"; ex_all_call B_sin [ENum (num_of_Z 2)];
                                ex_all_call B_uppercase [EStr "ab"]; ELam [AReq "x"] (EId "x")]);
   SExpr (ex_all_call B_print [EStr "t={}"; ex_all_call B_time_now []]);
   SExpr (EBin Power (ENum (num_of_Z 3)) (ENum (num_of_Z 4)));
   SExpr (ex_all_call B_to_string [EList [Cm [] (ELam [AReq "x"] (EId "x")) None]])].
Example C01_complete_model_runs :
  run_program_all oracle_trivial [] ex_all_prog
  = "OK:S327c61627c3c66756e6374696f6e3e;|OK:U|OK:N4008000000000000|OK:S5b3c66756e6374696f6e3e5d;;ENV:".
Proof. vm_compute. reflexivity. Qed.
(* ... and what the print call of that program writes to stderr *)
Example C01_print_line_example :
  print_line oracle_trivial [VStr "t={}"; VNum (num_of_Z 1)] = Ok "t=1".
Proof. vm_compute. reflexivity. Qed.

(* ---- program TEXT -> outputs as ONE model (coq/TextRun.v: Peg.parse on gen/Grammar.v, PegToItems.conv,
        Pratt.pratt_impl per statement, the statement loop over the complete evaluator), tied to the real
        `parse + evaluate + outputs` by the TEXT-EVAL stream.  Facts by composition (proofs/TextRunFacts.v):
        (a) THE PARSER STAGE NEVER DIVERGES: with the model's fuel [peg_fuel text] = 128 + 48 * bytes the PEG
            interpreter never returns OutOfFuel, for EVERY text (C10_peg_total: termination certificate of the
            regenerated grammar, proofs/PegFuel.v) — so acceptance / rejection is a total function of the text;
        (b) the result of a text run does not depend on the fuel above that bound;
        (c) a text run shows no Unmodelled result when no statement is the Pratt MODEL's own out-of-fuel
            answer TGlueFuel — the evaluator over the complete dispatcher never answers Unmodelled; that no
            statement of any text is TGlueFuel is C01_text_no_glue_fuel below, which removes the hypothesis
            (C01_text_run_never_unmodelled_total);
        (d) every top-level pair the statement loop walks over lies inside the text.
        Names of Peg.v / Grammar.v clash with the evaluator's (Ok, run, expr): kept inside a module. ---- *)
Require Blots.Peg Blots.gen.Grammar Blots.proofs.PegGeneric Blots.TextRun Blots.proofs.TextRunFacts.
Module TextLayer.
Import Blots.TextRun Blots.proofs.TextRunFacts.

Theorem C01_text_parse_total : forall text,
  parse_text_stmts text <> TIFuel /\ forall eval inputs, run_text_res eval inputs text <> TParseFuel.
Proof. intro text. split; [apply parse_text_stmts_total|intros; apply run_text_never_parse_fuel]. Qed.
Check C01_text_parse_total : forall text,
  parse_text_stmts text <> TIFuel /\ forall eval inputs, run_text_res eval inputs text <> TParseFuel.
Print Assumptions C01_text_parse_total.

Theorem C01_text_run_fuel_independent : forall eval fuel inputs text,
  Blots.Peg.peg_fuel text <= fuel -> run_text_res_fuel eval fuel inputs text = run_text_res eval inputs text.
Proof. exact run_text_fuel_independent. Qed.
Check C01_text_run_fuel_independent : forall eval fuel inputs text,
  Blots.Peg.peg_fuel text <= fuel -> run_text_res_fuel eval fuel inputs text = run_text_res eval inputs text.
Print Assumptions C01_text_run_fuel_independent.

Theorem C01_text_run_never_unmodelled : forall o inputs text l,
  parse_text_stmts text = TIOk l -> Forall (fun t => t <> TGlueFuel) l ->
  exists sr, run_text_res (eval_all o) inputs text = TRun sr
             /\ Forall (fun rs => fst rs <> RFail Unmodelled) (snd sr).
Proof. exact run_text_never_unmodelled. Qed.
Check C01_text_run_never_unmodelled : forall o inputs text l,
  parse_text_stmts text = TIOk l -> Forall (fun t => t <> TGlueFuel) l ->
  exists sr, run_text_res (eval_all o) inputs text = TRun sr
             /\ Forall (fun rs => fst rs <> RFail Unmodelled) (snd sr).
Print Assumptions C01_text_run_never_unmodelled.

(* without glue trouble the text loop is Program.run on the parsed statements: every theorem about
   run / run_program_all above applies to text runs *)
Theorem C01_text_run_is_program_run : forall eval p s,
  run_tstmts eval s (map TStmt p) = Blots.Program.run eval s p.
Proof. exact run_tstmts_is_run. Qed.
Check C01_text_run_is_program_run : forall eval p s,
  run_tstmts eval s (map TStmt p) = Blots.Program.run eval s p.
Print Assumptions C01_text_run_is_program_run.

Theorem C01_text_statement_spans_inside : forall fuel text s',
  Blots.Peg.parse Blots.gen.Grammar.blots_grammar fuel Blots.gen.Grammar.PG_input text = Blots.Peg.Ok s' ->
  Forall (span_inside (Blots.Peg.slen text)) (rev (Blots.Peg.out s')).
Proof. intros fuel text s' H. exact (proj1 (text_statement_spans_inside fuel text s' H)). Qed.
Check C01_text_statement_spans_inside : forall fuel text s',
  Blots.Peg.parse Blots.gen.Grammar.blots_grammar fuel Blots.gen.Grammar.PG_input text = Blots.Peg.Ok s' ->
  Forall (span_inside (Blots.Peg.slen text)) (rev (Blots.Peg.out s')).
Print Assumptions C01_text_statement_spans_inside.

(* the one model RUNS on a text (blanks, a comment, an output declaration): *)
Example C01_text_run_example :
  run_text oracle_trivial [] ("x = 2 * 4  // eight" ++ String (Ascii.ascii_of_nat 10) "output y = [x, x + 1]")
  = "OK:N4020000000000000|OK:L[N4020000000000000,N4022000000000000];ENV:78=N4020000000000000,79=L[N4020000000000000,N4022000000000000];OUT:79=L[N4020000000000000,N4022000000000000]".
Proof. vm_compute. reflexivity. Qed.
End TextLayer.

(* ==================================================================================================
   EVALUATOR-LEVEL never-Panic FOR THE COMPLETE BUILT-IN SET (extension C01V).
   The per-call theorem above has side conditions that hold for genuine doubles only, and spec_float has
   non-canonical inhabitants; so the evaluator carries the VALIDITY INVARIANT of coq/Valid.v: every number
   literal of the program (valid_expr), every number inside every bound value incl. closures' bodies and
   captured values (valid_cfg), every oracle result (oracle_valid) is a valid binary64
   (SpecFloat.valid_binary 53 1024).  proofs/AllValidNum.v: every Num.v operation preserves it (Flocq);
   AllValidOps.v / AllValidPure.v / AllValidBuiltins.v: so does every operator and every built-in arm;
   AllValidEval.v: so does evaluation (all expression forms, every depth), and nothing panics on the way.
   Hypotheses on the oracle: oracle_valid o (numbers in, numbers out) and oracle_display_safe o (displaying a
   valid double does not overflow format_display_number's i32 / i64 arithmetic; two sufficient conditions
   below, one of them C20's log10_sane_pos).  The ONE remaining explicit side condition is percentile's list
   length: the theorems speak about Valid.builtin_all_fit o = builtin_all o except that percentile of a list
   of more than 2^53 elements is an error — a HYPOTHESIS ON LIST LENGTHS (no resource bound of the model rules
   such a list out), made explicit by C01_percentile_guard_is_the_only_difference.
   ================================================================================================== *)
Require Import Blots.Valid Blots.AllRun Blots.proofs.AllValidNum Blots.proofs.AllValidEval Blots.proofs.AllValidOps
               Blots.proofs.AllValidBuiltins Blots.proofs.AllValid.

Theorem C01_eval_no_panic_all : forall o, oracle_valid o -> oracle_display_safe o ->
  forall release d c e, valid_expr e -> wf c -> valid_cfg c ->
  fst (evalD release (binop_all o) (builtin_all_fit o) d c e) <> Panic.
Proof. exact evalD_all_no_panic. Qed.
Check C01_eval_no_panic_all : forall o, oracle_valid o -> oracle_display_safe o ->
  forall release d c e, valid_expr e -> wf c -> valid_cfg c ->
  fst (evalD release (binop_all o) (builtin_all_fit o) d c e) <> Panic.
Print Assumptions C01_eval_no_panic_all.

(* the invariant is preserved: a valid value, and a configuration satisfying wf and valid_cfg again *)
Theorem C01_eval_validity_preserved_all : forall o, oracle_valid o -> oracle_display_safe o ->
  forall release d c e r c', valid_expr e -> wf c -> valid_cfg c ->
  evalD release (binop_all o) (builtin_all_fit o) d c e = (r, c') ->
  (forall v, r = Ok v -> valid_value v) /\ wf c' /\ valid_cfg c'.
Proof. exact evalD_all_preserves. Qed.
Check C01_eval_validity_preserved_all : forall o, oracle_valid o -> oracle_display_safe o ->
  forall release d c e r c', valid_expr e -> wf c -> valid_cfg c ->
  evalD release (binop_all o) (builtin_all_fit o) d c e = (r, c') ->
  (forall v, r = Ok v -> valid_value v) /\ wf c' /\ valid_cfg c'.
Print Assumptions C01_eval_validity_preserved_all.

(* FunctionDef::call at every depth, from every valid scope chain, on valid arguments *)
Theorem C01_call_no_panic_all : forall o, oracle_valid o -> oracle_display_safe o ->
  forall release d fr this f args st,
  valid_frames fr -> valid_value this -> valid_value f -> valid_values args ->
  fst (AD release (binop_all o) (builtin_all_fit o) d fr this f args st) <> Panic /\
  (forall v, fst (AD release (binop_all o) (builtin_all_fit o) d fr this f args st) = Ok v -> valid_value v).
Proof. exact AD_all_no_panic. Qed.
Check C01_call_no_panic_all : forall o, oracle_valid o -> oracle_display_safe o ->
  forall release d fr this f args st,
  valid_frames fr -> valid_value this -> valid_value f -> valid_values args ->
  fst (AD release (binop_all o) (builtin_all_fit o) d fr this f args st) <> Panic /\
  (forall v, fst (AD release (binop_all o) (builtin_all_fit o) d fr this f args st) = Ok v -> valid_value v).
Print Assumptions C01_call_no_panic_all.

(* whole programs: valid inputs, valid program, any build: no statement result is a Panic, every value valid *)
Theorem C01_program_no_panic_all : forall o, oracle_valid o -> oracle_display_safe o ->
  forall release inputs prog, valid_inputs inputs -> valid_prog prog ->
  Forall (fun rs => fst rs <> RFail Panic /\ valid_resultb (fst rs) = true)
         (snd (run (eval_top release (binop_all o) (builtin_all_fit o)) (init_session inputs) prog)).
Proof. exact program_all_no_panic. Qed.
Check C01_program_no_panic_all : forall o, oracle_valid o -> oracle_display_safe o ->
  forall release inputs prog, valid_inputs inputs -> valid_prog prog ->
  Forall (fun rs => fst rs <> RFail Panic /\ valid_resultb (fst rs) = true)
         (snd (run (eval_top release (binop_all o) (builtin_all_fit o)) (init_session inputs) prog)).
Print Assumptions C01_program_no_panic_all.

(* the per-call theorem for the REAL dispatcher with its side conditions discharged from validity: what is left of
   C01_builtin_call_no_panic_all's hypotheses is the list length of percentile *)
Theorem C01_builtin_call_no_panic_valid_all : forall o, oracle_valid o -> oracle_display_safe o ->
  forall cb b args st, vcb cb ->
  can_accept (builtin_arity b) (Datatypes.length args) = true -> valid_values args ->
  (b = B_percentile -> percentile_fits args = true) ->
  fst (builtin_all o cb b args st) <> Panic /\
  (forall v, fst (builtin_all o cb b args st) = Ok v -> valid_value v).
Proof. exact builtin_all_call_valid. Qed.
Check C01_builtin_call_no_panic_valid_all : forall o, oracle_valid o -> oracle_display_safe o ->
  forall cb b args st, vcb cb ->
  can_accept (builtin_arity b) (Datatypes.length args) = true -> valid_values args ->
  (b = B_percentile -> percentile_fits args = true) ->
  fst (builtin_all o cb b args st) <> Panic /\
  (forall v, fst (builtin_all o cb b args st) = Ok v -> valid_value v).
Print Assumptions C01_builtin_call_no_panic_valid_all.

Theorem C01_percentile_guard_is_the_only_difference : forall o cb b args st,
  (b = B_percentile -> percentile_fits args = true) ->
  builtin_all_fit o cb b args st = builtin_all o cb b args st.
Proof. exact fit_is_the_only_difference. Qed.
Check C01_percentile_guard_is_the_only_difference : forall o cb b args st,
  (b = B_percentile -> percentile_fits args = true) ->
  builtin_all_fit o cb b args st = builtin_all o cb b args st.
Print Assumptions C01_percentile_guard_is_the_only_difference.

(* the complete operator table on valid operands: never Panic, a valid value *)
Theorem C01_operators_valid_all : forall o, oracle_valid o ->
  forall cb op l r st, vcb cb -> valid_value l -> valid_value r ->
  fst (binop_all o cb op l r st) <> Panic /\ (forall v, fst (binop_all o cb op l r st) = Ok v -> valid_value v).
Proof. exact binop_all_valid. Qed.
Check C01_operators_valid_all : forall o, oracle_valid o ->
  forall cb op l r st, vcb cb -> valid_value l -> valid_value r ->
  fst (binop_all o cb op l r st) <> Panic /\ (forall v, fst (binop_all o cb op l r st) = Ok v -> valid_value v).
Print Assumptions C01_operators_valid_all.

(* the AXIOM-FREE core: the evaluator induction for EVERY operator / built-in implementation that is
   valid-in / valid-out and panic-free on valid arguments (the Flocq axioms enter only where the hypotheses are
   discharged: the arithmetic of Num.v is proved valid through Flocq's correctness lemmas) *)
Theorem C01_eval_no_panic_valid_generic : forall release bi bu,
  (forall cb op l r st, vcb cb -> valid_value l -> valid_value r -> vres (fst (bi cb op l r st))) ->
  (forall cb b args st, vcb cb -> can_accept (builtin_arity b) (Datatypes.length args) = true ->
     valid_values args -> vres (fst (bu cb b args st))) ->
  (forall n, valid_num n -> vres (factorial_val release n)) ->
  forall d c e, valid_expr e -> Inv c -> good valid_value (evalD release bi bu d c e).
Proof. exact evalD_ok. Qed.
Check C01_eval_no_panic_valid_generic : forall release bi bu,
  (forall cb op l r st, vcb cb -> valid_value l -> valid_value r -> vres (fst (bi cb op l r st))) ->
  (forall cb b args st, vcb cb -> can_accept (builtin_arity b) (Datatypes.length args) = true ->
     valid_values args -> vres (fst (bu cb b args st))) ->
  (forall n, valid_num n -> vres (factorial_val release n)) ->
  forall d c e, valid_expr e -> Inv c -> good valid_value (evalD release bi bu d c e).
Print Assumptions C01_eval_no_panic_valid_generic.

(* oracle_display_safe: two sufficient conditions.  (1) for ANY display library: floor(log10 a) as i32 within
   +-2000 for every a;  (2) C20's hypothesis on libm — log10_sane_pos, the SAME statement as Properties/C20.v's,
   sampled on the real f64::log10 by C20's LOG10SANE stream — when the four std functions under the display are C20's
   executable models (proved there to meet their specifications; the table oracle of the ALL stream has exactly them) *)
Theorem C01_display_safe_of_log10_in_range : forall o,
  (forall a, (Z.abs (as_i32 (nfloor (o_log10 o a))) <= 2000)%Z) -> oracle_display_safe o.
Proof. exact display_safe_of_log10_in_range. Qed.
Check C01_display_safe_of_log10_in_range : forall o,
  (forall a, (Z.abs (as_i32 (nfloor (o_log10 o a))) <= 2000)%Z) -> oracle_display_safe o.
Print Assumptions C01_display_safe_of_log10_in_range.
Theorem C01_display_safe_of_log10_sane_pos : forall o,
  log10_sane_pos (o_log10 o) -> display_library_exec o -> oracle_display_safe o.
Proof. exact display_safe_of_log10_sane_pos. Qed.
Check C01_display_safe_of_log10_sane_pos : forall o,
  log10_sane_pos (o_log10 o) -> display_library_exec o -> oracle_display_safe o.
Print Assumptions C01_display_safe_of_log10_sane_pos.

(* the lookup-table oracle the ALL stream runs is valid for EVERY table the harness can dump (its numbers are
   64-bit patterns, and every 64-bit pattern is a double: AllValidNum.num_of_bits_valid) and has C20's display library *)
Theorem C01_table_oracle_valid : forall T, oracle_valid (oracle_of T) /\ display_library_exec (oracle_of T).
Proof. intros T. split; [apply oracle_of_valid|apply oracle_of_display_library]. Qed.
Check C01_table_oracle_valid : forall T, oracle_valid (oracle_of T) /\ display_library_exec (oracle_of T).
Print Assumptions C01_table_oracle_valid.

(* ---- every hypothesis is satisfiable; the invariant is not vacuous ---- *)
Example C01_oracle_hypotheses_satisfiable : oracle_valid oracle_trivial /\ oracle_display_safe oracle_trivial.
Proof. split; [exact oracle_trivial_valid|exact oracle_trivial_display_safe]. Qed.
Example C01_valid_initial : forall inputs, valid_inputs inputs ->
  wf (s_cfg (init_session inputs)) /\ valid_cfg (s_cfg (init_session inputs)).
Proof. intros inputs H. exact (init_session_Inv inputs H). Qed.
Example C01_valid_program_example : valid_prog ex_all_prog /\ valid_inputs [].
Proof. split; vm_compute; reflexivity. Qed.
(* a non-canonical inhabitant of spec_float: 2^63 with exponent 0 is not a double (64-bit mantissa) *)
Example C01_invalid_number_exists : valid_numb (S754_finite true 9223372036854775808 0) = false.
Proof. vm_compute. reflexivity. Qed.
(* C20's hypothesis on libm is satisfiable together with C20's display library: the exact floor-log10 model *)
Require Blots.proofs.DisplayNumDischarge5.
Example C01_log10_sane_pos_satisfiable : log10_sane_pos Blots.proofs.DisplayNumDischarge5.log10_floor_model.
Proof. intros a k V _ D. exact (Blots.proofs.DisplayNumDischarge5.log10_floor_model_sane a k V D). Qed.

(* ---- how valid_expr is tied to the parser: the ONE place where the text -> AST model (PegToItems.v) creates a number is
        number_item (decimal tokens: Rust's FromStr = rn_decimal; 0x / 0b tokens: the repaired accumulator loop), and every
        number it creates is a valid binary64; Pratt.v moves the INum item into ENum unchanged.  (The theorem "the AST of every
        accepted text satisfies valid_expr" over the whole of PegToItems + Pratt is C01_parsed_program_valid below (PF2); the
        ALL stream also evaluates valid_progb on every parsed program.) ---- *)
Require Import Blots.NumText Blots.PrattTypes Blots.PegToItems Blots.proofs.AllValidLit.
Theorem C01_parsed_number_literal_valid : forall tok x, number_item tok = INum x -> valid_num x.
Proof. exact number_item_valid. Qed.
Check C01_parsed_number_literal_valid : forall tok x, number_item tok = INum x -> valid_num x.
Print Assumptions C01_parsed_number_literal_valid.

(* ---- PF2: VALIDITY OF PARSED PROGRAMS and the never-Panic statement FROM BYTES (proofs/TextValidPratt.v, proofs/TextValid.v).
        valid_prog — the hypothesis of C01_program_no_panic_all — holds of everything the text -> AST model returns:
        (a) every item PegToItems.conv builds (ANY text, ANY pair tree, any fuel) holds valid binary64 numbers only
            (a number enters through number_item; every other arm copies text slices / converted sub-trees);
        (b) the Pratt stage (pest's loop + the closures of pairs_to_expr_inner, ANY operator table, ANY fuel) maps such a
            stream to an expression satisfying valid_expr (ENum only from INum; everything else copies sub-trees);
        (c) so every statement of parse_text_stmts text / the program of parse_text_ast text is valid;
        (d) END TO END: for every oracle with oracle_valid / oracle_display_safe, valid inputs, EVERY text the PEG stage
            accepts: the run of the evaluator (complete built-in set, builtin_all_fit = modulo percentile's list-length
            condition, exactly as C01_program_no_panic_all) over the statements parsed FROM THE BYTES shows a Panic only
            where the parse of that statement itself is pairs_to_expr's `unreachable!` (TGluePanic — a parse-side event the
            evaluator never sees; counted by the TEXT-EVAL stream: 0; not produced by the grammar, not proved here);
            every value computed is a valid binary64 hereditarily.  No TGlueFuel hypothesis is needed: the Pratt model's
            fuel exhaustion is shown as Unmodelled, not Panic. ---- *)
Require Blots.Peg Blots.gen.Grammar Blots.Pratt Blots.proofs.TextValidPratt Blots.proofs.TextValid.
Require Blots.proofs.TextValidNoGlue Blots.proofs.TextValidStreams.
Module TextValidLayer.
Import Blots.Pratt Blots.TextRun Blots.proofs.TextValidPratt Blots.proofs.TextValid.

Theorem C01_parsed_items_valid : forall text fuel t, valid_itemb (conv text fuel t) = true.
Proof. exact conv_valid. Qed.
Check C01_parsed_items_valid : forall text fuel t, valid_itemb (conv text fuel t) = true.
Print Assumptions C01_parsed_items_valid.

Theorem C01_pratt_preserves_valid : forall tbl imap pmap fuel its e,
  valid_itemsb its = true -> parse_items tbl imap pmap fuel its = Outcome.Ok (Some e) -> valid_expr e.
Proof. exact parse_items_valid. Qed.
Check C01_pratt_preserves_valid : forall tbl imap pmap fuel its e,
  valid_itemsb its = true -> parse_items tbl imap pmap fuel its = Outcome.Ok (Some e) -> valid_expr e.
Print Assumptions C01_pratt_preserves_valid.

Theorem C01_parsed_statements_valid : forall text l,
  parse_text_stmts text = TIOk l -> Forall (fun t => match t with TStmt s => valid_stmtb s = true | _ => True end) l.
Proof. exact parsed_stmts_valid. Qed.
Check C01_parsed_statements_valid : forall text l,
  parse_text_stmts text = TIOk l -> Forall (fun t => match t with TStmt s => valid_stmtb s = true | _ => True end) l.
Print Assumptions C01_parsed_statements_valid.

Theorem C01_parsed_program_valid : forall text p, parse_text_ast text = TPOk p -> valid_prog p.
Proof. exact parsed_program_valid. Qed.
Check C01_parsed_program_valid : forall text p, parse_text_ast text = TPOk p -> valid_prog p.
Print Assumptions C01_parsed_program_valid.

(* from bytes, no hypothesis on the text beyond acceptance: a Panic result is a glue panic of the parse *)
Theorem C01_text_run_panic_only_from_glue : forall o, oracle_valid o -> oracle_display_safe o ->
  forall release inputs text l, valid_inputs inputs -> parse_text_stmts text = TIOk l ->
  exists sr, run_text_res (eval_top release (binop_all o) (builtin_all_fit o)) inputs text = TRun sr
             /\ Forall (fun rs => (fst rs = RFail Panic -> existsb is_glue_panic l = true)
                                  /\ valid_resultb (fst rs) = true) (snd sr).
Proof. exact text_run_panic_is_glue. Qed.
Check C01_text_run_panic_only_from_glue : forall o, oracle_valid o -> oracle_display_safe o ->
  forall release inputs text l, valid_inputs inputs -> parse_text_stmts text = TIOk l ->
  exists sr, run_text_res (eval_top release (binop_all o) (builtin_all_fit o)) inputs text = TRun sr
             /\ Forall (fun rs => (fst rs = RFail Panic -> existsb is_glue_panic l = true)
                                  /\ valid_resultb (fst rs) = true) (snd sr).
Print Assumptions C01_text_run_panic_only_from_glue.

Theorem C01_text_run_no_panic_all : forall o, oracle_valid o -> oracle_display_safe o ->
  forall release inputs text l, valid_inputs inputs ->
  parse_text_stmts text = TIOk l -> Forall (fun t => t <> TGluePanic) l ->
  exists sr, run_text_res (eval_top release (binop_all o) (builtin_all_fit o)) inputs text = TRun sr
             /\ Forall (fun rs => fst rs <> RFail Panic /\ valid_resultb (fst rs) = true) (snd sr).
Proof. exact text_run_no_panic. Qed.
Check C01_text_run_no_panic_all : forall o, oracle_valid o -> oracle_display_safe o ->
  forall release inputs text l, valid_inputs inputs ->
  parse_text_stmts text = TIOk l -> Forall (fun t => t <> TGluePanic) l ->
  exists sr, run_text_res (eval_top release (binop_all o) (builtin_all_fit o)) inputs text = TRun sr
             /\ Forall (fun rs => fst rs <> RFail Panic /\ valid_resultb (fst rs) = true) (snd sr).
Print Assumptions C01_text_run_no_panic_all.

(* the hypotheses are satisfiable: a text with numbers (decimal, hex, exponent), a list, a record, a lambda, calls, an input
   reference and an output; three statements, none a glue panic / glue error / model fuel; valid inputs *)
Definition pf2_sample_text : string :=
  "f = (x, y) => x * 2.5 + y" ++ String (Ascii.ascii_of_nat 10)
  ("output total = sum(map([1, 0x10, 3e2], v => f(v, #a))) " ++ String (Ascii.ascii_of_nat 10) "{k: f(1, 2), l: [0.1]}").
Definition pf2_sample_inputs : list (string * value) := [("a"%string, VList [VNum (num_of_Z 3); VStr "s"])].
Example C01_text_run_hypotheses_satisfiable :
  valid_inputs pf2_sample_inputs /\
  exists l, parse_text_stmts pf2_sample_text = TIOk l /\ Forall (fun t => t <> TGluePanic) l
            /\ exists p, stmts_all_ok l = Some p /\ List.length p = 3%nat.
Proof.
  split; [vm_compute; reflexivity|].
  remember (parse_text_stmts pf2_sample_text) as r eqn:E. vm_compute in E. subst r.
  eexists. split; [reflexivity|]. split; [repeat constructor; discriminate|].
  eexists. split; [reflexivity|reflexivity].
Qed.
Example C01_text_run_sample_no_panic : forall release,
  exists sr, run_text_res (eval_top release (binop_all oracle_trivial) (builtin_all_fit oracle_trivial))
                          pf2_sample_inputs pf2_sample_text = TRun sr
             /\ Forall (fun rs => fst rs <> RFail Panic /\ valid_resultb (fst rs) = true) (snd sr).
Proof.
  intro release. destruct C01_text_run_hypotheses_satisfiable as [Hi [l [Hp [Hg _]]]].
  exact (C01_text_run_no_panic_all oracle_trivial oracle_trivial_valid oracle_trivial_display_safe release
           pf2_sample_inputs pf2_sample_text l Hi Hp Hg).
Qed.

(* ---- the glue-panic hypothesis: (1) the Pratt half is PROVED — pest's loop + the closures of pairs_to_expr_inner never reach a
        panic arm on a DEEPLY ALTERNATING stream (operand (infix operand)..., operand = prefix.. primary postfix.., nested streams
        too), for ANY table / maps / fuel; (2) so the hypothesis reduces to a DECIDABLE shape predicate of the PEG output,
        text_streams_ok (computable: Example below runs it by vm_compute on the real grammar); (3) that the grammar produces
        only such forests is kept as a Definition, NOT proved. ---- *)
Import Blots.proofs.TextValidNoGlue Blots.proofs.TextValidStreams.

Theorem C01_pratt_no_panic_on_alternating_streams : forall tbl imap pmap fuel its,
  stream_ok tbl imap pmap its = true -> parse_items tbl imap pmap fuel its <> Panic.
Proof. exact parse_items_no_panic. Qed.
Check C01_pratt_no_panic_on_alternating_streams : forall tbl imap pmap fuel its,
  stream_ok tbl imap pmap its = true -> parse_items tbl imap pmap fuel its <> Panic.
Print Assumptions C01_pratt_no_panic_on_alternating_streams.

Theorem C01_text_no_glue_panic_of_streams : forall text l,
  parse_text_stmts text = TIOk l -> text_streams_ok text = true -> Forall (fun t => t <> TGluePanic) l.
Proof. exact text_no_glue_panic. Qed.
Check C01_text_no_glue_panic_of_streams : forall text l,
  parse_text_stmts text = TIOk l -> text_streams_ok text = true -> Forall (fun t => t <> TGluePanic) l.
Print Assumptions C01_text_no_glue_panic_of_streams.

Theorem C01_text_run_no_panic_streams : forall o, oracle_valid o -> oracle_display_safe o ->
  forall release inputs text l, valid_inputs inputs ->
  parse_text_stmts text = TIOk l -> text_streams_ok text = true ->
  exists sr, run_text_res (eval_top release (binop_all o) (builtin_all_fit o)) inputs text = TRun sr
             /\ Forall (fun rs => fst rs <> RFail Panic /\ valid_resultb (fst rs) = true) (snd sr).
Proof. exact text_run_no_panic_streams. Qed.
Check C01_text_run_no_panic_streams : forall o, oracle_valid o -> oracle_display_safe o ->
  forall release inputs text l, valid_inputs inputs ->
  parse_text_stmts text = TIOk l -> text_streams_ok text = true ->
  exists sr, run_text_res (eval_top release (binop_all o) (builtin_all_fit o)) inputs text = TRun sr
             /\ Forall (fun rs => fst rs <> RFail Panic /\ valid_resultb (fst rs) = true) (snd sr).
Print Assumptions C01_text_run_no_panic_streams.

(* NOT proved: the grammar only produces deeply alternating statement streams (then the three theorems above hold of EVERY text) *)
Definition C01_text_streams_ok_full : Prop := forall text, text_streams_ok text = true.
Example C01_text_streams_ok_sample : text_streams_ok pf2_sample_text = true.
Proof. vm_compute. reflexivity. Qed.
End TextValidLayer.
(* the callback hypothesis `vcb` of the per-call theorems is inhabited: FunctionDef::call itself, at any depth *)
Example C01_vcb_inhabited : vcb (AD true (binop_all oracle_trivial) (builtin_all_fit oracle_trivial) 3 []).
Proof.
  intros this f args st Ht Hf Ha.
  exact (C01_call_no_panic_all oracle_trivial oracle_trivial_valid oracle_trivial_display_safe true 3 [] this f args st
           eq_refl Ht Hf Ha).
Qed.

(* ==================================================================================================
   PRATT FUEL (extension PF1): the fuel gap between the TEXT layer and the evaluator theorems is closed.
   (a) proofs/PrattFuelAll.v: for EVERY item list (nested groups included; also the ones on which the glue
       answers Err or panics), every operator table and every closure map, the transcription of pest's Pratt
       loop + pairs_to_expr_inner (Pratt.parse_items) run with the fuel Pratt.pratt gives it —
       fuel_of its = 4 * items_size its + 4, items_size = number of pairs, nested ones included — never returns
       the model's out-of-fuel outcome (3 * items_size its + 2 suffices).  Induction on the fuel over the five
       mutually recursive functions, no bound.
   (b) proofs/PrattFuelAllText.v: hence no statement of any text is TGlueFuel, and with C10's PEG totality:
       for EVERY byte string, every inputs object and every oracle, run_text_res (eval_all o) is TRun sr with no
       `Unmodelled` result in sr, or TReject, or TParsePanic — C01_text_run_never_unmodelled without its
       hypothesis.  The all-or-nothing parse view never answers TPFuel.
   (c) of the glue model's explicit Panic arms, the statement loop's `unreachable!()` (a `statement` pair whose
       first inner pair is none of expression / output_declaration / comment) and the "statement without inner
       pair" case are NOT reachable on trees the PEG interpreter produces on the regenerated grammar
       (C01_text_statement_arms_unreachable).  The arms inside Pratt.v (operator in primary position, empty
       token stream, …) and the PEG engine's stack `expect`s (TParsePanic) are not excluded by a theorem; the
       TEXT-EVAL / PARSE-text streams count them (0).  notes/ext-pf1.md lists them. *)
Require Blots.proofs.PrattFuelAll Blots.proofs.PrattFuelAllText.
Section PrattFuelTotal.
Import Blots.PrattTypes Blots.Pratt Blots.TextRun Blots.proofs.PrattFuelAll Blots.proofs.PrattFuelAllText.

Theorem C01_pratt_fuel_sufficient : forall tbl imap pmap its,
  parse_items tbl imap pmap (fuel_of its) its <> Outcome.Unmodelled.
Proof. exact pratt_fuel_sufficient. Qed.
Check C01_pratt_fuel_sufficient : forall tbl imap pmap its,
  parse_items tbl imap pmap (4 * items_size its + 4) its <> Outcome.Unmodelled.
Print Assumptions C01_pratt_fuel_sufficient.

(* fuel_of IS the fuel the text layer hands to the Pratt model *)
Theorem C01_pratt_impl_never_unmodelled : forall its, pratt_impl its <> Outcome.Unmodelled.
Proof. exact pratt_impl_never_unmodelled. Qed.
Check C01_pratt_impl_never_unmodelled : forall its, pratt_impl its <> Outcome.Unmodelled.
Print Assumptions C01_pratt_impl_never_unmodelled.

Theorem C01_text_no_glue_fuel : forall text l,
  parse_text_stmts text = TIOk l -> Forall (fun t => t <> TGlueFuel) l.
Proof. exact parse_text_stmts_no_glue_fuel. Qed.
Check C01_text_no_glue_fuel : forall text l,
  parse_text_stmts text = TIOk l -> Forall (fun t => t <> TGlueFuel) l.
Print Assumptions C01_text_no_glue_fuel.

Theorem C01_text_parse_never_fuel : forall text, parse_text_ast text <> TPFuel.
Proof. exact parse_text_ast_never_fuel. Qed.
Check C01_text_parse_never_fuel : forall text, parse_text_ast text <> TPFuel.
Print Assumptions C01_text_parse_never_fuel.

Theorem C01_text_run_never_unmodelled_total : forall o inputs text,
  (exists sr, run_text_res (eval_all o) inputs text = TRun sr
              /\ Forall (fun rs => fst rs <> Program.RFail Outcome.Unmodelled) (snd sr))
  \/ run_text_res (eval_all o) inputs text = TReject
  \/ run_text_res (eval_all o) inputs text = TParsePanic.
Proof. exact run_text_never_unmodelled_total. Qed.
Check C01_text_run_never_unmodelled_total : forall o inputs text,
  (exists sr, run_text_res (eval_all o) inputs text = TRun sr
              /\ Forall (fun rs => fst rs <> Program.RFail Outcome.Unmodelled) (snd sr))
  \/ run_text_res (eval_all o) inputs text = TReject
  \/ run_text_res (eval_all o) inputs text = TParsePanic.
Print Assumptions C01_text_run_never_unmodelled_total.

(* the canonical line the TEXT-EVAL stream compares is never the model's "FUEL" line *)
Theorem C01_text_run_outcome_cases : forall o inputs text,
  (exists sr, run_text o inputs text = show_run_out sr
              /\ Forall (fun rs => fst rs <> Program.RFail Outcome.Unmodelled) (snd sr))
  \/ run_text o inputs text = "REJECT;ENV:;OUT:"%string
  \/ run_text o inputs text = "PANIC"%string.
Proof. exact run_text_outcome_cases. Qed.
Check C01_text_run_outcome_cases : forall o inputs text,
  (exists sr, run_text o inputs text = show_run_out sr
              /\ Forall (fun rs => fst rs <> Program.RFail Outcome.Unmodelled) (snd sr))
  \/ run_text o inputs text = "REJECT;ENV:;OUT:"%string
  \/ run_text o inputs text = "PANIC"%string.
Print Assumptions C01_text_run_outcome_cases.

(* two of the three outcomes are reached (the third, TParsePanic, is the PEG engine's `expect` on an empty
   stack; no text reaching it is known, none is excluded by a theorem) *)
Example C01_text_run_reaches_reject : run_text oracle_trivial [] "1 +" = "REJECT;ENV:;OUT:"%string.
Proof. vm_compute. reflexivity. Qed.
Example C01_text_run_reaches_run : run_text oracle_trivial [] "1 + 2" = "OK:N4008000000000000;ENV:;OUT:"%string.
Proof. vm_compute. reflexivity. Qed.
End PrattFuelTotal.

(* the statement loop's `unreachable!()` arm and the "no inner pair" arm are not reachable on parsed texts:
       every `statement` pair of every accepted text is one of the three modelled forms, so a TGluePanic
       statement can only be a Panic of Pratt.pratt_impl on that statement's token stream *)
Require Blots.proofs.PrattFuelAllShape.
Theorem C01_text_statement_arms_unreachable : forall fuel text s' cf t,
  Blots.Peg.parse Blots.gen.Grammar.blots_grammar fuel Blots.gen.Grammar.PG_input text = Blots.Peg.Ok s' ->
  In t (rev (Blots.Peg.out s')) -> Blots.PegToItems.is_rule Blots.gen.Grammar.PG_statement t = true ->
  exists first, In first (Blots.PegToItems.tkids t) /\
    (Blots.TextRun.text_stmt_of text cf t
       = Some (Blots.TextRun.glue_stmt SExpr
                 (Blots.Pratt.pratt_impl (map (Blots.PegToItems.conv text cf) (Blots.PegToItems.tkids first))))
     \/ Blots.TextRun.text_stmt_of text cf t
       = Some (Blots.TextRun.glue_stmt SOut
                 (Blots.Pratt.pratt_impl (map (Blots.PegToItems.conv text cf) (Blots.PegToItems.tkids first))))
     \/ Blots.TextRun.text_stmt_of text cf t = Some (Blots.TextRun.TStmt SComment)).
Proof. exact Blots.proofs.PrattFuelAllShape.text_stmt_of_parsed_shape. Qed.
Check C01_text_statement_arms_unreachable : forall fuel text s' cf t,
  Blots.Peg.parse Blots.gen.Grammar.blots_grammar fuel Blots.gen.Grammar.PG_input text = Blots.Peg.Ok s' ->
  In t (rev (Blots.Peg.out s')) -> Blots.PegToItems.is_rule Blots.gen.Grammar.PG_statement t = true ->
  exists first, In first (Blots.PegToItems.tkids t) /\
    (Blots.TextRun.text_stmt_of text cf t
       = Some (Blots.TextRun.glue_stmt SExpr
                 (Blots.Pratt.pratt_impl (map (Blots.PegToItems.conv text cf) (Blots.PegToItems.tkids first))))
     \/ Blots.TextRun.text_stmt_of text cf t
       = Some (Blots.TextRun.glue_stmt SOut
                 (Blots.Pratt.pratt_impl (map (Blots.PegToItems.conv text cf) (Blots.PegToItems.tkids first))))
     \/ Blots.TextRun.text_stmt_of text cf t = Some (Blots.TextRun.TStmt SComment)).
Print Assumptions C01_text_statement_arms_unreachable.

(* kept, NOT proved (PF1): the remaining explicit Panic arms of the text layer are unreachable on parsed texts.
   (1) the Panic arms inside Pratt.v (empty token stream; infix / postfix operator or unknown pair in operand
       position; operand where an operator is expected; rule missing from the table or the closure maps;
       map_postfix / primary on a pair of the wrong kind) need the operand / operator alternation of the pairs
       under `expression` (grammar rule: prefix operators, term, postfix operators, repeated with an infix operator between) as a
       PegShape.kids_spec-style theorem, hereditarily through PegToItems.conv;
   (2) the PEG engine's `expect` on an empty stack (PEEK / POP; TParsePanic) needs the PUSH-before-PEEK/POP
       invariant of the one rule that uses the stack (string).
   Both are counted by the TEXT-EVAL / PARSE-text streams of ./check C01 and ./check C10 (0 on every run). *)
Definition C01_text_pratt_no_panic_on_parsed_full : Prop := forall text s' t first rest,
  Blots.Peg.parse Blots.gen.Grammar.blots_grammar (Blots.Peg.peg_fuel text) Blots.gen.Grammar.PG_input text
    = Blots.Peg.Ok s' ->
  In t (rev (Blots.Peg.out s')) -> Blots.PegToItems.is_rule Blots.gen.Grammar.PG_statement t = true ->
  Blots.PegToItems.tkids t = first :: rest ->
  Blots.PegToItems.trule first = Blots.gen.Grammar.PG_expression
  \/ Blots.PegToItems.trule first = Blots.gen.Grammar.PG_output_declaration ->
  Blots.Pratt.pratt_impl
    (map (Blots.PegToItems.conv text (Blots.TextRun.forest_conv_fuel (rev (Blots.Peg.out s'))))
         (Blots.PegToItems.tkids first)) <> Outcome.Panic.
Definition C01_text_peg_no_panic_full : Prop := forall text,
  Blots.Peg.parse Blots.gen.Grammar.blots_grammar (Blots.Peg.peg_fuel text) Blots.gen.Grammar.PG_input text
    <> Blots.Peg.Panic.

(* of the arms listed under (1): the ones that depend on the REGENERATED operator table only are excluded for EVERY
   token stream, by exhaustion over the 34 operator rules (bound = gen/PrecTable.v, re-checked when it changes):
   `ops.get(rule)` is never None; every rule the table calls prefix / infix has its .map_prefix / .map_infix arm;
   the postfix rules are exactly the four map_postfix has arms for *)
Require Blots.proofs.PrattFuelAllArms.
Theorem C01_pratt_table_total : forall r, Blots.Pratt.ops_get Blots.Pratt.impl_table r <> None.
Proof. exact Blots.proofs.PrattFuelAllArms.impl_table_total. Qed.
Check C01_pratt_table_total : forall r, Blots.Pratt.ops_get Blots.Pratt.impl_table r <> None.
Print Assumptions C01_pratt_table_total.
Theorem C01_pratt_closure_arms_unreachable :
  (forall r p x, Blots.Pratt.ops_get Blots.Pratt.impl_table r = Some (Blots.PrattTypes.Prefix, p) ->
                 Blots.Pratt.map_prefix Blots.gen.PrecTable.prefix_map r x <> Outcome.Panic) /\
  (forall r a p l x, Blots.Pratt.ops_get Blots.Pratt.impl_table r = Some (Blots.PrattTypes.Infix a, p) ->
                     Blots.Pratt.map_infix Blots.gen.PrecTable.infix_map l r x <> Outcome.Panic).
Proof.
  split; [exact Blots.proofs.PrattFuelAllArms.map_prefix_impl_no_panic
         |exact Blots.proofs.PrattFuelAllArms.map_infix_impl_no_panic].
Qed.
Check C01_pratt_closure_arms_unreachable :
  (forall r p x, Blots.Pratt.ops_get Blots.Pratt.impl_table r = Some (Blots.PrattTypes.Prefix, p) ->
                 Blots.Pratt.map_prefix Blots.gen.PrecTable.prefix_map r x <> Outcome.Panic) /\
  (forall r a p l x, Blots.Pratt.ops_get Blots.Pratt.impl_table r = Some (Blots.PrattTypes.Infix a, p) ->
                     Blots.Pratt.map_infix Blots.gen.PrecTable.infix_map l r x <> Outcome.Panic).
Print Assumptions C01_pratt_closure_arms_unreachable.
Theorem C01_pratt_postfix_rules : forall r p,
  Blots.Pratt.ops_get Blots.Pratt.impl_table r = Some (Blots.PrattTypes.Postfix, p) ->
  In r [Blots.PrattTypes.R_factorial; Blots.PrattTypes.R_access; Blots.PrattTypes.R_dot_access;
        Blots.PrattTypes.R_call_list].
Proof. exact Blots.proofs.PrattFuelAllArms.impl_postfix_rules. Qed.
Check C01_pratt_postfix_rules : forall r p,
  Blots.Pratt.ops_get Blots.Pratt.impl_table r = Some (Blots.PrattTypes.Postfix, p) ->
  In r [Blots.PrattTypes.R_factorial; Blots.PrattTypes.R_access; Blots.PrattTypes.R_dot_access;
        Blots.PrattTypes.R_call_list].
Print Assumptions C01_pratt_postfix_rules.
