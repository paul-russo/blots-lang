(* C18 — Runaway recursion ends in a call-depth error, never in a crash.
   What the model can carry: (1) evaluation is a total function — [evalD] is accepted by Coq's
   guard checker by structural recursion on the remaining call-depth budget, with no fuel, so
   every evaluation of the model terminates with a result or a reported error; (2) the depth
   error is the only way the budget shows: any other outcome is independent of the budget, so
   a 'maximum call depth' error means the computation really nests deeper than the limit, and
   recursion that fits completes with its true result; (3) the guard arithmetic (which depth
   is the last admitted one, for plain calls and through built-in callbacks) is pinned by
   evaluated examples that the correspondence re-runs on the real evaluator at the same
   boundary.  What it cannot carry: the size of native stack frames — decided by running the
   release CLI on the recursion grammar (checks/c18.py), labelled partial. *)
From Coq Require Import String List ZArith Bool Lia.
Require Import Blots.Num Blots.gen.Builtins Blots.Ast Blots.Value Blots.Outcome Blots.Binop
               Blots.Env Blots.Eval Blots.BuiltinsHof Blots.Program Blots.EvalInst
               Blots.EvalFull
               Blots.proofs.DepthMono Blots.proofs.DepthLimit Blots.proofs.InstDepth Blots.proofs.FullInst.
Import ListNotations.
Open Scope string_scope.

(* a result other than the depth error does not depend on the depth budget — for every operator
   and built-in implementation that is monotone in its callback *)
Theorem C18_result_independent_of_budget : forall release bi bu,
  binop_le bi -> builtin_le bu ->
  forall d d' c e, d <= d' -> fst (evalD release bi bu d c e) <> ErrDepth ->
  evalD release bi bu d' c e = evalD release bi bu d c e.
Proof. exact evalD_depth_independent. Qed.
Check C18_result_independent_of_budget : forall release bi bu,
  binop_le bi -> builtin_le bu ->
  forall d d' c e, d <= d' -> fst (evalD release bi bu d c e) <> ErrDepth ->
  evalD release bi bu d' c e = evalD release bi bu d c e.
Print Assumptions C18_result_independent_of_budget.

(* instantiated: with the real limit, an evaluation either reports the depth error or returns
   what ANY larger limit would return (value or other failure, store, bindings) *)
Theorem C18_limit_dichotomy : forall release c e,
  fst (eval_top release binop_impl builtin_impl c e) = ErrDepth \/
  forall d', LIMIT <= d' ->
    evalD release binop_impl builtin_impl d' c e = eval_top release binop_impl builtin_impl c e.
Proof. intros release. exact (limit_dichotomy release binop_impl builtin_impl binop_impl_le builtin_impl_le). Qed.
Check C18_limit_dichotomy : forall release c e,
  fst (eval_top release binop_impl builtin_impl c e) = ErrDepth \/
  forall d', LIMIT <= d' ->
    evalD release binop_impl builtin_impl d' c e = eval_top release binop_impl builtin_impl c e.
Print Assumptions C18_limit_dichotomy.

(* conversely the depth error is genuine: if the limit reports it, every smaller budget does *)
Theorem C18_depth_error_is_genuine : forall release c e d,
  d <= LIMIT -> fst (eval_top release binop_impl builtin_impl c e) = ErrDepth ->
  fst (evalD release binop_impl builtin_impl d c e) = ErrDepth.
Proof. intros release. exact (depth_error_is_genuine release binop_impl builtin_impl binop_impl_le builtin_impl_le). Qed.
Check C18_depth_error_is_genuine : forall release c e d,
  d <= LIMIT -> fst (eval_top release binop_impl builtin_impl c e) = ErrDepth ->
  fst (evalD release binop_impl builtin_impl d c e) = ErrDepth.
Print Assumptions C18_depth_error_is_genuine.

(* FunctionDef::call with no budget left reports the depth error (after the arity check) *)
Theorem C18_guard_fires : forall release bi bu fr this f args st,
  check_arity f (Datatypes.length args) = true ->
  AD release bi bu 0 fr this f args st = (ErrDepth, st).
Proof.
  intros release bi bu fr this f args st Ha. cbn [AD]. unfold apply_at. rewrite Ha. reflexivity.
Qed.
Check C18_guard_fires : forall release bi bu fr this f args st,
  check_arity f (Datatypes.length args) = true ->
  AD release bi bu 0 fr this f args st = (ErrDepth, st).
Print Assumptions C18_guard_fires.

(* ---- the recursion shapes of the property, evaluated in the model ---- *)
Definition num (z : Z) : expr := ENum (num_of_Z z).
Definition last_result (prog : list stmt) : option stmt_result :=
  match rev (snd (run eval_release (init_session []) prog)) with (r, _) :: _ => Some r | [] => None end.
Definition is_depth_error (r : option stmt_result) : bool :=
  match r with Some (RFail ErrDepth) => true | _ => false end.
Definition is_ok_num (r : option stmt_result) (z : Z) : bool :=
  match r with Some (ROk (VNum x)) => neqb x (num_of_Z z) | _ => false end.

(* countdown c(n) = if n <= 0 then 0 else 1 + c(n - 1): nests n+1 calls *)
Definition countdown : stmt :=
  SExpr (EAssign "c" (ELam [AReq "n"]
    (ECond (EBin LessEq (EId "n") (num 0)) (num 0)
           (EBin Add (num 1) (ECall (EId "c") [EBin Subtract (EId "n") (num 1)]))))).
Definition call_c (z : Z) : stmt := SExpr (ECall (EId "c") [num z]).

Example C18_three_hundred_deep_completes : is_ok_num (last_result [countdown; call_c 300]) 300 = true.
Proof. vm_compute. reflexivity. Qed.
(* the exact boundary of the guard `call_depth > 1000`: 1001 nested calls pass, 1002 do not *)
Example C18_boundary_last_admitted : is_ok_num (last_result [countdown; call_c 1000]) 1000 = true.
Proof. vm_compute. reflexivity. Qed.
Example C18_boundary_first_refused : is_depth_error (last_result [countdown; call_c 1001]) = true.
Proof. vm_compute. reflexivity. Qed.

(* runaway shapes: self, mutual, via-callback, map-callback, do-block, nested operators *)
Definition runaway_self : list stmt :=
  [SExpr (EAssign "f" (ELam [AReq "n"] (ECall (EId "f") [EBin Add (EId "n") (num 1)])));
   SExpr (ECall (EId "f") [num 0])].
Definition runaway_mutual : list stmt :=
  [SExpr (EAssign "p" (ELam [AReq "n"] (ECall (EId "q") [EId "n"])));
   SExpr (EAssign "q" (ELam [AReq "n"] (ECall (EId "p") [EId "n"])));
   SExpr (ECall (EId "p") [num 0])].
Definition runaway_via : list stmt :=
  [SExpr (EAssign "f" (ELam [AReq "n"] (EBin Via (EList [Cm [] (EId "n") None]) (EId "f"))));
   SExpr (ECall (EId "f") [num 0])].
Definition runaway_map : list stmt :=
  [SExpr (EAssign "f" (ELam [AReq "n"] (ECall (EBuiltin B_map) [EList [Cm [] (EId "n") None]; EId "f"])));
   SExpr (ECall (EId "f") [num 0])].
Definition runaway_do : list stmt :=
  [SExpr (EAssign "f" (ELam [AReq "n"]
      (EDo [Cm [] (EAssign "m" (EBin Add (EId "n") (num 1))) None] (Cm [] (ECall (EId "f") [EId "m"]) None))));
   SExpr (ECall (EId "f") [num 0])].
Definition runaway_nested_ops : list stmt :=
  [SExpr (EAssign "f" (ELam [AReq "n"]
      (EBin Add (num 1) (EBin Multiply (num 2) (EBin Add (num 3) (EUn Negate
         (ECond (EBool true) (ECall (EId "f") [EId "n"]) (num 0))))))));
   SExpr (ECall (EId "f") [num 0])].
Example C18_runaway_shapes_end_in_depth_error :
  forallb (fun p => is_depth_error (last_result p))
    [runaway_self; runaway_mutual; runaway_via; runaway_map; runaway_do; runaway_nested_ops] = true.
Proof. vm_compute. reflexivity. Qed.

(* ---- the premise and the same two theorems for the evaluator with EVERY transcribed built-in
   (EvalFull.v: the aggregate, list, string, record built-ins and sort_by / group_by / count_by).
   The premise is FullInst.builtin_full_le: no built-in swallows the depth error of its callback.
   For sort_by this rests on the comparator ending the sort with the error of a failing key call
   (fix 3b066f5, finding F35); a comparator that reads a failing key call as "equal keys" does not
   satisfy it. ---- *)
Theorem C18_no_builtin_swallows_the_depth_error : builtin_le builtin_full /\ binop_le binop_impl.
Proof. exact (conj builtin_full_le binop_impl_le). Qed.
Check C18_no_builtin_swallows_the_depth_error : builtin_le builtin_full /\ binop_le binop_impl.
Print Assumptions C18_no_builtin_swallows_the_depth_error.

Theorem C18_limit_dichotomy_full : forall release c e,
  fst (eval_top release binop_impl builtin_full c e) = ErrDepth \/
  forall d', LIMIT <= d' ->
    evalD release binop_impl builtin_full d' c e = eval_top release binop_impl builtin_full c e.
Proof. intros release. exact (limit_dichotomy release binop_impl builtin_full binop_impl_le builtin_full_le). Qed.
Check C18_limit_dichotomy_full : forall release c e,
  fst (eval_top release binop_impl builtin_full c e) = ErrDepth \/
  forall d', LIMIT <= d' ->
    evalD release binop_impl builtin_full d' c e = eval_top release binop_impl builtin_full c e.
Print Assumptions C18_limit_dichotomy_full.

Theorem C18_depth_error_is_genuine_full : forall release c e d,
  d <= LIMIT -> fst (eval_top release binop_impl builtin_full c e) = ErrDepth ->
  fst (evalD release binop_impl builtin_full d c e) = ErrDepth.
Proof. intros release. exact (depth_error_is_genuine release binop_impl builtin_full binop_impl_le builtin_full_le). Qed.
Check C18_depth_error_is_genuine_full : forall release c e d,
  d <= LIMIT -> fst (eval_top release binop_impl builtin_full c e) = ErrDepth ->
  fst (evalD release binop_impl builtin_full d c e) = ErrDepth.
Print Assumptions C18_depth_error_is_genuine_full.

(* runaway recursion through the key function of sort_by / group_by / count_by, two callback
   calls per level (the F35 shape) *)
Definition last_result_full (prog : list stmt) : option stmt_result :=
  match rev (snd (run (eval_full) (init_session []) prog)) with (r, _) :: _ => Some r | [] => None end.
Definition two (a b : expr) : expr := EList [Cm [] a None; Cm [] b None].
Definition runaway_by (b : builtin) : list stmt :=
  [SExpr (EAssign "f" (ELam [AReq "n"]
      (ECall (EBuiltin b) [two (EBin Add (EId "n") (num 1)) (EBin Add (EId "n") (num 2)); EId "f"])));
   SExpr (ECall (EId "f") [num 0])].
Definition runaway_sort_by_lambda : list stmt :=
  [SExpr (EAssign "f" (ELam [AReq "n"]
      (ECall (EBuiltin B_sort_by) [two (num 1) (num 2);
                                   ELam [AReq "x"] (ECall (EId "f") [EBin Add (EId "n") (num 1)])])));
   SExpr (ECall (EId "f") [num 0])].
Example C18_runaway_key_functions_end_in_depth_error :
  forallb (fun p => is_depth_error (last_result_full p))
    [runaway_by B_sort_by; runaway_by B_group_by; runaway_by B_count_by; runaway_by B_map;
     runaway_by B_filter; runaway_by B_every; runaway_by B_some; runaway_sort_by_lambda] = true.
Proof. vm_compute. reflexivity. Qed.

(* ---- the same for the evaluator with EVERY built-in of the table and `^` (EvalAll.v: the 15 library-
   backed built-ins and to_string / join of functions through the oracle record o), for every oracle:
   no arm swallows the depth error of its callback, hence the dichotomy at the limit ---- *)
Require Import Blots.EvalAll Blots.proofs.AllInst.
Theorem C18_no_builtin_swallows_the_depth_error_all : forall o,
  builtin_le (builtin_all o) /\ binop_le (binop_all o).
Proof. exact (fun o => conj (builtin_all_le o) (binop_all_le o)). Qed.
Check C18_no_builtin_swallows_the_depth_error_all : forall o,
  builtin_le (builtin_all o) /\ binop_le (binop_all o).
Print Assumptions C18_no_builtin_swallows_the_depth_error_all.

Theorem C18_limit_dichotomy_all : forall o release c e,
  fst (eval_top release (binop_all o) (builtin_all o) c e) = ErrDepth \/
  forall d', LIMIT <= d' ->
    evalD release (binop_all o) (builtin_all o) d' c e = eval_top release (binop_all o) (builtin_all o) c e.
Proof.
  intros o release. exact (limit_dichotomy release (binop_all o) (builtin_all o) (binop_all_le o) (builtin_all_le o)).
Qed.
Check C18_limit_dichotomy_all : forall o release c e,
  fst (eval_top release (binop_all o) (builtin_all o) c e) = ErrDepth \/
  forall d', LIMIT <= d' ->
    evalD release (binop_all o) (builtin_all o) d' c e = eval_top release (binop_all o) (builtin_all o) c e.
Print Assumptions C18_limit_dichotomy_all.

Theorem C18_depth_error_is_genuine_all : forall o release c e d,
  d <= LIMIT -> fst (eval_top release (binop_all o) (builtin_all o) c e) = ErrDepth ->
  fst (evalD release (binop_all o) (builtin_all o) d c e) = ErrDepth.
Proof.
  intros o release. exact (depth_error_is_genuine release (binop_all o) (builtin_all o) (binop_all_le o) (builtin_all_le o)).
Qed.
Check C18_depth_error_is_genuine_all : forall o release c e d,
  d <= LIMIT -> fst (eval_top release (binop_all o) (builtin_all o) c e) = ErrDepth ->
  fst (evalD release (binop_all o) (builtin_all o) d c e) = ErrDepth.
Print Assumptions C18_depth_error_is_genuine_all.
