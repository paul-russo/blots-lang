(* C11 — Scalar operator semantics and the broadcasting law.
   The property theorems: each is pinned by [Check] and followed by [Print Assumptions]; nearly all are closed
   by [exact lemma], the examples that show the hypotheses satisfiable by computation.  Model objects: [eval_binop] (Binop.v) is the transcription of
   blots-core/src/expressions.rs::evaluate_binary_op_ast after operand evaluation (dot
   operators, then the list∘list, list∘scalar/scalar∘list and scalar arms, operator by
   operator); [scalar_op] (BinopSpec.v) is the independent spec of one operator on two whole
   values.  Every theorem quantifies over ALL operators named, ALL lists (any length), ALL
   element values, every state and every oracle (call, fn_accepts2, powf).  The tie to the code
   is the C11 correspondence stream (checks/c11.py). *)
From Coq Require Import String List ZArith Bool.
Require Import Blots.Num Blots.gen.Builtins Blots.Ast Blots.Value Blots.Outcome Blots.Binop Blots.BinopSpec.
Require Import Blots.proofs.ValueInd Blots.proofs.Order Blots.proofs.Broadcast.
Import ListNotations.
Local Open Scope list_scope.

(* on non-list operands each of the 17 operators computes the spec *)
Theorem C11_scalar_arm_is_spec :
  forall St call acc powf op a b (st : St),
    broadcasting op = true -> is_list a = false -> is_list b = false ->
    eval_binop St call acc powf op a b st = (scalar_op powf op a b, st).
Proof. exact scalar_arm_is_spec. Qed.
Check C11_scalar_arm_is_spec :
  forall St call acc powf op a b (st : St),
    broadcasting op = true -> is_list a = false -> is_list b = false ->
    eval_binop St call acc powf op a b st = (scalar_op powf op a b, st).
Print Assumptions C11_scalar_arm_is_spec.

(* list op scalar = the list of (x op scalar), in order, failing at the first failing element *)
Theorem C11_broadcast_list_scalar :
  forall St call acc powf op l s (st : St),
    broadcasting op = true -> is_list s = false ->
    eval_binop St call acc powf op (VList l) s st
    = (omap VList (mapM (fun x => scalar_op powf op x s) l), st).
Proof. exact broadcast_list_scalar. Qed.
Check C11_broadcast_list_scalar :
  forall St call acc powf op l s (st : St),
    broadcasting op = true -> is_list s = false ->
    eval_binop St call acc powf op (VList l) s st
    = (omap VList (mapM (fun x => scalar_op powf op x s) l), st).
Print Assumptions C11_broadcast_list_scalar.

(* scalar op list = the list of (scalar op x): the scalar stays the LEFT operand *)
Theorem C11_broadcast_scalar_list :
  forall St call acc powf op s l (st : St),
    broadcasting op = true -> is_list s = false -> eq_sym_on op s l ->
    eval_binop St call acc powf op s (VList l) st
    = (omap VList (mapM (fun x => scalar_op powf op s x) l), st).
Proof. exact broadcast_scalar_list. Qed.
Check C11_broadcast_scalar_list :
  forall St call acc powf op s l (st : St),
    broadcasting op = true -> is_list s = false -> eq_sym_on op s l ->
    eval_binop St call acc powf op s (VList l) st
    = (omap VList (mapM (fun x => scalar_op powf op s x) l), st).
Print Assumptions C11_broadcast_scalar_list.

(* two lists of equal length: element by element; different lengths: error *)
Theorem C11_broadcast_list_list :
  forall St call acc powf op l m (st : St),
    broadcasting op = true -> length l = length m ->
    eval_binop St call acc powf op (VList l) (VList m) st
    = (omap VList (mapM2 (scalar_op powf op) l m), st).
Proof. exact broadcast_list_list. Qed.
Check C11_broadcast_list_list :
  forall St call acc powf op l m (st : St),
    broadcasting op = true -> length l = length m ->
    eval_binop St call acc powf op (VList l) (VList m) st
    = (omap VList (mapM2 (scalar_op powf op) l m), st).
Print Assumptions C11_broadcast_list_list.

Theorem C11_broadcast_length_mismatch :
  forall St call acc powf op l m (st : St),
    broadcasting op = true -> length l <> length m ->
    eval_binop St call acc powf op (VList l) (VList m) st = (Err, st).
Proof. exact broadcast_length_mismatch. Qed.
Check C11_broadcast_length_mismatch :
  forall St call acc powf op l m (st : St),
    broadcasting op = true -> length l <> length m ->
    eval_binop St call acc powf op (VList l) (VList m) st = (Err, st).
Print Assumptions C11_broadcast_length_mismatch.

(* the dot-prefixed comparisons never broadcast: whole values, whatever their shape *)
Theorem C11_dot_never_broadcasts :
  forall St call acc powf op a b (st : St),
    is_dot op = true -> eval_binop St call acc powf op a b st = (scalar_op powf op a b, st).
Proof. exact dot_never_broadcasts. Qed.
Check C11_dot_never_broadcasts :
  forall St call acc powf op a b (st : St),
    is_dot op = true -> eval_binop St call acc powf op a b st = (scalar_op powf op a b, st).
Print Assumptions C11_dot_never_broadcasts.

(* ------------------------------------------------------------------ the whole law in one statement *)
(* for every broadcasting operator and operands of ANY shape, on well-formed values (record keys
   unique at every depth — the IndexMap invariant; numbers incl. NaN, strings, booleans, null,
   lists, records, functions, built-ins all allowed); the hypothesis is needed only because the
   list∘scalar arm computes v.equals(&scalar) even when the scalar is the left operand *)
Theorem C11_broadcasting_law :
  forall St call acc powf op a b (st : St),
    broadcasting op = true -> wf_value a = true -> wf_value b = true ->
    eval_binop St call acc powf op a b st = (broadcast_spec powf op a b, st).
Proof. exact broadcasting_law_wf. Qed.
Check C11_broadcasting_law :
  forall St call acc powf op a b (st : St),
    broadcasting op = true -> wf_value a = true -> wf_value b = true ->
    eval_binop St call acc powf op a b st = (broadcast_spec powf op a b, st).
Print Assumptions C11_broadcasting_law.

Theorem C11_broadcast_scalar_list_wf :
  forall St call acc powf op s l (st : St),
    broadcasting op = true -> is_list s = false -> wf_value s = true -> forallb wf_value l = true ->
    eval_binop St call acc powf op s (VList l) st
    = (omap VList (mapM (fun x => scalar_op powf op s x) l), st).
Proof. exact broadcast_scalar_list_wf. Qed.
Check C11_broadcast_scalar_list_wf :
  forall St call acc powf op s l (st : St),
    broadcasting op = true -> is_list s = false -> wf_value s = true -> forallb wf_value l = true ->
    eval_binop St call acc powf op s (VList l) st
    = (omap VList (mapM (fun x => scalar_op powf op s x) l), st).
Print Assumptions C11_broadcast_scalar_list_wf.

Theorem C11_equals_sym_wf :
  forall a b, wf_value a = true -> wf_value b = true -> equals a b = equals b a.
Proof. exact equals_sym_wf. Qed.
Check C11_equals_sym_wf :
  forall a b, wf_value a = true -> wf_value b = true -> equals a b = equals b a.
Print Assumptions C11_equals_sym_wf.

(* the hypothesis is about the model's value terms only (a record term with a repeated key) *)
Theorem C11_scalar_list_eq_needs_unique_keys :
  exists s x, equals x s <> equals s x /\
    forall St call acc powf (st : St),
      eval_binop St call acc powf Equal s (VList [x]) st
      <> (omap VList (mapM (fun y => scalar_op powf Equal s y) [x]), st).
Proof. exact scalar_list_eq_needs_unique_keys. Qed.
Check C11_scalar_list_eq_needs_unique_keys :
  exists s x, equals x s <> equals s x /\
    forall St call acc powf (st : St),
      eval_binop St call acc powf Equal s (VList [x]) st
      <> (omap VList (mapM (fun y => scalar_op powf Equal s y) [x]), st).
Print Assumptions C11_scalar_list_eq_needs_unique_keys.

(* ------------------------------------------------------------------ "fails exactly when some element
   operation fails or the lengths differ"; results position by position; first failure wins *)
Theorem C11_mapM_ok_iff :
  forall (A B : Type) (f : A -> outcome B) l ys,
    mapM f l = Ok ys <-> Forall2 (fun x y => f x = Ok y) l ys.
Proof. exact @mapM_ok_iff. Qed.
Check C11_mapM_ok_iff :
  forall (A B : Type) (f : A -> outcome B) l ys,
    mapM f l = Ok ys <-> Forall2 (fun x y => f x = Ok y) l ys.
Print Assumptions C11_mapM_ok_iff.

Theorem C11_list_scalar_ok_iff :
  forall St call acc powf op l s (st : St),
    broadcasting op = true -> is_list s = false ->
    is_ok (fst (eval_binop St call acc powf op (VList l) s st))
    = forallb (fun x => is_ok (scalar_op powf op x s)) l.
Proof. exact list_scalar_ok_iff. Qed.
Check C11_list_scalar_ok_iff :
  forall St call acc powf op l s (st : St),
    broadcasting op = true -> is_list s = false ->
    is_ok (fst (eval_binop St call acc powf op (VList l) s st))
    = forallb (fun x => is_ok (scalar_op powf op x s)) l.
Print Assumptions C11_list_scalar_ok_iff.

Theorem C11_scalar_list_ok_iff :
  forall St call acc powf op s l (st : St),
    broadcasting op = true -> is_list s = false -> eq_sym_on op s l ->
    is_ok (fst (eval_binop St call acc powf op s (VList l) st))
    = forallb (fun x => is_ok (scalar_op powf op s x)) l.
Proof. exact scalar_list_ok_iff. Qed.
Check C11_scalar_list_ok_iff :
  forall St call acc powf op s l (st : St),
    broadcasting op = true -> is_list s = false -> eq_sym_on op s l ->
    is_ok (fst (eval_binop St call acc powf op s (VList l) st))
    = forallb (fun x => is_ok (scalar_op powf op s x)) l.
Print Assumptions C11_scalar_list_ok_iff.

Theorem C11_list_list_ok_iff :
  forall St call acc powf op l m (st : St),
    broadcasting op = true ->
    is_ok (fst (eval_binop St call acc powf op (VList l) (VList m) st))
    = Nat.eqb (length l) (length m) && forallb (fun p => is_ok (scalar_op powf op (fst p) (snd p))) (combine l m).
Proof. exact list_list_ok_iff. Qed.
Check C11_list_list_ok_iff :
  forall St call acc powf op l m (st : St),
    broadcasting op = true ->
    is_ok (fst (eval_binop St call acc powf op (VList l) (VList m) st))
    = Nat.eqb (length l) (length m) && forallb (fun p => is_ok (scalar_op powf op (fst p) (snd p))) (combine l m).
Print Assumptions C11_list_list_ok_iff.

Theorem C11_list_scalar_elementwise :
  forall St call acc powf op l s (st : St) v st',
    broadcasting op = true -> is_list s = false ->
    eval_binop St call acc powf op (VList l) s st = (Ok v, st') ->
    st' = st /\ exists r, v = VList r /\ length r = length l /\
      forall i x, nth_error l i = Some x -> exists y, nth_error r i = Some y /\ scalar_op powf op x s = Ok y.
Proof. exact list_scalar_elementwise. Qed.
Check C11_list_scalar_elementwise :
  forall St call acc powf op l s (st : St) v st',
    broadcasting op = true -> is_list s = false ->
    eval_binop St call acc powf op (VList l) s st = (Ok v, st') ->
    st' = st /\ exists r, v = VList r /\ length r = length l /\
      forall i x, nth_error l i = Some x -> exists y, nth_error r i = Some y /\ scalar_op powf op x s = Ok y.
Print Assumptions C11_list_scalar_elementwise.

Theorem C11_scalar_list_elementwise :
  forall St call acc powf op s l (st : St) v st',
    broadcasting op = true -> is_list s = false -> eq_sym_on op s l ->
    eval_binop St call acc powf op s (VList l) st = (Ok v, st') ->
    st' = st /\ exists r, v = VList r /\ length r = length l /\
      forall i x, nth_error l i = Some x -> exists y, nth_error r i = Some y /\ scalar_op powf op s x = Ok y.
Proof. exact scalar_list_elementwise. Qed.
Check C11_scalar_list_elementwise :
  forall St call acc powf op s l (st : St) v st',
    broadcasting op = true -> is_list s = false -> eq_sym_on op s l ->
    eval_binop St call acc powf op s (VList l) st = (Ok v, st') ->
    st' = st /\ exists r, v = VList r /\ length r = length l /\
      forall i x, nth_error l i = Some x -> exists y, nth_error r i = Some y /\ scalar_op powf op s x = Ok y.
Print Assumptions C11_scalar_list_elementwise.

Theorem C11_list_list_elementwise :
  forall St call acc powf op l m (st : St) v st',
    broadcasting op = true ->
    eval_binop St call acc powf op (VList l) (VList m) st = (Ok v, st') ->
    st' = st /\ length l = length m /\ exists r, v = VList r /\ length r = length l /\
      forall i x y, nth_error l i = Some x -> nth_error m i = Some y ->
                    exists z, nth_error r i = Some z /\ scalar_op powf op x y = Ok z.
Proof. exact list_list_elementwise. Qed.
Check C11_list_list_elementwise :
  forall St call acc powf op l m (st : St) v st',
    broadcasting op = true ->
    eval_binop St call acc powf op (VList l) (VList m) st = (Ok v, st') ->
    st' = st /\ length l = length m /\ exists r, v = VList r /\ length r = length l /\
      forall i x y, nth_error l i = Some x -> nth_error m i = Some y ->
                    exists z, nth_error r i = Some z /\ scalar_op powf op x y = Ok z.
Print Assumptions C11_list_list_elementwise.

Theorem C11_list_scalar_first_failure :
  forall St call acc powf op pre x post s (st : St) ys,
    broadcasting op = true -> is_list s = false ->
    mapM (fun e => scalar_op powf op e s) pre = Ok ys -> is_ok (scalar_op powf op x s) = false ->
    eval_binop St call acc powf op (VList (pre ++ x :: post)) s st = (Err, st).
Proof. exact list_scalar_first_failure. Qed.
Check C11_list_scalar_first_failure :
  forall St call acc powf op pre x post s (st : St) ys,
    broadcasting op = true -> is_list s = false ->
    mapM (fun e => scalar_op powf op e s) pre = Ok ys -> is_ok (scalar_op powf op x s) = false ->
    eval_binop St call acc powf op (VList (pre ++ x :: post)) s st = (Err, st).
Print Assumptions C11_list_scalar_first_failure.

(* ------------------------------------------------------------------ totality / purity / no abort *)
Theorem C11_pure_ops_total :
  forall St call acc powf op a b (st : St),
    broadcasting op = true \/ is_dot op = true ->
    snd (eval_binop St call acc powf op a b st) = st /\
    ((exists v, fst (eval_binop St call acc powf op a b st) = Ok v) \/
     fst (eval_binop St call acc powf op a b st) = Err).
Proof. exact pure_ops_total. Qed.
Check C11_pure_ops_total :
  forall St call acc powf op a b (st : St),
    broadcasting op = true \/ is_dot op = true ->
    snd (eval_binop St call acc powf op a b st) = st /\
    ((exists v, fst (eval_binop St call acc powf op a b st) = Ok v) \/
     fst (eval_binop St call acc powf op a b st) = Err).
Print Assumptions C11_pure_ops_total.

(* all 26 operators: the unreachable!() arms are unreachable, every list[idx] is in range *)
Theorem C11_binop_never_panics :
  forall St call acc powf,
    (forall t f args (st : St), fst (call t f args st) <> Panic) ->
    forall op a b st, fst (eval_binop St call acc powf op a b st) <> Panic.
Proof. exact binop_never_panics. Qed.
Check C11_binop_never_panics :
  forall St call acc powf,
    (forall t f args (st : St), fst (call t f args st) <> Panic) ->
    forall op a b st, fst (eval_binop St call acc powf op a b st) <> Panic.
Print Assumptions C11_binop_never_panics.

(* ------------------------------------------------------------------ the spec says what the property says *)
Theorem C11_scalar_numbers :
  forall powf x y,
    scalar_op powf Add (VNum x) (VNum y) = Ok (VNum (SpecFloat.SFadd 53 1024 x y)) /\
    scalar_op powf Subtract (VNum x) (VNum y) = Ok (VNum (SpecFloat.SFsub 53 1024 x y)) /\
    scalar_op powf Multiply (VNum x) (VNum y) = Ok (VNum (SpecFloat.SFmul 53 1024 x y)) /\
    scalar_op powf Divide (VNum x) (VNum y) = Ok (VNum (SpecFloat.SFdiv 53 1024 x y)) /\
    scalar_op powf Modulo (VNum x) (VNum y) = Ok (VNum (nfmod x y)) /\
    scalar_op powf Power (VNum x) (VNum y) = Ok (VNum (powf x y)).
Proof. exact scalar_numbers. Qed.
Check C11_scalar_numbers :
  forall powf x y,
    scalar_op powf Add (VNum x) (VNum y) = Ok (VNum (SpecFloat.SFadd 53 1024 x y)) /\
    scalar_op powf Subtract (VNum x) (VNum y) = Ok (VNum (SpecFloat.SFsub 53 1024 x y)) /\
    scalar_op powf Multiply (VNum x) (VNum y) = Ok (VNum (SpecFloat.SFmul 53 1024 x y)) /\
    scalar_op powf Divide (VNum x) (VNum y) = Ok (VNum (SpecFloat.SFdiv 53 1024 x y)) /\
    scalar_op powf Modulo (VNum x) (VNum y) = Ok (VNum (nfmod x y)) /\
    scalar_op powf Power (VNum x) (VNum y) = Ok (VNum (powf x y)).
Print Assumptions C11_scalar_numbers.

Theorem C11_scalar_arith_domain :
  forall powf op a b v,
    is_arith op = true -> scalar_op powf op a b = Ok v ->
    (exists x y, a = VNum x /\ b = VNum y) \/ (op = Add /\ exists s t, a = VStr s /\ b = VStr t).
Proof. exact scalar_arith_domain. Qed.
Check C11_scalar_arith_domain :
  forall powf op a b v,
    is_arith op = true -> scalar_op powf op a b = Ok v ->
    (exists x y, a = VNum x /\ b = VNum y) \/ (op = Add /\ exists s t, a = VStr s /\ b = VStr t).
Print Assumptions C11_scalar_arith_domain.

Theorem C11_scalar_string_concat :
  forall powf s t, scalar_op powf Add (VStr s) (VStr t) = Ok (VStr (s ++ t)%string).
Proof. exact scalar_string_concat. Qed.
Check C11_scalar_string_concat :
  forall powf s t, scalar_op powf Add (VStr s) (VStr t) = Ok (VStr (s ++ t)%string).
Print Assumptions C11_scalar_string_concat.

Theorem C11_scalar_comparisons :
  forall powf a b,
    scalar_op powf Equal a b = Ok (VBool (equals a b)) /\
    scalar_op powf NotEqual a b = Ok (VBool (negb (equals a b))) /\
    match compare a b with
    | Some o =>
        scalar_op powf Less a b = Ok (VBool (match o with Lt => true | _ => false end)) /\
        scalar_op powf LessEq a b = Ok (VBool (match o with Gt => false | _ => true end)) /\
        scalar_op powf Greater a b = Ok (VBool (match o with Gt => true | _ => false end)) /\
        scalar_op powf GreaterEq a b = Ok (VBool (match o with Lt => false | _ => true end))
    | None =>
        scalar_op powf Less a b = Err /\ scalar_op powf LessEq a b = Err /\
        scalar_op powf Greater a b = Err /\ scalar_op powf GreaterEq a b = Err
    end.
Proof. exact scalar_comparisons. Qed.
Check C11_scalar_comparisons :
  forall powf a b,
    scalar_op powf Equal a b = Ok (VBool (equals a b)) /\
    scalar_op powf NotEqual a b = Ok (VBool (negb (equals a b))) /\
    match compare a b with
    | Some o =>
        scalar_op powf Less a b = Ok (VBool (match o with Lt => true | _ => false end)) /\
        scalar_op powf LessEq a b = Ok (VBool (match o with Gt => false | _ => true end)) /\
        scalar_op powf Greater a b = Ok (VBool (match o with Gt => true | _ => false end)) /\
        scalar_op powf GreaterEq a b = Ok (VBool (match o with Lt => false | _ => true end))
    | None =>
        scalar_op powf Less a b = Err /\ scalar_op powf LessEq a b = Err /\
        scalar_op powf Greater a b = Err /\ scalar_op powf GreaterEq a b = Err
    end.
Print Assumptions C11_scalar_comparisons.

Theorem C11_scalar_and_or_booleans :
  forall powf x y,
    scalar_op powf And (VBool x) (VBool y) = Ok (VBool (x && y)) /\
    scalar_op powf NaturalAnd (VBool x) (VBool y) = Ok (VBool (x && y)) /\
    scalar_op powf Or (VBool x) (VBool y) = Ok (VBool (x || y)) /\
    scalar_op powf NaturalOr (VBool x) (VBool y) = Ok (VBool (x || y)).
Proof. exact scalar_and_or_booleans. Qed.
Check C11_scalar_and_or_booleans :
  forall powf x y,
    scalar_op powf And (VBool x) (VBool y) = Ok (VBool (x && y)) /\
    scalar_op powf NaturalAnd (VBool x) (VBool y) = Ok (VBool (x && y)) /\
    scalar_op powf Or (VBool x) (VBool y) = Ok (VBool (x || y)) /\
    scalar_op powf NaturalOr (VBool x) (VBool y) = Ok (VBool (x || y)).
Print Assumptions C11_scalar_and_or_booleans.

Theorem C11_scalar_and_or_require_booleans :
  forall powf op a b v,
    (op = And \/ op = NaturalAnd \/ op = Or \/ op = NaturalOr) -> scalar_op powf op a b = Ok v ->
    exists x r, a = VBool x /\ v = VBool r /\
      ((exists y, b = VBool y) \/ x = (match op with And | NaturalAnd => false | _ => true end)).
Proof. exact scalar_and_or_require_booleans. Qed.
Check C11_scalar_and_or_require_booleans :
  forall powf op a b v,
    (op = And \/ op = NaturalAnd \/ op = Or \/ op = NaturalOr) -> scalar_op powf op a b = Ok v ->
    exists x r, a = VBool x /\ v = VBool r /\
      ((exists y, b = VBool y) \/ x = (match op with And | NaturalAnd => false | _ => true end)).
Print Assumptions C11_scalar_and_or_require_booleans.

Theorem C11_scalar_and_or_left_not_boolean :
  forall powf op a b,
    (op = And \/ op = NaturalAnd \/ op = Or \/ op = NaturalOr) ->
    (forall x, a <> VBool x) -> scalar_op powf op a b = Err.
Proof. exact scalar_and_or_left_not_boolean. Qed.
Check C11_scalar_and_or_left_not_boolean :
  forall powf op a b,
    (op = And \/ op = NaturalAnd \/ op = Or \/ op = NaturalOr) ->
    (forall x, a <> VBool x) -> scalar_op powf op a b = Err.
Print Assumptions C11_scalar_and_or_left_not_boolean.

Theorem C11_scalar_coalesce :
  forall powf a b,
    (a = VNull -> scalar_op powf Coalesce a b = Ok b) /\ (a <> VNull -> scalar_op powf Coalesce a b = Ok a).
Proof. exact scalar_coalesce. Qed.
Check C11_scalar_coalesce :
  forall powf a b,
    (a = VNull -> scalar_op powf Coalesce a b = Ok b) /\ (a <> VNull -> scalar_op powf Coalesce a b = Ok a).
Print Assumptions C11_scalar_coalesce.

(* ------------------------------------------------------------------ Examples: the hypotheses are
   satisfiable and the statements say something on concrete inputs (powf := constant oracle) *)
Definition pw0 (_ _ : num) : num := nzero.
Definition ev0 := eval_binop unit (fun _ _ _ st => (Unmodelled, st)) fn_accepts2_of_value pw0.
Definition n (z : Z) : value := VNum (num_of_Z z).

Example ex_operand_order_scalar_left :       (* 10 - [1, 4] = [9, 6], 10 / [2, 5] = [5, 2], 2 < [1, 3] *)
  ev0 Subtract (n 10) (VList [n 1; n 4]) tt = (Ok (VList [n 9; n 6]), tt) /\
  ev0 Divide (n 10) (VList [n 2; n 5]) tt = (Ok (VList [n 5; n 2]), tt) /\
  ev0 Less (n 2) (VList [n 1; n 3]) tt = (Ok (VList [VBool false; VBool true]), tt) /\
  ev0 Modulo (n 7) (VList [n 2; n 4]) tt = (Ok (VList [n 1; n 3]), tt).
Proof. vm_compute. repeat split. Qed.

Example ex_first_failure_and_lengths :
  ev0 Add (VList [n 1; VStr "a"; n 2]) (n 1) tt = (Err, tt) /\
  ev0 Add (VList [n 1; n 2]) (VList [n 1]) tt = (Err, tt) /\
  ev0 Add (VList [VStr "a"; VStr "b"]) (VStr "c") tt = (Ok (VList [VStr "ac"; VStr "bc"]), tt) /\
  ev0 Add (VStr "c") (VList [VStr "a"; VStr "b"]) tt = (Ok (VList [VStr "ca"; VStr "cb"]), tt).
Proof. vm_compute. repeat split. Qed.

Example ex_and_or_left_first :               (* `false && 1` is false; `true && 1` fails *)
  ev0 And (VBool false) (n 1) tt = (Ok (VBool false), tt) /\
  ev0 And (VBool true) (n 1) tt = (Err, tt) /\
  ev0 And (VList [VBool false; VBool true]) (n 1) tt = (Err, tt) /\
  ev0 Or (VBool true) (VList [n 1; VNull]) tt = (Ok (VList [VBool true; VBool true]), tt).
Proof. vm_compute. repeat split. Qed.

Example ex_one_level_deep :                  (* an element that is a list is a whole value *)
  ev0 Equal (VList [VList [n 1; n 2]; n 3]) (n 3) tt = (Ok (VList [VBool false; VBool true]), tt) /\
  ev0 Add (VList [VList [n 1]]) (n 1) tt = (Err, tt) /\
  ev0 Less (VList [VList [n 1]]) (VList [VList [n 1; n 0]]) tt = (Ok (VList [VBool true]), tt) /\
  ev0 Coalesce (VList [VNull; VList []]) (n 0) tt = (Ok (VList [n 0; VList []]), tt).
Proof. vm_compute. repeat split. Qed.

Example ex_dot_whole_values :
  ev0 DotEqual (VList [n 1; n 2]) (VList [n 1; n 2]) tt = (Ok (VBool true), tt) /\
  ev0 DotLess (VList [n 1]) (VList [n 1; n 2]) tt = (Ok (VBool true), tt) /\
  ev0 DotEqual (VList [n 1]) (n 1) tt = (Ok (VBool false), tt) /\
  ev0 DotLess (VList [n 1]) (n 1) tt = (Err, tt).
Proof. vm_compute. repeat split. Qed.

Example ex_wf_nontrivial :
  wf_value (VList [VRec [("k"%string, VNum nnan); ("j"%string, VList [VNull])]; VStr "x"; VBuiltin B_sum;
                   VLam 0%nat [AReq "x"%string] (EBin Add (EId "x"%string) (ENum (num_of_Z 1))) []]) = true.
Proof. reflexivity. Qed.
