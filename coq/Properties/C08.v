(* C08 — Formatting is idempotent.
   Property theorems only.  Model: coq/Formatter.v; proofs: coq/proofs/Idempotent.v. *)
From Coq Require Import String List ZArith Bool Lia.
Require Import Blots.Num Blots.gen.Builtins Blots.Ast Blots.Formatter Blots.proofs.Idempotent.
Import ListNotations.
Open Scope Z_scope.

(* join_statements_with_spacing emits 1..3 newlines = min(blank lines, 2) + 1 *)
Theorem C08_gap_newlines_spec :
  forall e s, gap_newlines e s = Z.min (Z.max 0 (s - e - 1)) 2 + 1.
Proof. intros; unfold gap_newlines, line_gap, sat_sub; lia. Qed.
Check C08_gap_newlines_spec : forall e s, gap_newlines e s = Z.min (Z.max 0 (s - e - 1)) 2 + 1.
Print Assumptions C08_gap_newlines_spec.

(* re-reading the emitted blank lines gives the clamped gap, and the same newlines again *)
Theorem C08_reread_gap :
  forall e s e', line_gap e' (e' + gap_newlines e s) = Z.min (line_gap e s) 2.
Proof. intros; unfold gap_newlines, line_gap, sat_sub; lia. Qed.
Check C08_reread_gap : forall e s e', line_gap e' (e' + gap_newlines e s) = Z.min (line_gap e s) 2.
Print Assumptions C08_reread_gap.

Theorem C08_reread_newlines :
  forall e s e', gap_newlines e' (e' + gap_newlines e s) = gap_newlines e s.
Proof. exact reread_newlines. Qed.
Check C08_reread_newlines : forall e s e', gap_newlines e' (e' + gap_newlines e s) = gap_newlines e s.
Print Assumptions C08_reread_newlines.

Theorem C08_clamp_idempotent : forall g, clamp_gap (clamp_gap g) = clamp_gap g.
Proof. intros; unfold clamp_gap; lia. Qed.
Check C08_clamp_idempotent : forall g, clamp_gap (clamp_gap g) = clamp_gap g.
Print Assumptions C08_clamp_idempotent.

(* spacing_idempotent: for every statement list and every recorded line numbers, joining the
   statements again with the line numbers they have in the emitted text emits the same text *)
Theorem C08_spacing_idempotent :
  forall l start, join_spacing (relayout start l) = join_spacing l.
Proof. exact spacing_idempotent. Qed.
Check C08_spacing_idempotent : forall l start, join_spacing (relayout start l) = join_spacing l.
Print Assumptions C08_spacing_idempotent.

Theorem C08_relayout_fixed_point :
  forall l start, relayout start (relayout start l) = relayout start l.
Proof. exact relayout_idem. Qed.
Check C08_relayout_fixed_point : forall l start, relayout start (relayout start l) = relayout start l.
Print Assumptions C08_relayout_fixed_point.

(* example: 5 blank lines are clamped to 2, and the clamped layout is stable *)
Example C08_spacing_example :
  let l := [([Code "a"], 1, 1); ([Code "b"], 7, 7); ([Code "c"], 8, 8)] in
  render (join_spacing l) = ("a" ++ nl ++ nl ++ nl ++ "b" ++ nl ++ "c")%string /\
  relayout 1 l = [([Code "a"], 1, 1); ([Code "b"], 4, 4); ([Code "c"], 5, 5)].
Proof. vm_compute. split; reflexivity. Qed.

(* ---- reparse normal form for comment placement (pair-level model of the parser's
   pending-comment bookkeeping; the grammar step text -> pairs is validated by the ATTACH
   correspondence stream, not proved) *)
Open Scope list_scope.

(* lists and records: on the formatter's own layout every comment is re-attached to the same
   item in the same role, for items shaped as the parser shapes them (only the last item has
   a trailing comment) ... *)
Theorem C08_list_reattach_fixed_point :
  forall (A : Type) (items : list (commented A)),
  only_last_trailing items = true -> attach (layout_pairs items) = items.
Proof. intros A. exact list_reattach_fixed_point. Qed.
Check C08_list_reattach_fixed_point :
  forall (A : Type) (items : list (commented A)),
  only_last_trailing items = true -> attach (layout_pairs items) = items.
Print Assumptions C08_list_reattach_fixed_point.

(* ... which is the shape of everything the parser attaches (an eol_comment can only follow
   the last item, by the grammar) ... *)
Theorem C08_attach_shape :
  forall (A : Type) (pairs : list (lpair A)),
  eol_only_last pairs = true -> only_last_trailing (attach pairs) = true.
Proof. intros A. exact attach_shape. Qed.
Check C08_attach_shape :
  forall (A : Type) (pairs : list (lpair A)),
  eol_only_last pairs = true -> only_last_trailing (attach pairs) = true.
Print Assumptions C08_attach_shape.

(* ... so comment placement is stable from the first formatting pass on: an after-comma comment
   has become a leading comment of the next item, after-last comments have joined the last
   item's trailing text, and parsing the formatted layout changes nothing any more *)
Theorem C08_reattach_after_one_pass :
  forall (A : Type) (pairs : list (lpair A)),
  eol_only_last pairs = true -> attach (layout_pairs (attach pairs)) = attach pairs.
Proof. intros A. exact reattach_after_one_pass. Qed.
Check C08_reattach_after_one_pass :
  forall (A : Type) (pairs : list (lpair A)),
  eol_only_last pairs = true -> attach (layout_pairs (attach pairs)) = attach pairs.
Print Assumptions C08_reattach_after_one_pass.

(* do-blocks: statements keep their leading and same-line comments, the return expression its
   leading comments (until b1bc7c1 the grammar rejected the "  // c" the formatter prints after a
   statement — F29, fixed; the witness stays in corpus/C08) *)
Theorem C08_do_reattach_fixed_point :
  forall (A : Type) (stmts : list (commented A)) ret, ctrailing ret = None ->
  attach_do (do_layout_pairs stmts ret) (cnode ret) = (stmts, ret).
Proof. intros A. exact do_reattach_fixed_point. Qed.
Check C08_do_reattach_fixed_point :
  forall (A : Type) (stmts : list (commented A)) ret, ctrailing ret = None ->
  attach_do (do_layout_pairs stmts ret) (cnode ret) = (stmts, ret).
Print Assumptions C08_do_reattach_fixed_point.

(* `[1, // a` newline `2 // b` newline `// c` newline `]`: "// a" leads 2, "// b" and "// c" trail it *)
Example C08_attach_example :
  attach [PItem 1 None; PComment "// a"; PItem 2 (Some "// b"); PComment "// c"]
  = [Cm [] 1 None; Cm ["// a"] 2 (Some ("// b" ++ nl ++ "// c"))%string] /\
  layout_pairs [Cm [] 1 None; Cm ["// a"] 2 (Some ("// b" ++ nl ++ "// c"))%string]
  = [PItem 1 None; PComment "// a"; PItem 2 None; PComment "// b"; PComment "// c"].
Proof. split; reflexivity. Qed.

(* format_depends_on_ast_only: the layout is a function of the comment-carrying AST, the width
   and the indentation only — the model has no other input (no spans, no source text), and the
   FORMAT correspondence shows the implementation's text is reproduced from exactly these. *)
Theorem C08_format_depends_on_ast_only :
  forall O w e1 e2 i1 i2, e1 = e2 -> i1 = i2 ->
  render (fmtd O w e1 i1) = render (fmtd O w e2 i2).
Proof. intros; subst; reflexivity. Qed.
Check C08_format_depends_on_ast_only :
  forall O w e1 e2 i1 i2, e1 = e2 -> i1 = i2 ->
  render (fmtd O w e1 i1) = render (fmtd O w e2 i2).
Print Assumptions C08_format_depends_on_ast_only.

(* ---- the second pass of the drivers.  If the first output re-parses to statements with the
   same content (same expressions with the same comment attachment — C07 and the re-attachment
   theorems above — and the same end-of-line comments) at the positions the text gives them
   (relayout; validated against pest's spans by the FORMAT correspondence), the library driver
   prints the same text again; the CLI driver does not look at positions at all. *)
Theorem C08_lib_driver_second_pass :
  forall O mw p q,
  map stmt_content q = map stmt_content p ->
  map stmt_pos q = map triple_pos (relayout 1 (map_first (lib_stmt O mw) p)) ->
  format_lib O mw q = format_lib O mw p.
Proof. exact lib_driver_second_pass. Qed.
Check C08_lib_driver_second_pass :
  forall O mw p q,
  map stmt_content q = map stmt_content p ->
  map stmt_pos q = map triple_pos (relayout 1 (map_first (lib_stmt O mw) p)) ->
  format_lib O mw q = format_lib O mw p.
Print Assumptions C08_lib_driver_second_pass.

Theorem C08_cli_driver_second_pass :
  forall O p q,
  map stmt_content q = map stmt_content p -> format_cli O q = format_cli O p.
Proof. exact cli_driver_second_pass. Qed.
Check C08_cli_driver_second_pass :
  forall O p q,
  map stmt_content q = map stmt_content p -> format_cli O q = format_cli O p.
Print Assumptions C08_cli_driver_second_pass.

(* ======================================================================================================
   ATTACH composition with the parser model (C09P2; proofs/PegCommentsAttach.v).  The re-attachment theorems above are
   about the abstract pair-level functions `attach` / `attach_do`.  The parser model (coq/PegComments.v: Peg tree ->
   item view -> commented Pratt parser = pairs_to_expr_with_comments) handles every list / record / do_block pair, at
   any nesting depth, with loops that ARE those functions applied to the pair sequence obtained by parsing each item
   ([lels_pairs] / [rels_pairs] / [dels_pairs]) — so the theorems above speak about what `parse_program_c` builds from
   the Peg tree of a formatted text.  What is left to correspondence (ATTACH part 2, REPARSE stream): that the tree of
   the text a layout prints has the pair sequence `layout_pairs items` / `do_layout_pairs stmts ret` (grammar step on
   the formatter's text), and the AST round trip (C07). *)
Require Import Blots.Outcome Blots.PrattTypes Blots.gen.PrecTable Blots.Pratt Blots.PegComments Blots.proofs.PegCommentsAttach.

Theorem C08_reparse_attach_matches_model :
  forall tbl imap pmap f,
  (forall els, primary_c tbl imap pmap (S f) (IList els) =
               do ps <- lels_pairs (parse_items_c tbl imap pmap f) els;
               Outcome.Ok (option_map (fun ps => EList (attach ps)) ps))
  /\ (forall els, primary_c tbl imap pmap (S f) (IRecord els) =
                  do ps <- rels_pairs (parse_items_c tbl imap pmap f) els;
                  Outcome.Ok (option_map (fun ps => ERec (attach ps)) ps))
  /\ (forall els, do_shape els = true ->
        exists body g, els = body ++ [DRet g] /\ forallb d_not_ret body = true /\
        primary_c tbl imap pmap (S f) (IDo els) =
        do ps <- dels_pairs (parse_items_c tbl imap pmap f) body;
        match ps with
        | None => Outcome.Ok None
        | Some ps' => do e <- parse_items_c tbl imap pmap f g; Outcome.Ok (option_map (do_result ps') e)
        end).
Proof. exact reparse_attach_matches_model. Qed.
Check C08_reparse_attach_matches_model :
  forall tbl imap pmap f,
  (forall els, primary_c tbl imap pmap (S f) (IList els) =
               do ps <- lels_pairs (parse_items_c tbl imap pmap f) els;
               Outcome.Ok (option_map (fun ps => EList (attach ps)) ps))
  /\ (forall els, primary_c tbl imap pmap (S f) (IRecord els) =
                  do ps <- rels_pairs (parse_items_c tbl imap pmap f) els;
                  Outcome.Ok (option_map (fun ps => ERec (attach ps)) ps))
  /\ (forall els, do_shape els = true ->
        exists body g, els = body ++ [DRet g] /\ forallb d_not_ret body = true /\
        primary_c tbl imap pmap (S f) (IDo els) =
        do ps <- dels_pairs (parse_items_c tbl imap pmap f) body;
        match ps with
        | None => Outcome.Ok None
        | Some ps' => do e <- parse_items_c tbl imap pmap f g; Outcome.Ok (option_map (do_result ps') e)
        end).
Print Assumptions C08_reparse_attach_matches_model.

(* composition with the fixed-point theorems: IF the inner pairs of the container pair in the tree of the formatted
   text are the layout's pairs, THEN the parser model rebuilds exactly the commented items that were formatted *)
Theorem C08_reparse_list_fixed_point : forall parse els items,
  lels_pairs parse els = Outcome.Ok (Some (layout_pairs items)) -> only_last_trailing items = true ->
  list_arm_c parse els = Outcome.Ok (Some (EList items)).
Proof. exact reparse_list_fixed_point. Qed.
Check C08_reparse_list_fixed_point : forall parse els items,
  lels_pairs parse els = Outcome.Ok (Some (layout_pairs items)) -> only_last_trailing items = true ->
  list_arm_c parse els = Outcome.Ok (Some (EList items)).
Print Assumptions C08_reparse_list_fixed_point.
Theorem C08_reparse_record_fixed_point : forall parse els entries,
  rels_pairs parse els = Outcome.Ok (Some (layout_pairs entries)) -> only_last_trailing entries = true ->
  rec_arm_c parse els = Outcome.Ok (Some (ERec entries)).
Proof. exact reparse_record_fixed_point. Qed.
Check C08_reparse_record_fixed_point : forall parse els entries,
  rels_pairs parse els = Outcome.Ok (Some (layout_pairs entries)) -> only_last_trailing entries = true ->
  rec_arm_c parse els = Outcome.Ok (Some (ERec entries)).
Print Assumptions C08_reparse_record_fixed_point.
Theorem C08_reparse_do_fixed_point : forall parse body g stmts ret,
  forallb d_not_ret body = true ->
  dels_pairs parse body = Outcome.Ok (Some (do_layout_pairs stmts ret)) ->
  parse g = Outcome.Ok (Some (cnode ret)) -> ctrailing ret = None ->
  do_arm_c parse (body ++ [DRet g]) = Outcome.Ok (Some (EDo stmts ret)).
Proof. exact reparse_do_fixed_point. Qed.
Check C08_reparse_do_fixed_point : forall parse body g stmts ret,
  forallb d_not_ret body = true ->
  dels_pairs parse body = Outcome.Ok (Some (do_layout_pairs stmts ret)) ->
  parse g = Outcome.Ok (Some (cnode ret)) -> ctrailing ret = None ->
  do_arm_c parse (body ++ [DRet g]) = Outcome.Ok (Some (EDo stmts ret)).
Print Assumptions C08_reparse_do_fixed_point.
Theorem C08_reparse_list_stable_after_one_pass : forall parse els els2 ps,
  lels_pairs parse els = Outcome.Ok (Some ps) -> eol_only_last ps = true ->
  lels_pairs parse els2 = Outcome.Ok (Some (layout_pairs (attach ps))) ->
  list_arm_c parse els2 = list_arm_c parse els.
Proof. exact reparse_list_stable_after_one_pass. Qed.
Check C08_reparse_list_stable_after_one_pass : forall parse els els2 ps,
  lels_pairs parse els = Outcome.Ok (Some ps) -> eol_only_last ps = true ->
  lels_pairs parse els2 = Outcome.Ok (Some (layout_pairs (attach ps))) ->
  list_arm_c parse els2 = list_arm_c parse els.
Print Assumptions C08_reparse_list_stable_after_one_pass.

(* a statement that is a bare list: pairs_to_expr_with_comments on the crate's table IS attach on the parsed pairs *)
Theorem C08_reparse_bare_list : forall els,
  pratt_c [IList els] =
  do ps <- lels_pairs (parse_items_c impl_table infix_map prefix_map (4 * items_size [IList els] + 1)) els;
  Outcome.Ok (option_map (fun ps => EList (attach ps)) ps).
Proof. exact pratt_c_bare_list. Qed.
Check C08_reparse_bare_list : forall els,
  pratt_c [IList els] =
  do ps <- lels_pairs (parse_items_c impl_table infix_map prefix_map (4 * items_size [IList els] + 1)) els;
  Outcome.Ok (option_map (fun ps => EList (attach ps)) ps).
Print Assumptions C08_reparse_bare_list.

(* the drivers' second pass with the re-parse done by the parser MODEL (a Coq term) instead of an unmodelled parser:
   the two hypotheses are those of C08_lib_driver_second_pass about q = the program parse_program_c builds from the
   Peg tree of the first output's text (both are compared with the implementation on every run: REPARSE / FORMAT) *)
Theorem C08_reparse_second_pass_lib : forall O mw p d forest q,
  format_lib O mw p = Some d ->
  parse_program_c (render d) = PCOk forest q ->
  map stmt_content q = map stmt_content p ->
  map stmt_pos q = map triple_pos (relayout 1 (map_first (lib_stmt O mw) p)) ->
  format_lib O mw q = Some d.
Proof. exact reparse_second_pass_lib. Qed.
Check C08_reparse_second_pass_lib : forall O mw p d forest q,
  format_lib O mw p = Some d ->
  parse_program_c (render d) = PCOk forest q ->
  map stmt_content q = map stmt_content p ->
  map stmt_pos q = map triple_pos (relayout 1 (map_first (lib_stmt O mw) p)) ->
  format_lib O mw q = Some d.
Print Assumptions C08_reparse_second_pass_lib.
Theorem C08_reparse_second_pass_cli : forall O p forest q,
  parse_program_c (render (format_cli O p)) = PCOk forest q ->
  map stmt_content q = map stmt_content p ->
  format_cli O q = format_cli O p.
Proof. exact reparse_second_pass_cli. Qed.
Check C08_reparse_second_pass_cli : forall O p forest q,
  parse_program_c (render (format_cli O p)) = PCOk forest q ->
  map stmt_content q = map stmt_content p ->
  format_cli O q = format_cli O p.
Print Assumptions C08_reparse_second_pass_cli.
