(* C19 — CLI contract: exit status, outputs object, input merging, #name.
   Property theorems only (each closed by [exact lemma], pinned by [Check], followed by
   [Print Assumptions]).  Model: coq/Cli.v (main.rs run / evaluate_source / parse_json_inputs /
   write_outputs, values.rs to_value) on top of coq/Program.v (statement loop) and coq/Eval.v.
   The theorems about exit status and merging hold for EVERY evaluator [eval]; those that need
   the frame discipline (outputs object) and `#name` hold for the evaluator model at every call
   depth and for every implementation of operators and built-ins.  The transcription is tied to
   the code by the CLI stream (checks/c19.py). *)
From Coq Require Import String List ZArith Bool.
Require Import Blots.Num Blots.gen.Builtins Blots.Ast Blots.Value Blots.Outcome Blots.Binop
               Blots.Env Blots.Eval Blots.Program Blots.EvalInst Blots.Cli
               Blots.proofs.Frames Blots.proofs.StoreMono Blots.proofs.Scoping Blots.proofs.Cli.
Import ListNotations.
Open Scope string_scope.
Open Scope list_scope.

(* ======================================================================================= *)
(* exit status                                                                              *)
(* ======================================================================================= *)
(* The driver exits 0 exactly when: the mode has a script, every input source is valid JSON
   (read_inputs succeeds; stdin is consulted only when the mode does not read the script from
   it), the script parses, and every statement — evaluation and output validation — succeeds. *)
Theorem C19_exit0_iff_all_ok : forall eval m of stdin flags prog,
  cr_exit (cli_run eval m of stdin flags prog) = Some 0 <-> invocation_ok eval m stdin flags prog.
Proof. exact exit0_iff_all_ok. Qed.
Check C19_exit0_iff_all_ok : forall eval m of stdin flags prog,
  cr_exit (cli_run eval m of stdin flags prog) = Some 0 <-> invocation_ok eval m stdin flags prog.
Print Assumptions C19_exit0_iff_all_ok.

(* Exit 0 comes with exactly one outputs object (stdout without -o, the file with -o, never
   both); any other exit comes with no object at all — in every mode, including the no-script
   error exit (repo fix 43a3324 closed known finding F34: `-o FILE` used to receive `{}` there;
   witness kept in corpus/C19). *)
Theorem C19_exit0_one_object_else_none : forall eval m of stdin flags prog,
  let r := cli_run eval m of stdin flags prog in
  (cr_exit r = Some 0 /\ exists o, one_object of r o) \/
  (cr_exit r <> Some 0 /\ no_object r).
Proof. exact exit0_one_object_else_none. Qed.
Check C19_exit0_one_object_else_none : forall eval m of stdin flags prog,
  let r := cli_run eval m of stdin flags prog in
  (cr_exit r = Some 0 /\ exists o, one_object of r o) \/
  (cr_exit r <> Some 0 /\ no_object r).
Print Assumptions C19_exit0_one_object_else_none.

(* Reading the inputs fails (exit 1 before anything is evaluated) exactly when one of the
   sources — stdin if consulted, then each --input — is not valid JSON. *)
Theorem C19_input_error_iff_bad_json : forall stdin flags,
  fst (read_inputs stdin flags) = None <-> existsb is_bad (sources stdin flags) = true.
Proof. exact read_inputs_fails_iff_bad. Qed.
Check C19_input_error_iff_bad_json : forall stdin flags,
  fst (read_inputs stdin flags) = None <-> existsb is_bad (sources stdin flags) = true.
Print Assumptions C19_input_error_iff_bad_json.

(* Inputs are read before the script is looked at: an invalid source alone decides the outcome
   (exit 1, no object), whatever the script is. *)
Theorem C19_bad_input_exits_1 : forall eval m of stdin flags prog,
  existsb is_bad (sources (stdin_for m stdin) flags) = true ->
  cli_run eval m of stdin flags prog = cli_fail 1.
Proof. exact bad_input_exits_1. Qed.
Check C19_bad_input_exits_1 : forall eval m of stdin flags prog,
  existsb is_bad (sources (stdin_for m stdin) flags) = true ->
  cli_run eval m of stdin flags prog = cli_fail 1.
Print Assumptions C19_bad_input_exits_1.

(* ======================================================================================= *)
(* the outputs object                                                                       *)
(* ======================================================================================= *)
(* On exit 0 the single object emitted is the outputs map of the final session and its keys are
   the names declared with `output` — ALL of them (repo fix 91678e3 closed known finding F33:
   `output constants` / `output inf` used to record nothing; witness kept in corpus/C19) — in the
   order of their FIRST declaration (re-declaring a name keeps its position), without duplicates.
   For every evaluator. *)
Theorem C19_outputs_keys_in_declaration_order : forall eval m of stdin flags p,
  cr_exit (cli_run eval m of stdin flags (Some p)) = Some 0 ->
  exists inputs st,
    read_inputs (stdin_for m stdin) flags = (Some inputs, st) /\
    let final := fst (run eval (cli_session st inputs) p) in
    one_object of (cli_run eval m of stdin flags (Some p)) (s_outputs final) /\
    map fst (s_outputs final) = fold_left add_key (decl_names p) [] /\
    NoDup (map fst (s_outputs final)).
Proof. exact cli_outputs_keys. Qed.
Check C19_outputs_keys_in_declaration_order : forall eval m of stdin flags p,
  cr_exit (cli_run eval m of stdin flags (Some p)) = Some 0 ->
  exists inputs st,
    read_inputs (stdin_for m stdin) flags = (Some inputs, st) /\
    let final := fst (run eval (cli_session st inputs) p) in
    one_object of (cli_run eval m of stdin flags (Some p)) (s_outputs final) /\
    map fst (s_outputs final) = fold_left add_key (decl_names p) [] /\
    NoDup (map fst (s_outputs final)).
Print Assumptions C19_outputs_keys_in_declaration_order.

(* ... and when every declaration names a binding ([binding_decl]: not inf / infinity / constants,
   which are values but not bindings), every key holds the value its name is bound to in the final
   environment (bindings never change: C03). *)
Theorem C19_outputs_in_declaration_order : forall release bi bu d m of stdin flags p,
  cr_exit (cli_run (evalD release bi bu d) m of stdin flags (Some p)) = Some 0 ->
  forallb binding_decl p = true ->
  exists inputs st,
    read_inputs (stdin_for m stdin) flags = (Some inputs, st) /\
    let final := fst (run (evalD release bi bu d) (cli_session st inputs) p) in
    one_object of (cli_run (evalD release bi bu d) m of stdin flags (Some p)) (s_outputs final) /\
    map fst (s_outputs final) = fold_left add_key (decl_names p) [] /\
    NoDup (map fst (s_outputs final)) /\
    (forall x v, rec_get (s_outputs final) x = Some v ->
                 lookup (snd (s_cfg final)) x = Some v).
Proof. exact cli_outputs_in_declaration_order. Qed.
Check C19_outputs_in_declaration_order : forall release bi bu d m of stdin flags p,
  cr_exit (cli_run (evalD release bi bu d) m of stdin flags (Some p)) = Some 0 ->
  forallb binding_decl p = true ->
  exists inputs st,
    read_inputs (stdin_for m stdin) flags = (Some inputs, st) /\
    let final := fst (run (evalD release bi bu d) (cli_session st inputs) p) in
    one_object of (cli_run (evalD release bi bu d) m of stdin flags (Some p)) (s_outputs final) /\
    map fst (s_outputs final) = fold_left add_key (decl_names p) [] /\
    NoDup (map fst (s_outputs final)) /\
    (forall x v, rec_get (s_outputs final) x = Some v ->
                 lookup (snd (s_cfg final)) x = Some v).
Print Assumptions C19_outputs_in_declaration_order.

(* ... and that value is the one the name had right after the statement that declared it (for
   EVERY declaration of the name, so re-declarations cannot change it). *)
Theorem C19_output_value_at_declaration : forall release bi bu d m of stdin flags p1 t p2 x,
  cr_exit (cli_run (evalD release bi bu d) m of stdin flags (Some (p1 ++ t :: p2))) = Some 0 ->
  forallb binding_decl (p1 ++ t :: p2) = true -> decl_name t = Some x ->
  exists inputs st v,
    read_inputs (stdin_for m stdin) flags = (Some inputs, st) /\
    lookup (snd (s_cfg (fst (run (evalD release bi bu d) (cli_session st inputs) (p1 ++ [t]))))) x
      = Some v /\
    rec_get (s_outputs (fst (run (evalD release bi bu d) (cli_session st inputs) (p1 ++ t :: p2)))) x
      = Some v.
Proof. exact cli_output_value_at_declaration. Qed.
Check C19_output_value_at_declaration : forall release bi bu d m of stdin flags p1 t p2 x,
  cr_exit (cli_run (evalD release bi bu d) m of stdin flags (Some (p1 ++ t :: p2))) = Some 0 ->
  forallb binding_decl (p1 ++ t :: p2) = true -> decl_name t = Some x ->
  exists inputs st v,
    read_inputs (stdin_for m stdin) flags = (Some inputs, st) /\
    lookup (snd (s_cfg (fst (run (evalD release bi bu d) (cli_session st inputs) (p1 ++ [t]))))) x
      = Some v /\
    rec_get (s_outputs (fst (run (evalD release bi bu d) (cli_session st inputs) (p1 ++ t :: p2)))) x
      = Some v.
Print Assumptions C19_output_value_at_declaration.

(* `output constants` yields the key `constants` (the witness of finding F33, closed by repo fix 91678e3) *)
Example C19_ex_output_constants :
  let r := cli_run eval_release MInline false None [] (Some [SOut (EId "constants")]) in
  cr_exit r = Some 0 /\ option_map (map fst) (cr_stdout r) = Some ["constants"].
Proof. vm_compute. split; reflexivity. Qed.

(* the hypotheses are satisfiable: a script with a re-declaration *)
Definition n (z : Z) : expr := ENum (num_of_Z z).
Definition ex_prog : list stmt :=
  [SOut (EAssign "b" (n 1)); SExpr (EAssign "a" (n 2)); SComment; SOut (EId "a"); SOut (EId "b")].
Example C19_ex_outputs :
  forallb binding_decl ex_prog = true /\
  show_cli (cli_run eval_release MFile false None [IVal (SNum (num_of_Z 7))] (Some ex_prog))
  = "EXIT:0;OUT:{62:N3ff0000000000000,61:N4000000000000000};FILE:-".
Proof. vm_compute. split; reflexivity. Qed.

(* ======================================================================================= *)
(* input merging                                                                            *)
(* ======================================================================================= *)
(* [contributions] lists what each source contributes, in order: stdin first (when consulted),
   then each --input; an object contributes its loadable entries (an entry whose function
   source does not load is dropped), any other value v contributes {value_k: v}.  The merged
   record is the LEFT FOLD of these maps: key k holds the value of the LAST source defining it,
   keys appear in the order of their first appearance, no key twice; and reading fails iff some
   source is invalid JSON (None case). *)
Theorem C19_merge_left_to_right : forall stdin flags,
  match contributions [] 0 (sources stdin flags) with
  | None => fst (read_inputs stdin flags) = None
  | Some maps =>
      exists M, fst (read_inputs stdin flags) = Some M /\
        M = fold_left merge_into maps [] /\
        (forall k, rec_get M k = last_def maps k None) /\
        map fst M = fold_left add_key (concat (map (map fst) maps)) [] /\
        NoDup (map fst M)
  end.
Proof. exact merge_left_to_right. Qed.
Check C19_merge_left_to_right : forall stdin flags,
  match contributions [] 0 (sources stdin flags) with
  | None => fst (read_inputs stdin flags) = None
  | Some maps =>
      exists M, fst (read_inputs stdin flags) = Some M /\
        M = fold_left merge_into maps [] /\
        (forall k, rec_get M k = last_def maps k None) /\
        map fst M = fold_left add_key (concat (map (map fst) maps)) [] /\
        NoDup (map fst M)
  end.
Print Assumptions C19_merge_left_to_right.

(* The names given to non-object sources, in order of appearance, are value_1, value_2, ...
   with no gap and no repetition (a non-object source that does not load gets no name and
   does not consume a number). *)
Theorem C19_value_k_numbering : forall stdin flags maps,
  contributions [] 0 (sources stdin flags) = Some maps ->
  unnamed_names (sources stdin flags) maps =
  map value_key (seq 1 (length (unnamed_names (sources stdin flags) maps))).
Proof. exact value_k_numbering_top. Qed.
Check C19_value_k_numbering : forall stdin flags maps,
  contributions [] 0 (sources stdin flags) = Some maps ->
  unnamed_names (sources stdin flags) maps =
  map value_key (seq 1 (length (unnamed_names (sources stdin flags) maps))).
Print Assumptions C19_value_k_numbering.

(* Loading does not depend on the heap: [loadable] (a function whose printed body re-parses, a
   known built-in name, and recursively) decides whether to_value succeeds.  An object then
   contributes exactly its loadable entries, in order — the observed corner that an entry whose
   function source does not load is DROPPED SILENTLY — and a non-object value gets the next
   value_k iff it loads. *)
Theorem C19_object_contributes_loadable_entries : forall es st acc,
  map fst (fst (load_entries st acc es)) =
  fold_left add_key (map fst (filter (fun kv => loadable (snd kv)) es)) (map fst acc).
Proof. exact load_entries_keys. Qed.
Check C19_object_contributes_loadable_entries : forall es st acc,
  map fst (fst (load_entries st acc es)) =
  fold_left add_key (map fst (filter (fun kv => loadable (snd kv)) es)) (map fst acc).
Print Assumptions C19_object_contributes_loadable_entries.

Theorem C19_non_object_named_iff_loadable : forall st n sv,
  fst (fst (parse_json_inputs st n (IVal sv))) <> None /\
  snd (parse_json_inputs st n (IVal sv)) = (if loadable sv then S n else n) /\
  option_map (map fst) (fst (fst (parse_json_inputs st n (IVal sv)))) =
    Some (if loadable sv then [value_key (S n)] else []).
Proof. exact parse_json_inputs_IVal. Qed.
Check C19_non_object_named_iff_loadable : forall st n sv,
  fst (fst (parse_json_inputs st n (IVal sv))) <> None /\
  snd (parse_json_inputs st n (IVal sv)) = (if loadable sv then S n else n) /\
  option_map (map fst) (fst (fst (parse_json_inputs st n (IVal sv)))) =
    Some (if loadable sv then [value_key (S n)] else []).
Print Assumptions C19_non_object_named_iff_loadable.

(* example: overlap, two non-objects, an unloadable function entry (dropped), stdin first *)
Example C19_ex_merge :
  show_inputs (Some (IVal (SNum (num_of_Z 5))))
              [IObj [("k", SNum (num_of_Z 1)); ("g", SLam [AReq "x"] None)];
               IVal (SLam [] None);
               IVal (SStr "x");
               IObj [("k", SNum (num_of_Z 2)); ("value_1", SNull)]]
  = "{76616c75655f31:U,6b:N4000000000000000,76616c75655f32:S78;}".
Proof. vm_compute. reflexivity. Qed.

(* ======================================================================================= *)
(* #name                                                                                    *)
(* ======================================================================================= *)
(* `#n` and `inputs.n` are the same computation in every configuration: any frame chain (so
   also inside do-blocks and function bodies), any store, any call depth, any implementation
   of operators, built-ins and calls.  Same value, same error, same resulting configuration. *)
Theorem C19_hash_is_inputs_field : forall release bi bu d c n,
  evalD release bi bu d c (EInRef n) = evalD release bi bu d c (EDot (EId "inputs") n).
Proof. exact evalD_hash_is_inputs_field. Qed.
Check C19_hash_is_inputs_field : forall release bi bu d c n,
  evalD release bi bu d c (EInRef n) = evalD release bi bu d c (EDot (EId "inputs") n).
Print Assumptions C19_hash_is_inputs_field.

Theorem C19_hash_null_when_absent : forall release bi bu d c n r,
  lookup (snd c) "inputs" = Some (VRec r) -> rec_get r n = None ->
  evalD release bi bu d c (EInRef n) = (Ok VNull, c) /\
  evalD release bi bu d c (EDot (EId "inputs") n) = (Ok VNull, c).
Proof. exact evalD_hash_null_when_absent. Qed.
Check C19_hash_null_when_absent : forall release bi bu d c n r,
  lookup (snd c) "inputs" = Some (VRec r) -> rec_get r n = None ->
  evalD release bi bu d c (EInRef n) = (Ok VNull, c) /\
  evalD release bi bu d c (EDot (EId "inputs") n) = (Ok VNull, c).
Print Assumptions C19_hash_null_when_absent.

(* At top level, after ANY part of the script has run (failing statement included), `#n` is
   the field n of the merged inputs record, null when absent. *)
Theorem C19_hash_reads_merged_inputs : forall release bi bu d st inputs p n,
  let c := s_cfg (fst (run (evalD release bi bu d) (cli_session st inputs) p)) in
  evalD release bi bu d c (EInRef n)
  = (Ok (match rec_get inputs n with Some v => v | None => VNull end), c).
Proof. exact hash_reads_merged_inputs. Qed.
Check C19_hash_reads_merged_inputs : forall release bi bu d st inputs p n,
  let c := s_cfg (fst (run (evalD release bi bu d) (cli_session st inputs) p)) in
  evalD release bi bu d c (EInRef n)
  = (Ok (match rec_get inputs n with Some v => v | None => VNull end), c).
Print Assumptions C19_hash_reads_merged_inputs.

(* FunctionDef::call re-reads `inputs` from the CALLER's chain: the body's chain binds `inputs`
   to whatever the call site sees (unless a parameter is itself called `inputs`).
   (F9 repaired: this arm — the accumulator starts with `("inputs", i)` — is taken only when the function
   did not capture `inputs`; a captured `inputs` is found through the shared scope frame instead.) *)
Theorem C19_callee_sees_callers_inputs : forall ps args fr i self local parent,
  lookup fr "inputs" = Some i ->
  bind_params ps 0 args (("inputs", i) :: self) = Some local ->
  existsb (fun p => String.eqb "inputs" (arg_name p)) ps = false ->
  lookup ((FOwned, local) :: parent) "inputs" = Some i.
Proof. exact callee_sees_callers_inputs. Qed.
Check C19_callee_sees_callers_inputs : forall ps args fr i self local parent,
  lookup fr "inputs" = Some i ->
  bind_params ps 0 args (("inputs", i) :: self) = Some local ->
  existsb (fun p => String.eqb "inputs" (arg_name p)) ps = false ->
  lookup ((FOwned, local) :: parent) "inputs" = Some i.
Print Assumptions C19_callee_sees_callers_inputs.

(* The corner of DESIGN section 7 F9, stated, not hidden: a do-block may shadow `inputs`
   (its keyword list lacks it), and a function called inside then reads the shadowing record:
   `f = () => [#k, inputs.k]` gives [5, 5] inside `do { inputs = {k: 5}; return f() }` and [1, 1]
   outside.  `#k = inputs.k` holds at both program points (C19 is not violated); what differs
   between the call sites is C04's subject.
   (F9 repaired: `f` captured `inputs` at creation — `#k` and `inputs.k` both make `inputs` a free name
   of the body — so the captured record now outranks the call site's: [1, 1] at BOTH call sites.) *)
Definition f9_prog : list stmt :=
  [SExpr (EAssign "f" (ELam [] (EList [Cm [] (EInRef "k") None; Cm [] (EDot (EId "inputs") "k") None])));
   SOut (EAssign "a" (EDo [Cm [] (EAssign "inputs" (ERec [Cm [] (REntry (KStatic "k") (n 5)) None])) None]
                          (Cm [] (ECall (EId "f") []) None)));
   SOut (EAssign "b" (ECall (EId "f") []))].
Example C19_f9_do_block_shadows_inputs :
  show_cli (cli_run eval_release MInline false None [IObj [("k", SNum (num_of_Z 1))]] (Some f9_prog))
  = "EXIT:0;OUT:{61:L[N3ff0000000000000,N3ff0000000000000],62:L[N3ff0000000000000,N3ff0000000000000]};FILE:-".
Proof. vm_compute. reflexivity. Qed.
