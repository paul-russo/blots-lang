(* C05 — function outputs are portable: emitted source reloads to an equivalent function.
   The property theorems, a few witnesses, and two statements kept as Props (C05_full: refuted below;
   C05_all_builtins_rel_full: proved below).  Model: Emit.v (value -> literal AST, the inlining
   performed by expr_to_source_with_scope, emit / reload at AST level, the text of string literals)
   over the evaluator model Eval.v.  The text layer (print an AST, parse it back) belongs to C07; it
   is tied to this model by the EMIT correspondence (checks/c05.py).
   Three layers: P0 the literal written for a captured value denotes the value (proofs/EmitLit.v,
   EmitNqLit.v); P1 the emitted text is closed (proofs/EmitClosed.v); P2 inlining preserves
   evaluation (proofs/EmitSound.v for first-order captured values, proofs/EmitHO*.v for closures).
   The flags nanfix / dofix of Emit.v select, for a defect that was found (F10, F50), the emission
   with the defect (false) or the one the repository has since its repair (true). *)
From Coq Require Import String Ascii List ZArith Bool Permutation.
Require Import Blots.Num Blots.gen.Builtins Blots.Ast Blots.Value Blots.Outcome Blots.Binop
               Blots.Env Blots.Eval Blots.Emit Blots.proofs.ValueInd Blots.proofs.EmitLit
               Blots.proofs.EmitSubst.
Import ListNotations.

(* P0. The literal written for a captured first-order value evaluates to exactly that value
   (bit-equal numbers incl. -0 and the infinities, same key order), in every environment, for
   every implementation of the operators and of function calls.  Excluded here: NaN and
   strings/keys containing both quote characters, whose literals (nanfix = true) are operator
   expressions — see C05_lit_roundtrip_inst. *)
Theorem C05_lit_roundtrip : forall release binop_impl apply nanfix dofix v,
  emittable_gen v = true ->
  forall c, evalE release binop_impl apply c (value_to_ast nanfix dofix v) = (Ok v, c).
Proof. exact lit_roundtrip. Qed.
Check C05_lit_roundtrip : forall release binop_impl apply nanfix dofix v,
  emittable_gen v = true ->
  forall c, evalE release binop_impl apply c (value_to_ast nanfix dofix v) = (Ok v, c).
Print Assumptions C05_lit_roundtrip.

Example C05_lit_example :
  emittable_gen (VList [VNum (nb 0xc014000000000000); VNum nninf; VNum nnzero;
                        VRec [("a b"%string, VStr "q'"%string); ("k"%string, VBuiltin B_map)]]) = true.
Proof. vm_compute. reflexivity. Qed.

(* F10 (nanfix = false): NaN is written as the identifier NaN, unbound where the text is loaded *)
Lemma C05_lit_nan_current_refuted : forall release binop_impl apply st,
  fst (evalE release binop_impl apply (st, [(FOwned, [])])
             (value_to_ast false false (VNum nnan))) = Err.
Proof. exact lit_nan_current_refuted. Qed.

(* P0. Built-ins are emitted by name and the name is read back as the same built-in.
   Finite: exhaustive over the table gen/Builtins.v regenerated from the built crate. *)
Theorem C05_builtin_name_roundtrip : forall b, builtin_of_name (builtin_name b) = Some b.
Proof. exact builtin_name_roundtrip. Qed.
Check C05_builtin_name_roundtrip : forall b, builtin_of_name (builtin_name b) = Some b.
Print Assumptions C05_builtin_name_roundtrip.

(* P0 (text). The string literal (string_lit_src true) — the quote character that does not occur in the
   string, nothing escaped — is read back by the grammar's `string` rule as the string, whatever
   follows it.  Strings with both quote characters cannot be one literal. *)
Theorem C05_string_literal_roundtrip : forall s rest, both_quotes s = false ->
  read_string_lit (string_lit_src true s ++ rest)%string = Some (s, rest).
Proof. exact string_lit_roundtrip. Qed.
Check C05_string_literal_roundtrip : forall s rest, both_quotes s = false ->
  read_string_lit (string_lit_src true s ++ rest)%string = Some (s, rest).
Print Assumptions C05_string_literal_roundtrip.

(* F11 (string_lit_src false): backslash doubled / quote escaped although the grammar has no escapes *)
Lemma C05_string_literal_current_refuted :
  exists s, read_string_lit (string_lit_src false s) <> Some (s, ""%string).
Proof. exact string_lit_current_refuted. Qed.

(* The inlining depends on the captured scope only through its lookup function: the iteration
   order of the HashMap that holds the scope cannot matter. *)
Theorem C05_emit_scope_order_insensitive : forall nanfix dofix id args body sc sc',
  NoDup (map fst sc) -> Permutation sc sc' ->
  emit_ast nanfix dofix (VLam id args body sc) = emit_ast nanfix dofix (VLam id args body sc').
Proof. exact emit_scope_order_insensitive. Qed.
Check C05_emit_scope_order_insensitive : forall nanfix dofix id args body sc sc',
  NoDup (map fst sc) -> Permutation sc sc' ->
  emit_ast nanfix dofix (VLam id args body sc) = emit_ast nanfix dofix (VLam id args body sc').
Print Assumptions C05_emit_scope_order_insensitive.

(* Emitting a reloaded function again gives back the AST it was loaded from (its scope is
   empty, nothing is inlined): the third generation is the second. *)
Theorem C05_reemit_identity : forall nanfix dofix id e v,
  reload_ast id e = Some v -> emit_ast nanfix dofix v = Some e.
Proof. exact reemit_identity. Qed.
Check C05_reemit_identity : forall nanfix dofix id e v,
  reload_ast id e = Some v -> emit_ast nanfix dofix v = Some e.
Print Assumptions C05_reemit_identity.

(* ------------------------------------------------------------------------------------------ *)
Require Import Blots.proofs.EmitSound Blots.proofs.LfInst Blots.EvalInst.

(* P2, first-order part (dofix = true).  A call of a closure and a call of
   its reloaded emission give the SAME outcome and the SAME store — at every call depth d, from
   any two call sites (fr / fr': different sessions, different `inputs`), whatever the two
   functions are named — provided
     - the body is first-order (creates no function, no #input, assignments only as do-block
       statements) and closed after capture (the code's own collect_free_variables finds
       nothing outside parameters and captured names),
     - the captured values are first-order literals (emittable_gen),
     - capture-avoidance: captured names are not parameters (true of every closure the
       evaluator creates: C04_capture_only_referenced), not `inputs` (finding F9), not the
       function's own display name (finding F8), not inf/infinity/constants,
     - the arguments are lambda-free,
     - the operator and built-in implementations use their callback only through its behaviour
       on lambda-free values and return lambda-free values from lambda-free arguments
       (impl_lf_respecting; C05_impl_respecting_example shows implementations that do call it).
   Do-block locals and parameters that shadow a captured name are handled by the inlining
   itself (no premise about them). *)
Theorem C05_emit_equiv_first_order_partial :
  forall release binop_impl builtin_impl, impl_lf_respecting binop_impl builtin_impl ->
  forall nanfix d fr fr' this this' id id' params body sv args st,
    first_order_body body = true ->
    free_vars body (map arg_name params ++ map fst sv) = [] ->
    forallb (fun kv => emittable_gen (snd kv)) sv = true ->
    (forall x, special_name x = true -> rec_get sv x = None) ->
    (forall x, In x (map arg_name params) -> rec_get sv x = None) ->
    rec_get sv "inputs"%string = None ->
    (forall n, lam_name st id = Some n -> rec_get sv n = None) ->
    lfs args = true ->
    AD release binop_impl builtin_impl d fr this (VLam id params body sv) args st =
    AD release binop_impl builtin_impl d fr' this'
       (VLam id' params (subst true (scope_map nanfix true sv) body) []) args st.
Proof. exact emit_equiv_first_order. Qed.
Check C05_emit_equiv_first_order_partial :
  forall release binop_impl builtin_impl, impl_lf_respecting binop_impl builtin_impl ->
  forall nanfix d fr fr' this this' id id' params body sv args st,
    first_order_body body = true ->
    free_vars body (map arg_name params ++ map fst sv) = [] ->
    forallb (fun kv => emittable_gen (snd kv)) sv = true ->
    (forall x, special_name x = true -> rec_get sv x = None) ->
    (forall x, In x (map arg_name params) -> rec_get sv x = None) ->
    rec_get sv "inputs"%string = None ->
    (forall n, lam_name st id = Some n -> rec_get sv n = None) ->
    lfs args = true ->
    AD release binop_impl builtin_impl d fr this (VLam id params body sv) args st =
    AD release binop_impl builtin_impl d fr' this'
       (VLam id' params (subst true (scope_map nanfix true sv) body) []) args st.
Print Assumptions C05_emit_equiv_first_order_partial.

Example C05_impl_respecting_example : impl_lf_respecting ex_binop ex_builtin.
Proof. exact impl_lf_respecting_example. Qed.
(* a closure satisfying the premises: the F50 witness (do-block local shadowing the captured k) *)
Example C05_emit_equiv_premises_example :
  first_order_body f50_body = true /\
  free_vars f50_body (map arg_name [AReq "x"%string] ++ map fst [("k"%string, VNum (nb 0x4014000000000000))]) = [].
Proof. vm_compute. split; reflexivity. Qed.

(* The transcribed operators and built-ins of EvalInst.v DO satisfy that hypothesis (LfInst.v: an
   instance of GenOps.v, the parametricity proof of ClosedOps.v for an arbitrary value predicate) ... *)
Theorem C05_impl_respecting_inst : impl_lf_respecting binop_impl builtin_impl.
Proof. exact impl_lf_respecting_inst. Qed.
Check C05_impl_respecting_inst : impl_lf_respecting binop_impl builtin_impl.
Print Assumptions C05_impl_respecting_inst.

(* ... so for the evaluator the first-order equivalence holds without any hypothesis on the
   implementations *)
Theorem C05_emit_equiv_first_order_evaluator :
  forall release nanfix d fr fr' this this' id id' params body sv args st,
    first_order_body body = true ->
    free_vars body (map arg_name params ++ map fst sv) = [] ->
    forallb (fun kv => emittable_gen (snd kv)) sv = true ->
    (forall x, special_name x = true -> rec_get sv x = None) ->
    (forall x, In x (map arg_name params) -> rec_get sv x = None) ->
    rec_get sv "inputs"%string = None ->
    (forall n, lam_name st id = Some n -> rec_get sv n = None) ->
    lfs args = true ->
    AD release binop_impl builtin_impl d fr this (VLam id params body sv) args st =
    AD release binop_impl builtin_impl d fr' this'
       (VLam id' params (subst true (scope_map nanfix true sv) body) []) args st.
Proof. intros release. exact (emit_equiv_first_order release binop_impl builtin_impl impl_lf_respecting_inst). Qed.
Check C05_emit_equiv_first_order_evaluator :
  forall release nanfix d fr fr' this this' id id' params body sv args st,
    first_order_body body = true ->
    free_vars body (map arg_name params ++ map fst sv) = [] ->
    forallb (fun kv => emittable_gen (snd kv)) sv = true ->
    (forall x, special_name x = true -> rec_get sv x = None) ->
    (forall x, In x (map arg_name params) -> rec_get sv x = None) ->
    rec_get sv "inputs"%string = None ->
    (forall n, lam_name st id = Some n -> rec_get sv n = None) ->
    lfs args = true ->
    AD release binop_impl builtin_impl d fr this (VLam id params body sv) args st =
    AD release binop_impl builtin_impl d fr' this'
       (VLam id' params (subst true (scope_map nanfix true sv) body) []) args st.
Print Assumptions C05_emit_equiv_first_order_evaluator.

(* stated only: the property without exclusions — any closed-after-capture function (higher-order
   captured values, bodies that create closures) and its reloaded emission are observationally
   equivalent.  It is FALSE (C05_full_refuted: function equality, F53); what holds is
   C05_emit_equiv_higher_order, with its exclusions. *)
Definition C05_full : Prop :=
  forall nanfix d fr fr' id id' params body sv args st,
    closed_after_capture (VLam id params body sv) = true ->
    v_has_both_quotes (VLam id params body sv) = false ->
    (nanfix = true \/ v_has_nan (VLam id params body sv) = false) ->
    v_self_shadow st (VLam id params body sv) = false ->
    exists e f', emit_ast nanfix true (VLam id params body sv) = Some e /\ reload_ast id' e = Some f' /\
      forall r st', AD true binop_impl builtin_impl d fr (VLam id params body sv) (VLam id params body sv) args st = (r, st') ->
        exists r' st'', AD true binop_impl builtin_impl d fr' f' f' args st = (r', st'') /\
          (forall v, r = Ok v -> fo v = true -> r' = Ok v) /\ (is_ok r = is_ok r').

(* F50 (dofix = false): a do-block local shadowing a captured name is inlined.
   k = 5; f = x => do { y = k; k = x; return k + y }: f(1) = 6, the reloaded emission gives 10;
   with dofix = true the reloaded emission gives 6. *)
Lemma C05_subst_do_shadow_current_refuted :
  closed_after_capture f50_fun = true /\
  call_on f50_fun (VNum (nb 0x3ff0000000000000)) = Ok (VNum (nb 0x4018000000000000)) /\
  call_on (reloaded false false f50_fun) (VNum (nb 0x3ff0000000000000)) = Ok (VNum (nb 0x4024000000000000)).
Proof. exact do_shadow_current_refuted. Qed.
Lemma C05_subst_do_shadow_fixed :
  call_on (reloaded true true f50_fun) (VNum (nb 0x3ff0000000000000)) = Ok (VNum (nb 0x4018000000000000)).
Proof. exact do_shadow_fixed_witness. Qed.

(* F15: a negative literal under a postfix operator; `-5!` is -(5!) = -120 *)
Lemma C05_neg_postfix_current_refuted :
  fst (eval_release ([], [(FOwned, [])]) (EUn Negate (EFact (ENum (nb 0x4014000000000000)))))
    = Ok (VNum (nb 0xc05e000000000000)) /\
  fst (eval_release ([], [(FOwned, [])]) (EFact (EUn Negate (ENum (nb 0x4014000000000000))))) = Err.
Proof. exact neg_postfix_refuted. Qed.

(* P0 for the two literal forms that are operator expressions, with the transcribed operators *)
Theorem C05_lit_nan_inst : forall c, eval_release c (value_to_ast true true (VNum nnan)) = (Ok (VNum nnan), c).
Proof. exact lit_nan_inst. Qed.
Check C05_lit_nan_inst : forall c, eval_release c (value_to_ast true true (VNum nnan)) = (Ok (VNum nnan), c).
Print Assumptions C05_lit_nan_inst.

(* ------------------------------------------------------------------------------------------ *)
Require Import Blots.proofs.EmitClosed.

(* P1 (closedness).  The free names of an inlined expression are free names of the original that
   are not in the inlining scope (and not bound) — for every expression form: lambdas whose
   parameters shadow a captured name, do-blocks whose locals shadow one, shorthand, spreads ... *)
Theorem C05_inlined_free_vars : forall e m bound x,
  lits_closed m ->
  In x (free_vars (subst true m e) bound) ->
  In x (free_vars e bound) /\ rec_get m x = None /\ mem x bound = false.
Proof. exact subst_fv. Qed.
Check C05_inlined_free_vars : forall e m bound x,
  lits_closed m ->
  In x (free_vars (subst true m e) bound) ->
  In x (free_vars e bound) /\ rec_get m x = None /\ mem x bound = false.
Print Assumptions C05_inlined_free_vars.

(* ... hence, for first-order captured values: if every free name of the body is a parameter or
   captured, the emitted body has NO free name (by the code's own collect_free_variables): it can
   never fail with an unknown identifier where it is loaded.  (Captured closures: the literal of a
   closure is closed under the same argument applied recursively; not carried out in Coq.) *)
Theorem C05_emitted_body_closed : forall nanfix params body sv,
  forallb (fun kv => fo (snd kv)) sv = true ->
  (nanfix = true \/ existsb (fun kv => has_nan (snd kv)) sv = false) ->
  (forall z, In z (free_vars body (map arg_name params)) -> rec_get sv z <> None) ->
  free_vars (subst true (scope_map nanfix true sv) body) (map arg_name params) = [].
Proof. exact emitted_body_closed. Qed.
Check C05_emitted_body_closed : forall nanfix params body sv,
  forallb (fun kv => fo (snd kv)) sv = true ->
  (nanfix = true \/ existsb (fun kv => has_nan (snd kv)) sv = false) ->
  (forall z, In z (free_vars body (map arg_name params)) -> rec_get sv z <> None) ->
  free_vars (subst true (scope_map nanfix true sv) body) (map arg_name params) = [].
Print Assumptions C05_emitted_body_closed.

(* ------------------------------------------------------------------------------------------ *)
(* HIGHER-ORDER captured values (closures capturing closures to any depth, bodies that create
   closures, functions as results).  proofs/EmitHO*.v. *)
Require Import Blots.EvalFull Blots.proofs.EmitHO Blots.proofs.EmitHOSim Blots.proofs.EmitHOOps
               Blots.proofs.EmitHOTop.

(* P2, the simulation.  [vrel v v'] = "v' is v after emit + reload": data equal; a closure
   VLam _ ps b sc related to VLam _ ps (subst m b) sc' where m inlines some captured names as the
   literals of their (emittable) values and the other captured names are captured on the right with
   related values.  For EVERY implementation of operators / built-ins that takes related callbacks
   and operands to related outcomes (impl_rel_respecting), related functions applied to related
   arguments — at every depth d, from any two scope chains, any two stores, any self values — give
   related outcomes: Ok with related values, or the same error class (in particular the depth
   error on both sides or on neither: both runs are at the same depth and the inlined literals call
   nothing, so F23 does not enter). *)
Theorem C05_ho_simulation :
  forall opok biok nanfix release binop_impl builtin_impl,
    impl_rel_respecting opok biok nanfix binop_impl builtin_impl ->
    forall d fr fr' this this' f f' args args' st st',
      vrel opok biok nanfix f f' -> lrel opok biok nanfix args args' ->
      orel opok biok nanfix (fst (AD release binop_impl builtin_impl d fr this f args st))
                            (fst (AD release binop_impl builtin_impl d fr' this' f' args' st')).
Proof. exact ho_simulation. Qed.
Check C05_ho_simulation :
  forall opok biok nanfix release binop_impl builtin_impl,
    impl_rel_respecting opok biok nanfix binop_impl builtin_impl ->
    forall d fr fr' this this' f f' args args' st st',
      vrel opok biok nanfix f f' -> lrel opok biok nanfix args args' ->
      orel opok biok nanfix (fst (AD release binop_impl builtin_impl d fr this f args st))
                            (fst (AD release binop_impl builtin_impl d fr' this' f' args' st')).
Print Assumptions C05_ho_simulation.

(* The transcribed operators (all but == != .== .!=, finding F53) and the built-ins of biok_inst
   (map filter reduce every some, abs floor ceil trunc sqrt, typeof arity to_bool, ugt ult ugte ulte,
   any all) satisfy that hypothesis, also through the dispatcher with every transcribed built-in. *)
Theorem C05_impl_rel_respecting_inst : forall nanfix,
  impl_rel_respecting eqfree biok_inst nanfix binop_impl EvalFull.builtin_full.
Proof. exact impl_rel_full. Qed.
Check C05_impl_rel_respecting_inst : forall nanfix,
  impl_rel_respecting eqfree biok_inst nanfix binop_impl EvalFull.builtin_full.
Print Assumptions C05_impl_rel_respecting_inst.

(* C05_full, proved, with its exclusions.  For a function value that is [emit_ok] — closed after
   capture at every level of nesting; bodies: no == != .== .!= (F53), only built-ins of biok_inst,
   no `inputs` / #ref (F9 of C04), no assignment outside do-block statements (F32 of C04), no
   `output`; captured data without NaN and both-quote strings (their literals are operator
   expressions), records with unique keys; captured names are not parameters / inf infinity
   constants — and arguments that are emittable values themselves (functions included): the
   original and the reloaded emission return related outcomes from any two call sites, stores and
   depths; first-order results are EQUAL, the depth error occurs on both sides or on neither.
   No premise about function names (F8 is repaired) and none about the store. *)
Theorem C05_emit_equiv_higher_order :
  forall release nanfix d fr fr' this this' id id' ps b sc args st st' r,
    emit_ok eqfree biok_inst (VLam id ps b sc) = true ->
    forallb (emit_ok eqfree biok_inst) args = true ->
    fst (AD release binop_impl EvalFull.builtin_full d fr this (VLam id ps b sc) args st) = r ->
    exists r', fst (AD release binop_impl EvalFull.builtin_full d fr' this'
                       (VLam id' ps (subst true (scope_map nanfix true sc) b) []) args st') = r' /\
      orel eqfree biok_inst nanfix r r' /\
      (forall v, r = Ok v -> lf v = true -> r' = Ok v) /\ (r = ErrDepth <-> r' = ErrDepth).
Proof. exact emit_equiv_ho_same_args. Qed.
Check C05_emit_equiv_higher_order :
  forall release nanfix d fr fr' this this' id id' ps b sc args st st' r,
    emit_ok eqfree biok_inst (VLam id ps b sc) = true ->
    forallb (emit_ok eqfree biok_inst) args = true ->
    fst (AD release binop_impl EvalFull.builtin_full d fr this (VLam id ps b sc) args st) = r ->
    exists r', fst (AD release binop_impl EvalFull.builtin_full d fr' this'
                       (VLam id' ps (subst true (scope_map nanfix true sc) b) []) args st') = r' /\
      orel eqfree biok_inst nanfix r r' /\
      (forall v, r = Ok v -> lf v = true -> r' = Ok v) /\ (r = ErrDepth <-> r' = ErrDepth).
Print Assumptions C05_emit_equiv_higher_order.

(* a closure capturing a closure capturing a closure satisfies the premise *)
Example C05_emit_ok_depth3_example :
  emit_ok eqfree biok_inst
    (VLam 0%nat [AReq "x"%string] (ECall (EId "g"%string) [EId "x"%string])
       [("g"%string, VLam 1%nat [AReq "y"%string] (ECall (EId "h"%string) [EBin Add (EId "y"%string) (EId "a"%string)])
          [("h"%string, VLam 2%nat [AReq "z"%string] (EBin Multiply (EId "z"%string) (EId "k"%string))
                          [("k"%string, VNum (nb 0x4008000000000000))]);
           ("a"%string, VNum (nb 0x3ff0000000000000))])]) = true.
Proof. vm_compute. reflexivity. Qed.

(* re-emission: emit (reload (emit f)) is the same AST, and every generation is related to the
   ORIGINAL — so (by the simulation) chains of any length behave like f *)
Theorem C05_reemit_related : forall nanfix id id1 id2 ps b sc e1 f1 e2 f2,
  emit_ok eqfree biok_inst (VLam id ps b sc) = true ->
  emit_ast nanfix true (VLam id ps b sc) = Some e1 -> reload_ast id1 e1 = Some f1 ->
  emit_ast nanfix true f1 = Some e2 -> reload_ast id2 e2 = Some f2 ->
  e2 = e1 /\ vrel eqfree biok_inst nanfix (VLam id ps b sc) f1 /\
  vrel eqfree biok_inst nanfix (VLam id ps b sc) f2.
Proof. exact reemit_related. Qed.
Check C05_reemit_related : forall nanfix id id1 id2 ps b sc e1 f1 e2 f2,
  emit_ok eqfree biok_inst (VLam id ps b sc) = true ->
  emit_ast nanfix true (VLam id ps b sc) = Some e1 -> reload_ast id1 e1 = Some f1 ->
  emit_ast nanfix true f1 = Some e2 -> reload_ast id2 e2 = Some f2 ->
  e2 = e1 /\ vrel eqfree biok_inst nanfix (VLam id ps b sc) f1 /\
  vrel eqfree biok_inst nanfix (VLam id ps b sc) f2.
Print Assumptions C05_reemit_related.

(* related data is equal data: what the relation says about a first-order result *)
Theorem C05_related_data_equal : forall nanfix v v',
  vrel eqfree biok_inst nanfix v v' -> lf v = true -> v = v'.
Proof. intros nanfix v v' H. apply (vrel_lf_eq eqfree biok_inst nanfix num_plain str_plain). apply vrel_G. exact H. Qed.
Check C05_related_data_equal : forall nanfix v v',
  vrel eqfree biok_inst nanfix v v' -> lf v = true -> v = v'.
Print Assumptions C05_related_data_equal.

(* the free names of an inlined expression are EXACTLY the un-inlined free names of the original
   (converse of C05_inlined_free_vars): a closure created by a reloaded body captures exactly what
   the original captured and the emission did not inline *)
Theorem C05_inlined_free_vars_conv : forall e m bound x,
  lits_closed m -> In x (free_vars e bound) -> rec_get m x = None ->
  In x (free_vars (subst true m e) bound).
Proof. exact subst_fv_conv. Qed.
Check C05_inlined_free_vars_conv : forall e m bound x,
  lits_closed m -> In x (free_vars e bound) -> rec_get m x = None ->
  In x (free_vars (subst true m e) bound).
Print Assumptions C05_inlined_free_vars_conv.

(* F53: Value::equals on two functions compares parameter lists and body ASTs and
   ignores captured values.  mk = a => (y => y + a); k1 = mk(1); k2 = mk(2); f = x => k1 == k2:
   f(0) = true, the reloaded emission (x) => ((y) => y + 1) == ((y) => y + 2) gives false. *)
Lemma C05_function_equality_refuted :
  closed_after_capture f52_fun = true /\
  call_on f52_fun (VNum nzero) = Ok (VBool true) /\
  call_on (reloaded true true f52_fun) (VNum nzero) = Ok (VBool false).
Proof. exact f52_refuted. Qed.

(* ... hence the statement C05_full above, which has no exclusion for function equality, is FALSE *)
Lemma C05_full_refuted : ~ C05_full.
Proof.
  intros H.
  destruct (H true LIMIT [(FOwned, [])] [(FOwned, [])] 0%nat 1%nat [AReq "x"%string]
              (EBin Equal (EId "k1"%string) (EId "k2"%string))
              [("k1"%string, f52_k 1%Z); ("k2"%string, f52_k 2%Z)] [VNum nzero] [None; None]
              ltac:(vm_compute; reflexivity) ltac:(vm_compute; reflexivity) (or_introl eq_refl)
              ltac:(vm_compute; reflexivity)) as (e & f' & E & R & HH).
  cbn in E. inversion E; subst e. cbn in R. inversion R; subst f'. clear E R.
  match type of HH with forall r st', ?X = _ -> _ =>
    destruct (HH (fst X) (snd X) (surjective_pairing X)) as (r' & st'' & E2 & Hfo & _);
    assert (Hr : fst X = Ok (VBool true)) by (vm_compute; reflexivity) end.
  specialize (Hfo _ Hr eq_refl). subst r'.
  apply (f_equal fst) in E2. cbn [fst] in E2. vm_compute in E2. discriminate.
Qed.

(* stated here, proved just below (C05_all_builtins_rel_full_proved): the relation-respecting property
   for every arm of builtin_full (aggregates, list / string / record built-ins, sort_by group_by
   count_by) except `unique` and `includes`, which apply Value::equals and belong to F53 *)
Definition C05_all_builtins_rel_full : Prop :=
  forall nanfix,
    impl_rel_respecting eqfree
      (fun b => match b with B_unique | B_includes => false | _ => true end)
      nanfix binop_impl EvalFull.builtin_full.

(* ================================================================================================
   [C05_all_builtins_rel_full] is PROVED (proofs/RelPure.v: every pure arm of
   EvalFull.builtin_full and sort_by / group_by / count_by respect any structural value relation;
   proofs/EmitHOOpsFull.v: the instance R := vrel).  [biok_full] = every built-in except unique and
   includes, whose arms apply Value::equals to argument elements (finding F53) — the exclusion is
   necessary: [C05_includes_function_equality_refuted], [C05_all_builtins_unrestricted_refuted].
   Hence the simulation and the emission equivalence hold for bodies that mention ANY other built-in
   (aggregates, list / string / record built-ins, convert round random to_number to_string join,
   sort_by group_by count_by, and the untranscribed ones, which are Unmodelled on both sides).
   ================================================================================================ *)
Require Import Blots.proofs.RelPure Blots.proofs.EmitHOOpsFull.

Theorem C05_all_builtins_rel_full_proved : C05_all_builtins_rel_full.
Proof. exact impl_rel_full_all. Qed.
Check C05_all_builtins_rel_full_proved : forall nanfix,
  impl_rel_respecting eqfree biok_full nanfix binop_impl EvalFull.builtin_full.
Print Assumptions C05_all_builtins_rel_full_proved.

(* the shortcut behind most arms: related values with no function inside are EQUAL *)
Theorem C05_related_function_free_equal : forall opok biok nanfix v v',
  vrel opok biok nanfix v v' -> BuiltinsText.has_function v = false -> v = v'.
Proof. exact vrel_nofun_eq. Qed.
Check C05_related_function_free_equal : forall opok biok nanfix v v',
  vrel opok biok nanfix v v' -> BuiltinsText.has_function v = false -> v = v'.
Print Assumptions C05_related_function_free_equal.

Theorem C05_ho_simulation_full : forall release nanfix d fr fr' this this' f f' args args' st st',
  vrel eqfree biok_full nanfix f f' -> lrel eqfree biok_full nanfix args args' ->
  orel eqfree biok_full nanfix (fst (AD release binop_impl EvalFull.builtin_full d fr this f args st))
                               (fst (AD release binop_impl EvalFull.builtin_full d fr' this' f' args' st')).
Proof. exact ho_simulation_all. Qed.
Check C05_ho_simulation_full : forall release nanfix d fr fr' this this' f f' args args' st st',
  vrel eqfree biok_full nanfix f f' -> lrel eqfree biok_full nanfix args args' ->
  orel eqfree biok_full nanfix (fst (AD release binop_impl EvalFull.builtin_full d fr this f args st))
                               (fst (AD release binop_impl EvalFull.builtin_full d fr' this' f' args' st')).
Print Assumptions C05_ho_simulation_full.

Theorem C05_emit_equiv_higher_order_full :
  forall release nanfix d fr fr' this this' id id' ps b sc args st st' r,
    emit_ok eqfree biok_full (VLam id ps b sc) = true ->
    forallb (emit_ok eqfree biok_full) args = true ->
    fst (AD release binop_impl EvalFull.builtin_full d fr this (VLam id ps b sc) args st) = r ->
    exists r', fst (AD release binop_impl EvalFull.builtin_full d fr' this'
                       (VLam id' ps (subst true (scope_map nanfix true sc) b) []) args st') = r' /\
      orel eqfree biok_full nanfix r r' /\
      (forall v, r = Ok v -> lf v = true -> r' = Ok v) /\ (r = ErrDepth <-> r' = ErrDepth).
Proof. exact emit_equiv_ho_same_args_all. Qed.
Check C05_emit_equiv_higher_order_full :
  forall release nanfix d fr fr' this this' id id' ps b sc args st st' r,
    emit_ok eqfree biok_full (VLam id ps b sc) = true ->
    forallb (emit_ok eqfree biok_full) args = true ->
    fst (AD release binop_impl EvalFull.builtin_full d fr this (VLam id ps b sc) args st) = r ->
    exists r', fst (AD release binop_impl EvalFull.builtin_full d fr' this'
                       (VLam id' ps (subst true (scope_map nanfix true sc) b) []) args st') = r' /\
      orel eqfree biok_full nanfix r r' /\
      (forall v, r = Ok v -> lf v = true -> r' = Ok v) /\ (r = ErrDepth <-> r' = ErrDepth).
Print Assumptions C05_emit_equiv_higher_order_full.

(* a closure whose body uses the newly covered built-ins (sort_by with a captured key function, sum,
   group_by, to_string, slice) satisfies the premise *)
Example C05_emit_ok_full_example :
  emit_ok eqfree biok_full
    (VLam 0%nat [AReq "l"%string]
       (EList [Cm [] (ECall (EBuiltin B_sort_by) [EId "l"%string; EId "key"%string]) None;
               Cm [] (ECall (EBuiltin B_sum) [ECall (EBuiltin B_slice) [EId "l"%string; ENum nzero; EId "n"%string]]) None;
               Cm [] (ECall (EBuiltin B_group_by)
                        [EId "l"%string; ELam [AReq "k"%string] (ECall (EBuiltin B_to_string) [EId "k"%string])]) None])
       [("key"%string, VLam 1%nat [AReq "y"%string] (EBin Multiply (EId "y"%string) (EId "s"%string))
                         [("s"%string, VNum (nb 0xbff0000000000000))]);
        ("n"%string, VNum (nb 0x4000000000000000))]) = true.
Proof. vm_compute. reflexivity. Qed.

(* F53 through a built-in: includes([k1], k2) / len(unique([k1, k2])) with k1, k2 closures that differ
   only in a captured value — true / 1 before emission, false / 2 after reload *)
Lemma C05_includes_function_equality_refuted :
  closed_after_capture f53_includes_fun = true /\
  call_on_full f53_includes_fun (VNum nzero) = Ok (VBool true) /\
  call_on_full (reloaded true true f53_includes_fun) (VNum nzero) = Ok (VBool false).
Proof. exact f53_includes_refuted. Qed.
Lemma C05_unique_function_equality_refuted :
  closed_after_capture f53_unique_fun = true /\
  call_on_full f53_unique_fun (VNum nzero) = Ok (VNum (num_of_Z 1)) /\
  call_on_full (reloaded true true f53_unique_fun) (VNum nzero) = Ok (VNum (num_of_Z 2)).
Proof. exact f53_unique_refuted. Qed.
(* ... hence the hypothesis with NO built-in excluded is false: the exclusion in biok_full is exact *)
Lemma C05_all_builtins_unrestricted_refuted : ~ all_builtins_rel_unrestricted.
Proof. exact all_builtins_rel_unrestricted_refuted. Qed.

(* The exclusion is exact with respect to the CODE as well: the built-ins excluded from [biok_full] are exactly the arms
   of BuiltInFunction::call whose source text applies Value::equals (coq/gen/ArmObservers.v, regenerated from
   blots-core/src/functions.rs on every run; exhaustive over the regenerated built-in table). *)
Require Import Blots.gen.ArmObservers.
Theorem C05_equality_exclusion_matches_source : forall b, biok_full b = negb (src_applies_equals b).
Proof. destruct b; reflexivity. Qed.
Check C05_equality_exclusion_matches_source : forall b, biok_full b = negb (src_applies_equals b).
Print Assumptions C05_equality_exclusion_matches_source.
(* ---- F54 repaired (known/C05.json): input references ----
   `#field` is `inputs.field`.  Repaired code: the free-variable scan counts it as a use of `inputs` (so the
   Lambda arm captures `inputs`), and emission prints it the way it prints `inputs.field`, with the captured
   `inputs` inlined.  The emitted form evaluates in EVERY configuration — whatever inputs the loading program
   has — to what `#field` gave where `inputs` was the captured value (lit_roundtrip does the work). *)
Require Import Blots.proofs.EmitInRef.
Theorem C05_input_reference_emission : forall release binop_impl apply n d sc f v c0 c,
  rec_get sc "inputs"%string = Some v -> emittable_gen v = true -> both_quotes f = false ->
  lookup (snd c0) "inputs"%string = Some v ->
  (* the emitted form: `<inputs>.f`, exactly what `inputs.f` emits — or, for a field spelled like a reserved
     word, which cannot follow `.`, the index `<inputs>["f"]`, exactly what `inputs["f"]` emits *)
  (is_valid_identifier f = true ->
   subst d (scope_map n d sc) (EInRef f) = subst d (scope_map n d sc) (EDot (EId "inputs"%string) f)) /\
  (is_valid_identifier f = false ->
   subst d (scope_map n d sc) (EInRef f) = subst d (scope_map n d sc) (EAccess (EId "inputs"%string) (str_to_ast f))) /\
  (* the same VALUE always, in every configuration *)
  evalE release binop_impl apply c (subst d (scope_map n d sc) (EInRef f)) =
    (fst (evalE release binop_impl apply c0 (EInRef f)), c).
Proof.
  intros release binop_impl apply n d sc f v c0 c Hsc Hem Hq Hin.
  destruct (subst_inref n d sc f v Hsc) as (_ & A & B). split; [exact A|split; [exact B|]].
  exact (inref_emission_sound release binop_impl apply n d sc f v c0 c Hsc Hem Hq Hin).
Qed.
Check C05_input_reference_emission : forall release binop_impl apply n d sc f v c0 c,
  rec_get sc "inputs"%string = Some v -> emittable_gen v = true -> both_quotes f = false ->
  lookup (snd c0) "inputs"%string = Some v ->
  (is_valid_identifier f = true ->
   subst d (scope_map n d sc) (EInRef f) = subst d (scope_map n d sc) (EDot (EId "inputs"%string) f)) /\
  (is_valid_identifier f = false ->
   subst d (scope_map n d sc) (EInRef f) = subst d (scope_map n d sc) (EAccess (EId "inputs"%string) (str_to_ast f))) /\
  evalE release binop_impl apply c (subst d (scope_map n d sc) (EInRef f)) =
    (fst (evalE release binop_impl apply c0 (EInRef f)), c).
Print Assumptions C05_input_reference_emission.

Theorem C05_input_reference_captures_inputs : forall fr f v,
  lookup fr "inputs"%string = Some v -> capture fr (free_vars (EInRef f) []) [] = [("inputs"%string, v)].
Proof. exact inref_captures_inputs. Qed.
Check C05_input_reference_captures_inputs : forall fr f v,
  lookup fr "inputs"%string = Some v -> capture fr (free_vars (EInRef f) []) [] = [("inputs"%string, v)].
Print Assumptions C05_input_reference_captures_inputs.

(* the witness of F54 end to end in the model: with inputs {rate: 2}, `x => x * #rate` captures inputs, is emitted
   as (x) => x * {rate: 2}.rate, and the reloaded function applied to 3 in a program WITHOUT inputs gives 6
   (as the original does); a parameter named `inputs` keeps its `#rate` *)
Definition f54_inputs : value := VRec [("rate"%string, VNum (num_of_Z 2))].
Definition f54_cfg : cfg := ([], [(FOwned, [("inputs"%string, f54_inputs)])]).
Definition f54_lam : expr := ELam [AReq "x"%string] (EBin Multiply (EId "x"%string) (EInRef "rate"%string)).
Example C05_F54_repaired :
  let r := evalD true binop_impl builtin_impl 4 f54_cfg f54_lam in
  match fst r with
  | Ok fv =>
      (match fv with VLam _ _ _ sc => sc | _ => [] end) = [("inputs"%string, f54_inputs)] /\
      emit_ast true true fv =
        Some (ELam [AReq "x"%string]
                (EBin Multiply (EId "x"%string)
                   (EDot (ERec [Cm [] (REntry (KStatic "rate"%string) (ENum (num_of_Z 2))) None]) "rate"%string))) /\
      match emit_ast true true fv with
      | Some e =>
          match reload_ast 0%nat e with
          | Some g =>
              fst (evalD true binop_impl builtin_impl 4 ([None], [(FOwned, [("g"%string, g)])])
                     (ECall (EId "g"%string) [ENum (num_of_Z 3)])) = Ok (VNum (num_of_Z 6)) /\
              fst (evalD true binop_impl builtin_impl 4 (snd r)
                     (ECall f54_lam [ENum (num_of_Z 3)])) = Ok (VNum (num_of_Z 6))
          | None => False
          end
      | None => False
      end
  | _ => False
  end /\
  subst true [("inputs"%string, ENull)] (ELam [AReq "inputs"%string] (EInRef "rate"%string)) =
    ELam [AReq "inputs"%string] (EInRef "rate"%string).
Proof. vm_compute. repeat split. Qed.

(* a field spelled like a reserved word: `#if` parses, `{..}.if` does not; emitted as an index.  With inputs
   {"if": 2, rate: 3}: `x => x * #if + #rate` is emitted as (x) => x * {"if": 2, rate: 3}["if"] + {"if": 2, rate: 3}.rate
   and the reloaded function applied to 5 in a program without those inputs gives 13, as the original does *)
Definition f54r_inputs : value := VRec [("if"%string, VNum (num_of_Z 2)); ("rate"%string, VNum (num_of_Z 3))].
Definition f54r_lit : expr :=
  ERec [Cm [] (REntry (KStatic "if"%string) (ENum (num_of_Z 2))) None;
        Cm [] (REntry (KStatic "rate"%string) (ENum (num_of_Z 3))) None].
Definition f54r_lam : expr :=
  ELam [AReq "x"%string] (EBin Add (EBin Multiply (EId "x"%string) (EInRef "if"%string)) (EInRef "rate"%string)).
Example C05_F54_reserved_word_field :
  is_valid_identifier "if"%string = false /\ is_valid_identifier "rate"%string = true /\
  let r := evalD true binop_impl builtin_impl 4 ([], [(FOwned, [("inputs"%string, f54r_inputs)])]) f54r_lam in
  match fst r with
  | Ok fv =>
      emit_ast true true fv =
        Some (ELam [AReq "x"%string]
                (EBin Add (EBin Multiply (EId "x"%string) (EAccess f54r_lit (EStr "if"%string)))
                          (EDot f54r_lit "rate"%string))) /\
      match emit_ast true true fv with
      | Some e =>
          match reload_ast 0%nat e with
          | Some g =>
              fst (evalD true binop_impl builtin_impl 4 ([None], [(FOwned, [("g"%string, g)])])
                     (ECall (EId "g"%string) [ENum (num_of_Z 5)])) = Ok (VNum (num_of_Z 13)) /\
              fst (evalD true binop_impl builtin_impl 4 (snd r)
                     (ECall f54r_lam [ENum (num_of_Z 5)])) = Ok (VNum (num_of_Z 13))
          | None => False
          end
      | None => False
      end
  | _ => False
  end.
Proof. vm_compute. repeat split. Qed.

(* ---- ... and for the COMPLETE operator table and built-in set (EvalAll.v: every built-in of the
   regenerated table, `^` through the oracle's powf; libm, Unicode tables, clock and lambda text are
   fields of the oracle record o), for every oracle: AllLf.v, an instance of the parametricity proof for
   an arbitrary value predicate (AllGenClosed.v) ---- *)
Require Import Blots.EvalFull Blots.EvalAll Blots.proofs.AllLf.
Theorem C05_impl_respecting_all : forall o, impl_lf_respecting (binop_all o) (builtin_all o).
Proof. exact impl_lf_respecting_all. Qed.
Check C05_impl_respecting_all : forall o, impl_lf_respecting (binop_all o) (builtin_all o).
Print Assumptions C05_impl_respecting_all.

Theorem C05_emit_equiv_first_order_evaluator_all :
  forall o release nanfix d fr fr' this this' id id' params body sv args st,
    first_order_body body = true ->
    free_vars body (map arg_name params ++ map fst sv) = [] ->
    forallb (fun kv => emittable_gen (snd kv)) sv = true ->
    (forall x, special_name x = true -> rec_get sv x = None) ->
    (forall x, In x (map arg_name params) -> rec_get sv x = None) ->
    rec_get sv "inputs"%string = None ->
    (forall n, lam_name st id = Some n -> rec_get sv n = None) ->
    lfs args = true ->
    AD release (binop_all o) (builtin_all o) d fr this (VLam id params body sv) args st =
    AD release (binop_all o) (builtin_all o) d fr' this'
       (VLam id' params (subst true (scope_map nanfix true sv) body) []) args st.
Proof.
  intros o release.
  exact (emit_equiv_first_order release (binop_all o) (builtin_all o) (impl_lf_respecting_all o)).
Qed.
Check C05_emit_equiv_first_order_evaluator_all :
  forall o release nanfix d fr fr' this this' id id' params body sv args st,
    first_order_body body = true ->
    free_vars body (map arg_name params ++ map fst sv) = [] ->
    forallb (fun kv => emittable_gen (snd kv)) sv = true ->
    (forall x, special_name x = true -> rec_get sv x = None) ->
    (forall x, In x (map arg_name params) -> rec_get sv x = None) ->
    rec_get sv "inputs"%string = None ->
    (forall n, lam_name st id = Some n -> rec_get sv n = None) ->
    lfs args = true ->
    AD release (binop_all o) (builtin_all o) d fr this (VLam id params body sv) args st =
    AD release (binop_all o) (builtin_all o) d fr' this'
       (VLam id' params (subst true (scope_map nanfix true sv) body) []) args st.
Print Assumptions C05_emit_equiv_first_order_evaluator_all.

(* ============================================================================================
   NaN / both-quote captured data (proofs/EmitNqLit.v, EmitNqSound.v, EmitNqHO*.v; definitions
   coq/EmitNq.v).  The theorems above exclude these two classes through emittable_gen / emit_ok; the
   theorems below cover them: their literals are the operator expressions `(0/0)` and the `+` chain of string literals,
   related to the value through the two facts about `/` and `+` in [binop_lit_ok].
   ============================================================================================ *)
(* the EmitNq* modules are Required, NOT Imported: their lemma / relation names coincide with those of
   EmitSound.v / EmitHO*.v and must not shadow them *)
Require Import Blots.EmitNq Blots.proofs.EmitNqLit.
Require Blots.proofs.EmitNqSound Blots.proofs.EmitNqHO Blots.proofs.EmitNqHOSim Blots.proofs.EmitNqHOOps
        Blots.proofs.EmitNqHOTop Blots.proofs.EmitNqHOOpsFull Blots.proofs.EmitNqHOWiden.

(* (1) For EVERY string s — whatever mixture of quote characters — the text value_to_ast writes for it (a plain literal, or
   the parenthesised `+` chain of the pieces between its double quotes) evaluates to exactly VStr s and leaves store and
   scope chain unchanged: for every configuration c, every call depth (the depth lives in `apply`), every implementation
   of the operators that concatenates two strings with `+` (binop_lit_ok; nothing else about the operators is used).
   Induction over the split of s at double quotes (split_dq_chain).  Record keys use the same text as a computed key. *)
Theorem C05_lit_both_quote_evaluates :
  forall release (binop_impl : (callback -> binop -> value -> value -> store -> outcome value * store)) apply, binop_lit_ok binop_impl ->
  forall s c, evalE release binop_impl apply c (str_to_ast s) = (Ok (VStr s), c).
Proof. exact lit_both_quote_evaluates. Qed.
Check C05_lit_both_quote_evaluates :
  forall release (binop_impl : (callback -> binop -> value -> value -> store -> outcome value * store)) apply, binop_lit_ok binop_impl ->
  forall s c, evalE release binop_impl apply c (str_to_ast s) = (Ok (VStr s), c).
Print Assumptions C05_lit_both_quote_evaluates.

(* the NaN literal `(0/0)` (nanfix = true): NaN, configuration unchanged.  The model's num has ONE NaN (Num.v: spec_float):
   sign and payload of a NaN are not represented because blots-core cannot observe them (see notes/ext-c05nan.md) *)
Theorem C05_lit_nan_evaluates :
  forall release (binop_impl : (callback -> binop -> value -> value -> store -> outcome value * store)) apply, binop_lit_ok binop_impl ->
  forall c, evalE release binop_impl apply c (num_to_ast true nnan) = (Ok (VNum nnan), c).
Proof. exact lit_nan_evaluates. Qed.
Check C05_lit_nan_evaluates :
  forall release (binop_impl : (callback -> binop -> value -> value -> store -> outcome value * store)) apply, binop_lit_ok binop_impl ->
  forall c, evalE release binop_impl apply c (num_to_ast true nnan) = (Ok (VNum nnan), c).
Print Assumptions C05_lit_nan_evaluates.

(* C05_lit_roundtrip without its two exclusions: first-order data (unique record keys) holding NaN (with the `(0/0)`
   literal: emittable_nq nanfix v = fo v && (nanfix || no NaN)) and strings / record keys with both quote kinds, nested
   in lists and records at any depth: the literal evaluates to EXACTLY v (same key order) and changes nothing *)
Theorem C05_lit_roundtrip_nan_quote :
  forall release (binop_impl : (callback -> binop -> value -> value -> store -> outcome value * store)) apply, binop_lit_ok binop_impl ->
  forall nanfix dofix v, emittable_nq nanfix v = true ->
  forall c, evalE release binop_impl apply c (value_to_ast nanfix dofix v) = (Ok v, c).
Proof. exact lit_roundtrip_nq. Qed.
Check C05_lit_roundtrip_nan_quote :
  forall release (binop_impl : (callback -> binop -> value -> value -> store -> outcome value * store)) apply, binop_lit_ok binop_impl ->
  forall nanfix dofix v, emittable_nq nanfix v = true ->
  forall c, evalE release binop_impl apply c (value_to_ast nanfix dofix v) = (Ok v, c).
Print Assumptions C05_lit_roundtrip_nan_quote.

(* the transcribed `/` and `+` (EvalInst.binop_impl = Binop.eval_binop, and the complete table of EvalAll) satisfy the hypothesis *)
Theorem C05_binop_lit_ok_inst :
  binop_lit_ok binop_impl /\ forall o, binop_lit_ok (binop_all o).
Proof. split; [exact binop_lit_ok_inst|exact binop_lit_ok_all]. Qed.
Check C05_binop_lit_ok_inst :
  binop_lit_ok binop_impl /\ forall o, binop_lit_ok (binop_all o).
Print Assumptions C05_binop_lit_ok_inst.

(* emittable_gen is inside emittable_nq *)
Theorem C05_emittable_gen_inside_nq :
  forall nanfix v, emittable_gen v = true -> emittable_nq nanfix v = true.
Proof. exact emittable_gen_nq. Qed.
Check C05_emittable_gen_inside_nq :
  forall nanfix v, emittable_gen v = true -> emittable_nq nanfix v = true.
Print Assumptions C05_emittable_gen_inside_nq.

(* (2) C05_emit_equiv_first_order_partial for NaN-holding and both-quote-holding captured data as well: same statement,
   captured values emittable_nq instead of emittable_gen, and one more hypothesis on the operator implementation
   (binop_lit_ok).  Same outcome AND same store, every depth, any two call sites.  proofs/EmitNqSound.v *)
Theorem C05_emit_equiv_first_order_nan_quote_generic :
  forall release binop_impl builtin_impl, impl_lf_respecting binop_impl builtin_impl -> binop_lit_ok binop_impl ->
  forall nanfix d fr fr' this this' id id' params body sv args st,
    first_order_body body = true ->
    free_vars body (map arg_name params ++ map fst sv) = [] ->
    forallb (fun kv => emittable_nq nanfix (snd kv)) sv = true ->
    (forall x, special_name x = true -> rec_get sv x = None) ->
    (forall x, In x (map arg_name params) -> rec_get sv x = None) ->
    rec_get sv "inputs"%string = None ->
    (forall n, lam_name st id = Some n -> rec_get sv n = None) ->
    lfs args = true ->
    AD release binop_impl builtin_impl d fr this (VLam id params body sv) args st =
    AD release binop_impl builtin_impl d fr' this'
       (VLam id' params (subst true (scope_map nanfix true sv) body) []) args st.
Proof. exact Blots.proofs.EmitNqSound.emit_equiv_first_order_nq. Qed.
Check C05_emit_equiv_first_order_nan_quote_generic :
  forall release binop_impl builtin_impl, impl_lf_respecting binop_impl builtin_impl -> binop_lit_ok binop_impl ->
  forall nanfix d fr fr' this this' id id' params body sv args st,
    first_order_body body = true ->
    free_vars body (map arg_name params ++ map fst sv) = [] ->
    forallb (fun kv => emittable_nq nanfix (snd kv)) sv = true ->
    (forall x, special_name x = true -> rec_get sv x = None) ->
    (forall x, In x (map arg_name params) -> rec_get sv x = None) ->
    rec_get sv "inputs"%string = None ->
    (forall n, lam_name st id = Some n -> rec_get sv n = None) ->
    lfs args = true ->
    AD release binop_impl builtin_impl d fr this (VLam id params body sv) args st =
    AD release binop_impl builtin_impl d fr' this'
       (VLam id' params (subst true (scope_map nanfix true sv) body) []) args st.
Print Assumptions C05_emit_equiv_first_order_nan_quote_generic.

(* ... for the transcribed evaluator, no hypothesis on the implementations (C05_emit_equiv_first_order_evaluator over emittable_nq) *)
Theorem C05_emit_equiv_first_order_nan_quote :
  forall release nanfix d fr fr' this this' id id' params body sv args st,
    first_order_body body = true ->
    free_vars body (map arg_name params ++ map fst sv) = [] ->
    forallb (fun kv => emittable_nq nanfix (snd kv)) sv = true ->
    (forall x, special_name x = true -> rec_get sv x = None) ->
    (forall x, In x (map arg_name params) -> rec_get sv x = None) ->
    rec_get sv "inputs"%string = None ->
    (forall n, lam_name st id = Some n -> rec_get sv n = None) ->
    lfs args = true ->
    AD release binop_impl builtin_impl d fr this (VLam id params body sv) args st =
    AD release binop_impl builtin_impl d fr' this'
       (VLam id' params (subst true (scope_map nanfix true sv) body) []) args st.
Proof. exact Blots.proofs.EmitNqSound.emit_equiv_first_order_nq_evaluator. Qed.
Check C05_emit_equiv_first_order_nan_quote :
  forall release nanfix d fr fr' this this' id id' params body sv args st,
    first_order_body body = true ->
    free_vars body (map arg_name params ++ map fst sv) = [] ->
    forallb (fun kv => emittable_nq nanfix (snd kv)) sv = true ->
    (forall x, special_name x = true -> rec_get sv x = None) ->
    (forall x, In x (map arg_name params) -> rec_get sv x = None) ->
    rec_get sv "inputs"%string = None ->
    (forall n, lam_name st id = Some n -> rec_get sv n = None) ->
    lfs args = true ->
    AD release binop_impl builtin_impl d fr this (VLam id params body sv) args st =
    AD release binop_impl builtin_impl d fr' this'
       (VLam id' params (subst true (scope_map nanfix true sv) body) []) args st.
Print Assumptions C05_emit_equiv_first_order_nan_quote.

(* ... and for the complete operator table / built-in set of EvalAll.v, every oracle *)
Theorem C05_emit_equiv_first_order_nan_quote_all :
  forall o release nanfix d fr fr' this this' id id' params body sv args st,
    first_order_body body = true ->
    free_vars body (map arg_name params ++ map fst sv) = [] ->
    forallb (fun kv => emittable_nq nanfix (snd kv)) sv = true ->
    (forall x, special_name x = true -> rec_get sv x = None) ->
    (forall x, In x (map arg_name params) -> rec_get sv x = None) ->
    rec_get sv "inputs"%string = None ->
    (forall n, lam_name st id = Some n -> rec_get sv n = None) ->
    lfs args = true ->
    AD release (binop_all o) (builtin_all o) d fr this (VLam id params body sv) args st =
    AD release (binop_all o) (builtin_all o) d fr' this'
       (VLam id' params (subst true (scope_map nanfix true sv) body) []) args st.
Proof. exact Blots.proofs.EmitNqSound.emit_equiv_first_order_nq_all. Qed.
Check C05_emit_equiv_first_order_nan_quote_all :
  forall o release nanfix d fr fr' this this' id id' params body sv args st,
    first_order_body body = true ->
    free_vars body (map arg_name params ++ map fst sv) = [] ->
    forallb (fun kv => emittable_nq nanfix (snd kv)) sv = true ->
    (forall x, special_name x = true -> rec_get sv x = None) ->
    (forall x, In x (map arg_name params) -> rec_get sv x = None) ->
    rec_get sv "inputs"%string = None ->
    (forall n, lam_name st id = Some n -> rec_get sv n = None) ->
    lfs args = true ->
    AD release (binop_all o) (builtin_all o) d fr this (VLam id params body sv) args st =
    AD release (binop_all o) (builtin_all o) d fr' this'
       (VLam id' params (subst true (scope_map nanfix true sv) body) []) args st.
Print Assumptions C05_emit_equiv_first_order_nan_quote_all.

(* (3) the hypotheses are satisfiable: a closure capturing a record that holds [NaN, a string with both quote kinds] and a key with both
   quote kinds; outside emittable_gen, inside emittable_nq; original and reloaded emission computed *)
Definition nq_data : value :=
  VRec [("d"%string, VList [VNum nnan; VStr "a""b'c"%string]); ("k""'"%string, VBool true)].
Definition nq_body : expr :=
  EList [Cm [] (EDot (EId "r"%string) "d"%string) None; Cm [] (EAccess (EId "r"%string) (EId "x"%string)) None].
Definition nq_fun : value := VLam 0%nat [AReq "x"%string] nq_body [("r"%string, nq_data)].
Example C05_nan_quote_premises_example :
  emittable_gen nq_data = false /\ emittable_nq true nq_data = true /\
  first_order_body nq_body = true /\
  free_vars nq_body (map arg_name [AReq "x"%string] ++ map fst [("r"%string, nq_data)]) = [] /\
  call_on nq_fun (VStr "k""'"%string) = Ok (VList [VList [VNum nnan; VStr "a""b'c"%string]; VBool true]) /\
  call_on (reloaded true true nq_fun) (VStr "k""'"%string) = call_on nq_fun (VStr "k""'"%string).
Proof. vm_compute. repeat split; reflexivity. Qed.

(* ---- higher-order: the value relation "after emit + reload" over the widened class ----
   emit_ok_nq opok biok nanfix v  = EmitHO.emit_ok with  VNum x => nanfix || not NaN,  VStr _ => true,  no condition on
   record keys (still unique); everything else (hob bodies, closed after capture, captured names) unchanged.
   vrel_nq = EmitHO.vrel over that class (R_lam: the inlined captured values are emit_ok_nq).  Both pairs are instances of
   EmitHO.emit_okG / vrelG, where the condition on inlined numbers and strings is a parameter (EmitHO.vrel_G, EmitNqHO.vrel_G),
   and everything is proved there once; the one place that looks at the leaves is lit_rel (the literal of an emittable value
   evaluates to a related value): for NaN, strings and record keys it needs C05_lit_nan_evaluates /
   C05_lit_both_quote_evaluates, hence the extra hypothesis binop_lit_ok. *)
Notation emit_ok_nq := Blots.proofs.EmitNqHO.emit_ok.
Notation vrel_nq := Blots.proofs.EmitNqHO.vrel.
Notation lrel_nq := Blots.proofs.EmitNqHO.lrel.
Notation orel_nq := Blots.proofs.EmitNqHO.orel.
Notation impl_rel_respecting_nq := Blots.proofs.EmitNqHOSim.impl_rel_respecting.

(* emit_ok is inside emit_ok_nq (closures at any capture depth) *)
Theorem C05_emit_ok_widened :
  forall opok biok nanfix v, emit_ok opok biok v = true -> emit_ok_nq opok biok nanfix v = true.
Proof. exact Blots.proofs.EmitNqHOWiden.emit_ok_widens. Qed.
Check C05_emit_ok_widened :
  forall opok biok nanfix v, emit_ok opok biok v = true -> emit_ok_nq opok biok nanfix v = true.
Print Assumptions C05_emit_ok_widened.

(* C05_ho_simulation over the widened relation: generic in the implementations up to impl_rel_respecting and binop_lit_ok *)
Theorem C05_ho_simulation_nan_quote :
  forall opok biok nanfix release binop_impl builtin_impl,
    impl_rel_respecting_nq opok biok nanfix binop_impl builtin_impl -> binop_lit_ok binop_impl ->
    forall d fr fr' this this' f f' args args' st st',
      vrel_nq opok biok nanfix f f' -> lrel_nq opok biok nanfix args args' ->
      orel_nq opok biok nanfix (fst (AD release binop_impl builtin_impl d fr this f args st))
                               (fst (AD release binop_impl builtin_impl d fr' this' f' args' st')).
Proof. exact Blots.proofs.EmitNqHOSim.ho_simulation. Qed.
Check C05_ho_simulation_nan_quote :
  forall opok biok nanfix release binop_impl builtin_impl,
    impl_rel_respecting_nq opok biok nanfix binop_impl builtin_impl -> binop_lit_ok binop_impl ->
    forall d fr fr' this this' f f' args args' st st',
      vrel_nq opok biok nanfix f f' -> lrel_nq opok biok nanfix args args' ->
      orel_nq opok biok nanfix (fst (AD release binop_impl builtin_impl d fr this f args st))
                               (fst (AD release binop_impl builtin_impl d fr' this' f' args' st')).
Print Assumptions C05_ho_simulation_nan_quote.

(* the transcribed operators (all but == != .== .!=) and every built-in but unique / includes respect the widened relation: the SAME exclusion (F53) as for vrel *)
Theorem C05_impl_rel_respecting_nan_quote :
  forall nanfix, impl_rel_respecting_nq eqfree biok_full nanfix binop_impl EvalFull.builtin_full.
Proof. exact Blots.proofs.EmitNqHOOpsFull.impl_rel_full_all. Qed.
Check C05_impl_rel_respecting_nan_quote :
  forall nanfix, impl_rel_respecting_nq eqfree biok_full nanfix binop_impl EvalFull.builtin_full.
Print Assumptions C05_impl_rel_respecting_nan_quote.

(* C05_emit_equiv_higher_order_full for NaN-holding and both-quote-holding captured data as well (nested in lists /
   records / captured closures at any depth; also in the arguments): original and reloaded emission give related outcomes
   from any call sites / stores / depths, first-order results EQUAL (the model has one NaN), depth error on both sides
   or on neither.  The only exclusion left is the F53 equality exclusion (eqfree, biok_full; exact by
   C05_all_builtins_unrestricted_refuted / C05_equality_exclusion_matches_source) and the body conditions of hob
   (inputs / #ref: F9 of C04; stray assignment: F32 of C04; output).  For nanfix = false (NaN written as the identifier `NaN`) NaN
   stays excluded, as it must (C05_lit_nan_current_refuted) *)
Theorem C05_emit_equiv_higher_order_nan_quote :
  forall release nanfix d fr fr' this this' id id' ps b sc args st st' r,
    emit_ok_nq eqfree biok_full nanfix (VLam id ps b sc) = true ->
    forallb (emit_ok_nq eqfree biok_full nanfix) args = true ->
    fst (AD release binop_impl EvalFull.builtin_full d fr this (VLam id ps b sc) args st) = r ->
    exists r', fst (AD release binop_impl EvalFull.builtin_full d fr' this'
                       (VLam id' ps (subst true (scope_map nanfix true sc) b) []) args st') = r' /\
      orel_nq eqfree biok_full nanfix r r' /\
      (forall v, r = Ok v -> lf v = true -> r' = Ok v) /\ (r = ErrDepth <-> r' = ErrDepth).
Proof. exact Blots.proofs.EmitNqHOOpsFull.emit_equiv_ho_same_args_all. Qed.
Check C05_emit_equiv_higher_order_nan_quote :
  forall release nanfix d fr fr' this this' id id' ps b sc args st st' r,
    emit_ok_nq eqfree biok_full nanfix (VLam id ps b sc) = true ->
    forallb (emit_ok_nq eqfree biok_full nanfix) args = true ->
    fst (AD release binop_impl EvalFull.builtin_full d fr this (VLam id ps b sc) args st) = r ->
    exists r', fst (AD release binop_impl EvalFull.builtin_full d fr' this'
                       (VLam id' ps (subst true (scope_map nanfix true sc) b) []) args st') = r' /\
      orel_nq eqfree biok_full nanfix r r' /\
      (forall v, r = Ok v -> lf v = true -> r' = Ok v) /\ (r = ErrDepth <-> r' = ErrDepth).
Print Assumptions C05_emit_equiv_higher_order_nan_quote.

(* related function-free values are EQUAL also in the widened relation (NaN included: one NaN in the model) *)
Theorem C05_related_nan_quote_function_free_equal :
  forall opok biok nanfix v v', vrel_nq opok biok nanfix v v' -> BuiltinsText.has_function v = false -> v = v'.
Proof. exact Blots.proofs.EmitNqHOOpsFull.vrel_nofun_eq. Qed.
Check C05_related_nan_quote_function_free_equal :
  forall opok biok nanfix v v', vrel_nq opok biok nanfix v v' -> BuiltinsText.has_function v = false -> v = v'.
Print Assumptions C05_related_nan_quote_function_free_equal.

(* the reloaded emission of a widened-emittable closure is related to it *)
Theorem C05_reload_related_nan_quote :
  forall opok biok nanfix id id' ps b sc,
    emit_ok_nq opok biok nanfix (VLam id ps b sc) = true ->
    vrel_nq opok biok nanfix (VLam id ps b sc) (VLam id' ps (subst true (scope_map nanfix true sc) b) []).
Proof. exact Blots.proofs.EmitNqHOTop.reload_rel. Qed.
Check C05_reload_related_nan_quote :
  forall opok biok nanfix id id' ps b sc,
    emit_ok_nq opok biok nanfix (VLam id ps b sc) = true ->
    vrel_nq opok biok nanfix (VLam id ps b sc) (VLam id' ps (subst true (scope_map nanfix true sc) b) []).
Print Assumptions C05_reload_related_nan_quote.

(* (4) satisfiable: a closure capturing (a) the record nq_data = {d: [NaN, both-quote string], both-quote key: true} and
   (b) a closure g that itself captures nq_data and returns a closure over it; outside emit_ok, inside emit_ok_nq;
   the original and the reloaded emission computed by the evaluator agree *)
Definition nq_g : value :=
  VLam 1%nat [AReq "y"%string]
    (ELam [AReq "z"%string] (EList [Cm [] (EId "y"%string) None; Cm [] (EDot (EId "r"%string) "d"%string) None;
                                    Cm [] (EId "z"%string) None]))
    [("r"%string, nq_data)].
Definition nq_ho_body : expr :=
  EList [Cm [] (ECall (ECall (EId "g"%string) [EId "x"%string]) [EStr "k""'"%string]) None;
         Cm [] (EAccess (EId "r"%string) (EId "x"%string)) None].
Definition nq_ho_fun : value := VLam 0%nat [AReq "x"%string] nq_ho_body [("g"%string, nq_g); ("r"%string, nq_data)].
Example C05_nan_quote_higher_order_example :
  emit_ok eqfree biok_full nq_ho_fun = false /\ emit_ok_nq eqfree biok_full true nq_ho_fun = true /\
  emit_ok_nq eqfree biok_full true (VStr "k""'"%string) = true /\
  call_on nq_ho_fun (VStr "k""'"%string) =
    Ok (VList [VList [VStr "k""'"%string; VList [VNum nnan; VStr "a""b'c"%string]; VStr "k""'"%string]; VBool true]) /\
  call_on (reloaded true true nq_ho_fun) (VStr "k""'"%string) = call_on nq_ho_fun (VStr "k""'"%string).
Proof. vm_compute. repeat split; reflexivity. Qed.
