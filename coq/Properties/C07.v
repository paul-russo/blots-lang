(* Property C07 — the formatter preserves program meaning.
   Statements only; proofs in proofs/PrintRT.v (round trip), proofs/PrintCapture.v (no absorption),
   proofs/PrintText.v (text of the token stream), proofs/PrintAgree.v (pinned vs repaired, quoting),
   proofs/PrintRefute.v (witnesses).  See notes/C07.md.

   Objects.  print_text / print_items (Printer.v) transcribe ast_to_source.rs::expr_to_source — the
   single-line printer format_expr uses for everything that fits the width and as its fallback — as a
   string and as pest's token stream (a parenthesised group is one primary).  policy_old pinned_opinfo
   is the pinned needs_parens_in_binop; policy_new fixed_opinfo is fixes/C07-parens.diff.
   parse_items impl_table infix_map prefix_map is pest's Pratt parser + pairs_to_expr_inner (Pratt.v,
   property C10) on the table built from the rows REGENERATED from precedence.rs / expressions.rs.
   wf (proofs/PrattRT.v) is the image of the parser: no Output below the statement level, no
   UnaryOp::Invert, identifiers that are not built-in names, no comment annotations. *)
From Coq Require Import String List Bool Arith.
Require Import Blots.Num Blots.gen.Builtins Blots.Ast Blots.Outcome Blots.PrattTypes Blots.gen.PrecTable
               Blots.Pratt Blots.PrattRender Blots.Printer
               Blots.proofs.PrattAdequacy Blots.proofs.PrattRT
               Blots.proofs.PrintRefute Blots.proofs.PrintRT Blots.proofs.PrintText
               Blots.proofs.PrintCapture Blots.proofs.PrintAgree.
Import ListNotations.
Local Open Scope string_scope.

(* ================================================================ the repaired printer *)

(* P0 pratt_print_roundtrip.  For EVERY well-formed tree (unbounded), every version of the quoting /
   do-block flags and every number-text oracle: the Pratt parser of the crate, on the generated
   table, recovers the tree from the token stream the repaired printer emits. *)
Theorem C07_pratt_print_roundtrip : forall fx numtxt e,
  wf e = true ->
  exists n, forall m, n <= m ->
    parse_items impl_table infix_map prefix_map m
                (print_items fx (policy_new fixed_opinfo) numtxt e) = Ok (Some e).
Proof.
  intros fx numtxt e H. apply new_policy_roundtrip_fun; [exact fixed_opinfo_consistent | exact H].
Qed.
Check C07_pratt_print_roundtrip : forall fx numtxt e,
  wf e = true ->
  exists n, forall m, n <= m ->
    parse_items impl_table infix_map prefix_map m
                (print_items fx (policy_new fixed_opinfo) numtxt e) = Ok (Some e).
Print Assumptions C07_pratt_print_roundtrip.

(* the same for ANY precedence table (as operator_info reports it) that orders the binary operators
   and assigns their associativity like the Pratt table: the repaired rule is table-generic *)
Theorem C07_pratt_print_roundtrip_any_table : forall oi fx numtxt e,
  opinfo_consistent oi spec_bprec spec_rassoc = true ->
  wf e = true ->
  exists n, forall m, n <= m ->
    parse_items impl_table infix_map prefix_map m (print_items fx (policy_new oi) numtxt e) = Ok (Some e).
Proof. exact new_policy_roundtrip_fun. Qed.
Check C07_pratt_print_roundtrip_any_table : forall oi fx numtxt e,
  opinfo_consistent oi spec_bprec spec_rassoc = true ->
  wf e = true ->
  exists n, forall m, n <= m ->
    parse_items impl_table infix_map prefix_map m (print_items fx (policy_new oi) numtxt e) = Ok (Some e).
Print Assumptions C07_pratt_print_roundtrip_any_table.

(* statements: `output x = e` / `output x` hand their inner pairs to the same conversion *)
Theorem C07_statement_roundtrip : forall fx numtxt e,
  wf (stmt_body e) = true ->
  exists n, forall m, n <= m ->
    parse_items impl_table infix_map prefix_map m
                (stmt_items fx (policy_new fixed_opinfo) numtxt e) = Ok (Some (stmt_body e)).
Proof.
  intros fx numtxt e H.
  assert (E : stmt_items fx (policy_new fixed_opinfo) numtxt e
              = print_items fx (policy_new fixed_opinfo) numtxt (stmt_body e)).
  { destruct e; reflexivity. }
  rewrite E. apply C07_pratt_print_roundtrip. exact H.
Qed.
Check C07_statement_roundtrip : forall fx numtxt e,
  wf (stmt_body e) = true ->
  exists n, forall m, n <= m ->
    parse_items impl_table infix_map prefix_map m
                (stmt_items fx (policy_new fixed_opinfo) numtxt e) = Ok (Some (stmt_body e)).
Print Assumptions C07_statement_roundtrip.

(* the part of lexing that is not token-local: in the repaired printer's stream no lambda body,
   else-branch or assignment value is followed by something it would absorb (PEG repetition is
   greedy), lambda bodies contain no via / into / where outside parentheses, and (with the do-block
   repair) no statement line starts with a prefix minus after another statement *)
Theorem C07_print_no_capture : forall fx numtxt e,
  fx_dominus fx = true ->
  wf e = true ->
  seq_ok (print_items fx (policy_new fixed_opinfo) numtxt e) = true.
Proof.
  intros fx numtxt e Hd H. apply new_policy_no_capture; [|exact Hd|exact H].
  intro o. destruct o; vm_compute; repeat constructor.
Qed.
Check C07_print_no_capture : forall fx numtxt e,
  fx_dominus fx = true ->
  wf e = true ->
  seq_ok (print_items fx (policy_new fixed_opinfo) numtxt e) = true.
Print Assumptions C07_print_no_capture.

(* P0 items_render: the string expr_to_source returns IS the text of that token stream — for every
   version of the printer, so the theorems above are about the printed text up to token lexing *)
Theorem C07_items_render : forall fx pol numtxt e,
  wf e = true ->
  print_text fx pol numtxt e = items_text7 fx numtxt (print_items fx pol numtxt e).
Proof. exact items_render. Qed.
Check C07_items_render : forall fx pol numtxt e,
  wf e = true ->
  print_text fx pol numtxt e = items_text7 fx numtxt (print_items fx pol numtxt e).
Print Assumptions C07_items_render.

(* the table of the patch orders the operators like the Pratt table built from the generated rows;
   the pinned table does not (^ and ?? share a level); what the built crate reports is one of them *)
Theorem C07_precedence_tables :
  opinfo_consistent fixed_opinfo spec_bprec spec_rassoc = true /\
  opinfo_consistent pinned_opinfo spec_bprec spec_rassoc = false /\
  opinfo_eqb gen_opinfo pinned_opinfo || opinfo_eqb gen_opinfo fixed_opinfo = true.
Proof.
  split; [exact fixed_opinfo_consistent | split; [exact pinned_opinfo_inconsistent | exact gen_opinfo_pinned_or_fixed]].
Qed.
Check C07_precedence_tables :
  opinfo_consistent fixed_opinfo spec_bprec spec_rassoc = true /\
  opinfo_consistent pinned_opinfo spec_bprec spec_rassoc = false /\
  opinfo_eqb gen_opinfo pinned_opinfo || opinfo_eqb gen_opinfo fixed_opinfo = true.
Print Assumptions C07_precedence_tables.

(* string literals (lex_string for the repaired quoting): the chosen quote character does not occur
   in the literal, so `string_value = (!PEEK ~ ANY)*` reads back exactly the string *)
Theorem C07_quote_sound : forall s,
  string_relex_ok FX_ALL s = true ->
  exists q, (q = a_dq \/ q = a_sq) /\ contains_char q s = false /\
            quote_string FX_ALL s = (str1 q ++ s ++ str1 q)%string.
Proof. exact quote_sound. Qed.
Check C07_quote_sound : forall s,
  string_relex_ok FX_ALL s = true ->
  exists q, (q = a_dq \/ q = a_sq) /\ contains_char q s = false /\
            quote_string FX_ALL s = (str1 q ++ s ++ str1 q)%string.
Print Assumptions C07_quote_sound.

(* ================================================================ the pinned printer *)

(* outside the finding classes about parentheses the pinned code prints exactly what the repaired
   code prints (text and token stream), so it has the round-trip and no-absorption properties there *)
Theorem C07_pinned_agrees_outside_classes : forall fx numtxt e,
  parens_free (known_classes e) = true ->
  print_text fx (policy_old pinned_opinfo) numtxt e = print_text fx (policy_new fixed_opinfo) numtxt e /\
  print_items fx (policy_old pinned_opinfo) numtxt e = print_items fx (policy_new fixed_opinfo) numtxt e.
Proof. exact pinned_agrees_outside_classes. Qed.
Check C07_pinned_agrees_outside_classes : forall fx numtxt e,
  parens_free (known_classes e) = true ->
  print_text fx (policy_old pinned_opinfo) numtxt e = print_text fx (policy_new fixed_opinfo) numtxt e /\
  print_items fx (policy_old pinned_opinfo) numtxt e = print_items fx (policy_new fixed_opinfo) numtxt e.
Print Assumptions C07_pinned_agrees_outside_classes.

Theorem C07_pinned_roundtrip_outside_classes : forall fx numtxt e,
  wf e = true ->
  parens_free (known_classes e) = true ->
  exists n, forall m, n <= m ->
    parse_items impl_table infix_map prefix_map m
                (print_items fx (policy_old pinned_opinfo) numtxt e) = Ok (Some e).
Proof.
  intros fx numtxt e Hw Hp. destruct (pinned_agrees_outside_classes fx numtxt e Hp) as [_ E].
  rewrite E. apply C07_pratt_print_roundtrip. exact Hw.
Qed.
Check C07_pinned_roundtrip_outside_classes : forall fx numtxt e,
  wf e = true ->
  parens_free (known_classes e) = true ->
  exists n, forall m, n <= m ->
    parse_items impl_table infix_map prefix_map m
                (print_items fx (policy_old pinned_opinfo) numtxt e) = Ok (Some e).
Print Assumptions C07_pinned_roundtrip_outside_classes.

Theorem C07_pinned_quote_agrees : forall s,
  str_cls s = [] -> quote_string FX_PINNED s = quote_string FX_ALL s.
Proof. exact quote_agrees. Qed.
Check C07_pinned_quote_agrees : forall s,
  str_cls s = [] -> quote_string FX_PINNED s = quote_string FX_ALL s.
Print Assumptions C07_pinned_quote_agrees.

(* the hypotheses are satisfiable by non-trivial trees: `xs via (x) => x * 2 + 1 where ok` style and a
   do-block with an assignment, a call and a record *)
Example C07_example_wf_classfree :
  let e := EBin Where (EBin Via (EId "xs") (ELam [AReq "x"] (EBin Add (EBin Multiply (EId "x") (EId "k")) (EId "one"))))
                (EId "ok") in
  wf e = true /\ parens_free (known_classes e) = true /\ known_classes e = [].
Proof. vm_compute. repeat split. Qed.
Example C07_example_wf_do :
  wf (EDo [Cm [] (EAssign "q" (ECall (EId "f") [EUn Negate (EId "a"); ERec [Cm [] (REntry (KStatic "k 2") (EStr "s")) None]])) None]
          (Cm [] (EAccess (EId "q") (EFact (EId "n"))) None)) = true.
Proof. vm_compute. reflexivity. Qed.

(* ================================================================ refutations on the pinned printer *)
(* refuted_in k: a tree the parser can produce, whose only finding class is k, and on which the
   model of the pinned printer predicts parse (expr_to_source e) <> e; each witness is replayed on
   the implementation by the check (known/C07.json) *)
Theorem C07_unary_operand_refuted : refuted_in KUnary.
Proof. exact unary_operand_refuted. Qed.
Check C07_unary_operand_refuted : refuted_in KUnary.
Print Assumptions C07_unary_operand_refuted.

Theorem C07_postfix_operand_refuted : refuted_in KPostfix.
Proof. exact postfix_operand_refuted. Qed.
Check C07_postfix_operand_refuted : refuted_in KPostfix.
Print Assumptions C07_postfix_operand_refuted.

Theorem C07_open_left_refuted : refuted_in KOpenL.
Proof. exact open_left_refuted. Qed.
Check C07_open_left_refuted : refuted_in KOpenL.
Print Assumptions C07_open_left_refuted.

Theorem C07_binary_right_refuted : refuted_in KBinR.
Proof. exact binary_right_refuted. Qed.
Check C07_binary_right_refuted : refuted_in KBinR.
Print Assumptions C07_binary_right_refuted.

Theorem C07_binary_left_refuted : refuted_in KBinL.
Proof. exact binary_left_refuted. Qed.
Check C07_binary_left_refuted : refuted_in KBinL.
Print Assumptions C07_binary_left_refuted.

Theorem C07_lambda_body_refuted : refuted_in KLamBody.
Proof. exact lambda_body_refuted. Qed.
Check C07_lambda_body_refuted : refuted_in KLamBody.
Print Assumptions C07_lambda_body_refuted.

Theorem C07_quote_refuted : refuted_in KQuote.
Proof. exact quote_refuted. Qed.
Check C07_quote_refuted : refuted_in KQuote.
Print Assumptions C07_quote_refuted.

Theorem C07_do_minus_refuted : refuted_in KDoMinus.
Proof. exact do_minus_refuted. Qed.
Check C07_do_minus_refuted : refuted_in KDoMinus.
Print Assumptions C07_do_minus_refuted.

(* the same witnesses pass under the model of the fully repaired printer *)
Theorem C07_witnesses_repaired :
  forallb (predict_rt FX_ALL fixed_opinfo num_text)
          [w_unary; w_postfix; w_open; w_binr; w_binl; w_lam; w_quote; w_dominus] = true.
Proof. exact witnesses_repaired. Qed.
Check C07_witnesses_repaired :
  forallb (predict_rt FX_ALL fixed_opinfo num_text)
          [w_unary; w_postfix; w_open; w_binr; w_binl; w_lam; w_quote; w_dominus] = true.
Print Assumptions C07_witnesses_repaired.

(* ================================================================ the character level *)
(* `lexes txt its` stands for pest's PEG (grammar.pest) turning the text of an `expression` into its
   token stream.  This theorem takes that step as a hypothesis (every token stream of the repaired
   printer that passes the absorption check, with re-lexable string literals, lexes back from its
   text); the hypothesis is proved for atoms from the PEG model of the grammar (C07_atoms_relex
   below) and otherwise decided by the PRINT correspondence (the model's predicted round trip against
   the real parser on every generated case) and by search.  Relative to it the printed TEXT parses
   back to the tree. *)
Theorem C07_roundtrip_relative_to_lexer :
  forall (lexes : string -> list item -> Prop),
    (forall numtxt e, wf e = true -> strings_ok FX_ALL e = true ->
       seq_ok (print_items FX_ALL (policy_new fixed_opinfo) numtxt e) = true ->
       lexes (print_text FX_ALL (policy_new fixed_opinfo) numtxt e)
             (print_items FX_ALL (policy_new fixed_opinfo) numtxt e)) ->
    forall numtxt e, wf e = true -> strings_ok FX_ALL e = true ->
      exists its, lexes (print_text FX_ALL (policy_new fixed_opinfo) numtxt e) its /\
                  exists n, forall m, n <= m -> parse_items impl_table infix_map prefix_map m its = Ok (Some e).
Proof.
  intros lexes Hlex numtxt e Hw Hs.
  exists (print_items FX_ALL (policy_new fixed_opinfo) numtxt e). split.
  - apply Hlex; [exact Hw | exact Hs | apply C07_print_no_capture; [reflexivity | exact Hw]].
  - apply C07_pratt_print_roundtrip. exact Hw.
Qed.
Check C07_roundtrip_relative_to_lexer :
  forall (lexes : string -> list item -> Prop),
    (forall numtxt e, wf e = true -> strings_ok FX_ALL e = true ->
       seq_ok (print_items FX_ALL (policy_new fixed_opinfo) numtxt e) = true ->
       lexes (print_text FX_ALL (policy_new fixed_opinfo) numtxt e)
             (print_items FX_ALL (policy_new fixed_opinfo) numtxt e)) ->
    forall numtxt e, wf e = true -> strings_ok FX_ALL e = true ->
      exists its, lexes (print_text FX_ALL (policy_new fixed_opinfo) numtxt e) its /\
                  exists n, forall m, n <= m -> parse_items impl_table infix_map prefix_map m its = Ok (Some e).
Print Assumptions C07_roundtrip_relative_to_lexer.

(* ================================================================ the multi-line layouts *)
(* Objects.  Formatter.v transcribes formatter.rs as a document model (fmtd = format_expr_impl with
   every layout function; the FORMAT stream of C08 runs it against the real formatter).
   FmtTokens.v: fmt_items = the pest token stream each layout denotes, by recursion parallel to the
   layout functions (same width decisions, taken on `render` of the same documents; same oracle
   calls); printer_oracles = ast_to_source.rs as Printer.v has it, packaged as formatter.rs's imports;
   lam_ok = no lambda parameter name starts with `-` (grammar identifiers start with a letter or `_`);
   lview = canon o toks, the layout-erasing lexical view of a text.  Proofs: proofs/FmtItems.v.
   fmt_items has a version switch (its `true` argument below): true = the via/into/where arm of
   format_binary_op_multiline re-assembles its right operand unchanged (formatter.rs with
   fixes/C07-crlf-lines.diff); false = str::lines() drops the "\r" of every "\r\n" inside a string
   literal of the right operand (finding F55, class crlf-lines) and the token stream of the changed
   text is the unknown `orl`.  The theorems are about the repaired formatter, for every `orl`. *)
Require Import Blots.Formatter Blots.FmtTokens Blots.proofs.FmtItems.
Require Import Blots.proofs.Relined.
Require Blots.Emit Blots.PegToItems.

(* layout_preserves_items.  For EVERY well-formed tree, every max_columns `w` and every indentation
   `i`, both versions of the nested-comment switch: the token stream of what format_expr_impl lays out
   is the token stream of the one-line printer — every layout only inserts blanks, line breaks and
   optional commas between the same tokens and takes the same parenthesisation decisions
   (needs_parens_in_binop / _postfix / _unary / lambda_body_needs_parens are asked for the same
   parent/child pairs; protect_leading_minus, decided on the laid-out text, agrees with the do-block
   rule of expr_to_source, decided on the one-line text). *)
Theorem C07_layout_preserves_items : forall fx numtxt keepc orl w e i,
  fx_dominus fx = true ->
  wf e = true -> lam_ok e = true ->
  fmt_items (printer_oracles fx (policy_new fixed_opinfo) numtxt keepc)
            (print_items fx (policy_new fixed_opinfo) numtxt) key_item true orl w e i
  = print_items fx (policy_new fixed_opinfo) numtxt e.
Proof. intros fx numtxt keepc orl w e i. exact (layout_preserves_items fixed_opinfo fx numtxt keepc orl w e i). Qed.
Check C07_layout_preserves_items : forall fx numtxt keepc orl w e i,
  fx_dominus fx = true ->
  wf e = true -> lam_ok e = true ->
  fmt_items (printer_oracles fx (policy_new fixed_opinfo) numtxt keepc)
            (print_items fx (policy_new fixed_opinfo) numtxt) key_item true orl w e i
  = print_items fx (policy_new fixed_opinfo) numtxt e.
Print Assumptions C07_layout_preserves_items.

(* the same for ANY oracle record with the stated interface (any precedence table, any version of the
   printer's policy whose callee rule is needs_parens_in_postfix and that leaves do-block lambda bodies
   bare — format_lambda does not ask for them —, any text function that starts like print_text) *)
Theorem C07_layout_preserves_items_any_oracle : forall fx pol numtxt O orl w e i,
  fx_dominus fx = true ->
  (forall op c, o_needs_parens O op c true = pL pol op c) ->
  (forall op c, o_needs_parens O op c false = pR pol op c) ->
  (forall c, o_postfix_parens O c = pP pol c) ->
  (forall c, pC pol c = pP pol c) ->
  (forall c, o_lambda_body_parens O c = pB pol c) ->
  (forall s r, pB pol (EDo s r) = false) ->
  (forall c, o_unary_parens O c = pU pol c) ->
  (forall e, lead3 (o_e2s O e) = lead3 (print_text fx pol numtxt e)) ->
  wf e = true -> lam_ok e = true ->
  fmt_items O (print_items fx pol numtxt) key_item true orl w e i = print_items fx pol numtxt e.
Proof. intros. apply layout_items_generic; assumption. Qed.
Check C07_layout_preserves_items_any_oracle : forall fx pol numtxt O orl w e i,
  fx_dominus fx = true ->
  (forall op c, o_needs_parens O op c true = pL pol op c) ->
  (forall op c, o_needs_parens O op c false = pR pol op c) ->
  (forall c, o_postfix_parens O c = pP pol c) ->
  (forall c, pC pol c = pP pol c) ->
  (forall c, o_lambda_body_parens O c = pB pol c) ->
  (forall s r, pB pol (EDo s r) = false) ->
  (forall c, o_unary_parens O c = pU pol c) ->
  (forall e, lead3 (o_e2s O e) = lead3 (print_text fx pol numtxt e)) ->
  wf e = true -> lam_ok e = true ->
  fmt_items O (print_items fx pol numtxt) key_item true orl w e i = print_items fx pol numtxt e.
Print Assumptions C07_layout_preserves_items_any_oracle.

(* statements: both drivers hand `output x = e` / `output x` to format_expr as Expr::Output *)
Theorem C07_layout_preserves_statement_items : forall fx numtxt keepc orl w e i,
  fx_dominus fx = true ->
  wf (stmt_body e) = true -> lam_ok e = true ->
  fmt_items (printer_oracles fx (policy_new fixed_opinfo) numtxt keepc)
            (print_items fx (policy_new fixed_opinfo) numtxt) key_item true orl w e i
  = stmt_items fx (policy_new fixed_opinfo) numtxt e.
Proof. intros fx numtxt keepc orl w e i. exact (layout_preserves_stmt_items fixed_opinfo fx numtxt keepc orl w e i). Qed.
Check C07_layout_preserves_statement_items : forall fx numtxt keepc orl w e i,
  fx_dominus fx = true ->
  wf (stmt_body e) = true -> lam_ok e = true ->
  fmt_items (printer_oracles fx (policy_new fixed_opinfo) numtxt keepc)
            (print_items fx (policy_new fixed_opinfo) numtxt) key_item true orl w e i
  = stmt_items fx (policy_new fixed_opinfo) numtxt e.
Print Assumptions C07_layout_preserves_statement_items.

(* format_roundtrip_items: pest's Pratt parser on the formatter's token stream returns the tree, at
   EVERY width (format_expr = indentation 0, max_columns or 80) *)
Theorem C07_format_roundtrip_items : forall fx numtxt keepc orl max_columns e,
  fx_dominus fx = true ->
  wf e = true -> lam_ok e = true ->
  exists n, forall m, n <= m ->
    parse_items impl_table infix_map prefix_map m
      (format_expr_items (printer_oracles fx (policy_new fixed_opinfo) numtxt keepc)
                         (print_items fx (policy_new fixed_opinfo) numtxt) key_item true orl e max_columns)
    = Ok (Some e).
Proof.
  intros fx numtxt keepc orl mc e Hd Hw Hl. unfold format_expr_items.
  apply format_roundtrip_items; [exact fixed_opinfo_consistent | exact Hd | exact Hw | exact Hl].
Qed.
Check C07_format_roundtrip_items : forall fx numtxt keepc orl max_columns e,
  fx_dominus fx = true ->
  wf e = true -> lam_ok e = true ->
  exists n, forall m, n <= m ->
    parse_items impl_table infix_map prefix_map m
      (format_expr_items (printer_oracles fx (policy_new fixed_opinfo) numtxt keepc)
                         (print_items fx (policy_new fixed_opinfo) numtxt) key_item true orl e max_columns)
    = Ok (Some e).
Print Assumptions C07_format_roundtrip_items.

(* the hypotheses are satisfiable and the layouts are really taken: at width 10 the tree of
   C07_example_wf_classfree is laid out on several lines, and its item stream is the printer's *)
Example C07_example_layout_multiline :
  let e := EBin Where (EBin Via (EId "xs") (ELam [AReq "x"] (EBin Add (EBin Multiply (EId "x") (EId "k")) (EId "one"))))
                (EId "ok") in
  let O := printer_oracles FX_ALL (policy_new fixed_opinfo) num_text true in
  wf e = true /\ lam_ok e = true /\
  contains_nl (render (fmtd O 10 e 0)) = true /\
  fmt_items O (print_items FX_ALL (policy_new fixed_opinfo) num_text) key_item true (fun _ _ => []) 10 e 0
  = print_items FX_ALL (policy_new fixed_opinfo) num_text e /\
  lview (render (fmtd O 10 e 0)) = lview (print_text FX_ALL (policy_new fixed_opinfo) num_text e).
Proof. vm_compute. repeat split. Qed.

(* ---------------------------------------------------------------- F55 (class crlf-lines), repaired *)
(* Finding F55: re-assembling the right operand of via/into/where from str::lines() drops a "\r"
   before each "\n", so `xs via x => "a\r\nb"` would be formatted with the literal "a\nb".  The
   repaired code splits on "\n" only, and Formatter.v follows it: the re-assembly is the identity
   for EVERY text, so no Relined piece is ever produced. *)
Definition s_crlf : string := String (Ascii.ascii_of_nat 97) (String CRc (String NLc "b")).
Definition w_crlf : expr := EBin Via (EId "xs") (ELam [AReq "x"] (EStr s_crlf)).
Theorem C07_relined_identity : forall s, contains_nl s = true -> relined s = s.
Proof. exact relined_identity. Qed.
Check C07_relined_identity : forall s, contains_nl s = true -> relined s = s.
Print Assumptions C07_relined_identity.

Theorem C07_layout_crlf_repaired :
  let O := printer_oracles FX_ALL (policy_new fixed_opinfo) num_text true in
  wf w_crlf = true /\ lam_ok w_crlf = true /\ cr_free w_crlf = false /\
  doc_relined (fmtd O 80 w_crlf 0) = [] /\
  lview (render (fmtd O 80 w_crlf 0)) = lview (print_text FX_ALL (policy_new fixed_opinfo) num_text w_crlf).
Proof. vm_compute. repeat split. Qed.
Check C07_layout_crlf_repaired :
  let O := printer_oracles FX_ALL (policy_new fixed_opinfo) num_text true in
  wf w_crlf = true /\ lam_ok w_crlf = true /\ cr_free w_crlf = false /\
  doc_relined (fmtd O 80 w_crlf 0) = [] /\
  lview (render (fmtd O 80 w_crlf 0)) = lview (print_text FX_ALL (policy_new fixed_opinfo) num_text w_crlf).
Print Assumptions C07_layout_crlf_repaired.

(* ---------------------------------------------------------------- stated only (character level) *)
(* (a) the tie between the item stream and the TEXT of a layout: under the lexical view the laid-out
   text is the one-line text.  As stated here it is REFUTED (C07_layout_preserves_tokens_full_refuted
   below: a hypothesis on the leaf texts is missing); the statement with that hypothesis is
   C07_layout_view_full, proved for families of layouts (the _partial theorems below).  Evaluated on
   the real formatter's output on every run (FORMAT-items stream of checks/c07.py, all boundary
   widths).  cr_free excludes finding class crlf-lines; it is not needed (see C07_layout_view_full). *)
Definition C07_layout_preserves_tokens_full : Prop := forall numtxt keepc w e i,
  wf e = true -> lam_ok e = true -> cr_free e = true ->
  let O := printer_oracles FX_ALL (policy_new fixed_opinfo) numtxt keepc in
  lview (render (fmtd O w e i)) = lview (print_text FX_ALL (policy_new fixed_opinfo) numtxt e).
(* (b) the line breaks of the layouts are where grammar.pest admits them: the PEG model (Peg.v on
   gen/Grammar.v) + PegToItems + the Pratt model read the laid-out text back as the tree.  Not proved;
   evaluated by vm_compute on real formatter output (FORMAT-peg part of the FORMAT-items stream) and
   decided on the real parser by the search streams. *)
Definition C07_layout_parses_full : Prop := forall keepc w e,
  wf e = true -> lam_ok e = true -> cr_free e = true -> strings_ok FX_ALL e = true ->
  let O := printer_oracles FX_ALL (policy_new fixed_opinfo) num_text keepc in
  PegToItems.parse_text (render (fmtd O w e 0)) = ("E " ++ Emit.show_expr e)%string.

(* ================================================================ the character level, first step: ATOMS
   The PEG model of the REGENERATED grammar (coq/Peg.v on gen/Grammar.v, tied to pest's generated parser pair-for-pair
   by the PEG streams of C10) run on the text of an atom yields exactly the pair of that atom with the full span:
     - a string literal as Printer.quote_string (repaired quoting) writes it — either quote style — in front of ANY
       continuation [after]: string[p, p+|s|+2] ( string_value[p+1, p+1+|s|] ), for byte strings made of UTF-8-shaped
       chunks (every valid UTF-8 string is; for others pest's ANY could step over the closing quote);
     - an identifier (valid name, not a reserved word); `true`, `false`, `null`;
     - a number text in the language of the rule `number` (which texts the printers emit is C16's subject).
   This discharges, for atoms, the `lexes` hypothesis of C07_roundtrip_relative_to_lexer. *)
Require Blots.Peg Blots.gen.Grammar Blots.proofs.PegString Blots.proofs.PegNumber Blots.proofs.PegAtoms
        Blots.C10Ident Blots.gen.IdentRules.
From Coq Require Import NArith.
Module AtomLayer.
Import Blots.Peg Blots.gen.Grammar Blots.proofs.PegString Blots.proofs.PegAtoms Blots.C10Ident Blots.gen.IdentRules.
Local Open Scope string_scope.

Theorem C07_atoms_relex :
  (* strings *)
  (forall s after fuel a (st0 : st grule),
     Blots.Printer.string_relex_ok Blots.Printer.FX_ALL s = true -> chunks s ->
     rest st0 = (Blots.Printer.quote_string Blots.Printer.FX_ALL s ++ after)%string -> stack_ok (stk st0) ->
     12 + String.length (rest st0) <= fuel ->
     call_with blots_grammar (run blots_grammar fuel) a false PG_string st0
     = Ok (mkst (pos st0 + slen s + 2)%N after (stk st0)
                (Node PG_string (pos st0) (pos st0 + slen s + 2)%N
                      [Node PG_string_value (pos st0 + 1)%N (pos st0 + 1 + slen s)%N []] :: out st0))) /\
  (* identifiers *)
  (exists n, forall name fuel,
     valid_name name = true -> is_reserved reserved_words name = false -> n + String.length name <= fuel ->
     parse blots_grammar fuel PG_identifier name
     = Ok (mkst (slen name) "" stack_new [Node PG_identifier 0 (slen name) []])) /\
  (* true / false / null *)
  (forall fuel, 40 <= fuel ->
     parse blots_grammar fuel PG_bool "true" = Ok (mkst 4 "" stack_new [Node PG_bool 0 4 []]) /\
     parse blots_grammar fuel PG_bool "false" = Ok (mkst 5 "" stack_new [Node PG_bool 0 5 []]) /\
     parse blots_grammar fuel PG_null "null" = Ok (mkst 4 "" stack_new [Node PG_null 0 4 []])) /\
  (* numbers *)
  (exists n, forall t fuel,
     Blots.gen.NumGrammar.gen_number t = Some "" -> n + String.length t <= fuel ->
     parse blots_grammar fuel PG_number t = Ok (mkst (slen t) "" stack_new [Node PG_number 0 (slen t) []])).
Proof.
  exact (conj peg_quoted_string_relexes (conj peg_identifier_atom (conj peg_word_atoms peg_number_atom))).
Qed.
Check C07_atoms_relex :
  (forall s after fuel a (st0 : st grule),
     Blots.Printer.string_relex_ok Blots.Printer.FX_ALL s = true -> chunks s ->
     rest st0 = (Blots.Printer.quote_string Blots.Printer.FX_ALL s ++ after)%string -> stack_ok (stk st0) ->
     12 + String.length (rest st0) <= fuel ->
     call_with blots_grammar (run blots_grammar fuel) a false PG_string st0
     = Ok (mkst (pos st0 + slen s + 2)%N after (stk st0)
                (Node PG_string (pos st0) (pos st0 + slen s + 2)%N
                      [Node PG_string_value (pos st0 + 1)%N (pos st0 + 1 + slen s)%N []] :: out st0))) /\
  (exists n, forall name fuel,
     valid_name name = true -> is_reserved reserved_words name = false -> n + String.length name <= fuel ->
     parse blots_grammar fuel PG_identifier name
     = Ok (mkst (slen name) "" stack_new [Node PG_identifier 0 (slen name) []])) /\
  (forall fuel, 40 <= fuel ->
     parse blots_grammar fuel PG_bool "true" = Ok (mkst 4 "" stack_new [Node PG_bool 0 4 []]) /\
     parse blots_grammar fuel PG_bool "false" = Ok (mkst 5 "" stack_new [Node PG_bool 0 5 []]) /\
     parse blots_grammar fuel PG_null "null" = Ok (mkst 4 "" stack_new [Node PG_null 0 4 []])) /\
  (exists n, forall t fuel,
     Blots.gen.NumGrammar.gen_number t = Some "" -> n + String.length t <= fuel ->
     parse blots_grammar fuel PG_number t = Ok (mkst (slen t) "" stack_new [Node PG_number 0 (slen t) []])).
Print Assumptions C07_atoms_relex.

(* every ASCII string (bytes < 0xC0 as lead bytes) is chunked; a two-byte character too *)
Example C07_atoms_chunks_ascii : chunks "it's ""quoted""".
Proof. apply ascii_chunks. vm_compute. reflexivity. Qed.
End AtomLayer.

(* ================================================================ statement sequences (proofs/FmtSeq.v) *)
(* A line break, blank lines and comment-only lines do not end an expression (grammar.pest: NEWLINE =
   inline_comment? ~ plain_newline inside infix_usage), so a statement written after another one must not
   start with "-".  For EVERY oracle record (whatever format_expr prints), every program: in the model of
   the `blots --format` loop (Formatter.v cli_stmt / format_cli, tied to the binary's output text by the
   SEQUENCES stream) no expression statement after the first one written contributes a text that starts
   with "-" — comment statements count as written statements. *)
Require Blots.proofs.FmtSeq.
Theorem C07_cli_statements_not_minus : forall O s rest,
  Formatter.format_cli O (s :: rest) =
    (Formatter.cli_stmt O true s ++ List.concat (List.map (Formatter.cli_stmt O false) rest))%list /\
  Forall (fun t => Blots.proofs.FmtSeq.is_expr_stmt t = true ->
                   Formatter.starts_with_minus (Formatter.render (Formatter.cli_stmt O false t)) = false) rest.
Proof.
  intros O s rest. split; [reflexivity|].
  apply Forall_forall. intros [[e|e|c] eol sl el] _ H; try discriminate H.
  apply Blots.proofs.FmtSeq.cli_expr_stmt_not_minus.
Qed.
Check C07_cli_statements_not_minus : forall O s rest,
  Formatter.format_cli O (s :: rest) =
    (Formatter.cli_stmt O true s ++ List.concat (List.map (Formatter.cli_stmt O false) rest))%list /\
  Forall (fun t => Blots.proofs.FmtSeq.is_expr_stmt t = true ->
                   Formatter.starts_with_minus (Formatter.render (Formatter.cli_stmt O false t)) = false) rest.
Print Assumptions C07_cli_statements_not_minus.

(* the same for the format_blots loop (blots-wasm), which protects statements of every kind *)
Theorem C07_lib_statements_not_minus : forall O mw s,
  Formatter.starts_with_minus (Formatter.render (fst (fst (Formatter.lib_stmt O mw false s)))) = false.
Proof.
  intros O mw s. apply Blots.proofs.FmtSeq.minus_of_dlead. apply Blots.proofs.FmtSeq.lib_statements_not_minus.
Qed.
Check C07_lib_statements_not_minus : forall O mw s,
  Formatter.starts_with_minus (Formatter.render (fst (fst (Formatter.lib_stmt O mw false s)))) = false.
Print Assumptions C07_lib_statements_not_minus.

(* ================================================================ the character level of the layouts: TOKENS
   (proofs/FmtToks.v, FmtToksDoc.v, FmtToksAll.v; notes/ext-tok.md)
   `toks` (FmtTokens.v) is a three-state character automaton (code / string literal / comment).
   (1) It composes: reading a ++ b is reading a, then b from the state a stops in. *)
Require Import Blots.proofs.FmtToks Blots.proofs.FmtToksDoc Blots.proofs.FmtToksAll.
Theorem C07_toks_compose : forall a b m cur,
  toks_from m cur (a ++ b)%string =
  (fst (trun m cur a) ++ toks_from (fst (snd (trun m cur a))) (snd (snd (trun m cur a))) b)%list.
Proof. exact toks_from_app. Qed.
Check C07_toks_compose : forall a b m cur,
  toks_from m cur (a ++ b)%string =
  (fst (trun m cur a) ++ toks_from (fst (snd (trun m cur a))) (snd (snd (trun m cur a))) b)%list.
Print Assumptions C07_toks_compose.

(* The decidable boundary condition `boundary a b`: a stops in code state (every string literal closed,
   not inside a comment) and either a stops with no open chunk (it ends with a blank, a line break, one of
   ( ) [ ] { } , : , a closing quote or a comment line) or b starts with a blank, a line break, one of
   ( ) [ ] { } , : or a quote.  (Two other character classes always merge into one chunk: `toks` does not
   split operators from operands.)  Across a boundary the chunks are the chunks of the two parts. *)
Theorem C07_toks_boundary : forall a b, boundary a b = true -> toks (a ++ b)%string = (toks a ++ toks b)%list.
Proof. exact toks_app_boundary. Qed.
Check C07_toks_boundary : forall a b, boundary a b = true -> toks (a ++ b)%string = (toks a ++ toks b)%list.
Print Assumptions C07_toks_boundary.

(* Separators: blanks, line breaks, indentation, end-of-line comments and comment lines (anything that,
   read with any open chunk, closes it, yields nothing and stops at a chunk boundary) vanish. *)
Theorem C07_toks_separator : forall a sep b, ends_code a = true -> is_sep sep ->
  toks (a ++ sep ++ b)%string = (toks a ++ toks b)%list.
Proof. exact toks_app_sep. Qed.
Check C07_toks_separator : forall a sep b, ends_code a = true -> is_sep sep ->
  toks (a ++ sep ++ b)%string = (toks a ++ toks b)%list.
Print Assumptions C07_toks_separator.
Theorem C07_toks_layout_separators : forall c n m, no_nl c = true ->
  is_sep (Formatter.nl ++ Formatter.make_indent n) /\
  is_sep ("  " ++ ("//" ++ c ++ Formatter.nl) ++ Formatter.make_indent n) /\
  is_sep ((Formatter.nl ++ Formatter.make_indent n) ++ ("//" ++ c ++ Formatter.nl) ++ Formatter.make_indent m).
Proof.
  intros c n m H. split; [apply is_sep_nl_indent|]. split; [apply is_sep_eol_comment, H|apply is_sep_comment_line, H].
Qed.
Check C07_toks_layout_separators : forall c n m, no_nl c = true ->
  is_sep (Formatter.nl ++ Formatter.make_indent n) /\
  is_sep ("  " ++ ("//" ++ c ++ Formatter.nl) ++ Formatter.make_indent n) /\
  is_sep ((Formatter.nl ++ Formatter.make_indent n) ++ ("//" ++ c ++ Formatter.nl) ++ Formatter.make_indent m).
Print Assumptions C07_toks_layout_separators.

(* The two states that swallow separators.  A string literal is ONE chunk whatever it contains (blanks,
   line breaks, brackets, `//`), and the text after it is read from a chunk boundary; a comment runs to
   the end of its line whatever it contains (quotes, brackets). *)
Theorem C07_toks_string_literal : forall q body r cur,
  Formatter.is_quote q = true -> nochar q body = true ->
  toks_from LCode cur (String q (body ++ String q r)) =
  (flush cur ++ String q (body ++ String q EmptyString) :: toks r)%list.
Proof. exact toks_string_lit. Qed.
Check C07_toks_string_literal : forall q body r cur,
  Formatter.is_quote q = true -> nochar q body = true ->
  toks_from LCode cur (String q (body ++ String q r)) =
  (flush cur ++ String q (body ++ String q EmptyString) :: toks r)%list.
Print Assumptions C07_toks_string_literal.
Theorem C07_toks_comment : forall c r, no_nl c = true ->
  trun LCom [] (c ++ String Formatter.NLc r) = trun LCode [] r.
Proof. exact trun_comment. Qed.
Check C07_toks_comment : forall c r, no_nl c = true ->
  trun LCom [] (c ++ String Formatter.NLc r) = trun LCode [] r.
Print Assumptions C07_toks_comment.

(* (2) Documents.  `dok true d` is a decidable check on a document of Formatter.v: every piece, read from a
   chunk boundary, stops in code state, and every seam between pieces is a `boundary`.  Then the chunks of
   the rendered text are the chunks of the pieces, in order. *)
Theorem C07_doc_toks : forall d, dok true d = true ->
  toks (Formatter.render d) = flat_map piece_toks d /\ ends_code (Formatter.render d) = true.
Proof. exact doc_toks. Qed.
Check C07_doc_toks : forall d, dok true d = true ->
  toks (Formatter.render d) = flat_map piece_toks d /\ ends_code (Formatter.render d) = true.
Print Assumptions C07_doc_toks.

(* EVERY layout of formatter.rs — format_expr_impl with the single-line test, format_multiline, the list /
   record / call layouts, format_binary_op_multiline with its via/into/where arm (the re-assembled right
   operand is the document itself: C07_relined_identity; no Relined piece, so no cr_free hypothesis),
   format_conditional_multiline with its else-if chain, format_lambda, format_do_block_multiline with
   protect_leading_minus, assignment, output — for ANY oracle record, width and indentation builds a
   document with such seams only, for every tree with `tok_ok O e` (decidable): no comment annotations
   (true of wf trees), and the texts taken from elsewhere — expr_to_source's and format_single_line's text
   of every sub-expression, assigned names, parameter lists, record keys — stop in code state.
   So no chunk of a laid-out text straddles two pieces and no piece is swallowed by a string or comment.
   PARTIAL with respect to C07_layout_preserves_tokens_full: see C07_layout_view_full below. *)
Theorem C07_layout_tokens_are_pieces_partial : forall O w e i, tok_ok O e = true ->
  toks (Formatter.render (Formatter.fmtd O w e i)) = flat_map piece_toks (Formatter.fmtd O w e i) /\
  ends_code (Formatter.render (Formatter.fmtd O w e i)) = true.
Proof. exact layout_toks. Qed.
Check C07_layout_tokens_are_pieces_partial : forall O w e i, tok_ok O e = true ->
  toks (Formatter.render (Formatter.fmtd O w e i)) = flat_map piece_toks (Formatter.fmtd O w e i) /\
  ends_code (Formatter.render (Formatter.fmtd O w e i)) = true.
Print Assumptions C07_layout_tokens_are_pieces_partial.

(* the hypothesis is satisfiable and the layouts are taken: the tree of C07_example_layout_multiline at
   width 10, and a list / record / call / conditional / do-block tree at width 1 *)
Example C07_example_layout_tokens :
  let O := printer_oracles FX_ALL (policy_new fixed_opinfo) num_text true in
  let e1 := EBin Where (EBin Via (EId "xs") (ELam [AReq "x"] (EBin Add (EBin Multiply (EId "x") (EId "k")) (EId "one"))))
                 (EId "ok") in
  let e2 := EDo [Cm [] (EAssign "t" (ECall (EId "f") [EList [Cm [] (EStr "a // b") None; Cm [] (EId "c") None];
                                                       ERec [Cm [] (REntry (KStatic "k") (EId "v")) None]])) None]
                (Cm [] (ECond (EId "t") (EId "a") (ECond (EId "u") (EId "b") (EId "c"))) None) in
  tok_ok O e1 = true /\ tok_ok O e2 = true /\ wf e1 = true /\ wf e2 = true /\
  Formatter.contains_nl (Formatter.render (Formatter.fmtd O 10 e1 0)) = true /\
  Formatter.contains_nl (Formatter.render (Formatter.fmtd O 1 e2 0)) = true /\
  dok true (Formatter.fmtd O 1 e2 0) = true /\
  lview (Formatter.render (Formatter.fmtd O 1 e2 0)) = lview (print_text FX_ALL (policy_new fixed_opinfo) num_text e2).
Proof. vm_compute. repeat split. Qed.

(* C07_layout_preserves_tokens_full as stated above is REFUTED by the model: it quantifies over every
   number-text oracle and every identifier string, and `wf` does not say that a name is a name.  With the
   "identifier" `//` (which no parser produces) the one-line text `[//, b]` is `[` + a comment, while the
   multi-line layout has `b,` and `]` on lines of their own.  Not a defect of the code: a missing
   hypothesis of the statement (lexical sanity of the leaf texts) — `tok_ok` is that hypothesis. *)
Lemma C07_layout_preserves_tokens_full_refuted : ~ C07_layout_preserves_tokens_full.
Proof.
  intro H.
  specialize (H num_text true 1 (EList [Cm [] (EId "//") None; Cm [] (EId "b") None]) 0 eq_refl eq_refl eq_refl).
  vm_compute in H. discriminate H.
Qed.
Print Assumptions C07_layout_preserves_tokens_full_refuted.

(* The statement to prove, with the hypothesis it needs and WITHOUT cr_free (Formatter.v never builds
   a Relined piece, see dok_binop_doc / C07_relined_identity).
   Proved towards it (below): the same CHUNKS for the recursive fragment operators / conditionals / assignment /
   do-blocks (C07_layout_view_flat_partial), the same VIEW for lists and calls of chunk-equal elements
   (C07_layout_view_list_partial, C07_layout_view_call_partial, via C07_canon_trailing_comma).
   Still open:
   (a) the general congruence of `canon` (a 4-token look-ahead rewriting) over seams — needed for lists / records /
       calls whose elements are themselves lists / records / calls / lambdas, and for `x =>` (format_lambda,
       format_single_line) against `(x) =>` (expr_to_source);
   (b) the record family (same technique as list / call);
   (c) tok_ok for the printer instance from `wf` + lexical sanity of names, number texts and quoted strings
       (quote_string), and the side condition "last chunk of an element is not `,`" from the same. *)
Definition C07_layout_view_full : Prop := forall numtxt keepc w e i,
  wf e = true -> lam_ok e = true ->
  let O := printer_oracles FX_ALL (policy_new fixed_opinfo) numtxt keepc in
  tok_ok O e = true ->
  lview (Formatter.render (Formatter.fmtd O w e i)) = lview (print_text FX_ALL (policy_new fixed_opinfo) numtxt e).

(* (3) Families closed at the TEXT level (proofs/FmtToksBin.v).  Binary operators (all three arms of
   format_binary_op_multiline incl. via/into/where), conditionals (both arms and the else-if chain of
   format_conditional_multiline) and assignment: for trees whose laid-out part consists of these (`binfam`:
   their operands are again of these kinds, or nodes always printed through expr_to_source — literals, names,
   prefix / postfix operators, index, field), ANY printer version and policy, every width and indentation, the
   laid-out text has exactly the chunks of the one-line text — already before `canon` (this fragment has no
   trailing comma and no lambda), hence the same view.  No wf / lam_ok / cr_free hypothesis is needed.
   PARTIAL with respect to C07_layout_view_full: list / record / call (trailing comma: canon), lambda (`x =>`
   vs `(x) =>`: canon) and do-block (protect_leading_minus against the one-line printer's dominus rule: needs
   lead_fmtd of FmtItems.v) are open. *)
Require Import Blots.proofs.FmtToksBin.
Theorem C07_layout_view_operators_conditionals_partial : forall fx pol numtxt keepc w e i,
  binfam e = true -> tok_ok (printer_oracles fx pol numtxt keepc) e = true ->
  toks (Formatter.render (Formatter.fmtd (printer_oracles fx pol numtxt keepc) w e i)) = toks (print_text fx pol numtxt e) /\
  lview (Formatter.render (Formatter.fmtd (printer_oracles fx pol numtxt keepc) w e i)) = lview (print_text fx pol numtxt e).
Proof.
  intros fx pol numtxt keepc w e i Hb Hk. split.
  - exact (binfam_toks fx pol numtxt keepc w e Hb Hk i).
  - exact (binfam_lview fx pol numtxt keepc w e i Hb Hk).
Qed.
Check C07_layout_view_operators_conditionals_partial : forall fx pol numtxt keepc w e i,
  binfam e = true -> tok_ok (printer_oracles fx pol numtxt keepc) e = true ->
  toks (Formatter.render (Formatter.fmtd (printer_oracles fx pol numtxt keepc) w e i)) = toks (print_text fx pol numtxt e) /\
  lview (Formatter.render (Formatter.fmtd (printer_oracles fx pol numtxt keepc) w e i)) = lview (print_text fx pol numtxt e).
Print Assumptions C07_layout_view_operators_conditionals_partial.

(* hypotheses satisfiable, layouts taken:
   r = if a + b > c then (a - b) * c else if ok then -a ^ 2 else "x // y"   at width 10 *)
Example C07_example_operators_conditionals :
  let O := printer_oracles FX_ALL (policy_new fixed_opinfo) num_text true in
  let e := EAssign "r" (ECond (EBin Greater (EBin Add (EId "a") (EId "b")) (EId "c"))
                              (EBin Multiply (EBin Subtract (EId "a") (EId "b")) (EId "c"))
                              (ECond (EId "ok") (EBin Power (EUn Negate (EId "a")) (ENum nzero))
                                     (EStr "x // y"))) in
  binfam e = true /\ tok_ok O e = true /\ wf e = true /\
  Formatter.contains_nl (Formatter.render (Formatter.fmtd O 10 e 0)) = true.
Proof. vm_compute. repeat split. Qed.

(* The do-block family (proofs/FmtToksDo.v): format_do_block_multiline against the do-block arm of
   expr_to_source.  If every statement x and the returned expression satisfy `child_ok` — lam_ok x, tok_ok x,
   and at every indentation toks (layout of x) = toks (one-line text of x) — then the block's laid-out text has
   exactly the chunks of its one-line text (same chunks, before canon).  protect_leading_minus (decided on the
   LAID-OUT text, "no statement before") agrees with the one-line printer's rule (decided on the one-line text,
   statement index) because no layout changes how a text starts (FmtItems.lead_fmtd): this needs lam_ok, the
   repaired do-block rule and the repaired policy.  A family theorem with the children's equalities as
   hypotheses: it is not yet folded into the recursive fragment `binfam` (the fragment theorem would need
   lam_ok / fx_dominus / policy_new throughout). *)
Require Import Blots.proofs.FmtToksDo.
Theorem C07_layout_view_do_block_partial : forall oi fx numtxt keepc w stmts ret i,
  fx_dominus fx = true ->
  plain_items stmts = true ->
  tok_ok (printer_oracles fx (policy_new oi) numtxt keepc) (EDo stmts (Cm [] ret None)) = true ->
  Forall (fun c => child_ok oi fx numtxt keepc w (cnode c)) stmts -> child_ok oi fx numtxt keepc w ret ->
  toks (Formatter.render (Formatter.fmtd (printer_oracles fx (policy_new oi) numtxt keepc) w (EDo stmts (Cm [] ret None)) i))
  = toks (print_text fx (policy_new oi) numtxt (EDo stmts (Cm [] ret None))).
Proof. intros oi fx numtxt keepc w stmts ret i Hd. exact (do_family oi fx numtxt keepc w Hd stmts ret i). Qed.
Check C07_layout_view_do_block_partial : forall oi fx numtxt keepc w stmts ret i,
  fx_dominus fx = true ->
  plain_items stmts = true ->
  tok_ok (printer_oracles fx (policy_new oi) numtxt keepc) (EDo stmts (Cm [] ret None)) = true ->
  Forall (fun c => child_ok oi fx numtxt keepc w (cnode c)) stmts -> child_ok oi fx numtxt keepc w ret ->
  toks (Formatter.render (Formatter.fmtd (printer_oracles fx (policy_new oi) numtxt keepc) w (EDo stmts (Cm [] ret None)) i))
  = toks (print_text fx (policy_new oi) numtxt (EDo stmts (Cm [] ret None))).
Print Assumptions C07_layout_view_do_block_partial.

(* the hypotheses are satisfiable: a block whose second statement starts with `-` (protected in both
   printers) and whose statements are in the operator / conditional fragment (child_ok from
   C07_layout_view_operators_conditionals_partial) *)
Example C07_example_do_block :
  let O := printer_oracles FX_ALL (policy_new fixed_opinfo) num_text true in
  let s1 := EAssign "t" (EBin Add (EId "a") (EId "b")) in
  let s2 := EBin Subtract (EUn Negate (EId "t")) (EId "c") in
  let r := ECond (EId "ok") (EId "t") (EUn Negate (EId "t")) in
  let e := EDo [Cm [] s1 None; Cm [] s2 None] (Cm [] r None) in
  fx_dominus FX_ALL = true /\ tok_ok O e = true /\ wf e = true /\
  (binfam s1 && binfam s2 && binfam r && lam_ok s1 && lam_ok s2 && lam_ok r)%bool = true /\
  toks (Formatter.render (Formatter.fmtd O 10 e 0)) = toks (print_text FX_ALL (policy_new fixed_opinfo) num_text e) /\
  existsb (String.eqb "(") (toks (Formatter.render (Formatter.fmtd O 10 e 0))) = true.
Proof. vm_compute. repeat split. Qed.

(* The recursive fragment with do-blocks (proofs/FmtToksFlat.v): `flatfam e` — every node a layout function
   recurses into is a binary operator, a conditional, an assignment, a do-block (no comment annotations) or a
   node always printed through expr_to_source (literal, name, prefix / postfix operator, index, field access,
   whatever it contains); no list, record, call or lambda in a laid-out position.  For such trees, at every
   width and indentation, the laid-out text has exactly the chunks of the one-line text, hence the same view.
   PARTIAL with respect to C07_layout_view_full: the list / record / call layouts (trailing comma) and
   format_lambda (`x =>` vs `(x) =>`) differ from the one-line text at the chunk level and need the `canon`
   congruence; nothing else is open at this level. *)
Require Import Blots.proofs.FmtToksFlat.
Theorem C07_layout_view_flat_partial : forall oi fx numtxt keepc w e i,
  fx_dominus fx = true -> flatfam e = true -> lam_ok e = true ->
  tok_ok (printer_oracles fx (policy_new oi) numtxt keepc) e = true ->
  toks (Formatter.render (Formatter.fmtd (printer_oracles fx (policy_new oi) numtxt keepc) w e i))
  = toks (print_text fx (policy_new oi) numtxt e) /\
  lview (Formatter.render (Formatter.fmtd (printer_oracles fx (policy_new oi) numtxt keepc) w e i))
  = lview (print_text fx (policy_new oi) numtxt e).
Proof.
  intros oi fx numtxt keepc w e i Hd Hf Hl Hk.
  pose proof (flatfam_toks oi fx numtxt keepc w Hd e i Hf Hl Hk) as H.
  split; [exact H|]. unfold lview. now rewrite H.
Qed.
Check C07_layout_view_flat_partial : forall oi fx numtxt keepc w e i,
  fx_dominus fx = true -> flatfam e = true -> lam_ok e = true ->
  tok_ok (printer_oracles fx (policy_new oi) numtxt keepc) e = true ->
  toks (Formatter.render (Formatter.fmtd (printer_oracles fx (policy_new oi) numtxt keepc) w e i))
  = toks (print_text fx (policy_new oi) numtxt e) /\
  lview (Formatter.render (Formatter.fmtd (printer_oracles fx (policy_new oi) numtxt keepc) w e i))
  = lview (print_text fx (policy_new oi) numtxt e).
Print Assumptions C07_layout_view_flat_partial.

(* satisfiable, layouts taken: a do-block inside a conditional inside an assignment, second statement
   starting with `-`, width 10 *)
Example C07_example_flat :
  let O := printer_oracles FX_ALL (policy_new fixed_opinfo) num_text true in
  let blk := EDo [Cm [] (EAssign "t" (EBin Add (EId "a") (EId "b"))) None;
                  Cm [] (EBin Subtract (EUn Negate (EId "t")) (EId "c")) None]
                 (Cm [] (ECond (EId "ok") (EId "t") (EUn Negate (EId "t"))) None) in
  let e := EAssign "r" (ECond (EBin Greater (EId "a") (EId "b")) blk (EStr "x // y")) in
  flatfam e = true /\ lam_ok e = true /\ tok_ok O e = true /\ wf e = true /\
  Formatter.contains_nl (Formatter.render (Formatter.fmtd O 10 e 0)) = true.
Proof. vm_compute. repeat split. Qed.

(* The list family at the VIEW level (proofs/FmtToksCanon.v, FmtToksList.v).  `canon` ignores a `,` directly
   before a closer at the end of a chunk list (3-chunk look-ahead; the condition on X is needed: `,,]`). *)
Require Import Blots.proofs.FmtToksCanon Blots.proofs.FmtToksList.
Theorem C07_canon_trailing_comma : forall X c, is_closer c = true -> (X = [] \/ last X "" <> ",") ->
  canon (X ++ [","; c])%list = canon (X ++ [c])%list.
Proof. exact canon_trailing. Qed.
Check C07_canon_trailing_comma : forall X c, is_closer c = true -> (X = [] \/ last X "" <> ",") ->
  canon (X ++ [","; c])%list = canon (X ++ [c])%list.
Print Assumptions C07_canon_trailing_comma.

(* format_list_multiline (a `,` after EVERY element) against expr_to_source (between elements): if every
   element x has `lchild_ok` — tok_ok x, format_single_line's text of x is the one-line text, and at every
   indentation toks (layout of x) = toks (one-line text of x) (true of every element in the fragment of
   C07_layout_view_flat_partial) — and the last chunk of the last element is not `,`, the laid-out list and the
   one-line list have the same view, at every width and indentation, for any printer version.  Family theorem with
   the elements' equalities as hypotheses; elements that are themselves lists / records / calls / lambdas
   (chunk lists equal only up to canon) need the general congruence of canon: open. *)
Theorem C07_layout_view_list_partial : forall fx pol numtxt keepc w items i,
  plain_items items = true ->
  tok_ok (printer_oracles fx pol numtxt keepc) (EList items) = true ->
  Forall (fun c => lchild_ok fx pol numtxt keepc w (cnode c)) items ->
  last ("[" :: joinc (map (Tc fx pol numtxt) items)) "" <> "," ->
  lview (Formatter.render (Formatter.fmtd (printer_oracles fx pol numtxt keepc) w (EList items) i))
  = lview (print_text fx pol numtxt (EList items)).
Proof. exact list_family. Qed.
Check C07_layout_view_list_partial : forall fx pol numtxt keepc w items i,
  plain_items items = true ->
  tok_ok (printer_oracles fx pol numtxt keepc) (EList items) = true ->
  Forall (fun c => lchild_ok fx pol numtxt keepc w (cnode c)) items ->
  last ("[" :: joinc (map (Tc fx pol numtxt) items)) "" <> "," ->
  lview (Formatter.render (Formatter.fmtd (printer_oracles fx pol numtxt keepc) w (EList items) i))
  = lview (print_text fx pol numtxt (EList items)).
Print Assumptions C07_layout_view_list_partial.

(* satisfiable: [a + b, "x, y"] at width 1 (elements from the operator fragment) *)
Example C07_example_list :
  let O := printer_oracles FX_ALL (policy_new fixed_opinfo) num_text true in
  let items := [Cm [] (EBin Add (EId "a") (EId "b")) None; Cm [] (EStr "x, y") None] in
  plain_items items = true /\ tok_ok O (EList items) = true /\
  Forall (fun c => lchild_ok FX_ALL (policy_new fixed_opinfo) num_text true 1 (cnode c)) items /\
  last ("[" :: joinc (map (Tc FX_ALL (policy_new fixed_opinfo) num_text) items)) "" <> "," /\
  Formatter.contains_nl (Formatter.render (Formatter.fmtd O 1 (EList items) 0)) = true /\
  toks (Formatter.render (Formatter.fmtd O 1 (EList items) 0))
  <> toks (print_text FX_ALL (policy_new fixed_opinfo) num_text (EList items)).
Proof.
  cbv zeta. split; [reflexivity|]. split; [vm_compute; reflexivity|]. split.
  - repeat constructor; try (vm_compute; reflexivity);
      intro j; apply binfam_toks; vm_compute; reflexivity.
  - split; [vm_compute; discriminate|]. split; [vm_compute; reflexivity|vm_compute; discriminate].
Qed.

(* The call family (proofs/FmtToksCall.v): format_call_multiline (a `,` after EVERY argument; the grammar admits
   the last one only because a line break follows) against expr_to_source, for a callee and arguments with
   `lchild_ok`, a policy whose callee rule is needs_parens_in_postfix (pC = pP: true of the repaired policy), and
   "the last chunk before the trailing comma is not `,`": same view at every width and indentation. *)
Require Import Blots.proofs.FmtToksCall.
Theorem C07_layout_view_call_partial : forall fx pol numtxt keepc w,
  (forall c, pC pol c = pP pol c) ->
  forall f args i,
  tok_ok (printer_oracles fx pol numtxt keepc) (ECall f args) = true ->
  lchild_ok fx pol numtxt keepc w f -> Forall (lchild_ok fx pol numtxt keepc w) args ->
  last (wrapT (pP pol f) (Te fx pol numtxt f) ++ "(" :: joinc (map (Te fx pol numtxt) args))%list "" <> "," ->
  lview (Formatter.render (Formatter.fmtd (printer_oracles fx pol numtxt keepc) w (ECall f args) i))
  = lview (print_text fx pol numtxt (ECall f args)).
Proof. exact call_family. Qed.
Check C07_layout_view_call_partial : forall fx pol numtxt keepc w,
  (forall c, pC pol c = pP pol c) ->
  forall f args i,
  tok_ok (printer_oracles fx pol numtxt keepc) (ECall f args) = true ->
  lchild_ok fx pol numtxt keepc w f -> Forall (lchild_ok fx pol numtxt keepc w) args ->
  last (wrapT (pP pol f) (Te fx pol numtxt f) ++ "(" :: joinc (map (Te fx pol numtxt) args))%list "" <> "," ->
  lview (Formatter.render (Formatter.fmtd (printer_oracles fx pol numtxt keepc) w (ECall f args) i))
  = lview (print_text fx pol numtxt (ECall f args)).
Print Assumptions C07_layout_view_call_partial.

(* satisfiable: f(a + b, "x, y") at width 1 *)
Example C07_example_call :
  let O := printer_oracles FX_ALL (policy_new fixed_opinfo) num_text true in
  let args := [EBin Add (EId "a") (EId "b"); EStr "x, y"] in
  (forall c, pC (policy_new fixed_opinfo) c = pP (policy_new fixed_opinfo) c) /\
  tok_ok O (ECall (EId "f") args) = true /\
  lchild_ok FX_ALL (policy_new fixed_opinfo) num_text true 1 (EId "f") /\
  Forall (lchild_ok FX_ALL (policy_new fixed_opinfo) num_text true 1) args /\
  Formatter.contains_nl (Formatter.render (Formatter.fmtd O 1 (ECall (EId "f") args) 0)) = true.
Proof.
  cbv zeta. split; [reflexivity|]. split; [vm_compute; reflexivity|]. split.
  - repeat split; try (vm_compute; reflexivity). intro j; apply binfam_toks; vm_compute; reflexivity.
  - split; [|vm_compute; reflexivity].
    repeat constructor; try (vm_compute; reflexivity); intro j; apply binfam_toks; vm_compute; reflexivity.
Qed.
