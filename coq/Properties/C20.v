(* C20 — displayed numbers are well-formed and accurate to 15 significant digits.
   Property theorems only: each is closed by [exact lemma], pinned by [Check], followed by
   [Print Assumptions].  Model: coq/DisplayNum.v (format_display_number and helpers transcribed
   from blots-core/src/values.rs; library calls log10, powi, {:.N}, {:.14e}, parse::<f64> are
   universally quantified oracles).  Grammar and denotation: coq/proofs/DisplayNumSpec.v.
   See notes/C20.md for what is proved, under which hypotheses, and what is refuted. *)
From Coq Require Import ZArith Reals Bool String Ascii List QArith Qabs Qpower Floats.SpecFloat.
From Flocq Require Import Core.Core.
Require Import Blots.Num Blots.Outcome Blots.DisplayNum.
Require Import Blots.proofs.DisplayNumGroup Blots.proofs.DisplayNumSpec Blots.proofs.DisplayNumText
               Blots.proofs.DisplayNumInt Blots.proofs.DisplayNum Blots.proofs.DisplayNumAcc
               Blots.proofs.DisplayNumFloat Blots.proofs.DisplayNumFinite Blots.proofs.DisplayNumAccStd
               Blots.proofs.DisplayNumAccAll Blots.proofs.DisplayNumExec.
From Coq Require Import Qreals.
Import ListNotations.
Open Scope char_scope.
Open Scope Z_scope.

(* ---- the separator loop yields d{1,3}(,ddd)* on every non-empty digit string ---- *)
Theorem C20_group3_wellformed : forall s,
  s <> [] -> forallb is_digit s = true -> wf_grouped_int (group3 s) = true.
Proof. exact group3_wellformed. Qed.
Check C20_group3_wellformed : forall s,
  s <> [] -> forallb is_digit s = true -> wf_grouped_int (group3 s) = true.
Print Assumptions C20_group3_wellformed.

(* ---- removing the separators gives the digits back ---- *)
Theorem C20_ungroup_group3 : forall s, contains "," s = false -> ungroup (group3 s) = s.
Proof. exact ungroup_group3. Qed.
Check C20_ungroup_group3 : forall s, contains "," s = false -> ungroup (group3 s) = s.
Print Assumptions C20_ungroup_group3.

(* ---- trimming trailing zeros (and a bare '.') keeps the shape -?d+(.d+)? and the value ---- *)
Theorem C20_trim_zeros_preserves_value : forall s,
  plain_shape s = true ->
  plain_shape (trim_fraction s) = true /\ (denote_plain (trim_fraction s) == denote_plain s)%Q.
Proof. exact trim_fraction_preserves_value. Qed.
Check C20_trim_zeros_preserves_value : forall s,
  plain_shape s = true ->
  plain_shape (trim_fraction s) = true /\ (denote_plain (trim_fraction s) == denote_plain s)%Q.
Print Assumptions C20_trim_zeros_preserves_value.

(* ---- separator insertion gives a well-formed standard numeral of the same value ---- *)
Theorem C20_separators_preserve_value : forall s,
  plain_shape s = true ->
  wf_numeral (add_thousand_separators s) = true /\
  (denote (add_thousand_separators s) == denote_plain s)%Q.
Proof. exact separators_preserve_value. Qed.
Check C20_separators_preserve_value : forall s,
  plain_shape s = true ->
  wf_numeral (add_thousand_separators s) = true /\
  (denote (add_thousand_separators s) == denote_plain s)%Q.
Print Assumptions C20_separators_preserve_value.

(* ---- NaN, the infinities and the zeros are shown by name, for every oracle ---- *)
Theorem C20_names : forall log10 powi fmt_prec fmt_exp14 parse_f64 fx,
  let fdn := format_display_number log10 powi fmt_prec fmt_exp14 parse_f64 fx in
  fdn S754_nan = Ok (tx "NaN") /\
  fdn (S754_infinity false) = Ok (tx "Infinity") /\
  fdn (S754_infinity true) = Ok (tx "-Infinity") /\
  fdn (S754_zero false) = Ok (tx "0") /\
  fdn (S754_zero true) = Ok (tx "-0").
Proof. exact display_names. Qed.
Check C20_names : forall log10 powi fmt_prec fmt_exp14 parse_f64 fx,
  let fdn := format_display_number log10 powi fmt_prec fmt_exp14 parse_f64 fx in
  fdn S754_nan = Ok (tx "NaN") /\
  fdn (S754_infinity false) = Ok (tx "Infinity") /\
  fdn (S754_infinity true) = Ok (tx "-Infinity") /\
  fdn (S754_zero false) = Ok (tx "0") /\
  fdn (S754_zero true) = Ok (tx "-0").
Print Assumptions C20_names.

(* ---- WELL-FORMEDNESS: for ALL doubles x, both variants of the code (fx), and ALL library
        oracles whose output on finite arguments has the documented digit shape, the display
        text matches the numeral grammar — unless the rounding step itself produced a
        non-finite number from the oracle values (excluded for real powi/log10 by the DISPLAY
        correspondence, not by proof; see notes/C20.md). ---- *)
Theorem C20_wellformed : forall log10 powi fmt_prec fmt_exp14 parse_f64 fx,
  (forall x n, is_finite x = true -> 0 <= n -> prec_shape n (fmt_prec x n) = true) ->
  (forall x, is_finite x = true -> exp_shape (fmt_exp14 x) = true) ->
  (forall s m, mant_shape s = true -> parse_f64 s = Some m -> is_finite m = true) ->
  forall x t,
  format_display_number log10 powi fmt_prec fmt_exp14 parse_f64 fx x = Ok t ->
  wf_numeral t = true \/
  (std_nonint_path x = true /\
   exists r, round_to_significant_figures log10 powi fx x = Ok r /\ is_finite r = false).
Proof. exact display_wellformed. Qed.
Check C20_wellformed : forall log10 powi fmt_prec fmt_exp14 parse_f64 fx,
  (forall x n, is_finite x = true -> 0 <= n -> prec_shape n (fmt_prec x n) = true) ->
  (forall x, is_finite x = true -> exp_shape (fmt_exp14 x) = true) ->
  (forall s m, mant_shape s = true -> parse_f64 s = Some m -> is_finite m = true) ->
  forall x t,
  format_display_number log10 powi fmt_prec fmt_exp14 parse_f64 fx x = Ok t ->
  wf_numeral t = true \/
  (std_nonint_path x = true /\
   exists r, round_to_significant_figures log10 powi fx x = Ok r /\ is_finite r = false).
Print Assumptions C20_wellformed.

(* ---- WELL-FORMEDNESS WITH NO SIDE CONDITION: if moreover the two numeric oracles are coarsely
        sane on the standard path (floor(log10 a) of a double in [0.0001, 1e15) lies in [-5, 15];
        powi(10, j) for -2 <= j <= 21 is a finite non-zero double of magnitude 2^-80 .. 2^80), the
        rounding step (value * scale).round() / scale yields a finite double (Flocq: no overflow),
        so the display text of EVERY valid double matches the numeral grammar.
        RV x is the real number a double denotes (Flocq SF2R). ---- *)
Theorem C20_wellformed_total : forall log10 powi fmt_prec fmt_exp14 parse_f64 fx,
  (forall x n, is_finite x = true -> 0 <= n -> prec_shape n (fmt_prec x n) = true) ->
  (forall x, is_finite x = true -> exp_shape (fmt_exp14 x) = true) ->
  (forall s m, mant_shape s = true -> parse_f64 s = Some m -> is_finite m = true) ->
  (forall a, valid a -> is_finite a = true -> scientific_range a = false ->
             -5 <= as_i32 (nfloor (log10 a)) <= 15) ->
  (forall j, -2 <= j <= 21 ->
     exists s m e, powi c_ten j = S754_finite s m e /\ valid (powi c_ten j) /\
       (bpow radix2 (-80) <= Rabs (RV (powi c_ten j)) <= bpow radix2 80)%R) ->
  forall x t,
  valid_binary 53 1024 x = true ->
  format_display_number log10 powi fmt_prec fmt_exp14 parse_f64 fx x = Ok t ->
  wf_numeral t = true.
Proof. exact display_wellformed_total. Qed.
Check C20_wellformed_total : forall log10 powi fmt_prec fmt_exp14 parse_f64 fx,
  (forall x n, is_finite x = true -> 0 <= n -> prec_shape n (fmt_prec x n) = true) ->
  (forall x, is_finite x = true -> exp_shape (fmt_exp14 x) = true) ->
  (forall s m, mant_shape s = true -> parse_f64 s = Some m -> is_finite m = true) ->
  (forall a, valid a -> is_finite a = true -> scientific_range a = false ->
             -5 <= as_i32 (nfloor (log10 a)) <= 15) ->
  (forall j, -2 <= j <= 21 ->
     exists s m e, powi c_ten j = S754_finite s m e /\ valid (powi c_ten j) /\
       (bpow radix2 (-80) <= Rabs (RV (powi c_ten j)) <= bpow radix2 80)%R) ->
  forall x t,
  valid_binary 53 1024 x = true ->
  format_display_number log10 powi fmt_prec fmt_exp14 parse_f64 fx x = Ok t ->
  wf_numeral t = true.
Print Assumptions C20_wellformed_total.
(* terminates the axiom block for the driver's Print-Assumptions parser (checks/common.py) *)
Print Assumptions C20_names.

(* ---- the model never yields an error value: Ok or (overflow) Panic ---- *)
Theorem C20_ok_or_panic : forall log10 powi fmt_prec fmt_exp14 parse_f64 fx x,
  (exists t, format_display_number log10 powi fmt_prec fmt_exp14 parse_f64 fx x = Ok t) \/
  format_display_number log10 powi fmt_prec fmt_exp14 parse_f64 fx x = Panic.
Proof. exact display_ok_or_panic. Qed.
Check C20_ok_or_panic : forall log10 powi fmt_prec fmt_exp14 parse_f64 fx x,
  (exists t, format_display_number log10 powi fmt_prec fmt_exp14 parse_f64 fx x = Ok t) \/
  format_display_number log10 powi fmt_prec fmt_exp14 parse_f64 fx x = Panic.
Print Assumptions C20_ok_or_panic.

(* ---- no i32/i64 overflow panic for any valid double when floor(log10 a) as i32 is within
        +-2000 (the real function's range on finite doubles is [-324, 308]) ---- *)
Theorem C20_no_panic : forall log10 powi fmt_prec fmt_exp14 parse_f64 fx,
  (forall a, Z.abs (as_i32 (nfloor (log10 a))) <= 2000) ->
  forall x, valid_binary prec emax x = true ->
  exists t, format_display_number log10 powi fmt_prec fmt_exp14 parse_f64 fx x = Ok t.
Proof. exact display_no_panic. Qed.
Check C20_no_panic : forall log10 powi fmt_prec fmt_exp14 parse_f64 fx,
  (forall a, Z.abs (as_i32 (nfloor (log10 a))) <= 2000) ->
  forall x, valid_binary prec emax x = true ->
  exists t, format_display_number log10 powi fmt_prec fmt_exp14 parse_f64 fx x = Ok t.
Print Assumptions C20_no_panic.

(* ---- INTEGERS: every integral double in the standard range (hence below 2^53) is shown
        exactly, as a well-formed grouped numeral; no oracle is consulted ---- *)
Theorem C20_integers_exact : forall log10 powi fmt_prec fmt_exp14 parse_f64 fx s m e,
  let x := S754_finite s m e in
  valid_binary prec emax x = true ->
  scientific_range (nabs x) = false ->
  nfract_is_zero x = true ->
  exists t, format_display_number log10 powi fmt_prec fmt_exp14 parse_f64 fx x = Ok t /\
            wf_numeral t = true /\ (denote t == num_to_Q x)%Q.
Proof. exact display_integers_exact. Qed.
Check C20_integers_exact : forall log10 powi fmt_prec fmt_exp14 parse_f64 fx s m e,
  let x := S754_finite s m e in
  valid_binary prec emax x = true ->
  scientific_range (nabs x) = false ->
  nfract_is_zero x = true ->
  exists t, format_display_number log10 powi fmt_prec fmt_exp14 parse_f64 fx x = Ok t /\
            wf_numeral t = true /\ (denote t == num_to_Q x)%Q.
Print Assumptions C20_integers_exact.

(* ---- POST-PROCESSING IS VALUE-EXACT, standard notation: the text denotes exactly the
        decimal that format!("{:.dp$}", rounded) printed ---- *)
Theorem C20_post_processing_exact_standard : forall log10 powi fmt_prec fmt_exp14 parse_f64 fx,
  (forall x n, is_finite x = true -> 0 <= n -> prec_shape n (fmt_prec x n) = true) ->
  forall x t,
  std_nonint_path x = true ->
  format_display_number log10 powi fmt_prec fmt_exp14 parse_f64 fx x = Ok t ->
  exists r dp, round_to_significant_figures log10 powi fx x = Ok r /\
    decimal_places_of log10 powi fx r = Ok dp /\ 0 <= dp /\
    (is_finite r = true ->
     wf_numeral t = true /\ (denote t == denote_plain (fmt_prec r dp))%Q).
Proof. exact display_standard_value. Qed.
Check C20_post_processing_exact_standard : forall log10 powi fmt_prec fmt_exp14 parse_f64 fx,
  (forall x n, is_finite x = true -> 0 <= n -> prec_shape n (fmt_prec x n) = true) ->
  forall x t,
  std_nonint_path x = true ->
  format_display_number log10 powi fmt_prec fmt_exp14 parse_f64 fx x = Ok t ->
  exists r dp, round_to_significant_figures log10 powi fx x = Ok r /\
    decimal_places_of log10 powi fx r = Ok dp /\ 0 <= dp /\
    (is_finite r = true ->
     wf_numeral t = true /\ (denote t == denote_plain (fmt_prec r dp))%Q).
Print Assumptions C20_post_processing_exact_standard.

(* ---- POST-PROCESSING IS VALUE-EXACT, scientific notation: the text denotes exactly
        (what {:.14} printed for the re-parsed mantissa) * 10^(re-parsed exponent) ---- *)
Theorem C20_post_processing_exact_scientific : forall log10 powi fmt_prec fmt_exp14 parse_f64 fx,
  (forall x n, is_finite x = true -> 0 <= n -> prec_shape n (fmt_prec x n) = true) ->
  (forall x, is_finite x = true -> exp_shape (fmt_exp14 x) = true) ->
  (forall s m, mant_shape s = true -> parse_f64 s = Some m -> is_finite m = true) ->
  forall x,
  is_finite x = true -> neqb x nzero = false -> scientific_range (nabs x) = true ->
  exists ms es t,
    split_once "e" (fmt_exp14 x) = Some (ms, es) /\
    format_display_number log10 powi fmt_prec fmt_exp14 parse_f64 fx x = Ok t /\
    wf_numeral t = true /\
    (denote t == denote_plain (fmt_prec (sci_mantissa parse_f64 x ms) 14%Z) *
                 Qpower (10 # 1) (sci_exponent es))%Q.
Proof. exact display_scientific_value. Qed.
Check C20_post_processing_exact_scientific : forall log10 powi fmt_prec fmt_exp14 parse_f64 fx,
  (forall x n, is_finite x = true -> 0 <= n -> prec_shape n (fmt_prec x n) = true) ->
  (forall x, is_finite x = true -> exp_shape (fmt_exp14 x) = true) ->
  (forall s m, mant_shape s = true -> parse_f64 s = Some m -> is_finite m = true) ->
  forall x,
  is_finite x = true -> neqb x nzero = false -> scientific_range (nabs x) = true ->
  exists ms es t,
    split_once "e" (fmt_exp14 x) = Some (ms, es) /\
    format_display_number log10 powi fmt_prec fmt_exp14 parse_f64 fx x = Ok t /\
    wf_numeral t = true /\
    (denote t == denote_plain (fmt_prec (sci_mantissa parse_f64 x ms) 14%Z) *
                 Qpower (10 # 1) (sci_exponent es))%Q.
Print Assumptions C20_post_processing_exact_scientific.

(* ====================================================================================
   The oracle hypotheses are satisfiable (a trivial library), and hold for the executable
   library models at sample points (the ORACLE streams test them against Rust std).
   ==================================================================================== *)
Example C20_hyp_prec_satisfiable : forall x n,
  is_finite x = true -> 0 <= n -> prec_shape n (toy_prec x n) = true.
Proof. exact toy_prec_shape. Qed.
Example C20_hyp_exp_satisfiable : forall x, is_finite x = true -> exp_shape (toy_exp x) = true.
Proof. exact toy_exp_shape. Qed.
Example C20_hyp_parse_satisfiable : forall s m,
  mant_shape s = true -> toy_parse s = Some m -> is_finite m = true.
Proof. exact toy_parse_finite. Qed.
(* the executable models at sample points: 1234.5, -0.000123..., 1e21 *)
Example C20_hyp_exec_samples :
  prec_shape 11 (fmt_prec_exec (num_of_bits 0x40934a0000000000) 11) = true /\
  prec_shape 0 (fmt_prec_exec (num_of_bits 0x42d6bcc41e900000) 0) = true /\
  exp_shape (fmt_exp14_exec (num_of_bits 0xbf202e85be180b74)) = true /\
  exp_shape (fmt_exp14_exec (num_of_bits 0x444b1ae4d6e2ef50)) = true /\
  mant_shape (tx "-1.23400000000000") = true.
Proof. vm_compute. repeat split. Qed.
(* hypotheses of C20_integers_exact: 1234567 *)
Example C20_hyp_integer_sample :
  let x := num_of_bits 0x4132d68700000000 in
  valid_binary prec emax x = true /\ scientific_range (nabs x) = false /\ nfract_is_zero x = true /\
  display_exec false [] x = Ok (tx "1,234,567").
Proof. vm_compute. repeat split. Qed.

(* ====================================================================================
   ACCURACY to 15 significant digits: first relative to specifications of the library calls
   (the three ranges, then C20_accuracy), then for the executable library models (C20_accuracy_exec).
   ==================================================================================== *)
(* in_decade x k :  10^k <= |x| < 10^(k+1)   (proofs/DisplayNumAcc.v) *)
(* f64::log10 is off by less than one: floor(log10 a) is the decimal exponent or one more *)
Definition log10_sane (log10 : num -> num) : Prop :=
  forall a k, valid_binary prec emax a = true -> in_decade a k ->
              k <= as_i32 (nfloor (log10 a)) <= k + 1.
(* the text is within one unit of the 15th significant digit of x *)
Definition accurate15 (x : num) (t : text) : Prop :=
  forall k, in_decade x k -> (Qabs (denote t - num_to_Q x) < Qpower (10 # 1) (k - 14)%Z)%Q.

(* The statement of the accuracy clause for fx = true (the code of /repo, with the correction step
   of decimal_exponent: fixes/C20-decimal-exponent.diff = /repo 60da55e) and the executable library
   models.  Proved below as C20_accuracy_full_holds (= C20_accuracy_exec): first with the library
   models replaced by any oracles meeting explicit specifications (C20_accuracy_partial_integers /
   _scientific / _standard cover every finite non-zero double; C20_accuracy combines them), then
   the executable models are proved to meet those specifications.  What stays a hypothesis is
   log10_sane; that Rust's std behaves like the models is tested by the ORACLE streams.  On the
   implementation the clause is decided by the exact-rational search of checks/c20.py. *)
Definition C20_accuracy_full : Prop :=
  forall log10, log10_sane log10 ->
  forall x t, valid_binary prec emax x = true -> is_finite x = true -> neqb x nzero = false ->
    format_display_number log10 powi_exec fmt_prec_exec fmt_exp14_exec parse_f64_exec true x = Ok t ->
    accurate15 x t.

(* The accuracy clause on integers in the standard range: error 0 *)
Theorem C20_accuracy_partial_integers : forall log10 powi fmt_prec fmt_exp14 parse_f64 fx s m e,
  let x := S754_finite s m e in
  valid_binary prec emax x = true ->
  scientific_range (nabs x) = false ->
  nfract_is_zero x = true ->
  exists t, format_display_number log10 powi fmt_prec fmt_exp14 parse_f64 fx x = Ok t /\
            (Qabs (denote t - num_to_Q x) == 0)%Q.
Proof. exact display_integers_error_zero. Qed.
Check C20_accuracy_partial_integers : forall log10 powi fmt_prec fmt_exp14 parse_f64 fx s m e,
  let x := S754_finite s m e in
  valid_binary prec emax x = true ->
  scientific_range (nabs x) = false ->
  nfract_is_zero x = true ->
  exists t, format_display_number log10 powi fmt_prec fmt_exp14 parse_f64 fx x = Ok t /\
            (Qabs (denote t - num_to_Q x) == 0)%Q.
Print Assumptions C20_accuracy_partial_integers.

(* The accuracy clause on the SCIENTIFIC range (|x| < 0.0001 or |x| >= 1e15, i.e.
   all but 64 of the 2046 binades).  If {:.14e} is x correctly rounded to 15 significant digits
   (HE), parse::<f64> of the 15-digit mantissa is within 2e-15 (HP) and {:.14} prints the nearest
   multiple of 10^-14 (HF), then the display is within HALF a unit of the 15th significant digit
   of x: re-parsing and re-printing the mantissa gives back the same 15 digits. *)
Theorem C20_accuracy_partial_scientific : forall log10 powi fmt_prec fmt_exp14 parse_f64 fx,
  (forall x k, is_finite x = true -> in_decade x k ->
    exists ms es kk, split_once "e" (fmt_exp14 x) = Some (ms, es) /\ mant14_shape ms = true /\
      parse_i32 es = Some kk /\
      (Qabs (denote_plain ms * Qpower (10 # 1) kk - num_to_Q x) <= (1 # 2) * Qpower (10 # 1) (k - 14)%Z)%Q) ->
  (forall s, mant14_shape s = true ->
    exists m, parse_f64 s = Some m /\ is_finite m = true /\
      (Qabs (num_to_Q m - denote_plain s) <= 2 # 1000000000000000)%Q) ->
  (forall m, is_finite m = true ->
    prec_shape 14 (fmt_prec m 14) = true /\
    (Qabs (denote_plain (fmt_prec m 14%Z) - num_to_Q m) <= 1 # 200000000000000)%Q) ->
  forall x k,
  is_finite x = true -> neqb x nzero = false -> scientific_range (nabs x) = true ->
  in_decade x k ->
  exists t, format_display_number log10 powi fmt_prec fmt_exp14 parse_f64 fx x = Ok t /\
    (Qabs (denote t - num_to_Q x) <= (1 # 2) * Qpower (10 # 1) (k - 14)%Z)%Q /\
    (Qabs (denote t - num_to_Q x) < Qpower (10 # 1) (k - 14)%Z)%Q.
Proof. exact display_scientific_accurate. Qed.
Check C20_accuracy_partial_scientific : forall log10 powi fmt_prec fmt_exp14 parse_f64 fx,
  (forall x k, is_finite x = true -> in_decade x k ->
    exists ms es kk, split_once "e" (fmt_exp14 x) = Some (ms, es) /\ mant14_shape ms = true /\
      parse_i32 es = Some kk /\
      (Qabs (denote_plain ms * Qpower (10 # 1) kk - num_to_Q x) <= (1 # 2) * Qpower (10 # 1) (k - 14)%Z)%Q) ->
  (forall s, mant14_shape s = true ->
    exists m, parse_f64 s = Some m /\ is_finite m = true /\
      (Qabs (num_to_Q m - denote_plain s) <= 2 # 1000000000000000)%Q) ->
  (forall m, is_finite m = true ->
    prec_shape 14 (fmt_prec m 14) = true /\
    (Qabs (denote_plain (fmt_prec m 14%Z) - num_to_Q m) <= 1 # 200000000000000)%Q) ->
  forall x k,
  is_finite x = true -> neqb x nzero = false -> scientific_range (nabs x) = true ->
  in_decade x k ->
  exists t, format_display_number log10 powi fmt_prec fmt_exp14 parse_f64 fx x = Ok t /\
    (Qabs (denote t - num_to_Q x) <= (1 # 2) * Qpower (10 # 1) (k - 14)%Z)%Q /\
    (Qabs (denote t - num_to_Q x) < Qpower (10 # 1) (k - 14)%Z)%Q.
Print Assumptions C20_accuracy_partial_scientific.
(* the three hypotheses hold for the executable library models at a sample point, x = 1.5e-7:
   {:.14e} gives 1.50000000000000e-7 (error 0 at this point is not required; bound checked) *)
Example C20_hyp_sci_sample :
  let x := num_of_bits 0x3e8421f5f40d8376 in
  let m := match parse_f64_exec (tx "1.50000000000000") with Some m => m | None => S754_nan end in
  split_once "e" (fmt_exp14_exec x) = Some (tx "1.50000000000000", tx "-7") /\
  mant14_shape (tx "1.50000000000000") = true /\ parse_i32 (tx "-7") = Some (-7) /\
  Qle_bool (Qabs (denote_plain (tx "1.50000000000000") * Qpower (10 # 1) (-7) - num_to_Q x))
           ((1 # 2) * Qpower (10 # 1) (-7 - 14)) = true /\
  is_finite m = true /\
  Qle_bool (Qabs (num_to_Q m - denote_plain (tx "1.50000000000000"))) (2 # 1000000000000000) = true /\
  prec_shape 14 (fmt_prec_exec m 14) = true /\
  Qle_bool (Qabs (denote_plain (fmt_prec_exec m 14) - num_to_Q m)) (1 # 200000000000000) = true.
Proof. vm_compute. repeat split. Qed.

(* The accuracy clause on the STANDARD range, non-integers (0.0001 <= |x| < 1e15),
   for fx = true (the code of /repo, 60da55e).  Real-valued specifications of the oracles
   (p10 k = 10^k, RV = the real a double denotes, rnd64 = round-to-nearest-even to binary64):
     - f64::log10 is off by less than one: floor(log10 a) is the decimal exponent or one more;
     - powi(10, j) is exact for 0 <= j <= 22 and, for -4 <= j <= -1, the correctly rounded 10^j
       which is not below 10^j (true of the four doubles 0.1, 0.01, 0.001, 0.0001);
     - {:.dp$} has the documented shape and prints the nearest multiple of 10^-dp (dp <= 18).
   Then the text is within 5/8 of a unit of the 15th significant digit of x (< 1 unit).
   Proof (proofs/DisplayNumAccStd.v, Flocq): decimal_exponent with its correction step is exact; value*scale
   errs by < 1/8, .round() by <= 1/2, so n = the 15-digit integer is within 5/8; n < 2^53 is a
   double exactly; n/scale is within 2^-53 relative of the decimal n * 10^(K-14); its decade and
   hence the number of decimal places are right (also in the carry case n = 10^15); the printed
   decimal and n * 10^(K-14) lie on the same grid less than one step apart, hence are equal. *)
Theorem C20_accuracy_partial_standard : forall log10 powi fmt_prec fmt_exp14 parse_f64,
  (forall a K, valid a -> is_finite a = true -> (p10 K <= RV a < p10 (K + 1))%R ->
               K <= as_i32 (nfloor (log10 a)) <= K + 1) ->
  (forall j, 0 <= j <= 22 ->
     valid (powi c_ten j) /\ (exists s m e, powi c_ten j = S754_finite s m e) /\
     RV (powi c_ten j) = p10 j) ->
  (forall j, -4 <= j <= -1 ->
     valid (powi c_ten j) /\ (exists s m e, powi c_ten j = S754_finite s m e) /\
     RV (powi c_ten j) = rnd64 (p10 j) /\ (p10 j <= RV (powi c_ten j))%R) ->
  (forall x n, is_finite x = true -> 0 <= n -> prec_shape n (fmt_prec x n) = true) ->
  (forall m dp, is_finite m = true -> 0 <= dp <= 18 ->
     (Rabs (Q2R (denote_plain (fmt_prec m dp)) - RV m) <= / 2 * p10 (- dp))%R) ->
  forall x K t,
  valid x -> std_nonint_path x = true ->
  (p10 K <= Rabs (RV x) < p10 (K + 1))%R ->
  format_display_number log10 powi fmt_prec fmt_exp14 parse_f64 true x = Ok t ->
  (Rabs (Q2R (denote t) - RV x) <= 5 / 8 * p10 (K - 14))%R /\
  (Rabs (Q2R (denote t) - RV x) < p10 (K - 14))%R.
Proof. exact display_standard_accurate'. Qed.
Check C20_accuracy_partial_standard : forall log10 powi fmt_prec fmt_exp14 parse_f64,
  (forall a K, valid a -> is_finite a = true -> (p10 K <= RV a < p10 (K + 1))%R ->
               K <= as_i32 (nfloor (log10 a)) <= K + 1) ->
  (forall j, 0 <= j <= 22 ->
     valid (powi c_ten j) /\ (exists s m e, powi c_ten j = S754_finite s m e) /\
     RV (powi c_ten j) = p10 j) ->
  (forall j, -4 <= j <= -1 ->
     valid (powi c_ten j) /\ (exists s m e, powi c_ten j = S754_finite s m e) /\
     RV (powi c_ten j) = rnd64 (p10 j) /\ (p10 j <= RV (powi c_ten j))%R) ->
  (forall x n, is_finite x = true -> 0 <= n -> prec_shape n (fmt_prec x n) = true) ->
  (forall m dp, is_finite m = true -> 0 <= dp <= 18 ->
     (Rabs (Q2R (denote_plain (fmt_prec m dp)) - RV m) <= / 2 * p10 (- dp))%R) ->
  forall x K t,
  valid x -> std_nonint_path x = true ->
  (p10 K <= Rabs (RV x) < p10 (K + 1))%R ->
  format_display_number log10 powi fmt_prec fmt_exp14 parse_f64 true x = Ok t ->
  (Rabs (Q2R (denote t) - RV x) <= 5 / 8 * p10 (K - 14))%R /\
  (Rabs (Q2R (denote t) - RV x) < p10 (K - 14))%R.
Print Assumptions C20_accuracy_partial_standard.
(* terminates the axiom block for the driver's Print-Assumptions parser *)
Print Assumptions C20_names.
(* the powi hypotheses hold for the executable powi model (exact rational comparison), and the
   {:.dp$} accuracy hypothesis at a sample point (1234.5678 with 11 places) *)
Example C20_hyp_std_sample :
  forallb (fun j => Qeq_bool (num_to_Q (powi_exec c_ten j)) (inject_Z (10 ^ j)))
          [0;1;2;3;4;5;6;7;8;9;10;11;12;13;14;15;16;17;18;19;20;21;22] = true /\
  forallb (fun j => Qle_bool (Qpower (10 # 1) j) (num_to_Q (powi_exec c_ten j))) [-4;-3;-2;-1] = true /\
  (let m := num_of_bits 0x40934a456d5cfaad in
   Qle_bool (Qabs (denote_plain (fmt_prec_exec m 11) - num_to_Q m)) ((1 # 2) * Qpower (10 # 1) (-11)) = true).
Proof. vm_compute. repeat split. Qed.

(* ---- THE ACCURACY CLAUSE AS ONE THEOREM: for EVERY valid finite non-zero double x with
        10^K <= |x| < 10^(K+1), the text displayed for fx = true (the code of /repo) denotes a number
        less than one unit of the 15th significant digit (10^(K-14)) away from x — relative to the
        listed specifications of the library calls (core::fmt, parse::<f64>, log10, powi), which
        are hypotheses, not proved facts about Rust's std/libm (they are exercised by the ORACLE
        streams).  Combines the three theorems above, one per range. ---- *)
Theorem C20_accuracy : forall log10 powi fmt_prec fmt_exp14 parse_f64,
  (* {:.14e} is x correctly rounded to 15 significant digits *)
  (forall x k, is_finite x = true -> in_decade x k ->
    exists ms es kk, split_once "e" (fmt_exp14 x) = Some (ms, es) /\ mant14_shape ms = true /\
      parse_i32 es = Some kk /\
      (Qabs (denote_plain ms * Qpower (10 # 1) kk - num_to_Q x) <= (1 # 2) * Qpower (10 # 1) (k - 14)%Z)%Q) ->
  (* parse::<f64> of a 15-digit mantissa is within 2e-15 *)
  (forall s, mant14_shape s = true ->
    exists m, parse_f64 s = Some m /\ is_finite m = true /\
      (Qabs (num_to_Q m - denote_plain s) <= 2 # 1000000000000000)%Q) ->
  (* floor(log10 a) is the decimal exponent or one more *)
  (forall a K, valid a -> is_finite a = true -> (p10 K <= RV a < p10 (K + 1))%R ->
               K <= as_i32 (nfloor (log10 a)) <= K + 1) ->
  (* powi(10, j): exact for 0..22; correctly rounded and not below 10^j for -4..-1 *)
  (forall j, 0 <= j <= 22 ->
     valid (powi c_ten j) /\ (exists s m e, powi c_ten j = S754_finite s m e) /\
     RV (powi c_ten j) = p10 j) ->
  (forall j, -4 <= j <= -1 ->
     valid (powi c_ten j) /\ (exists s m e, powi c_ten j = S754_finite s m e) /\
     RV (powi c_ten j) = rnd64 (p10 j) /\ (p10 j <= RV (powi c_ten j))%R) ->
  (* {:.N$}: documented shape; nearest multiple of 10^-N for N <= 18 *)
  (forall x n, is_finite x = true -> 0 <= n -> prec_shape n (fmt_prec x n) = true) ->
  (forall m dp, is_finite m = true -> 0 <= dp <= 18 ->
     (Rabs (Q2R (denote_plain (fmt_prec m dp)) - RV m) <= / 2 * p10 (- dp))%R) ->
  forall x K t,
  valid x -> is_finite x = true -> neqb x nzero = false ->
  (p10 K <= Rabs (RV x) < p10 (K + 1))%R ->
  format_display_number log10 powi fmt_prec fmt_exp14 parse_f64 true x = Ok t ->
  (Rabs (Q2R (denote t) - RV x) < p10 (K - 14))%R.
Proof.
  intros log10 powi fmt_prec fmt_exp14 parse_f64 HE. apply display_accurate.
  intros x k _. apply HE.
Qed.
Check C20_accuracy : forall log10 powi fmt_prec fmt_exp14 parse_f64,
  (* {:.14e} is x correctly rounded to 15 significant digits *)
  (forall x k, is_finite x = true -> in_decade x k ->
    exists ms es kk, split_once "e" (fmt_exp14 x) = Some (ms, es) /\ mant14_shape ms = true /\
      parse_i32 es = Some kk /\
      (Qabs (denote_plain ms * Qpower (10 # 1) kk - num_to_Q x) <= (1 # 2) * Qpower (10 # 1) (k - 14)%Z)%Q) ->
  (* parse::<f64> of a 15-digit mantissa is within 2e-15 *)
  (forall s, mant14_shape s = true ->
    exists m, parse_f64 s = Some m /\ is_finite m = true /\
      (Qabs (num_to_Q m - denote_plain s) <= 2 # 1000000000000000)%Q) ->
  (* floor(log10 a) is the decimal exponent or one more *)
  (forall a K, valid a -> is_finite a = true -> (p10 K <= RV a < p10 (K + 1))%R ->
               K <= as_i32 (nfloor (log10 a)) <= K + 1) ->
  (* powi(10, j): exact for 0..22; correctly rounded and not below 10^j for -4..-1 *)
  (forall j, 0 <= j <= 22 ->
     valid (powi c_ten j) /\ (exists s m e, powi c_ten j = S754_finite s m e) /\
     RV (powi c_ten j) = p10 j) ->
  (forall j, -4 <= j <= -1 ->
     valid (powi c_ten j) /\ (exists s m e, powi c_ten j = S754_finite s m e) /\
     RV (powi c_ten j) = rnd64 (p10 j) /\ (p10 j <= RV (powi c_ten j))%R) ->
  (* {:.N$}: documented shape; nearest multiple of 10^-N for N <= 18 *)
  (forall x n, is_finite x = true -> 0 <= n -> prec_shape n (fmt_prec x n) = true) ->
  (forall m dp, is_finite m = true -> 0 <= dp <= 18 ->
     (Rabs (Q2R (denote_plain (fmt_prec m dp)) - RV m) <= / 2 * p10 (- dp))%R) ->
  forall x K t,
  valid x -> is_finite x = true -> neqb x nzero = false ->
  (p10 K <= Rabs (RV x) < p10 (K + 1))%R ->
  format_display_number log10 powi fmt_prec fmt_exp14 parse_f64 true x = Ok t ->
  (Rabs (Q2R (denote t) - RV x) < p10 (K - 14))%R.
Print Assumptions C20_accuracy.
(* terminates the axiom block for the driver's Print-Assumptions parser *)
Print Assumptions C20_names.

(* ---- the powi hypotheses of C20_accuracy hold for the executable powi model (compiler-builtins
        __powidf2 over SFmul/SFdiv), which the ORACLE-powi stream compares with Rust's f64::powi
        on 10^-30 .. 10^30 and random bases on every run ---- *)
Theorem C20_powi_model_exact : forall j, 0 <= j <= 22 ->
  valid (powi_exec c_ten j) /\ (exists s m e, powi_exec c_ten j = S754_finite s m e) /\
  RV (powi_exec c_ten j) = p10 j.
Proof. exact powi_exec_exact. Qed.
Check C20_powi_model_exact : forall j, 0 <= j <= 22 ->
  valid (powi_exec c_ten j) /\ (exists s m e, powi_exec c_ten j = S754_finite s m e) /\
  RV (powi_exec c_ten j) = p10 j.
Print Assumptions C20_powi_model_exact.
Print Assumptions C20_names.
Theorem C20_powi_model_negative : forall j, -4 <= j <= -1 ->
  valid (powi_exec c_ten j) /\ (exists s m e, powi_exec c_ten j = S754_finite s m e) /\
  RV (powi_exec c_ten j) = rnd64 (p10 j) /\ (p10 j <= RV (powi_exec c_ten j))%R.
Proof. exact powi_exec_neg. Qed.
Check C20_powi_model_negative : forall j, -4 <= j <= -1 ->
  valid (powi_exec c_ten j) /\ (exists s m e, powi_exec c_ten j = S754_finite s m e) /\
  RV (powi_exec c_ten j) = rnd64 (p10 j) /\ (p10 j <= RV (powi_exec c_ten j))%R.
Print Assumptions C20_powi_model_negative.
Print Assumptions C20_names.

(* ====================================================================================
   THE EXECUTABLE LIBRARY MODELS of coq/DisplayNum.v (the ones the DISPLAY correspondence runs
   against the Rust code) are PROVED to satisfy the specifications that C20_accuracy and
   C20_wellformed_total assume of core::fmt / dec2flt / powi, one theorem per specification
   (proofs/DisplayNumDischarge1, 2, 6.v, DisplayNumExec.v; Discharge8: the parse model is C16's
   reference).  With them C20_accuracy_full is a
   theorem (C20_accuracy_exec, Discharge4), and so are well-formedness and the absence of panics
   for the executable model (Discharge6, 7); the only remaining hypothesis is log10_sane on
   libm's log10, which an exact floor-log10 model meets (Discharge5).
   ==================================================================================== *)
Require Import Blots.proofs.DisplayNumDischarge1 Blots.proofs.DisplayNumDischarge2
               Blots.proofs.DisplayNumDischarge4 Blots.proofs.DisplayNumDischarge5
               Blots.proofs.DisplayNumDischarge6 Blots.proofs.DisplayNumDischarge7.
(* the imported proof files open R_scope; restore the scopes of this file *)
Open Scope char_scope.
Open Scope Z_scope.

(* ---- {:.N$}: the model has the documented shape -?d+(.d{N})? for every finite x, every N >= 0 ---- *)
Theorem C20_fmt_prec_model_shape : forall x n,
  is_finite x = true -> 0 <= n -> prec_shape n (fmt_prec_exec x n) = true.
Proof. exact fmt_prec_exec_shape. Qed.
Check C20_fmt_prec_model_shape : forall x n,
  is_finite x = true -> 0 <= n -> prec_shape n (fmt_prec_exec x n) = true.
Print Assumptions C20_fmt_prec_model_shape.

(* ---- {:.N$}: the model prints the integer round_half_even(|x| * 10^N) (prec_q, exact Z arithmetic
        on the binary expansion m * 2^e) over 10^N, with the sign of x: an exact rational identity ---- *)
Theorem C20_fmt_prec_model_value : forall x n, is_finite x = true -> 0 <= n ->
  denote_plain (fmt_prec_exec x n) = Qmake (cond_Zopp (nsign x) (prec_q x n)) (Z.to_pos (10 ^ n)).
Proof. exact fmt_prec_exec_value. Qed.
Check C20_fmt_prec_model_value : forall x n, is_finite x = true -> 0 <= n ->
  denote_plain (fmt_prec_exec x n) = Qmake (cond_Zopp (nsign x) (prec_q x n)) (Z.to_pos (10 ^ n)).
Print Assumptions C20_fmt_prec_model_value.

(* ---- {:.N$}: ties go to the even digit (round-half-to-even, as core::fmt's exact mode does): when
        |x| * 10^N is exactly halfway between two integers the even one is printed ---- *)
Theorem C20_fmt_prec_model_half_even : forall s m e n N D, 0 <= n -> mag_frac m e = (N, D) ->
  2 * ((N * 10 ^ n) mod D) = D -> Z.even (prec_q (S754_finite s m e) n) = true.
Proof. exact fmt_prec_exec_half_even. Qed.
Check C20_fmt_prec_model_half_even : forall s m e n N D, 0 <= n -> mag_frac m e = (N, D) ->
  2 * ((N * 10 ^ n) mod D) = D -> Z.even (prec_q (S754_finite s m e) n) = true.
Print Assumptions C20_fmt_prec_model_half_even.
(* e.g. {:.0} of 2.5 is "2" and {:.1} of 0.25 is "0.2" in the model *)
Example C20_half_even_samples :
  fmt_prec_exec (num_of_bits 0x4004000000000000) 0 = tx "2" /\
  fmt_prec_exec (num_of_bits 0x3fd0000000000000) 1 = tx "0.2" /\
  fmt_prec_exec (num_of_bits 0x3fd8000000000000) 2 = tx "0.38".
Proof. vm_compute. repeat split. Qed.

(* ---- {:.N$}: hence the printed decimal is a nearest multiple of 10^-N of x — for EVERY N >= 0
        (C20_accuracy needs N <= 18 only) ---- *)
Theorem C20_fmt_prec_model_accurate : forall m dp, is_finite m = true -> 0 <= dp ->
  (Rabs (Q2R (denote_plain (fmt_prec_exec m dp)) - RV m) <= / 2 * p10 (- dp))%R.
Proof. exact fmt_prec_exec_accurate. Qed.
Check C20_fmt_prec_model_accurate : forall m dp, is_finite m = true -> 0 <= dp ->
  (Rabs (Q2R (denote_plain (fmt_prec_exec m dp)) - RV m) <= / 2 * p10 (- dp))%R.
Print Assumptions C20_fmt_prec_model_accurate.
Print Assumptions C20_names.

(* ---- the decimal exponent the {:.14e} model computes (bit-length estimate * 1233/4096, corrected by
        at most 8 unit steps) IS floor(log10 |x|) for every VALID double (the estimate is checked
        exhaustively over the 2110 bit-length differences binary64 allows; fuel 8 is not enough for
        arbitrary (m, e) pairs, which is why validity is assumed) ---- *)
Theorem C20_e10_model_exact : forall s m e N D,
  valid (S754_finite s m e) -> mag_frac m e = (N, D) ->
  (p10 (e10_frac N D) <= IZR N / IZR D < p10 (e10_frac N D + 1))%R /\ -340 <= e10_frac N D <= 320.
Proof. exact e10_frac_spec. Qed.
Check C20_e10_model_exact : forall s m e N D,
  valid (S754_finite s m e) -> mag_frac m e = (N, D) ->
  (p10 (e10_frac N D) <= IZR N / IZR D < p10 (e10_frac N D + 1))%R /\ -340 <= e10_frac N D <= 320.
Print Assumptions C20_e10_model_exact.
Print Assumptions C20_names.

(* ---- {:.14e}: for every valid finite double in a decade the model prints  -?d.d{14}e<k>  whose
        exponent parse::<i32> reads back and whose value is x correctly rounded to 15 significant
        digits (error <= 1/2 unit of the 15th digit; carry 9.99..95 -> 1.00..0e(k+1) included):
        the first hypothesis of C20_accuracy, for valid x ---- *)
Theorem C20_fmt_exp14_model_correct : forall x k,
  valid x -> is_finite x = true -> in_decade x k ->
  exists ms es kk, split_once "e" (fmt_exp14_exec x) = Some (ms, es) /\ mant14_shape ms = true /\
    parse_i32 es = Some kk /\
    (Qabs (denote_plain ms * Qpower (10 # 1) kk - num_to_Q x) <= (1 # 2) * Qpower (10 # 1) (k - 14)%Z)%Q.
Proof. exact fmt_exp14_exec_correct. Qed.
Check C20_fmt_exp14_model_correct : forall x k,
  valid x -> is_finite x = true -> in_decade x k ->
  exists ms es kk, split_once "e" (fmt_exp14_exec x) = Some (ms, es) /\ mant14_shape ms = true /\
    parse_i32 es = Some kk /\
    (Qabs (denote_plain ms * Qpower (10 # 1) kk - num_to_Q x) <= (1 # 2) * Qpower (10 # 1) (k - 14)%Z)%Q.
Print Assumptions C20_fmt_exp14_model_correct.
Print Assumptions C20_names.

(* ---- parse::<f64>: the model's rn_ratio s N D is the IEEE round-to-nearest-even double of N/D
        (Flocq: Fdiv_core_correct + binary_round_aux_correct'), finite unless the rounding overflows ---- *)
Theorem C20_parse_model_nearest : forall s N D, 0 < N -> 0 < D ->
  let v := (IZR N / IZR D)%R in
  valid (rn_ratio s N D) /\
  ((Rabs (rnd64 v) < bpow radix2 1024)%R ->
   RV (rn_ratio s N D) = cond_Ropp s (rnd64 v) /\ is_finite (rn_ratio s N D) = true).
Proof. exact rn_ratio_correct. Qed.
Check C20_parse_model_nearest : forall s N D, 0 < N -> 0 < D ->
  let v := (IZR N / IZR D)%R in
  valid (rn_ratio s N D) /\
  ((Rabs (rnd64 v) < bpow radix2 1024)%R ->
   RV (rn_ratio s N D) = cond_Ropp s (rnd64 v) /\ is_finite (rn_ratio s N D) = true).
Print Assumptions C20_parse_model_nearest.
Print Assumptions C20_names.

(* ---- parse::<f64> of a 15-digit mantissa text is within 2e-15 of it: the second hypothesis of
        C20_accuracy ---- *)
Theorem C20_parse_model_close : forall t, mant14_shape t = true ->
  exists m, parse_f64_exec t = Some m /\ is_finite m = true /\
    (Qabs (num_to_Q m - denote_plain t) <= 2 # 1000000000000000)%Q.
Proof. exact parse_f64_exec_close. Qed.
Check C20_parse_model_close : forall t, mant14_shape t = true ->
  exists m, parse_f64_exec t = Some m /\ is_finite m = true /\
    (Qabs (num_to_Q m - denote_plain t) <= 2 # 1000000000000000)%Q.
Print Assumptions C20_parse_model_close.
Print Assumptions C20_names.

(* ---- two models of str::parse::<f64> agree: on every mantissa text -?d.d+ the display model's parser
        returns exactly C16's reference value rn_decimal (NumText.v; proved to be IEEE nearest-even in
        C16_rn_decimal_correct and compared with Rust's from_str by the C16 NUMTEXT stream) ---- *)
Require Blots.NumText Blots.proofs.DisplayNumDischarge8.
Theorem C20_parse_model_is_C16_reference : forall neg d fp,
  is_digit d = true -> all_digits fp = true ->
  parse_f64_exec (mk_plain neg [d] (Some fp)) =
  Some (NumText.rn_decimal neg (digits_value (d :: fp)) (- Z.of_nat (length fp))).
Proof. exact DisplayNumDischarge8.parse_f64_exec_is_rn_decimal. Qed.
Check C20_parse_model_is_C16_reference : forall neg d fp,
  is_digit d = true -> all_digits fp = true ->
  parse_f64_exec (mk_plain neg [d] (Some fp)) =
  Some (NumText.rn_decimal neg (digits_value (d :: fp)) (- Z.of_nat (length fp))).
Print Assumptions C20_parse_model_is_C16_reference.
Print Assumptions C20_names.

(* ---- the remaining hypotheses of C20_wellformed_total, for the executable models: {:.14e} has the
        documented shape -?d.d+e-?d+ on every valid finite double (zeros included) ---- *)
Theorem C20_fmt_exp14_model_shape : forall x,
  valid x -> is_finite x = true -> exp_shape (fmt_exp14_exec x) = true.
Proof. exact fmt_exp14_exec_shape. Qed.
Check C20_fmt_exp14_model_shape : forall x,
  valid x -> is_finite x = true -> exp_shape (fmt_exp14_exec x) = true.
Print Assumptions C20_fmt_exp14_model_shape.
Print Assumptions C20_names.

(* ---- parse::<f64> of a mantissa text -?d.d+ (any number of fraction digits) is a finite double ---- *)
Theorem C20_parse_model_finite : forall s m,
  mant_shape s = true -> parse_f64_exec s = Some m -> is_finite m = true.
Proof. exact parse_f64_exec_finite. Qed.
Check C20_parse_model_finite : forall s m,
  mant_shape s = true -> parse_f64_exec s = Some m -> is_finite m = true.
Print Assumptions C20_parse_model_finite.
Print Assumptions C20_names.

(* ---- powi(10, j), -2 <= j <= 21, is a finite non-zero double of magnitude 2^-80 .. 2^80 ---- *)
Theorem C20_powi_model_bounds : forall j, -2 <= j <= 21 ->
  exists s m e, powi_exec c_ten j = S754_finite s m e /\ valid (powi_exec c_ten j) /\
    (bpow radix2 (-80) <= Rabs (RV (powi_exec c_ten j)) <= bpow radix2 80)%R.
Proof. exact powi_exec_std_bounds. Qed.
Check C20_powi_model_bounds : forall j, -2 <= j <= 21 ->
  exists s m e, powi_exec c_ten j = S754_finite s m e /\ valid (powi_exec c_ten j) /\
    (bpow radix2 (-80) <= Rabs (RV (powi_exec c_ten j)) <= bpow radix2 80)%R.
Print Assumptions C20_powi_model_bounds.
Print Assumptions C20_names.

(* ---- WELL-FORMEDNESS FOR THE EXECUTABLE MODEL: every valid double (NaN, infinities, zeros, subnormals
        included), both variants of the code, is displayed as a well-formed numeral by
        format_display_number running on the executable library models.  Only hypothesis: log10_sane. ---- *)
Theorem C20_wellformed_exec : forall log10 fx, log10_sane log10 ->
  forall x t, valid_binary 53 1024 x = true ->
  format_display_number log10 powi_exec fmt_prec_exec fmt_exp14_exec parse_f64_exec fx x = Ok t ->
  wf_numeral t = true.
Proof. exact display_wellformed_exec. Qed.
Check C20_wellformed_exec : forall log10 fx, log10_sane log10 ->
  forall x t, valid_binary 53 1024 x = true ->
  format_display_number log10 powi_exec fmt_prec_exec fmt_exp14_exec parse_f64_exec fx x = Ok t ->
  wf_numeral t = true.
Print Assumptions C20_wellformed_exec.
Print Assumptions C20_names.

(* ---- THE ACCURACY CLAUSE FOR THE EXECUTABLE MODEL (= C20_accuracy_full): for every valid finite
        non-zero double the text produced by format_display_number running on the executable library
        models is less than one unit of the 15th significant digit away from x.  Only hypothesis:
        log10_sane (libm's log10 is off by less than one at the floor). ---- *)
Theorem C20_accuracy_exec : forall log10, log10_sane log10 ->
  forall x t, valid_binary prec emax x = true -> is_finite x = true -> neqb x nzero = false ->
    format_display_number log10 powi_exec fmt_prec_exec fmt_exp14_exec parse_f64_exec true x = Ok t ->
    accurate15 x t.
Proof. exact display_accurate_exec. Qed.
Check C20_accuracy_exec : forall log10, log10_sane log10 ->
  forall x t, valid_binary prec emax x = true -> is_finite x = true -> neqb x nzero = false ->
    format_display_number log10 powi_exec fmt_prec_exec fmt_exp14_exec parse_f64_exec true x = Ok t ->
    accurate15 x t.
Print Assumptions C20_accuracy_exec.
Print Assumptions C20_names.
Lemma C20_accuracy_full_holds : C20_accuracy_full.
Proof. exact display_accurate_exec. Qed.

(* ---- NO PANIC FOR THE EXECUTABLE MODEL: for fx = true (the code of /repo) a text is returned for every valid
        double under log10_sane alone (C20_no_panic needs a bound on floor(log10 a) for EVERY a; here the
        two arguments log10 is actually called on are shown to be valid non-zero doubles of known decade) ---- *)
Theorem C20_total_exec : forall log10, log10_sane log10 ->
  forall x, valid_binary prec emax x = true ->
  exists t, format_display_number log10 powi_exec fmt_prec_exec fmt_exp14_exec parse_f64_exec true x = Ok t.
Proof. exact display_total_exec. Qed.
Check C20_total_exec : forall log10, log10_sane log10 ->
  forall x, valid_binary prec emax x = true ->
  exists t, format_display_number log10 powi_exec fmt_prec_exec fmt_exp14_exec parse_f64_exec true x = Ok t.
Print Assumptions C20_total_exec.
Print Assumptions C20_names.

(* ---- SUMMARY for the executable model, fx = true: under log10_sane EVERY valid double is displayed
        (no panic), as a well-formed numeral, which for finite non-zero x is less than one unit of the 15th
        significant digit away from x ---- *)
Theorem C20_exec_complete : forall log10, log10_sane log10 ->
  forall x, valid_binary prec emax x = true ->
  exists t,
    format_display_number log10 powi_exec fmt_prec_exec fmt_exp14_exec parse_f64_exec true x = Ok t /\
    wf_numeral t = true /\
    (is_finite x = true -> neqb x nzero = false -> accurate15 x t).
Proof. exact display_exec_complete. Qed.
Check C20_exec_complete : forall log10, log10_sane log10 ->
  forall x, valid_binary prec emax x = true ->
  exists t,
    format_display_number log10 powi_exec fmt_prec_exec fmt_exp14_exec parse_f64_exec true x = Ok t /\
    wf_numeral t = true /\
    (is_finite x = true -> neqb x nzero = false -> accurate15 x t).
Print Assumptions C20_exec_complete.
Print Assumptions C20_names.

(* ---- THE HYPOTHESIS ON libm, AS THE REAL FUNCTION SATISFIES IT.  log10_sane (above) asks
        floor(log10 a) to be right for negative a too, but f64::log10 returns NaN on negative arguments, so the real
        function does NOT satisfy it (C20_log10_sane_too_strong).  format_display_number only ever applies log10 to
        absolute values, and every *_exec theorem holds under the weaker log10_sane_pos (sign bit clear), which is
        what the LOG10SANE stream evaluates on the real f64::log10.  The theorems above are corollaries. ---- *)
Definition log10_sane_pos (log10 : num -> num) : Prop :=
  forall a k, valid_binary prec emax a = true -> nsign a = false -> in_decade a k ->
              k <= as_i32 (nfloor (log10 a)) <= k + 1.
Lemma C20_log10_sane_implies_pos : forall log10, log10_sane log10 -> log10_sane_pos log10.
Proof. intros log10 H a k V _ D. exact (H a k V D). Qed.
Example C20_log10_sane_too_strong : forall log10,
  log10 (num_of_bits 0xc07f400000000000) = S754_nan ->       (* log10(-500.0) = NaN *)
  ~ log10_sane log10.
Proof.
  intros log10 Hn HS.
  assert (D : in_decade (num_of_bits 0xc07f400000000000) 2).
  { split; [apply Qle_bool_iff|apply Qlt_alt]; vm_compute; reflexivity. }
  assert (V : valid_binary prec emax (num_of_bits 0xc07f400000000000) = true) by (vm_compute; reflexivity).
  specialize (HS _ 2 V D). rewrite Hn in HS. cbn in HS. destruct HS as [H1 _]. apply H1. reflexivity.
Qed.

Theorem C20_accuracy_exec_pos : forall log10, log10_sane_pos log10 ->
  forall x t, valid_binary prec emax x = true -> is_finite x = true -> neqb x nzero = false ->
    format_display_number log10 powi_exec fmt_prec_exec fmt_exp14_exec parse_f64_exec true x = Ok t ->
    accurate15 x t.
Proof. exact display_accurate_exec_pos. Qed.
Check C20_accuracy_exec_pos : forall log10, log10_sane_pos log10 ->
  forall x t, valid_binary prec emax x = true -> is_finite x = true -> neqb x nzero = false ->
    format_display_number log10 powi_exec fmt_prec_exec fmt_exp14_exec parse_f64_exec true x = Ok t ->
    accurate15 x t.
Print Assumptions C20_accuracy_exec_pos.
Print Assumptions C20_names.

Theorem C20_wellformed_exec_pos : forall log10 fx, log10_sane_pos log10 ->
  forall x t, valid_binary 53 1024 x = true ->
  format_display_number log10 powi_exec fmt_prec_exec fmt_exp14_exec parse_f64_exec fx x = Ok t ->
  wf_numeral t = true.
Proof. exact display_wellformed_exec_pos. Qed.
Check C20_wellformed_exec_pos : forall log10 fx, log10_sane_pos log10 ->
  forall x t, valid_binary 53 1024 x = true ->
  format_display_number log10 powi_exec fmt_prec_exec fmt_exp14_exec parse_f64_exec fx x = Ok t ->
  wf_numeral t = true.
Print Assumptions C20_wellformed_exec_pos.
Print Assumptions C20_names.

(* the summary theorem under the hypothesis the real libm meets: total, well-formed, accurate *)
Theorem C20_exec_complete_pos : forall log10, log10_sane_pos log10 ->
  forall x, valid_binary prec emax x = true ->
  exists t,
    format_display_number log10 powi_exec fmt_prec_exec fmt_exp14_exec parse_f64_exec true x = Ok t /\
    wf_numeral t = true /\
    (is_finite x = true -> neqb x nzero = false -> accurate15 x t).
Proof. exact display_exec_complete_pos. Qed.
Check C20_exec_complete_pos : forall log10, log10_sane_pos log10 ->
  forall x, valid_binary prec emax x = true ->
  exists t,
    format_display_number log10 powi_exec fmt_prec_exec fmt_exp14_exec parse_f64_exec true x = Ok t /\
    wf_numeral t = true /\
    (is_finite x = true -> neqb x nzero = false -> accurate15 x t).
Print Assumptions C20_exec_complete_pos.
Print Assumptions C20_names.

(* ---- log10_sane is satisfiable: a log10 returning floor(log10 a) exactly, as a double ---- *)
Example C20_hyp_log10_satisfiable : log10_sane log10_floor_model.
Proof. exact log10_floor_model_sane. Qed.

(* ---- ... and with that exact log10 NO hypothesis is left: the display algorithm of values.rs, run on
        exact models of every library call it makes, is accurate to 15 significant digits for every
        valid finite non-zero double ---- *)
Theorem C20_accuracy_exact_library : forall x t,
  valid_binary prec emax x = true -> is_finite x = true -> neqb x nzero = false ->
  format_display_number log10_floor_model powi_exec fmt_prec_exec fmt_exp14_exec parse_f64_exec true x = Ok t ->
  accurate15 x t.
Proof. exact display_accurate_exact_log10. Qed.
Check C20_accuracy_exact_library : forall x t,
  valid_binary prec emax x = true -> is_finite x = true -> neqb x nzero = false ->
  format_display_number log10_floor_model powi_exec fmt_prec_exec fmt_exp14_exec parse_f64_exec true x = Ok t ->
  accurate15 x t.
Print Assumptions C20_accuracy_exact_library.
Print Assumptions C20_names.

(* REFUTED for fx = false (the code before /repo commit 60da55e), finding C20-F1:
   x = 999999999999998.875 (bits 430c6bf52633fff7).  f64::log10 returns 15.0 both on x and on
   the rounded value 1e15 (these two table entries are re-validated against the real function
   by the check on every run; 15.0 is also the correctly rounded value of log10 x, so no
   better libm helps).  The display is "1,000,000,000,000,000": 1.125 away from x, while one
   unit of the 15th significant digit of x is 1. *)
Definition C20_F1_witness : num := num_of_bits 0x430c6bf52633fff7.
Definition C20_F1_log10_table : list (Z * Z) :=
  [(0x430c6bf52633fff7, 0x402e000000000000); (0x430c6bf526340000, 0x402e000000000000)].
Lemma C20_F1_before_repair :
  display_exec false C20_F1_log10_table C20_F1_witness = Ok (tx "1,000,000,000,000,000") /\
  Qle_bool (Qpower (10 # 1) 14) (Qabs (num_to_Q C20_F1_witness)) = true /\
  Qle_bool (Qpower (10 # 1) 15) (Qabs (num_to_Q C20_F1_witness)) = false /\
  Qle_bool (Qpower (10 # 1) (14 - 14))
           (Qabs (denote (tx "1,000,000,000,000,000") - num_to_Q C20_F1_witness)) = true.
Proof. vm_compute. repeat split. Qed.
(* for fx = true (decimal_exponent with its correction step, /repo since 60da55e) the same input,
   same log10 values, displays within 0.125 *)
Lemma C20_F1_repaired :
  display_exec true C20_F1_log10_table C20_F1_witness = Ok (tx "999,999,999,999,999") /\
  Qle_bool (Qpower (10 # 1) (14 - 14))
           (Qabs (denote (tx "999,999,999,999,999") - num_to_Q C20_F1_witness)) = false.
Proof. vm_compute. repeat split. Qed.
