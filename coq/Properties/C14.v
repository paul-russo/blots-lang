(* C14 — indexing, spreading and the list / string / record built-ins satisfy their laws.
   The property theorems: each is pinned by [Check] and followed by [Print Assumptions]; nearly all are closed
   by [exact lemma], the examples that show the hypotheses satisfiable by computation.  The model objects are the transcriptions in Access.v and
   BuiltinsList.v, tied to the code by the C14 correspondence streams (checks/c14.py).
   GENERATED by tools_c14/gen_props.py (so that the statement and its pin cannot drift apart). *)
From Coq Require Import String Ascii List ZArith Bool Permutation Sorted Lia Floats.SpecFloat.
Require Import Blots.Num Blots.gen.Builtins Blots.Ast Blots.Value Blots.Outcome Blots.Access
  Blots.BuiltinsList Blots.proofs.ValueInd Blots.proofs.Order Blots.proofs.ListLaws Blots.proofs.SortLaws
  Blots.proofs.ListLaws2 Blots.proofs.StringLaws Blots.proofs.RecordLaws Blots.proofs.AccessLaws.
Import ListNotations.
Open Scope list_scope.

(* sort of a list always returns, and returns a permutation of its input (every list, every length;
   the model is the repo's own merge sort, f7e0465) *)
Theorem C14_sort_perm : forall l, exists l', bi_sort [VList l] = Ok (VList l') /\ Permutation l l'.
Proof. exact sort_perm. Qed.
Check C14_sort_perm : forall l, exists l', bi_sort [VList l] = Ok (VList l') /\ Permutation l l'.
Print Assumptions C14_sort_perm.

(* sort never panics and never leaves the model, whatever its argument is *)
Theorem C14_sort_never_panics : forall v, bi_sort [v] = Err \/ exists l', bi_sort [v] = Ok (VList l').
Proof. exact sort_never_panics. Qed.
Check C14_sort_never_panics : forall v, bi_sort [v] = Err \/ exists l', bi_sort [v] = Ok (VList l').
Print Assumptions C14_sort_never_panics.

(* mutually comparable elements come out in non-decreasing order *)
Theorem C14_sort_sorted : forall l, mutually_comparable l = true ->
  exists l', bi_sort [VList l] = Ok (VList l') /\ StronglySorted (fun a b => ulte a b = true) l'.
Proof. exact sort_sorted. Qed.
Check C14_sort_sorted : forall l, mutually_comparable l = true ->
  exists l', bi_sort [VList l] = Ok (VList l') /\ StronglySorted (fun a b => ulte a b = true) l'.
Print Assumptions C14_sort_sorted.

(* and elements that compare equal keep their input order *)
Theorem C14_sort_stable : forall l, mutually_comparable l = true ->
  exists l', bi_sort [VList l] = Ok (VList l') /\
             forall k, In k l -> filter (same_class k) l' = filter (same_class k) l.
Proof. exact sort_stable. Qed.
Check C14_sort_stable : forall l, mutually_comparable l = true ->
  exists l', bi_sort [VList l] = Ok (VList l') /\
             forall k, In k l -> filter (same_class k) l' = filter (same_class k) l.
Print Assumptions C14_sort_stable.

(* on mutually comparable input the result is the one any stable sorting algorithm gives:
   a sorted, stable rearrangement of l is the model's answer *)
Theorem C14_sort_any_stable_sort : forall l l', mutually_comparable l = true -> Permutation l l' ->
  StronglySorted (fun a b => value_less b a = false) l' ->
  (forall k, In k l -> filter (equiv value_less k) l' = filter (equiv value_less k) l) ->
  bi_sort [VList l] = Ok (VList l').
Proof. exact sort_any_stable_sort. Qed.
Check C14_sort_any_stable_sort : forall l l', mutually_comparable l = true -> Permutation l l' ->
  StronglySorted (fun a b => value_less b a = false) l' ->
  (forall k, In k l -> filter (equiv value_less k) l' = filter (equiv value_less k) l) ->
  bi_sort [VList l] = Ok (VList l').
Print Assumptions C14_sort_any_stable_sort.

(* sort_by returns a permutation, for every callback whatsoever *)
Theorem C14_sort_by_perm : forall St (call : value -> value -> list value -> St -> outcome value * St) func l st r st',
  bi_sort_by St call [VList l; func] st = (Ok r, st') -> exists l', r = VList l' /\ Permutation l l'.
Proof. exact sort_by_perm. Qed.
Check C14_sort_by_perm : forall St (call : value -> value -> list value -> St -> outcome value * St) func l st r st',
  bi_sort_by St call [VList l; func] st = (Ok r, st') -> exists l', r = VList l' /\ Permutation l l'.
Print Assumptions C14_sort_by_perm.

(* for a callback that is a function of its argument sort_by IS the merge sort by key (every list, no
   comparability needed: never a panic, never Unmodelled) *)
Theorem C14_sort_by_key : forall St (call : value -> value -> list value -> St -> outcome value * St) func key,
  is_function func = true -> (forall x st, fst (call func func [x] st) = Ok (key x)) ->
  forall l st, fst (bi_sort_by St call [VList l; func] st) =
               Ok (VList (merge_sort (fun a b => value_less (key a) (key b)) l)).
Proof. exact sort_by_key. Qed.
Check C14_sort_by_key : forall St (call : value -> value -> list value -> St -> outcome value * St) func key,
  is_function func = true -> (forall x st, fst (call func func [x] st) = Ok (key x)) ->
  forall l st, fst (bi_sort_by St call [VList l; func] st) =
               Ok (VList (merge_sort (fun a b => value_less (key a) (key b)) l)).
Print Assumptions C14_sort_by_key.

(* for a callback that is a function of its argument, with mutually comparable keys: ordered by key *)
Theorem C14_sort_by_sorted : forall St (call : value -> value -> list value -> St -> outcome value * St) func key,
  is_function func = true -> (forall x st, fst (call func func [x] st) = Ok (key x)) ->
  forall l st, mutually_comparable (map key l) = true ->
  exists l', fst (bi_sort_by St call [VList l; func] st) = Ok (VList l') /\
             StronglySorted (fun a b => ulte (key a) (key b) = true) l'.
Proof. exact sort_by_sorted. Qed.
Check C14_sort_by_sorted : forall St (call : value -> value -> list value -> St -> outcome value * St) func key,
  is_function func = true -> (forall x st, fst (call func func [x] st) = Ok (key x)) ->
  forall l st, mutually_comparable (map key l) = true ->
  exists l', fst (bi_sort_by St call [VList l; func] st) = Ok (VList l') /\
             StronglySorted (fun a b => ulte (key a) (key b) = true) l'.
Print Assumptions C14_sort_by_sorted.

(* ... and stable *)
Theorem C14_sort_by_stable : forall St (call : value -> value -> list value -> St -> outcome value * St) func key,
  is_function func = true -> (forall x st, fst (call func func [x] st) = Ok (key x)) ->
  forall l st, mutually_comparable (map key l) = true ->
  exists l', fst (bi_sort_by St call [VList l; func] st) = Ok (VList l') /\
             forall k, In k l ->
               filter (fun x => same_class (key k) (key x)) l' = filter (fun x => same_class (key k) (key x)) l.
Proof. exact sort_by_stable. Qed.
Check C14_sort_by_stable : forall St (call : value -> value -> list value -> St -> outcome value * St) func key,
  is_function func = true -> (forall x st, fst (call func func [x] st) = Ok (key x)) ->
  forall l st, mutually_comparable (map key l) = true ->
  exists l', fst (bi_sort_by St call [VList l; func] st) = Ok (VList l') /\
             forall k, In k l ->
               filter (fun x => same_class (key k) (key x)) l' = filter (fun x => same_class (key k) (key x)) l.
Print Assumptions C14_sort_by_stable.

(* unique keeps an element iff no earlier element of the input is .== to it *)
Theorem C14_unique_first_of_class : forall l, forallb data l = true -> bi_unique [VList l] = Ok (VList (firsts [] l)).
Proof. exact unique_first_of_class. Qed.
Check C14_unique_first_of_class : forall l, forallb data l = true -> bi_unique [VList l] = Ok (VList (firsts [] l)).
Print Assumptions C14_unique_first_of_class.

(* every element has its representative in the result *)
Theorem C14_unique_covers : forall l x, forallb data l = true -> In x l -> exists y, In y (firsts [] l) /\ equals x y = true.
Proof. exact firsts_covers. Qed.
Check C14_unique_covers : forall l x, forallb data l = true -> In x l -> exists y, In y (firsts [] l) /\ equals x y = true.
Print Assumptions C14_unique_covers.

(* and no two results are .== *)
Theorem C14_unique_distinct : forall l, forallb data l = true -> ForallOrdPairs (fun a b => equals a b = false) (firsts [] l).
Proof. exact firsts_distinct. Qed.
Check C14_unique_distinct : forall l, forallb data l = true -> ForallOrdPairs (fun a b => equals a b = false) (firsts [] l).
Print Assumptions C14_unique_distinct.

(* reverse is an involution *)
Theorem C14_reverse_involutive : forall l r, bi_reverse [VList l] = Ok r -> bi_reverse [r] = Ok (VList l).
Proof. exact reverse_involutive. Qed.
Check C14_reverse_involutive : forall l r, bi_reverse [VList l] = Ok r -> bi_reverse [r] = Ok (VList l).
Print Assumptions C14_reverse_involutive.

(* concat is list append *)
Theorem C14_concat_app : forall a b, bi_concat [VList a; VList b] = Ok (VList (a ++ b)).
Proof. exact concat_app. Qed.
Check C14_concat_app : forall a b, bi_concat [VList a; VList b] = Ok (VList (a ++ b)).
Print Assumptions C14_concat_app.

(* for any number of lists *)
Theorem C14_concat_lists : forall ls, bi_concat (map VList ls) = Ok (VList (List.concat ls)).
Proof. exact concat_lists. Qed.
Check C14_concat_lists : forall ls, bi_concat (map VList ls) = Ok (VList (List.concat ls)).
Print Assumptions C14_concat_lists.

(* flatten(chunk(l, n)) == l whenever chunk succeeds *)
Theorem C14_flatten_chunk : forall l x c, bi_chunk [VList l; VNum x] = Ok c -> bi_flatten [c] = Ok (VList l).
Proof. exact flatten_chunk. Qed.
Check C14_flatten_chunk : forall l x c, bi_chunk [VList l; VNum x] = Ok c -> bi_flatten [c] = Ok (VList l).
Print Assumptions C14_flatten_chunk.

(* every chunk has n elements except the last (1..n); n is the size after the `as usize` cast *)
Theorem C14_chunk_lengths : forall l x c, bi_chunk [VList l; VNum x] = Ok c ->
  exists cs n, c = VList (map VList cs) /\ (1 <= n)%nat /\
    Z.of_nat n = Z.min (as_usize x) (Z.max 1 (Z.of_nat (length l))) /\
    chunk_shape n cs /\ List.concat cs = l.
Proof. exact chunk_lengths. Qed.
Check C14_chunk_lengths : forall l x c, bi_chunk [VList l; VNum x] = Ok c ->
  exists cs n, c = VList (map VList cs) /\ (1 <= n)%nat /\
    Z.of_nat n = Z.min (as_usize x) (Z.max 1 (Z.of_nat (length l))) /\
    chunk_shape n cs /\ List.concat cs = l.
Print Assumptions C14_chunk_lengths.

(* zip: length is the maximum length, missing elements are null *)
Theorem C14_zip_spec : forall ls, exists rows, bi_zip (map VList ls) = Ok (VList rows) /\
    length rows = fold_left (fun m l => Nat.max m (length l)) ls 0%nat /\
    forall i, (i < length rows)%nat -> nth_error rows i = Some (VList (map (fun l => nth i l VNull) ls)).
Proof. exact zip_spec. Qed.
Check C14_zip_spec : forall ls, exists rows, bi_zip (map VList ls) = Ok (VList rows) /\
    length rows = fold_left (fun m l => Nat.max m (length l)) ls 0%nat /\
    forall i, (i < length rows)%nat -> nth_error rows i = Some (VList (map (fun l => nth i l VNull) ls)).
Print Assumptions C14_zip_spec.

Theorem C14_zip_max_len : forall ls, let m := fold_left (fun m l => Nat.max m (length l)) ls 0%nat in
  (forall l : list value, In l ls -> (length l <= m)%nat) /\ (ls <> [] -> exists l, In l ls /\ length l = m).
Proof. exact zip_max_len. Qed.
Check C14_zip_max_len : forall ls, let m := fold_left (fun m l => Nat.max m (length l)) ls 0%nat in
  (forall l : list value, In l ls -> (length l <= m)%nat) /\ (ls <> [] -> exists l, In l ls /\ length l = m).
Print Assumptions C14_zip_max_len.

(* slice(l, a, b) is the elements a..b-1 (a, b as truncated by the cast) *)
Theorem C14_slice_spec : forall l x y a b, as_usize x = Z.of_nat a -> as_usize y = Z.of_nat b -> (a <= b)%nat -> (b <= length l)%nat ->
  bi_slice [VList l; VNum x; VNum y] = Ok (VList (firstn (b - a) (skipn a l))).
Proof. exact slice_spec. Qed.
Check C14_slice_spec : forall l x y a b, as_usize x = Z.of_nat a -> as_usize y = Z.of_nat b -> (a <= b)%nat -> (b <= length l)%nat ->
  bi_slice [VList l; VNum x; VNum y] = Ok (VList (firstn (b - a) (skipn a l))).
Print Assumptions C14_slice_spec.

(* and the three pieces rebuild the list *)
Theorem C14_slice_rebuild : forall (l : list value) a b, (a <= b)%nat -> (b <= length l)%nat ->
  firstn a l ++ firstn (b - a) (skipn a l) ++ skipn b l = l.
Proof. exact (@slice_rebuild value). Qed.
Check C14_slice_rebuild : forall (l : list value) a b, (a <= b)%nat -> (b <= length l)%nat ->
  firstn a l ++ firstn (b - a) (skipn a l) ++ skipn b l = l.
Print Assumptions C14_slice_rebuild.

(* head and tail rebuild a non-empty list *)
Theorem C14_head_tail_rebuild : forall x l, bi_head [VList (x :: l)] = Ok x /\ bi_tail [VList (x :: l)] = Ok (VList l).
Proof. exact head_tail_rebuild_list. Qed.
Check C14_head_tail_rebuild : forall x l, bi_head [VList (x :: l)] = Ok x /\ bi_tail [VList (x :: l)] = Ok (VList l).
Print Assumptions C14_head_tail_rebuild.

(* range(a, b) lists the integers a..b-1 (a, b truncated; within the u32 cap) *)
Theorem C14_range_spec : forall x y a b, is_finite x = true -> is_finite y = true -> ngtb x y = false ->
  as_i64 x = a -> as_i64 y = b -> (a <= b)%Z -> (b - a <= U32_MAX)%Z ->
  bi_range [VNum x; VNum y] = Ok (VList (map (fun e => VNum (num_of_Z e)) (zrange a (Z.to_nat (b - a))))).
Proof. exact range_spec. Qed.
Check C14_range_spec : forall x y a b, is_finite x = true -> is_finite y = true -> ngtb x y = false ->
  as_i64 x = a -> as_i64 y = b -> (a <= b)%Z -> (b - a <= U32_MAX)%Z ->
  bi_range [VNum x; VNum y] = Ok (VList (map (fun e => VNum (num_of_Z e)) (zrange a (Z.to_nat (b - a))))).
Print Assumptions C14_range_spec.

Theorem C14_zrange_nth : forall s n i, (i < n)%nat -> nth_error (zrange s n) i = Some (s + Z.of_nat i)%Z.
Proof. exact zrange_nth. Qed.
Check C14_zrange_nth : forall s n i, (i < n)%nat -> nth_error (zrange s n) i = Some (s + Z.of_nat i)%Z.
Print Assumptions C14_zrange_nth.

Theorem C14_zrange_length : forall s n, length (zrange s n) = n.
Proof. exact zrange_length. Qed.
Check C14_zrange_length : forall s n, length (zrange s n) = n.
Print Assumptions C14_zrange_length.

(* range never panics (was C14-range-overflow, fixed by fb5b104) *)
Theorem C14_range_no_panic : forall args, bi_range args <> Panic.
Proof. exact range_no_panic. Qed.
Check C14_range_no_panic : forall args, bi_range args <> Panic.
Print Assumptions C14_range_no_panic.

(* bounds further apart than the u32 cap (including a saturated difference) are an error *)
Theorem C14_range_too_long : forall x y, is_finite x = true -> is_finite y = true -> ngtb x y = false ->
  (U32_MAX < as_i64 y - as_i64 x)%Z -> bi_range [VNum x; VNum y] = Err.
Proof. exact range_too_long. Qed.
Check C14_range_too_long : forall x y, is_finite x = true -> is_finite y = true -> ngtb x y = false ->
  (U32_MAX < as_i64 y - as_i64 x)%Z -> bi_range [VNum x; VNum y] = Err.
Print Assumptions C14_range_too_long.

(* keys / values / entries agree with each other and with both forms of field access *)
Theorem C14_keys_values_entries_access : forall r i k v, NoDup (map fst r) -> nth_error r i = Some (k, v) ->
  (exists ks vs es,
     bi_keys [VRec r] = Ok (VList ks) /\ bi_values [VRec r] = Ok (VList vs) /\ bi_entries [VRec r] = Ok (VList es) /\
     length ks = length r /\ length vs = length r /\ length es = length r /\
     nth_error ks i = Some (VStr k) /\ nth_error vs i = Some v /\ nth_error es i = Some (VList [VStr k; v])) /\
  access_value (VRec r) (VStr k) = Ok v /\ dot_access (VRec r) k = Ok v.
Proof. exact keys_values_entries_access. Qed.
Check C14_keys_values_entries_access : forall r i k v, NoDup (map fst r) -> nth_error r i = Some (k, v) ->
  (exists ks vs es,
     bi_keys [VRec r] = Ok (VList ks) /\ bi_values [VRec r] = Ok (VList vs) /\ bi_entries [VRec r] = Ok (VList es) /\
     length ks = length r /\ length vs = length r /\ length es = length r /\
     nth_error ks i = Some (VStr k) /\ nth_error vs i = Some v /\ nth_error es i = Some (VList [VStr k; v])) /\
  access_value (VRec r) (VStr k) = Ok v /\ dot_access (VRec r) k = Ok v.
Print Assumptions C14_keys_values_entries_access.

(* field access yields null for absent keys *)
Theorem C14_field_absent_null : forall r k, rec_get r k = None -> dot_access (VRec r) k = Ok VNull /\ access_value (VRec r) (VStr k) = Ok VNull.
Proof. exact field_absent_null. Qed.
Check C14_field_absent_null : forall r k, rec_get r k = None -> dot_access (VRec r) k = Ok VNull /\ access_value (VRec r) (VStr k) = Ok VNull.
Print Assumptions C14_field_absent_null.

(* group_by: keys in first-occurrence order, each group the stable sub-list of the items with that key *)
Theorem C14_group_by_partition : forall St (call : value -> value -> list value -> St -> outcome value * St) func l st r st',
  bi_group_by St call [VList l; func] st = (Ok r, st') ->
  exists keyed, map snd keyed = l /\
    r = VRec (map (fun k => (k, VList (items_with k keyed))) (first_keys [] (map fst keyed))).
Proof. exact group_by_partition. Qed.
Check C14_group_by_partition : forall St (call : value -> value -> list value -> St -> outcome value * St) func l st r st',
  bi_group_by St call [VList l; func] st = (Ok r, st') ->
  exists keyed, map snd keyed = l /\
    r = VRec (map (fun k => (k, VList (items_with k keyed))) (first_keys [] (map fst keyed))).
Print Assumptions C14_group_by_partition.

(* count_by: the same keys, each count = the group size (as that many additions of 1.0) *)
Theorem C14_count_by_counts : forall St (call : value -> value -> list value -> St -> outcome value * St) func l st r st',
  bi_count_by St call [VList l; func] st = (Ok r, st') ->
  exists keyed, map snd keyed = l /\
    r = VRec (map (fun k => (k, VNum (count_num (length (items_with k keyed))))) (first_keys [] (map fst keyed))).
Proof. exact count_by_counts. Qed.
Check C14_count_by_counts : forall St (call : value -> value -> list value -> St -> outcome value * St) func l st r st',
  bi_count_by St call [VList l; func] st = (Ok r, st') ->
  exists keyed, map snd keyed = l /\
    r = VRec (map (fun k => (k, VNum (count_num (length (items_with k keyed))))) (first_keys [] (map fst keyed))).
Print Assumptions C14_count_by_counts.

(* the recorded keys are the callback's answers *)
Theorem C14_keyed_items_keys : forall St (call : value -> value -> list value -> St -> outcome value * St) func l st keyed st' (key : value -> string),
  (forall x s, fst (call func func [x] s) = Ok (VStr (key x))) ->
  keyed_items St call func l st = (Ok keyed, st') -> keyed = map (fun x => (key x, x)) l.
Proof. exact keyed_items_keys. Qed.
Check C14_keyed_items_keys : forall St (call : value -> value -> list value -> St -> outcome value * St) func l st keyed st' (key : value -> string),
  (forall x s, fst (call func func [x] s) = Ok (VStr (key x))) ->
  keyed_items St call func l st = (Ok keyed, st') -> keyed = map (fun x => (key x, x)) l.
Print Assumptions C14_keyed_items_keys.

(* the groups partition the list *)
Theorem C14_partition_perm : forall keyed, Permutation (concat (map (fun k => items_with k keyed) (first_keys [] (map fst keyed)))) (map snd keyed).
Proof. exact partition_perm. Qed.
Check C14_partition_perm : forall keyed, Permutation (concat (map (fun k => items_with k keyed) (first_keys [] (map fst keyed)))) (map snd keyed).
Print Assumptions C14_partition_perm.

(* and the group sizes sum to its length *)
Theorem C14_partition_lengths : forall keyed, list_sum (map (fun k => length (items_with k keyed)) (first_keys [] (map fst keyed))) = length keyed.
Proof. exact partition_lengths. Qed.
Check C14_partition_lengths : forall keyed, list_sum (map (fun k => length (items_with k keyed)) (first_keys [] (map fst keyed))) = length keyed.
Print Assumptions C14_partition_lengths.

Theorem C14_first_keys_NoDup : forall ks, NoDup (first_keys [] ks).
Proof. exact first_keys_NoDup. Qed.
Check C14_first_keys_NoDup : forall ks, NoDup (first_keys [] ks).
Print Assumptions C14_first_keys_NoDup.

(* join(split(s, d), d) == s, for every delimiter including the empty one *)
Theorem C14_join_split : forall s d, str_join d (str_split s d) = s.
Proof. exact join_split. Qed.
Check C14_join_split : forall s d, str_join d (str_split s d) = s.
Print Assumptions C14_join_split.

(* ... at the level of the built-ins, whatever the number / function printers are *)
Theorem C14_bi_join_split : forall num_str lam_str s d parts,
  bi_split [VStr s; VStr d] = Ok (VList parts) -> bi_join num_str lam_str [VList parts; VStr d] = Ok (VStr s).
Proof. exact bi_join_split. Qed.
Check C14_bi_join_split : forall num_str lam_str s d parts,
  bi_split [VStr s; VStr d] = Ok (VList parts) -> bi_join num_str lam_str [VList parts; VStr d] = Ok (VStr s).
Print Assumptions C14_bi_join_split.

(* replace(s, old, new) == join(split(s, old), new) *)
Theorem C14_replace_is_join_split : forall s old new, str_replace s old new = str_join new (str_split s old).
Proof. exact replace_is_join_split. Qed.
Check C14_replace_is_join_split : forall s old new, str_replace s old new = str_join new (str_split s old).
Print Assumptions C14_replace_is_join_split.

(* the characters of a string concatenate to the string *)
Theorem C14_chars_concat : forall s, String.concat EmptyString (chars s) = s.
Proof. exact chars_concat. Qed.
Check C14_chars_concat : forall s, String.concat EmptyString (chars s) = s.
Print Assumptions C14_chars_concat.

(* len / head / tail / slice of EVERY string are functions of chars s — the sequence that indexing
   (C14_index_spec_string) and spreading (C14_spread_string) expose (was C14-string-bytes, fixed by 264caa1) *)
Theorem C14_string_char_consistency : forall s,
  bi_len [VStr s] = Ok (VNum (num_of_nat (length (chars s)))) /\
  bi_head [VStr s] = Ok (VStr (hd EmptyString (chars s))) /\
  (exists t, bi_tail [VStr s] = Ok (VStr t) /\ t = String.concat EmptyString (tl (chars s)) /\
             (hd EmptyString (chars s) ++ t)%string = s) /\
  (forall x y, bi_slice [VStr s; VNum x; VNum y] =
     match slice_get (chars s) (as_usize x) (as_usize y) with
     | Some cs => Ok (VStr (String.concat EmptyString cs))
     | None => Err
     end).
Proof. exact string_char_consistency. Qed.
Check C14_string_char_consistency : forall s,
  bi_len [VStr s] = Ok (VNum (num_of_nat (length (chars s)))) /\
  bi_head [VStr s] = Ok (VStr (hd EmptyString (chars s))) /\
  (exists t, bi_tail [VStr s] = Ok (VStr t) /\ t = String.concat EmptyString (tl (chars s)) /\
             (hd EmptyString (chars s) ++ t)%string = s) /\
  (forall x y, bi_slice [VStr s; VNum x; VNum y] =
     match slice_get (chars s) (as_usize x) (as_usize y) with
     | Some cs => Ok (VStr (String.concat EmptyString cs))
     | None => Err
     end).
Print Assumptions C14_string_char_consistency.

(* head(s) is s[0] *)
Theorem C14_head_is_first_index : forall s x c rest, as_i64 x = 0%Z -> chars s = c :: rest ->
  access_value (VStr s) (VNum x) = Ok (VStr c) /\ bi_head [VStr s] = Ok (VStr c).
Proof. exact head_is_first_index. Qed.
Check C14_head_is_first_index : forall s x c rest, as_i64 x = 0%Z -> chars s = c :: rest ->
  access_value (VStr s) (VNum x) = Ok (VStr c) /\ bi_head [VStr s] = Ok (VStr c).
Print Assumptions C14_head_is_first_index.

(* indexing: 0-based, negative from the end, null out of range (index = the `as i64` truncation) *)
Theorem C14_index_spec_list : forall l x, access_value (VList l) (VNum x) = Ok (match index_of l (as_i64 x) with Some e => e | None => VNull end).
Proof. exact index_spec_list. Qed.
Check C14_index_spec_list : forall l x, access_value (VList l) (VNum x) = Ok (match index_of l (as_i64 x) with Some e => e | None => VNull end).
Print Assumptions C14_index_spec_list.

(* the same on the characters of a string *)
Theorem C14_index_spec_string : forall s x, access_value (VStr s) (VNum x) =
  Ok (match index_of (chars s) (as_i64 x) with Some c => VStr c | None => VNull end).
Proof. exact index_spec_string. Qed.
Check C14_index_spec_string : forall s x, access_value (VStr s) (VNum x) =
  Ok (match index_of (chars s) (as_i64 x) with Some c => VStr c | None => VNull end).
Print Assumptions C14_index_spec_string.

Theorem C14_index_in_range : forall l x i e, as_i64 x = Z.of_nat i -> nth_error l i = Some e -> access_value (VList l) (VNum x) = Ok e.
Proof. exact index_in_range. Qed.
Check C14_index_in_range : forall l x i e, as_i64 x = Z.of_nat i -> nth_error l i = Some e -> access_value (VList l) (VNum x) = Ok e.
Print Assumptions C14_index_in_range.

Theorem C14_index_from_end : forall l x i e, as_i64 x = (- Z.of_nat (S i))%Z -> (i < length l)%nat -> nth_error l (length l - S i) = Some e ->
  access_value (VList l) (VNum x) = Ok e.
Proof. exact index_from_end. Qed.
Check C14_index_from_end : forall l x i e, as_i64 x = (- Z.of_nat (S i))%Z -> (i < length l)%nat -> nth_error l (length l - S i) = Some e ->
  access_value (VList l) (VNum x) = Ok e.
Print Assumptions C14_index_from_end.

Theorem C14_index_out_of_range : forall l x, (Z.of_nat (length l) <= as_i64 x \/ as_i64 x < - Z.of_nat (length l))%Z ->
  access_value (VList l) (VNum x) = Ok VNull.
Proof. exact index_out_of_range. Qed.
Check C14_index_out_of_range : forall l x, (Z.of_nat (length l) <= as_i64 x \/ as_i64 x < - Z.of_nat (length l))%Z ->
  access_value (VList l) (VNum x) = Ok VNull.
Print Assumptions C14_index_out_of_range.

(* spreading a list yields its elements *)
Theorem C14_spread_list : forall l, (do s <- spread_of (VList l); list_literal [s]) = Ok (VList l).
Proof. exact spread_list. Qed.
Check C14_spread_list : forall l, (do s <- spread_of (VList l); list_literal [s]) = Ok (VList l).
Print Assumptions C14_spread_list.

(* a string: its characters *)
Theorem C14_spread_string : forall s, (do sp <- spread_of (VStr s); list_literal [sp]) = Ok (VList (map VStr (chars s))).
Proof. exact spread_string. Qed.
Check C14_spread_string : forall s, (do sp <- spread_of (VStr s); list_literal [sp]) = Ok (VList (map VStr (chars s))).
Print Assumptions C14_spread_string.

(* a record: its [key, value] pairs, i.e. entries(r) *)
Theorem C14_spread_record : forall r es, bi_entries [VRec r] = Ok (VList es) -> (do s <- spread_of (VRec r); list_literal [s]) = Ok (VList es).
Proof. exact spread_record_entries. Qed.
Check C14_spread_record : forall r es, bi_entries [VRec r] = Ok (VList es) -> (do s <- spread_of (VRec r); list_literal [s]) = Ok (VList es).
Print Assumptions C14_spread_record.

(* [...a, ...b] equals concat(a, b) *)
Theorem C14_spread_concat : forall a b, (do sa <- spread_of (VList a); do sb <- spread_of (VList b); list_literal [sa; sb]) = bi_concat [VList a; VList b].
Proof. exact spread_concat. Qed.
Check C14_spread_concat : forall a b, (do sa <- spread_of (VList a); do sb <- spread_of (VList b); list_literal [sa; sb]) = bi_concat [VList a; VList b].
Print Assumptions C14_spread_concat.

(* spread call arguments are flattened the same way *)
Theorem C14_spread_call_args : forall a b rest, flatten_spreads (VSpread (VList a) :: VSpread (VList b) :: rest) =
  (do r <- flatten_spreads rest; Ok (a ++ b ++ r)).
Proof. exact spread_call_args. Qed.
Check C14_spread_call_args : forall a b rest, flatten_spreads (VSpread (VList a) :: VSpread (VList b) :: rest) =
  (do r <- flatten_spreads rest; Ok (a ++ b ++ r)).
Print Assumptions C14_spread_call_args.

(* {...r} is r *)
Theorem C14_record_spread_identity : forall r, NoDup (map fst r) -> record_literal [RISpread (VSpread (VRec r))] = Ok (VRec r).
Proof. exact record_spread_identity. Qed.
Check C14_record_spread_identity : forall r, NoDup (map fst r) -> record_literal [RISpread (VSpread (VRec r))] = Ok (VRec r).
Print Assumptions C14_record_spread_identity.


(* ---------------------------------------------------------------------------------------------
   History.  Three statements of this property were refuted by the code until it was repaired
   (known/C14.json, status "fixed"): string/character consistency on non-ASCII text (264caa1),
   range(-1e19, 1e19) panicking (fb5b104), sort/sort_by panicking on more than 20 not mutually
   comparable elements (f7e0465).  Their witnesses are regression inputs in corpus/C14 and the
   theorems above now hold without exclusions. *)

(* count_by's counts as numbers: count_num n = n exactly needs a floating-point argument for all
   n < 2^53; proved by computation up to the quantifier's list length (40), kept in full as a Prop *)
Definition C14_count_num_exact_full : Prop := forall n, (Z.of_nat n < 2^53)%Z -> count_num n = num_of_nat n.
Lemma C14_count_num_exact_partial : forall n, (n <= 40)%nat -> count_num n = num_of_nat n.
Proof.
  intros n Hn.
  (* both sides are closed numerals for each of the 41 values: decide by computation *)
  do 41 (destruct n as [|n]; [vm_compute; reflexivity|]). lia.
Qed.
(* PROVED IN FULL (extension round, proofs/CountExact.v): for EVERY n < 2^53 the counter after n
   additions of 1.0 is exactly the double n.  SFadd is Flocq's Bplus (nadd_Bplus); Bplus_correct gives
   round(k + 1), which is k + 1 because every integer of magnitude <= 2^53 is a binary64 number;
   two finite doubles with the same real value and sign are the same double (B2R_Bsign_inj).
   Uses Flocq's real-number layer (the four allow-listed axioms).  The bound is sharp:
   2^53 + 1.0 = 2^53 (count_step_stalls_at_2p53). *)
Require Import Blots.proofs.CountExact.
Theorem C14_count_num_exact : forall n, (Z.of_nat n < 2^53)%Z -> count_num n = num_of_nat n.
Proof. exact count_num_exact. Qed.
Check C14_count_num_exact : forall n, (Z.of_nat n < 2^53)%Z -> count_num n = num_of_nat n.
Print Assumptions C14_count_num_exact.
(* terminates the axiom block for the driver's Print-Assumptions parser *)
Print Assumptions C14_first_keys_NoDup.
Lemma C14_count_num_exact_full_holds : C14_count_num_exact_full.
Proof. exact count_num_exact. Qed.
(* hence count_by's record holds the group sizes themselves (`len as f64`), for every list shorter than 2^53 *)
Theorem C14_count_by_counts_exact :
  forall St (call : value -> value -> list value -> St -> outcome value * St) func l st r st',
  (Z.of_nat (length l) < 2^53)%Z ->
  bi_count_by St call [VList l; func] st = (Ok r, st') ->
  exists keyed, map snd keyed = l /\
    r = VRec (map (fun k => (k, VNum (num_of_nat (length (items_with k keyed))))) (first_keys [] (map fst keyed))).
Proof. exact count_by_counts_exact. Qed.
Check C14_count_by_counts_exact :
  forall St (call : value -> value -> list value -> St -> outcome value * St) func l st r st',
  (Z.of_nat (length l) < 2^53)%Z ->
  bi_count_by St call [VList l; func] st = (Ok r, st') ->
  exists keyed, map snd keyed = l /\
    r = VRec (map (fun k => (k, VNum (num_of_nat (length (items_with k keyed))))) (first_keys [] (map fst keyed))).
Print Assumptions C14_count_by_counts_exact.
Print Assumptions C14_first_keys_NoDup.

(* ---------------------------------------------------------------------------------------------
   The hypotheses are satisfiable *)
Example C14_ex_sort : bi_sort [VList [VNum (num_of_Z 3); VNum (num_of_Z 1); VNum (num_of_Z 2)]]
                      = Ok (VList [VNum (num_of_Z 1); VNum (num_of_Z 2); VNum (num_of_Z 3)]).
Proof. vm_compute. reflexivity. Qed.
Example C14_ex_comparable : mutually_comparable [VStr "b"; VStr "a"; VStr "b"] = true.
Proof. reflexivity. Qed.
Example C14_ex_slice_cast : as_usize (num_of_Z 2) = 2%Z /\ as_i64 (num_of_Z (-3)) = (-3)%Z.
Proof. split; vm_compute; reflexivity. Qed.
Example C14_ex_range : bi_range [VNum (num_of_Z 2); VNum (num_of_Z 5)]
                       = Ok (VList [VNum (num_of_Z 2); VNum (num_of_Z 3); VNum (num_of_Z 4)]).
Proof. vm_compute. reflexivity. Qed.
Example C14_ex_ascii : is_ascii_str "hello" = true.
Proof. reflexivity. Qed.
Example C14_ex_data : forallb data [VNum (num_of_Z 1); VStr "a"; VNum (num_of_Z 1)] = true.
Proof. vm_compute. reflexivity. Qed.
Example C14_ex_old_range_witness : bi_range [VNum (num_of_Z (-(10^19))); VNum (num_of_Z (10^19))] = Err.
Proof. vm_compute. reflexivity. Qed.
