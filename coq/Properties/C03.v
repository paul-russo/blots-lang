(* C03 — Bindings are immutable and scoped: a bound name never changes or leaks.
   The property theorems (each an instance of a lemma of proofs/, pinned by [Check], followed by
   [Print Assumptions]) and evaluated examples.  Model: coq/Eval.v (evaluate_ast / FunctionDef::call), coq/Program.v
   (the statement loop).  The theorems about expressions hold for EVERY call depth d and EVERY
   implementation of operators and built-ins (they are Section parameters of the evaluator), so
   no change confined to evaluate_binary_op_ast or BuiltInFunction::call can invalidate them;
   the evaluator transcription itself is tied to the code by the EVAL / SESSION streams
   (checks/c03.py). *)
From Coq Require Import String List ZArith Bool.
Require Import Blots.Num Blots.gen.Builtins Blots.Ast Blots.Value Blots.Outcome Blots.Binop
               Blots.Env Blots.Eval Blots.Program Blots.EvalInst
               Blots.EvalFull
               Blots.proofs.Frames Blots.proofs.StoreMono Blots.proofs.InstMono Blots.proofs.Scoping
               Blots.proofs.FullInst.
Import ListNotations.
Open Scope string_scope.

(* Evaluating any expression — successfully or not — changes the scope chain only by pushing
   names that pass the assignment guards (not a built-in, not a keyword / inputs / constants,
   not already bound anywhere in the chain) onto the innermost frame. *)
Theorem C03_eval_only_extends : forall release bi bu d c e r c',
  evalD release bi bu d c e = (r, c') -> ext (snd c) (snd c').
Proof. exact evalD_ext. Qed.
Check C03_eval_only_extends : forall release bi bu d c e r c',
  evalD release bi bu d c e = (r, c') -> ext (snd c) (snd c').
Print Assumptions C03_eval_only_extends.

(* ... hence a name bound before is bound to the same value after (one expression) *)
Theorem C03_binding_survives_expression : forall release bi bu d c e r c' x v,
  evalD release bi bu d c e = (r, c') -> lookup (snd c) x = Some v -> lookup (snd c') x = Some v.
Proof. exact evalD_binding_survives. Qed.
Check C03_binding_survives_expression : forall release bi bu d c e r c' x v,
  evalD release bi bu d c e = (r, c') -> lookup (snd c) x = Some v -> lookup (snd c') x = Some v.
Print Assumptions C03_binding_survives_expression.

(* Across any sequence of statements, including failing ones (the loop stops there; the state
   it leaves is the one inspected), a top-level name once bound keeps its value. *)
Theorem C03_binding_survives_session : forall release bi bu d prog s x v,
  lookup (snd (s_cfg s)) x = Some v ->
  lookup (snd (s_cfg (fst (run (evalD release bi bu d) s prog)))) x = Some v.
Proof. exact evalD_session_stable. Qed.
Check C03_binding_survives_session : forall release bi bu d prog s x v,
  lookup (snd (s_cfg s)) x = Some v ->
  lookup (snd (s_cfg (fst (run (evalD release bi bu d) s prog)))) x = Some v.
Print Assumptions C03_binding_survives_session.

(* Keywords, built-in function names, `inputs` and `constants` can never become bound. *)
Theorem C03_forbidden_never_bound : forall release bi bu d prog s x,
  lookup (snd (s_cfg s)) x = None ->
  lookup (snd (s_cfg (fst (run (evalD release bi bu d) s prog)))) x <> None ->
  forbidden x = false.
Proof. exact evalD_forbidden. Qed.
Check C03_forbidden_never_bound : forall release bi bu d prog s x,
  lookup (snd (s_cfg s)) x = None ->
  lookup (snd (s_cfg (fst (run (evalD release bi bu d) s prog)))) x <> None ->
  forbidden x = false.
Print Assumptions C03_forbidden_never_bound.

(* `inputs` keeps the record it was given *)
Theorem C03_inputs_constant : forall release bi bu d prog inputs,
  lookup (snd (s_cfg (fst (run (evalD release bi bu d) (init_session inputs) prog)))) "inputs"
  = Some (VRec inputs).
Proof. exact evalD_inputs_constant. Qed.
Check C03_inputs_constant : forall release bi bu d prog inputs,
  lookup (snd (s_cfg (fst (run (evalD release bi bu d) (init_session inputs) prog)))) "inputs"
  = Some (VRec inputs).
Print Assumptions C03_inputs_constant.

(* Names bound inside a do-block are never visible afterwards: whatever the block did
   (shadowing, nested assignments, failure), the caller's chain comes back exactly. *)
Theorem C03_do_block_no_leak : forall release bi bu d stmts ret c r c',
  evalD release bi bu d c (EDo stmts ret) = (r, c') -> snd c' = snd c.
Proof. exact evalD_do_no_leak. Qed.
Check C03_do_block_no_leak : forall release bi bu d stmts ret c r c',
  evalD release bi bu d c (EDo stmts ret) = (r, c') -> snd c' = snd c.
Print Assumptions C03_do_block_no_leak.

(* Function parameters / locals never leak either: an expression without a direct assignment
   (assignments inside function bodies and do-blocks are allowed) — in particular any call
   f(a1..an) of such shape — leaves the chain exactly as it was. *)
Theorem C03_calls_do_not_leak : forall release bi bu d e c r c',
  no_assign e = true -> evalD release bi bu d c e = (r, c') -> snd c' = snd c.
Proof. exact evalD_pure_frames. Qed.
Check C03_calls_do_not_leak : forall release bi bu d e c r c',
  no_assign e = true -> evalD release bi bu d c e = (r, c') -> snd c' = snd c.
Print Assumptions C03_calls_do_not_leak.

(* The value observed through a bound name is the bound value (the three spellings the
   evaluator answers before looking at the environment are excluded explicitly). *)
Theorem C03_bound_name_reads_back : forall release bi bu d c x v,
  lookup (snd c) x = Some v ->
  String.eqb x "infinity" = false -> String.eqb x "inf" = false ->
  String.eqb x "constants" = false ->
  evalD release bi bu d c (EId x) = (Ok v, c).
Proof. exact evalD_reads_back. Qed.
Check C03_bound_name_reads_back : forall release bi bu d c x v,
  lookup (snd c) x = Some v ->
  String.eqb x "infinity" = false -> String.eqb x "inf" = false ->
  String.eqb x "constants" = false ->
  evalD release bi bu d c (EId x) = (Ok v, c).
Print Assumptions C03_bound_name_reads_back.

(* Values are trees, so the only thing about an existing value that evaluation could alter is
   the display/self name of a function cell: it is write-once.  (For the transcribed
   operators and built-ins of EvalInst.v.) *)
Theorem C03_function_names_write_once : forall release d prog s,
  store_le (fst (s_cfg s)) (fst (s_cfg (fst (run (evalD release binop_impl builtin_impl d) s prog)))).
Proof.
  intros release d. apply run_store.
  exact (evalD_store_le release binop_impl builtin_impl binop_impl_mono builtin_impl_mono d).
Qed.
Check C03_function_names_write_once : forall release d prog s,
  store_le (fst (s_cfg s)) (fst (s_cfg (fst (run (evalD release binop_impl builtin_impl d) s prog)))).
Print Assumptions C03_function_names_write_once.

(* ... and for the evaluator with every transcribed built-in (EvalFull.v) *)
Theorem C03_function_names_write_once_full : forall release d prog s,
  store_le (fst (s_cfg s)) (fst (s_cfg (fst (run (evalD release binop_impl builtin_full d) s prog)))).
Proof.
  intros release d. apply run_store.
  exact (evalD_store_le release binop_impl builtin_full binop_impl_mono builtin_full_mono d).
Qed.
Check C03_function_names_write_once_full : forall release d prog s,
  store_le (fst (s_cfg s)) (fst (s_cfg (fst (run (evalD release binop_impl builtin_full d) s prog)))).
Print Assumptions C03_function_names_write_once_full.

(* ---- non-vacuity: a session with a failing statement in the middle ---- *)
Definition n (z : Z) : expr := ENum (num_of_Z z).
Definition ex_prog : list stmt :=
  [ SExpr (EAssign "a" (n 1));
    SExpr (EAssign "f" (ELam [AReq "x"] (EBin Add (EId "x") (EId "a"))));
    SExpr (EAssign "a" (n 2));                       (* fails: already defined *)
    SExpr (EAssign "b" (ECall (EId "f") [n 10])) ].
Example ex_session :
  let s := fst (run eval_release (init_session []) [nth 0 ex_prog SComment; nth 1 ex_prog SComment]) in
  lookup (snd (s_cfg s)) "a" = Some (VNum (num_of_Z 1)) /\
  (* the failing statement leaves `a` alone, and the loop stops *)
  lookup (snd (s_cfg (fst (run eval_release s [nth 2 ex_prog SComment; nth 3 ex_prog SComment])))) "a"
    = Some (VNum (num_of_Z 1)) /\
  lookup (snd (s_cfg (fst (run eval_release s [nth 3 ex_prog SComment])))) "b"
    = Some (VNum (num_of_Z 11)).
Proof. vm_compute. repeat split; reflexivity. Qed.

(* ---- ... and for the evaluator with EVERY built-in of the table and `^` (EvalAll.v: libm, Unicode
        tables, clock, lambda text are fields of the oracle record o), for every oracle ---- *)
Require Import Blots.EvalAll Blots.proofs.AllInst.
Theorem C03_function_names_write_once_all : forall o release d prog s,
  store_le (fst (s_cfg s))
           (fst (s_cfg (fst (run (evalD release (binop_all o) (builtin_all o) d) s prog)))).
Proof.
  intros o release d. apply run_store.
  exact (evalD_store_le release (binop_all o) (builtin_all o) (binop_all_mono o) (builtin_all_mono o) d).
Qed.
Check C03_function_names_write_once_all : forall o release d prog s,
  store_le (fst (s_cfg s))
           (fst (s_cfg (fst (run (evalD release (binop_all o) (builtin_all o) d) s prog)))).
Print Assumptions C03_function_names_write_once_all.
