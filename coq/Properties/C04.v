(* C04 — Closures capture definition-time values; calls are call-site independent.
   The property theorems and evaluated examples.  Model: Env.v (free_vars = collect_free_variables, capture),
   Eval.v (bind_params, call_passed = FunctionDef::call, the Expr::Lambda arm of evalE).
   The headline consequence "a function all of whose free names were bound at definition
   returns the same result from every call site" is theorem C04_call_site_independent: for
   hereditarily closed function values (Closed.v: every free name of the body is a parameter,
   a captured name or the function's own name; the same for every captured function; no
   assignment expression outside do-block statement position — that exclusion is the open
   finding F32) FunctionDef::call gives the same outcome and store from EVERY scope chain with
   the same `inputs`, at every call depth.  The other theorems are the mechanisms it rests on. *)
From Coq Require Import String List ZArith Bool.
Require Import Blots.Num Blots.gen.Builtins Blots.Ast Blots.Value Blots.Outcome Blots.Binop
               Blots.Env Blots.Eval Blots.BuiltinsHof Blots.Program Blots.EvalInst
               Blots.EvalFull
               Blots.proofs.Closures Blots.proofs.StoreMono Blots.proofs.Closed Blots.proofs.CallSite
               Blots.proofs.FullAgree.
Import ListNotations.
Open Scope string_scope.

(* When a function is created, every referenced name bound at that moment (other than a
   built-in name) is captured with the value it has then. *)
Theorem C04_capture_by_value : forall fr vars acc x v,
  In x vars -> lookup fr x = Some v -> is_builtin_name x = false ->
  lookup_frame (capture fr vars acc) x = Some v.
Proof. exact capture_sound. Qed.
Check C04_capture_by_value : forall fr vars acc x v,
  In x vars -> lookup fr x = Some v -> is_builtin_name x = false ->
  lookup_frame (capture fr vars acc) x = Some v.
Print Assumptions C04_capture_by_value.

(* ... and nothing else: a captured binding is a referenced name with its definition-time value *)
Theorem C04_capture_only_referenced : forall fr vars x v,
  lookup_frame (capture fr vars []) x = Some v -> In x vars /\ lookup fr x = Some v.
Proof.
  intros fr vars x v H. destruct (capture_only fr vars [] x v H) as [Ha|Hb]; [discriminate|exact Hb].
Qed.
Check C04_capture_only_referenced : forall fr vars x v,
  lookup_frame (capture fr vars []) x = Some v -> In x vars /\ lookup fr x = Some v.
Print Assumptions C04_capture_only_referenced.

(* In every later call the body sees: its parameters first, then (its own name, inputs), then
   the captured values, and only then the caller's scope chain. *)
Theorem C04_lookup_order : forall (local scope : frame) (fr : frames) x,
  lookup ((FOwned, local) :: match scope with [] => fr | _ => (FShared, scope) :: fr end) x =
  match lookup_frame local x with
  | Some v => Some v
  | None => match lookup_frame scope x with Some v => Some v | None => lookup fr x end
  end.
Proof. exact lookup_order. Qed.
Check C04_lookup_order : forall (local scope : frame) (fr : frames) x,
  lookup ((FOwned, local) :: match scope with [] => fr | _ => (FShared, scope) :: fr end) x =
  match lookup_frame local x with
  | Some v => Some v
  | None => match lookup_frame scope x with Some v => Some v | None => lookup fr x end
  end.
Print Assumptions C04_lookup_order.

(* Arguments bind positionally: parameter k gets argument k, an omitted optional parameter is
   null, a rest parameter is the list of the remaining arguments. *)
Theorem C04_positional_binding : forall ps idx args acc fr,
  bind_params ps idx args acc = Some fr -> NoDup (map arg_name ps) ->
  forall k p, nth_error ps k = Some p ->
    lookup_frame fr (arg_name p) = Some (param_value p (idx + k) args).
Proof. exact bind_params_positional. Qed.
Check C04_positional_binding : forall ps idx args acc fr,
  bind_params ps idx args acc = Some fr -> NoDup (map arg_name ps) ->
  forall k p, nth_error ps k = Some p ->
    lookup_frame fr (arg_name p) = Some (param_value p (idx + k) args).
Print Assumptions C04_positional_binding.

(* Arity of the documented shape (required, then optional, then at most one rest): the call
   is admitted iff every required parameter is supplied and, without a rest parameter, there are
   no surplus arguments; any other count is the arity error (FunctionDef::call checks it
   before anything else). *)
Theorem C04_arity_classes : forall ps n, documented_shape ps = true ->
  can_accept (lambda_arity ps) n =
  (Nat.leb (n_required ps) n && (has_rest ps || Nat.leb n (Datatypes.length ps))).
Proof. exact documented_arity. Qed.
Check C04_arity_classes : forall ps n, documented_shape ps = true ->
  can_accept (lambda_arity ps) n =
  (Nat.leb (n_required ps) n && (has_rest ps || Nat.leb n (Datatypes.length ps))).
Print Assumptions C04_arity_classes.

(* For EVERY parameter list (also undocumented orders such as (a?, b) or (...r, b)): once the
   arity check has passed, binding the parameters cannot index past the argument vector. *)
Theorem C04_binding_total : forall ps args acc,
  can_accept (lambda_arity ps) (Datatypes.length args) = true ->
  bind_params ps 0 args acc <> None.
Proof. exact bind_params_total. Qed.
Check C04_binding_total : forall ps args acc,
  can_accept (lambda_arity ps) (Datatypes.length args) = true ->
  bind_params ps 0 args acc <> None.
Print Assumptions C04_binding_total.

(* CALL-SITE INDEPENDENCE.  Callback positions (via / where / map / filter / reduce / sort_by ...)
   are instances: they all go through this same FunctionDef::call. *)
Theorem C04_call_site_independent : forall release d fr1 fr2 this f args st,
  lookup fr1 "inputs" = lookup fr2 "inputs" ->
  (forall v, lookup fr1 "inputs" = Some v -> closed_value st v) ->
  closed_value st this -> closed_value st f -> closed_list st args ->
  AD release binop_impl builtin_impl d fr1 this f args st =
  AD release binop_impl builtin_impl d fr2 this f args st.
Proof. exact call_site_independent. Qed.
Check C04_call_site_independent : forall release d fr1 fr2 this f args st,
  lookup fr1 "inputs" = lookup fr2 "inputs" ->
  (forall v, lookup fr1 "inputs" = Some v -> closed_value st v) ->
  closed_value st this -> closed_value st f -> closed_list st args ->
  AD release binop_impl builtin_impl d fr1 this f args st =
  AD release binop_impl builtin_impl d fr2 this f args st.
Print Assumptions C04_call_site_independent.

(* what such a call returns is again closed (so the property is inherited by returned closures) *)
Theorem C04_call_result_closed : forall release d fr this f args st r st',
  (forall v, lookup fr "inputs" = Some v -> closed_value st v) ->
  closed_value st this -> closed_value st f -> closed_list st args ->
  AD release binop_impl builtin_impl d fr this f args st = (r, st') ->
  store_le st st' /\ (forall v, r = Ok v -> closed_value st' v).
Proof. exact call_result_closed. Qed.
Check C04_call_result_closed : forall release d fr this f args st r st',
  (forall v, lookup fr "inputs" = Some v -> closed_value st v) ->
  closed_value st this -> closed_value st f -> closed_list st args ->
  AD release binop_impl builtin_impl d fr this f args st = (r, st') ->
  store_le st st' /\ (forall v, r = Ok v -> closed_value st' v).
Print Assumptions C04_call_result_closed.

(* ... and the same two theorems for the evaluator with EVERY transcribed built-in (EvalFull.v):
   the function may call sort_by / group_by / count_by with callbacks and any list, string,
   record or aggregate built-in *)
Theorem C04_call_site_independent_full : forall release d fr1 fr2 this f args st,
  lookup fr1 "inputs" = lookup fr2 "inputs" ->
  (forall v, lookup fr1 "inputs" = Some v -> closed_value st v) ->
  closed_value st this -> closed_value st f -> closed_list st args ->
  AD release binop_impl builtin_full d fr1 this f args st =
  AD release binop_impl builtin_full d fr2 this f args st.
Proof. exact call_site_independent_full. Qed.
Check C04_call_site_independent_full : forall release d fr1 fr2 this f args st,
  lookup fr1 "inputs" = lookup fr2 "inputs" ->
  (forall v, lookup fr1 "inputs" = Some v -> closed_value st v) ->
  closed_value st this -> closed_value st f -> closed_list st args ->
  AD release binop_impl builtin_full d fr1 this f args st =
  AD release binop_impl builtin_full d fr2 this f args st.
Print Assumptions C04_call_site_independent_full.

Theorem C04_call_result_closed_full : forall release d fr this f args st r st',
  (forall v, lookup fr "inputs" = Some v -> closed_value st v) ->
  closed_value st this -> closed_value st f -> closed_list st args ->
  AD release binop_impl builtin_full d fr this f args st = (r, st') ->
  store_le st st' /\ (forall v, r = Ok v -> closed_value st' v).
Proof. exact call_result_closed_full. Qed.
Check C04_call_result_closed_full : forall release d fr this f args st r st',
  (forall v, lookup fr "inputs" = Some v -> closed_value st v) ->
  closed_value st this -> closed_value st f -> closed_list st args ->
  AD release binop_impl builtin_full d fr this f args st = (r, st') ->
  store_le st st' /\ (forall v, r = Ok v -> closed_value st' v).
Print Assumptions C04_call_result_closed_full.

(* non-vacuity: `k = 3; f = x => x + k` and a curried closure are hereditarily closed, and the
   theorem's conclusion is observed on two very different call sites *)
Definition ex_f : value :=
  VLam 0 [AReq "x"] (EBin Add (EId "x") (EId "k")) [("k", VNum (num_of_Z 3))].
Definition ex_g : value :=      (* y => inner(y) where inner is the captured closure ex_f *)
  VLam 1 [AReq "y"] (ECall (EId "inner") [EId "y"]) [("inner", ex_f)].
Example C04_closed_examples : closed_value [Some "f"; None] ex_f /\ closed_value [Some "f"; None] ex_g.
Proof.
  split; apply closed_VLam; (split; [reflexivity|split]).
  - intros x Hx. cbn in Hx. destruct Hx as [<-|[]]. left. discriminate.
  - repeat constructor.
  - intros x Hx. cbn in Hx. destruct Hx as [<-|[]]. left. discriminate.
  - constructor; [|constructor]. cbn [snd]. apply closed_VLam. split; [reflexivity|split].
    + intros x Hx. cbn in Hx. destruct Hx as [<-|[]]. left. discriminate.
    + repeat constructor.
Qed.
Example C04_two_call_sites :
  let st := [Some "f"; None] in
  let top := [(FOwned, [("k", VNum (num_of_Z 100)); ("x", VNum (num_of_Z 7))])] in
  let nested := [(FOwned, [("inner", VNull)]); (FShared, [("k", VStr "shadow")]); (FOwned, [])] in
  fst (AD true binop_impl builtin_impl 10 top ex_g ex_g [VNum (num_of_Z 1)] st) = Ok (VNum (num_of_Z 4)) /\
  fst (AD true binop_impl builtin_impl 10 nested ex_g ex_g [VNum (num_of_Z 1)] st) = Ok (VNum (num_of_Z 4)).
Proof. vm_compute. split; reflexivity. Qed.

Example C04_documented_shape_example :
  documented_shape [AReq "a"; AReq "b"; AOpt "c"; ARest "r"] = true /\
  documented_shape [AOpt "a"; AReq "b"] = false.
Proof. split; reflexivity. Qed.

(* ---- ... and the same two theorems for the evaluator with EVERY built-in of the table and `^`
   (EvalAll.v), for every oracle o: the function may also call the libm functions, trim / uppercase /
   lowercase, format, print, time_now, and stringify values that contain functions ---- *)
Require Import Blots.EvalAll Blots.proofs.AllAgree.
Theorem C04_call_site_independent_all : forall o release d fr1 fr2 this f args st,
  lookup fr1 "inputs" = lookup fr2 "inputs" ->
  (forall v, lookup fr1 "inputs" = Some v -> closed_value st v) ->
  closed_value st this -> closed_value st f -> closed_list st args ->
  AD release (binop_all o) (builtin_all o) d fr1 this f args st =
  AD release (binop_all o) (builtin_all o) d fr2 this f args st.
Proof. exact call_site_independent_all. Qed.
Check C04_call_site_independent_all : forall o release d fr1 fr2 this f args st,
  lookup fr1 "inputs" = lookup fr2 "inputs" ->
  (forall v, lookup fr1 "inputs" = Some v -> closed_value st v) ->
  closed_value st this -> closed_value st f -> closed_list st args ->
  AD release (binop_all o) (builtin_all o) d fr1 this f args st =
  AD release (binop_all o) (builtin_all o) d fr2 this f args st.
Print Assumptions C04_call_site_independent_all.

Theorem C04_call_result_closed_all : forall o release d fr this f args st r st',
  (forall v, lookup fr "inputs" = Some v -> closed_value st v) ->
  closed_value st this -> closed_value st f -> closed_list st args ->
  AD release (binop_all o) (builtin_all o) d fr this f args st = (r, st') ->
  store_le st st' /\ (forall v, r = Ok v -> closed_value st' v).
Proof. exact call_result_closed_all. Qed.
Check C04_call_result_closed_all : forall o release d fr this f args st r st',
  (forall v, lookup fr "inputs" = Some v -> closed_value st v) ->
  closed_value st this -> closed_value st f -> closed_list st args ->
  AD release (binop_all o) (builtin_all o) d fr this f args st = (r, st') ->
  store_le st st' /\ (forall v, r = Ok v -> closed_value st' v).
Print Assumptions C04_call_result_closed_all.

(* ---- Captured `inputs` (finding F9, known/C04.json, fixes/C04-captured-inputs.diff): FunctionDef::call
   copies the caller's `inputs` binding into the callee's local bindings only when the function did not
   capture the name (as for the function's own name, 2d884d7: the captured value wins).  Were it copied
   always, a function that captured `inputs` at creation would read the `inputs` of its call site whenever a
   parameter or do-block local of the caller is spelled `inputs`: `f = x => #a + x` would return 2 at top
   level and 101 from `(inputs => f(1))({a: 100})`.  The witness of proofs/C04Inputs.v returns 2 at both
   call sites.  The theorems above carry the hypothesis `lookup fr1 "inputs" = lookup fr2 "inputs"`, which
   is stronger than this code needs; the statement without it is the proposition
   C04_call_site_independent_any_inputs_full (stated, not proved). ---- *)
Require Import Blots.proofs.C04Inputs.
Definition C04_call_site_independent_any_inputs_full : Prop := call_site_independent_any_inputs.
Theorem C04_f9_witness_repaired :
  fst (AD true binop_impl builtin_impl 5 (f9_chain 1) VNull f9_fun [VNum (num_of_Z 1)] f9_store)
    = Ok (VNum (num_of_Z 2)) /\
  fst (AD true binop_impl builtin_impl 5 (f9_chain 100) VNull f9_fun [VNum (num_of_Z 1)] f9_store)
    = Ok (VNum (num_of_Z 2)).
Proof. exact f9_results_agree. Qed.
Check C04_f9_witness_repaired :
  fst (AD true binop_impl builtin_impl 5 (f9_chain 1) VNull f9_fun [VNum (num_of_Z 1)] f9_store)
    = Ok (VNum (num_of_Z 2)) /\
  fst (AD true binop_impl builtin_impl 5 (f9_chain 100) VNull f9_fun [VNum (num_of_Z 1)] f9_store)
    = Ok (VNum (num_of_Z 2)).
Print Assumptions C04_f9_witness_repaired.
Example C04_f9_witness_is_closed :
  closed_value f9_store f9_fun /\ closed_value f9_store VNull /\ closed_list f9_store [VNum (num_of_Z 1)] /\
  (forall k v, lookup (f9_chain k) "inputs" = Some v -> closed_value f9_store v).
Proof. exact f9_closed. Qed.
