(* C16 — numbers keep their exact value through every textual path.
   Property theorems only (each closed by [exact lemma], pinned by [Check], followed by
   [Print Assumptions]); models in NumText.v, proofs in proofs/NumText*.v; see notes/C16.md.

   Library conversions are hypotheses, never axioms; they are stated pointwise (for the number
   at hand), so each is a decidable fact that the NUMTEXT correspondence tests on every sample:
     display_contract t x   Rust Display text of x: [-]ddd[.ddd], reads back (rn_decimal) as x
     prec0_contract t x     format!("{:.0}", x) of an integral x: [-] and its exact integer
     parse_contract sp      str::parse::<f64> is correctly rounded on plain decimal texts
   [vb] = SpecFloat.valid_binary 53 1024: x is a genuine binary64 datum. *)
From Coq Require Import Reals.
From Flocq Require Import Core.Core IEEE754.BinarySingleNaN.
From Coq Require Import ZArith Floats.SpecFloat Bool List String Ascii.
Require Import Blots.Num Blots.Outcome Blots.gen.Builtins Blots.Ast Blots.NumText.
Require Import Blots.gen.NumGrammar.
Require Import Blots.proofs.NumText Blots.proofs.NumTextStr Blots.proofs.NumTextFloat Blots.proofs.NumTextRT Blots.proofs.NumTextRef Blots.proofs.NumTextDigits Blots.proofs.NumTextJson.
Require Import Blots.proofs.RadixWide.
Import ListNotations.
Open Scope string_scope.
Open Scope Z_scope.

(* [closed_marker] is printed after every theorem's assumptions so that the driver's parser (which
   collects identifier lines following an "Axioms:" header) is reset by a "Closed under the global
   context" line before the echo of the next Check. *)
Lemma closed_marker : True. Proof. exact I. Qed.

(* ------------------------------------------------------------------ to_string -> to_number *)
Theorem C16_to_string_to_number :
  forall (display : num -> string) (str_parse : string -> option num) (x : num),
    str_parse (display x) = ref_str_parse (display x) ->
    ref_str_parse (display x) = Some x ->
    to_number_str str_parse (to_string_num display x) = Ok x.
Proof. exact to_string_to_number. Qed.
Check C16_to_string_to_number :
  forall (display : num -> string) (str_parse : string -> option num) (x : num),
    str_parse (display x) = ref_str_parse (display x) ->
    ref_str_parse (display x) = Some x ->
    to_number_str str_parse (to_string_num display x) = Ok x.
Print Assumptions C16_to_string_to_number.
Print Assumptions closed_marker.

(* the same from the Display contract used below (str::parse sees the '-' itself here) *)
Theorem C16_to_string_to_number_contract : forall (display : num -> string) sp x,
  parse_contract_signed sp -> display_contract (display x) x ->
  to_number_str sp (to_string_num display x) = Ok x.
Proof. exact to_string_to_number_contract. Qed.
Check C16_to_string_to_number_contract : forall (display : num -> string) sp x,
  parse_contract_signed sp -> display_contract (display x) x ->
  to_number_str sp (to_string_num display x) = Ok x.
Print Assumptions C16_to_string_to_number_contract.
Print Assumptions closed_marker.

(* ------------------------------------------------------------------ source emission -> parser
   (expr_to_source, expr_to_source_with_scope and serializable_value_to_source share print_num):
   the text is read by the number grammar, converted by the Rule::number arm, and a leading '-'
   is a prefix negation; the result of evaluating the parsed expression is x, including -0 and
   on both sides of the fract()==0 && abs()<1e15 split *)
Theorem C16_source_emission_reads_back :
  forall (fmt_prec0 display : num -> string) (str_parse : string -> option num) (x : num),
    valid_binary 53 1024 x = true -> is_finite x = true ->
    parse_contract str_parse ->
    (nfract_is_zero x && nltb (nabs x) c1e15 = true -> prec0_contract (fmt_prec0 x) x) ->
    (nfract_is_zero x && nltb (nabs x) c1e15 = false -> display_contract (display x) x) ->
    read_source str_parse (print_num fmt_prec0 display x) = Ok x.
Proof. exact source_reads_back. Qed.
Check C16_source_emission_reads_back :
  forall (fmt_prec0 display : num -> string) (str_parse : string -> option num) (x : num),
    valid_binary 53 1024 x = true -> is_finite x = true ->
    parse_contract str_parse ->
    (nfract_is_zero x && nltb (nabs x) c1e15 = true -> prec0_contract (fmt_prec0 x) x) ->
    (nfract_is_zero x && nltb (nabs x) c1e15 = false -> display_contract (display x) x) ->
    read_source str_parse (print_num fmt_prec0 display x) = Ok x.
Print Assumptions C16_source_emission_reads_back.
Print Assumptions closed_marker.

(* ------------------------------------------------------------------ function-source emission -> parser
   serializable_value_to_source (captured values inlined into `__blots_function` text; since fix
   b235c37 a number with the sign bit set is wrapped in parentheses, NaN is (0/0)): the parenthesised
   text is a nested_expression, read back to the identical double, -0 included *)
Theorem C16_function_emission_reads_back :
  forall (fmt_prec0 display : num -> string) (str_parse : string -> option num) (x : num),
    valid_binary 53 1024 x = true -> is_finite x = true ->
    parse_contract str_parse ->
    (nfract_is_zero x && nltb (nabs x) c1e15 = true -> prec0_contract (fmt_prec0 x) x) ->
    (nfract_is_zero x && nltb (nabs x) c1e15 = false -> display_contract (display x) x) ->
    read_source str_parse (emit_num fmt_prec0 display x) = Ok x.
Proof. exact emission_reads_back. Qed.
Check C16_function_emission_reads_back :
  forall (fmt_prec0 display : num -> string) (str_parse : string -> option num) (x : num),
    valid_binary 53 1024 x = true -> is_finite x = true ->
    parse_contract str_parse ->
    (nfract_is_zero x && nltb (nabs x) c1e15 = true -> prec0_contract (fmt_prec0 x) x) ->
    (nfract_is_zero x && nltb (nabs x) c1e15 = false -> display_contract (display x) x) ->
    read_source str_parse (emit_num fmt_prec0 display x) = Ok x.
Print Assumptions C16_function_emission_reads_back.
Print Assumptions closed_marker.

(* ------------------------------------------------------------------ formatter -> parser *)
Theorem C16_formatter_reads_back :
  forall (fmt_prec0 display : num -> string) (str_parse : string -> option num) (x : num) (w : option Z),
    valid_binary 53 1024 x = true -> is_finite x = true ->
    parse_contract str_parse ->
    (nfract_is_zero x && nltb (nabs x) c1e15 = true -> prec0_contract (fmt_prec0 x) x) ->
    (nfract_is_zero x && nltb (nabs x) c1e15 = false -> display_contract (display x) x) ->
    read_source str_parse (format_num fmt_prec0 display x w) = Ok x.
Proof. exact formatter_reads_back. Qed.
Check C16_formatter_reads_back :
  forall (fmt_prec0 display : num -> string) (str_parse : string -> option num) (x : num) (w : option Z),
    valid_binary 53 1024 x = true -> is_finite x = true ->
    parse_contract str_parse ->
    (nfract_is_zero x && nltb (nabs x) c1e15 = true -> prec0_contract (fmt_prec0 x) x) ->
    (nfract_is_zero x && nltb (nabs x) c1e15 = false -> display_contract (display x) x) ->
    read_source str_parse (format_num fmt_prec0 display x w) = Ok x.
Print Assumptions C16_formatter_reads_back.
Print Assumptions closed_marker.

(* the integral branch needs NO round-trip assumption on the printed digits: an integral double is
   the correctly rounded value of its own integer *)
Theorem C16_integral_value_is_exact : forall x,
  valid_binary 53 1024 x = true -> is_finite x = true -> nfract_is_zero x = true ->
  rn_decimal (nsign x) (int_abs x) 0 = x.
Proof. exact rn_decimal_integral. Qed.
Check C16_integral_value_is_exact : forall x,
  valid_binary 53 1024 x = true -> is_finite x = true -> nfract_is_zero x = true ->
  rn_decimal (nsign x) (int_abs x) 0 = x.
Print Assumptions C16_integral_value_is_exact.
Print Assumptions closed_marker.

(* a plain decimal text, with or without a leading '-', evaluates to the correctly rounded value
   of its digits with the sign applied by prefix negation *)
Theorem C16_plain_text_value :
  forall sp s ip fp,
    parse_contract sp -> all_digits ip = true -> ip <> "" -> all_digits fp = true ->
    read_source sp (sign_str s ++ plain ip fp) = Ok (rn_decimal s (digits_val (ip ++ fp) 0) (0 - slen fp)).
Proof. exact read_source_plain. Qed.
Check C16_plain_text_value :
  forall sp s ip fp,
    parse_contract sp -> all_digits ip = true -> ip <> "" -> all_digits fp = true ->
    read_source sp (sign_str s ++ plain ip fp) = Ok (rn_decimal s (digits_val (ip ++ fp) 0) (0 - slen fp)).
Print Assumptions C16_plain_text_value.
Print Assumptions closed_marker.

(* ------------------------------------------------------------------ JSON out -> JSON in *)
Theorem C16_json_reads_back :
  forall (json_print : num -> string) (json_parse : string -> outcome num) (x : num),
    is_finite x = true ->
    json_parse (json_print x) = of_option (ref_str_parse (json_print x)) ->
    ref_str_parse (json_print x) = Some x ->
    json_parse (json_out json_print x) = Ok x.
Proof. exact json_reads_back. Qed.
Check C16_json_reads_back :
  forall (json_print : num -> string) (json_parse : string -> outcome num) (x : num),
    is_finite x = true ->
    json_parse (json_print x) = of_option (ref_str_parse (json_print x)) ->
    ref_str_parse (json_print x) = Some x ->
    json_parse (json_out json_print x) = Ok x.
Print Assumptions C16_json_reads_back.
Print Assumptions closed_marker.

(* with the float_roundtrip build of serde_json — as transcribed in serde_number true, the model the
   correspondence runs against the patched tree — the JSON round trip needs only the contract on the
   OUTPUT text ([-]int[.frac][e[-]exp] with a fraction or exponent, denoting x): the transcribed parser
   (sign, leading-zero rule, u64 accumulation with overflow, fraction, exponent) reads it back as x.
   Axiom-free. *)
Theorem C16_json_reads_back_exact_build : forall (json_print : num -> string) x,
  is_finite x = true -> json_text_contract (json_print x) x ->
  json_in true (json_out json_print x) = Ok x.
Proof. exact json_reads_back_exact_build. Qed.
Check C16_json_reads_back_exact_build : forall (json_print : num -> string) x,
  is_finite x = true -> json_text_contract (json_print x) x ->
  json_in true (json_out json_print x) = Ok x.
Print Assumptions C16_json_reads_back_exact_build.
Print Assumptions closed_marker.

(* F17: the first hypothesis of C16_json_reads_back is false for the shipped build — the
   transcribed serde_json number parser without float_roundtrip reads "1e-39" one ulp high *)
Theorem C16_json_shipped_refuted :
  let x := num_of_bits 0x37d5c72fb1552d83 in
  is_finite x = true
  /\ json_out ref_ryu x = "1e-39"
  /\ ref_str_parse "1e-39" = Some x
  /\ json_in true (json_out ref_ryu x) = Ok x
  /\ json_in false (json_out ref_ryu x) = Ok (num_of_bits 0x37d5c72fb1552d84).
Proof. exact json_shipped_refuted. Qed.
Check C16_json_shipped_refuted :
  let x := num_of_bits 0x37d5c72fb1552d83 in
  is_finite x = true
  /\ json_out ref_ryu x = "1e-39"
  /\ ref_str_parse "1e-39" = Some x
  /\ json_in true (json_out ref_ryu x) = Ok x
  /\ json_in false (json_out ref_ryu x) = Ok (num_of_bits 0x37d5c72fb1552d84).
Print Assumptions C16_json_shipped_refuted.
Print Assumptions closed_marker.

(* ------------------------------------------------------------------ literals, no library hypothesis *)
(* 0x / 0b: underscores erased; a digit string below 2^63 denotes the nearest double of its
   integer value (num_of_Z = SpecFloat.binary_normalize, round to nearest even); at or above
   2^63 the literal is rejected (F25) *)
Theorem C16_hex_literal_value : forall sp body c cl v,
  remove_char "_" body = String c cl -> is_hex c = true ->
  radix_val 16 (String c cl) 0 = Some v ->
  literal_value sp ("0x" ++ body) = if v <? 2 ^ 63 then Some (num_of_Z v) else None.
Proof. exact hex_literal_value. Qed.
Check C16_hex_literal_value : forall sp body c cl v,
  remove_char "_" body = String c cl -> is_hex c = true ->
  radix_val 16 (String c cl) 0 = Some v ->
  literal_value sp ("0x" ++ body) = if v <? 2 ^ 63 then Some (num_of_Z v) else None.
Print Assumptions C16_hex_literal_value.
Print Assumptions closed_marker.

Theorem C16_bin_literal_value : forall sp body c cl v,
  remove_char "_" body = String c cl -> is_bit c = true ->
  radix_val 2 (String c cl) 0 = Some v ->
  literal_value sp ("0b" ++ body) = if v <? 2 ^ 63 then Some (num_of_Z v) else None.
Proof. exact bin_literal_value. Qed.
Check C16_bin_literal_value : forall sp body c cl v,
  remove_char "_" body = String c cl -> is_bit c = true ->
  radix_val 2 (String c cl) 0 = Some v ->
  literal_value sp ("0b" ++ body) = if v <? 2 ^ 63 then Some (num_of_Z v) else None.
Print Assumptions C16_bin_literal_value.
Print Assumptions closed_marker.

Theorem C16_radix_literal_ge_2p63_refuted :
  forall sp, literal_value sp "0xFFFFFFFFFFFFFFFF" = None
          /\ parse_numexpr sp "0xFFFFFFFFFFFFFFFF" = PLitErr
          /\ parse_numexpr sp "0x8000000000000000" = PLitErr
          /\ parse_numexpr sp "0b1000000000000000000000000000000000000000000000000000000000000000" = PLitErr.
Proof. exact radix_literal_ge_2p63_refuted. Qed.
Check C16_radix_literal_ge_2p63_refuted :
  forall sp, literal_value sp "0xFFFFFFFFFFFFFFFF" = None
          /\ parse_numexpr sp "0xFFFFFFFFFFFFFFFF" = PLitErr
          /\ parse_numexpr sp "0x8000000000000000" = PLitErr
          /\ parse_numexpr sp "0b1000000000000000000000000000000000000000000000000000000000000000" = PLitErr.
Print Assumptions C16_radix_literal_ge_2p63_refuted.
Print Assumptions closed_marker.

(* ---- F25 repaired (fixes/C16-radix-literal-range.diff; model: NumText.v 3b', literal_value_rf true —
   the model the LITERAL correspondence runs whenever the built crate accepts the F25 witnesses).
   parse_radix_digits folds the digits into a u128 accumulator, and once it is full only counts the
   remaining digits in `scale` (a power of two, exact, +inf past 2^1023) and ORs "non-zero" into a sticky
   bit; result ((acc | sticky) as f64) * scale.  For EVERY digit string — no bound on its length — that is
   num_of_Z v, the double nearest to the integer v the digits denote (ties to even; +inf from
   2^1024 - 2^970 on, like the decimal path): the sticky-bit truncation does not change the rounding
   (proofs/RadixWide.v: round-to-odd at >= 124 bits, then Flocq's round_N_odd). *)
Theorem C16_hex_literal_value_fixed :
  forall sp body c cl v,
    remove_char "_" body = String c cl ->
    radix_val 16 (String c cl) 0 = Some v ->
    literal_value_rf true sp ("0x" ++ body) = Some (num_of_Z v).
Proof. exact hex_literal_value_fixed. Qed.
Check C16_hex_literal_value_fixed :
  forall sp body c cl v,
    remove_char "_" body = String c cl ->
    radix_val 16 (String c cl) 0 = Some v ->
    literal_value_rf true sp ("0x" ++ body) = Some (num_of_Z v).
Print Assumptions C16_hex_literal_value_fixed.
Print Assumptions closed_marker.

Theorem C16_bin_literal_value_fixed :
  forall sp body c cl v,
    remove_char "_" body = String c cl ->
    radix_val 2 (String c cl) 0 = Some v ->
    literal_value_rf true sp ("0b" ++ body) = Some (num_of_Z v).
Proof. exact bin_literal_value_fixed. Qed.
Check C16_bin_literal_value_fixed :
  forall sp body c cl v,
    remove_char "_" body = String c cl ->
    radix_val 2 (String c cl) 0 = Some v ->
    literal_value_rf true sp ("0b" ++ body) = Some (num_of_Z v).
Print Assumptions C16_bin_literal_value_fixed.
Print Assumptions closed_marker.

(* the explicitly signed token +0x… / +0b… (a leading - is always a prefix negation and never reaches the arm) *)
Theorem C16_plus_radix_literal_value_fixed :
  forall sp body c cl v,
    remove_char "_" body = String c cl ->
    (radix_val 16 (String c cl) 0 = Some v -> literal_value_rf true sp ("+0x" ++ body) = Some (num_of_Z v)) /\
    (radix_val 2 (String c cl) 0 = Some v -> literal_value_rf true sp ("+0b" ++ body) = Some (num_of_Z v)).
Proof. exact plus_radix_literal_value_fixed. Qed.
Check C16_plus_radix_literal_value_fixed :
  forall sp body c cl v,
    remove_char "_" body = String c cl ->
    (radix_val 16 (String c cl) 0 = Some v -> literal_value_rf true sp ("+0x" ++ body) = Some (num_of_Z v)) /\
    (radix_val 2 (String c cl) 0 = Some v -> literal_value_rf true sp ("+0b" ++ body) = Some (num_of_Z v)).
Print Assumptions C16_plus_radix_literal_value_fixed.
Print Assumptions closed_marker.

(* the conversion routine itself, both radices, and the errors it keeps *)
Theorem C16_parse_radix_digits_value :
  forall radix s v,
    radix = 2 \/ radix = 16 -> s <> EmptyString ->
    radix_val radix s 0 = Some v -> parse_radix_digits s radix = Some (num_of_Z v).
Proof. exact parse_radix_digits_correct. Qed.
Check C16_parse_radix_digits_value :
  forall radix s v,
    radix = 2 \/ radix = 16 -> s <> EmptyString ->
    radix_val radix s 0 = Some v -> parse_radix_digits s radix = Some (num_of_Z v).
Print Assumptions C16_parse_radix_digits_value.
Print Assumptions closed_marker.

Theorem C16_radix_literal_fixed_rejects :
  forall sp body,
    (remove_char "_" body = EmptyString \/ radix_val 16 (remove_char "_" body) 0 = None ->
     literal_value_rf true sp ("0x" ++ body) = None) /\
    (remove_char "_" body = EmptyString \/ radix_val 2 (remove_char "_" body) 0 = None ->
     literal_value_rf true sp ("0b" ++ body) = None).
Proof. exact radix_literal_fixed_rejects. Qed.
Check C16_radix_literal_fixed_rejects :
  forall sp body,
    (remove_char "_" body = EmptyString \/ radix_val 16 (remove_char "_" body) 0 = None ->
     literal_value_rf true sp ("0x" ++ body) = None) /\
    (remove_char "_" body = EmptyString \/ radix_val 2 (remove_char "_" body) 0 = None ->
     literal_value_rf true sp ("0b" ++ body) = None).
Print Assumptions C16_radix_literal_fixed_rejects.
Print Assumptions closed_marker.

(* radixfix = false is the pinned model of the theorems above, definitionally *)
Theorem C16_radixfix_false_is_pinned :
  forall sp s, literal_value_rf false sp s = literal_value sp s
           /\ parse_numexpr_rf false sp s = parse_numexpr sp s
           /\ read_source_rf false sp s = read_source sp s.
Proof. exact (fun sp s => conj (literal_value_rf_false sp s) (conj (parse_numexpr_rf_false sp s) (read_source_rf_false sp s))). Qed.
Check C16_radixfix_false_is_pinned :
  forall sp s, literal_value_rf false sp s = literal_value sp s
           /\ parse_numexpr_rf false sp s = parse_numexpr sp s
           /\ read_source_rf false sp s = read_source sp s.
Print Assumptions C16_radixfix_false_is_pinned.
Print Assumptions closed_marker.

(* the F25 witnesses on the repaired model *)
Theorem C16_radix_literal_ge_2p63_fixed :
  forall sp, parse_numexpr_rf true sp "0xFFFFFFFFFFFFFFFF" = PExpr (ENum (num_of_Z (2 ^ 64)))
          /\ parse_numexpr_rf true sp "0x8000000000000000" = PExpr (ENum (num_of_Z (2 ^ 63)))
          /\ parse_numexpr_rf true sp "0b1000000000000000000000000000000000000000000000000000000000000000"
             = PExpr (ENum (num_of_Z (2 ^ 63)))
          /\ parse_numexpr_rf true sp "0x20000000000000000000000000000000000000000000000001"
             = PExpr (ENum (num_of_Z (2 ^ 197))).
Proof. exact radix_literal_ge_2p63_fixed. Qed.
Check C16_radix_literal_ge_2p63_fixed :
  forall sp, parse_numexpr_rf true sp "0xFFFFFFFFFFFFFFFF" = PExpr (ENum (num_of_Z (2 ^ 64)))
          /\ parse_numexpr_rf true sp "0x8000000000000000" = PExpr (ENum (num_of_Z (2 ^ 63)))
          /\ parse_numexpr_rf true sp "0b1000000000000000000000000000000000000000000000000000000000000000"
             = PExpr (ENum (num_of_Z (2 ^ 63)))
          /\ parse_numexpr_rf true sp "0x20000000000000000000000000000000000000000000000001"
             = PExpr (ENum (num_of_Z (2 ^ 197))).
Print Assumptions C16_radix_literal_ge_2p63_fixed.
Print Assumptions closed_marker.

(* the round trips hold on the model of the tree at hand for BOTH literal conversions (radixfix = false
   pinned, true repaired): printed numbers never reach the 0x / 0b arms, the repair leaves them intact *)
Theorem C16_source_emission_reads_back_rf :
  forall (radixfix : bool) (fmt_prec0 display : num -> string) (str_parse : string -> option num) (x : num),
    valid_binary 53 1024 x = true -> is_finite x = true ->
    parse_contract str_parse ->
    (nfract_is_zero x && nltb (nabs x) c1e15 = true -> prec0_contract (fmt_prec0 x) x) ->
    (nfract_is_zero x && nltb (nabs x) c1e15 = false -> display_contract (display x) x) ->
    read_source_rf radixfix str_parse (print_num fmt_prec0 display x) = Ok x.
Proof. exact source_reads_back_rf. Qed.
Check C16_source_emission_reads_back_rf :
  forall (radixfix : bool) (fmt_prec0 display : num -> string) (str_parse : string -> option num) (x : num),
    valid_binary 53 1024 x = true -> is_finite x = true ->
    parse_contract str_parse ->
    (nfract_is_zero x && nltb (nabs x) c1e15 = true -> prec0_contract (fmt_prec0 x) x) ->
    (nfract_is_zero x && nltb (nabs x) c1e15 = false -> display_contract (display x) x) ->
    read_source_rf radixfix str_parse (print_num fmt_prec0 display x) = Ok x.
Print Assumptions C16_source_emission_reads_back_rf.
Print Assumptions closed_marker.

Theorem C16_function_emission_reads_back_rf :
  forall (radixfix : bool) (fmt_prec0 display : num -> string) (str_parse : string -> option num) (x : num),
    valid_binary 53 1024 x = true -> is_finite x = true ->
    parse_contract str_parse ->
    (nfract_is_zero x && nltb (nabs x) c1e15 = true -> prec0_contract (fmt_prec0 x) x) ->
    (nfract_is_zero x && nltb (nabs x) c1e15 = false -> display_contract (display x) x) ->
    read_source_rf radixfix str_parse (emit_num fmt_prec0 display x) = Ok x.
Proof. exact emission_reads_back_rf. Qed.
Check C16_function_emission_reads_back_rf :
  forall (radixfix : bool) (fmt_prec0 display : num -> string) (str_parse : string -> option num) (x : num),
    valid_binary 53 1024 x = true -> is_finite x = true ->
    parse_contract str_parse ->
    (nfract_is_zero x && nltb (nabs x) c1e15 = true -> prec0_contract (fmt_prec0 x) x) ->
    (nfract_is_zero x && nltb (nabs x) c1e15 = false -> display_contract (display x) x) ->
    read_source_rf radixfix str_parse (emit_num fmt_prec0 display x) = Ok x.
Print Assumptions C16_function_emission_reads_back_rf.
Print Assumptions closed_marker.

Theorem C16_formatter_reads_back_rf :
  forall (radixfix : bool) (fmt_prec0 display : num -> string) (str_parse : string -> option num) (x : num) (w : option Z),
    valid_binary 53 1024 x = true -> is_finite x = true ->
    parse_contract str_parse ->
    (nfract_is_zero x && nltb (nabs x) c1e15 = true -> prec0_contract (fmt_prec0 x) x) ->
    (nfract_is_zero x && nltb (nabs x) c1e15 = false -> display_contract (display x) x) ->
    read_source_rf radixfix str_parse (format_num fmt_prec0 display x w) = Ok x.
Proof. exact formatter_reads_back_rf. Qed.
Check C16_formatter_reads_back_rf :
  forall (radixfix : bool) (fmt_prec0 display : num -> string) (str_parse : string -> option num) (x : num) (w : option Z),
    valid_binary 53 1024 x = true -> is_finite x = true ->
    parse_contract str_parse ->
    (nfract_is_zero x && nltb (nabs x) c1e15 = true -> prec0_contract (fmt_prec0 x) x) ->
    (nfract_is_zero x && nltb (nabs x) c1e15 = false -> display_contract (display x) x) ->
    read_source_rf radixfix str_parse (format_num fmt_prec0 display x w) = Ok x.
Print Assumptions C16_formatter_reads_back_rf.
Print Assumptions closed_marker.

Theorem C16_plain_text_value_rf :
  forall radixfix sp s ip fp,
    parse_contract sp -> all_digits ip = true -> ip <> "" -> all_digits fp = true ->
    read_source_rf radixfix sp (sign_str s ++ plain ip fp) = Ok (rn_decimal s (digits_val (ip ++ fp) 0) (0 - slen fp)).
Proof. exact read_source_rf_plain. Qed.
Check C16_plain_text_value_rf :
  forall radixfix sp s ip fp,
    parse_contract sp -> all_digits ip = true -> ip <> "" -> all_digits fp = true ->
    read_source_rf radixfix sp (sign_str s ++ plain ip fp) = Ok (rn_decimal s (digits_val (ip ++ fp) 0) (0 - slen fp)).
Print Assumptions C16_plain_text_value_rf.
Print Assumptions closed_marker.

(* decimal / scientific / leading-dot literals: underscores are erased, everything else goes to
   str::parse::<f64> unchanged *)
Theorem C16_decimal_literal_erasure : forall sp c r,
  is_digit c = true \/ c = "."%char ->
  (c = "0"%char -> match r with String c2 _ => c2 <> "b"%char /\ c2 <> "x"%char | EmptyString => True end) ->
  literal_value sp (String c r) = sp (remove_char "_" (String c r)).
Proof. exact decimal_literal_erasure. Qed.
Check C16_decimal_literal_erasure : forall sp c r,
  is_digit c = true \/ c = "."%char ->
  (c = "0"%char -> match r with String c2 _ => c2 <> "b"%char /\ c2 <> "x"%char | EmptyString => True end) ->
  literal_value sp (String c r) = sp (remove_char "_" (String c r)).
Print Assumptions C16_decimal_literal_erasure.
Print Assumptions closed_marker.

Theorem C16_decimal_literal_value : forall sp c r ip fp ex,
  is_digit c = true \/ c = "."%char ->
  (c = "0"%char -> match r with String c2 _ => c2 <> "b"%char /\ c2 <> "x"%char | EmptyString => True end) ->
  remove_char "_" (String c r) = dec_text ip fp ex ->
  all_digits ip = true -> all_digits fp = true -> (ip <> "" \/ fp <> "") -> exp_ok ex ->
  sp (dec_text ip fp ex) = ref_str_parse (dec_text ip fp ex) ->
  literal_value sp (String c r)
  = Some (rn_decimal false (digits_val (ip ++ fp) 0) (exp_val ex - slen fp)).
Proof. exact decimal_literal_value. Qed.
Check C16_decimal_literal_value : forall sp c r ip fp ex,
  is_digit c = true \/ c = "."%char ->
  (c = "0"%char -> match r with String c2 _ => c2 <> "b"%char /\ c2 <> "x"%char | EmptyString => True end) ->
  remove_char "_" (String c r) = dec_text ip fp ex ->
  all_digits ip = true -> all_digits fp = true -> (ip <> "" \/ fp <> "") -> exp_ok ex ->
  sp (dec_text ip fp ex) = ref_str_parse (dec_text ip fp ex) ->
  literal_value sp (String c r)
  = Some (rn_decimal false (digits_val (ip ++ fp) 0) (exp_val ex - slen fp)).
Print Assumptions C16_decimal_literal_value.
Print Assumptions closed_marker.

(* the reference is sign-symmetric (so reading "-t" as negation of "t" loses nothing) *)
Theorem C16_rn_decimal_sign : forall s m e,
  0 <= m -> rn_decimal s m e = with_sign s (rn_decimal false m e).
Proof. exact rn_decimal_sign. Qed.
Check C16_rn_decimal_sign : forall s m e,
  0 <= m -> rn_decimal s m e = with_sign s (rn_decimal false m e).
Print Assumptions C16_rn_decimal_sign.
Print Assumptions closed_marker.

(* the `{:.0}` contract is satisfied, for every number, by the exact-integer printer ref_prec0 (the
   reference the correspondence compares Rust's `{:.0}` text with); so in the integral branch the only
   library fact the round trip rests on is that str::parse reads plain integers correctly *)
Theorem C16_prec0_contract_realised : forall x, prec0_contract (ref_prec0 x) x.
Proof. exact ref_prec0_contract. Qed.
Check C16_prec0_contract_realised : forall x, prec0_contract (ref_prec0 x) x.
Print Assumptions C16_prec0_contract_realised.
Print Assumptions closed_marker.


(* ------------------------------------------------------------------ the grammar the model uses is the repo's
   coq/gen/NumGrammar.v is regenerated from blots-core/src/grammar.pest on every run; the seven
   number rules, translated token for token into the PEG combinators, are the very terms the
   model and the theorems above use (and `number` is atomic, the others silent) *)
Theorem C16_number_grammar_is_the_models :
  (gen_integer, gen_binary_digits, gen_hex_digits, gen_binary_number, gen_hex_number,
   gen_decimal_number, gen_number)
  = (g_integer, g_binary_digits, g_hex_digits, g_binary_number, g_hex_number, g_decimal_number, g_number)
  /\ gen_rule_kinds = [("integer", "_"); ("binary_digits", "_"); ("hex_digits", "_"); ("binary_number", "_");
                       ("hex_number", "_"); ("decimal_number", "_"); ("number", "@")].
Proof. split; reflexivity. Qed.
Check C16_number_grammar_is_the_models :
  (gen_integer, gen_binary_digits, gen_hex_digits, gen_binary_number, gen_hex_number,
   gen_decimal_number, gen_number)
  = (g_integer, g_binary_digits, g_hex_digits, g_binary_number, g_hex_number, g_decimal_number, g_number)
  /\ gen_rule_kinds = [("integer", "_"); ("binary_digits", "_"); ("hex_digits", "_"); ("binary_number", "_");
                       ("hex_number", "_"); ("decimal_number", "_"); ("number", "@")].
Print Assumptions C16_number_grammar_is_the_models.
Print Assumptions closed_marker.

(* ------------------------------------------------------------------ the reference is IEEE RNE *)
(* rn_decimal (the reference every text->double conversion is compared with, and the value the
   theorems above speak about) is Flocq's round-to-nearest-even of the rational m * 10^e in the
   binary64 format (FLT_exp -1074 53), overflowing to the infinity of the same sign at 2^1024;
   unbounded in m and e (the two shortcuts for astronomically large/small exponents included) *)
Theorem C16_rn_decimal_correct : forall s m e,
  let v := dec_R (Zpos m) e in
  let z := rn_decimal s (Zpos m) e in
  valid_binary 53 1024 z = true /\
  if Rlt_bool (Rabs (rne v)) (bpow radix2 1024)
  then SF2R radix2 z = (if s then - rne v else rne v)%R /\ is_finite_SF z = true /\ sign_SF z = s
  else z = S754_infinity s.
Proof. exact rn_decimal_correct. Qed.
Check C16_rn_decimal_correct : forall s m e,
  let v := dec_R (Zpos m) e in
  let z := rn_decimal s (Zpos m) e in
  valid_binary 53 1024 z = true /\
  if Rlt_bool (Rabs (rne v)) (bpow radix2 1024)
  then SF2R radix2 z = (if s then - rne v else rne v)%R /\ is_finite_SF z = true /\ sign_SF z = s
  else z = S754_infinity s.
Print Assumptions C16_rn_decimal_correct.
Print Assumptions closed_marker.

(* the value of a radix literal, num_of_Z v, is RNE of the integer v *)
Theorem C16_radix_value_is_rne : forall p, is_rounding_pos (num_of_Z (Zpos p)) (IZR (Zpos p)).
Proof. exact num_of_Z_correct. Qed.
Check C16_radix_value_is_rne : forall p, is_rounding_pos (num_of_Z (Zpos p)) (IZR (Zpos p)).
Print Assumptions C16_radix_value_is_rne.
Print Assumptions closed_marker.

(* ------------------------------------------------------------------ the hypotheses are satisfiable *)
Example parse_contract_satisfiable : parse_contract ref_str_parse.
Proof. intros ip fp _ _ _. reflexivity. Qed.
Example json_text_contract_example :
  json_text_contract (ref_ryu (nb 0xb7d5c72fb1552d83)) (nb 0xb7d5c72fb1552d83).      (* "-1e-39" *)
Proof.
  exists "1", "", (Some (false, EMinus, "39")). vm_compute.
  repeat split; try reflexivity; try discriminate; try (left; reflexivity); try (right; discriminate).
Qed.
Example parse_contract_signed_satisfiable : parse_contract_signed ref_str_parse.
Proof. intros s ip fp _ _ _. reflexivity. Qed.
Example display_contract_example : display_contract (ref_display (nb 0xbfb999999999999a)) (nb 0xbfb999999999999a).
Proof. exists "0", "1". vm_compute. repeat split; try reflexivity; discriminate. Qed.
Example display_contract_example_big : display_contract (ref_display (nb 0x44b52d02c7e14af6)) (nb 0x44b52d02c7e14af6).
Proof. exists "100000000000000000000000", "". vm_compute. repeat split; try reflexivity; discriminate. Qed.
Example prec0_contract_example : prec0_contract (ref_prec0 (nb 0xc014000000000000)) (nb 0xc014000000000000).
Proof. exists "5". vm_compute. repeat split; try reflexivity; discriminate. Qed.
Example prec0_contract_negzero : prec0_contract (ref_prec0 (nb 0x8000000000000000)) (nb 0x8000000000000000).
Proof. exists "0". vm_compute. repeat split; try reflexivity; discriminate. Qed.
(* with the executable references as the library, the whole path computes to x *)
Example source_path_computes :
  map (fun b => read_source ref_str_parse (print_num ref_prec0 ref_display (nb b)))
      [0xbfb999999999999a; 0xc014000000000000; 0x8000000000000000; 0x430c6bf526340000; 0x7fefffffffffffff; 1]
  = map (fun b => Ok (nb b))
      [0xbfb999999999999a; 0xc014000000000000; 0x8000000000000000; 0x430c6bf526340000; 0x7fefffffffffffff; 1].
Proof. vm_compute. reflexivity. Qed.
Example decimal_literal_value_example :   (* 1_0.2_5e-3 is not in the grammar; 1_0.25E-3 is *)
  literal_value ref_str_parse "1_0.25E-3" = Some (rn_decimal false 1025 (-3 - 2)).
Proof.
  apply (decimal_literal_value ref_str_parse "1" "_0.25E-3" "10" "25" (Some (true, EMinus, "3")));
    try reflexivity; try (left; reflexivity); try (split; [reflexivity | discriminate]); try discriminate.
  left; discriminate.
Qed.
Example emission_path_computes :
  map (fun b => (emit_num ref_prec0 ref_display (nb b),
                 read_source ref_str_parse (emit_num ref_prec0 ref_display (nb b))))
      [0xc014000000000000; 0x8000000000000000; 0xbfb999999999999a; 0x3fe0000000000000]
  = [("(-5)", Ok (nb 0xc014000000000000)); ("(-0)", Ok (nb 0x8000000000000000));
     ("(-0.1)", Ok (nb 0xbfb999999999999a)); ("0.5", Ok (nb 0x3fe0000000000000))].
Proof. vm_compute. reflexivity. Qed.
Example literal_examples :
  map (show_presult ref_str_parse) ["0xFF"; "0b1010"; "1_000_000"; "3.14e-2"; ".5"; "-.5e1"; "1e23"; "0x7fff_ffff_ffff_ffff"]
  = ["406fe00000000000"; "4024000000000000"; "412e848000000000"; "3fa013a92a305532";
     "3fe0000000000000"; "c014000000000000"; "44b52d02c7e14af6"; "43e0000000000000"].
Proof. vm_compute. reflexivity. Qed.
Example literal_examples_fixed :
  map (show_presult_rf true ref_str_parse)
      ["0xFF"; "0xFFFFFFFFFFFFFFFF"; "0x20000000000001"; "0x20000000000003"; "-0x1_0000_0000_0000_0000";
       "0x100000000000008000000000000000000000000000000000001"; "0x1000000000000080000000000000000000000000000000000";
       "0x"; "0b102"]
  = ["406fe00000000000"; "43f0000000000000"; "4340000000000000"; "4340000000000002"; "c3f0000000000000";
     "4c70000000000001"; "4bf0000000000000"; "REJECT"; "REJECT"].
Proof. vm_compute. reflexivity. Qed.
