(* C12 — Equality and ordering are coherent.
   The property theorems: each is pinned by [Check] and followed by [Print Assumptions]; nearly all are closed
   by [exact lemma], the examples that show the hypotheses satisfiable by computation.  The model objects are Value.equals / Value.compare and the
   dot operators / unchecked built-ins defined from them in Value.v, all transcribed from
   blots-core/src/values.rs and expressions.rs and tied to the code by the C12 correspondence
   stream (checks/c12.py). *)
From Coq Require Import String List ZArith Bool Permutation.
Require Import Blots.Num Blots.gen.Builtins Blots.Ast Blots.Value Blots.proofs.ValueInd Blots.proofs.Order.
Import ListNotations.

(* .== is an equivalence on data values (NaN-free numbers, strings, booleans, null, lists,
   records with unique keys) *)
Theorem C12_equals_refl : forall v, data v = true -> equals v v = true.
Proof. exact equals_refl. Qed.
Check C12_equals_refl : forall v, data v = true -> equals v v = true.
Print Assumptions C12_equals_refl.

Theorem C12_equals_sym : forall a b, data a = true -> data b = true -> equals a b = equals b a.
Proof. exact equals_sym. Qed.
Check C12_equals_sym : forall a b, data a = true -> data b = true -> equals a b = equals b a.
Print Assumptions C12_equals_sym.

Theorem C12_equals_trans : forall a b c,
  data a = true -> data b = true -> data c = true ->
  equals a b = true -> equals b c = true -> equals a c = true.
Proof. exact equals_trans. Qed.
Check C12_equals_trans : forall a b c,
  data a = true -> data b = true -> data c = true ->
  equals a b = true -> equals b c = true -> equals a c = true.
Print Assumptions C12_equals_trans.

(* ... that ignores record key order *)
Theorem C12_equals_record_perm : forall r1 r2,
  data (VRec r1) = true -> Permutation r1 r2 -> equals (VRec r1) (VRec r2) = true.
Proof. exact equals_record_perm. Qed.
Check C12_equals_record_perm : forall r1 r2,
  data (VRec r1) = true -> Permutation r1 r2 -> equals (VRec r1) (VRec r2) = true.
Print Assumptions C12_equals_record_perm.

(* .!= is its negation *)
Theorem C12_neq_is_negation : forall a b, dot_ne a b = negb (dot_eq a b).
Proof. exact neq_is_negb. Qed.
Check C12_neq_is_negation : forall a b, dot_ne a b = negb (dot_eq a b).
Print Assumptions C12_neq_is_negation.

(* on mutually comparable values exactly one of .< .== .> holds *)
Theorem C12_trichotomy : forall a b o,
  compare a b = Some o ->
  match o with
  | Lt => dot_lt a b = Some true /\ dot_eq a b = false /\ dot_gt a b = Some false
  | Eq => dot_lt a b = Some false /\ dot_eq a b = true /\ dot_gt a b = Some false
  | Gt => dot_lt a b = Some false /\ dot_eq a b = false /\ dot_gt a b = Some true
  end.
Proof. exact trichotomy. Qed.
Check C12_trichotomy : forall a b o,
  compare a b = Some o ->
  match o with
  | Lt => dot_lt a b = Some true /\ dot_eq a b = false /\ dot_gt a b = Some false
  | Eq => dot_lt a b = Some false /\ dot_eq a b = true /\ dot_gt a b = Some false
  | Gt => dot_lt a b = Some false /\ dot_eq a b = false /\ dot_gt a b = Some true
  end.
Print Assumptions C12_trichotomy.

(* .<= and .>= are the corresponding unions *)
Theorem C12_le_is_union : forall a b o,
  compare a b = Some o ->
  dot_le a b = Some (match dot_lt a b with Some true => true | _ => dot_eq a b end).
Proof. exact le_is_lt_or_eq. Qed.
Check C12_le_is_union : forall a b o,
  compare a b = Some o ->
  dot_le a b = Some (match dot_lt a b with Some true => true | _ => dot_eq a b end).
Print Assumptions C12_le_is_union.

Theorem C12_ge_is_union : forall a b o,
  compare a b = Some o ->
  dot_ge a b = Some (match dot_gt a b with Some true => true | _ => dot_eq a b end).
Proof. exact ge_is_gt_or_eq. Qed.
Check C12_ge_is_union : forall a b o,
  compare a b = Some o ->
  dot_ge a b = Some (match dot_gt a b with Some true => true | _ => dot_eq a b end).
Print Assumptions C12_ge_is_union.

(* the order is antisymmetric and transitive (Lt/Eq compositions proved together) *)
Theorem C12_compare_antisym : forall a b, compare b a = option_map CompOpp (compare a b).
Proof. exact compare_antisym. Qed.
Check C12_compare_antisym : forall a b, compare b a = option_map CompOpp (compare a b).
Print Assumptions C12_compare_antisym.

Theorem C12_compare_trans : forall a b c o1 o2,
  compare a b = Some o1 -> compare b c = Some o2 -> o1 <> Gt -> o2 <> Gt ->
  compare a c = Some (comb o1 o2).
Proof. exact compare_trans. Qed.
Check C12_compare_trans : forall a b c o1 o2,
  compare a b = Some o1 -> compare b c = Some o2 -> o1 <> Gt -> o2 <> Gt ->
  compare a c = Some (comb o1 o2).
Print Assumptions C12_compare_trans.

(* lists and strings compare lexicographically with a proper prefix first *)
Theorem C12_list_prefix_first : forall l x r,
  Forall self_comparable l -> compare (VList l) (VList (l ++ x :: r)) = Some Lt.
Proof. exact prefix_first. Qed.
Check C12_list_prefix_first : forall l x r,
  Forall self_comparable l -> compare (VList l) (VList (l ++ x :: r)) = Some Lt.
Print Assumptions C12_list_prefix_first.

Theorem C12_list_lexicographic : forall p q x y l m,
  Forall2 (fun a b => compare a b = Some Eq) p q -> compare x y = Some Lt ->
  compare (VList (p ++ x :: l)) (VList (q ++ y :: m)) = Some Lt.
Proof. exact list_lex_first_difference. Qed.
Check C12_list_lexicographic : forall p q x y l m,
  Forall2 (fun a b => compare a b = Some Eq) p q -> compare x y = Some Lt ->
  compare (VList (p ++ x :: l)) (VList (q ++ y :: m)) = Some Lt.
Print Assumptions C12_list_lexicographic.

Theorem C12_string_prefix_first : forall s c r,
  compare (VStr s) (VStr (s ++ String c r)) = Some Lt.
Proof. exact string_prefix_first. Qed.
Check C12_string_prefix_first : forall s c r,
  compare (VStr s) (VStr (s ++ String c r)) = Some Lt.
Print Assumptions C12_string_prefix_first.

(* values of different types are never equal and make the ordering operators fail;
   null, records and functions are unordered *)
Theorem C12_cross_type : forall a b,
  type_of a <> type_of b -> equals a b = false /\ compare a b = None.
Proof. exact cross_type. Qed.
Check C12_cross_type : forall a b,
  type_of a <> type_of b -> equals a b = false /\ compare a b = None.
Print Assumptions C12_cross_type.

Theorem C12_unordered_types : forall a b,
  match type_of a with TNull | TRec | TLam | TBuiltin | TSpread => True | _ => False end ->
  compare a b = None /\ compare b a = None.
Proof. exact unordered_types. Qed.
Check C12_unordered_types : forall a b,
  match type_of a with TNull | TRec | TLam | TBuiltin | TSpread => True | _ => False end ->
  compare a b = None /\ compare b a = None.
Print Assumptions C12_unordered_types.

Theorem C12_ordering_fails_iff_incomparable : forall a b,
  (dot_lt a b = None <-> compare a b = None) /\ (dot_le a b = None <-> compare a b = None) /\
  (dot_gt a b = None <-> compare a b = None) /\ (dot_ge a b = None <-> compare a b = None).
Proof. exact ordering_fails_iff_incomparable. Qed.
Check C12_ordering_fails_iff_incomparable : forall a b,
  (dot_lt a b = None <-> compare a b = None) /\ (dot_le a b = None <-> compare a b = None) /\
  (dot_gt a b = None <-> compare a b = None) /\ (dot_ge a b = None <-> compare a b = None).
Print Assumptions C12_ordering_fails_iff_incomparable.

(* ugt/ult/ugte/ulte agree with the operators whenever those succeed, false otherwise *)
Theorem C12_unchecked_agree : forall a b,
  ugt a b = match dot_gt a b with Some r => r | None => false end /\
  ult a b = match dot_lt a b with Some r => r | None => false end /\
  ugte a b = match dot_ge a b with Some r => r | None => false end /\
  ulte a b = match dot_le a b with Some r => r | None => false end.
Proof. exact unchecked_agree. Qed.
Check C12_unchecked_agree : forall a b,
  ugt a b = match dot_gt a b with Some r => r | None => false end /\
  ult a b = match dot_lt a b with Some r => r | None => false end /\
  ugte a b = match dot_ge a b with Some r => r | None => false end /\
  ulte a b = match dot_le a b with Some r => r | None => false end.
Print Assumptions C12_unchecked_agree.

(* ---- non-vacuity: concrete non-trivial objects satisfy the hypotheses ---- *)
Open Scope string_scope.
Definition one := nb 0x3ff0000000000000.
Definition two := nb 0x4000000000000000.
Example ex_perm_records :
  let r1 := [("a", VNum one); ("b", VList [VStr "x"; VNull])] in
  let r2 := [("b", VList [VStr "x"; VNull]); ("a", VNum one)] in
  data (VRec r1) = true /\ Permutation r1 r2 /\ equals (VRec r1) (VRec r2) = true.
Proof. intros r1 r2. split; [vm_compute; reflexivity|]. split; [apply perm_swap|vm_compute; reflexivity]. Qed.
Example ex_prefix : compare (VList [VNum one; VNum two]) (VList [VNum one; VNum two; VNum nzero]) = Some Lt.
Proof. vm_compute. reflexivity. Qed.
Example ex_zero_eq : equals (VNum nnzero) (VNum nzero) = true /\ data (VNum nnzero) = true.
Proof. vm_compute. split; reflexivity. Qed.
Example ex_comparable : exists o, compare (VList [VStr "ab"; VBool false]) (VList [VStr "ab"; VBool true]) = Some o.
Proof. eexists. vm_compute. reflexivity. Qed.
